(** C22 — the configuration, blocks and transactions of the concrete histories
    of Properties.v (non-vacuity of the history model): a moving header turns
    the verdict on the same transaction both ways, the expiry sweep removes
    what the new header no longer allows, a fork gate (ForkTxGroupPara) starts
    to refuse a group that mixes a parachain transaction with a main-chain
    one, and delayed transactions enter through the pipeline when their time
    has come. *)
From Coq Require Import List ZArith NArith Bool.
From C33 Require Import C22.Model C22.ProofsRefute C22.ModelH.
Import ListNotations.
Open Scope Z_scope.

(** replies and pool ids after every message *)
Fixpoint hobs (sc : scfg) (st : state) (ops : list op) : list (N * list N) :=
  match ops with
  | [] => []
  | o :: tl => match hstep sc st o with
               | (r, st', _) => (r, map t_id (st_pool st')) :: hobs sc st' tl
               end
  end.

(** main chain; ForkTxGroupPara at height 120, every other fork active from the start *)
Definition xsc : scfg :=
  mkS true false 0 0 0 120 true 100000 1000000000 false 10000000 10000 8 8 true [].
Definition xh (height : Z) : hdr := mkH height 1699999980 1700000000.
Definition xblock (height : Z) : blk := mkB height 1699999990 1700000001 [] [].

Definition xtx (id : N) (expire : Z) : sub :=
  mkSub (mkT id 0 true true true false false expire false 100000 130 true false 7 true (100 + id)) Plain false.

(** Expire = TxHeightFlag + 312: may be packed at heights 112 .. 912 *)
Definition x_window : sub := xtx 1 (TxHeightFlag + 312).
(** Expire = height 113 *)
Definition x_height : sub := xtx 2 113.

(** a group of a parachain transaction (title 2) and a main-chain one *)
Definition x_mixed (id : N) : sub :=
  let h := mkTx id 0 true true true 0 false 0 false 200000 140 true false 3 true (100 + id) 2 None in
  let m := mkTx (id + 1) 1 true true true 0 false 0 false 0 140 true false 4 true (101 + id) 0 None in
  mkSub (wg (mkTx id 0 true true true 0 false 0 false 200000 420 true false 3 true (100 + id) 2 None) [0; 0])
        (Group [h; m] true) false.
(** two parachain titles *)
Definition x_two_titles : sub :=
  let h := mkTx 7 0 true true true 0 false 0 false 200000 140 true false 3 true 107 2 None in
  let m := mkTx 8 1 true true true 0 false 0 false 0 140 true false 4 true 108 3 None in
  mkSub (wg h [0; 0]) (Group [h; m] true) false.
(** one title, the other execer has the prefix but no title *)
Definition x_title_notitle : sub :=
  let h := mkTx 9 0 true true true 0 false 0 false 200000 140 true false 3 true 109 2 None in
  let m := mkTx 10 1 true true true 0 false 0 false 0 140 true false 4 true 110 1 None in
  mkSub (wg h [0; 0]) (Group [h; m] true) false.

Definition x_blocked_to : sub :=
  mkSub (mkT 20 0 true true true true false 0 false 100000 130 true false 7 true 120) Plain false.

