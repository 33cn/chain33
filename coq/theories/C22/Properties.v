(** C22 — property theorems only.
    [pipeline c p m] is the model of one EventTx message against pool [p]
    (Model.v); [acceptable c p s] is the conjunction of the property text
    (Spec.v).  Guards (Proofs.v): [g_fwd] not forwarded to the main chain,
    [g_fee] minimum rate non-zero or tiered fee on or Fee >= 0, [g_hdr] no member
    Header parses as an empty group.  [cfg_ok]: MinTxFeeRate >= 0 and
    MaxTxFeeRate >= 0.  [facts_consistent] (Model.v): the facts given for a
    group's wrapper and first member respect what Hash() and the Signature
    message determine (equal hash: equal Nonce and Fee; equal Signature: equal
    sender and sign type); the check evaluates it on every generated case.
    That the wrapper of a group is its first transaction needs no guard: the
    mempool (isGroupHead) enforces it.
    [acceptable] includes: no involved account listed at any of the five
    blacklist positions ([listed]: sender, recipient, real recipient, evm contract
    address, evm 20-byte Para), and the carried transactions belong to one chain
    ([cl_para]: ForkTxGroupPara).  Histories (ModelH.v): [hrun sc st ops] runs
    EventTx / EventAddDelayTx / EventAddBlock messages; [view sc h] is the
    configuration the admission checks see at header [h] (height, block time,
    clock and the fork gates re-evaluated); the second component of [hrun] lists
    every admission (view, pool before, submission). *)
From Coq Require Import List ZArith NArith Bool.
From C33 Require Import C22.Model C22.Spec C22.Proofs C22.ProofsRefute C22.ModelH C22.ProofsH2
                        C22.ExamplesH C22.Bridge31.
From C33 Require C31.Model.
Import ListNotations.
Open Scope Z_scope.

Theorem C22_accepted_implies_acceptable_partial : forall c p s p',
  cfg_ok c -> facts_consistent s = true -> pipeline c p (STx s) = (R_OK, p') ->
  g_fwd s && g_fee c s && g_hdr s = true ->
  acceptable c p s = true.
Proof. exact accepted_partial. Qed.
Print Assumptions C22_accepted_implies_acceptable_partial.

Theorem C22_group_members_checked : forall c p s ms ok p',
  pipeline c p (STx s) = (R_OK, p') -> s_forward s = false -> s_shape s = Group ms ok ->
  ok = true /\ 2 <= Z.of_nat (length ms) /\ cl_para c ms = true /\
  forall t, In t ms ->
    t_sig_ok t = true /\ t_to_valid t = true /\ t_blocked t = false /\ t_on_chain t = false
    /\ (c_strict_chain c = true -> t_chain_ok t = true)
    /\ count_sender p (t_sender t) < c_persender c
    /\ (t_hdr_empty t = false -> expired_next c t = false).
Proof.
  intros c p s ms ok p' H Hf Hsh. apply pipeline_ok_inv in H as (_ & _ & Ht & Hs & Hr).
  destruct (check_txs_ok _ _ _ Hf Ht) as (Hg & _ & Hm & _).
  apply check_remote_ok in Hr as (Hch & _).
  unfold check_tx in Hg. unfold members, is_group in Hm, Hch. rewrite Hsh in Hg, Hm, Hch.
  apply check_group_ok in Hg as (-> & Hlen & Hone & Hpara & _).
  split; [reflexivity|]. split; [exact Hlen|]. split; [exact (check_para_one_chain _ _ Hpara)|].
  intros t Hin. destruct (member_ok _ _ _ _ (Hm t Hin)) as (A & B & C & D).
  repeat split; try assumption.
  - apply (check_sign_ok _ Hs). unfold members. rewrite Hsh. exact Hin.
  - exact (existsb_none _ _ _ Hch t Hin).
  - exact (proj1 (check_one_ok _ _ _ (Hone t Hin))).
  - intro He. rewrite <- is_expire_next. apply (expired_chk_not _ _ _ D). rewrite He. reflexivity.
Qed.
Print Assumptions C22_group_members_checked.

Theorem C22_rejected_leaves_pool_unchanged : forall c p m r p',
  pipeline c p m = (r, p') -> r <> R_OK -> p' = p.
Proof.
  intros c p m r p' H Hr. destruct (pipeline_cases _ _ _ _ _ H) as [[_ E]|[E _]]; [exact E|contradiction].
Qed.
Print Assumptions C22_rejected_leaves_pool_unchanged.

Theorem C22_accepted_appends_one : forall c p m p',
  pipeline c p m = (R_OK, p') ->
  exists s, m = STx s /\ p' = p ++ [s_outer s] /\ c_synced c = true
            /\ count_sender p (t_sender (s_outer s)) < c_persender c /\ pool_size p < c_cap c.
Proof.
  intros c p m p' H. destruct (pipeline_cases _ _ _ _ _ H) as [[Hn _]|(_ & s & -> & Hp & Hsy & _ & _ & Hr)]; [contradiction|].
  exists s. apply check_remote_ok in Hr as (_ & _ & Hlim & _ & Hcap). repeat split; assumption.
Qed.
Print Assumptions C22_accepted_appends_one.

(** finding 2 (fixed in chain33 1d587b5): the wrapper of an accepted group is its first transaction (same hash,
    same Signature message), hence the pool entry [same_entry] of the property ... *)
Theorem C22_group_wrapper_is_head : forall c p s ms ok p',
  pipeline c p (STx s) = (R_OK, p') -> s_forward s = false -> s_shape s = Group ms ok ->
  exists h tl, ms = h :: tl /\ t_id (s_outer s) = t_id h /\ t_sigid (s_outer s) = t_sigid h
               /\ (facts_consistent s = true -> same_entry (s_outer s) h = true).
Proof.
  intros c p s ms ok p' H Hf Hsh. apply pipeline_ok_inv in H as (_ & _ & Ht & _).
  destruct (check_txs_ok _ _ _ Hf Ht) as (_ & _ & _ & Hd). destruct (Hd _ _ Hsh) as (h & tl & -> & Hh).
  exists h, tl. split; [reflexivity|].
  pose proof Hh as Hh'. unfold is_group_head in Hh'. apply andb_true_iff in Hh' as [Hi Hs].
  apply N.eqb_eq in Hi. apply N.eqb_eq in Hs. repeat split; try assumption.
  intro Hc. exact (head_entry _ _ (fc_head _ _ _ _ Hc Hsh) Hh).
Qed.
Print Assumptions C22_group_wrapper_is_head.

(** ... and any other wrapper is refused without touching the pool *)
Theorem C22_foreign_wrapper_rejected : forall c p s h tl ok,
  c_synced c = true -> s_forward s = false -> s_shape s = Group (h :: tl) ok ->
  is_group_head (s_outer s) h = false ->
  exists r, pipeline c p (STx s) = (r, p) /\ r <> R_OK.
Proof.
  intros c p s h tl ok Hsy Hf Hsh Hh. destruct (pipeline c p (STx s)) as [r p'] eqn:E.
  destruct (pipeline_cases _ _ _ _ _ E) as [[Hn ->]|(_ & s' & [= <-] & _ & _ & Ht & _)].
  - exists r. split; [reflexivity|exact Hn].
  - destruct (check_txs_ok _ _ _ Hf Ht) as (_ & _ & _ & Hd).
    destruct (Hd _ _ Hsh) as (h' & tl' & [= <- _] & Hh'). congruence.
Qed.
Print Assumptions C22_foreign_wrapper_rejected.

(** the witness of finding 2 (wrapper with another account's public key, per-sender limit 1):
    refused, the other account's own transaction is accepted, the honest wrapper is accepted *)
Theorem C22_wrapper_witness_rejected :
  let c := wcfg false 100000 1 in
  pipeline c [] (STx w_wrap) = (R_MALFORMED, [])
  /\ pipeline c [] (STx (mkSub (wtx 5 1 100000) Plain false)) = (R_OK, [wtx 5 1 100000])
  /\ pipeline c [] (STx w_wrap_honest) = (R_OK, [s_outer w_wrap_honest])
  /\ facts_consistent w_wrap = true /\ facts_consistent w_wrap_honest = true
  /\ acceptable c [] w_wrap = false /\ acceptable c [] w_wrap_honest = true.
Proof. repeat split; reflexivity. Qed.
Print Assumptions C22_wrapper_witness_rejected.

(** the statement at full strength ([C22_accepted_implies_acceptable_full], ProofsRefute.v:
    no guard), and why each guard is there *)
Theorem C22_accepted_implies_acceptable_refuted : ~ C22_accepted_implies_acceptable_full.
Proof.
  intro H. apply (refute_by (fun _ _ => true) (wcfg true 100000 3) [] w_fwd [s_outer w_fwd]);
    [apply wcfg_ok; discriminate|reflexivity..|].
  intros c p s p' Hc Hfc Hp _. exact (H c p s p' Hc Hfc Hp).
Qed.
Print Assumptions C22_accepted_implies_acceptable_refuted.

Theorem C22_refuted_forward :
  ~ (forall c p s p', cfg_ok c -> facts_consistent s = true -> pipeline c p (STx s) = (R_OK, p') ->
       g_fee c s && g_hdr s = true -> acceptable c p s = true).
Proof.
  apply (refute_by (fun c s => g_fee c s && g_hdr s) (wcfg true 100000 3) [] w_fwd [s_outer w_fwd]);
    [apply wcfg_ok; discriminate|reflexivity..].
Qed.
Print Assumptions C22_refuted_forward.

Theorem C22_refuted_negfee :
  ~ (forall c p s p', cfg_ok c -> facts_consistent s = true -> pipeline c p (STx s) = (R_OK, p') ->
       g_fwd s && g_hdr s = true -> acceptable c p s = true).
Proof.
  apply (refute_by (fun c s => g_fwd s && g_hdr s) (wcfg false 0 3) [] w_neg [s_outer w_neg]);
    [apply wcfg_ok; discriminate|reflexivity..].
Qed.
Print Assumptions C22_refuted_negfee.

Theorem C22_refuted_hdrempty :
  ~ (forall c p s p', cfg_ok c -> facts_consistent s = true -> pipeline c p (STx s) = (R_OK, p') ->
       g_fwd s && g_fee c s = true -> acceptable c p s = true).
Proof.
  apply (refute_by (fun c s => g_fwd s && g_fee c s) (wcfg false 100000 3) [] w_hdr [s_outer w_hdr]);
    [apply wcfg_ok; discriminate|reflexivity..].
Qed.
Print Assumptions C22_refuted_hdrempty.

Theorem C22_guards_satisfiable :
  exists c p s p', cfg_ok c /\ facts_consistent s = true /\ p <> [] /\ pipeline c p (STx s) = (R_OK, p')
                   /\ g_fwd s && g_fee c s && g_hdr s = true
                   /\ acceptable c p s = true /\ length (members s) = 3%nat.
Proof.
  exists (wcfg false 100000 3), [wtx 1 0 100000], ex_group, [wtx 1 0 100000; s_outer ex_group].
  split; [apply wcfg_ok; discriminate|]. split; [reflexivity|]. split; [discriminate|]. repeat split; reflexivity.
Qed.
Print Assumptions C22_guards_satisfiable.

(** ** blacklist positions: [blocked_pos] on the facts of a transaction is C31's [core] on the
    transaction itself ([bl_agrees]: each fact is the address-level test of C31's model), and such
    facts satisfy the consistency the main theorem assumes *)
Theorem C22_blacklist_positions_are_C31_core : forall cks set t u,
  bl_agrees cks set t u -> blocked_pos t = C31.Model.core cks set u /\ tx_consistent t = true.
Proof. intros cks set t u H. split; [exact (blocked_pos_is_core cks set t u H)|exact (agrees_consistent cks set t u H)]. Qed.
Print Assumptions C22_blacklist_positions_are_C31_core.

(** ** histories in which the header moves and transactions are delayed *)

(** every pool entry of a history from the empty mempool went through the admission pipeline at
    some header [h] (fork gates, height and times of that moment), as an EventTx message or as a
    delayed transaction (EventAddDelayTx / a block's CommitDelayTx) re-submitted by a block; under
    the guards it was acceptable there *)
Theorem C22_history_entries_via_pipeline_partial : forall sc h0 ops st' lg,
  hrun sc (mkSt h0 [] []) ops = (st', lg) ->
  forall e, In e (st_pool st') ->
  exists h p s, e = s_outer s /\ In s (subs_of ops)
    /\ pipeline (view sc h) p (STx s) = (R_OK, p ++ [e])
    /\ (cfg_ok (view sc h) -> facts_consistent s = true ->
        g_fwd s && g_fee (view sc h) s && g_hdr s = true -> acceptable (view sc h) p s = true).
Proof.
  intros sc h0 ops st' lg H e He.
  destruct (proj1 (history_via _ _ _ _ _ H) e He) as (h & p & s & Hs & -> & P).
  exists h, p, s. split; [reflexivity|]. split; [exact Hs|]. split; [exact P|].
  intros Hc Hfc Hg. exact (accepted_partial _ _ _ _ Hc Hfc P Hg).
Qed.
Print Assumptions C22_history_entries_via_pipeline_partial.

(** no pool entry is expired for the next block of the CURRENT header, whatever blocks arrived in
    between (the sweep of EventAddBlock and the pipeline use the same rule at the same header);
    guard [good] = not forwarded, no member Header parsing as an empty group, consistent facts *)
Theorem C22_history_pool_unexpired_partial : forall sc h0 ops st' lg,
  hrun sc (mkSt h0 [] []) ops = (st', lg) ->
  forallb good (subs_of ops) = true ->
  forall e, In e (st_pool st') -> sweep_expired (view sc (st_hdr st')) e = false.
Proof.
  intros sc h0 ops st' lg H Hg. rewrite forallb_forall in Hg. exact (history_unexpired _ _ _ _ _ H Hg).
Qed.
Print Assumptions C22_history_pool_unexpired_partial.

(** without the guard (facts still consistent) it fails: finding 4 leaves an expired group in the pool *)
Theorem C22_history_pool_unexpired_refuted : ~ history_unexpired_full.
Proof.
  intro H.
  specialize (H (wsc false 100000 3) wh0 [OTx (STx w_hdr)] (mkSt wh0 [s_outer w_hdr] []) _ eq_refl eq_refl
                (s_outer w_hdr) (or_introl eq_refl)).
  vm_compute in H. discriminate.
Qed.
Print Assumptions C22_history_pool_unexpired_refuted.

(** the delay cache never holds a transaction that hits the blacklist, and holds only delayed
    transactions the history carried *)
Theorem C22_delay_cache_never_blocked : forall sc h0 ops st' lg,
  hrun sc (mkSt h0 [] []) ops = (st', lg) ->
  forall d, In d (st_dc st') -> t_blocked (s_outer (fst d)) = false /\ In (fst d) (subs_of ops).
Proof.
  intros sc h0 ops st' lg H d Hd. destruct (proj2 (history_via _ _ _ _ _ H) d Hd) as [Hs Hb].
  split; [|exact Hs]. unfold t_blocked. rewrite Hb. reflexivity.
Qed.
Print Assumptions C22_delay_cache_never_blocked.

(** non-vacuity: the verdict on one transaction changes both ways when the header moves ... *)
Theorem C22_header_moves_verdicts :
  hobs xsc (mkSt (xh 110) [] []) [OTx (STx x_window); OBlock (xblock 111); OTx (STx x_window)]
    = [(R_EXPIRED, []); (0%N, []); (R_OK, [1%N])]
  /\ hobs xsc (mkSt (xh 111) [] []) [OTx (STx x_height); OBlock (xblock 100); OBlock (xblock 112); OTx (STx x_height)]
    = [(R_OK, [2%N]); (0%N, [2%N]); (0%N, []); (R_EXPIRED, [])]
  /\ acceptable (view xsc (xh 110)) [] x_window = false /\ acceptable (view xsc (xh 111)) [] x_window = true
  /\ acceptable (view xsc (xh 111)) [] x_height = true /\ acceptable (view xsc (xh 112)) [] x_height = false.
Proof. repeat split; vm_compute; reflexivity. Qed.
Print Assumptions C22_header_moves_verdicts.

(** ... a fork gate (ForkTxGroupPara at 120) starts to refuse mixed groups; a title next to an
    execer with the bare "user.p." prefix passes ... *)
Theorem C22_fork_gate_moves_verdict :
  hobs xsc (mkSt (xh 118) [] []) [OTx (STx (x_mixed 3)); OBlock (xblock 119); OTx (STx (x_mixed 5));
                                  OTx (STx x_two_titles); OTx (STx x_title_notitle)]
    = [(R_OK, [3%N]); (0%N, [3%N]); (R_PARAMIX, [3%N]); (R_PARACOUNT, [3%N]); (R_OK, [3%N; 9%N])]
  /\ facts_consistent (x_mixed 3) = true
  /\ acceptable (view xsc (xh 118)) [] (x_mixed 3) = true /\ acceptable (view xsc (xh 119)) [] (x_mixed 5) = false
  /\ acceptable (view xsc (xh 119)) [] x_two_titles = false
  /\ acceptable (view xsc (xh 119)) [] x_title_notitle = true.
Proof. repeat split; vm_compute; reflexivity. Qed.
Print Assumptions C22_fork_gate_moves_verdict.

(** ... and delayed transactions enter when due, through the pipeline: block times 1699999981 .. are
    released in order of their time, then the entry keyed by the block height; a blacklisted recipient
    is refused at the door; a delayed transaction that has expired by then is refused by the pipeline;
    the cache holds 4 (half of 8) *)
Theorem C22_delayed_enter_through_pipeline :
  hobs xsc (mkSt (xh 111) [] [])
       [ODelay (DTx (xtx 11 0) 1699999985); ODelay (DTx (xtx 12 0) 1699999982); ODelay (DTx (xtx 13 0) 113);
        ODelay (DTx x_blocked_to 1699999983); ODelay (DTx (xtx 11 0) 5); ODelay (DNil 5); ODelay DBad;
        ODelay (DTx x_height 1699999990);
        ODelay (DTx (xtx 14 0) 1699999999);
        OBlock (mkB 112 1699999985 1700000001 [] []);
        OBlock (mkB 113 1699999990 1700000002 [] [(xtx 15 0, 0, 0); (xtx 16 0, 5, 0)]);
        OBlock (mkB 114 1699999995 1700000003 [] [])]
    = [(R_OK, []); (R_OK, []); (R_OK, []); (R_BL_TO, []); (R_DUP, []); (R_DNIL, []); (R_DPARAM, []);
       (R_OK, []); (R_DOVER, []);
       (0%N, [12%N; 11%N]);
       (0%N, [12%N; 11%N; 13%N; 15%N]);
       (0%N, [12%N; 11%N; 13%N; 15%N; 16%N])].
Proof. vm_compute. reflexivity. Qed.
Print Assumptions C22_delayed_enter_through_pipeline.

Theorem C22_history_guard_satisfiable :
  forallb good (subs_of [OTx (STx x_window); OBlock (xblock 111); OTx (STx x_window); OTx (STx (x_mixed 3));
                         ODelay (DTx (xtx 11 0) 1699999985);
                         OBlock (mkB 113 1699999990 1700000002 [] [(xtx 15 0, 0, 0)])]) = true.
Proof. vm_compute. reflexivity. Qed.
Print Assumptions C22_history_guard_satisfiable.
