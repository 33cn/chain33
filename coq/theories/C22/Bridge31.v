(** C22 — the blacklist facts of a transaction are the address-level tests of
    C31's model (types/account_blacklist.go), and [blocked_pos] is C31's
    [core]: the first position that hits. *)
From Coq Require Import List ZArith NArith Bool.
From C33 Require Import Lib.Harness C22.Model.
From C33 Require C31.Model.
Import ListNotations.

Module M31 := C31.Model.

Section Bridge.
  Variable cks : list N -> list N.   (* the 4-byte checksum of base58 addresses, as in C31 *)
  Variable set : list (list N).      (* the parsed blacklist *)

  Definition is_nil_b {A} (l : list A) : bool := match l with [] => true | _ => false end.

  (** the facts of C22's [t_bl], read off a transaction as C31 describes it *)
  Definition bl_agrees (t : txf) (u : M31.txf) : Prop :=
    bl_from t = M31.is_blocked cks set (M31.t_from u)
    /\ bl_to t = M31.is_blocked cks set (M31.t_to u)
    /\ bl_diff t = negb (bytes_eqb (M31.t_realto u) (M31.t_to u))
    /\ bl_realto t = M31.is_blocked cks set (M31.t_realto u)
    /\ bl_evm t = (M31.is_evm u && match M31.t_evm u with Some _ => true | None => false end)
    /\ bl_evmaddr t = match M31.t_evm u with
                      | Some (ca, _) => negb (is_nil_b ca) && M31.is_blocked cks set ca
                      | None => false
                      end
    /\ bl_evmpara t = match M31.t_evm u with
                      | Some (_, para) => M31.is_blocked_raw set para
                      | None => false
                      end.

  Lemma is_blocked_nil : forall s, set = [] -> M31.is_blocked cks set s = false.
  Proof. intros s ->. reflexivity. Qed.

  Lemma is_blocked_raw_nil : forall raw, set = [] -> M31.is_blocked_raw set raw = false.
  Proof. intros raw ->. unfold M31.is_blocked_raw. rewrite andb_false_r. reflexivity. Qed.

  Lemma blocked_pos_is_core : forall t u, bl_agrees t u -> blocked_pos t = M31.core cks set u.
  Proof.
    intros t u (Hf & Ht & Hd & Hr & He & Ha & Hp).
    unfold blocked_pos, M31.core, M31.evm_target. rewrite Hf, Ht, Hd, Hr, He, Ha, Hp.
    destruct (@M31.is_nil M31.bytes set) eqn:N.
    - (* nobody is on an empty list; [core] does not even look *)
      assert (E : set = []) by (destruct set; [reflexivity|discriminate]).
      rewrite !(is_blocked_nil _ E), andb_false_r.
      destruct (M31.is_evm u); [|reflexivity]. destruct (M31.t_evm u) as [[ca para]|]; [|reflexivity].
      rewrite (is_blocked_nil _ E), (is_blocked_raw_nil _ E), andb_false_r. reflexivity.
    - (* the same tests in the same order *)
      destruct (M31.is_evm u); [destruct (M31.t_evm u) as [[ca para]|]|]; reflexivity.
  Qed.

  Lemma agrees_consistent : forall t u, bl_agrees t u -> tx_consistent t = true.
  Proof.
    intros t u (_ & Ht & Hd & Hr & _). unfold tx_consistent. rewrite Hd, Hr, Ht.
    destruct (bytes_eqb (M31.t_realto u) (M31.t_to u)) eqn:E; [|reflexivity]. simpl.
    apply list_eqb_spec in E; [|intros x y; apply N.eqb_eq]. rewrite E. apply eqb_reflx.
  Qed.
End Bridge.
