(** C22 — proofs over histories (EventTx / EventAddDelayTx / EventAddBlock):
    where the entries of the pool and of the delay cache come from after one
    message, and the two invariants of a history built on that: every pool
    entry went through the admission pipeline at the header of its time and
    the delay cache holds no blacklisted transaction; no pool entry is expired
    for the next block, however the header moves (guards: not forwarded, no
    member Header that parses as an empty group).  Then the configuration of
    the history that refutes the second one without the guards. *)
From Coq Require Import List ZArith NArith Bool.
From C33 Require Import Lib.Harness C22.Model C22.Spec C22.Proofs C22.ProofsRefute C22.ModelH.
Import ListNotations.
Open Scope Z_scope.

(** ** the delay cache *)
Lemma dc_add_in : forall cap dc s e r dc', dc_add cap dc s e = (r, dc') ->
  forall d, In d dc' -> In d dc \/ d = (s, e).
Proof.
  intros cap dc s e r dc' H d Hd. unfold dc_add in H.
  destruct (cap <=? Z.of_nat (length dc)); [injection H as _ <-; left; exact Hd|].
  destruct (existsb _ dc); [injection H as _ <-; left; exact Hd|].
  injection H as _ <-. apply in_app_or in Hd as [Hd|[<-|[]]]; [left; exact Hd|right; reflexivity].
Qed.

Lemma delay_blocked_none_outer : forall s, delay_blocked s = None -> blocked_pos (s_outer s) = None.
Proof. intros s H. unfold delay_blocked in H. destruct (blocked_pos (s_outer s)); [discriminate|reflexivity]. Qed.

Lemma delay_step_in : forall sc dc dm r dc', delay_step sc dc dm = (r, dc') ->
  forall d, In d dc' -> In d dc \/ (In (fst d) (subs_of_op (ODelay dm)) /\ blocked_pos (s_outer (fst d)) = None).
Proof.
  intros sc dc dm r dc' H d Hd. unfold delay_step in H. destruct dm as [|e|s e].
  - injection H as _ <-. left; exact Hd.
  - injection H as _ <-. left; exact Hd.
  - destruct (delay_blocked s) as [q|] eqn:B; [injection H as _ <-; left; exact Hd|].
    destruct (dc_add_in _ _ _ _ _ _ H d Hd) as [Hin| ->]; [left; exact Hin|].
    right. split; [left; reflexivity|exact (delay_blocked_none_outer _ B)].
Qed.

Lemma add_commits_in : forall cap b cs dc d, In d (add_commits cap b dc cs) ->
  In d dc \/ (In (fst d) (map (fun x => fst (fst x)) cs) /\ blocked_pos (s_outer (fst d)) = None).
Proof.
  intros cap b cs. induction cs as [|[[s rt] rh] tl IH]; intros dc d Hd; simpl in Hd.
  - left; exact Hd.
  - apply IH in Hd as [Hd|[Hd Hb]].
    + destruct (delay_blocked s) as [q|] eqn:B; [left; exact Hd|].
      destruct (dc_add cap dc s (commit_end b rt rh)) as [r dc'] eqn:A. simpl in Hd.
      destruct (dc_add_in _ _ _ _ _ _ A d Hd) as [Hin| ->]; [left; exact Hin|].
      right. split; [left; reflexivity|exact (delay_blocked_none_outer _ B)].
    + right. split; [right; exact Hd|exact Hb].
Qed.

Lemma ins_end_in : forall x l d, In d (ins_end x l) -> d = x \/ In d l.
Proof.
  intros x l. induction l as [|y tl IH]; intros d Hd; simpl in Hd.
  - destruct Hd as [<-|[]]. left; reflexivity.
  - destruct (snd x <? snd y).
    + destruct Hd as [<-|Hd]; [left; reflexivity|right; exact Hd].
    + destruct Hd as [<-|Hd]; [right; left; reflexivity|].
      apply IH in Hd as [-> |Hd]; [left; reflexivity|right; right; exact Hd].
Qed.

Lemma sort_end_in : forall l d, In d (sort_end l) -> In d l.
Proof.
  intros l d. unfold sort_end.
  assert (G : forall l acc, In d (fold_left (fun a x => ins_end x a) l acc) -> In d acc \/ In d l).
  { clear l. induction l as [|x tl IH]; intros acc Hd; simpl in Hd; [left; exact Hd|].
    apply IH in Hd as [Hd|Hd]; [|right; right; exact Hd].
    apply ins_end_in in Hd as [-> |Hd]; [right; left; reflexivity|left; exact Hd]. }
  intro Hd. apply G in Hd as [[]|Hd]. exact Hd.
Qed.

Lemma released_in : forall lbt cbt h dc s, In s (released lbt cbt h dc) -> In s (map fst dc).
Proof.
  intros lbt cbt h dc s Hs. unfold released in Hs. apply in_map_iff in Hs as (d & <- & Hd).
  apply in_map. apply in_app_or in Hd as [Hd|Hd].
  - apply sort_end_in in Hd. apply filter_In in Hd as [Hd _]. exact Hd.
  - apply filter_In in Hd as [Hd _]. exact Hd.
Qed.

Lemma released_from : forall lbt cbt h cap b dc cs s, In s (released lbt cbt h (add_commits cap b dc cs)) ->
  In s (map (fun x => fst (fst x)) cs ++ map fst dc).
Proof.
  intros lbt cbt h cap b dc cs s Hs. apply released_in, in_map_iff in Hs as (d & <- & Hd).
  apply in_or_app. apply add_commits_in in Hd as [Hd|[Hd _]]; [right; apply in_map|left]; exact Hd.
Qed.

(** ** where pool entries come from *)

(** [e] was let in by the pipeline under configuration [c], submitted as one of [src] *)
Definition accepted_at (c : config) (src : list sub) (e : txf) : Prop :=
  exists p s, In s src /\ e = s_outer s /\ pipeline c p (STx s) = (R_OK, p ++ [e]).

Lemma accepted_incl : forall c src src' e, accepted_at c src e -> incl src src' -> accepted_at c src' e.
Proof. intros c src src' e (p & s & Hs & R) Hi. exists p, s. split; [apply Hi; exact Hs|exact R]. Qed.

Lemma submit_all_pool : forall c l p p' lg, submit_all c p l = (p', lg) ->
  forall e, In e p' -> In e p \/ accepted_at c l e.
Proof.
  intros c l. induction l as [|s tl IH]; intros p p' lg H e He; simpl in H.
  - injection H as <- _. left; exact He.
  - assert (T : forall q, In e q \/ accepted_at c tl e -> (In e q -> In e p \/ accepted_at c (s :: tl) e) ->
                           In e p \/ accepted_at c (s :: tl) e).
    { intros q [Hq|A] K; [exact (K Hq)|]. right. apply (accepted_incl _ _ _ _ A), incl_tl, incl_refl. }
    destruct (s_forward s); [apply (T p (IH _ _ _ H e He)); intro Hp; left; exact Hp|].
    destruct (pipeline c p (STx s)) as [r p1] eqn:P.
    destruct (submit_all c p1 tl) as [p2 lg2] eqn:S. injection H as <- _.
    apply (T p1 (IH _ _ _ S e He)). intro He1.
    destruct (pipeline_cases _ _ _ _ _ P) as [[_ ->]|(-> & s0 & [= <-] & -> & _)]; [left; exact He1|].
    apply in_app_or in He1 as [He1|[<-|[]]]; [left; exact He1|].
    right. exists p, s. split; [left; reflexivity|]. split; [reflexivity|exact P].
Qed.

Lemma hstep_pool : forall sc st o r st' lg, hstep sc st o = (r, st', lg) ->
  forall e, In e (st_pool st') ->
  (In e (st_pool st) /\ (st_hdr st' = st_hdr st \/ sweep_expired (view sc (st_hdr st')) e = false))
  \/ accepted_at (view sc (st_hdr st')) (subs_of_op o ++ map fst (st_dc st)) e.
Proof.
  intros sc st o r st' lg H e He. destruct o as [m|dm|b]; simpl in H.
  - destruct (pipeline (view sc (st_hdr st)) (st_pool st) m) as [r1 p1] eqn:P.
    injection H as _ <- _. simpl in *.
    destruct (pipeline_cases _ _ _ _ _ P) as [[_ ->]|(-> & s & -> & -> & _)]; [left; split; [exact He|left; reflexivity]|].
    apply in_app_or in He as [He|[<-|[]]]; [left; split; [exact He|left; reflexivity]|].
    right. exists (st_pool st), s. split; [left; reflexivity|]. split; [reflexivity|exact P].
  - destruct (delay_step sc (st_dc st) dm) as [r1 dc1]. injection H as _ <- _.
    left. split; [exact He|left; reflexivity].
  - unfold block_step in H. destruct (submit_all _ _ _) as [p2 lg2] eqn:S in H. injection H as _ <- _. simpl in *.
    destruct (submit_all_pool _ _ _ _ _ S e He) as [Hc|A].
    + left. unfold block_clean in Hc. apply filter_In in Hc as [Hc Hs]. apply filter_In in Hc as [Hc _].
      split; [exact Hc|]. right. apply negb_true_iff. exact Hs.
    + right. apply (accepted_incl _ _ _ _ A). intros s Hs. exact (released_from _ _ _ _ _ _ _ _ Hs).
Qed.

Lemma hstep_dc : forall sc st o r st' lg, hstep sc st o = (r, st', lg) ->
  forall d, In d (st_dc st') ->
  In d (st_dc st) \/ (In (fst d) (subs_of_op o) /\ blocked_pos (s_outer (fst d)) = None).
Proof.
  intros sc st o r st' lg H d Hd. destruct o as [m|dm|b]; simpl in H.
  - destruct (pipeline _ _ m) as [r1 p1]. injection H as _ <- _. left; exact Hd.
  - destruct (delay_step sc (st_dc st) dm) as [r1 dc1] eqn:D. injection H as _ <- _.
    exact (delay_step_in _ _ _ _ _ D d Hd).
  - unfold block_step in H. destruct (submit_all _ _ _) as [p2 lg2] in H. injection H as _ <- _.
    apply filter_In in Hd as [Hd _]. exact (add_commits_in _ _ _ _ _ Hd).
Qed.

(** ** whole histories *)

Lemma hrun_invariant : forall sc (I : state -> Prop) ops,
  (forall o st r st' lg, In o ops -> hstep sc st o = (r, st', lg) -> I st -> I st') ->
  forall st st' lg, hrun sc st ops = (st', lg) -> I st -> I st'.
Proof.
  intros sc I ops. induction ops as [|o tl IH]; intros Hstep st st' lg H Hi; simpl in H.
  - injection H as <- _. exact Hi.
  - destruct (hstep sc st o) as [[r st1] lg1] eqn:S.
    destruct (hrun sc st1 tl) as [st2 lg2] eqn:R. injection H as <- _.
    apply (IH (fun o' st r st' lg Hin => Hstep o' st r st' lg (or_intror Hin)) _ _ _ R).
    exact (Hstep _ _ _ _ _ (or_introl eq_refl) S Hi).
Qed.

Lemma subs_of_incl : forall o ops, In o ops -> incl (subs_of_op o) (subs_of ops).
Proof. intros o ops Hin s Hs. apply in_flat_map. exists o. split; assumption. Qed.

Definition via_pipeline (sc : scfg) (src : list sub) (st : state) : Prop :=
  (forall e, In e (st_pool st) -> exists h, accepted_at (view sc h) src e)
  /\ (forall d, In d (st_dc st) -> In (fst d) src /\ blocked_pos (s_outer (fst d)) = None).

Lemma sources_incl : forall sc src st o, incl (subs_of_op o) src -> via_pipeline sc src st ->
  incl (subs_of_op o ++ map fst (st_dc st)) src.
Proof.
  intros sc src st o Ho [_ Id]. apply incl_app; [exact Ho|].
  intros s Hs. apply in_map_iff in Hs as (d & <- & Hd). apply (Id d Hd).
Qed.

Lemma hstep_via : forall sc src st o r st' lg, hstep sc st o = (r, st', lg) ->
  incl (subs_of_op o) src -> via_pipeline sc src st -> via_pipeline sc src st'.
Proof.
  intros sc src st o r st' lg H Ho I. pose proof (sources_incl _ _ _ _ Ho I) as S. destruct I as [Ip Id]. split.
  - intros e He. destruct (hstep_pool _ _ _ _ _ _ H e He) as [[He0 _]|A]; [exact (Ip e He0)|].
    exists (st_hdr st'). exact (accepted_incl _ _ _ _ A S).
  - intros d Hd. destruct (hstep_dc _ _ _ _ _ _ H d Hd) as [Hd0|[Hs Hb]]; [exact (Id d Hd0)|].
    split; [apply Ho; exact Hs|exact Hb].
Qed.

Lemma history_via : forall sc h0 ops st' lg, hrun sc (mkSt h0 [] []) ops = (st', lg) ->
  via_pipeline sc (subs_of ops) st'.
Proof.
  intros sc h0 ops st' lg H. apply (hrun_invariant sc (via_pipeline sc (subs_of ops)) ops) in H.
  - exact H.
  - intros o st r st1 lg1 Hin Hs. exact (hstep_via _ _ _ _ _ _ _ Hs (subs_of_incl _ _ Hin)).
  - split; intros x [].
Qed.

(** ** no pool entry is expired for the next block *)

Definition good (s : sub) : bool := negb (s_forward s) && g_hdr s && facts_consistent s.

Lemma good_inv : forall s, good s = true -> s_forward s = false /\ g_hdr s = true /\ facts_consistent s = true.
Proof.
  intros s H. unfold good in H. apply andb_true_iff in H as [H H3]. apply andb_true_iff in H as [H1 H2].
  apply negb_true_iff in H1. repeat split; assumption.
Qed.

Lemma accepted_unexpired : forall c p s p', good s = true ->
  pipeline c p (STx s) = (R_OK, p') -> sweep_expired c (s_outer s) = false.
Proof.
  intros c p s p' Hg H. apply good_inv in Hg as (Hf & Hh & Hfc).
  apply pipeline_ok_inv in H as (_ & _ & Ht & _).
  destruct (check_txs_ok _ _ _ Hf Ht) as (_ & _ & Hm & _).
  rewrite (fc_sweep _ _ Hfc). destruct (existsb (is_expire c) (members s)) eqn:E; [|reflexivity].
  apply existsb_exists in E as (t & Hin & E).
  destruct (member_ok _ _ _ _ (Hm t Hin)) as (_ & _ & _ & D).
  rewrite (expired_chk_not _ _ _ D (g_hdr_members _ _ Hh Hin)) in E. discriminate.
Qed.

Definition pool_unexpired (sc : scfg) (st : state) : Prop :=
  forall e, In e (st_pool st) -> sweep_expired (view sc (st_hdr st)) e = false.

(** the sweep of EventAddBlock and the pipeline use the same rule at the same header *)
Lemma hstep_unexpired : forall sc src st o r st' lg, hstep sc st o = (r, st', lg) ->
  (forall s, In s src -> good s = true) -> incl (subs_of_op o) src -> via_pipeline sc src st ->
  pool_unexpired sc st -> pool_unexpired sc st'.
Proof.
  intros sc src st o r st' lg H Hg Ho I Hu e He.
  destruct (hstep_pool _ _ _ _ _ _ H e He) as [[He0 [Eh|Sw]]|(p & s & Hs & -> & P)].
  - rewrite Eh. exact (Hu e He0).
  - exact Sw.
  - apply (accepted_unexpired _ _ _ _ (Hg s (sources_incl _ _ _ _ Ho I s Hs)) P).
Qed.

Lemma history_unexpired : forall sc h0 ops st' lg, hrun sc (mkSt h0 [] []) ops = (st', lg) ->
  (forall s, In s (subs_of ops) -> good s = true) -> pool_unexpired sc st'.
Proof.
  intros sc h0 ops st' lg H Hg.
  apply (hrun_invariant sc (fun st => via_pipeline sc (subs_of ops) st /\ pool_unexpired sc st) ops) in H.
  - apply H.
  - intros o st r st1 lg1 Hin Hs [I Hu]. pose proof (subs_of_incl _ _ Hin) as Ho.
    split; [exact (hstep_via _ _ _ _ _ _ _ Hs Ho I)|exact (hstep_unexpired _ _ _ _ _ _ _ Hs Hg Ho I Hu)].
  - split; [split|]; intros x [].
Qed.

(** ** without the guards *)
Definition wsc (para : bool) (minfee persender : Z) : scfg :=
  mkS true para 0 0 0 0 true minfee 1000000000 false 10000000 10000 persender 8 true [(4%N, 0); (5%N, 3)].
Definition wh0 : hdr := mkH 10 1699999980 1700000000.

Lemma wsc_view : forall para m ps, view (wsc para m ps) wh0 = wcfg para m ps.
Proof. reflexivity. Qed.

Definition history_unexpired_full : Prop :=
  forall sc h0 ops st' lg, hrun sc (mkSt h0 [] []) ops = (st', lg) ->
    forallb facts_consistent (subs_of ops) = true ->
    forall e, In e (st_pool st') -> sweep_expired (view sc (st_hdr st')) e = false.
