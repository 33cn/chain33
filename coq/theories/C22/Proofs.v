(** C22 — proofs: every stage of the pipeline can only reject; an accepting run
    establishes every clause of [acceptable] (under the three guards that the
    refutations show to be necessary). *)
From Coq Require Import List ZArith NArith Bool Lia.
From C33 Require Import Lib.Harness C22.Model C22.Spec.
Import ListNotations.
Open Scope Z_scope.

(** ** the shape of the chain: a stage that answers an error ends it, R_OK hands on to the next *)

Lemma pass_ok : forall e k : N, (if negb (N.eqb e R_OK) then e else k) = R_OK -> e = R_OK /\ k = R_OK.
Proof.
  intros e k H. destruct (N.eqb_spec e R_OK) as [E|E]; simpl in H; [split; assumption|contradiction].
Qed.

Lemma first_err_ok : forall A (f : A -> N) l, first_err f l = R_OK -> forall x, In x l -> f x = R_OK.
Proof.
  intros A f l. induction l as [|y l IH]; intros H x Hin.
  - destruct Hin.
  - simpl in H. destruct (N.eqb_spec (f y) R_OK) as [E|E]; [|contradiction].
    destruct Hin as [<-|Hin]; [exact E|apply IH; assumption].
Qed.

Lemma existsb_none : forall A (f : A -> bool) l, existsb f l = false -> forall x, In x l -> f x = false.
Proof.
  intros A f l H x Hin. destruct (f x) eqn:E; [|reflexivity].
  rewrite <- H. symmetry. apply existsb_exists. exists x. split; assumption.
Qed.

(** ** the model's quantities are the oracle's *)

Lemma real_fee_owed : forall t r x, real_fee t r = Some x -> x = owed r t.
Proof.
  intros t r x H. unfold real_fee in H. destruct (MaxTxSize <? _); [discriminate|].
  injection H as <-. reflexivity.
Qed.

Lemma total_fee_owed : forall ts r x, total_fee ts r = Some x -> x = owed_all r ts.
Proof.
  induction ts as [|t ts IH]; intros r x H; simpl in H.
  - injection H as <-. reflexivity.
  - destruct (real_fee t r) as [f|] eqn:F; [|discriminate].
    destruct (total_fee ts r) as [g|] eqn:G; [|discriminate].
    injection H as <-. simpl. rewrite (real_fee_owed _ _ _ F), (IH r g G). reflexivity.
Qed.

Lemma owed_zero : forall ts, owed_all 0 ts = 0.
Proof. induction ts as [|t ts IH]; simpl; [reflexivity|]. unfold owed. rewrite IH. lia. Qed.

Lemma min_if : forall a b, (if b <? a then b else a) = Z.min a b.
Proof. intros a b. destruct (Z.ltb_spec b a); lia. Qed.

Lemma level_rate_tier : forall c p, level_rate c p = tier_rate c p.
Proof.
  intros c p. unfold level_rate, tier_rate, pool_bytes, pool_size, MaxBlockSize.
  change (20000000 / 20) with 1000000. change (20000000 / 100) with 200000. cbv zeta. rewrite min_if.
  destruct (_ || _); [reflexivity|]. destruct (_ || _); [reflexivity|]. rewrite Z.mul_1_l. reflexivity.
Qed.

Lemma tier_rate_zero : forall c p, c_minfee c = 0 -> 0 <= c_maxrate c -> tier_rate c p = 0.
Proof. intros c p Z0 Hmax. unfold tier_rate. cbv zeta. rewrite Z0, Z.mul_0_r. apply Z.min_l. exact Hmax. Qed.

Lemma outside : forall a b h, negb ((a <=? h) && (h <=? b)) = (h <? a) || (b <? h).
Proof. intros a b h. rewrite negb_andb, <- !Z.ltb_antisym. reflexivity. Qed.

Lemma is_expire_next : forall c t, is_expire c t = expired_next c t.
Proof.
  intros c t. unfold is_expire, is_expire_v, expired_next. cbv zeta. rewrite outside. reflexivity.
Qed.

(** ** the guards and the hypothesis on the configuration *)

Definition g_fwd (s : sub) : bool := negb (s_forward s).
Definition g_fee (c : config) (s : sub) : bool :=
  negb (c_minfee c =? 0) || c_level c || (0 <=? t_fee (s_outer s)).
Definition g_hdr (s : sub) : bool :=
  match s_shape s with Group ms _ => forallb (fun t => negb (t_hdr_empty t)) ms | _ => true end.

Definition cfg_ok (c : config) : Prop := 0 <= c_minfee c /\ 0 <= c_maxrate c.

(** a plain transaction is checked like a group of one, except that Transaction.IsExpire looks for
    an empty group in the Header of group members only *)
Definition is_group (s : sub) : bool := match s_shape s with Group _ _ => true | _ => false end.

Lemma g_hdr_members : forall s t, g_hdr s = true -> In t (members s) -> is_group s && t_hdr_empty t = false.
Proof.
  intros s t H Hin. unfold g_hdr, members, is_group in *. destruct (s_shape s); try reflexivity.
  rewrite forallb_forall in H. specialize (H t Hin). apply negb_true_iff in H. rewrite H. reflexivity.
Qed.

(** ** what a passed check says, check by check *)

Lemma check_one_ok : forall c t m, check_one c t m = R_OK ->
  (c_strict_chain c = true -> t_chain_ok t = true) /\ (m <> 0 -> owed m t <= t_fee t).
Proof.
  intros c t m H. unfold check_one in H. split.
  - intro S. rewrite S in H. destruct (t_chain_ok t); [reflexivity|discriminate].
  - intro Hm. destruct (c_strict_chain c && negb (t_chain_ok t)); [discriminate|].
    destruct (Z.eqb_spec m 0); [contradiction|].
    destruct (real_fee t m) as [rf|] eqn:F; [|discriminate]. apply real_fee_owed in F. subst rf.
    destruct (Z.ltb_spec (t_fee t) (owed m t)); [discriminate|assumption].
Qed.

Lemma titles_in : forall ms t, In t ms -> (2 <= t_para t)%N -> In (t_para t) (titles ms).
Proof.
  intros ms t Hin Ht. unfold titles. apply filter_In. split; [apply in_map; exact Hin|].
  apply N.leb_le. exact Ht.
Qed.

Lemma single_title : forall ms a b, multi_title ms = false -> In a (titles ms) -> In b (titles ms) -> a = b.
Proof.
  intros ms a b Hm Ha Hb. unfold multi_title in Hm. destruct (titles ms) as [|x tl]; [destruct Ha|].
  assert (K : forall y, In y (x :: tl) -> y = x).
  { intros y [<-|Hy]; [reflexivity|].
    apply (existsb_none _ _ _ Hm) in Hy. apply negb_false_iff, N.eqb_eq in Hy. symmetry. exact Hy. }
  rewrite (K a Ha), (K b Hb). reflexivity.
Qed.

Lemma check_para_one_chain : forall c ms, check_para c ms = R_OK -> cl_para c ms = true.
Proof.
  intros c ms H. unfold check_para in H. unfold cl_para. destruct (c_parafork c); [|reflexivity].
  destruct (multi_title ms) eqn:Hm; [discriminate|].
  destruct (has_title ms && has_main ms) eqn:Hx; [discriminate|].
  unfold one_chain. apply forallb_forall. intros a Ha. apply forallb_forall. intros b Hb.
  apply andb_true_iff. split.
  - destruct (N.ltb_spec (t_para a) 2) as [|La]; [reflexivity|].
    destruct (N.ltb_spec (t_para b) 2) as [|Lb]; [reflexivity|]. simpl.
    apply N.eqb_eq. apply (single_title ms); [exact Hm|apply titles_in; assumption|apply titles_in; assumption].
  - apply negb_true_iff. destruct (N.leb_spec 2 (t_para a)) as [La|]; [|reflexivity].
    destruct (N.eqb_spec (t_para b) 0) as [Eb|]; [|reflexivity]. exfalso.
    assert (T : has_title ms = true).
    { unfold has_title. pose proof (titles_in ms a Ha La) as Hi. destruct (titles ms); [destruct Hi|reflexivity]. }
    assert (M : has_main ms = true).
    { unfold has_main. apply existsb_exists. exists b. split; [exact Hb|]. apply N.eqb_eq. exact Eb. }
    rewrite T, M in Hx. discriminate.
Qed.

Lemma one_chain_single : forall t, one_chain [t] = true.
Proof.
  intro t. unfold one_chain. simpl. rewrite N.eqb_refl, !andb_true_r, !orb_true_r. simpl.
  apply negb_true_iff. destruct (N.leb_spec 2 (t_para t)) as [L|]; [|reflexivity].
  destruct (N.eqb_spec (t_para t) 0) as [E|]; [|reflexivity]. rewrite E in L. exfalso. apply (N.nle_succ_0 1). exact L.
Qed.

Lemma cl_para_single : forall c t, cl_para c [t] = true.
Proof. intros c t. unfold cl_para. destruct (c_parafork c); [apply one_chain_single|reflexivity]. Qed.

Lemma check_group_ok : forall c ms ok, check_group c ms ok = R_OK ->
  ok = true /\ 2 <= Z.of_nat (length ms) /\ (forall t, In t ms -> check_one c t 0 = R_OK)
  /\ check_para c ms = R_OK
  /\ owed_all (c_minfee c) ms <= match ms with t :: _ => t_fee t | [] => 0 end.
Proof.
  intros c ms ok H. unfold check_group in H.
  destruct (Z.ltb_spec (Z.of_nat (length ms)) 2); [discriminate|]. cbv zeta in H.
  apply pass_ok in H as [E0 H]. apply pass_ok in H as [Ep H].
  destruct (existsb _ (tl ms)); [discriminate|].
  destruct (total_fee ms (c_minfee c)) as [tot|] eqn:T; [|discriminate].
  apply total_fee_owed in T. subst tot.
  destruct (Z.ltb_spec (match ms with t :: _ => t_fee t | [] => 0 end) (owed_all (c_minfee c) ms)); [discriminate|].
  destruct (_ && _ && _); [discriminate|]. destruct ok; [|discriminate].
  repeat split; try assumption. apply first_err_ok. exact E0.
Qed.

Lemma check_level_ok : forall c p s, check_level c p s = R_OK ->
  owed_all (tier_rate c p) (members s) <= t_fee (s_outer s).
Proof.
  intros c p s H. unfold check_level in H. rewrite level_rate_tier in H.
  destruct (total_fee _ _) as [tot|] eqn:T; [|discriminate]. apply total_fee_owed in T. subst tot.
  destruct (Z.ltb_spec (t_fee (s_outer s)) (owed_all (tier_rate c p) (members s))); [discriminate|assumption].
Qed.

Lemma member_ok : forall c p grp t, check_member c p grp t = R_OK ->
  t_to_valid t = true /\ t_blocked t = false /\ count_sender p (t_sender t) < c_persender c
  /\ expired_chk c grp t = false.
Proof.
  intros c p grp t H. unfold check_member in H.
  destruct (t_to_valid t); simpl in H; [|discriminate].
  unfold t_blocked.
  destruct (blocked_pos t) as [q|]; [destruct q; discriminate|].
  destruct (Z.leb_spec (c_persender c) (count_sender p (t_sender t))); [discriminate|].
  destruct (expired_chk c grp t); [discriminate|].
  repeat split; try reflexivity; assumption.
Qed.

Lemma expired_chk_not : forall c grp t, expired_chk c grp t = false ->
  grp && t_hdr_empty t = false -> is_expire c t = false.
Proof.
  intros c grp t H G. unfold expired_chk in H. rewrite G in H. apply orb_false_iff in H as [H _]. exact H.
Qed.

(** [blocked_pos] asks about the real recipient only where it differs from the recipient;
    [tx_consistent] covers the case where it does not *)
Lemma not_blocked_not_listed : forall t, tx_consistent t = true -> t_blocked t = false -> listed t = false.
Proof.
  intros t Hc Hb. unfold t_blocked, blocked_pos in Hb. unfold listed. unfold tx_consistent in Hc.
  destruct (bl_from t); [discriminate|].
  destruct (bl_to t); [discriminate|].
  assert (R : bl_realto t = false).
  { destruct (bl_diff t); simpl in *; [destruct (bl_realto t); [discriminate|reflexivity]|].
    apply eqb_prop in Hc. exact Hc. }
  rewrite R, andb_false_r in *. simpl.
  destruct (bl_evm t); [|reflexivity]. destruct (bl_evmaddr t); [discriminate|].
  destruct (bl_evmpara t); [discriminate|reflexivity].
Qed.

Lemma check_txs_ok : forall c p s, s_forward s = false -> check_txs c p s = R_OK ->
  check_tx c s = R_OK /\ (c_level c = true -> check_level c p s = R_OK)
  /\ (forall t, In t (members s) -> check_member c p (is_group s) t = R_OK)
  /\ (forall ms ok, s_shape s = Group ms ok ->
        exists h tl, ms = h :: tl /\ is_group_head (s_outer s) h = true).
Proof.
  intros c p s Hf H. unfold check_txs in H. rewrite Hf in H. cbv zeta in H.
  apply pass_ok in H as [E1 H]. apply pass_ok in H as [E2 H].
  split; [exact E1|]. split; [intro L; rewrite L in E2; exact E2|].
  unfold members, is_group. destruct (s_shape s) as [| |[|h tl] ok]; try discriminate.
  1,2: split; [intros t [<-|[]]; exact H|discriminate].
  destruct (is_group_head (s_outer s) h) eqn:Eh; [|discriminate].
  split; [apply first_err_ok; exact H|].
  intros ms ok' [= <- _]. exists h, tl. split; [reflexivity|exact Eh].
Qed.

Lemma check_sign_ok : forall s, check_sign s = R_OK -> forall t, In t (members s) -> t_sig_ok t = true.
Proof.
  intros s H. unfold check_sign in H. unfold members. destruct (s_shape s) as [| |ms ok]; [|discriminate|].
  - intros t [<-|[]]. destruct (t_sig_ok (s_outer s)); [reflexivity|discriminate].
  - apply forallb_forall. destruct (forallb t_sig_ok ms); [reflexivity|discriminate].
Qed.

(** ** the stages that touch the pool: an error leaves it as it was, R_OK appends the submitted transaction *)

Lemma refused : forall (e r : N) (p p' : pool) (Q : Prop), e <> R_OK -> (e, p) = (r, p') ->
  (r <> R_OK /\ p' = p) \/ Q.
Proof. intros e r p p' Q He [= <- <-]. left. split; [exact He|reflexivity]. Qed.

Lemma push_cases : forall c p o r p', push c p o = (r, p') ->
  (r <> R_OK /\ p' = p)
  \/ (r = R_OK /\ p' = p ++ [o] /\ count_sender p (t_sender o) < c_persender c
      /\ existsb (fun e => N.eqb (t_id e) (t_id o)) p = false /\ pool_size p < c_cap c).
Proof.
  intros c p o r p'. unfold push.
  destruct (Z.leb_spec (c_persender c) (count_sender p (t_sender o))); [apply refused; discriminate|].
  destruct (existsb _ p); [apply refused; discriminate|].
  destruct (Z.leb_spec (c_cap c) (pool_size p)); [apply refused; discriminate|].
  intros [= <- <-]. right. repeat split; assumption.
Qed.

(** [check_remote] tells a malformed shape from the other two and nothing more *)
Lemma shape_match : forall A (sh : shape) (bad b x : A) (Q : Prop),
  (bad = x -> Q) -> (b = x -> Q) -> match sh with BadShape => bad | _ => b end = x -> Q.
Proof. intros A sh bad b x Q Hbad Hb. destruct sh; assumption. Qed.

Lemma check_remote_cases : forall c p s r p', check_remote c p s = (r, p') ->
  (r <> R_OK /\ p' = p)
  \/ (r = R_OK /\ p' = p ++ [s_outer s]
      /\ existsb t_on_chain (members s) = false /\ nonce_chk c p (s_outer s) = R_OK
      /\ count_sender p (t_sender (s_outer s)) < c_persender c
      /\ existsb (fun e => N.eqb (t_id e) (t_id (s_outer s))) p = false /\ pool_size p < c_cap c).
Proof.
  intros c p s r p'. unfold check_remote.
  apply shape_match; [apply refused; discriminate|]. cbv zeta.
  destruct (has_dup _ || existsb t_on_chain _) eqn:D; [apply refused; discriminate|].
  apply orb_false_iff in D as [_ D].
  destruct (c_execcheck c && _); [apply refused; discriminate|].
  destruct (N.eqb_spec (nonce_chk c p (s_outer s)) R_OK) as [En|En]; simpl; [|apply refused; exact En].
  intro H. apply push_cases in H as [H|(-> & -> & H)]; [left; exact H|].
  right. repeat (split; [reflexivity|]). split; [exact D|]. split; [exact En|exact H].
Qed.

Lemma check_remote_shape : forall c p s p', check_remote c p s = (R_OK, p') -> txs_of s = Some (members s).
Proof.
  intros c p s p'. unfold check_remote, txs_of, members. destruct (s_shape s); [reflexivity|discriminate|reflexivity].
Qed.

Lemma pipeline_cases : forall c p m r p', pipeline c p m = (r, p') ->
  (r <> R_OK /\ p' = p)
  \/ (r = R_OK /\ exists s, m = STx s /\ p' = p ++ [s_outer s] /\ c_synced c = true
        /\ check_txs c p s = R_OK /\ check_sign s = R_OK /\ check_remote c p s = (R_OK, p')).
Proof.
  intros c p m r p'. unfold pipeline.
  destruct (c_synced c); simpl; [|apply refused; discriminate].
  destruct m as [|s]; [apply refused; discriminate|].
  destruct (N.eqb_spec (check_txs c p s) R_OK) as [Et|Et]; simpl; [|apply refused; exact Et].
  destruct (N.eqb_spec (check_sign s) R_OK) as [Es|Es]; simpl; [|apply refused; exact Es].
  intro H. destruct (check_remote_cases _ _ _ _ _ H) as [R|(-> & Hp & _)]; [left; exact R|].
  right. split; [reflexivity|]. exists s. repeat split; assumption.
Qed.

Lemma pipeline_ok_inv : forall c p s p', pipeline c p (STx s) = (R_OK, p') ->
  p' = p ++ [s_outer s] /\ c_synced c = true /\ check_txs c p s = R_OK /\ check_sign s = R_OK
  /\ check_remote c p s = (R_OK, p').
Proof.
  intros c p s p' H. destruct (pipeline_cases _ _ _ _ _ H) as [[Hn _]|(_ & s' & [= <-] & R)]; [contradiction|exact R].
Qed.

Lemma check_remote_ok : forall c p s p', check_remote c p s = (R_OK, p') ->
  existsb t_on_chain (members s) = false /\ nonce_chk c p (s_outer s) = R_OK
  /\ count_sender p (t_sender (s_outer s)) < c_persender c
  /\ existsb (fun e => N.eqb (t_id e) (t_id (s_outer s))) p = false /\ pool_size p < c_cap c.
Proof.
  intros c p s p' H. destruct (check_remote_cases _ _ _ _ _ H) as [[Hn _]|(_ & _ & R)]; [contradiction|exact R].
Qed.

(** ** what [facts_consistent] says *)

Lemma list_eq_z_eq : forall a b, list_eq_z a b = true -> a = b.
Proof.
  induction a as [|x a IH]; intros [|y b] H; simpl in H; try discriminate; [reflexivity|].
  apply andb_true_iff in H as [H1 H2]. apply Z.eqb_eq in H1. rewrite H1, (IH b H2). reflexivity.
Qed.

Lemma fc_members : forall s, facts_consistent s = true -> forall t, In t (members s) -> tx_consistent t = true.
Proof.
  intros s H. unfold facts_consistent in H. unfold members. destruct (s_shape s) as [| |ms ok].
  1,2: apply andb_true_iff in H as [H _]; intros t [<-|[]]; exact H.
  apply andb_true_iff in H as [H _]. apply andb_true_iff in H as [_ H]. apply forallb_forall. exact H.
Qed.

Lemma fc_head : forall s h tl ok, facts_consistent s = true -> s_shape s = Group (h :: tl) ok ->
  wrap_consistent (s_outer s) h = true.
Proof.
  intros s h tl ok H Hsh. unfold facts_consistent in H. rewrite Hsh in H.
  apply andb_true_iff in H as [H _]. apply andb_true_iff in H as [H _]. exact H.
Qed.

(** the expiry sweep reads off the wrapper what the admission checks read off the members *)
Lemma fc_sweep : forall c s, facts_consistent s = true ->
  sweep_expired c (s_outer s) = existsb (is_expire c) (members s).
Proof.
  intros c s H. unfold facts_consistent in H. unfold sweep_expired, members.
  destruct (s_shape s) as [| |ms ok]; apply andb_true_iff in H as [_ H];
    destruct (t_gexp (s_outer s)) as [vs|]; try discriminate.
  1,2: simpl; rewrite orb_false_r; reflexivity.
  apply list_eq_z_eq in H. subst vs. unfold is_expire. clear. induction ms as [|t ms IH]; [reflexivity|].
  simpl. rewrite IH. reflexivity.
Qed.

(** ** the clauses of [acceptable], group by group *)

(** the wrapper of an accepted group is the pool entry the property asks for *)
Lemma head_entry : forall o h, wrap_consistent o h = true -> is_group_head o h = true -> same_entry o h = true.
Proof.
  intros o h Hc Hh. unfold is_group_head in Hh. apply andb_true_iff in Hh as [Hi Hs].
  unfold wrap_consistent in Hc. rewrite Hi, Hs in Hc. simpl in Hc.
  apply andb_true_iff in Hc as [Hnf Hse]. apply andb_true_iff in Hnf as [Hn Hfe].
  apply andb_true_iff in Hse as [Hse Het].
  unfold same_entry. rewrite Hi, Hn, Hfe, Hse, Het. reflexivity.
Qed.

Lemma entry_ok : forall c p s, s_forward s = false -> facts_consistent s = true ->
  check_txs c p s = R_OK -> cl_entry s = true.
Proof.
  intros c p s Hf Hc H. destruct (check_txs_ok _ _ _ Hf H) as (Ht & _ & _ & Hd).
  unfold cl_entry. unfold check_tx in Ht. destruct (s_shape s) as [| |ms ok] eqn:Hsh; [reflexivity|discriminate|].
  destruct (Hd _ _ eq_refl) as (h & tl & -> & Hh). apply head_entry; [|exact Hh].
  exact (fc_head _ _ _ _ Hc Hsh).
Qed.

Lemma para_ok : forall c s, check_tx c s = R_OK -> cl_para c (members s) = true.
Proof.
  intros c s H. unfold check_tx in H. unfold members.
  destruct (s_shape s) as [| |ms ok]; [apply cl_para_single|discriminate|].
  apply check_para_one_chain. apply (check_group_ok _ _ _ H).
Qed.

(** the one place where [g_fee] is needed: a plain transaction under a zero minimum rate pays
    nothing to [check_one]; the tiered rate is zero as well *)
Lemma fee_ok : forall c p s, cfg_ok c -> cl_entry s = true -> g_fee c s = true ->
  check_tx c s = R_OK -> (c_level c = true -> check_level c p s = R_OK) ->
  fee_meets c p s (members s) = true.
Proof.
  intros c p s [_ Hmax] He Hg Ht Hl. unfold fee_meets.
  assert (L : c_level c = true -> owed_all (tier_rate c p) (members s) <= t_fee (s_outer s)).
  { intro L. apply check_level_ok, Hl, L. }
  apply andb_true_iff. split; [|destruct (c_level c); [apply Z.leb_le, L|]; reflexivity].
  apply Z.leb_le. unfold check_tx in Ht. unfold cl_entry in He. unfold members in *.
  destruct (s_shape s) as [| |[|h tl] ok]; try discriminate.
  - destruct (Z.eq_dec (c_minfee c) 0) as [Z0|NZ].
    + rewrite Z0, owed_zero. unfold g_fee in Hg. rewrite Z0 in Hg. simpl in Hg.
      destruct (c_level c); [|apply Z.leb_le; exact Hg].
      rewrite (tier_rate_zero _ _ Z0 Hmax), owed_zero in L. apply L. reflexivity.
    + apply check_one_ok in Ht as [_ Ht]. simpl. rewrite Z.add_0_r. apply Ht. exact NZ.
  - apply check_group_ok in Ht as (_ & _ & _ & _ & Ht).
    unfold same_entry in He. apply andb_true_iff in He as [_ He]. apply Z.eqb_eq in He. rewrite He. exact Ht.
Qed.

Lemma early_ok : forall c p s, cfg_ok c -> s_forward s = false -> facts_consistent s = true ->
  g_fee c s = true -> g_hdr s = true -> check_txs c p s = R_OK ->
  acc_early_but c p s (members s) (fee_meets c p s (members s)) (cl_exp_on c (members s)) = true.
Proof.
  intros c p s Hc Hf Hfc Gf Gh H. pose proof (entry_ok _ _ _ Hf Hfc H) as He.
  destruct (check_txs_ok _ _ _ Hf H) as (Ht & Hl & Hm & _).
  unfold acc_early_but. rewrite (fee_ok _ _ _ Hc He Gf Ht Hl), (para_ok _ _ Ht), andb_true_r. simpl.
  unfold cl_exp_on, cl_to, cl_black.
  repeat (apply andb_true_iff; split); apply forallb_forall; intros t Hin;
    destruct (member_ok _ _ _ _ (Hm t Hin)) as (A & B & _ & D).
  - rewrite <- is_expire_next, (expired_chk_not _ _ _ D (g_hdr_members _ _ Gh Hin)). reflexivity.
  - exact A.
  - rewrite (not_blocked_not_listed _ (fc_members _ Hfc _ Hin) B). reflexivity.
Qed.

Lemma nonce_ok : forall c p o, nonce_chk c p o = R_OK ->
  existsb (fun e => N.eqb (t_id e) (t_id o)) p = false -> nonce_meets c p o = true.
Proof.
  intros c p o H Hf. unfold nonce_chk in H. unfold nonce_meets.
  destruct (t_eth o); simpl in H; [|reflexivity].
  destruct (Z.ltb_spec (t_nonce o) (nonce_of (c_nonces c) (t_sender o))); [discriminate|].
  destruct (existsb _ p) eqn:E in H; [discriminate|].
  apply andb_true_iff. split; [apply Z.leb_le; assumption|].
  apply negb_true_iff. clear H.
  induction p as [|e p IH]; [reflexivity|].
  simpl in *. apply orb_false_iff in E as [E1 E2]. apply orb_false_iff in Hf as [F1 F2].
  rewrite (IH E2 F2), orb_false_r. rewrite F1 in E1. simpl in E1. rewrite andb_true_r in E1. exact E1.
Qed.

Lemma late_ok : forall c p s p', check_sign s = R_OK -> check_remote c p s = (R_OK, p') ->
  acc_late c p s (members s) = true.
Proof.
  intros c p s p' Hs Hr. apply check_remote_ok in Hr as (Hch & Hn & Hlim & Hfr & _).
  unfold acc_late, cl_sig, cl_fresh, cl_chain, cl_limit.
  apply Z.ltb_lt in Hlim. rewrite Hfr, (nonce_ok _ _ _ Hn Hfr), Hlim. simpl. rewrite !andb_true_r.
  apply andb_true_iff. split; apply forallb_forall; intros t Hin.
  - exact (check_sign_ok _ Hs t Hin).
  - rewrite (existsb_none _ _ _ Hch t Hin). reflexivity.
Qed.

(** ** accepted implies acceptable, under guards [g] *)

Definition accepted_sound (g : config -> sub -> bool) : Prop :=
  forall c p s p', cfg_ok c -> facts_consistent s = true -> pipeline c p (STx s) = (R_OK, p') ->
                   g c s = true -> acceptable c p s = true.

Definition all_guards (c : config) (s : sub) : bool := g_fwd s && g_fee c s && g_hdr s.

Lemma accepted_partial : accepted_sound all_guards.
Proof.
  intros c p s p' Hc Hfc H G. unfold all_guards, g_fwd in G.
  apply andb_true_iff in G as [G Gh]. apply andb_true_iff in G as [Gw Gf]. apply negb_true_iff in Gw.
  apply pipeline_ok_inv in H as (_ & _ & Ht & Hs & Hr).
  unfold acceptable, acceptable_at. rewrite (check_remote_shape _ _ _ _ Hr).
  rewrite (entry_ok _ _ _ Gw Hfc Ht), (late_ok _ _ _ _ Hs Hr). apply early_ok; assumption.
Qed.
