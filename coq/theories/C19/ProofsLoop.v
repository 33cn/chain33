(** C19 — the driver loop of CheckAddress under every iteration order. *)
From Coq Require Import List ZArith NArith Bool Permutation Lia.
From C33 Require Import Lib.Harness C19.Model C19.Spec.
Import ListNotations.
Open Scope Z_scope.

(** ** equality of error classes: [err_code] has a left inverse *)
Definition err_of_code (n : N) : err :=
  match n with
  | 0 => ENil | 1 => EDecode | 2 => ELength | 3 => EVersion | 4 => ECheckChecksum
  | 5 => EAddrChecksum | 6 => EInvalidEth | 7 => EAddrType | _ => EOther
  end%N.

Lemma err_of_code_code : forall e, err_of_code (err_code e) = e.
Proof. destruct e; reflexivity. Qed.

Lemma err_eqb_eq : forall a b, err_eqb a b = true -> a = b.
Proof.
  intros a b H. apply N.eqb_eq in H.
  rewrite <- (err_of_code_code a), H. apply err_of_code_code.
Qed.

Lemma err_eqb_refl : forall a, err_eqb a a = true.
Proof. intro a. apply N.eqb_refl. Qed.

Lemma is_nil_eq : forall e, is_nil e = true <-> e = ENil.
Proof. intro e; split; [apply err_eqb_eq|intros ->; reflexivity]. Qed.

Lemma last_in : forall {A} (l : list A) (d : A), l <> [] -> In (last l d) l.
Proof.
  induction l as [|x l IH]; intros d Hne; [congruence|].
  destruct l as [|y l]; [left; reflexivity|].
  right. change (In (last (y :: l) d) (y :: l)). apply IH. discriminate.
Qed.

Lemma last_cons_default : forall {A} (l : list A) (x e : A), last (x :: l) e = last l x.
Proof.
  intros A l. induction l as [|y l IH]; intros x e; [reflexivity|].
  change (last (y :: l) e = last (y :: l) x). rewrite !IH. reflexivity.
Qed.

Section Loop.
  Variable val : N -> err.
  Variable h : Z.

  Definition en_b (p : N * Z) : bool := is_enable h (snd p).

  (** nil if an enabled driver anywhere in the order accepts, otherwise the
      error of the last enabled driver visited *)
  Lemma loop_closed : forall ds e,
    loop val h ds e = if existsb (fun p => is_nil (val (fst p))) (filter en_b ds) then ENil
                      else last (map (fun p => val (fst p)) (filter en_b ds)) e.
  Proof.
    induction ds as [|[d en] tl IH]; intro e; [reflexivity|].
    cbn [loop filter]. change (en_b (d, en)) with (is_enable h en).
    destruct (is_enable h en); [|apply IH].
    cbn [existsb map fst].
    destruct (is_nil (val d)); [reflexivity|]. cbn [orb]. rewrite IH.
    destruct (existsb _ (filter en_b tl)); [reflexivity|].
    symmetry. apply last_cons_default.
  Qed.
End Loop.

Lemma existsb_perm : forall {A} (f : A -> bool) (l1 l2 : list A),
  Permutation l1 l2 -> existsb f l1 = existsb f l2.
Proof.
  intros A f l1 l2 P; induction P; simpl.
  - reflexivity.
  - rewrite IHP; reflexivity.
  - destruct (f x), (f y); reflexivity.
  - congruence.
Qed.

Lemma filter_perm : forall {A} (f : A -> bool) (l1 l2 : list A),
  Permutation l1 l2 -> Permutation (filter f l1) (filter f l2).
Proof.
  intros A f l1 l2 P; induction P; simpl.
  - constructor.
  - destruct (f x); [constructor|]; assumption.
  - destruct (f x), (f y); try apply Permutation_refl. apply perm_swap.
  - eapply Permutation_trans; eassumption.
Qed.

Lemma filter_rev : forall {A} (f : A -> bool) (l : list A), filter f (rev l) = rev (filter f l).
Proof.
  intros A f l. induction l as [|x l IH]; [reflexivity|].
  simpl. rewrite filter_app, IH. simpl. destruct (f x); simpl; [reflexivity|apply app_nil_r].
Qed.

Lemma last_rev_hd : forall {A} (l : list A) (d : A), last (rev l) d = hd d l.
Proof.
  intros A l d. destruct l as [|x l]; [reflexivity|]. simpl. apply last_last.
Qed.

(** *** a cache miss as a function of the enabled drivers in the order visited *)

Definition acc_of (c : config) (a : N) (p : N * Z) : bool := is_nil (c_val c (fst p) a).

Definition visit (c : config) (a : N) (en : list (N * Z)) : err :=
  if existsb (acc_of c a) en then ENil else last (map (fun p => c_val c (fst p) a) en) ENil.

Lemma miss_closed : forall c perm a h,
  miss_result c perm a h = visit c a (filter (en_b h) perm).
Proof. intros c perm a h. apply (loop_closed (fun d => c_val c d a)). Qed.

Lemma enabled_perm : forall c perm h,
  Permutation perm (c_drv c) -> Permutation (filter (en_b h) perm) (enabled_drivers c h).
Proof. intros c perm h P. apply filter_perm; exact P. Qed.

Lemma possible_eq : forall c a h,
  possible c a h
  = if existsb (acc_of c a) (enabled_drivers c h) then [ENil]
    else match enabled_drivers c h with
         | [] => [ENil]
         | _ => map (fun p => c_val c (fst p) a) (enabled_drivers c h)
         end.
Proof. reflexivity. Qed.

(** *** the closed form [possible] is exactly the set of loop results over all orders *)

Lemma visit_possible : forall c a h en,
  Permutation en (enabled_drivers c h) -> In (visit c a en) (possible c a h).
Proof.
  intros c a h en P. rewrite possible_eq, <- (existsb_perm _ _ _ P). unfold visit.
  destruct (existsb (acc_of c a) en); [left; reflexivity|].
  destruct (enabled_drivers c h) as [|q qs].
  - apply Permutation_sym, Permutation_nil in P. rewrite P. left; reflexivity.
  - apply (Permutation_in _ (Permutation_map _ P)). apply last_in.
    intro E. apply map_eq_nil in E. rewrite E in P. apply Permutation_nil in P. discriminate P.
Qed.

Lemma miss_in_possible : forall c perm a h,
  Permutation perm (c_drv c) -> In (miss_result c perm a h) (possible c a h).
Proof.
  intros c perm a h P. rewrite miss_closed. apply visit_possible, enabled_perm; exact P.
Qed.

Lemma possible_reachable : forall c a h e,
  In e (possible c a h) ->
  exists perm, Permutation perm (c_drv c) /\ miss_result c perm a h = e.
Proof.
  intros c a h e Hin. rewrite possible_eq in Hin.
  assert (Hid : miss_result c (c_drv c) a h = visit c a (enabled_drivers c h)) by apply miss_closed.
  unfold visit in Hid.
  destruct (existsb (acc_of c a) (enabled_drivers c h)) eqn:Hx.
  - destruct Hin as [<-|[]]. exists (c_drv c). split; [apply Permutation_refl|exact Hid].
  - destruct (enabled_drivers c h) as [|q qs] eqn:Hq.
    + destruct Hin as [<-|[]]. exists (c_drv c). split; [apply Permutation_refl|exact Hid].
    + (* visit the driver whose error is wanted last *)
      apply in_map_iff in Hin as [p [Hp Hin]].
      rewrite <- Hq in Hin. apply filter_In in Hin as [Hin Hen].
      apply in_split in Hin as [l1 [l2 Hs]].
      assert (Pm : Permutation (l1 ++ l2 ++ [p]) (c_drv c)).
      { rewrite Hs. apply Permutation_app_head.
        change (p :: l2) with ([p] ++ l2). apply Permutation_app_comm. }
      exists (l1 ++ l2 ++ [p]). split; [exact Pm|].
      rewrite miss_closed. unfold visit.
      rewrite (existsb_perm _ _ _ (enabled_perm c _ h Pm)), Hq, Hx.
      rewrite !filter_app. cbn [filter]. change (en_b h p) with (is_enable h (snd p)).
      rewrite Hen, !map_app, app_assoc. cbn [map]. rewrite last_last. exact Hp.
Qed.

(** *** validity does not depend on the order *)
Lemma visit_valid : forall c a h en,
  Permutation en (enabled_drivers c h) -> is_nil (visit c a en) = spec_valid c a h.
Proof.
  intros c a h en P. unfold visit, spec_valid. cbv zeta.
  change (fun p : N * Z => is_nil (c_val c (fst p) a)) with (acc_of c a).
  rewrite <- (existsb_perm _ _ _ P), <- (Permutation_length P).
  destruct (existsb (acc_of c a) en) eqn:Hx; [reflexivity|].
  destruct en as [|q qs]; [reflexivity|]. cbn [orb length Nat.eqb].
  (* the error returned is the error of an enabled driver, none of which accepts *)
  assert (Hin : In (last (map (fun p => c_val c (fst p) a) (q :: qs)) ENil)
                   (map (fun p => c_val c (fst p) a) (q :: qs))) by (apply last_in; discriminate).
  apply in_map_iff in Hin as [p [<- Hin]].
  destruct (is_nil (c_val c (fst p) a)) eqn:Hn; [|reflexivity].
  rewrite <- Hx. symmetry. apply existsb_exists. exists p. split; [exact Hin|exact Hn].
Qed.

Lemma miss_valid : forall c perm a h,
  Permutation perm (c_drv c) -> is_nil (miss_result c perm a h) = spec_valid c a h.
Proof.
  intros c perm a h P. rewrite miss_closed. apply visit_valid, enabled_perm; exact P.
Qed.

(** the spec's error is the loop result when the drivers are visited in
    reverse registration order (highest id first, lowest id last) *)
Lemma spec_under_canonical : forall c a h, spec_under c a h = miss_result c (rev (c_drv c)) a h.
Proof.
  intros c a h. rewrite miss_closed, filter_rev.
  change (filter (en_b h) (c_drv c)) with (enabled_drivers c h).
  unfold visit, spec_under, spec_valid. cbv zeta.
  change (fun p : N * Z => is_nil (c_val c (fst p) a)) with (acc_of c a).
  rewrite <- (existsb_perm _ _ _ (Permutation_rev (enabled_drivers c h))), map_rev, last_rev_hd.
  destruct (existsb (acc_of c a) (enabled_drivers c h)); [reflexivity|].
  destruct (enabled_drivers c h); reflexivity.
Qed.

Lemma spec_under_in_possible : forall c a h, In (spec_under c a h) (possible c a h).
Proof.
  intros. rewrite spec_under_canonical. apply miss_in_possible, Permutation_sym, Permutation_rev.
Qed.

Lemma spec_under_valid : forall c a h, is_nil (spec_under c a h) = spec_valid c a h.
Proof.
  intros. rewrite spec_under_canonical. apply miss_valid, Permutation_sym, Permutation_rev.
Qed.

(** under the [unambiguous] guard every order gives the spec's error *)
Lemma miss_unambiguous : forall c perm a h,
  Permutation perm (c_drv c) -> unambiguous c a h = true ->
  miss_result c perm a h = spec_under c a h.
Proof.
  intros c perm a h P U. unfold unambiguous in U.
  rewrite forallb_forall in U. apply err_eqb_eq. apply U.
  apply miss_in_possible; exact P.
Qed.
