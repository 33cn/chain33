(** C19 — the full-strength statements, their refutations on the faithful
    model (each witness is reproduced on the Go code by the harness's
    "witness" stream), and non-vacuity examples for the guards. *)
From Coq Require Import List ZArith NArith Bool Permutation Lia String.
From C33 Require Import Lib.Harness C19.Model C19.Spec C19.ProofsLoop C19.ProofsHist.
Import ListNotations.
Open Scope Z_scope.

(** ** concrete configurations (the real four drivers, real error classes) *)

(* address numbers: 2 = an eth address, 6 = base58 version 7 with a good
   checksum, 12 = "xyz", 0 = a valid btc address *)
Definition w_val (d a : N) : err :=
  match a, d with
  | 0, 0 => ENil | 0, 1 => EVersion | 0, 2 => EInvalidEth | 0, 3 => EAddrType
  | 2, 0 => ELength | 2, 1 => ELength | 2, 2 => ENil | 2, 3 => EAddrType
  | 6, 0 => EVersion | 6, 1 => EVersion | 6, 2 => EInvalidEth | 6, 3 => EAddrType
  | 12, 0 => ELength | 12, 1 => ELength | 12, 2 => EInvalidEth | 12, 3 => EAddrType
  | _, _ => EOther
  end%N.

Definition w_raw (d p : N) : option bytes :=
  match d with
  | 0 => Some (bs "1BtcStyleAddr"%string)
  | 2 => Some (bs "0x3ef9427070Bda64128fb5630b97B6AB17a8Ff0a8"%string)
  | _ => None
  end%N.

Definition w_cfg (drv : list (N * Z)) (fmulti fb58 ffmt : Z) (cap : N) : config :=
  mkCfg drv w_val fmulti fb58 ffmt true [] cap (fun _ => cap) 0%N w_raw 2%N
        [(1%N, (true, 0))] (fun _ => Some (1%N, true)) (fun k => Some (0%N, k)).

Definition drv_default : list (N * Z) := [(0%N, 0); (1%N, 0); (2%N, 0); (3%N, 0)].
Definition drv_eth10 : list (N * Z) := [(0%N, 0); (1%N, 0); (2%N, 10); (3%N, -1)].

Definition cfg_eth10 := w_cfg drv_eth10 0 0 0 10240.
Definition cfg_default := w_cfg drv_default 0 0 0 10240.
Definition cfg_prefork := w_cfg drv_default 20 25 0 10240.
Definition cfg_fmtfork := w_cfg drv_default 0 0 15 10240.

Definition fixed_order (c : config) (ops : list op) : list (op * list (N * Z)) :=
  map (fun o => (o, c_drv c)) ops.

Lemma fixed_order_ok : forall c ops, perms_ok c (fixed_order c ops).
Proof.
  intros c ops. unfold perms_ok, fixed_order. apply Forall_forall.
  intros x Hin. apply in_map_iff in Hin as [o [<- _]]. apply Permutation_refl.
Qed.

Lemma fixed_order_ops : forall c ops, map fst (fixed_order c ops) = ops.
Proof.
  intros c ops. unfold fixed_order. rewrite map_map. simpl. apply map_id.
Qed.

(** ** full-strength statements *)

(** every answer of every history is the pure function — even when the map
    iteration order never changes *)
Definition history_independent_full : Prop :=
  forall c ops, run c st0 (fixed_order c ops) = map (spec_answer c) ops.

(** same, for address checks only *)
Definition check_history_independent_full : Prop :=
  forall c a h1 h2,
    run c st0 (fixed_order c [OCheck a h1; OCheck a h2])
    = [AErr (spec_under c a h1); AErr (spec_under c a h2)].

(** the exact error of a single fresh query does not depend on the order,
    under the default configuration *)
Definition error_order_independent_full : Prop :=
  forall c perm a h, all_zero c = true -> Permutation perm (c_drv c) ->
    miss_result c perm a h = spec_under c a h.

(** nil / non-nil of a single fresh dapp.CheckAddress does not depend on the
    order, under the default address configuration *)
Definition dapp_validity_order_independent_full : Prop :=
  forall c perm a h, all_zero c = true -> Permutation perm (c_drv c) ->
    is_nil (snd (dapp_check c st0 perm a h)) = is_nil (snd (dapp_check c st0 (c_drv c) a h)).

(** PubKeyToAddr is a function of (driver, key, context height, configuration) *)
Definition pubkey_history_independent_full : Prop :=
  forall c d p h1 h2,
    run c st0 (fixed_order c [OPub d p h1; OPub d p h2])
    = [spec_answer c (OPub d p h1); spec_answer c (OPub d p h2)].

(** ** refutations *)

(* eth enabled at 10: query below poisons the answer above ... *)
Lemma cache_witness_up :
  run cfg_eth10 st0 (fixed_order cfg_eth10 [OCheck 2 5; OCheck 2 20])
  = [AErr ELength; AErr ELength]
  /\ spec_answer cfg_eth10 (OCheck 2 20) = AErr ENil.
Proof. split; vm_compute; reflexivity. Qed.

(* ... and the other way round *)
Lemma cache_witness_down :
  run cfg_eth10 st0 (fixed_order cfg_eth10 [OCheck 2 20; OCheck 2 5])
  = [AErr ENil; AErr ENil]
  /\ spec_answer cfg_eth10 (OCheck 2 5) = AErr ELength.
Proof. split; vm_compute; reflexivity. Qed.

Theorem refuted_cache : ~ check_history_independent_full.
Proof.
  intro H. specialize (H cfg_eth10 2%N 5 20).
  destruct cache_witness_up as [R _]. rewrite R in H. vm_compute in H. discriminate H.
Qed.

Theorem refuted_full : ~ history_independent_full.
Proof. intro H. apply refuted_cache. intros c a h1 h2. apply H. Qed.

Definition order_a : list (N * Z) := [(2%N, 0); (3%N, 0); (1%N, 0); (0%N, 0)].
Definition order_b : list (N * Z) := [(0%N, 0); (1%N, 0); (3%N, 0); (2%N, 0)].

(* the registration order reversed, its first two swapped *)
Lemma order_a_perm : Permutation order_a drv_default.
Proof.
  apply Permutation_sym, (perm_trans (Permutation_rev drv_default)). apply perm_swap.
Qed.

Lemma order_b_perm : Permutation order_b drv_default.
Proof.
  unfold order_b, drv_default. do 2 apply perm_skip. apply perm_swap.
Qed.

Theorem refuted_error_order : ~ error_order_independent_full.
Proof.
  intro H.
  pose proof (H cfg_default order_a 12%N 20 eq_refl order_a_perm) as Ha.
  pose proof (H cfg_default order_b 12%N 20 eq_refl order_b_perm) as Hb.
  rewrite <- Hb in Ha. vm_compute in Ha. discriminate Ha.
Qed.

Theorem refuted_dapp_validity_order : ~ dapp_validity_order_independent_full.
Proof.
  intro H.
  pose proof (H cfg_prefork order_a 6%N 5 eq_refl order_a_perm) as Ha.
  vm_compute in Ha. discriminate Ha.
Qed.

Theorem refuted_pubkey_cache : ~ pubkey_history_independent_full.
Proof.
  intro H. specialize (H cfg_fmtfork 2 0%N 10 20). vm_compute in H. discriminate H.
Qed.

(** ** non-vacuity of the guards *)

(* a history with cache hits, an eviction-free repeat, a pubkey repeat and a
   signature check satisfies the exact guard under a non-default configuration *)
Definition guarded_ops : list op :=
  [OCheck 2 12; OCheck 0 3; ODapp 2 30; OCheck 2 25; OPub 2 0 20; OPub 2 0 31; OPub (-1) 0 1;
   OSign 0 4; OCheck 0 40].

Example guard_satisfiable :
  guard_b cfg_eth10 guarded_ops = true
  /\ all_zero cfg_eth10 = false
  /\ run cfg_eth10 st0 (fixed_order cfg_eth10 guarded_ops) = map (spec_answer cfg_eth10) guarded_ops
  /\ spec_answer cfg_eth10 (OCheck 2 12) = AErr ENil
  /\ spec_answer cfg_eth10 (OCheck 0 3) = AErr ENil.
Proof. repeat split; vm_compute; reflexivity. Qed.

(* the validity guard holds for invalid, ambiguous inputs under the default
   configuration, where the exact guard fails *)
Definition vguarded_ops : list op := [OCheck 12 5; ODapp 12 9; OCheck 6 1; OCheck 12 50; OCheck 0 7].

Example vguard_satisfiable :
  vguard_b cfg_default vguarded_ops = true
  /\ guard_b cfg_default vguarded_ops = false
  /\ all_zero cfg_default = true
  /\ forallb (vclaim cfg_default) vguarded_ops = true.
Proof. repeat split; vm_compute; reflexivity. Qed.

(* a tiny cache: the guard is about keys, not capacity *)
Example guard_satisfiable_small_cache :
  let c := w_cfg drv_eth10 0 0 0 1 in
  let ops := [OCheck 2 12; OCheck 0 3; OCheck 2 25; OCheck 0 11; OCheck 2 10] in
  guard_b c ops = true
  /\ run c st0 (fixed_order c ops) = map (spec_answer c) ops.
Proof. split; vm_compute; reflexivity. Qed.

(* the property-text guard: default enable heights, a non-zero formatting fork
   with all conversions above it, only inputs some driver accepts *)
Definition default_ops : list op :=
  [OCheck 0 5; OCheck 2 50; OPub 2 0 20; OCheck 0 50; OPub 2 0 31; ODapp 2 3; OPub (-1) 1 40].

Example default_guard_satisfiable :
  all_zero cfg_fmtfork = true
  /\ fmt_side_b cfg_fmtfork true default_ops = true
  /\ all_unambiguous cfg_fmtfork default_ops = true
  /\ c_ffmt cfg_fmtfork = 15.
Proof. repeat split; vm_compute; reflexivity. Qed.
