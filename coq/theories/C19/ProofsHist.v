(** C19 — histories: under the guards every answer is the spec's pure function. *)
From Coq Require Import List ZArith NArith Bool Permutation Lia.
From C33 Require Import Lib.Harness C19.Model C19.Spec C19.ProofsLoop C19.ProofsLru.
Import ListNotations.
Open Scope Z_scope.

Lemma ans_eqb_eq : forall a b, ans_eqb a b = true -> a = b.
Proof.
  intros [x|x|x|] [y|y|y|]; simpl; intro H; try discriminate; try reflexivity.
  - apply err_eqb_eq in H. congruence.
  - apply bytes_eqb_eq in H. congruence.
  - apply Bool.eqb_prop in H. congruence.
Qed.

Lemma key_eqb_refl_pair : forall x y, key_eqb (Some (x, y)) (Some (x, y)) = true.
Proof. intros. simpl. rewrite !N.eqb_refl. reflexivity. Qed.

Definition perms_ok (c : config) (hist : list (op * list (N * Z))) : Prop :=
  Forall (fun x => Permutation (snd x) (c_drv c)) hist.

Definition addr_query (o : op) : option (N * Z) :=
  match o with
  | OCheck a h | ODapp a h => Some (a, h)
  | _ => None
  end.

Lemma dapp_post_forked : forall c h e,
  is_fork h (c_fmulti c) && is_fork h (c_fb58 c) = true -> dapp_post c h e = e.
Proof.
  intros c h e H. apply andb_true_iff in H as [H1 H2].
  unfold dapp_post. rewrite H1, H2. reflexivity.
Qed.

(** ** the three forms of an operation: it touches no cache, or it is a lookup
    in the address cache followed by [f], or a conversion through the pubkey
    cache of one driver followed by [g] *)
Inductive op_form (c : config) (o : op) : Prop :=
| form_pure :
    op_key c o = None ->
    (forall st e, step_v c st o e = (st, spec_answer c o)) ->
    op_form c o
| form_chk (a : N) (h : Z) (f : err -> err) :
    op_key c o = Some (0%N, a) ->
    op_under c o = AErr (spec_under c a h) ->
    addr_query o = Some (a, h) ->
    (forall perm, op_miss c o perm = miss_result c perm a h) ->
    (forall st e, step_v c st o e
       = (fst (check_address_v c st a e), AErr (f (snd (check_address_v c st a e))))) ->
    spec_answer c o = AErr (f (spec_under c a h)) ->
    (op_unambiguous c o = true -> unambiguous c a h = true) ->
    (vclaim c o = true -> forall e, f e = e) ->
    op_form c o
| form_pub (id p : N) (h : Z) (raw : bytes) (g : ans -> ans) :
    has_drv c id = true -> c_raw c id p = Some raw ->
    op_key c o = Some ((1 + id)%N, p) ->
    op_under c o = AStr (fmt c id h raw) ->
    (forall st e, step_v c st o e
       = (fst (pub_to_addr_id c st id p h), g (snd (pub_to_addr_id c st id p h)))) ->
    spec_answer c o = g (AStr (fmt c id h raw)) ->
    vclaim c o = false ->
    (forall side, fmt_side_b c side [o] = true -> is_fork h (c_ffmt c) = side) ->
    op_form c o.

Lemma pub_id_panics : forall c st id p h,
  negb (has_drv c id) = true \/ c_raw c id p = None -> pub_to_addr_id c st id p h = (st, APanic).
Proof.
  intros c st id p h H. unfold pub_to_addr_id.
  destruct (negb (has_drv c id)); [reflexivity|]. destruct H as [H| ->]; [discriminate H|reflexivity].
Qed.

Lemma fmt_side_one : forall c side h,
  Bool.eqb (is_fork h (c_ffmt c)) side && true = true -> is_fork h (c_ffmt c) = side.
Proof. intros c side h E. rewrite andb_true_r in E. apply Bool.eqb_prop in E. exact E. Qed.

(** an operation that is the conversion of key [p] by driver [id], followed by [g] *)
Lemma form_conv : forall c o id p h (g : ans -> ans),
  (forall st e, step_v c st o e
     = (fst (pub_to_addr_id c st id p h), g (snd (pub_to_addr_id c st id p h)))) ->
  op_key c o = (if negb (has_drv c id) then None
                else match c_raw c id p with None => None | Some _ => Some ((1 + id)%N, p) end) ->
  (forall raw, has_drv c id = true -> c_raw c id p = Some raw ->
     op_under c o = AStr (fmt c id h raw)) ->
  spec_answer c o = g (if negb (has_drv c id) then APanic
                       else match c_raw c id p with
                            | None => APanic
                            | Some raw => AStr (fmt c id h raw)
                            end) ->
  vclaim c o = false ->
  (forall side, fmt_side_b c side [o] = true -> is_fork h (c_ffmt c) = side) ->
  op_form c o.
Proof.
  intros c o id p h g S K U A V F.
  destruct (has_drv c id) eqn:Hh; [destruct (c_raw c id p) as [raw|] eqn:Hr|]; cbn [negb] in K, A.
  - apply (form_pub c o id p h raw g); auto.
  - apply form_pure; [exact K|]. intros st e. rewrite S, A, pub_id_panics by auto. reflexivity.
  - apply form_pure; [exact K|]. intros st e.
    rewrite S, A, pub_id_panics by (rewrite Hh; auto). reflexivity.
Qed.

Lemma op_form_of : forall c o, op_form c o.
Proof.
  intros c o. destruct o as [a h|a h|d p h|k h|d p h].
  - apply (form_chk c _ a h (fun e => e)); try reflexivity; auto.
    intros st e. cbn [step_v]. destruct (check_address_v c st a e); reflexivity.
  - destruct (is_drv_addr c a h) eqn:D.
    + apply form_pure; [|intros st e]; cbn [op_key step_v spec_answer]; unfold dapp_check_v;
        rewrite D; reflexivity.
    + apply (form_chk c _ a h (dapp_post c h)); cbn [op_key spec_answer op_unambiguous vclaim];
        rewrite ?D; try reflexivity; auto.
      * intros st e. cbn [step_v]. unfold dapp_check_v. rewrite D.
        destruct (check_address_v c st a e); reflexivity.
      * intros V e. apply dapp_post_forked; exact V.
  - apply (form_conv c _ (resolve_drv c d) p h (fun a => a)); try reflexivity.
    + intros st e. cbn [step_v]. unfold pub_to_addr.
      destruct (pub_to_addr_id c st (resolve_drv c d) p h); reflexivity.
    + intros raw Hh Hr. cbn [op_under spec_answer]. rewrite Hh, Hr. reflexivity.
    + intro side. apply fmt_side_one.
  - destruct (c_sfrom c k) as [[d p]|] eqn:Hs.
    2:{ apply form_pure; [|intros st e]; cbn [op_key step_v spec_answer]; rewrite Hs; reflexivity. }
    apply (form_conv c _ d p h
             (fun a => ABool (match a with AStr _ => check_sign c k h | _ => false end)));
      try reflexivity; cbn [op_key op_under spec_answer]; rewrite ?Hs; try reflexivity.
    + intros st e. cbn [step_v]. rewrite Hs. unfold from_addr.
      destruct (pub_to_addr_id c st d p h) as [st' [ | | |]]; reflexivity.
    + intros raw _ Hr. rewrite Hr. reflexivity.
    + unfold from_ok. destruct (has_drv c d), (c_raw c d p); reflexivity.
    + intro side. apply fmt_side_one.
  - apply (form_conv c _ d p h (fun a => AStr (match a with AStr s => s | _ => [] end)));
      try reflexivity; cbn [op_under spec_answer].
    + intros st e. cbn [step_v]. unfold from_addr.
      destruct (pub_to_addr_id c st d p h) as [st' [ | | |]]; reflexivity.
    + intros raw Hh Hr. rewrite Hh, Hr. reflexivity.
    + destruct (negb (has_drv c d)), (c_raw c d p); reflexivity.
    + intro side. apply fmt_side_one.
Qed.

(** ** the exact invariant: every cached value is the spec value of an earlier
    operation with the same cache key ([n] = number of the cache) *)
Definition stored (c : config) {V} (n : N) (wrap : V -> ans) (o : op) (k : N) (v : V) : Prop :=
  op_key c o = Some (n, k) /\ op_under c o = wrap v.

Definition chk_ok (c : config) (prev : list op) (l : lru err) : Prop :=
  justified (stored c 0 AErr) prev l.

Definition pub_ok (c : config) (prev : list op) (pc : list (N * lru bytes)) : Prop :=
  forall id, justified (stored c (1 + id) AStr) prev (pc_find id pc).

Definition inv (c : config) (prev : list op) (st : state) : Prop :=
  chk_ok c prev (s_chk st) /\ pub_ok c prev (s_pub st).

Lemma inv_mono : forall c prev o st, inv c prev st -> inv c (o :: prev) st.
Proof.
  intros c prev o st [Hc Hp]. split; [|intro id]; apply justified_mono; [exact Hc|apply Hp].
Qed.

Lemma inv_init : forall c, inv c [] st0.
Proof. intro c. split; [|intro id]; intros k v F; discriminate F. Qed.

(** under [consistent_with], a hit returns what the operation would store itself *)
Lemma stored_hit : forall c V n (wrap : V -> ans) prev o k v v',
  consistent_with c prev o = true -> stored c n wrap o k v ->
  (exists o', In o' prev /\ stored c n wrap o' k v') -> wrap v' = wrap v.
Proof.
  intros c V n wrap prev o k v v' H [Hk Hu] [o' [Hin [Hk' Hu']]].
  unfold consistent_with in H. rewrite forallb_forall in H. specialize (H o' Hin).
  rewrite Hk, Hk', key_eqb_refl_pair in H. apply ans_eqb_eq in H. congruence.
Qed.

(** the cache part of CheckAddress, with a miss value equal to the spec's *)
Lemma check_v_exact : forall c prev st o a v,
  stored c 0 AErr o a v -> inv c prev st -> consistent_with c prev o = true ->
  let r := check_address_v c st a v in
  snd r = v /\ inv c (o :: prev) (fst r).
Proof.
  intros c prev st o a v S [Hc Hp] Hcons. unfold check_address_v.
  assert (Hp' : pub_ok c (o :: prev) (s_pub st)) by (intro id; apply justified_mono, Hp).
  destruct (lru_get a (s_chk st)) as [[v' l']|] eqn:G; cbn [fst snd].
  - destruct (justified_get _ _ o _ _ _ _ Hc G) as [J Hc'].
    pose proof (stored_hit _ _ _ _ _ _ _ _ _ Hcons S J) as E.
    split; [congruence|split; assumption].
  - split; [reflexivity|]. split; [apply justified_add; assumption|exact Hp'].
Qed.

(** the cache part of a public-key conversion by driver [id] *)
Lemma pub_id_exact : forall c prev st o id p h raw,
  has_drv c id = true -> c_raw c id p = Some raw ->
  stored c (1 + id) AStr o p (fmt c id h raw) ->
  inv c prev st -> consistent_with c prev o = true ->
  let r := pub_to_addr_id c st id p h in
  snd r = AStr (fmt c id h raw) /\ inv c (o :: prev) (fst r).
Proof.
  intros c prev st o id p h raw Hh Hr S [Hc Hp] Hcons. unfold pub_to_addr_id.
  rewrite Hh, Hr. cbn [negb].
  assert (Hset : forall l, justified (stored c (1 + id) AStr) (o :: prev) l ->
                 inv c (o :: prev) (mkSt (s_chk st) (pc_set id l (s_pub st)))).
  { intros l Hl. split; [apply justified_mono; exact Hc|]. intro id2. cbn [s_pub].
    destruct (N.eq_dec id2 id) as [->|Hne].
    - rewrite pc_find_set_same. exact Hl.
    - rewrite pc_find_set_other by exact Hne. apply justified_mono, Hp. }
  destruct (lru_get p (pc_find id (s_pub st))) as [[v l']|] eqn:G; cbn [fst snd].
  - destruct (justified_get _ _ o _ _ _ _ (Hp id) G) as [J Hl].
    rewrite (stored_hit _ _ _ _ _ _ _ _ _ Hcons S J). split; [reflexivity|apply Hset; exact Hl].
  - split; [reflexivity|]. apply Hset. apply justified_add; [apply Hp|exact S].
Qed.

Lemma step_exact : forall c prev st o perm,
  Permutation perm (c_drv c) -> inv c prev st ->
  op_unambiguous c o = true -> consistent_with c prev o = true ->
  snd (step c st o perm) = spec_answer c o /\ inv c (o :: prev) (fst (step c st o perm)).
Proof.
  intros c prev st o perm P Hinv Hun Hcons. unfold step.
  destruct (op_form_of c o) as [K S|a h f K U _ M S -> Un _|id p h raw g Hh Hr K U S -> _ _];
    rewrite S; cbn [fst snd].
  - split; [reflexivity|apply inv_mono; exact Hinv].
  - rewrite M, (miss_unambiguous c perm a h P (Un Hun)).
    destruct (check_v_exact c prev st o a _ (conj K U) Hinv Hcons) as [-> H2].
    split; [reflexivity|exact H2].
  - destruct (pub_id_exact c prev st o id p h raw Hh Hr (conj K U) Hinv Hcons) as [-> H2].
    split; [reflexivity|exact H2].
Qed.

Lemma run_exact_gen : forall c hist prev st,
  perms_ok c hist -> inv c prev st -> guard_from c prev (map fst hist) = true ->
  run c st hist = map (spec_answer c) (map fst hist).
Proof.
  intros c hist. induction hist as [|[o perm] tl IH]; intros prev st Hp Hinv Hg.
  - reflexivity.
  - cbn [map fst guard_from] in Hg.
    apply andb_true_iff in Hg as [Hg Hg3]. apply andb_true_iff in Hg as [Hg1 Hg2].
    apply Forall_cons_iff in Hp as [Hperm Hp'].
    destruct (step_exact c prev st o perm Hperm Hinv Hg1 Hg2) as [H1 H2].
    cbn [run map fst]. destruct (step c st o perm) as [st' a]. cbn [fst snd] in H1, H2.
    rewrite H1. f_equal. apply (IH (o :: prev) st'); assumption.
Qed.

Theorem history_independent_partial : forall c hist,
  perms_ok c hist -> guard_b c (map fst hist) = true ->
  run c st0 hist = map (spec_answer c) (map fst hist).
Proof.
  intros c hist Hp Hg. apply (run_exact_gen c hist [] st0); [exact Hp|apply inv_init|exact Hg].
Qed.

(** ** validity level: nil / non-nil needs no condition on the errors *)

Definition chk_okv (c : config) (prev : list op) (l : lru err) : Prop :=
  justified (fun o a v => exists h0, addr_query o = Some (a, h0) /\ is_nil v = spec_valid c a h0)
            prev l.

(** [vconsistent_with] compares the address queries among the earlier operations *)
Lemma vconsistent_query : forall c prev o,
  vconsistent_with c prev o
  = forallb (fun o' => match addr_query o, addr_query o' with
                       | Some (a, h), Some (a', h') =>
                           negb (N.eqb a a') || Bool.eqb (spec_valid c a h) (spec_valid c a' h')
                       | _, _ => true
                       end) prev.
Proof.
  intros c prev o. unfold vconsistent_with. induction prev as [|o' tl IH]; [reflexivity|].
  cbn [forallb]. rewrite IH. destruct o; try reflexivity; destruct o'; reflexivity.
Qed.

Lemma vconsistent_use : forall c prev o o' a h h0,
  vconsistent_with c prev o = true -> In o' prev ->
  addr_query o = Some (a, h) -> addr_query o' = Some (a, h0) ->
  spec_valid c a h = spec_valid c a h0.
Proof.
  intros c prev o o' a h h0 H Hin Hq Hq'. rewrite vconsistent_query, forallb_forall in H.
  specialize (H o' Hin). rewrite Hq, Hq', N.eqb_refl in H. apply Bool.eqb_prop in H. exact H.
Qed.

Lemma check_v_valid : forall c prev st o a h e,
  addr_query o = Some (a, h) -> is_nil e = spec_valid c a h ->
  chk_okv c prev (s_chk st) -> vconsistent_with c prev o = true ->
  let r := check_address_v c st a e in
  is_nil (snd r) = spec_valid c a h /\ chk_okv c (o :: prev) (s_chk (fst r)).
Proof.
  intros c prev st o a h e Hq He Hc Hcons. unfold check_address_v.
  destruct (lru_get a (s_chk st)) as [[v l']|] eqn:G; cbn [fst snd s_chk].
  - destruct (justified_get _ _ o _ _ _ _ Hc G) as [(o' & Hin & h0 & Hq' & Hv) Hc'].
    split; [|exact Hc']. rewrite Hv. symmetry. apply (vconsistent_use c prev o o'); assumption.
  - split; [exact He|]. apply justified_add; [exact Hc|]. exists h. split; assumption.
Qed.

Lemma pub_id_chk : forall c st id p h, s_chk (fst (pub_to_addr_id c st id p h)) = s_chk st.
Proof.
  intros c st id p h. unfold pub_to_addr_id.
  destruct (negb (has_drv c id)); [reflexivity|].
  destruct (c_raw c id p); [|reflexivity].
  destruct (lru_get p (pc_find id (s_pub st))) as [[v l']|]; reflexivity.
Qed.

Lemma step_valid : forall c prev st o perm,
  Permutation perm (c_drv c) -> chk_okv c prev (s_chk st) ->
  vconsistent_with c prev o = true ->
  (vclaim c o = true ->
     ans_valid (snd (step c st o perm)) = ans_valid (spec_answer c o))
  /\ chk_okv c (o :: prev) (s_chk (fst (step c st o perm))).
Proof.
  intros c prev st o perm P Hc Hcons. unfold step.
  destruct (op_form_of c o) as [_ S|a h f _ _ Q M S A _ F|id p h raw g _ _ _ _ S _ V _];
    rewrite S; cbn [fst snd].
  - split; [reflexivity|apply justified_mono; exact Hc].
  - rewrite M, A.
    destruct (check_v_valid c prev st o a h _ Q (miss_valid c perm a h P) Hc Hcons) as [H1 H2].
    split; [|exact H2]. intro Hv. rewrite !(F Hv). cbn [ans_valid].
    rewrite H1. symmetry. apply spec_under_valid.
  - split; [rewrite V; discriminate|]. rewrite pub_id_chk. apply justified_mono; exact Hc.
Qed.

Definition valid_agree (c : config) (o : op) (a : ans) : Prop :=
  vclaim c o = true -> ans_valid a = ans_valid (spec_answer c o).

Lemma run_valid_gen : forall c hist prev st,
  perms_ok c hist -> chk_okv c prev (s_chk st) -> vguard_from c prev (map fst hist) = true ->
  Forall2 (valid_agree c) (map fst hist) (run c st hist).
Proof.
  intros c hist. induction hist as [|[o perm] tl IH]; intros prev st Hp Hc Hg.
  - constructor.
  - cbn [map fst vguard_from] in Hg. apply andb_true_iff in Hg as [Hg1 Hg2].
    apply Forall_cons_iff in Hp as [Hperm Hp'].
    destruct (step_valid c prev st o perm Hperm Hc Hg1) as [H1 H2].
    cbn [run map fst]. destruct (step c st o perm) as [st' a]. cbn [fst snd] in H1, H2.
    constructor; [exact H1|]. apply (IH (o :: prev) st'); assumption.
Qed.

Theorem validity_history_independent_partial : forall c hist,
  perms_ok c hist -> vguard_b c (map fst hist) = true ->
  Forall2 (valid_agree c) (map fst hist) (run c st0 hist).
Proof.
  intros c hist Hp Hg. apply (run_valid_gen c hist [] st0); [exact Hp| |exact Hg].
  intros a v F. discriminate F.
Qed.

(** ** default configuration: every address driver enabled from height 0 *)
Lemma is_enable_zero : forall h, is_enable h 0 = true.
Proof.
  intro h. unfold is_enable. destruct (h <? 0); reflexivity.
Qed.

Lemma enabled_all_zero : forall c h, all_zero c = true -> enabled_drivers c h = c_drv c.
Proof.
  intros c h H. unfold all_zero in H. unfold enabled_drivers.
  induction (c_drv c) as [|[d en] tl IH]; [reflexivity|].
  simpl in H. apply andb_true_iff in H as [H1 H2]. apply Z.eqb_eq in H1. subst en.
  simpl. rewrite is_enable_zero. f_equal. apply IH; exact H2.
Qed.

Lemma spec_valid_all_zero : forall c a h h', all_zero c = true -> spec_valid c a h = spec_valid c a h'.
Proof.
  intros c a h h' H. unfold spec_valid. rewrite !(enabled_all_zero c _ H). reflexivity.
Qed.

Lemma vguard_all_zero : forall c ops prev, all_zero c = true -> vguard_from c prev ops = true.
Proof.
  intros c ops. induction ops as [|o tl IH]; intros prev H; [reflexivity|].
  simpl. rewrite (IH (o :: prev) H), andb_true_r, vconsistent_query.
  apply forallb_forall. intros o' _.
  destruct (addr_query o) as [[a h]|], (addr_query o') as [[a' h']|]; try reflexivity.
  destruct (N.eqb a a') eqn:E; [apply N.eqb_eq in E; subst a'|reflexivity].
  rewrite (spec_valid_all_zero c a h h' H). apply eqb_reflx.
Qed.

Theorem default_config_validity : forall c hist,
  all_zero c = true -> perms_ok c hist ->
  Forall2 (valid_agree c) (map fst hist) (run c st0 hist).
Proof.
  intros c hist H Hp. apply validity_history_independent_partial; [exact Hp|].
  apply vguard_all_zero; exact H.
Qed.

(** ** the exact theorem under the guard of the property text: default
    configuration, pubkey conversions on one side of the formatting fork, no
    address rejected with two different errors *)
Lemma spec_under_all_zero : forall c a h h', all_zero c = true -> spec_under c a h = spec_under c a h'.
Proof.
  intros c a h h' H. unfold spec_under.
  rewrite (spec_valid_all_zero c a h h' H). rewrite !(enabled_all_zero c _ H). reflexivity.
Qed.

Lemma fmt_same_side : forall c id h h' raw,
  is_fork h (c_ffmt c) = is_fork h' (c_ffmt c) -> fmt c id h raw = fmt c id h' raw.
Proof. intros c id h h' raw E. unfold fmt. rewrite E. reflexivity. Qed.

Lemma key_eqb_true : forall x1 x2 y1 y2,
  key_eqb (Some (x1, x2)) (Some (y1, y2)) = true -> x1 = y1 /\ x2 = y2.
Proof.
  intros x1 x2 y1 y2 H. unfold key_eqb in H. apply andb_true_iff in H as [H1 H2].
  apply N.eqb_eq in H1, H2. split; assumption.
Qed.

Lemma key_eqb_none_r : forall k, key_eqb k None = false.
Proof. intros [[x y]|]; reflexivity. Qed.

(** what an operation with a cache key stores: an address verdict (key 0) or a
    formatted address of some driver at the operation's context height *)
Lemma key_shape : forall c side o k1 k2,
  op_key c o = Some (k1, k2) ->
  (k1 = 0%N /\ exists h, op_under c o = AErr (spec_under c k2 h))
  \/ (exists id h raw, k1 = (1 + id)%N /\ c_raw c id k2 = Some raw
       /\ op_under c o = AStr (fmt c id h raw)
       /\ (fmt_side_b c side [o] = true -> is_fork h (c_ffmt c) = side)).
Proof.
  intros c side o k1 k2 K.
  destruct (op_form_of c o) as [K' _|a h f K' U _ _ _ _ _ _|id p h raw g _ Hr K' U _ _ _ Fs];
    rewrite K' in K.
  - discriminate K.
  - injection K as <- <-. left. split; [reflexivity|exists h; exact U].
  - injection K as <- <-. right. exists id, h, raw. repeat split; [exact Hr|exact U|apply Fs].
Qed.

Lemma consistent_default : forall c side prev o,
  all_zero c = true -> fmt_side_b c side prev = true -> fmt_side_b c side [o] = true ->
  consistent_with c prev o = true.
Proof.
  intros c side prev o Hz Hs Ho. unfold consistent_with. apply forallb_forall. intros o' Hin.
  assert (Hs' : fmt_side_b c side [o'] = true).
  { unfold fmt_side_b in *. rewrite forallb_forall in Hs. cbn [forallb]. rewrite (Hs o' Hin). reflexivity. }
  destruct (key_eqb (op_key c o) (op_key c o')) eqn:Hk; [|reflexivity].
  cbn [negb orb].
  destruct (op_key c o) as [[k1 k2]|] eqn:K; [|discriminate Hk].
  destruct (op_key c o') as [[k1' k2']|] eqn:K'; [|discriminate Hk].
  apply key_eqb_true in Hk as [<- <-].
  destruct (key_shape c side o k1 k2 K) as [[E0 [h U]]|(id & h & raw & E1 & R & U & S)];
  destruct (key_shape c side o' k1 k2 K') as [[E0' [h' U']]|(id' & h' & raw' & E1' & R' & U' & S')].
  - rewrite U, U'. cbn [ans_eqb]. rewrite (spec_under_all_zero c k2 h h' Hz). apply err_eqb_refl.
  - exfalso; lia.
  - exfalso; lia.
  - assert (id' = id) by lia. subst id'. rewrite R in R'. injection R' as <-.
    rewrite U, U'. cbn [ans_eqb]. rewrite (fmt_same_side c id h h' raw).
    + apply (proj2 (bytes_eqb_eq _ _)). reflexivity.
    + rewrite (S Ho), (S' Hs'). reflexivity.
Qed.

Lemma guard_default_gen : forall c side ops prev,
  all_zero c = true -> fmt_side_b c side prev = true -> fmt_side_b c side ops = true ->
  all_unambiguous c ops = true -> guard_from c prev ops = true.
Proof.
  intros c side ops. induction ops as [|o tl IH]; intros prev Hz Hp Ho Hu; [reflexivity|].
  simpl in Ho, Hu. apply andb_true_iff in Ho as [Ho1 Ho2]. apply andb_true_iff in Hu as [Hu1 Hu2].
  simpl. rewrite Hu1. simpl.
  rewrite (consistent_default c side prev o Hz Hp); [|simpl; rewrite Ho1; reflexivity]. simpl.
  apply IH; try assumption. simpl. rewrite Ho1. exact Hp.
Qed.

Theorem default_config_exact : forall c side hist,
  all_zero c = true -> fmt_side_b c side (map fst hist) = true ->
  all_unambiguous c (map fst hist) = true -> perms_ok c hist ->
  run c st0 hist = map (spec_answer c) (map fst hist).
Proof.
  intros c side hist Hz Hs Hu Hp. apply history_independent_partial; [exact Hp|].
  apply (guard_default_gen c side); [exact Hz|reflexivity|exact Hs|exact Hu].
Qed.
