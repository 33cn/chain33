(** C19 — proofs about the TransactionCache model: every answer is exactly the
    verdict of the first call of the same method on the same wrapper. *)
From Coq Require Import List ZArith NArith Bool.
From C33 Require Import Lib.Harness C19.Model C19.ModelTx C19.SpecTx.
Import ListNotations.
Open Scope Z_scope.

(** ** equality tests *)
Definition terr_of_code (n : N) : terr :=
  match n with
  | 0 => TNil | 1 => TGroupCount | 2 => TDecode | 3 => TNormalTx | 4 => TChainID | 5 => TFeeLow
  | 6 => TFeeHigh | 7 => TTooBig | 8 => TLessThanTwo | 9 => TParaCount | 10 => TParaMixed
  | 11 => TFeeNotZero | 12 => TGroupHeader | 13 => TCountBig | 14 => TGroupNext | _ => TOther
  end%N.

Lemma terr_of_code_code : forall e, terr_of_code (terr_code e) = e.
Proof. destruct e; reflexivity. Qed.

Lemma terr_eqb_eq : forall a b, terr_eqb a b = true -> a = b.
Proof.
  intros a b H. apply N.eqb_eq in H.
  rewrite <- (terr_of_code_code a), H. apply terr_of_code_code.
Qed.

Lemma terr_eqb_refl : forall a, terr_eqb a a = true.
Proof. intro a. apply N.eqb_refl. Qed.

Lemma tans_eqb_eq : forall a b, tans_eqb a b = true -> a = b.
Proof.
  intros a b; destruct a as [e|x|e v], b as [e'|y|e' v']; cbn [tans_eqb]; try discriminate; intro H.
  - apply terr_eqb_eq in H; congruence.
  - apply Bool.eqb_prop in H; congruence.
  - apply andb_true_iff in H as [H1 H2]. apply terr_eqb_eq in H1. apply Z.eqb_eq in H2. congruence.
Qed.

Lemma tans_eqb_refl : forall a, tans_eqb a a = true.
Proof.
  destruct a as [e|x|e v]; cbn [tans_eqb].
  - apply terr_eqb_refl.
  - apply Bool.eqb_reflx.
  - rewrite terr_eqb_refl, Z.eqb_refl; reflexivity.
Qed.

Lemma tkey_eqb_eq : forall a b, tkey_eqb a b = true -> a = b.
Proof.
  intros [[a1 a2]|] [[b1 b2]|]; cbn [tkey_eqb]; try discriminate; intro H.
  apply andb_true_iff in H as [H1 H2]. apply N.eqb_eq in H1. apply N.eqb_eq in H2. congruence.
Qed.

Lemma tkey_eqb_some_refl : forall p, tkey_eqb (Some p) (Some p) = true.
Proof. intros [a b]; cbn [tkey_eqb]; rewrite !N.eqb_refl; reflexivity. Qed.

Lemma tkey_eqb_none_l : forall b, tkey_eqb None b = false.
Proof. reflexivity. Qed.

Lemma tkey_eqb_none_r : forall a, tkey_eqb a None = false.
Proof. intros [[a1 a2]|]; reflexivity. Qed.

Lemma tkey_eqb_other : forall a a' x x', x' <> x -> tkey_eqb (Some (a', x')) (Some (a, x)) = false.
Proof.
  intros a a' x x' NE; cbn [tkey_eqb]. apply N.eqb_neq in NE. rewrite NE. apply andb_false_r.
Qed.

Lemma key_ne : forall a x x', x' <> x -> tkey_eqb (Some (a, x')) (Some (a, x)) = false.
Proof. intros a x x'. apply tkey_eqb_other. Qed.

(** ** the memo store *)
Lemma tget_tset_same : forall x s st, tget x (tset x s st) = s.
Proof.
  intros x s st; induction st as [|[y s'] tl IH]; cbn [tset tget].
  - rewrite N.eqb_refl; reflexivity.
  - destruct (N.eqb x y) eqn:E; cbn [tget]; rewrite E; [reflexivity|exact IH].
Qed.

Lemma tget_tset_other : forall x x' s st, x' <> x -> tget x' (tset x s st) = tget x' st.
Proof.
  intros x x' s st NE; induction st as [|[y s'] tl IH]; cbn [tset tget].
  - destruct (N.eqb x' x) eqn:E; [apply N.eqb_eq in E; contradiction|reflexivity].
  - destruct (N.eqb x y) eqn:E; cbn [tget].
    + apply N.eqb_eq in E; subst y.
      destruct (N.eqb x' x) eqn:E'; [apply N.eqb_eq in E'; contradiction|reflexivity].
    + destruct (N.eqb x' y); [reflexivity|exact IH].
Qed.

(** ** the first call that read a memo field *)

(** the oldest operation with key [k] among [prev] (latest first) *)
Fixpoint oldest (k : option (N * N)) (prev : list top) : option top :=
  match prev with
  | [] => None
  | o :: tl => match oldest k tl with
               | Some o' => Some o'
               | None => if tkey_eqb k (tkey o) then Some o else None
               end
  end.

Definition has_key (k : option (N * N)) (prev : list top) : bool :=
  existsb (fun o' => tkey_eqb k (tkey o')) prev.

Lemma first_same_oldest : forall k prev d,
  first_same k prev d = match oldest k prev with Some o => o | None => d end.
Proof.
  intros k prev; induction prev as [|o tl IH]; intro d; cbn [first_same oldest]; [reflexivity|].
  destruct (tkey_eqb k (tkey o)); rewrite IH; destruct (oldest k tl); reflexivity.
Qed.

Lemma has_key_oldest : forall k prev,
  has_key k prev = match oldest k prev with Some _ => true | None => false end.
Proof.
  intros k prev; induction prev as [|o tl IH]; [reflexivity|].
  change (has_key k (o :: tl)) with (tkey_eqb k (tkey o) || has_key k tl).
  cbn [oldest]. rewrite IH. destruct (oldest k tl); [apply orb_true_r|].
  destruct (tkey_eqb k (tkey o)); reflexivity.
Qed.

Lemma oldest_in : forall k prev o,
  oldest k prev = Some o -> In o prev /\ tkey_eqb k (tkey o) = true.
Proof.
  intros k prev o; induction prev as [|q tl IH]; cbn [oldest]; [discriminate|].
  destruct (oldest k tl) as [o'|].
  - intro E. destruct (IH E) as [HIn K]. split; [right; exact HIn|exact K].
  - destruct (tkey_eqb k (tkey q)) eqn:K; [|discriminate].
    intro E; injection E as <-. split; [left; reflexivity|exact K].
Qed.

Lemma in_oldest : forall k prev o,
  In o prev -> tkey_eqb k (tkey o) = true -> exists o', oldest k prev = Some o'.
Proof.
  intros k prev o HIn K.
  assert (H : has_key k prev = true) by (apply existsb_exists; exists o; split; assumption).
  rewrite has_key_oldest in H. destruct (oldest k prev) as [o'|]; [exists o'; reflexivity|discriminate H].
Qed.

Lemma oldest_none : forall prev, oldest None prev = None.
Proof. induction prev as [|o tl IH]; cbn [oldest]; [|rewrite IH]; reflexivity. Qed.

Lemma fs_haskey : forall k prev d1 d2, has_key k prev = true ->
  first_same k prev d1 = first_same k prev d2.
Proof.
  intros k prev d1 d2 H. rewrite has_key_oldest in H. rewrite !first_same_oldest.
  destruct (oldest k prev); [reflexivity|discriminate H].
Qed.

(** the verdict remembered for memo field [p] after [prev] *)
Definition seen (tc : tconfig) (prev : list top) (p : N * N) : option tans :=
  option_map (tspec tc) (oldest (Some p) prev).

Lemma sticky_seen : forall tc prev o p, tkey o = Some p ->
  sticky tc prev o = match seen tc prev p with Some v => v | None => tspec tc o end.
Proof.
  intros tc prev o p K. unfold sticky, seen. rewrite K, first_same_oldest.
  destruct (oldest (Some p) prev); reflexivity.
Qed.

Lemma sticky_nokey : forall tc prev o, tkey o = None -> sticky tc prev o = tspec tc o.
Proof.
  intros tc prev o K. unfold sticky. rewrite K, first_same_oldest, oldest_none. reflexivity.
Qed.

Lemma seen_cons_same : forall tc prev o p,
  tkey o = Some p -> seen tc (o :: prev) p = Some (sticky tc prev o).
Proof.
  intros tc prev o p K. rewrite (sticky_seen _ _ _ _ K). unfold seen. cbn [oldest].
  rewrite K, tkey_eqb_some_refl. destruct (oldest (Some p) prev); reflexivity.
Qed.

Lemma seen_cons_other : forall tc prev o p,
  tkey_eqb (Some p) (tkey o) = false -> seen tc (o :: prev) p = seen tc prev p.
Proof.
  intros tc prev o p E. unfold seen. cbn [oldest]. rewrite E.
  destruct (oldest (Some p) prev); reflexivity.
Qed.

(** ** the invariant: the memo fields hold what the first calls answered *)

(** the memo fields read as optional answers: 0 = checked/checkok, 1 = signok *)
Definition memo (k : N) (s : tcs) : option tans :=
  match k with
  | 0%N => if t_checked s then Some (TAErr (t_checkok s)) else None
  | _ => if N.eqb (t_signok s) 0 then None else Some (TABool (N.eqb (t_signok s) 1))
  end.

Definition inv_x (tc : tconfig) (prev : list top) (s : tcs) (x : N) : Prop :=
  memo 0 s = seen tc prev (0%N, x) /\ memo 1 s = seen tc prev (1%N, x).

Definition inv (tc : tconfig) (prev : list top) (st : tstate) : Prop :=
  forall x, inv_x tc prev (tget x st) x.

Lemma inv_init : forall tc, inv tc [] [].
Proof. intros tc x; split; reflexivity. Qed.

(** an operation on wrapper [x] concerns neither the fields nor the first calls of the other wrappers *)
Lemma inv_frame : forall tc prev st st' o x,
  inv tc prev st ->
  (forall k y, tkey o = Some (k, y) -> y = x) ->
  (forall x', x' <> x -> tget x' st' = tget x' st) ->
  inv_x tc (o :: prev) (tget x st') x ->
  inv tc (o :: prev) st'.
Proof.
  intros tc prev st st' o x I K T Ix x'. destruct (N.eq_dec x' x) as [->|NE]; [exact Ix|].
  assert (E : forall k, tkey_eqb (Some (k, x')) (tkey o) = false).
  { intro k. destruct (tkey o) as [[k' y]|] eqn:Ko; [|reflexivity].
    rewrite (K _ _ eq_refl). apply tkey_eqb_other; exact NE. }
  unfold inv_x. rewrite (T x' NE), !seen_cons_other by apply E. apply I.
Qed.

(** what an operation that reads memo field [k] of wrapper [x] does *)
Lemma tstep_keyed : forall tc st o k x st' a,
  tkey o = Some (k, x) -> tstep tc st o = (st', a) ->
  (k = 0 \/ k = 1)%N
  /\ a = match memo k (tget x st) with Some v => v | None => tspec tc o end
  /\ memo k (tget x st') = Some a
  /\ memo (1 - k) (tget x st') = memo (1 - k) (tget x st)
  /\ forall x', x' <> x -> tget x' st' = tget x' st.
Proof.
  intros tc st o k x st' a K S.
  destruct o as [y h mi ma|y h| | |]; try discriminate K; injection K as <- <-;
    cbn [tstep] in S; (split; [auto|]); change (1 - 0)%N with 1%N; change (1 - 1)%N with 0%N;
    cbn [memo].
  - destruct (t_checked (tget y st)) eqn:C; injection S as <- <-.
    + rewrite C. repeat split.
    + rewrite tget_tset_same. repeat split. intros x' NE. apply tget_tset_other; exact NE.
  - destruct (N.eqb (t_signok (tget y st)) 0) eqn:C; injection S as <- <-.
    + rewrite tget_tset_same. cbn [t_signok t_checked t_checkok].
      repeat split; [destruct (tx_sign tc (oshape tc y) h); reflexivity|].
      intros x' NE. apply tget_tset_other; exact NE.
    + rewrite C. repeat split.
Qed.

Lemma step_keyed : forall tc prev st o k x st' a,
  tkey o = Some (k, x) -> inv tc prev st -> tstep tc st o = (st', a) ->
  a = sticky tc prev o /\ inv tc (o :: prev) st'.
Proof.
  intros tc prev st o k x st' a K I S.
  destruct (tstep_keyed _ _ _ _ _ _ _ K S) as (K01 & A & M & M' & T).
  destruct (I x) as [I0 I1].
  assert (A' : a = sticky tc prev o).
  { rewrite (sticky_seen _ _ _ _ K). destruct K01; subst k; rewrite <- ?I0, <- ?I1; exact A. }
  split; [exact A'|].
  apply (inv_frame tc prev st st' o x I); [intros k' y E; congruence|exact T|].
  unfold inv_x.
  destruct K01; subst k; simpl (1 - _)%N in M';
    rewrite (seen_cons_same _ _ _ _ K), seen_cons_other by (rewrite K; reflexivity);
    rewrite M, M', A'; split; first [reflexivity|assumption].
Qed.

(** an operation that reads no memo field and leaves the fields alone *)
Lemma inv_nokey : forall tc prev st o, tkey o = None -> inv tc prev st -> inv tc (o :: prev) st.
Proof.
  intros tc prev st o K I x. unfold inv_x.
  rewrite !seen_cons_other by (rewrite K; reflexivity). apply I.
Qed.

(** GetTotalFee may overwrite [checkok], but only with the verdict every Check
    of that wrapper has anyway (GetTxGroup failed) *)
Lemma step_fee : forall tc prev st x mi st' a,
  inv tc prev st -> tstep tc st (TFee x mi) = (st', a) ->
  a = tspec tc (TFee x mi) /\ inv tc (TFee x mi :: prev) st'.
Proof.
  intros tc prev st x mi st' a I S. cbn [tstep tspec] in *.
  destruct (oshape tc x) as [e0|m|ms stc] eqn:SH.
  2,3: destruct (tx_total_fee _ mi) as [e v]; injection S as <- <-;
       (split; [reflexivity|apply inv_nokey; [reflexivity|exact I]]).
  cbn [tx_total_fee] in *. injection S as <- <-. split; [reflexivity|].
  apply (inv_frame tc prev st _ _ x I); [discriminate| |].
  - intros x' NE. apply tget_tset_other; exact NE.
  - destruct (I x) as [I0 I1]. unfold inv_x.
    rewrite tget_tset_same, !seen_cons_other by reflexivity. split; [|exact I1].
    rewrite <- I0. cbn [memo t_checked t_checkok].
    destruct (t_checked (tget x st)) eqn:C; [|reflexivity].
    (* the first Check of [x] answered the error of GetTxGroup *)
    cbn [memo] in I0. rewrite C in I0. unfold seen in I0.
    destruct (oldest (Some (0%N, x)) prev) as [o'|] eqn:O; [|discriminate I0].
    apply oldest_in in O as [_ Ko]. apply tkey_eqb_eq in Ko.
    destruct o' as [y h' mi' ma'| | | |]; try discriminate Ko. injection Ko as <-.
    cbn [option_map tspec] in I0. rewrite SH in I0. symmetry; exact I0.
Qed.

Lemma step_sticky : forall tc prev st o st' a,
  inv tc prev st -> tstep tc st o = (st', a) ->
  a = sticky tc prev o /\ inv tc (o :: prev) st'.
Proof.
  intros tc prev st o st' a I S. destruct (tkey o) as [[k x]|] eqn:K.
  - apply (step_keyed tc prev st o k x); assumption.
  - rewrite (sticky_nokey _ _ _ K).
    destruct o as [x h mi ma|x h|x mi|t h mi ma|t h]; try discriminate K.
    + apply (step_fee tc prev st); assumption.
    + injection S as <- <-. split; [reflexivity|apply inv_nokey; [exact K|exact I]].
    + injection S as <- <-. split; [reflexivity|apply inv_nokey; [exact K|exact I]].
Qed.

Lemma run_sticky : forall tc ops prev st,
  inv tc prev st -> trun tc st ops = sticky_run tc prev ops.
Proof.
  intros tc ops; induction ops as [|o tl IH]; intros prev st I; [reflexivity|].
  cbn [trun sticky_run]. destruct (tstep tc st o) as [st' a] eqn:S.
  destruct (step_sticky _ _ _ _ _ _ I S) as [-> I']. f_equal. apply IH; exact I'.
Qed.

Lemma first_verdict_sticks : forall tc ops, trun tc [] ops = sticky_run tc [] ops.
Proof. intros; apply run_sticky; apply inv_init. Qed.
