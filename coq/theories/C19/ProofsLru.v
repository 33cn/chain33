(** C19 — facts about the LRU model: whatever a lookup finds was put there by
    an earlier add (moves to front and evictions never invent entries); the
    capacity bound; the table of per-driver caches. *)
From Coq Require Import List ZArith NArith Bool Lia.
From C33 Require Import Lib.Harness C19.Model.
Import ListNotations.

Section LruFacts.
  Context {V : Type}.
  Implicit Types l : lru V.

  Lemma find_remove_other : forall k k' l,
    k <> k' -> lru_find k (lru_remove k' l) = lru_find k l.
  Proof.
    intros k k' l Hne. induction l as [|[k2 v2] tl IH]; simpl; [reflexivity|].
    destruct (N.eqb k' k2) eqn:E1.
    - apply N.eqb_eq in E1. subst k2.
      destruct (N.eqb k k') eqn:E2; [apply N.eqb_eq in E2; contradiction|reflexivity].
    - simpl. destruct (N.eqb k k2); [reflexivity|exact IH].
  Qed.

  Lemma find_removelast : forall k l w,
    lru_find k (removelast l) = Some w -> lru_find k l = Some w.
  Proof.
    intros k l w. induction l as [|[k2 v2] [|x tl] IH]; [discriminate..|].
    cbn [removelast lru_find] in *. destruct (N.eqb k k2); [trivial|exact IH].
  Qed.

  Lemma find_cons : forall k k' v l w,
    lru_find k ((k', v) :: l) = Some w -> (k = k' /\ w = v) \/ (k <> k' /\ lru_find k l = Some w).
  Proof.
    intros k k' v l w H. simpl in H. destruct (N.eqb k k') eqn:E.
    - apply N.eqb_eq in E. left. split; [exact E|congruence].
    - apply N.eqb_neq in E. right. split; [exact E|exact H].
  Qed.

  (** entries after a move-to-front come from the old list or are the moved one *)
  Lemma find_front : forall k k' v l w,
    lru_find k ((k', v) :: lru_remove k' l) = Some w ->
    (k = k' /\ w = v) \/ lru_find k l = Some w.
  Proof.
    intros k k' v l w H. apply find_cons in H as [H|[Hne H]]; [left; exact H|right].
    rewrite find_remove_other in H by exact Hne. exact H.
  Qed.

  Lemma find_add : forall cap k k' v l w,
    lru_find k (lru_add cap k' v l) = Some w ->
    (k = k' /\ w = v) \/ lru_find k l = Some w.
  Proof.
    intros cap k k' v l w H. unfold lru_add in H.
    destruct (lru_find k' l); [apply find_front; exact H|].
    destruct (N.ltb cap (N.of_nat (length ((k', v) :: l)))); [apply find_removelast in H|];
      apply find_cons in H as [H|[_ H]]; auto.
  Qed.

  Lemma get_some : forall k l v l',
    lru_get k l = Some (v, l') ->
    lru_find k l = Some v /\
    forall k2 w, lru_find k2 l' = Some w -> lru_find k2 l = Some w.
  Proof.
    intros k l v l' H. unfold lru_get in H. destruct (lru_find k l) eqn:F; [|discriminate].
    inversion H; subst. split; [reflexivity|].
    intros k2 w Hf. apply find_front in Hf. destruct Hf as [[-> ->]|Hf]; [exact F|exact Hf].
  Qed.

  Lemma get_none : forall k l, lru_get k l = None -> lru_find k l = None.
  Proof.
    intros k l H. unfold lru_get in H. destruct (lru_find k l); [discriminate|reflexivity].
  Qed.

  Lemma remove_length : forall k l v,
    lru_find k l = Some v -> S (length (lru_remove k l)) = length l.
  Proof.
    intros k l v. induction l as [|[k2 v2] tl IH]; simpl; [discriminate|].
    destruct (N.eqb k k2); [reflexivity|]. intro H. simpl. rewrite IH by exact H. reflexivity.
  Qed.

  Lemma removelast_length : forall (l : lru V), l <> [] -> S (length (removelast l)) = length l.
  Proof.
    induction l as [|x [|y tl] IH]; [congruence|reflexivity|]. intros _.
    cbn [removelast length] in *. rewrite IH by discriminate. reflexivity.
  Qed.

  (** the capacity bound is kept *)
  Lemma add_length : forall cap k v l,
    (N.of_nat (length l) <= cap)%N ->
    (N.of_nat (length (lru_add cap k v l)) <= cap)%N.
  Proof.
    intros cap k v l Hl. unfold lru_add. destruct (lru_find k l) eqn:F.
    - simpl length. rewrite (remove_length _ _ _ F). exact Hl.
    - destruct (N.ltb cap (N.of_nat (length ((k, v) :: l)))) eqn:E.
      + assert (Hs := removelast_length ((k, v) :: l)). simpl length in *.
        specialize (Hs ltac:(discriminate)). lia.
      + apply N.ltb_ge in E. exact E.
  Qed.

  Lemma get_length : forall k l v l',
    lru_get k l = Some (v, l') -> length l' = length l.
  Proof.
    intros k l v l' H. unfold lru_get in H. destruct (lru_find k l) eqn:F; [|discriminate].
    inversion H; subst. simpl. apply (remove_length _ _ _ F).
  Qed.
End LruFacts.

(** ** caches whose every entry is accounted for by an earlier operation:
    [R o k v] says that operation [o] may have stored [v] under [k] *)
Section Justified.
  Context {O V : Type} (R : O -> N -> V -> Prop).

  Definition justified (prev : list O) (l : lru V) : Prop :=
    forall k v, lru_find k l = Some v -> exists o, In o prev /\ R o k v.

  Lemma justified_mono : forall prev o l, justified prev l -> justified (o :: prev) l.
  Proof.
    intros prev o l H k v F. destruct (H k v F) as [o' [HIn HR]].
    exists o'. split; [right; exact HIn|exact HR].
  Qed.

  Lemma justified_get : forall prev o k l v l',
    justified prev l -> lru_get k l = Some (v, l') ->
    (exists o', In o' prev /\ R o' k v) /\ justified (o :: prev) l'.
  Proof.
    intros prev o k l v l' H G. apply get_some in G as [F Hsub]. split; [exact (H k v F)|].
    apply justified_mono. intros k2 w F2. exact (H k2 w (Hsub k2 w F2)).
  Qed.

  Lemma justified_add : forall prev o cap k v l,
    justified prev l -> R o k v -> justified (o :: prev) (lru_add cap k v l).
  Proof.
    intros prev o cap k v l H HR k2 w F. apply find_add in F as [[-> ->]|F].
    - exists o. split; [left; reflexivity|exact HR].
    - exact (justified_mono _ _ _ H k2 w F).
  Qed.
End Justified.

Lemma pc_find_set_same : forall d x l, pc_find d (pc_set d x l) = x.
Proof.
  intros d x l. induction l as [|[d' y] tl IH]; simpl.
  - rewrite N.eqb_refl. reflexivity.
  - destruct (N.eqb d d') eqn:E; simpl.
    + rewrite N.eqb_refl. reflexivity.
    + rewrite E. exact IH.
Qed.

Lemma pc_find_set_other : forall d d' x l, d' <> d -> pc_find d' (pc_set d x l) = pc_find d' l.
Proof.
  intros d d' x l Hne. induction l as [|[d2 y] tl IH]; simpl.
  - destruct (N.eqb d' d) eqn:E; [apply N.eqb_eq in E; contradiction|reflexivity].
  - destruct (N.eqb d d2) eqn:E; simpl.
    + apply N.eqb_eq in E. subst d2.
      destruct (N.eqb d' d) eqn:E2; [apply N.eqb_eq in E2; contradiction|reflexivity].
    + destruct (N.eqb d' d2); [reflexivity|exact IH].
Qed.
