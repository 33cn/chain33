(** C19 — TransactionCache: history independence holds exactly under the guard;
    refutations; the signature gate. *)
From Coq Require Import List ZArith NArith Bool Lia.
From C33 Require Import Lib.Harness C19.Model C19.ModelTx C19.SpecTx C19.ProofsTx.
Import ListNotations.
Open Scope Z_scope.

(** ** guard => the sticky verdict is the spec verdict *)
Lemma consistent_sticky : forall tc prev o,
  tconsistent tc prev o = true -> sticky tc prev o = tspec tc o.
Proof.
  intros tc prev o C. unfold sticky. rewrite first_same_oldest.
  destruct (oldest (tkey o) prev) as [o'|] eqn:O; [|reflexivity].
  apply oldest_in in O as [HIn K]. unfold tconsistent in C. rewrite forallb_forall in C.
  specialize (C o' HIn). rewrite K in C. symmetry. apply tans_eqb_eq. exact C.
Qed.

Lemma guard_sticky : forall tc ops prev,
  tguard_from tc prev ops = true -> sticky_run tc prev ops = map (tspec tc) ops.
Proof.
  intros tc ops; induction ops as [|o tl IH]; intros prev G; [reflexivity|].
  cbn [tguard_from] in G. apply andb_true_iff in G as [G1 G2].
  cbn [sticky_run map]. rewrite (consistent_sticky _ _ _ G1), (IH _ G2). reflexivity.
Qed.

Lemma txcache_partial : forall tc ops,
  tguard_b tc ops = true -> trun tc [] ops = map (tspec tc) ops.
Proof.
  intros tc ops G. rewrite first_verdict_sticks. apply guard_sticky; exact G.
Qed.

(** ** ... and the guard is necessary *)

(* every earlier operation agrees with the first one of its key *)
Definition all_first (tc : tconfig) (prev : list top) : Prop :=
  forall o' q, In o' prev -> oldest (tkey o') prev = Some q -> tspec tc q = tspec tc o'.

Lemma in_has_key : forall o' prev, In o' prev -> forall p, tkey o' = Some p -> has_key (Some p) prev = true.
Proof.
  intros o' prev HIn p K. apply existsb_exists. exists o'. split; [exact HIn|].
  rewrite K. apply tkey_eqb_some_refl.
Qed.

(** agreeing with the first call of the key is agreeing with all of them, as they agree with it *)
Lemma sticky_consistent : forall tc prev o,
  all_first tc prev -> sticky tc prev o = tspec tc o ->
  tconsistent tc prev o = true /\ all_first tc (o :: prev).
Proof.
  intros tc prev o AF E. unfold sticky in E. rewrite first_same_oldest in E. split.
  - unfold tconsistent. apply forallb_forall. intros o' HIn.
    destruct (tkey_eqb (tkey o) (tkey o')) eqn:EK; [|reflexivity]. cbn [negb orb].
    destruct (in_oldest _ _ _ HIn EK) as [q O]. rewrite O in E.
    apply tkey_eqb_eq in EK. rewrite EK in O. rewrite <- E, (AF o' q HIn O). apply tans_eqb_refl.
  - intros o' q [<-|HIn]; cbn [oldest].
    + destruct (oldest (tkey o) prev) as [q'|]; intro O.
      * injection O as <-. exact E.
      * destruct (tkey_eqb (tkey o) (tkey o)); [injection O as <-; reflexivity|discriminate O].
    + destruct (oldest (tkey o') prev) as [q'|] eqn:O'; intro O.
      * injection O as <-. exact (AF o' q' HIn O').
      * (* [o'] itself is a call with its key *)
        destruct (tkey o') as [p|] eqn:K; [|discriminate O].
        destruct (in_oldest (Some p) prev o' HIn) as [q' O''];
          [rewrite K; apply tkey_eqb_some_refl|congruence].
Qed.

Lemma sticky_guard : forall tc ops prev,
  all_first tc prev ->
  sticky_run tc prev ops = map (tspec tc) ops -> tguard_from tc prev ops = true.
Proof.
  intros tc ops; induction ops as [|o tl IH]; intros prev AF E; [reflexivity|].
  cbn [sticky_run map] in E. injection E as E1 E2.
  destruct (sticky_consistent _ _ _ AF E1) as [C AF'].
  cbn [tguard_from]. rewrite C. apply IH; assumption.
Qed.

Lemma txcache_iff : forall tc ops,
  trun tc [] ops = map (tspec tc) ops <-> tguard_b tc ops = true.
Proof.
  intros tc ops; split.
  - intro E. rewrite first_verdict_sticks in E. apply sticky_guard; [|exact E].
    intros o' HIn; contradiction.
  - apply txcache_partial.
Qed.

(** ** the mempool's use: no memo field read twice *)
Lemma single_use_guard : forall tc ops prev,
  single_use_from prev ops = true -> tguard_from tc prev ops = true.
Proof.
  intros tc ops; induction ops as [|o tl IH]; intros prev S; [reflexivity|].
  cbn [single_use_from] in S. apply andb_true_iff in S as [S1 S2].
  cbn [tguard_from]. apply andb_true_iff; split; [|apply IH; exact S2].
  unfold tconsistent. apply forallb_forall. intros o' HIn.
  rewrite forallb_forall in S1. rewrite (S1 o' HIn). reflexivity.
Qed.

Lemma txcache_single_use : forall tc ops,
  single_use_b ops = true -> trun tc [] ops = map (tspec tc) ops.
Proof. intros tc ops S. apply txcache_partial. apply single_use_guard; exact S. Qed.

(** ** refutations *)
Definition txcache_history_independent_full : Prop :=
  forall tc ops, trun tc [] ops = map (tspec tc) ops.

Definition txcache_sign_independent_full : Prop :=
  forall tc x h1 h2, trun tc [] [TSign x h1; TSign x h2] = map (tspec tc) [TSign x h1; TSign x h2].

Definition txcache_check_independent_full : Prop :=
  forall tc x a b, trun tc [] [TCheck x (fst (fst a)) (snd (fst a)) (snd a); TCheck x (fst (fst b)) (snd (fst b)) (snd b)]
                   = map (tspec tc) [TCheck x (fst (fst a)) (snd (fst a)) (snd a);
                                     TCheck x (fst (fst b)) (snd (fst b)) (snd b)].

(* secp256k1 (type 1) enabled from height 10; one valid transfer of fee 100000, one fee unit *)
Definition w_member : mtx := mkM 0 100000 (Some 1) (Some 0%N) None false.
Definition tc_w : tconfig :=
  mkTc [(1%N, (true, 10))] (fun _ => Some (1, true)) (fun _ => true) 0 100 18 0 (fun _ => SSingle w_member) (fun x => x).

Lemma txcache_sign_refuted : ~ txcache_sign_independent_full.
Proof. intro H. specialize (H tc_w 0%N 5 20). vm_compute in H. discriminate H. Qed.

Lemma txcache_check_refuted : ~ txcache_check_independent_full.
Proof. intro H. specialize (H tc_w 0%N (20, 0, 0) (20, 200000, 0)). vm_compute in H. discriminate H. Qed.

Lemma txcache_refuted : ~ txcache_history_independent_full.
Proof. intro H. apply txcache_sign_refuted. intros tc x h1 h2. apply H. Qed.

(** what the witnesses answer *)
Lemma txcache_witness_answers :
  trun tc_w [] [TSign 0%N 5; TSign 0%N 20] = [TABool false; TABool false]
  /\ map (tspec tc_w) [TSign 0%N 5; TSign 0%N 20] = [TABool false; TABool true]
  /\ trun tc_w [] [TSign 0%N 20; TSign 0%N 5] = [TABool true; TABool true]
  /\ trun tc_w [] [TCheck 0%N 20 0 0; TCheck 0%N 20 200000 0] = [TAErr TNil; TAErr TNil]
  /\ map (tspec tc_w) [TCheck 0%N 20 0 0; TCheck 0%N 20 200000 0] = [TAErr TNil; TAErr TFeeLow]
  /\ trun tc_w [] [TCheck 0%N 5 100000 50000; TCheck 0%N 20 100000 50000] = [TAErr TNil; TAErr TNil]
  /\ map (tspec tc_w) [TCheck 0%N 5 100000 50000; TCheck 0%N 20 100000 50000] = [TAErr TNil; TAErr TFeeHigh].
Proof. vm_compute. repeat split. Qed.

(** ** non-vacuity of the guard: the same wrapper checked repeatedly with
    different arguments on one side of the enable height / fee threshold,
    a second wrapper of the same transaction on the other side *)
Definition guarded_tops : list top :=
  [TSign 0%N 12; TCheck 0%N 12 100000 0; TSign 0%N 30; TCheck 0%N 15 50000 0; TFee 0%N 7;
   TSign 1%N 5; TCheck 1%N 20 200000 0; TSign 1%N 9; XSign 0%N 5; XCheck 0%N 20 200000 0].

Lemma txcache_guard_satisfiable :
  tguard_b tc_w guarded_tops = true
  /\ single_use_b guarded_tops = false
  /\ trun tc_w [] guarded_tops = map (tspec tc_w) guarded_tops
  /\ tspec tc_w (TSign 0%N 12) = TABool true /\ tspec tc_w (TSign 1%N 5) = TABool false
  /\ tspec tc_w (TCheck 1%N 20 200000 0) = TAErr TFeeLow.
Proof. vm_compute. repeat split. Qed.

Definition single_use_tops : list top :=
  [TCheck 0%N 6 100000 0; TSign 0%N 6; TCheck 1%N 21 200000 0; TSign 1%N 21; TFee 0%N 3; TFee 0%N 4].

Lemma txcache_single_use_satisfiable :
  single_use_b single_use_tops = true
  /\ map (tspec tc_w) single_use_tops
     = [TAErr TNil; TABool false; TAErr TFeeLow; TABool true; TAFee TNil 3; TAFee TNil 4].
Proof. vm_compute. repeat split. Qed.

(** ** the signature gate (crypto.Load with the enable check) *)
Lemma load_ok_exact : forall tc d h,
  load_ok tc d h = true <->
  exists en eh, assocC d (tc_cry tc) = Some (en, eh) /\ (h < 0 \/ (en = true /\ 0 <= eh <= h)).
Proof.
  intros tc d h; unfold load_ok; split.
  - destruct (assocC d (tc_cry tc)) as [[en eh]|]; [|discriminate].
    intro H. exists en, eh. split; [reflexivity|].
    destruct (h <? 0) eqn:E; [left; apply Z.ltb_lt; exact E|right].
    apply andb_true_iff in H as [H H3]. apply andb_true_iff in H as [H1 H2].
    apply Z.leb_le in H2. apply Z.leb_le in H3. repeat split; assumption.
  - intros (en & eh & -> & [H|(-> & H1 & H2)]).
    + apply Z.ltb_lt in H. rewrite H. reflexivity.
    + destruct (h <? 0); [reflexivity|].
      apply Z.leb_le in H1. apply Z.leb_le in H2. rewrite H1, H2. reflexivity.
Qed.

Lemma load_ok_mono : forall tc d h h', 0 <= h <= h' -> load_ok tc d h = true -> load_ok tc d h' = true.
Proof.
  intros tc d h h' Hh H. apply load_ok_exact in H as (en & eh & A & [B|(-> & B1 & B2)]); [lia|].
  apply load_ok_exact. exists true, eh. split; [exact A|right]. repeat split; lia.
Qed.

(** the height enters a signature verdict only through [load_ok] *)
Lemma msign_gate : forall tc h h' m,
  (forall d, load_ok tc d h = true -> load_ok tc d h' = true) ->
  msign tc h m = true -> msign tc h' m = true.
Proof.
  intros tc h h' m L. unfold msign. destruct (m_sig m) as [k|]; [|discriminate].
  destruct (tc_sig tc k) as [[ty okv]|]; [|discriminate].
  intro H. apply andb_true_iff in H as [H0 H]. apply andb_true_iff in H as [H1 H2].
  rewrite H0, (L _ H1), H2. reflexivity.
Qed.

Lemma tx_sign_gate : forall tc s h h',
  (forall d, load_ok tc d h = true -> load_ok tc d h' = true) ->
  tx_sign tc s h = true -> tx_sign tc s h' = true.
Proof.
  intros tc s h h' L. destruct s as [e|m|ms st]; cbn [tx_sign].
  - discriminate.
  - apply msign_gate; exact L.
  - rewrite !forallb_forall. intros H m HIn. apply (msign_gate tc h); [exact L|apply H; exact HIn].
Qed.

(** a signature valid at a height >= 0 stays valid at every later height *)
Lemma tx_sign_mono : forall tc s h h', 0 <= h <= h' -> tx_sign tc s h = true -> tx_sign tc s h' = true.
Proof. intros tc s h h' Hh. apply tx_sign_gate. intro d. apply load_ok_mono; exact Hh. Qed.

(** the enable height is the only height the verdict depends on: two heights on
    the same side of every driver's enable height give the same verdict *)
Definition same_side (tc : tconfig) (h h' : Z) : bool :=
  Bool.eqb (h <? 0) (h' <? 0)
  && forallb (fun p => Bool.eqb (snd (snd p) <=? h) (snd (snd p) <=? h')) (tc_cry tc).

Lemma assocC_in : forall d l v, assocC d l = Some v -> In (d, v) l.
Proof.
  intros d l v; induction l as [|[k w] tl IH]; cbn [assocC]; [discriminate|].
  destruct (N.eqb d k) eqn:E.
  - intro H; injection H as ->. apply N.eqb_eq in E; subst k. left; reflexivity.
  - intro H; right; apply IH; exact H.
Qed.

Lemma load_ok_same_side : forall tc d h h', same_side tc h h' = true -> load_ok tc d h = load_ok tc d h'.
Proof.
  intros tc d h h' S. unfold same_side in S. apply andb_true_iff in S as [S1 S2].
  apply Bool.eqb_prop in S1. unfold load_ok.
  destruct (assocC d (tc_cry tc)) as [[en eh]|] eqn:A; [|reflexivity].
  apply assocC_in in A. rewrite forallb_forall in S2. specialize (S2 _ A). cbn [snd] in S2.
  apply Bool.eqb_prop in S2. rewrite S1, S2. reflexivity.
Qed.

Lemma tx_sign_same_side : forall tc s h h', same_side tc h h' = true -> tx_sign tc s h = tx_sign tc s h'.
Proof.
  intros tc s h h' S. apply eq_true_iff_eq.
  split; apply tx_sign_gate; intro d; rewrite (load_ok_same_side tc d h h' S); trivial.
Qed.

(** the member signature check refines the one of Model.v ([check_sign]) when
    the tables agree *)
Lemma msign_refines_check_sign : forall tc c m k ty okv h,
  m_sig m = Some k -> tc_sig tc k = Some (ty, okv) ->
  c_sig c k = Some (crypto_id ty, okv) -> c_cry c = tc_cry tc ->
  msign tc h m = tc_fok tc k && check_sign c k h.
Proof.
  intros tc c m k ty okv h M S CS CC. unfold msign, check_sign, load_ok, crypto_enabled.
  rewrite M, S, CS, CC. reflexivity.
Qed.
