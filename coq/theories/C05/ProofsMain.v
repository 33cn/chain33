(** C05 — the partial theorem: on linear histories with fresh roots every
    version of the retained interval stays readable with the right values,
    whatever pruning runs are interleaved.  The invariant of such histories;
    why a pruning run keeps it (the safety argument); why a commit with a
    fresh root keeps it; histories. *)
From Coq Require Import List ZArith NArith Bool Lia.
From C33 Require Import C01.Keys C01.KeysFacts C01.Model C01.Spec C01.Store C01.Inv C01.Proofs C01.ProofsStore
  C05.Model C05.Spec C05.Hist C05.ProofsErase C05.ProofsTree C05.ProofsHash C05.ProofsSave
  C05.ProofsPrune C05.ProofsSetAll C05.ProofsAux.
Import ListNotations.
Open Scope Z_scope.

(** proof-level record of a commit: the stamped tree it saved, the database
    keys it created, the keys it wrote *)
Record lcommit := mk_lc { lc_tree : oatree; lc_new : list nref; lc_keys : list bytes }.

Definition oroot (o : oatree) : option hash :=
  match o with None => None | Some t => Some (snd (aref t)) end.

Definition wf_tree (o : oatree) : Prop :=
  match o with
  | None => True
  | Some t => afull t /\ wella t /\ ordered (erase t) /\ sized (erase t) /\ fst (aref t) = None
  end.

Definition orefs (o : oatree) : list nref := match o with None => [] | Some t => arefs t end.
Definition opresent (d : pdb) (o : oatree) : Prop := match o with None => True | Some t => apresent d t end.

(** the commit that created the database key [r] has the node [x] that carries it in its tree *)
Definition created (L : list lcommit) (x : atree) (r : nref) : Prop :=
  exists i lci, nth_error L i = Some lci /\ In r (lc_new lci) /\ osub x (lc_tree lci).

(** among the commits up to [j], the one that created [r] is the last that wrote key [k] *)
Definition last_write (L : list lcommit) (j : nat) (k : bytes) (r : nref) : Prop :=
  exists i lci, (i <= j)%nat /\ nth_error L i = Some lci /\ In r (lc_new lci) /\ In k (lc_keys lci) /\
    forall i' lc', (i < i')%nat -> (i' <= j)%nat -> nth_error L i' = Some lc' -> ~ In k (lc_keys lc').

Record HInv (acs : list acommit) (roots : list (option hash)) (L : list lcommit) : Prop := {
  h_len : length L = length acs /\ length roots = length acs;
  h_mono : forall i j, (i < j)%nat -> (j < length acs)%nat -> height_of acs i < height_of acs j;
  h_nonneg : forall i, (i < length acs)%nat -> 0 <= height_of acs i;
  h_tree : forall i lc, nth_error L i = Some lc ->
      nth_error roots i = Some (oroot (lc_tree lc)) /\ wf_tree (lc_tree lc) /\
      o_elements (oterase (lc_tree lc)) = state_of acs (Some i);
  h_refs : forall j lcj x r, nth_error L j = Some lcj -> osub x (lc_tree lcj) -> annot x = Some r -> created L x r;
  h_shape : forall i lc r, nth_error L i = Some lc -> In r (lc_new lc) ->
      fst r = Some (height_of acs i) \/ (fst r = None /\ nth_error roots i = Some (Some (snd r)));
  h_disj : forall i j lci lcj r, nth_error L i = Some lci -> nth_error L j = Some lcj ->
      In r (lc_new lci) -> In r (lc_new lcj) -> i = j;
  h_leaf : forall j lcj k v r, nth_error L j = Some lcj -> In (k, v, Some r) (oleaves (lc_tree lcj)) ->
      last_write L j k r }.

Record DInv (c : cfg) (acs : list acommit) (L : list lcommit) (d : pdb) : Prop := {
  d_idx : forall e, In e (all_entries d) ->
      exists i lci, nth_error L i = Some lci /\ ik_height e = height_of acs i /\ In (ik_key e) (lc_keys lci) /\
        forall r, In r (version_refs e) -> In r (lc_new lci) /\ In (ik_key e) (hkeys (snd r));
  d_idx2 : forall e, In e (idx2 d) -> ik_height e + second_level c <= top_height acs;
  d_present : forall j lcj, nth_error L j = Some lcj ->
      top_height acs - prune_height c <= height_of acs j -> opresent d (lc_tree lcj);
  d_roots : forall rk u, In (rk, u) (rootrec d) -> exists i, (i < length acs)%nat /\ fst rk = height_of acs i }.

Definition Inv (c : cfg) (s : mstate) (L : list lcommit) : Prop :=
  ms_failed s = false /\ HInv (ms_ac s) (ms_roots s) L /\ DInv c (ms_ac s) L (ms_db s).

Lemma height_lt_index : forall acs roots L i j, HInv acs roots L ->
  (i < length acs)%nat -> (j < length acs)%nat -> height_of acs i < height_of acs j -> (i < j)%nat.
Proof.
  intros acs roots L i j HI Li Lj Hh.
  destruct (Nat.lt_trichotomy i j) as [T|[T|T]]; [exact T|subst; lia|].
  pose proof (h_mono _ _ _ HI j i T Li). lia.
Qed.

Lemma height_le_index : forall acs roots L i j, HInv acs roots L ->
  (i < length acs)%nat -> (j < length acs)%nat -> height_of acs i <= height_of acs j -> (i <= j)%nat.
Proof.
  intros acs roots L i j HI Li Lj Hh.
  destruct (Nat.le_gt_cases i j) as [T|T]; [exact T|].
  pose proof (h_mono _ _ _ HI j i T Li). lia.
Qed.

Lemma nth_L_lt : forall acs roots L i lc, HInv acs roots L -> nth_error L i = Some lc -> (i < length acs)%nat.
Proof.
  intros acs roots L i lc HI E. destruct (h_len _ _ _ HI) as [E1 _]. rewrite <- E1.
  apply nth_error_Some. congruence.
Qed.

Lemma h_sub : forall acs roots L i j lci lcj x r, HInv acs roots L ->
  nth_error L i = Some lci -> nth_error L j = Some lcj ->
  osub x (lc_tree lcj) -> annot x = Some r -> In r (lc_new lci) -> osub x (lc_tree lci).
Proof.
  intros acs roots L i j lci lcj x r HI Ei Ej Sx Ax Ni.
  destruct (h_refs _ _ _ HI j lcj x r Ej Sx Ax) as [i' [lci' [Ei' [Ni' Sx']]]].
  assert (i' = i) by (eapply (h_disj _ _ _ HI); eauto). subst i'. congruence.
Qed.

Lemma entry_height_nonneg : forall c acs roots L d e, HInv acs roots L -> DInv c acs L d ->
  In e (all_entries d) -> 0 <= ik_height e.
Proof.
  intros c acs roots L d e HI DI Ie. destruct (d_idx _ _ _ _ DI e Ie) as [i [lci [Ei [Hi _]]]].
  rewrite Hi. apply (h_nonneg _ _ _ HI). eapply nth_L_lt; eauto.
Qed.

Lemma osub_leaves : forall x o e, osub x o -> In e (aleaves x) -> In e (oleaves o).
Proof. intros x [t|] e H I; cbn in *; [eapply aleaves_sub; eauto|destruct H]. Qed.

Lemma orefs_sub : forall o r, In r (orefs o) -> exists x, osub x o /\ annot x = Some r.
Proof. intros [t|] r I; cbn in *; [apply arefs_in; exact I|destruct I]. Qed.

Lemma wf_good : forall P, wf_tree P -> ogood P.
Proof. intros [t|] W; unfold ogood; cbn in *; [tauto|exact I]. Qed.

Lemma afull_leaf_some : forall t k v p, afull t -> In (k, v, p) (aleaves t) -> exists r, p = Some r.
Proof.
  intros t k v p F I. apply aleaves_in_sub in I. apply F in I. cbn in I.
  destruct p as [r|]; [eauto|congruence].
Qed.

(** THE SAFETY ARGUMENT: a ref of a version inside the retained interval is
    never listed by an entry that has a newer, old enough entry of the same key *)
Lemma retained_refs_safe : forall c acs roots L d cur j lcj r,
  HInv acs roots L -> DInv c acs L d ->
  0 < prune_height c -> prune_height c <= second_level c -> cur <= top_height acs ->
  nth_error L j = Some lcj -> top_height acs - prune_height c <= height_of acs j ->
  In r (orefs (lc_tree lcj)) -> safe_ref c cur d r.
Proof.
  intros c acs roots L d cur j lcj r HI DI PH0 PH2 CUR Ej Wj Ir e e0 Ie Ire EV K HL.
  assert (Ie0 : In e0 (all_entries d)).
  { unfold all_entries. apply in_or_app. destruct EV as [[I _]|[[I _]|I]]; auto. }
  assert (Old : ik_height e0 <= top_height acs - prune_height c).
  { destruct EV as [[_ A]|[[_ A]|I]]; [lia|lia|]. pose proof (d_idx2 _ _ _ _ DI e0 I). lia. }
  destruct (d_idx _ _ _ _ DI e Ie) as [i [lci [Ei [Hi [Ki Ri]]]]].
  destruct (d_idx _ _ _ _ DI e0 Ie0) as [m [lcm [Em [Hm [Km _]]]]].
  destruct (Ri r Ire) as [Ni Kr].
  pose proof (nth_L_lt _ _ _ _ _ HI Ei) as Li.
  pose proof (nth_L_lt _ _ _ _ _ HI Em) as Lm.
  pose proof (nth_L_lt _ _ _ _ _ HI Ej) as Lj.
  assert (IM : (i < m)%nat) by (apply (height_lt_index acs roots L i m HI Li Lm); lia).
  assert (MJ : (m <= j)%nat) by (apply (height_le_index acs roots L m j HI Lm Lj); lia).
  (* the node with ref r in version j is a node of version i *)
  destruct (orefs_sub _ _ Ir) as [x [Sx Ax]].
  assert (Sxi : osub x (lc_tree lci)) by (eapply (h_sub _ _ _ i j); eauto).
  destruct (h_tree _ _ _ HI i lci Ei) as [_ [Wi _]].
  destruct (lc_tree lci) as [ti|] eqn:Ti; [|destruct Sxi]. cbn [osub] in Sxi. destruct Wi as [Fi [Wa _]].
  (* it covers the key: the key's leaf is shared by versions i and j *)
  rewrite (Wa x Sxi r Ax), hkeys_thash, <- akeys_erase in Kr.
  unfold akeys in Kr. apply in_map_iff in Kr. destruct Kr as [[[k v] p] [Ek Il]]. cbn in Ek.
  assert (Ili : In (k, v, p) (aleaves ti)) by (eapply aleaves_sub; eauto).
  destruct (afull_leaf_some _ _ _ _ Fi Ili) as [lf Ep]. subst p.
  assert (Ilj : In (k, v, Some lf) (oleaves (lc_tree lcj))) by (eapply osub_leaves; eauto).
  destruct (h_leaf _ _ _ HI j lcj k v lf Ej Ilj) as [a [lca [Aj [Ea [Na [Ka NLa]]]]]].
  assert (Ili' : In (k, v, Some lf) (oleaves (lc_tree lci))) by (rewrite Ti; exact Ili).
  destruct (h_leaf _ _ _ HI i lci k v lf Ei Ili') as [b [lcb [Bi [Eb [Nb [Kb _]]]]]].
  assert (a = b) by (eapply (h_disj _ _ _ HI a b); eauto). subst b.
  (* commit m wrote the key after commit a and not later than j *)
  apply (NLa m lcm); [lia|exact MJ|exact Em|]. rewrite Ek, <- K. exact Km.
Qed.

Theorem dinv_prune : forall c acs roots L d cur,
  HInv acs roots L -> DInv c acs L d ->
  0 < prune_height c -> prune_height c <= second_level c -> cur <= top_height acs ->
  DInv c acs L (pruning_tree c cur d).
Proof.
  intros c acs roots L d cur HI DI PH0 PH2 CUR. constructor.
  - intros e Ie. apply pruning_entries in Ie. apply (d_idx _ _ _ _ DI). exact Ie.
  - intros e Ie. apply pruning_idx2 in Ie. destruct Ie as [Ie|[Ie A]]; [apply (d_idx2 _ _ _ _ DI); exact Ie|lia].
  - intros j lcj Ej Wj. pose proof (d_present _ _ _ _ DI j lcj Ej Wj) as P.
    destruct (lc_tree lcj) as [t|] eqn:T; [|exact I]. cbn [opresent] in *.
    eapply apresent_keep; [exact P|]. intros r Ir.
    apply pruning_keep; [intros e; eapply entry_height_nonneg; eauto|].
    eapply retained_refs_safe; eauto. rewrite T. exact Ir.
  - intros rk u Ir. destruct (pruning_fields c cur d) as [E _]. rewrite E in Ir.
    eapply (d_roots _ _ _ _ DI); eauto.
Qed.

Lemma nth_app_cases : forall (A : Type) (l : list A) a j x, nth_error (l ++ [a]) j = Some x ->
  ((j < length l)%nat /\ nth_error l j = Some x) \/ (j = length l /\ x = a).
Proof.
  intros A l a j x E. destruct (Nat.lt_ge_cases j (length l)) as [T|T].
  - left. rewrite nth_error_app1 in E by exact T. auto.
  - right. rewrite nth_error_app2 in E by exact T.
    destruct (j - length l)%nat eqn:D; cbn in E.
    + inversion E. split; [lia|reflexivity].
    + destruct n; discriminate.
Qed.

Lemma nth_app_old : forall (A : Type) (l : list A) a j x, nth_error l j = Some x -> nth_error (l ++ [a]) j = Some x.
Proof. intros. rewrite nth_error_app1; [assumption|]. apply nth_error_Some. congruence. Qed.

Lemma nth_app_new : forall (A : Type) (l : list A) a, nth_error (l ++ [a]) (length l) = Some a.
Proof. intros. rewrite nth_error_app2 by lia. rewrite Nat.sub_diag. reflexivity. Qed.

(** the parent version of the next commit of a linear history: the last commit's tree *)
Definition ptree (L : list lcommit) : oatree :=
  match nth_error L (pred (length L)) with Some lc => lc_tree lc | None => None end.

Lemma ptree_cases : forall L, ptree L = None \/
  exists q lcp, length L = S q /\ nth_error L q = Some lcp /\ lc_tree lcp = ptree L.
Proof.
  intros L. unfold ptree. destruct (length L) as [|q] eqn:EL; cbn [pred].
  - destruct L; [left; reflexivity|discriminate].
  - destruct (nth_error L q) as [lcp|] eqn:E; [right; exists q, lcp; auto|left; reflexivity].
Qed.

Lemma created_app : forall L lc x r, created L x r -> created (L ++ [lc]) x r.
Proof. intros L lc x r [i [lci [Ei NS]]]. exists i, lci. split; [apply nth_app_old; exact Ei|exact NS]. Qed.

Lemma last_write_app : forall L lc j k r, (j < length L)%nat -> last_write L j k r -> last_write (L ++ [lc]) j k r.
Proof.
  intros L lc j k r Lj [i [lci [IJ [Ei [Ni [Ki NL]]]]]]. exists i, lci.
  split; [exact IJ|]. split; [apply nth_app_old; exact Ei|]. split; [exact Ni|]. split; [exact Ki|].
  intros i' lc' I1 I2 E'. rewrite nth_error_app1 in E' by lia. eapply NL; eauto.
Qed.

(** a commit that does not write [k] leaves the last write of [k] where it was *)
Lemma last_write_next : forall L j k r, last_write L j k r ->
  (forall lc', nth_error L (S j) = Some lc' -> ~ In k (lc_keys lc')) -> last_write L (S j) k r.
Proof.
  intros L j k r [i [lci [IJ [Ei [Ni [Ki NL]]]]]] NK. exists i, lci.
  split; [lia|]. split; [exact Ei|]. split; [exact Ni|]. split; [exact Ki|].
  intros i' lc' I1 I2 E'. destruct (Nat.eq_dec i' (S j)) as [->|NE]; [exact (NK lc' E')|].
  apply (NL i' lc'); [exact I1|lia|exact E'].
Qed.

Section Extend.
  Variables (acs : list acommit) (roots : list (option hash)) (L : list lcommit).
  Variables (ac : acommit) (Sn : oatree) (Nn : list nref) (Kn : list bytes).
  Hypothesis HI : HInv acs roots L.
  Let H := ac_height ac.
  Let lc := mk_lc Sn Nn Kn.
  Hypothesis C1 : forall i, (i < length acs)%nat -> height_of acs i < H.
  Hypothesis C1' : 0 <= H.
  Hypothesis C2 : wf_tree Sn /\ o_elements (oterase Sn) = ac_state ac.
  Hypothesis C3 : forall r, In r Nn -> fst r = Some H \/ (fst r = None /\ oroot Sn = Some (snd r)).
  Hypothesis C4 : forall r i, In r Nn -> fst r = None -> nth_error roots i <> Some (Some (snd r)).
  Hypothesis C5 : forall x r, osub x Sn -> annot x = Some r -> In r Nn \/ osub x (ptree L).
  Hypothesis C6 : forall k v r, In (k, v, Some r) (oleaves Sn) ->
      (In r Nn /\ In k Kn) \/ (In (k, v, Some r) (oleaves (ptree L)) /\ ~ In k Kn).

  Lemma new_old_disjoint : forall i lci r, nth_error L i = Some lci -> In r (lc_new lci) -> In r Nn -> False.
  Proof.
    intros i lci r Ei Ni Nr.
    pose proof (nth_L_lt _ _ _ _ _ HI Ei) as Li.
    destruct (h_shape _ _ _ HI i lci r Ei Ni) as [S1|[S1 R1]]; destruct (C3 r Nr) as [S2|[S2 R2]].
    - rewrite S1 in S2. inversion S2. specialize (C1 i Li). lia.
    - congruence.
    - congruence.
    - apply (C4 r i Nr S2). exact R1.
  Qed.

  Theorem hinv_extend : HInv (acs ++ [ac]) (roots ++ [oroot Sn]) (L ++ [lc]).
  Proof.
    destruct (h_len _ _ _ HI) as [EL ER].
    constructor.
    - rewrite !app_length. cbn. lia.
    - intros i j IJ Lj. rewrite app_length in Lj. cbn in Lj.
      destruct (Nat.eq_dec j (length acs)) as [E|NE].
      + subst j. rewrite height_of_app_new, height_of_app_old by lia. apply C1. lia.
      + rewrite !height_of_app_old by lia. apply (h_mono _ _ _ HI); lia.
    - intros i Li. rewrite app_length in Li. cbn in Li.
      destruct (Nat.eq_dec i (length acs)) as [E|NE].
      + subst i. rewrite height_of_app_new. exact C1'.
      + rewrite height_of_app_old by lia. apply (h_nonneg _ _ _ HI). lia.
    - intros i lci Ei. apply nth_app_cases in Ei. destruct Ei as [[Li Ei]|[Ei El]].
      + destruct (h_tree _ _ _ HI i lci Ei) as [A [B C]].
        rewrite nth_error_app1, state_of_app_old by lia. auto.
      + subst i lci. rewrite EL. split; [rewrite <- ER; apply nth_app_new|].
        rewrite state_of_app_new. exact C2.
    - intros j lcj x r Ej Sx Ax. apply nth_app_cases in Ej. destruct Ej as [[_ Ej]|[_ ->]].
      + apply created_app, (h_refs _ _ _ HI j lcj x r Ej Sx Ax).
      + destruct (C5 x r Sx Ax) as [Nr|Px].
        * exists (length L), lc. split; [apply nth_app_new|auto].
        * destruct (ptree_cases L) as [E|[q [lcp [_ [Ep Tp]]]]]; [rewrite E in Px; destruct Px|].
          rewrite <- Tp in Px. apply created_app, (h_refs _ _ _ HI q lcp x r Ep Px Ax).
    - intros i lci r Ei Ni. apply nth_app_cases in Ei. destruct Ei as [[Li Ei]|[Ei El]].
      + rewrite height_of_app_old, nth_error_app1 by lia.
        apply (h_shape _ _ _ HI i lci r Ei Ni).
      + subst i lci. rewrite EL, height_of_app_new.
        destruct (C3 r Ni) as [A|[A B]]; [left; exact A|right]. split; [exact A|].
        rewrite <- ER, nth_app_new, B. reflexivity.
    - intros i j lci lcj r Ei Ej Ni Nj.
      apply nth_app_cases in Ei. apply nth_app_cases in Ej.
      destruct Ei as [[Li Ei]|[Ei Eli]]; destruct Ej as [[Lj Ej]|[Ej Elj]].
      + eapply (h_disj _ _ _ HI); eauto.
      + subst j lcj. exfalso. eapply new_old_disjoint; eauto.
      + subst i lci. exfalso. eapply new_old_disjoint; eauto.
      + congruence.
    - intros j lcj k v r Ej Il. apply nth_app_cases in Ej. destruct Ej as [[Lj Ej]|[-> ->]].
      + apply last_write_app; [lia|]. apply (h_leaf _ _ _ HI j lcj k v r Ej Il).
      + destruct (C6 k v r Il) as [[Nr Kr]|[Pl NK]].
        * exists (length L), lc. split; [lia|]. split; [apply nth_app_new|]. split; [exact Nr|]. split; [exact Kr|].
          intros i' lc' I1 I2 _. lia.
        * (* an old leaf: the parent is the last commit so far, and this commit does not write the key *)
          destruct (ptree_cases L) as [E|[q [lcp [Eq [Ep Tp]]]]]; [rewrite E in Pl; destruct Pl|].
          rewrite <- Tp in Pl. rewrite Eq. apply last_write_next.
          -- apply last_write_app; [lia|]. apply (h_leaf _ _ _ HI q lcp k v r Ep Pl).
          -- intros lc' E'. rewrite <- Eq, nth_app_new in E'. injection E' as <-. exact NK.
  Qed.
End Extend.

Section ExtendDb.
  Variables (c : cfg) (acs : list acommit) (roots : list (option hash)) (L : list lcommit).
  Variables (ac : acommit) (Sn : oatree) (Nn : list nref) (Kn : list bytes) (d d' : pdb).
  Hypothesis HI : HInv acs roots L.
  Hypothesis DI : DInv c acs L d.
  Let H := ac_height ac.
  Let lc := mk_lc Sn Nn Kn.
  Hypothesis HI' : HInv (acs ++ [ac]) (roots ++ [oroot Sn]) (L ++ [lc]).
  Hypothesis E1 : forall e, In e (all_entries d') -> In e (all_entries d) \/
      (ik_height e = H /\ In (ik_key e) Kn /\
       forall r, In r (version_refs e) -> In r Nn /\ In (ik_key e) (hkeys (snd r))).
  Hypothesis E2 : idx2 d' = idx2 d.
  Hypothesis E3a : opresent d' Sn.
  Hypothesis E3b : forall r, ~ In r Nn -> node_get d' r = node_get d r.
  Hypothesis E4 : forall rk u, In (rk, u) (rootrec d') -> In (rk, u) (rootrec d) \/ fst rk = H.

  Theorem dinv_extend : DInv c (acs ++ [ac]) (L ++ [lc]) d'.
  Proof.
    destruct (h_len _ _ _ HI) as [EL ER].
    assert (TOP : top_height acs <= top_height (acs ++ [ac])) by (rewrite top_height_app; lia).
    constructor.
    - intros e Ie. destruct (E1 e Ie) as [Io|[B [C D]]].
      + destruct (d_idx _ _ _ _ DI e Io) as [i [lci [Ei [Hi KR]]]].
        exists i, lci. split; [apply nth_app_old; exact Ei|].
        rewrite height_of_app_old by (eapply nth_L_lt; eauto). auto.
      + exists (length L), lc. split; [apply nth_app_new|].
        rewrite EL, height_of_app_new. auto.
    - intros e Ie. rewrite E2 in Ie. pose proof (d_idx2 _ _ _ _ DI e Ie). lia.
    - intros j lcj Ej Wj. apply nth_app_cases in Ej. destruct Ej as [[Lj Ej]|[Ej El]].
      + rewrite height_of_app_old in Wj by lia.
        assert (P : opresent d (lc_tree lcj)) by (apply (d_present _ _ _ _ DI j lcj Ej); lia).
        destruct (lc_tree lcj) as [t|] eqn:T; [|exact I]. cbn [opresent] in *.
        eapply apresent_keep; [exact P|]. intros r Ir. apply E3b. intros Nr.
        (* a key of an earlier version was created by an earlier commit *)
        apply arefs_in in Ir. destruct Ir as [x [Sx Ax]].
        assert (Sx' : osub x (lc_tree lcj)) by (rewrite T; exact Sx).
        destruct (h_refs _ _ _ HI j lcj x r Ej Sx' Ax) as [i [lci [Ei [Ni _]]]].
        pose proof (nth_L_lt _ _ _ _ _ HI Ei) as Li.
        assert (i = length L).
        { eapply (h_disj _ _ _ HI' i (length L) lci lc r); [apply nth_app_old; exact Ei|apply nth_app_new|exact Ni|exact Nr]. }
        lia.
      + subst lcj. exact E3a.
    - intros rk u Ir. destruct (E4 rk u Ir) as [Io|En].
      + destruct (d_roots _ _ _ _ DI rk u Io) as [i [Li Hi]]. exists i. rewrite app_length. cbn.
        split; [lia|]. rewrite height_of_app_old by exact Li. exact Hi.
      + exists (length acs). rewrite app_length. cbn. split; [lia|]. rewrite height_of_app_new. exact En.
  Qed.
End ExtendDb.

Lemma del_none : forall rs d H, (forall rk u, In (rk, u) rs -> fst rk <> H) -> del_leaf_count_kv d H rs = Some d.
Proof.
  induction rs as [|[[h rh] u] rs IH]; intros d H N; cbn [del_leaf_count_kv]; [reflexivity|].
  destruct (h =? H) eqn:E.
  - apply Z.eqb_eq in E. exfalso. apply (N (h, rh) u); cbn; auto.
  - apply IH. intros rk u0 I. apply (N rk u0). cbn. auto.
Qed.

(** the database after Tree.Save at a height that has no root record yet
    (maxBlockHeight / re-commit detection: nothing to remove) *)
Definition save_db (c : cfg) (d : pdb) (H : Z) (t' : atree) : pdb :=
  let d1 := if H >? maxh d then set_maxh d H else d in
  let d2 := asave H true [] t' d1 in
  let d3 := set_rootrec d2 (aput rkey_eqb (rootrec d2) (H, snd (ref_of H true t')) tt) in
  if auto_prune c H then pruning_tree c H d3 else d3.

Lemma tree_save_eq : forall c d H t', (forall rk u, In (rk, u) (rootrec d) -> fst rk <> H) ->
  tree_save c d H t' = COk (save_db c d H t') (Some (snd (ref_of H true t'))).
Proof.
  intros c d H t' N. unfold tree_save, save_db.
  destruct (H >? maxh d); [reflexivity|]. rewrite del_none by exact N. reflexivity.
Qed.

Lemma nil_dec : forall (A : Type) (l : list A), l = [] \/ l <> [].
Proof. intros A [|x l]; [left; reflexivity|right; discriminate]. Qed.

(** the parent version [ptree L] with the write set [kvs] applied is [t'], saved at the new height [H] *)
Section Save.
  Variables (c : cfg) (acs : list acommit) (roots : list (option hash)) (L : list lcommit) (d : pdb).
  Variables (kvs : list (bytes * bytes)) (H : Z) (t' : atree) (st : smap) (par : option nat).
  Let P := ptree L.
  Hypothesis HI : HInv acs roots L.
  Hypothesis DI : DInv c acs L d.
  Hypothesis CV : 0 < prune_height c /\ prune_height c <= second_level c.
  Hypothesis WP : wf_tree P.
  Hypothesis PP : opresent d P.
  Hypothesis ST : o_elements (oterase P) = st.
  Hypothesis SA : at_set_all P kvs = Some (Some t').
  Hypothesis C1 : forall i, (i < length acs)%nat -> height_of acs i < H.
  Hypothesis C1' : 0 <= H.
  Hypothesis FR : kvs <> [] -> forall i, nth_error roots i <> Some (Some (thash (erase t'))).

  Let ac := mk_acommit H par (apply_writes st kvs).
  Let Sn : oatree := Some (stamp H true t').
  Let Nn := new_refs H true t'.
  Let Kn := map fst kvs.

  Lemma sv_spec :
    ogood (Some t') /\
    elements (erase t') = apply_writes st kvs /\
    (forall x, asub x t' -> annot x <> None -> osub x P) /\
    (forall e, In e (aleaves t') ->
       In (lkey e) Kn /\ snd e = None \/ ~ In (lkey e) Kn /\ In e (oleaves P)).
  Proof.
    destruct (at_set_all_good kvs P (wf_good P WP)) as [o' [A [G E]]].
    rewrite SA in A. injection A as <-. cbn in E. rewrite ST in E.
    destruct (at_set_all_written kvs P _ (wf_good P WP) SA) as [_ [S1 W1]]. auto.
  Qed.

  Lemma sv_root : (kvs <> [] /\ annot t' = None) \/ P = Some t'.
  Proof.
    destruct (nil_dec _ kvs) as [EK|EK]; [right; rewrite EK in SA; cbn in SA; congruence|left].
    destruct (at_set_all_written _ _ _ (wf_good P WP) SA) as [R _]. destruct (R EK) as [t2 [E2 A2]].
    split; [exact EK|congruence].
  Qed.

  Lemma sv_pfull : forall x, osub x P -> afull x /\ wella x /\ apresent d x.
  Proof.
    intros x Hx. destruct P as [t|]; [|destruct Hx]. cbn in *.
    destruct WP as [F [W _]]. split; [eapply all_sub_sub; eauto|]. split; [eapply all_sub_sub; eauto|].
    eapply apresent_sub; eauto.
  Qed.

  Lemma sv_aok : aok t'.
  Proof.
    intros x Hx Ax. destruct sv_spec as [_ [_ [S1 _]]]. apply (sv_pfull x). apply S1; assumption.
  Qed.

  Lemma sv_wella : wella t'.
  Proof.
    intros x Hx r Ax. destruct sv_spec as [_ [_ [S1 _]]].
    assert (Hp : osub x P) by (apply S1; [exact Hx|congruence]).
    destruct (sv_pfull x Hp) as [_ [W _]]. apply (W x (asub_refl x) r Ax).
  Qed.

  Lemma sv_root_prefix : fst (ref_of H true t') = None.
  Proof.
    unfold ref_of. destruct sv_root as [[_ A]|E]; [rewrite A; reflexivity|].
    rewrite E in WP. destruct WP as [_ [_ [_ [_ F]]]]. unfold aref in F.
    destruct (annot t'); [exact F|reflexivity].
  Qed.

  Lemma sv_wf : wf_tree Sn /\ o_elements (oterase Sn) = ac_state ac.
  Proof.
    destruct sv_spec as [G [E _]]. cbn in G. destruct G as [O SZ].
    unfold Sn. cbn [wf_tree oterase option_map o_elements]. rewrite !erase_stamp.
    split; [|exact E].
    split; [apply stamp_full; exact sv_aok|]. split; [apply stamp_wella; exact sv_wella|].
    split; [exact O|]. split; [exact SZ|]. rewrite aref_stamp. exact sv_root_prefix.
  Qed.

  Lemma sv_new_leaf_key : forall k v, In (k, v, None) (aleaves t') -> In k Kn.
  Proof.
    intros k v I. destruct sv_spec as [_ [_ [_ W1]]].
    destruct (W1 _ I) as [[Y _]|[_ Ip]]; [exact Y|exfalso].
    destruct P as [t|]; [|destruct Ip]. cbn in Ip, WP. destruct WP as [F _].
    destruct (afull_leaf_some _ _ _ _ F Ip) as [r E]. discriminate.
  Qed.

  Lemma sv_hinv : HInv (acs ++ [ac]) (roots ++ [oroot Sn]) (L ++ [mk_lc Sn Nn Kn]).
  Proof.
    destruct sv_spec as [_ [_ [S1 W1]]].
    apply (hinv_extend acs roots L ac Sn Nn Kn HI); auto.
    - exact sv_wf.
    - (* shape of the new keys *)
      intros r Ir. destruct (new_refs_shape _ _ _ _ Ir) as [A|[_ [A B]]]; [left; exact A|right].
      subst r. split; [reflexivity|]. cbn. rewrite aref_stamp. unfold ref_of. rewrite A. reflexivity.
    - (* a new key without prefix is the new root's, which is fresh *)
      intros r i Ir F. destruct (new_refs_shape _ _ _ _ Ir) as [A|[_ [A B]]]; [congruence|].
      subst r. cbn. destruct sv_root as [[NE _]|E]; [apply FR; exact NE|exfalso].
      rewrite E in WP. destruct WP as [Fu _]. apply (Fu t'); [apply asub_refl|exact A].
    - (* persisted nodes come from the parent version *)
      intros x r Hx Ax. cbn in Hx.
      destruct (stamp_sub t' H true x sv_aok Hx) as [[Hs An]|[r0 [A0 I0]]]; [right; auto|left].
      replace r with r0 by congruence. exact I0.
    - (* leaves: new ones have written keys, old ones have not *)
      intros k v r I. cbn in I. apply aleaves_stamp in I. destruct I as [I|[I N]].
      + right. destruct (W1 _ I) as [[_ N]|[NK Ip]]; [discriminate|auto].
      + left. split; [exact N|]. eapply sv_new_leaf_key; eauto.
  Qed.

  Let d1 := if H >? maxh d then set_maxh d H else d.
  Let d2 := asave H true [] t' d1.
  Let rh := snd (ref_of H true t').
  Let d3 := set_rootrec d2 (aput rkey_eqb (rootrec d2) (H, rh) tt).

  Lemma sv_dinv : DInv c (acs ++ [ac]) (L ++ [mk_lc Sn Nn Kn]) d3.
  Proof.
    assert (D1 : nodes d1 = nodes d /\ idx1 d1 = idx1 d /\ idx2 d1 = idx2 d /\ rootrec d1 = rootrec d)
      by (unfold d1; destruct (H >? maxh d); cbn; auto).
    destruct D1 as [Dn [Di1 [Di2 Dr]]]. destruct (asave_fields t' H true [] d1) as [F2 [Fr _]].
    apply (dinv_extend c acs roots L ac Sn Nn Kn d d3 HI DI sv_hinv).
    - intros e Ie. unfold all_entries, d3 in *. cbn [idx1 idx2 set_rootrec] in Ie.
      apply in_app_or in Ie. destruct Ie as [Ie|Ie].
      + apply asave_idx1 in Ie. destruct Ie as [Ie|Ie].
        * left. apply in_or_app. left. rewrite <- Di1. exact Ie.
        * right. destruct (new_entries_spec _ _ _ _ _ Ie) as [Hh [[v Hv] [path [Hp Hr]]]].
          split; [exact Hh|]. split; [eapply sv_new_leaf_key; eauto|].
          intros r Ir. unfold version_refs in Ir. rewrite Hp, app_nil_r in Ir. exact (Hr r Ir).
      + left. apply in_or_app. right. unfold d2 in Ie. rewrite F2, Di2 in Ie. exact Ie.
    - unfold d3, d2. cbn [idx2 set_rootrec]. rewrite F2. exact Di2.
    - cbn [opresent Sn]. apply (apresent_keep _ d2 d3); [|intros r _; reflexivity].
      unfold d2. apply asave_present.
      + destruct sv_wf as [[F [W [O _]]] _]. apply arefs_nodup; assumption.
      + exact sv_aok.
      + intros x Hx Ax. destruct sv_spec as [_ [_ [S1 _]]].
        destruct (sv_pfull x (S1 x Hx Ax)) as [_ [_ Pr]].
        eapply apresent_keep; [exact Pr|]. intros r _. unfold node_get. rewrite Dn. reflexivity.
    - intros r Nr. change (node_get d3 r) with (node_get d2 r). unfold d2. rewrite asave_keep by exact Nr.
      unfold node_get. rewrite Dn. reflexivity.
    - intros rk u Ir. unfold d3 in Ir. cbn [rootrec set_rootrec] in Ir. apply in_aput in Ir.
      destruct Ir as [Ir|Ir]; [right; inversion Ir; reflexivity|left].
      unfold d2 in Ir. rewrite Fr, Dr in Ir. exact Ir.
  Qed.

  (** with the pruning run the commit may start *)
  Lemma sv_inv : exists L',
    HInv (acs ++ [ac]) (roots ++ [Some rh]) L' /\ DInv c (acs ++ [ac]) L' (save_db c d H t').
  Proof.
    exists (L ++ [mk_lc Sn Nn Kn]).
    assert (RH : oroot Sn = Some rh) by (cbn; rewrite aref_stamp; reflexivity).
    pose proof sv_hinv as HI'. rewrite RH in HI'. split; [exact HI'|].
    unfold save_db. fold d1 d2 rh d3. destruct (auto_prune c H); [|exact sv_dinv].
    eapply dinv_prune; eauto using sv_dinv; try apply CV.
    rewrite top_height_app. cbn. lia.
  Qed.
End Save.

Lemma nth_error_nil_some : forall (A : Type) i (x : A), nth_error [] i = Some x -> False.
Proof. intros A [|i] x E; discriminate. Qed.

Lemma inv_init : forall c, Inv c init_mstate [].
Proof.
  intros c. split; [reflexivity|].
  split; constructor; cbn; intros; try lia; try contradiction; exfalso; eapply nth_error_nil_some; eauto.
Qed.

Lemma cfg_valid_facts : forall c, cfg_valid c = true -> 0 < prune_height c /\ prune_height c <= second_level c.
Proof.
  intros c H. unfold cfg_valid in H. rewrite !andb_true_iff in H. destruct H as [[A B] _].
  apply Z.ltb_lt in A. apply Z.leb_le in B. auto.
Qed.

(** what a commit at height [H] on parent [p] finds when [p] is the tip: the
    parent version is the last commit's tree, well formed, completely present,
    with the parent's contents; [H] is above every height so far *)
Definition parent_ok (s : mstate) (L : list lcommit) (H : Z) (p : option nat) : Prop :=
  wf_tree (ptree L) /\ opresent (ms_db s) (ptree L) /\
  o_elements (oterase (ptree L)) = state_of (ms_ac s) p /\ root_of s p = oroot (ptree L) /\
  (forall i, (i < length (ms_ac s))%nat -> height_of (ms_ac s) i < H) /\ 0 <= H.

Lemma parent_facts : forall c s L H p ms kvs,
  Inv c s L -> op_valid c s (MCommit H p ms kvs) = true -> onat_eqb p (tip_index (ms_ac s)) = true ->
  parent_ok s L H p.
Proof.
  intros c s L H p ms kvs [F [HI DI]] V Gp. unfold parent_ok.
  destruct (h_len _ _ _ HI) as [EL ER].
  cbn [op_valid] in V. rewrite !andb_true_iff in V. destruct V as [[V0 _] Vp]. apply Z.leb_le in V0.
  unfold tip_index in Gp. destruct (ms_ac s) as [|a0 acs0] eqn:EA.
  - destruct p; [discriminate|]. destruct L; [|discriminate]. cbn. repeat split; auto. intros i Li. lia.
  - destruct p as [pi|]; [|discriminate]. cbn [onat_eqb] in Gp. apply Nat.eqb_eq in Gp. rewrite <- EA in *.
    assert (Npos : (0 < length (ms_ac s))%nat) by (rewrite EA; cbn; lia).
    destruct (nth_error L pi) as [lcp|] eqn:Ep; [|apply nth_error_None in Ep; lia].
    assert (PT : ptree L = lc_tree lcp) by (unfold ptree; rewrite EL, <- Gp, Ep; reflexivity).
    rewrite PT. apply andb_true_iff in Vp. destruct Vp as [Vl Vh]. apply Z.ltb_lt in Vh.
    destruct (h_tree _ _ _ HI pi lcp Ep) as [Rp [Wp Sp]].
    split; [exact Wp|]. split; [|split; [exact Sp|]].
    + apply (d_present _ _ _ _ DI pi lcp Ep).
      apply existsb_exists in Vl. destruct Vl as [x [Il Ex]]. apply Nat.eqb_eq in Ex. subst x.
      apply (live_valid _ _ _ Il).
    + split; [unfold root_of; rewrite Rp; reflexivity|]. split; [|exact V0].
      intros i Li. destruct (Nat.eq_dec i pi) as [E|NE]; [subst; exact Vh|].
      pose proof (h_mono _ _ _ HI i pi ltac:(lia) ltac:(lia)). lia.
Qed.

Lemma no_root_at : forall c s L H p, Inv c s L -> parent_ok s L H p ->
  forall rk u, In (rk, u) (rootrec (ms_db s)) -> fst rk <> H.
Proof.
  intros c s L H p [_ [_ DI]] [_ [_ [_ [_ [C1 _]]]]] rk u I.
  destruct (d_roots _ _ _ _ DI rk u I) as [i [Li Hi]]. specialize (C1 i Li). lia.
Qed.

(** a commit that writes nothing new: same tree, no new database keys *)
Lemma same_commit : forall c s L H p,
  Inv c s L -> parent_ok s L H p ->
  Inv c (mk_mstate (ms_db s) (ms_roots s ++ [oroot (ptree L)]) (add_commit (ms_ac s) H p []) false)
        (L ++ [mk_lc (ptree L) [] []]).
Proof.
  intros c s L H p [F [HI DI]] [WP [PP [ST [_ [C1 C1']]]]].
  unfold add_commit. cbn [apply_writes fold_left].
  set (ac := mk_acommit H p (state_of (ms_ac s) p)).
  assert (HI' : HInv (ms_ac s ++ [ac]) (ms_roots s ++ [oroot (ptree L)]) (L ++ [mk_lc (ptree L) [] []])).
  { apply (hinv_extend (ms_ac s) (ms_roots s) L ac (ptree L) [] [] HI); auto.
    intros r []. }
  split; [reflexivity|]. split; [exact HI'|]. cbn [ms_db ms_ac].
  apply (dinv_extend c (ms_ac s) (ms_roots s) L ac (ptree L) [] [] (ms_db s) (ms_db s) HI DI HI'); auto.
Qed.

Lemma oroot_ref : forall t, fst (aref t) = None -> (None, snd (aref t)) = aref t.
Proof. intros t H. destruct (aref t) as [a b]. cbn in *. subst. reflexivity. Qed.

Lemma load_parent_present : forall d P, wf_tree P -> opresent d P -> load_parent d (oroot P) = Some (Some P).
Proof.
  intros d [t|] W Pr; cbn; [|reflexivity].
  destruct W as [_ [_ [_ [SZ F]]]]. rewrite (oroot_ref t F).
  assert (G : node_get d (aref t) <> None).
  { destruct t as [[r|] k v|[r|] k h s l rt]; cbn in Pr; try contradiction;
      [|destruct Pr as [Pr _]]; unfold aref; cbn; rewrite Pr; discriminate. }
  destruct (node_get d (aref t)) eqn:E; [|congruence].
  rewrite aload_present; auto. apply rec_fuel_present; auto.
Qed.

(** SetKVPair unfolded on a parent version that loads *)
Lemma set_kv_pair_eq : forall c s L H p kvs o', Inv c s L -> parent_ok s L H p ->
  at_set_all (ptree L) kvs = Some o' ->
  set_kv_pair c (ms_db s) H (root_of s p) kvs =
  match o' with
  | None => COk (ms_db s) None
  | Some t' => COk (save_db c (ms_db s) H t') (Some (snd (ref_of H true t')))
  end.
Proof.
  intros c s L H p kvs o' IV PO SA. pose proof PO as [WP [PP [_ [RT _]]]].
  unfold set_kv_pair. rewrite RT, load_parent_present, SA by assumption.
  destruct o'; [|reflexivity]. apply tree_save_eq. eapply no_root_at; eauto.
Qed.

(** the new root, if something is written, was not produced before *)
Definition fresh_root (s : mstate) (L : list lcommit) (kvs : list (bytes * bytes)) : Prop :=
  kvs <> [] -> forall t' i, at_set_all (ptree L) kvs = Some (Some t') ->
  nth_error (ms_roots s) i <> Some (Some (thash (erase t'))).

Lemma step_set_kv_pair : forall c s L H p kvs,
  0 < prune_height c /\ prune_height c <= second_level c ->
  Inv c s L -> parent_ok s L H p -> fresh_root s L kvs ->
  exists L', Inv c
    match set_kv_pair c (ms_db s) H (root_of s p) kvs with
    | COk d r => mk_mstate d (ms_roots s ++ [r]) (add_commit (ms_ac s) H p kvs) false
    | _ => mk_mstate (ms_db s) (ms_roots s) (ms_ac s) true
    end L'.
Proof.
  intros c s L H p kvs CV IV PO GF.
  pose proof IV as [F [HI DI]]. pose proof PO as [WP [PP [ST [_ [C1 C1']]]]].
  destruct (at_set_all_good kvs (ptree L) (wf_good _ WP)) as [o' [SA _]].
  rewrite (set_kv_pair_eq c s L H p kvs o' IV PO SA). destruct o' as [t'|].
  - destruct (sv_inv c (ms_ac s) (ms_roots s) L (ms_db s) kvs H t' _ p HI DI CV
                WP PP ST SA C1 C1') as [L' [HI' DI']]; [intros NE i; apply (GF NE t' i SA)|].
    exists L'. split; [reflexivity|]. split; assumption.
  - (* nothing written onto the empty state *)
    destruct (at_set_all_written _ _ _ (wf_good _ WP) SA) as [R _].
    destruct (nil_dec _ kvs) as [EK|EK]; [subst kvs|destruct (R EK) as [t [A _]]; discriminate].
    cbn in SA. eexists. replace (@None hash) with (oroot (ptree L)) by (injection SA as ->; reflexivity).
    eapply same_commit; eauto.
Qed.

Lemma existsb_root_false : forall roots r i, existsb (root_eqb (Some r)) roots = false ->
  nth_error roots i <> Some (Some r).
Proof.
  intros roots r i E X. apply nth_error_In in X.
  assert (T : existsb (root_eqb (Some r)) roots = true).
  { apply existsb_exists. exists (Some r). split; [exact X|]. cbn. apply hash_eqb_refl. }
  congruence.
Qed.

Lemma fresh_from_roots : forall c s L H p kvs,
  Inv c s L -> parent_ok s L H p ->
  match set_kv_pair c (ms_db s) H (root_of s p) kvs with
  | COk _ r => negb (existsb (root_eqb r) (ms_roots s))
  | _ => true
  end = true -> fresh_root s L kvs.
Proof.
  intros c s L H p kvs IV PO GF NE t' i SA. pose proof PO as [WP _].
  rewrite (set_kv_pair_eq c s L H p kvs _ IV PO SA) in GF. apply negb_true_iff in GF.
  destruct (at_set_all_written _ _ _ (wf_good _ WP) SA) as [R _]. destruct (R NE) as [t2 [E2 A2]].
  injection E2 as <-. unfold ref_of in GF. rewrite A2 in GF. apply existsb_root_false. exact GF.
Qed.

Lemma smap_eqb_refl : forall m, smap_eqb m m = true.
Proof. induction m as [|[k v] m IH]; cbn; [reflexivity|]. rewrite !KeysFacts.beq_refl, IH. reflexivity. Qed.

Lemma wf_root_hash : forall t, wf_tree (Some t) -> oroot (Some t) = Some (thash (erase t)).
Proof.
  intros t [F [W _]]. cbn. unfold aref. specialize (F t (asub_refl t)).
  destruct (annot t) as [r|] eqn:A; [|congruence]. rewrite (W t (asub_refl t) r A). reflexivity.
Qed.

(** the changing-state guard gives it too: equal roots have equal contents *)
Lemma fresh_from_states : forall c s L H p kvs,
  Inv c s L -> parent_ok s L H p ->
  existsb (fun a => smap_eqb (ac_state a) (apply_writes (state_of (ms_ac s) p) kvs)) (ms_ac s) = false ->
  fresh_root s L kvs.
Proof.
  intros c s L H p kvs [_ [HI _]] [WP [_ [ST _]]] EX _ t' i SA X.
  destruct (h_len _ _ _ HI) as [EL ER].
  assert (Li : (i < length (ms_ac s))%nat) by (rewrite <- ER; apply nth_error_Some; congruence).
  destruct (nth_error L i) as [lc|] eqn:Ei; [|apply nth_error_None in Ei; lia].
  destruct (h_tree _ _ _ HI i lc Ei) as [Ri [Wf Si]].
  destruct (lc_tree lc) as [ti|]; [|rewrite Ri in X; discriminate].
  rewrite Ri, (wf_root_hash ti Wf) in X. injection X as X.
  apply (f_equal helems) in X. rewrite !helems_thash in X.
  destruct (at_set_all_good kvs (ptree L) (wf_good _ WP)) as [o' [SA' [_ E]]].
  rewrite SA in SA'. injection SA' as <-. cbn [o_elements oterase option_map] in E, Si.
  rewrite ST, <- X, Si in E.
  apply not_true_iff_false in EX. apply EX. apply existsb_exists.
  unfold state_of in E at 1. destruct (nth_error (ms_ac s) i) as [a|] eqn:Ea; [|apply nth_error_None in Ea; lia].
  exists a. split; [eapply nth_error_In; eauto|]. rewrite E. apply smap_eqb_refl.
Qed.

(** one operation of a linear history, for any guard that makes new roots fresh *)
Lemma inv_step : forall c s L o, 0 < prune_height c /\ prune_height c <= second_level c -> Inv c s L ->
  op_valid c s o = true ->
  (forall H p ms kvs, o = MCommit H p ms kvs ->
     onat_eqb p (tip_index (ms_ac s)) = true /\ (parent_ok s L H p -> fresh_root s L kvs)) ->
  exists L', Inv c (mstep c s o) L'.
Proof.
  intros c s L o CV IV V G. pose proof IV as [F [HI DI]].
  pose proof CV as [P0 P2].
  unfold mstep. rewrite F. destruct o as [H p ms kvs|cur].
  - destruct (G H p ms kvs eq_refl) as [Gp Gf].
    pose proof (parent_facts c s L H p ms kvs IV V Gp) as PO. specialize (Gf PO).
    destruct ms, kvs as [|kv kvs']; cbn [mem_set_commit]; try (eapply step_set_kv_pair; eauto).
    pose proof PO as [_ [_ [_ [RT _]]]]. rewrite RT. eexists. eapply same_commit; eauto.
  - exists L. split; [reflexivity|]. split; [exact HI|]. cbn [ms_db ms_ac].
    cbn [op_valid] in V. apply andb_true_iff in V. destruct V as [_ V]. apply Z.leb_le in V.
    eapply dinv_prune; eauto.
Qed.

Lemma inv_live_readable : forall c s L, Inv c s L -> live_readable c s.
Proof.
  intros c s L [F [HI DI]]. split; [exact F|]. intros i k Il.
  destruct (live_valid _ _ _ Il) as [Li Wi].
  destruct (h_len _ _ _ HI) as [EL ER].
  destruct (nth_error L i) as [lc|] eqn:Ei; [|apply nth_error_None in Ei; lia].
  destruct (h_tree _ _ _ HI i lc Ei) as [Ri [Wf Si]].
  pose proof (d_present _ _ _ _ DI i lc Ei Wi) as Pr.
  unfold read_at, root_of, expected. rewrite Ri, <- Si.
  destruct (lc_tree lc) as [t|]; cbn [oroot get_at_root oterase option_map o_elements].
  - destruct Wf as [_ [_ [O [SZ Fp]]]]. cbn [opresent] in Pr. rewrite (oroot_ref t Fp).
    pose proof (read_present t (ms_db s) k Pr O SZ) as R.
    destruct (sget (elements (erase t)) k) as [v|]; destruct (walk _ _ _ _); cbn in R; try contradiction; congruence.
  - reflexivity.
Qed.

(** THE PARTIAL THEOREM for any guard [G] on the rest of the history that is
    handed down the run and makes every commit build on the tip with a fresh root *)
Theorem prune_keeps_live_linear : forall c (G : mstate -> list mop -> Prop),
  0 < prune_height c /\ prune_height c <= second_level c ->
  (forall s L o tl, Inv c s L -> G s (o :: tl) ->
     G (mstep c s o) tl /\
     forall H p ms kvs, o = MCommit H p ms kvs ->
       onat_eqb p (tip_index (ms_ac s)) = true /\ (parent_ok s L H p -> fresh_root s L kvs)) ->
  forall ops, ops_valid c init_mstate ops = true -> G init_mstate ops -> live_readable c (mrun c ops).
Proof.
  intros c G CV GS ops V0 G0.
  assert (R : forall ops s L, Inv c s L -> ops_valid c s ops = true -> G s ops ->
            exists L', Inv c (fold_left (mstep c) ops s) L').
  { clear ops V0 G0. induction ops as [|o ops IH]; intros s L IV V Gs; cbn [fold_left]; [eauto|].
    cbn [ops_valid] in V. apply andb_true_iff in V. destruct V as [V1 V2].
    destruct (GS s L o ops IV Gs) as [G2 G1].
    destruct (inv_step c s L o CV IV V1 G1) as [L1 IV1]. eapply IH; eauto. }
  destruct (R ops init_mstate [] (inv_init c) V0 G0) as [L IV]. eapply inv_live_readable; eauto.
Qed.

Theorem prune_keeps_live_guarded : C05_prune_keeps_live_guarded.
Proof.
  intros c ops CV V G. apply (prune_keeps_live_linear c (fun s ops => linear_fresh c s ops = true)); auto using cfg_valid_facts.
  clear. intros s L o tl IV G. cbn [linear_fresh] in G. apply andb_true_iff in G. destruct G as [G1 G2].
  split; [exact G2|]. intros H p ms kvs E. subst o.
  cbn [op_linear_fresh] in G1. apply andb_true_iff in G1. destruct G1 as [Gp Gf].
  split; [exact Gp|]. intros PO. destruct kvs as [|kv kvs']; [intros NE; congruence|].
  apply (fresh_from_roots c s L H p _ IV PO). unfold commit_result in Gf.
  destruct ms; exact Gf.
Qed.

Theorem prune_keeps_live_changing : C05_prune_keeps_live_changing.
Proof.
  intros c ops CV V G. apply (prune_keeps_live_linear c (fun s ops => linear_changing c s ops = true)); auto using cfg_valid_facts.
  clear. intros s L o tl IV G. cbn [linear_changing] in G. apply andb_true_iff in G. destruct G as [G1 G2].
  split; [exact G2|]. intros H p ms kvs E. subst o.
  cbn [op_linear_changing] in G1. apply andb_true_iff in G1. destruct G1 as [Gp Gf].
  split; [exact Gp|]. intros PO. destruct kvs as [|kv kvs']; [intros NE; congruence|].
  apply negb_true_iff in Gf. apply (fresh_from_states c s L H p _ IV PO Gf).
Qed.
