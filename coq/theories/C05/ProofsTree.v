(** C05 — facts about annotated trees: which node objects of a commit's tree
    are persisted ones (whole sub-trees of the parent version), and what
    happens to the leaves. *)
From Coq Require Import List ZArith NArith Bool.
From C33 Require Import C01.Keys C01.KeysFacts C01.Model C01.Store C05.Model.
Import ListNotations.
Open Scope Z_scope.

Fixpoint aleaves (t : atree) : list (bytes * bytes * option nref) :=
  match t with
  | ALeaf p k v => [(k, v, p)]
  | ANode _ _ _ _ l r => aleaves l ++ aleaves r
  end.

Definition lkey (x : bytes * bytes * option nref) : bytes := fst (fst x).

Inductive asub (x : atree) : atree -> Prop :=
| asub_refl : asub x x
| asub_l : forall p k h s l r, asub x l -> asub x (ANode p k h s l r)
| asub_r : forall p k h s l r, asub x r -> asub x (ANode p k h s l r).

Create HintDb asub.
#[export] Hint Constructors asub : asub.

Lemma asub_trans : forall a b c, asub a b -> asub b c -> asub a c.
Proof.
  intros a b c Hab Hbc. induction Hbc; auto with asub.
Qed.

Lemma asub_node_inv : forall x p k h s l r,
  asub x (ANode p k h s l r) -> x = ANode p k h s l r \/ asub x l \/ asub x r.
Proof. intros x p k h s l r H. inversion H; subst; auto. Qed.

Lemma asub_leaf_inv : forall x p k v, asub x (ALeaf p k v) -> x = ALeaf p k v.
Proof. intros x p k v H. inversion H; subst; auto. Qed.

(** [from_old t t0]: every node of [t] is either a new object (no
    annotation) or a whole sub-tree of [t0]. *)
Definition from_old (t t0 : atree) : Prop :=
  forall x, asub x t -> annot x <> None -> asub x t0.

Lemma from_old_sub : forall t t0, asub t t0 -> from_old t t0.
Proof. intros t t0 H x Hx _. eapply asub_trans; eauto. Qed.

Lemma from_old_trans : forall a b c, from_old a b -> from_old b c -> from_old a c.
Proof. intros a b c H1 H2 x Hx A. apply H2; [apply H1|]; assumption. Qed.

Lemma from_old_leaf : forall k v t0, from_old (ALeaf None k v) t0.
Proof. intros k v t0 x Hx A. apply asub_leaf_inv in Hx. subst x. cbn in A. congruence. Qed.

Lemma from_old_node : forall k h s l r t0,
  from_old l t0 -> from_old r t0 -> from_old (ANode None k h s l r) t0.
Proof.
  intros k h s l r t0 Hl Hr x Hx A. apply asub_node_inv in Hx.
  destruct Hx as [Hx|[Hx|Hx]]; [subst x; cbn in A; congruence|auto|auto].
Qed.

Lemma from_old_cong : forall p k h s l r k' h' s' l' r',
  from_old l' l -> from_old r' r -> from_old (ANode None k' h' s' l' r') (ANode p k h s l r).
Proof.
  intros. apply from_old_node; eapply from_old_trans; eauto; apply from_old_sub; auto with asub.
Qed.

(** What a rotation or a re-balancing does: the same leaves in the same order
    under a new root object, persisted nodes are nodes of the input. *)
Definition reshaped (t t' : atree) : Prop :=
  aleaves t' = aleaves t /\ annot t' = None /\ from_old t' t.

Lemma reshaped_trans : forall a b c, reshaped a b -> reshaped b c -> reshaped a c.
Proof.
  intros a b c [L1 [_ F1]] [L2 [A2 F2]].
  split; [congruence|]. split; [exact A2|]. eapply from_old_trans; eauto.
Qed.

Lemma reshaped_root : forall p k h s l r, reshaped (ANode p k h s l r) (ANode None k h s l r).
Proof.
  intros. split; [reflexivity|]. split; [reflexivity|].
  apply from_old_cong; apply from_old_sub; auto with asub.
Qed.

Lemma reshaped_node_l : forall p k h s l l' r,
  reshaped l l' -> reshaped (ANode p k h s l r) (ANode None k h s l' r).
Proof.
  intros p k h s l l' r [L [_ F]]. split; [cbn; congruence|]. split; [reflexivity|].
  apply from_old_cong; [exact F|apply from_old_sub; auto with asub].
Qed.

Lemma reshaped_node_r : forall p k h s l r r',
  reshaped r r' -> reshaped (ANode p k h s l r) (ANode None k h s l r').
Proof.
  intros p k h s l r r' [L [_ F]]. split; [cbn; congruence|]. split; [reflexivity|].
  apply from_old_cong; [apply from_old_sub; auto with asub|exact F].
Qed.

Lemma reshaped_rotate_right : forall t t', arotate_right t = Some t' -> reshaped t t'.
Proof.
  intros [|p k h s [|lp lk lh ls ll lr] r] t' H; try discriminate.
  cbn in H. inversion H. split; [cbn; apply app_assoc|]. split; [reflexivity|].
  repeat apply from_old_node; apply from_old_sub; auto with asub.
Qed.

Lemma reshaped_rotate_left : forall t t', arotate_left t = Some t' -> reshaped t t'.
Proof.
  intros [|p k h s l [|rp rk rh rs rl rr]] t' H; try discriminate.
  cbn in H. inversion H. split; [cbn; symmetry; apply app_assoc|]. split; [reflexivity|].
  repeat apply from_old_node; apply from_old_sub; auto with asub.
Qed.

Lemma reshaped_balance : forall k h s l r t',
  abalance (ANode None k h s l r) = Some t' -> reshaped (ANode None k h s l r) t'.
Proof.
  intros k h s l r t' H. cbn [abalance] in H.
  destruct (aheight l - aheight r >? 1).
  - destruct (acalc_balance l) as [bl|]; [|discriminate].
    destruct (bl >=? 0); [apply reshaped_rotate_right; exact H|].
    destruct (arotate_left l) as [l'|] eqn:E; [|discriminate].
    eapply reshaped_trans; [|apply reshaped_rotate_right; exact H].
    apply reshaped_node_l, reshaped_rotate_left, E.
  - destruct (aheight l - aheight r <? -1).
    + destruct (acalc_balance r) as [br|]; [|discriminate].
      destruct (br <=? 0); [apply reshaped_rotate_left; exact H|].
      destruct (arotate_right r) as [r'|] eqn:E; [|discriminate].
      eapply reshaped_trans; [|apply reshaped_rotate_left; exact H].
      apply reshaped_node_r, reshaped_rotate_right, E.
    + inversion H. apply reshaped_root.
Qed.

Definition other (k : bytes) (x : bytes * bytes * option nref) : bool := negb (beq (lkey x) k).

(** What node.set does: the result is a new root object whose persisted nodes
    are nodes of the input; every leaf with another key keeps its place and its
    annotation; the written key gets a new leaf object. *)
Definition written (k v : bytes) (t t' : atree) : Prop :=
  annot t' = None /\ from_old t' t /\
  filter (other k) (aleaves t') = filter (other k) (aleaves t) /\ In (k, v, None) (aleaves t').

Lemma written_node_l : forall k v p nk h s h' s' l l' r,
  written k v l l' -> written k v (ANode p nk h s l r) (ANode None nk h' s' l' r).
Proof.
  intros k v p nk h s h' s' l l' r [_ [F [E I]]]. split; [reflexivity|].
  split; [apply from_old_cong; [exact F|apply from_old_sub; auto with asub]|].
  cbn [aleaves]. rewrite !filter_app, E. split; [reflexivity|apply in_or_app; auto].
Qed.

Lemma written_node_r : forall k v p nk h s h' s' l r r',
  written k v r r' -> written k v (ANode p nk h s l r) (ANode None nk h' s' l r').
Proof.
  intros k v p nk h s h' s' l r r' [_ [F [E I]]]. split; [reflexivity|].
  split; [apply from_old_cong; [apply from_old_sub; auto with asub|exact F]|].
  cbn [aleaves]. rewrite !filter_app, E. split; [reflexivity|apply in_or_app; auto].
Qed.

Lemma written_reshaped : forall k v t n t', written k v t n -> reshaped n t' -> written k v t t'.
Proof.
  intros k v t n t' [_ [F [E I]]] [L [A O]]. rewrite <- L in E, I.
  split; [exact A|]. split; [eapply from_old_trans; eauto|auto].
Qed.

Theorem aset_written : forall t k v t' u, aset t k v = Some (t', u) -> written k v t t'.
Proof.
  induction t as [p lk lv|p nk h s l IHl r IHr]; intros k v t' u H.
  - cbn in H. unfold written, other, lkey.
    destruct (bcmp k lk) eqn:C; inversion H; subst t'; cbn; rewrite ?beq_refl; cbn.
    + apply bcmp_eq in C. subst lk. rewrite beq_refl.
      split; [reflexivity|]. split; [apply from_old_leaf|auto].
    + split; [reflexivity|]. split; [|auto].
      apply from_old_node; [apply from_old_leaf|apply from_old_sub; auto with asub].
    + split; [reflexivity|]. split; [|destruct (negb (beq lk k)); auto].
      apply from_old_node; [apply from_old_sub; auto with asub|apply from_old_leaf].
  - cbn [aset] in H. destruct (blt k nk).
    + destruct (aset l k v) as [[l' ul]|] eqn:E; [|discriminate].
      assert (W : forall h' s', written k v (ANode p nk h s l r) (ANode None nk h' s' l' r))
        by (intros; eapply written_node_l, IHl, E).
      destruct ul; [inversion H; subst t'; apply W|].
      destruct (abalance _) as [tb|] eqn:B; [|discriminate]. inversion H; subst t'.
      eapply written_reshaped; [apply W|apply reshaped_balance; exact B].
    + destruct (aset r k v) as [[r' ur]|] eqn:E; [|discriminate].
      assert (W : forall h' s', written k v (ANode p nk h s l r) (ANode None nk h' s' l r'))
        by (intros; eapply written_node_r, IHr, E).
      destruct ur; [inversion H; subst t'; apply W|].
      destruct (abalance _) as [tb|] eqn:B; [|discriminate]. inversion H; subst t'.
      eapply written_reshaped; [apply W|apply reshaped_balance; exact B].
Qed.

Lemma aleaves_elements : forall t, map (fun x => (fst (fst x), snd (fst x))) (aleaves t) = elements (erase t).
Proof.
  induction t; cbn; [reflexivity|]. rewrite map_app. congruence.
Qed.

Lemma aleaves_sub : forall x t, asub x t -> forall e, In e (aleaves x) -> In e (aleaves t).
Proof.
  intros x t H. induction H; intros e He; [exact He| |]; cbn; apply in_or_app; auto.
Qed.

Lemma aleaves_in_sub : forall t k v p, In (k, v, p) (aleaves t) -> asub (ALeaf p k v) t.
Proof.
  induction t as [p0 k0 v0|p0 nk h s l IHl r IHr]; intros k v p H; cbn in H.
  - destruct H as [H|[]]. inversion H. apply asub_refl.
  - apply in_app_or in H. destruct H; [apply asub_l|apply asub_r]; auto.
Qed.
