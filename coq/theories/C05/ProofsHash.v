(** C05 — facts about symbolic hashes and database keys: decidable equality,
    distinct nodes of an ordered tree have distinct hashes (with two facts
    about duplicate-free lists). *)
From Coq Require Import List ZArith NArith Bool Lia.
From C33 Require Import C01.Keys C01.KeysFacts C01.Model C01.Store C01.Inv C01.Proofs C01.ProofsStore C05.Model.
Import ListNotations.
Open Scope Z_scope.

Lemma heqb_hash_eqb : forall a b, heqb a b = hash_eqb a b.
Proof.
  induction a as [k v|h s l IHl r IHr]; destruct b as [k' v'|h' s' l' r']; cbn; try reflexivity.
  rewrite IHl, IHr. destruct (h =? h'), (s =? s'), (hash_eqb l l'); reflexivity.
Qed.

Lemma heqb_refl : forall a, heqb a a = true.
Proof. intros. rewrite heqb_hash_eqb. apply hash_eqb_refl. Qed.

Lemma heqb_eq : forall a b, heqb a b = true -> a = b.
Proof. intros a b H. rewrite heqb_hash_eqb in H. apply hash_eqb_eq. exact H. Qed.

Lemma heqb_neq : forall a b, heqb a b = false -> a <> b.
Proof. intros a b H E. subst b. rewrite heqb_refl in H. discriminate. Qed.

Lemma oz_eqb_eq : forall a b, oz_eqb a b = true <-> a = b.
Proof.
  intros [x|] [y|]; cbn; split; intros H; try discriminate; try reflexivity.
  - apply Z.eqb_eq in H. congruence.
  - inversion H. apply Z.eqb_refl.
Qed.

Lemma nref_eqb_eq : forall a b, nref_eqb a b = true <-> a = b.
Proof.
  intros [pa ha] [pb hb]. unfold nref_eqb. cbn. split.
  - intros H. destruct (oz_eqb pa pb) eqn:E; [|discriminate].
    apply oz_eqb_eq in E. apply heqb_eq in H. congruence.
  - intros H. inversion H. subst. rewrite (proj2 (oz_eqb_eq pb pb) eq_refl). apply heqb_refl.
Qed.

Lemma nref_eqb_refl : forall a, nref_eqb a a = true.
Proof. intros. apply nref_eqb_eq. reflexivity. Qed.

Lemma nref_eqb_neq : forall a b, nref_eqb a b = false <-> a <> b.
Proof.
  intros a b. split.
  - intros H E. apply nref_eqb_eq in E. congruence.
  - intros H. destruct (nref_eqb a b) eqn:E; [|reflexivity]. apply nref_eqb_eq in E. contradiction.
Qed.

Lemma nref_eq_dec : forall a b : nref, {a = b} + {a <> b}.
Proof.
  intros a b. destruct (nref_eqb a b) eqn:E.
  - left. apply nref_eqb_eq. exact E.
  - right. apply nref_eqb_neq. exact E.
Qed.

Fixpoint hsize (h : hash) : nat :=
  match h with
  | HLeaf _ _ => 1%nat
  | HInner _ _ l r => S (hsize l + hsize r)
  end.

Fixpoint helems (h : hash) : list (bytes * bytes) :=
  match h with
  | HLeaf k v => [(k, v)]
  | HInner _ _ l r => helems l ++ helems r
  end.

Lemma helems_thash : forall t, helems (thash t) = elements t.
Proof. induction t; cbn; congruence. Qed.

(** the keys below a node are determined by its hash *)
Definition hkeys (h : hash) : list bytes := map fst (helems h).

Lemma hkeys_thash : forall t, hkeys (thash t) = keys t.
Proof. intros t. unfold hkeys, keys. rewrite helems_thash. reflexivity. Qed.

Fixpoint subtrees (t : tree) : list tree :=
  match t with
  | Leaf _ _ => [t]
  | Node _ _ _ l r => t :: subtrees l ++ subtrees r
  end.

Lemma subtrees_all : forall (Q : tree -> Prop),
  (forall k h s l r, Q (Node k h s l r) -> Q l /\ Q r) ->
  forall t, Q t -> forall x, In x (subtrees t) -> Q x.
Proof.
  intros Q HQ. induction t as [k v|k h s l IHl r IHr]; intros Ht x H; cbn in H.
  - destruct H as [H|[]]. subst. exact Ht.
  - destruct H as [H|H]; [subst; exact Ht|]. destruct (HQ _ _ _ _ _ Ht).
    apply in_app_or in H. destruct H; auto.
Qed.

Lemma subtrees_hsize : forall t x, In x (subtrees t) -> (hsize (thash x) <= hsize (thash t))%nat.
Proof.
  intros t. apply (subtrees_all (fun x => (hsize (thash x) <= hsize (thash t))%nat)); [|lia].
  cbn. intros. lia.
Qed.

Lemma subtrees_keys : forall t x, In x (subtrees t) -> forall k, In k (keys x) -> In k (keys t).
Proof.
  intros t. apply (subtrees_all (fun x => forall k, In k (keys x) -> In k (keys t))); [|auto].
  intros k h s l r H. rewrite keys_node in H. split; intros; apply H, in_or_app; auto.
Qed.

Lemma keys_thash : forall x y, thash x = thash y -> keys x = keys y.
Proof. intros x y H. rewrite <- !hkeys_thash, H. reflexivity. Qed.

Lemma subtrees_ordered : forall t x, ordered t -> In x (subtrees t) -> ordered x.
Proof. intros t x O. revert x. apply (subtrees_all ordered); [cbn; tauto|exact O]. Qed.

Lemma nodup_app_iff : forall (A : Type) (a b : list A),
  NoDup (a ++ b) <-> NoDup a /\ NoDup b /\ forall x, In x a -> In x b -> False.
Proof.
  induction a as [|x a IH]; intros b; cbn.
  - split; [intros H; repeat split; [constructor|exact H|intros x []]|tauto].
  - rewrite !NoDup_cons_iff, IH, in_app_iff. split.
    + intros [N [Ha [Hb D]]]. split; [split; [intros I; apply N; auto|exact Ha]|]. split; [exact Hb|].
      intros y [E|I] Iy; [subst y; apply N; auto|exact (D y I Iy)].
    + intros [[N Ha] [Hb D]]. split; [intros [I|I]; [exact (N I)|exact (D x (or_introl eq_refl) I)]|].
      split; [exact Ha|]. split; [exact Hb|]. intros y I. exact (D y (or_intror I)).
Qed.

Lemma nodup_map_inj : forall (A B : Type) (f : A -> B) (l : list A) a b,
  NoDup (map f l) -> In a l -> In b l -> f a = f b -> a = b.
Proof.
  induction l as [|x l IH]; intros a b ND Ia Ib E; [destruct Ia|].
  cbn in ND. inversion ND as [|y ys N1 N2]; subst.
  destruct Ia as [Ia|Ia], Ib as [Ib|Ib]; subst.
  - reflexivity.
  - exfalso. apply N1. rewrite E. apply in_map. exact Ib.
  - exfalso. apply N1. rewrite <- E. apply in_map. exact Ia.
  - eapply IH; eauto.
Qed.

Theorem subtree_hashes_nodup : forall t, ordered t -> NoDup (map thash (subtrees t)).
Proof.
  induction t as [k v|nk h s l IHl r IHr]; intros HO; cbn.
  - constructor; [intros []|constructor].
  - destruct HO as [Hl [Hr [Hlt [Hge _]]]].
    constructor.
    + intros H. apply in_map_iff in H. destruct H as [x [E Hx]].
      apply in_app_or in Hx.
      assert (S : (hsize (thash x) <= hsize (thash l) \/ hsize (thash x) <= hsize (thash r))%nat).
      { destruct Hx as [Hx|Hx]; [left|right]; apply subtrees_hsize; exact Hx. }
      rewrite E in S. cbn in S. lia.
    + rewrite map_app. apply nodup_app_iff. repeat split; auto.
      intros hx H1 H2. apply in_map_iff in H1. apply in_map_iff in H2.
      destruct H1 as [x [Ex Hx]]. destruct H2 as [y [Ey Hy]].
      assert (K : keys x = keys y) by (apply keys_thash; congruence).
      pose proof (leftmost_in x) as Lx. 
      pose proof (subtrees_keys _ _ Hx _ Lx) as Kl.
      rewrite K in Lx. pose proof (subtrees_keys _ _ Hy _ Lx) as Kr.
      apply Hlt in Kl. apply Hge in Kr. congruence.
Qed.
