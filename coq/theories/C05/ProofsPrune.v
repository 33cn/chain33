(** C05 — what a pruning run deletes: only the leaf and the ancestors listed
    in index entries that have a NEWER entry of the same key which is old
    enough; index entries only disappear or move to the second level. *)
From Coq Require Import List ZArith NArith Bool Lia.
From C33 Require Import C01.Keys C01.KeysFacts C01.Model C01.Store
  C05.Model C05.ProofsHash C05.ProofsSave.
Import ListNotations.
Open Scope Z_scope.

Definition version_refs (e : ikey * list nref) : list nref := ik_leaf e :: snd e.

Lemma delete_version_keep : forall ns e r, ~ In r (version_refs e) ->
  aget nref_eqb (delete_version ns e) r = aget nref_eqb ns r.
Proof.
  intros ns e r N. unfold delete_version.
  rewrite aget_adel_other; [|exact nref_eqb_eq|intros E; apply N; cbn; auto].
  apply aget_adel_all_other; [exact nref_eqb_eq|]. intros I. apply N. cbn. auto.
Qed.

Lemma fold_delete_keep : forall doomed ns r,
  (forall e, In e doomed -> ~ In r (version_refs e)) ->
  aget nref_eqb (fold_left delete_version doomed ns) r = aget nref_eqb ns r.
Proof.
  induction doomed as [|e tl IH]; intros ns r N; cbn [fold_left]; [reflexivity|].
  rewrite IH by (intros e0 I; apply N; cbn; auto).
  apply delete_version_keep. apply N. cbn. auto.
Qed.

Lemma group_max_attained : forall es k, group_max es k = -1 \/
  exists e0, In e0 es /\ beq (ik_key e0) k = true /\ ik_height e0 = group_max es k.
Proof.
  intros es k. unfold group_max.
  set (f := fun m e => if beq (ik_key e) k then Z.max m (ik_height e) else m).
  induction es as [|e es IH] using rev_ind; [left; reflexivity|].
  rewrite fold_left_app. cbn [fold_left]. set (g := fold_left f es (-1)) in *.
  assert (C : f g e = g \/ (beq (ik_key e) k = true /\ f g e = ik_height e)).
  { unfold f. destruct (beq (ik_key e) k); [|auto].
    destruct (Z.max_spec g (ik_height e)) as [[_ M]|[_ M]]; rewrite M; auto. }
  destruct C as [C|[B C]]; rewrite C.
  - destruct IH as [E|[e0 [I X]]]; [auto|right]. exists e0. split; [apply in_or_app; auto|exact X].
  - right. exists e. split; [apply in_or_app; cbn; auto|auto].
Qed.

Lemma below_group_max : forall es e, 0 <= ik_height e -> (ik_height e <? group_max es (ik_key e)) = true ->
  exists e0, In e0 es /\ ik_key e0 = ik_key e /\ ik_height e < ik_height e0.
Proof.
  intros es e P Fl. apply Z.ltb_lt in Fl.
  destruct (group_max_attained es (ik_key e)) as [E|[e0 [I0 [B0 E0]]]]; [lia|].
  exists e0. split; [exact I0|]. split; [apply beq_iff; exact B0|lia].
Qed.

Definition all_entries (d : pdb) : list (ikey * list nref) := idx1 d ++ idx2 d.

Definition evidence (c : cfg) (cur : Z) (d : pdb) (e0 : ikey * list nref) : Prop :=
  (In e0 (idx1 d) /\ ik_height e0 + prune_height c <= cur) \/
  (In e0 (idx1 d) /\ ik_height e0 + second_level c <= cur) \/
  In e0 (idx2 d).

(** a ref is SAFE in [d] for a run at [cur] when no entry listing it has a newer old-enough entry of the same key *)
Definition safe_ref (c : cfg) (cur : Z) (d : pdb) (r : nref) : Prop :=
  forall e e0, In e (all_entries d) -> In r (version_refs e) ->
    evidence c cur d e0 -> ik_key e0 = ik_key e -> ik_height e < ik_height e0 -> False.

Lemma prune_first_fields : forall c cur d,
  rootrec (prune_first c cur d) = rootrec d /\ maxh (prune_first c cur d) = maxh d /\
  sech (prune_first c cur d) = sech d.
Proof. intros. unfold prune_first. cbn. auto. Qed.

Lemma fold_aput_in : forall moved (m : list (ikey * list nref)) e,
  In e (fold_left (fun m e => aput ikey_eqb m (fst e) (snd e)) moved m) -> In e m \/ In e moved.
Proof.
  induction moved as [|x tl IH]; intros m e I; cbn [fold_left] in I; [auto|].
  apply IH in I. destruct I as [I|I]; [|right; cbn; auto].
  apply in_aput in I. destruct I as [I|I]; [right; cbn; left; destruct x; cbn in *; congruence|left; exact I].
Qed.

Lemma prune_first_idx1 : forall c cur d e, In e (idx1 (prune_first c cur d)) -> In e (idx1 d).
Proof.
  intros c cur d e I. unfold prune_first in I. cbn [idx1] in I.
  apply in_adel_all in I. apply in_adel_all in I. exact I.
Qed.

Lemma prune_first_idx2 : forall c cur d e, In e (idx2 (prune_first c cur d)) ->
  In e (idx2 d) \/ (In e (idx1 d) /\ ik_height e + second_level c <= cur).
Proof.
  intros c cur d e I. unfold prune_first in I. cbn [idx2] in I.
  apply fold_aput_in in I. destruct I as [I|I]; [left; exact I|right].
  apply filter_In in I. destruct I as [I F]. split; [exact I|].
  unfold first_moved in F. apply negb_true_iff in F. apply Z.ltb_ge in F. lia.
Qed.

Lemma prune_first_keep : forall c cur d r,
  (forall e, In e (idx1 d) -> 0 <= ik_height e) ->
  safe_ref c cur d r -> node_get (prune_first c cur d) r = node_get d r.
Proof.
  intros c cur d r HP S. unfold prune_first, node_get. cbn [nodes].
  apply fold_delete_keep. intros e I Ir.
  apply filter_In in I. destruct I as [Ic Fd].
  apply filter_In in Ic. destruct Ic as [Ie Fc].
  unfold first_doomed in Fd. apply andb_true_iff in Fd. destruct Fd as [_ Fl].
  destruct (below_group_max _ e (HP e Ie) Fl) as [e0 [I0 [K0 L0]]].
  apply filter_In in I0. destruct I0 as [I0 Fc0].
  unfold first_cand in Fc0. apply andb_true_iff in Fc0. destruct Fc0 as [_ A0]. apply Z.leb_le in A0.
  apply (S e e0); auto.
  - unfold all_entries. apply in_or_app. left. exact Ie.
  - left. split; assumption.
Qed.

Lemma prune_second_fields : forall c cur d,
  rootrec (prune_second c cur d) = rootrec d /\ maxh (prune_second c cur d) = maxh d /\
  idx1 (prune_second c cur d) = idx1 d.
Proof.
  intros. unfold prune_second. destruct (_ && _); cbn; auto.
Qed.

Lemma prune_second_idx2 : forall c cur d e, In e (idx2 (prune_second c cur d)) -> In e (idx2 d).
Proof.
  intros c cur d e I. unfold prune_second in I. destruct (_ && _); [|exact I].
  cbn [set_sech idx2 prune_second_nodes] in I. apply in_adel_all in I. apply in_adel_all in I. exact I.
Qed.

Lemma prune_second_keep : forall c cur d r,
  (forall e, In e (idx2 d) -> 0 <= ik_height e) ->
  (forall e e0, In e (idx2 d) -> In r (version_refs e) -> In e0 (idx2 d) ->
     ik_key e0 = ik_key e -> ik_height e < ik_height e0 -> False) ->
  node_get (prune_second c cur d) r = node_get d r.
Proof.
  intros c cur d r HP S. unfold prune_second. destruct (_ && _); [|reflexivity].
  unfold set_sech, prune_second_nodes, node_get. cbn [nodes].
  apply fold_delete_keep. intros e I Ir.
  apply filter_In in I. destruct I as [Ie Fd].
  unfold second_doomed in Fd. rewrite !andb_true_iff in Fd. destruct Fd as [[[_ _] Fl] _].
  destruct (below_group_max _ e (HP e Ie) Fl) as [e0 [I0 [K0 L0]]].
  apply (S e e0); auto.
Qed.

Theorem pruning_keep : forall c cur d r,
  (forall e, In e (all_entries d) -> 0 <= ik_height e) ->
  safe_ref c cur d r -> node_get (pruning_tree c cur d) r = node_get d r.
Proof.
  intros c cur d r HP S. unfold pruning_tree.
  rewrite prune_second_keep.
  - apply prune_first_keep; [|exact S]. intros e I. apply HP. unfold all_entries. apply in_or_app. auto.
  - intros e I. apply prune_first_idx2 in I. apply HP. unfold all_entries. apply in_or_app. tauto.
  - intros e e0 Ie Ir I0 K L.
    apply (S e e0); auto.
    + unfold all_entries. apply in_or_app. apply prune_first_idx2 in Ie. tauto.
    + apply prune_first_idx2 in I0. destruct I0 as [I0|[I0 A0]]; [right; right; exact I0|right; left; auto].
Qed.

Theorem pruning_entries : forall c cur d e,
  In e (all_entries (pruning_tree c cur d)) -> In e (all_entries d).
Proof.
  intros c cur d e I. unfold all_entries, pruning_tree in *. apply in_app_or in I. apply in_or_app.
  destruct (prune_second_fields c cur (prune_first c cur d)) as [_ [_ E1]].
  destruct I as [I|I].
  - rewrite E1 in I. left. eapply prune_first_idx1; eauto.
  - apply prune_second_idx2 in I. apply prune_first_idx2 in I. tauto.
Qed.

Theorem pruning_idx2 : forall c cur d e, In e (idx2 (pruning_tree c cur d)) ->
  In e (idx2 d) \/ (In e (idx1 d) /\ ik_height e + second_level c <= cur).
Proof.
  intros c cur d e I. unfold pruning_tree in I. apply prune_second_idx2 in I. apply prune_first_idx2. exact I.
Qed.

Theorem pruning_idx1 : forall c cur d e, In e (idx1 (pruning_tree c cur d)) -> In e (idx1 d).
Proof.
  intros c cur d e I. unfold pruning_tree in I.
  destruct (prune_second_fields c cur (prune_first c cur d)) as [_ [_ E1]]. rewrite E1 in I.
  eapply prune_first_idx1; eauto.
Qed.

Theorem pruning_fields : forall c cur d,
  rootrec (pruning_tree c cur d) = rootrec d /\ maxh (pruning_tree c cur d) = maxh d.
Proof.
  intros. unfold pruning_tree.
  destruct (prune_second_fields c cur (prune_first c cur d)) as [A [B _]].
  destruct (prune_first_fields c cur d) as [A' [B' _]]. rewrite A, B. auto.
Qed.
