(** C05 — the property fails on the faithful model: two witnesses, both
    reproduced on the Go code by the harness (streams witness-same-value and
    witness-empty-fork). *)
From Coq Require Import List ZArith NArith Bool String.
From C33 Require Import Lib.Harness C01.Keys C01.Spec C01.Store C05.Model C05.Spec C05.Hist.
Import ListNotations.
Open Scope string_scope.
Open Scope Z_scope.

Definition cfg2 : cfg := mk_cfg 2 500000 1500000.

Definition ka := bs "a". Definition kb := bs "b". Definition kc := bs "c".

(** 1: key a rewritten with its old value at heights 1..4 (the same root every time) *)
Definition w1 : list mop :=
  [ MCommit 1 None false [(ka, bs "1"); (kb, bs "2")];
    MCommit 2 (Some 0%nat) false [(ka, bs "1")];
    MCommit 3 (Some 1%nat) false [(ka, bs "1")];
    MCommit 4 (Some 2%nat) false [(ka, bs "1")] ].
(* the commit at height 4 starts the background pruning run (4 mod 2 = 0, 4/2 > 1) *)

Lemma w1_valid : ops_valid cfg2 init_mstate w1 = true.
Proof. vm_compute. reflexivity. Qed.

Lemma w1_tip_unreadable : let s := mrun cfg2 w1 in
  read_at s 3 ka = None /\ In 3%nat (live (prune_height cfg2) (ms_ac s)).
Proof. split; vm_compute; auto. Qed.

(** 2: re-organisation onto a branch whose height 2 changes nothing *)
Definition w2 : list mop :=
  [ MCommit 1 None false [(ka, bs "1"); (kb, bs "1"); (kc, bs "1")];
    MCommit 2 (Some 0%nat) false [(ka, bs "2")];
    MCommit 2 (Some 0%nat) true [];
    MCommit 3 (Some 2%nat) false [(kb, bs "3")];
    MCommit 4 (Some 3%nat) false [(kc, bs "4")] ].

Lemma w2_valid : ops_valid cfg2 init_mstate w2 = true.
Proof. vm_compute. reflexivity. Qed.

(* the memset commit (index 2) keeps the root of commit 0; all written roots are pairwise different *)
Definition roots_distinct (rs : list (option hash)) : bool :=
  forallb (fun i => forallb (fun j => Nat.eqb i j ||
     negb (root_eqb (nth i rs None) (nth j rs None))) [0;1;3;4]%nat) [0;1;3;4]%nat.

Lemma w2_all_roots_distinct : roots_distinct (ms_roots (mrun cfg2 w2)) = true.
Proof. vm_compute. reflexivity. Qed.

Lemma w2_tip_unreadable : let s := mrun cfg2 w2 in
  read_at s 4 ka = None /\ In 4%nat (live (prune_height cfg2) (ms_ac s)).
Proof. split; vm_compute; auto. Qed.

Theorem prune_keeps_live_refuted : ~ C05_prune_keeps_live_full.
Proof.
  intros F. destruct (F cfg2 w1 eq_refl w1_valid) as [_ R].
  destruct w1_tip_unreadable as [U L]. specialize (R 3%nat ka L). rewrite U in R. discriminate R.
Qed.

Theorem prune_keeps_live_refuted_fork : ~ C05_prune_keeps_live_full.
Proof.
  intros F. destruct (F cfg2 w2 eq_refl w2_valid) as [_ R].
  destruct w2_tip_unreadable as [U L]. specialize (R 4%nat ka L). rewrite U in R. discriminate R.
Qed.
