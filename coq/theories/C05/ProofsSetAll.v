(** C05 — the tree a commit builds (the parent version with the write set
    applied): which nodes are old, which leaves are new. *)
From Coq Require Import List ZArith NArith Bool Lia.
From C33 Require Import C01.Keys C01.KeysFacts C01.Model C01.Spec C01.Store C01.Inv C01.Proofs C01.ProofsStore
  C05.Model C05.ProofsErase C05.ProofsTree C05.ProofsHash C05.ProofsSave.
Import ListNotations.
Open Scope Z_scope.

Lemma ordered_keys_nodup : forall t, ordered t -> NoDup (keys t).
Proof.
  induction t as [k v|nk h s l IHl r IHr]; intros O.
  - cbn. constructor; [intros []|constructor].
  - destruct O as [Ol [Or [Hlt [Hge _]]]]. rewrite keys_node. apply nodup_app_iff. repeat split; auto.
    intros x Hl Hr. apply Hlt in Hl. apply Hge in Hr. congruence.
Qed.

Lemma leaf_unique : forall t a b, ordered (erase t) -> In a (aleaves t) -> In b (aleaves t) -> lkey a = lkey b -> a = b.
Proof.
  intros t a b O Ia Ib E. apply (nodup_map_inj _ _ lkey (aleaves t)); auto.
  change (map lkey (aleaves t)) with (akeys t). rewrite akeys_erase. apply ordered_keys_nodup. exact O.
Qed.

Definition oleaves (o : oatree) : list (bytes * bytes * option nref) :=
  match o with None => [] | Some t => aleaves t end.

Definition osub (x : atree) (o : oatree) : Prop := match o with None => False | Some t => asub x t end.

Definition ogood (o : oatree) : Prop := o_good (oterase o).

Lemma osub_trans : forall x y o, asub x y -> osub y o -> osub x o.
Proof. intros x y [t|] H1 H2; cbn in *; [eapply asub_trans; eauto|exact H2]. Qed.

(** the contents: C01's theorem about [t_set_all], through the erasure *)
Lemma at_set_all_good : forall kvs o, ogood o ->
  exists o', at_set_all o kvs = Some o' /\ ogood o' /\
    o_elements (oterase o') = apply_writes (o_elements (oterase o)) kvs.
Proof.
  intros kvs o G. destruct (t_set_all_inv kvs (oterase o) G) as [o1 [E [G1 HE]]].
  pose proof (erase_t_set_all kvs o) as X. rewrite E in X.
  destruct (at_set_all o kvs) as [o'|]; [|discriminate]. injection X as <-. exists o'. auto.
Qed.

Lemma at_set_written : forall o k v o', ogood o -> at_set o k v = Some o' ->
  ogood o' /\
  (exists t', o' = Some t' /\ annot t' = None) /\
  (forall x, osub x o' -> annot x <> None -> osub x o) /\
  (forall e, In e (oleaves o') -> e = (k, v, None) \/ lkey e <> k /\ In e (oleaves o)).
Proof.
  intros o k v o' G A.
  assert (G' : ogood o').
  { destruct (at_set_all_good [(k, v)] o G) as [o1 [X [G1 _]]]. cbn in X. rewrite A in X. congruence. }
  split; [exact G'|]. destruct o as [t|]; cbn in A.
  - destruct (aset t k v) as [[t' u]|] eqn:S; [|discriminate]. injection A as <-.
    destruct (aset_written _ _ _ _ _ S) as [R [F [E I]]].
    split; [eauto|]. split; [exact F|]. cbn [oleaves]. intros e Ie.
    destruct (bytes_eq_dec (lkey e) k) as [K|K].
    + left. apply (leaf_unique t'); [apply G'|exact Ie|exact I|exact K].
    + right. split; [exact K|].
      assert (Ie' : In e (filter (other k) (aleaves t'))).
      { apply filter_In. split; [exact Ie|]. unfold other. destruct (beq (lkey e) k) eqn:B; [|reflexivity].
        apply beq_iff in B. contradiction. }
      rewrite E in Ie'. apply filter_In in Ie'. tauto.
  - injection A as <-. split; [eauto|]. split.
    + intros x Hx Ax. apply asub_leaf_inv in Hx. subst x. cbn in Ax. congruence.
    + intros e [Ie|[]]. auto.
Qed.

Theorem at_set_all_written : forall kvs o o', ogood o -> at_set_all o kvs = Some o' ->
  (kvs <> [] -> exists t', o' = Some t' /\ annot t' = None) /\
  (forall x, osub x o' -> annot x <> None -> osub x o) /\
  (forall e, In e (oleaves o') ->
     In (lkey e) (map fst kvs) /\ snd e = None \/ ~ In (lkey e) (map fst kvs) /\ In e (oleaves o)).
Proof.
  induction kvs as [|[k v] kvs IH]; intros o o' G A.
  - injection A as <-. split; [congruence|]. split; [auto|]. intros e Ie. right. auto.
  - cbn [at_set_all] in A. destruct (at_set o k v) as [o1|] eqn:A1; [|discriminate].
    destruct (at_set_written o k v o1 G A1) as [G1 [R1 [S1 W1]]].
    destruct (IH o1 o' G1 A) as [R2 [S2 W2]]. split; [|split].
    + intros _. destruct kvs; [injection A as <-; exact R1|apply R2; discriminate].
    + intros x Hx Ax. apply S1; [apply S2; assumption|exact Ax].
    + intros e Ie. cbn [map fst In]. destruct (W2 e Ie) as [[K N]|[K Ie1]]; [auto|].
      destruct (W1 e Ie1) as [E|[K1 Ie0]]; [subst e; auto|].
      right. split; [|exact Ie0]. intros [X|X]; [congruence|contradiction].
Qed.
