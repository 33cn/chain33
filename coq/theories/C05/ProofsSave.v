(** C05 — what Node.save writes: the stamped tree (every new node object gets
    its database key) is completely present afterwards; nothing else changes.
    Reading a version that is completely present: the lazy walk returns C01's
    [get], loading returns the annotated tree itself. *)
From Coq Require Import List ZArith NArith Bool Lia.
From C33 Require Import C01.Keys C01.KeysFacts C01.Model C01.Spec C01.Store C01.Inv C01.Proofs
  C05.Model C05.ProofsErase C05.ProofsTree C05.ProofsHash.
Import ListNotations.
Open Scope Z_scope.

Section AMapFacts.
  Context {K V : Type}.
  Variable eqb : K -> K -> bool.
  Hypothesis eqb_eq : forall a b, eqb a b = true <-> a = b.

  Lemma aget_adel_same : forall (m : list (K * V)) k, aget eqb (adel eqb m k) k = None.
  Proof.
    induction m as [|[k' v] m IH]; intros k; cbn; [reflexivity|].
    destruct (eqb k k') eqn:E; cbn; [apply IH|]. rewrite E. apply IH.
  Qed.

  Lemma aget_adel_other : forall (m : list (K * V)) k k', k <> k' -> aget eqb (adel eqb m k) k' = aget eqb m k'.
  Proof.
    induction m as [|[k0 v] m IH]; intros k k' N; cbn; [reflexivity|].
    destruct (eqb k k0) eqn:E; cbn.
    - apply eqb_eq in E. subst k0.
      destruct (eqb k' k) eqn:E2; [apply eqb_eq in E2; congruence|]. apply IH. exact N.
    - destruct (eqb k' k0); [reflexivity|]. apply IH. exact N.
  Qed.

  Lemma aget_aput_same : forall (m : list (K * V)) k v, aget eqb (aput eqb m k v) k = Some v.
  Proof. intros. unfold aput. cbn. rewrite (proj2 (eqb_eq k k) eq_refl). reflexivity. Qed.

  Lemma aget_aput_other : forall (m : list (K * V)) k v k', k <> k' -> aget eqb (aput eqb m k v) k' = aget eqb m k'.
  Proof.
    intros m k v k' N. unfold aput. cbn.
    destruct (eqb k' k) eqn:E; [apply eqb_eq in E; congruence|]. apply aget_adel_other. exact N.
  Qed.

  Lemma in_adel : forall (m : list (K * V)) k e, In e (adel eqb m k) -> In e m.
  Proof. intros m k e H. unfold adel in H. apply filter_In in H. tauto. Qed.

  Lemma in_aput : forall (m : list (K * V)) k v e, In e (aput eqb m k v) -> e = (k, v) \/ In e m.
  Proof. intros m k v e [H|H]; [left; congruence|right; eapply in_adel; eauto]. Qed.

  Lemma in_adel_all : forall ks (m : list (K * V)) e, In e (adel_all eqb m ks) -> In e m.
  Proof.
    unfold adel_all. induction ks as [|k ks IH]; intros m e H; cbn [fold_left] in H; [exact H|].
    apply IH in H. eapply in_adel; eauto.
  Qed.

  Lemma aget_adel_all_other : forall ks (m : list (K * V)) k', ~ In k' ks ->
    aget eqb (adel_all eqb m ks) k' = aget eqb m k'.
  Proof.
    unfold adel_all. induction ks as [|k ks IH]; intros m k' N; cbn [fold_left]; [reflexivity|].
    rewrite IH by (intros X; apply N; cbn; auto).
    apply aget_adel_other. intros E. apply N. cbn. auto.
  Qed.

  Lemma aget_in : forall (m : list (K * V)) k v, aget eqb m k = Some v -> In (k, v) m.
  Proof.
    induction m as [|[k0 v0] m IH]; intros k v H; cbn in H; [discriminate|].
    destruct (eqb k k0) eqn:E.
    - apply eqb_eq in E. inversion H. subst. cbn. auto.
    - cbn. right. apply IH. exact H.
  Qed.
End AMapFacts.

Fixpoint anodes (t : atree) : list atree :=
  match t with
  | ALeaf _ _ _ => [t]
  | ANode _ _ _ _ l r => t :: anodes l ++ anodes r
  end.

Lemma anodes_asub : forall t x, In x (anodes t) <-> asub x t.
Proof.
  induction t as [p k v|p k h s l IHl r IHr]; intros x; cbn; split; intros H.
  - destruct H as [H|[]]. subst. apply asub_refl.
  - apply asub_leaf_inv in H. auto.
  - destruct H as [H|H]; [subst; apply asub_refl|].
    apply in_app_or in H. destruct H as [H|H]; [apply asub_l, IHl|apply asub_r, IHr]; exact H.
  - apply asub_node_inv in H. destruct H as [H|[H|H]]; [left; auto| |]; right; apply in_or_app;
      [left; apply IHl|right; apply IHr]; exact H.
Qed.

Lemma anodes_erase : forall t, map erase (anodes t) = subtrees (erase t).
Proof.
  induction t as [p k v|p k h s l IHl r IHr]; cbn; [reflexivity|].
  rewrite map_app, IHl, IHr. reflexivity.
Qed.

Definition oref (t : atree) : list nref := match annot t with Some r => [r] | None => [] end.
Definition arefs (t : atree) : list nref := flat_map oref (anodes t).

Definition dref : nref := (None, HLeaf [] []).
Definition aref (t : atree) : nref := match annot t with Some r => r | None => dref end.

(** properties of all nodes of a tree: [afull] every node is persisted; [aok]
    nothing new below a persisted node; [wella] database keys end in the node's hash *)
Definition all_sub (Q : atree -> Prop) (t : atree) : Prop := forall x, asub x t -> Q x.

Lemma all_sub_sub : forall Q x t, asub x t -> all_sub Q t -> all_sub Q x.
Proof. intros Q x t H F y Hy. apply F. eapply asub_trans; eauto. Qed.

Definition afull : atree -> Prop := all_sub (fun x => annot x <> None).
Definition aok : atree -> Prop := all_sub (fun x => annot x <> None -> afull x).
Definition wella : atree -> Prop := all_sub (fun x => forall r, annot x = Some r -> snd r = thash (erase x)).

Lemma arefs_node : forall p k h s l r, arefs (ANode p k h s l r) = oref (ANode p k h s l r) ++ arefs l ++ arefs r.
Proof. intros. unfold arefs. cbn [anodes flat_map]. rewrite flat_map_app. reflexivity. Qed.

Lemma arefs_in : forall t r, In r (arefs t) <-> exists x, asub x t /\ annot x = Some r.
Proof.
  intros t r. unfold arefs. rewrite in_flat_map. split.
  - intros [x [Hx Hr]]. exists x. split; [apply anodes_asub; exact Hx|].
    unfold oref in Hr. destruct (annot x); [destruct Hr as [Hr|[]]; congruence|destruct Hr].
  - intros [x [Hx Hr]]. exists x. split; [apply anodes_asub; exact Hx|]. unfold oref. rewrite Hr. cbn. auto.
Qed.

Lemma arefs_sub : forall x t, asub x t -> forall r, In r (arefs x) -> In r (arefs t).
Proof.
  intros x t H r Hr. apply arefs_in in Hr. destruct Hr as [y [Hy Ar]].
  apply arefs_in. exists y. split; [eapply asub_trans; eauto|exact Ar].
Qed.

Lemma arefs_full : forall t, afull t -> arefs t = map aref (anodes t).
Proof.
  intros t F. unfold arefs.
  assert (G : forall x, In x (anodes t) -> annot x <> None) by (intros x Hx; apply F, anodes_asub, Hx).
  induction (anodes t) as [|x q IH]; [reflexivity|]. cbn. rewrite IH by (intros; apply G; cbn; auto).
  unfold oref, aref. destruct (annot x) eqn:A; [reflexivity|]. exfalso. apply (G x); cbn; auto.
Qed.

Fixpoint stamp (H : Z) (isroot : bool) (t : atree) : atree :=
  match annot t with
  | Some _ => t
  | None =>
      match t with
      | ALeaf _ k v => ALeaf (Some (new_ref H isroot t)) k v
      | ANode _ key ht s l r =>
          ANode (Some (new_ref H isroot t)) key ht s (stamp H false l) (stamp H false r)
      end
  end.

Fixpoint new_refs (H : Z) (isroot : bool) (t : atree) : list nref :=
  match annot t with
  | Some _ => []
  | None =>
      new_ref H isroot t ::
      match t with
      | ALeaf _ _ _ => []
      | ANode _ _ _ _ l r => new_refs H false l ++ new_refs H false r
      end
  end.

Lemma erase_stamp : forall t H b, erase (stamp H b t) = erase t.
Proof.
  induction t as [p k v|p k h s l IHl r IHr]; intros H b; cbn.
  - destruct p; reflexivity.
  - destruct p; cbn; [reflexivity|]. rewrite IHl, IHr. reflexivity.
Qed.

Lemma annot_stamp : forall t H b, annot (stamp H b t) = Some (ref_of H b t).
Proof.
  intros [p k v|p k h s l r] H b; unfold ref_of; cbn; destruct p; reflexivity.
Qed.

Lemma aref_stamp : forall t H b, aref (stamp H b t) = ref_of H b t.
Proof. intros. unfold aref. rewrite annot_stamp. reflexivity. Qed.

Lemma stamp_annotated : forall t H b r, annot t = Some r -> stamp H b t = t.
Proof. intros [p k v|p k h s l r0] H b r A; cbn in *; rewrite A; reflexivity. Qed.

Lemma new_refs_annotated : forall t H b r, annot t = Some r -> new_refs H b t = [].
Proof. intros [p k v|p k h s l r0] H b r A; cbn in *; rewrite A; reflexivity. Qed.

Lemma stamp_sub : forall t H b x, aok t -> asub x (stamp H b t) ->
  (asub x t /\ annot x <> None) \/
  (exists r, annot x = Some r /\ In r (new_refs H b t)).
Proof.
  induction t as [p k v|p k h s l IHl r IHr]; intros H b x OK Hx.
  - destruct p as [r0|]; cbn in Hx; apply asub_leaf_inv in Hx; subst.
    + left. split; [apply asub_refl|cbn; congruence].
    + right. eexists. split; [reflexivity|]. cbn. auto.
  - destruct p as [r0|]; cbn in Hx.
    + left. split; [exact Hx|].
      apply (OK (ANode (Some r0) k h s l r)); [apply asub_refl|cbn; congruence|exact Hx].
    + apply asub_node_inv in Hx. destruct Hx as [Hx|[Hx|Hx]].
      * subst x. right. eexists. split; [reflexivity|]. cbn. auto.
      * apply IHl in Hx; [|eapply all_sub_sub; [|exact OK]; auto with asub].
        destruct Hx as [[Hs A]|[r1 [A I]]]; [left; auto with asub|right].
        exists r1. split; [exact A|]. cbn. right. apply in_or_app. auto.
      * apply IHr in Hx; [|eapply all_sub_sub; [|exact OK]; auto with asub].
        destruct Hx as [[Hs A]|[r1 [A I]]]; [left; auto with asub|right].
        exists r1. split; [exact A|]. cbn. right. apply in_or_app. auto.
Qed.

Lemma stamp_full : forall t H b, aok t -> afull (stamp H b t).
Proof.
  intros t H b OK x Hx. destruct (stamp_sub t H b x OK Hx) as [[_ A]|[r [A _]]]; [exact A|congruence].
Qed.

Lemma stamp_keeps : forall t H b x, asub x t -> annot x <> None -> asub x (stamp H b t).
Proof.
  induction t as [p k v|p k h s l IHl r IHr]; intros H b x Hx A.
  - apply asub_leaf_inv in Hx. subst x. cbn in A. destruct p; [apply asub_refl|congruence].
  - destruct p as [r0|]; [exact Hx|]. cbn.
    apply asub_node_inv in Hx. destruct Hx as [Hx|[Hx|Hx]]; [subst x; cbn in A; congruence| |]; auto with asub.
Qed.

Lemma new_refs_arefs : forall t H b r, In r (new_refs H b t) -> In r (arefs (stamp H b t)).
Proof.
  induction t as [p k v|p k h s l IHl r0 IHr]; intros H b r Hr.
  - destruct p; cbn in Hr; [destruct Hr|]. destruct Hr as [Hr|[]]. subst. cbn. auto.
  - destruct p; cbn in Hr; [destruct Hr|]. cbn [stamp annot]. rewrite arefs_node. cbn [oref annot app].
    destruct Hr as [Hr|Hr]; [left; exact Hr|right].
    apply in_app_or in Hr. apply in_or_app. destruct Hr; [left; apply IHl|right; apply IHr]; assumption.
Qed.

Lemma new_ref_hash : forall H b t, snd (new_ref H b t) = thash (erase t).
Proof. reflexivity. Qed.

Lemma stamp_wella : forall t H b, wella t -> wella (stamp H b t).
Proof.
  induction t as [p k v|p k h s l IHl r IHr]; intros H b W x Hx r0 A.
  - destruct p; cbn in Hx; apply asub_leaf_inv in Hx; subst x.
    + eapply W; [apply asub_refl|exact A].
    + cbn in A. inversion A. reflexivity.
  - destruct p as [r1|]; cbn [stamp annot] in Hx.
    + eapply W; eauto.
    + apply asub_node_inv in Hx. destruct Hx as [Hx|[Hx|Hx]].
      * subst x. cbn in A. inversion A. cbn. rewrite !erase_stamp. reflexivity.
      * eapply IHl; eauto. eapply all_sub_sub; [|exact W]. auto with asub.
      * eapply IHr; eauto. eapply all_sub_sub; [|exact W]. auto with asub.
Qed.

Lemma arefs_hashes : forall t, afull t -> wella t -> map snd (arefs t) = map thash (subtrees (erase t)).
Proof.
  intros t F W. rewrite arefs_full, <- anodes_erase, !map_map by exact F.
  apply map_ext_in. intros x Hx. apply anodes_asub in Hx.
  unfold aref. destruct (annot x) as [r|] eqn:A; [apply (W x Hx r A)|destruct (F x Hx A)].
Qed.

Theorem arefs_nodup : forall t, afull t -> wella t -> ordered (erase t) -> NoDup (arefs t).
Proof.
  intros t F W O. apply (NoDup_map_inv snd). rewrite arefs_hashes by assumption.
  apply subtree_hashes_nodup. exact O.
Qed.

Fixpoint apresent (d : pdb) (t : atree) : Prop :=
  match t with
  | ALeaf (Some r) k v => node_get d r = Some (NLeaf k v)
  | ANode (Some r) key h s lt rt =>
      node_get d r = Some (NInner key h s (aref lt) (aref rt)) /\ apresent d lt /\ apresent d rt
  | _ => False
  end.

Lemma apresent_keep : forall t d d', apresent d t ->
  (forall r, In r (arefs t) -> node_get d' r = node_get d r) -> apresent d' t.
Proof.
  induction t as [p k v|p k h s l IHl r IHr]; intros d d' P K.
  - destruct p as [r0|]; [|destruct P]. cbn in *. rewrite K; [exact P|]. unfold arefs. cbn. auto.
  - destruct p as [r0|]; [|destruct P]. cbn [apresent] in *. destruct P as [P0 [Pl Pr]].
    rewrite arefs_node in K. split; [|split].
    + rewrite K; [exact P0|]. cbn. auto.
    + eapply IHl; eauto. intros r1 I. apply K. apply in_or_app. right. apply in_or_app. auto.
    + eapply IHr; eauto. intros r1 I. apply K. apply in_or_app. right. apply in_or_app. auto.
Qed.

Lemma apresent_sub : forall x t d, asub x t -> apresent d t -> apresent d x.
Proof.
  intros x t d H. induction H; intros P; [exact P| |];
    (destruct p; [|destruct P]); cbn in P; apply IHasub; tauto.
Qed.

Lemma node_get_set_idx1 : forall d i r, node_get (set_idx1 d i) r = node_get d r.
Proof. reflexivity. Qed.

Lemma asave_keep : forall t H b anc d r, ~ In r (new_refs H b t) ->
  node_get (asave H b anc t d) r = node_get d r.
Proof.
  induction t as [p k v|p k h s l IHl rt IHr]; intros H b anc d r N.
  - destruct p; cbn; [reflexivity|]. unfold node_get. cbn.
    apply aget_aput_other; [exact nref_eqb_eq|]. intros E. apply N. cbn. auto.
  - destruct p; cbn [asave annot]; [reflexivity|]. cbn [new_refs annot] in N.
    unfold node_get at 1. cbn [nodes set_nodes].
    rewrite aget_aput_other; [|exact nref_eqb_eq|intros E; apply N; cbn; auto].
    etransitivity; [apply IHr|apply IHl]; intros I; apply N; cbn; right; apply in_or_app; auto.
Qed.

Lemma apresent_asave : forall u t H b anc d, apresent d u ->
  (forall r, In r (arefs u) -> In r (new_refs H b t) -> False) -> apresent (asave H b anc t d) u.
Proof.
  intros u t H b anc d P D. eapply apresent_keep; [exact P|].
  intros r I. apply asave_keep. intros I2. exact (D r I I2).
Qed.

Lemma apresent_put : forall u d me rc, apresent d u -> ~ In me (arefs u) ->
  apresent (set_nodes d (aput nref_eqb (nodes d) me rc)) u.
Proof.
  intros u d me rc P N. eapply apresent_keep; [exact P|]. intros r I. unfold node_get. cbn [nodes set_nodes].
  apply aget_aput_other; [exact nref_eqb_eq|]. intros E. subst r. exact (N I).
Qed.

Lemma apresent_node : forall d me key h s l r, apresent d l -> apresent d r -> ~ In me (arefs l ++ arefs r) ->
  apresent (set_nodes d (aput nref_eqb (nodes d) me (NInner key h s (aref l) (aref r)))) (ANode (Some me) key h s l r).
Proof.
  intros d me key h s l r Pl Pr N. cbn [apresent]. split; [|split].
  - unfold node_get. cbn [nodes set_nodes]. apply aget_aput_same. exact nref_eqb_eq.
  - apply apresent_put; [exact Pl|intros I; apply N, in_or_app; auto].
  - apply apresent_put; [exact Pr|intros I; apply N, in_or_app; auto].
Qed.

Lemma asave_present : forall t H b anc d,
  NoDup (arefs (stamp H b t)) -> aok t ->
  (forall x, asub x t -> annot x <> None -> apresent d x) ->
  apresent (asave H b anc t d) (stamp H b t).
Proof.
  induction t as [p k v|p k h s l IHl rt IHr]; intros H b anc d ND OK P.
  - destruct p as [r0|]; cbn.
    + apply (P (ALeaf (Some r0) k v)); [apply asub_refl|cbn; congruence].
    + unfold node_get. cbn. apply aget_aput_same. exact nref_eqb_eq.
  - destruct p as [r0|]; cbn [asave stamp annot].
    + apply (P (ANode (Some r0) k h s l rt)); [apply asub_refl|cbn; congruence].
    + set (me := new_ref H b (ANode None k h s l rt)) in *.
      cbn [stamp annot] in ND. fold me in ND. rewrite arefs_node in ND. cbn [oref annot app] in ND.
      apply NoDup_cons_iff in ND. destruct ND as [Hme ND].
      apply nodup_app_iff in ND. destruct ND as [NDl [NDr DJ]].
      rewrite <- !aref_stamp. apply apresent_node; [| |exact Hme].
      * (* the left child is saved, and saving the right one creates other keys *)
        apply apresent_asave.
        -- apply IHl; [exact NDl|eapply all_sub_sub; [|exact OK]; auto with asub|].
           intros x Hx A. apply P; auto with asub.
        -- intros r1 I I2. apply (DJ r1 I), new_refs_arefs, I2.
      * apply IHr; [exact NDr|eapply all_sub_sub; [|exact OK]; auto with asub|]. intros x Hx A.
        (* saving the left child does not touch the persisted nodes of the right one *)
        apply apresent_asave; [apply P; auto with asub|]. intros r1 I I2.
        apply (DJ r1); [apply new_refs_arefs; exact I2|].
        eapply arefs_sub; [|exact I]. apply stamp_keeps; assumption.
Qed.

Definition akeys (t : atree) : list bytes := map lkey (aleaves t).

Fixpoint new_entries (H : Z) (isroot : bool) (anc : list nref) (t : atree) : list (ikey * list nref) :=
  match annot t with
  | Some _ => []
  | None =>
      let me := new_ref H isroot t in
      match t with
      | ALeaf _ k v => [((k, H, me), anc)]
      | ANode _ _ _ _ l r => new_entries H false (me :: anc) l ++ new_entries H false (me :: anc) r
      end
  end.

Lemma asave_fields : forall t H b anc d,
  idx2 (asave H b anc t d) = idx2 d /\ rootrec (asave H b anc t d) = rootrec d /\
  maxh (asave H b anc t d) = maxh d /\ sech (asave H b anc t d) = sech d.
Proof.
  induction t as [p k v|p k h s l IHl r IHr]; intros H b anc d.
  - destruct p; cbn; auto.
  - destruct p; cbn [asave annot]; [auto|]. cbn [set_nodes idx2 rootrec maxh sech].
    set (a := new_ref H b _ :: anc).
    destruct (IHr H false a (asave H false a l d)) as [-> [-> [-> ->]]]. apply IHl.
Qed.

Lemma asave_idx1 : forall t H b anc d e,
  In e (idx1 (asave H b anc t d)) -> In e (idx1 d) \/ In e (new_entries H b anc t).
Proof.
  induction t as [p k v|p k h s l IHl r IHr]; intros H b anc d e I.
  - destruct p; [cbn in *; auto|]. cbn [asave annot set_idx1 idx1 new_entries] in *.
    apply in_aput in I. destruct I as [I|I]; [right; cbn; auto|left; exact I].
  - destruct p; cbn [asave annot new_entries] in *; [auto|]. cbn [set_nodes idx1] in I.
    apply IHr in I. destruct I as [I|I]; [|right; apply in_or_app; auto].
    apply IHl in I. destruct I as [I|I]; [left; exact I|right; apply in_or_app; auto].
Qed.

Lemma akeys_stamp : forall t H b, akeys (stamp H b t) = akeys t.
Proof.
  unfold akeys. induction t as [p k v|p k h s l IHl r IHr]; intros H b.
  - destruct p; reflexivity.
  - destruct p; cbn; [reflexivity|]. rewrite !map_app, IHl, IHr. reflexivity.
Qed.

Lemma akeys_erase : forall t, akeys t = keys (erase t).
Proof.
  intros t. unfold akeys, keys. rewrite <- aleaves_elements, map_map. apply map_ext. intros [[k v] p]. reflexivity.
Qed.

(** [r] is the key of a new node of the commit that covers key [k] *)
Definition covers (H : Z) (b : bool) (t : atree) (k : bytes) (r : nref) : Prop :=
  In r (new_refs H b t) /\ In k (hkeys (snd r)).

Lemma covers_root : forall H b t k, annot t = None -> In k (akeys t) -> covers H b t k (new_ref H b t).
Proof.
  intros H b t k A K. split; [destruct t; cbn in *; subst; cbn; auto|].
  rewrite new_ref_hash, hkeys_thash, <- akeys_erase. exact K.
Qed.

Lemma covers_l : forall H b nk h s l rt k r, covers H false l k r -> covers H b (ANode None nk h s l rt) k r.
Proof. intros H b nk h s l rt k r [N K]. split; [cbn; right; apply in_or_app; auto|exact K]. Qed.

Lemma covers_r : forall H b nk h s l rt k r, covers H false rt k r -> covers H b (ANode None nk h s l rt) k r.
Proof. intros H b nk h s l rt k r [N K]. split; [cbn; right; apply in_or_app; auto|exact K]. Qed.

(** an entry of a commit at height [H]: its key is the key of a new leaf
    object; its leaf and its ancestors up to the given [anc] are new refs of
    nodes that cover the key *)
Definition entry_ok (H : Z) (b : bool) (t : atree) (anc : list nref) (e : ikey * list nref) : Prop :=
  ik_height e = H /\
  (exists v, In (ik_key e, v, None) (aleaves t)) /\
  exists path, snd e = path ++ anc /\ forall r, In r (ik_leaf e :: path) -> covers H b t (ik_key e) r.

(** from a child to its new parent [t] *)
Lemma entry_ok_up : forall H b t c anc e,
  annot t = None -> (forall x, In x (aleaves c) -> In x (aleaves t)) ->
  (forall r, covers H false c (ik_key e) r -> covers H b t (ik_key e) r) ->
  entry_ok H false c (new_ref H b t :: anc) e -> entry_ok H b t anc e.
Proof.
  intros H b t c anc e A AL CV [Hh [[v Hv] [path [Hp Hr]]]].
  split; [exact Hh|]. split; [exists v; auto|].
  exists (path ++ [new_ref H b t]). split; [rewrite Hp, <- app_assoc; reflexivity|].
  intros r Ir. rewrite app_comm_cons in Ir. apply in_app_or in Ir. destruct Ir as [Ir|[Ir|[]]]; [auto|].
  subst r. apply covers_root; [exact A|]. apply AL in Hv. apply (in_map lkey) in Hv. exact Hv.
Qed.

Lemma new_entries_spec : forall t H b anc e, In e (new_entries H b anc t) -> entry_ok H b t anc e.
Proof.
  induction t as [p k v|p k h s l IHl rt IHr]; intros H b anc e I.
  - destruct p; cbn in I; [destruct I|]. destruct I as [I|[]]. subst e.
    split; [reflexivity|]. split; [exists v; cbn; auto|]. exists []. split; [reflexivity|].
    intros r [R|[]]. subst r. apply (covers_root H b (ALeaf None k v)); cbn; auto.
  - destruct p; cbn [new_entries annot] in I; [destruct I|].
    apply in_app_or in I. destruct I as [I|I].
    + apply (entry_ok_up H b _ l); [reflexivity| |apply covers_l|apply IHl, I].
      intros x Hx. cbn. apply in_or_app. auto.
    + apply (entry_ok_up H b _ rt); [reflexivity| |apply covers_r|apply IHr, I].
      intros x Hx. cbn. apply in_or_app. auto.
Qed.

Definition wres_of (o : option bytes) (w : wres) : Prop :=
  match o, w with
  | None, WAbsent => True
  | Some v, WFound _ v' => v = v'
  | _, _ => False
  end.

Lemma aload_present : forall t d fuel,
  apresent d t -> sized (erase t) -> (Z.to_nat (aheight t) < fuel)%nat ->
  aload d fuel (aref t) = Some t.
Proof.
  induction t as [p lk lv|p nk h s l IHl r IHr]; intros d fuel P SZ F.
  - destruct p as [r0|]; [|destruct P]. cbn in P. destruct fuel as [|f]; [lia|].
    cbn [aload aref annot]. rewrite P. reflexivity.
  - destruct p as [r0|]; [|destruct P]. cbn [apresent] in P. destruct P as [P0 [Pl Pr]].
    destruct fuel as [|f]; [lia|]. cbn [aload aref annot]. rewrite P0.
    cbn [erase sized] in SZ. destruct SZ as [Sl [Sr [Hh Hs]]].
    pose proof (sized_height_nonneg _ Sl) as Nl. pose proof (sized_height_nonneg _ Sr) as Nr.
    cbn [aheight] in F. rewrite !erase_height in *.
    rewrite IHl by (auto; lia). rewrite IHr by (auto; lia). reflexivity.
Qed.

Lemma walk_aload : forall fuel d r t k, aload d fuel r = Some t ->
  wres_of (snd (get (erase t) k)) (walk d fuel r k).
Proof.
  induction fuel as [|f IH]; intros d r t k E; cbn [aload walk] in *; [discriminate|].
  destruct (node_get d r) as [[lk lv|nk h s lr rr]|]; [| |discriminate].
  - injection E as <-. cbn [erase get]. unfold beq. destruct (bcmp lk k); cbn; auto.
  - destruct (aload d f lr) as [l|] eqn:El; [|discriminate].
    destruct (aload d f rr) as [rt|] eqn:Er; [|discriminate]. injection E as <-.
    cbn [erase get]. destruct (blt k nk); [exact (IH _ _ _ k El)|].
    specialize (IH _ _ _ k Er). destruct (get (erase rt) k). exact IH.
Qed.

Lemma rec_fuel_present : forall t d, apresent d t -> sized (erase t) ->
  (Z.to_nat (aheight t) < rec_fuel d (aref t))%nat.
Proof.
  intros [p lk lv|p nk h s l r] d P SZ; (destruct p as [r0|]; [|destruct P]); cbn in P; unfold rec_fuel; cbn [aref annot].
  - rewrite P. cbn. lia.
  - destruct P as [P0 _]. rewrite P0. cbn [aheight]. lia.
Qed.

Theorem read_present : forall t d k,
  apresent d t -> ordered (erase t) -> sized (erase t) ->
  wres_of (sget (elements (erase t)) k) (walk d (rec_fuel d (aref t)) (aref t) k).
Proof.
  intros t d k P O SZ. rewrite <- (get_elements _ k O).
  apply walk_aload, aload_present; auto. apply rec_fuel_present; auto.
Qed.
