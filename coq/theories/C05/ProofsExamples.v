(** C05 — non-vacuity: a concrete history that satisfies every hypothesis of
    the partial theorem, on which pruning really deletes node records; the
    refutation witnesses violate the guard; the store's configuration resolution. *)
From Coq Require Import List ZArith NArith Bool String.
From C33 Require Import Lib.Harness C01.Keys C01.Spec C01.Store C05.Model C05.Spec C05.Hist C05.ProofsRefuted.
Import ListNotations.
Open Scope string_scope.
Open Scope Z_scope.

(** PruneHeight 2, heights 1..7, every writing height changes a value (height 5 writes nothing); the commits at
    heights 4 and 6 start pruning runs, one more run is called at height 7 *)
Definition ex_ops : list mop :=
  [ MCommit 1 None false [(ka, bs "1"); (kb, bs "1"); (kc, bs "1")];
    MCommit 2 (Some 0%nat) false [(ka, bs "2")];
    MCommit 3 (Some 1%nat) true [(kb, bs "3")];
    MCommit 4 (Some 2%nat) false [(ka, bs "4"); (kc, bs "4")];
    MCommit 5 (Some 3%nat) true [];
    MCommit 6 (Some 4%nat) false [(kb, bs "6")];
    MCommit 7 (Some 5%nat) false [(ka, bs "7")];
    MPrune 7 ].

Lemma ex_valid : cfg_valid cfg2 = true /\ ops_valid cfg2 init_mstate ex_ops = true /\
                 linear_fresh cfg2 init_mstate ex_ops = true.
Proof. vm_compute. auto. Qed.

Lemma ex_changing : linear_changing cfg2 init_mstate ex_ops = true.
Proof. vm_compute. reflexivity. Qed.

(** pruning really deletes: the versions of heights 1..3 are gone, the three
    live versions (heights 5..7, commits 4..6) read their values *)
Lemma ex_pruned : let s := mrun cfg2 ex_ops in
  map (fun i => read_at s i ka) [0; 1; 2]%nat = [None; None; None] /\
  live (prune_height cfg2) (ms_ac s) = [6; 5; 4]%nat /\
  map (fun i => read_at s i ka) [4; 5; 6]%nat =
    [Some (Some (bs "4")); Some (Some (bs "4")); Some (Some (bs "7"))].
Proof. vm_compute. auto. Qed.

Lemma w1_not_fresh : linear_fresh cfg2 init_mstate w1 = false.
Proof. vm_compute. reflexivity. Qed.

Lemma w2_not_linear : linear_fresh cfg2 init_mstate w2 = false.
Proof. vm_compute. reflexivity. Qed.

(** mavl.go New: whatever the operator wrote for the prefix switch, a store that
    prunes builds prefixed trees; nothing else is changed by the resolution *)
Lemma prune_implies_prefix : forall s,
  tc_prune (effective_cfg s) = sc_prune s /\
  tc_prune_height (effective_cfg s) = sc_prune_height s /\
  (sc_prune s = true -> tc_prefix (effective_cfg s) = true) /\
  (sc_prune s = false -> tc_prefix (effective_cfg s) = sc_prefix s).
Proof.
  intros [pf pr ph]. unfold effective_cfg. cbn. destruct pr; repeat split; intro Hp; try reflexivity; discriminate Hp.
Qed.

(** the shipped-style configuration (prune switched on, prefix left off) *)
Example shipped_cfg_resolves : effective_cfg (mk_sub_cfg false true 10) = mk_tree_cfg true true 10.
Proof. reflexivity. Qed.
