(** C05 — small facts about abstract histories (Spec.v) and stamping. *)
From Coq Require Import List ZArith NArith Bool Lia.
From C33 Require Import C01.Keys C01.KeysFacts C01.Model C01.Spec C01.Store
  C05.Model C05.Spec C05.ProofsErase C05.ProofsTree C05.ProofsHash C05.ProofsSave.
Import ListNotations.
Open Scope Z_scope.

Lemma top_height_app : forall cs a, top_height (cs ++ [a]) = Z.max (top_height cs) (ac_height a).
Proof. intros. unfold top_height. rewrite fold_left_app. reflexivity. Qed.

Lemma fold_max_le_iff : forall (cs : list acommit) m b,
  fold_left (fun m c => Z.max m (ac_height c)) cs m <= b <-> m <= b /\ forall c, In c cs -> ac_height c <= b.
Proof.
  induction cs as [|x cs IH]; intros m b; cbn [fold_left].
  - split; [intros; split; [assumption|intros c []]|tauto].
  - rewrite IH. cbn [In]. split; intros [M A].
    + split; [lia|]. intros c [E|I]; [subst; lia|auto].
    + split; [specialize (A x (or_introl eq_refl)); lia|auto].
Qed.

Lemma top_height_ge : forall cs c, In c cs -> ac_height c <= top_height cs.
Proof. intros cs. apply (fold_max_le_iff cs 0). apply Z.le_refl. Qed.

Lemma top_height_nonneg : forall cs, 0 <= top_height cs.
Proof. intros cs. apply (fold_max_le_iff cs 0). apply Z.le_refl. Qed.

Lemma top_height_le : forall cs b, 0 <= b -> (forall c, In c cs -> ac_height c <= b) -> top_height cs <= b.
Proof. intros. apply fold_max_le_iff; auto. Qed.

Lemma height_of_ge : forall cs i, (i < length cs)%nat -> height_of cs i <= top_height cs.
Proof.
  intros cs i L. unfold height_of. destruct (nth_error cs i) as [c|] eqn:E.
  - apply top_height_ge. eapply nth_error_In; eauto.
  - apply nth_error_None in E. lia.
Qed.

Lemma height_of_app_old : forall cs a i, (i < length cs)%nat -> height_of (cs ++ [a]) i = height_of cs i.
Proof. intros. unfold height_of. rewrite nth_error_app1 by assumption. reflexivity. Qed.

Lemma height_of_app_new : forall cs a, height_of (cs ++ [a]) (length cs) = ac_height a.
Proof. intros. unfold height_of. rewrite nth_error_app2 by lia. rewrite Nat.sub_diag. reflexivity. Qed.

Lemma state_of_app_old : forall cs a i, (i < length cs)%nat -> state_of (cs ++ [a]) (Some i) = state_of cs (Some i).
Proof. intros. unfold state_of. rewrite nth_error_app1 by assumption. reflexivity. Qed.

Lemma state_of_app_new : forall cs a, state_of (cs ++ [a]) (Some (length cs)) = ac_state a.
Proof. intros. unfold state_of. rewrite nth_error_app2 by lia. rewrite Nat.sub_diag. reflexivity. Qed.

Lemma chain_from_valid : forall cs fuel i j, In j (chain_from cs fuel i) -> (j < length cs)%nat.
Proof.
  induction fuel as [|f IH]; intros i j I; cbn [chain_from] in I; [destruct I|].
  destruct (nth_error cs i) as [c|] eqn:E; [|destruct I]. cbn [In] in I.
  destruct I as [I|I].
  - subst j. apply nth_error_Some. congruence.
  - destruct (ac_parent c) as [p|]; [|cbn in I; destruct I]. destruct (Nat.ltb p i); [|cbn in I; destruct I]. eapply IH; eauto.
Qed.

Lemma live_valid : forall ph cs i, In i (live ph cs) ->
  (i < length cs)%nat /\ top_height cs - ph <= height_of cs i.
Proof.
  intros ph cs i I. unfold live in I. apply filter_In in I. destruct I as [I F].
  split; [|apply Z.leb_le; exact F].
  unfold chain in I. destruct (tip_index cs); [|destruct I]. eapply chain_from_valid; eauto.
Qed.

Lemma aleaves_stamp : forall t H b k v r, In (k, v, Some r) (aleaves (stamp H b t)) ->
  In (k, v, Some r) (aleaves t) \/ (In (k, v, None) (aleaves t) /\ In r (new_refs H b t)).
Proof.
  induction t as [p lk lv|p nk h s l IHl rt IHr]; intros H b k v r I.
  - destruct p as [r0|]; cbn in I.
    + left. exact I.
    + destruct I as [I|[]]. inversion I; subst. right. cbn. auto.
  - destruct p as [r0|]; cbn [stamp annot aleaves] in I.
    + left. exact I.
    + apply in_app_or in I. cbn [aleaves new_refs annot]. destruct I as [I|I].
      * apply IHl in I. destruct I as [I|[I N]].
        -- left. apply in_or_app. auto.
        -- right. split; [apply in_or_app; auto|right; apply in_or_app; auto].
      * apply IHr in I. destruct I as [I|[I N]].
        -- left. apply in_or_app. auto.
        -- right. split; [apply in_or_app; auto|right; apply in_or_app; auto].
Qed.

Lemma new_refs_shape : forall t H b r, In r (new_refs H b t) ->
  fst r = Some H \/ (b = true /\ annot t = None /\ r = (None, thash (erase t))).
Proof.
  induction t as [p lk lv|p nk h s l IHl rt IHr]; intros H b r I;
    destruct p; cbn [new_refs annot] in I; try contradiction.
  - destruct I as [I|[]]. subst r. destruct b; [right|left]; auto.
  - destruct I as [I|I]; [subst r; destruct b; [right|left]; auto|].
    apply in_app_or in I. destruct I as [I|I]; [apply IHl in I|apply IHr in I];
      destruct I as [I|[I _]]; auto; discriminate.
Qed.
