(** C28 — the in-memory block cache is not observable: whatever blocks are in memory while an
    operation runs (as long as a block in memory under a hash IS the chain's block of that hash),
    connections and disconnections leave the same chain, index and window cache as with every
    block read from the database. *)
From Coq Require Import List ZArith NArith Bool Lia.
From C33 Require Import C28.Model C28.ModelMem.
Import ListNotations.
Open Scope Z_scope.

(** the block cache is coherent with the main chain [l]: a block held in memory under the hash
    of a main-chain block is that block (block hashes determine blocks) *)
Definition mem_ok (mem l : list blk) : Prop :=
  forall m b, In m mem -> In b l -> b_id m = b_id b -> m = b.

(** coherent before and after every operation of the history *)
Fixpoint mems_ok (c : cfg) (s : st) (ops : list (list blk * op)) : Prop :=
  match ops with
  | [] => True
  | mo :: r => mem_ok (fst mo) (chain s) /\ mem_ok (fst mo) (chain (step c s (snd mo)))
               /\ mems_ok c (step c s (snd mo)) r
  end.

Theorem get_block_is_block_at : forall mem l h, mem_ok mem l -> get_block mem l h = block_at l h.
Proof.
  intros mem l h H. unfold get_block. destruct (block_at l h) as [b|] eqn:E; [|reflexivity].
  destruct (find (fun m => N.eqb (b_id m) (b_id b)) mem) as [m|] eqn:F; [|reflexivity].
  apply find_some in F. destruct F as [Hm Hid]. apply N.eqb_eq in Hid.
  unfold block_at in E. apply find_some in E. destruct E as [Hb _].
  rewrite (H m b Hm Hb Hid). reflexivity.
Qed.

Lemma cache_add_m_eq : forall c mem l b ca, mem_ok mem l -> cache_add_m c mem l b ca = cache_add c l b ca.
Proof. intros c mem l b ca H. unfold cache_add_m, cache_add. rewrite (get_block_is_block_at mem l _ H). reflexivity. Qed.

Lemma cache_del_m_eq : forall c mem l h ca, mem_ok mem l -> cache_del_m c mem l h ca = cache_del c l h ca.
Proof. intros c mem l h ca H. unfold cache_del_m, cache_del. rewrite !(get_block_is_block_at mem l _ H). reflexivity. Qed.

Lemma attach_m_eq : forall c mem s b, mem_ok mem (b :: chain s) -> attach_m c mem s b = attach c s b.
Proof. intros c mem s b H. unfold attach_m, attach. rewrite (cache_add_m_eq c mem _ b _ H). reflexivity. Qed.

Lemma connect_peer_m_eq : forall c mem s pool b,
  mem_ok mem (chain (fst (connect_peer c s pool b))) -> connect_peer_m c mem s pool b = connect_peer c s pool b.
Proof.
  intros c mem s pool b. unfold connect_peer_m, connect_peer.
  destruct (negb (linked s b)); [reflexivity|].
  destruct (negb (sig_stage pool (b_txs b))); [reflexivity|].
  destruct (negb (Nat.eqb (length (check_dup s (b_txs b))) (length (b_txs b)))); [reflexivity|].
  destruct (negb (all_true (exec_rc c (b_h b) (b_time b) (b_txs b)))); [reflexivity|].
  destruct (parent_time s >? b_time b); [reflexivity|].
  destruct (b_txs b) as [|t r] eqn:E; [reflexivity|].
  cbn [fst]. intro H. rewrite (attach_m_eq c mem s b H). reflexivity.
Qed.

Lemma connect_self_m_eq : forall c mem s b,
  mem_ok mem (chain (fst (fst (connect_self c s b)))) -> connect_self_m c mem s b = connect_self c s b.
Proof.
  intros c mem s b. unfold connect_self_m, connect_self.
  destruct (negb (linked s b)); [reflexivity|]. cbv zeta.
  destruct (parent_time s >? b_time b); [reflexivity|].
  destruct (keep _ _) as [|t r] eqn:E; [reflexivity|].
  cbn [fst]. intro H. rewrite (attach_m_eq c mem s _ H). reflexivity.
Qed.

Lemma disconnect_m_eq : forall c mem s, mem_ok mem (chain s) -> disconnect_m c mem s = disconnect c s.
Proof.
  intros c mem s H. unfold disconnect_m, disconnect.
  destruct (chain s) as [|b [|b' r]] eqn:E; try reflexivity.
  rewrite (cache_del_m_eq c mem _ _ _ H). reflexivity.
Qed.

Lemma step_m_eq : forall c s mem o, mem_ok mem (chain s) -> mem_ok mem (chain (step c s o)) ->
  step_m c s (mem, o) = step c s o.
Proof.
  intros c s mem o H1 H2. unfold step_m. cbn [fst snd]. destruct o as [pool b|b|]; cbn [step] in *.
  - rewrite (connect_peer_m_eq c mem s pool b H2). reflexivity.
  - rewrite (connect_self_m_eq c mem s b H2). reflexivity.
  - apply disconnect_m_eq; exact H1.
Qed.

Theorem block_cache_unobservable : forall c ops s, mems_ok c s ops -> run_m c s ops = run c s (map snd ops).
Proof.
  intros c ops. induction ops as [|[mem o] r IH]; intros s H; [reflexivity|].
  cbn [mems_ok fst snd] in H. destruct H as [H1 [H2 H3]].
  unfold run_m, run. cbn [fold_left map snd]. rewrite (step_m_eq c s mem o H1 H2).
  apply IH. exact H3.
Qed.

Lemma mem_ok_named : forall (f : N -> blk) mem l,
  Forall (fun x => f (b_id x) = x) mem -> Forall (fun x => f (b_id x) = x) l -> mem_ok mem l.
Proof.
  intros f mem l Hm Hl m b Im Ib E. rewrite Forall_forall in Hm, Hl.
  rewrite <- (Hm m Im), E. exact (Hl b Ib).
Qed.

Lemma mems_ok_cons : forall c s s' mem o r, step c s o = s' ->
  mem_ok mem (chain s) -> mem_ok mem (chain s') -> mems_ok c s' r -> mems_ok c s ((mem, o) :: r).
Proof. intros c s s' mem o r <- H1 H2 H3. cbn [mems_ok fst snd]. auto. Qed.

(** ---- the hypothesis is satisfiable by a history in which it matters: window low = high = 1;
    block 2 carries a TxHeight transaction at the first height of its validity (1 .. 3); the
    chain grows to height 3 (the transaction leaves the window), the tip is disconnected while
    only the tip (first history) / the tip and the block that has to come back (second
    history) are in memory, and a block of height 3 repeats the transaction: a replay in both. ---- *)
Definition m_cfg : cfg := mkCfg 1 1 100000 1000000000 33 100000 true.
Definition m_gen : blk := mkBlk 1 0 0 1514533394 [].
Definition m_x : tx := mkTx 1 1 1 (TxHeightFlag + 2) 100000 240 33 true 0 0 0.
Definition m_p (i : N) : tx := mkTx i i i 0 100000 237 33 true 0 0 0.
Definition m_b2 : blk := mkBlk 2 1 1 1514533395 [m_x].
Definition m_b3 : blk := mkBlk 3 2 2 1514533396 [m_p 2].
Definition m_b4 : blk := mkBlk 4 3 3 1514533397 [m_p 3].
Definition m_b5 : blk := mkBlk 5 3 3 1514533398 [m_p 4; m_x].
Definition m_ops (at_disc : list blk) : list (list blk * op) :=
  [([], OPeer [] m_b2); ([m_b2], OPeer [] m_b3); ([m_b3], OPeer [] m_b4); (at_disc, ODisc); ([m_b3], OPeer [] m_b5)].

Definition m_of (i : N) : blk := match i with 2 => m_b2 | 3 => m_b3 | 4 => m_b4 | _ => m_gen end%N.

(** each state of the history is computed once, from the one before it *)
Lemma m_mems_ok : forall d, Forall (fun x => m_of (b_id x) = x) d -> mems_ok m_cfg (init m_gen) (m_ops d).
Proof.
  intros d Hd. unfold m_ops.
  do 5 (eapply mems_ok_cons; [vm_compute; reflexivity | | |];
        [apply (mem_ok_named m_of); first [assumption | repeat constructor] ..|]).
  exact I.
Qed.

Example mems_satisfiable :
  mems_ok m_cfg (init m_gen) (m_ops [m_b4]) /\ mems_ok m_cfg (init m_gen) (m_ops [m_b4; m_b2])
  /\ (let s := run_m m_cfg (init m_gen) (firstn 4 (m_ops [m_b4])) in
      map b_id (chain s) = [3%N; 2%N; 1%N] /\ cache s = [(2, 1%N)])
  /\ map b_id (chain (run_m m_cfg (init m_gen) (m_ops [m_b4]))) = [3%N; 2%N; 1%N]
  /\ snd (connect_peer m_cfg (run_m m_cfg (init m_gen) (firstn 4 (m_ops [m_b4]))) [] m_b5) = EDup.
Proof.
  split; [apply m_mems_ok; repeat constructor|].
  split; [apply m_mems_ok; repeat constructor|].
  vm_compute. repeat split.
Qed.
