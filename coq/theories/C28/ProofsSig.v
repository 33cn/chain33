(** C28 — the signature part: refuted at full strength (the mempool shortcut of PreExecBlock),
    proved under the guard "no mis-signed block transaction has a Hash() the mempool reports",
    and proved for the candidate repair (skip verification only on a FullHash() match). *)
From Coq Require Import List ZArith NArith Bool Lia.
From C33 Require Import C28.Model C28.Spec C28.Defs C28.ProofsLib C28.Proofs.
Import ListNotations.
Open Scope Z_scope.

(** what the node's own producer hands to the chain has passed the mempool's signature check *)
Definition self_signed (ops : list op) : bool :=
  forallb (fun o => match o with OSelf b => forallb tsig (b_txs b) | _ => true end) ops.

(** guard: in every peer block, a transaction that fails CheckSign does not share its Hash()
    with a transaction the mempool reports as existing *)
Definition pool_guard (ops : list op) : bool :=
  forallb (fun o => match o with
                    | OPeer pool b => forallb (fun t => tsig t || negb (memN (th t) pool)) (b_txs b)
                    | _ => true
                    end) ops.

Definition all_signed_full : Prop :=
  forall c g ops, gen_ok g -> self_signed ops = true ->
    spec_signed (chain (run c (init g) ops)) = true.

(** a chain gains transactions only from the blocks it is given, and from a peer block only when
    the signature stage has passed *)
Definition txs_all (P : tx -> Prop) (l : list blk) : Prop :=
  forall b t, In b l -> In t (b_txs b) -> P t.

Lemma txs_all_init : forall P g, gen_ok g -> txs_all P (chain (init g)).
Proof. intros P g [_ [_ Hg]] b t [E|[]] Ht. subst b. rewrite Hg in Ht. destruct Ht. Qed.

Lemma txs_all_attach : forall P c s b,
  txs_all P (chain s) -> (forall t, In t (b_txs b) -> P t) -> txs_all P (chain (attach c s b)).
Proof.
  intros P c s b Hs Hb b' t [E|Hin] Ht; [subst b'; exact (Hb t Ht) | exact (Hs b' t Hin Ht)].
Qed.

Lemma txs_all_disconnect : forall P c s, txs_all P (chain s) -> txs_all P (chain (disconnect c s)).
Proof.
  intros P c s Hs. unfold disconnect.
  destruct (chain s) as [|b [|p r]] eqn:E; try (rewrite E; exact Hs).
  intros b' t Hin Ht. apply (Hs b' t); [right; exact Hin | exact Ht].
Qed.

Lemma txs_all_self : forall P c s b,
  txs_all P (chain s) -> (forall t, In t (b_txs b) -> P t) ->
  txs_all P (chain (fst (fst (connect_self c s b)))).
Proof.
  intros P c s b Hs Hb.
  destruct (connect_self_cases c s b) as [[kept [E [_ Hk]]]|E]; rewrite E; [|exact Hs].
  apply txs_all_attach; [exact Hs|]. intros t Ht. exact (Hb t (Hk t Ht)).
Qed.

Lemma txs_all_peer : forall P c s pool b,
  txs_all P (chain s) -> (sig_stage pool (b_txs b) = true -> forall t, In t (b_txs b) -> P t) ->
  txs_all P (chain (fst (connect_peer c s pool b))).
Proof.
  intros P c s pool b Hs Hb.
  destruct (connect_peer_cases c s pool b) as [[E [_ Hsig]]|E]; rewrite E; [|exact Hs].
  apply txs_all_attach; [exact Hs | exact (Hb Hsig)].
Qed.

Definition signed_chain : list blk -> Prop := txs_all (fun t => tsig t = true).

Lemma signed_spec : forall l, signed_chain l -> spec_signed l = true.
Proof.
  intros l H. unfold spec_signed. apply forallb_forall. intros b Hb.
  apply orb_true_iff. right. apply forallb_forall. intros t Ht. exact (H b t Hb Ht).
Qed.

Lemma sig_stage_unsigned : forall pool txs t,
  sig_stage pool txs = true -> In t txs -> tsig t = false -> memN (th t) pool = true.
Proof.
  intros pool txs t H Ht E. unfold sig_stage in H. rewrite forallb_forall in H.
  specialize (H t Ht). rewrite E, orb_false_r in H. exact H.
Qed.

Lemma signed_peer : forall c s pool b,
  signed_chain (chain s) ->
  forallb (fun t => tsig t || negb (memN (th t) pool)) (b_txs b) = true ->
  signed_chain (chain (fst (connect_peer c s pool b))).
Proof.
  intros c s pool b Hs Hg. apply txs_all_peer; [exact Hs|]. intros Hsig t Ht.
  rewrite forallb_forall in Hg. specialize (Hg t Ht).
  destruct (tsig t) eqn:E; [reflexivity|].
  rewrite (sig_stage_unsigned pool _ t Hsig Ht E) in Hg. discriminate Hg.
Qed.

Lemma signed_run : forall c ops s,
  signed_chain (chain s) -> self_signed ops = true -> pool_guard ops = true ->
  signed_chain (chain (run c s ops)).
Proof.
  intros c ops s Hs Hself Hg. unfold self_signed, pool_guard in *. rewrite forallb_forall in Hself, Hg.
  apply (fold_left_inv _ _ (step c) (fun s => signed_chain (chain s)) ops); [|exact Hs].
  intros s' o Ho Hs'. specialize (Hself o Ho). specialize (Hg o Ho). destruct o as [pool b|b|]; cbn [step].
  - apply signed_peer; assumption.
  - apply txs_all_self; [exact Hs' | apply forallb_forall; exact Hself].
  - apply txs_all_disconnect; exact Hs'.
Qed.

Theorem all_signed_partial : forall c g ops,
  gen_ok g -> self_signed ops = true -> pool_guard ops = true ->
  spec_signed (chain (run c (init g) ops)) = true.
Proof.
  intros c g ops Hg Hself Hguard. apply signed_spec.
  apply signed_run; [apply txs_all_init; exact Hg | exact Hself | exact Hguard].
Qed.

Theorem chain_clean_partial : forall c g ops,
  cfg_ok c -> gen_ok g -> hash_ok (ops_txs ops) ->
  self_signed ops = true -> pool_guard ops = true ->
  spec_chain c (chain (run c (init g) ops)) = true.
Proof.
  intros c g ops Hc Hg Hh Hs Hp. unfold spec_chain.
  rewrite (unique_all c g ops Hc Hg Hh), (checked_all c g ops Hc Hg Hh), (all_signed_partial c g ops Hg Hs Hp).
  reflexivity.
Qed.

(** the refutation: T is in the pool (Hash id 1); a peer block carries T's body with another
    account's key and a signature that does not verify (same Hash id, FullHash id 2, CheckSign false) *)
Definition w_cfg : cfg := mkCfg 2 3 100000 1000000000 33 100000 true.
Definition w_gen : blk := mkBlk 1 0 0 1514533394 [].
Definition w_forged : tx := mkTx 1 1 2 0 100000 237 33 false 0 0 0.
Definition w_ops : list op := [OPeer [1%N] (mkBlk 2 1 1 1514533395 [w_forged])].

Lemma w_cfg_ok : cfg_ok w_cfg.
Proof. split; discriminate. Qed.

Lemma w_gen_ok : gen_ok w_gen.
Proof. repeat split. Qed.

Theorem all_signed_refuted : ~ all_signed_full.
Proof.
  intro H. specialize (H w_cfg w_gen w_ops w_gen_ok eq_refl). vm_compute in H. discriminate H.
Qed.

(** the same block is refused when the pool does not report the hash *)
Example forged_refused_without_pool :
  snd (connect_peer w_cfg (init w_gen) [] (mkBlk 2 1 1 1514533395 [w_forged])) = ESign.
Proof. reflexivity. Qed.

(** a non-trivial history satisfying both guards: a pooled transaction arrives in a block with
    its own valid signature, a producer block, a disconnection *)
Definition g_t1 : tx := mkTx 1 1 1 0 100000 237 33 true 0 0 0.
Definition g_t2 : tx := mkTx 2 2 2 (TxHeightFlag + 3) 100000 240 33 true 0 0 0.
Definition g_ops : list op :=
  [OPeer [1%N] (mkBlk 2 1 1 1514533395 [g_t1]); OSelf (mkBlk 3 2 2 1514533396 [g_t2; g_t1]); ODisc;
   OPeer [] (mkBlk 4 2 2 1514533397 [g_t2])].

Example guards_satisfiable :
  self_signed g_ops = true /\ pool_guard g_ops = true /\
  map b_id (chain (run w_cfg (init w_gen) g_ops)) = [4%N; 2%N; 1%N].
Proof. vm_compute. repeat split. Qed.

(** ---- the candidate repair: the shortcut applies only when the pooled transaction's FullHash()
    equals the block transaction's.  [poolf] = FullHash ids of the mempool's transactions. ---- *)
Definition sig_stage_fix (poolf : list N) (txs : list tx) : bool :=
  forallb (fun t => memN (tfull t) poolf || tsig t) txs.

(** apart from the signature stage the repaired connectBlock is the old one; when the stage
    passes, the old code behaves as with a pool reporting every hash of the block *)
Definition connect_peer_fix (c : cfg) (s : st) (poolf : list N) (b : blk) : st * err :=
  if sig_stage_fix poolf (b_txs b) then connect_peer c s (map th (b_txs b)) b
  else (s, if linked s b then ESign else ELink).

Definition step_fix (c : cfg) (s : st) (o : op) : st :=
  match o with
  | OPeer poolf b => fst (connect_peer_fix c s poolf b)
  | OSelf b => fst (fst (connect_self c s b))
  | ODisc => disconnect c s
  end.

Definition run_fix (c : cfg) (s : st) (ops : list op) : st := fold_left (step_fix c) ops s.

(** the mempool holds only transactions whose signature it verified (C22), and FullHash()
    covers the signature: a block transaction with a pooled FullHash verifies *)
Definition pool_verified (ops : list op) : bool :=
  forallb (fun o => match o with
                    | OPeer poolf b => forallb (fun t => negb (memN (tfull t) poolf) || tsig t) (b_txs b)
                    | _ => true
                    end) ops.

Lemma memN_map_th : forall t l, In t l -> memN (th t) (map th l) = true.
Proof.
  intros t l H. unfold memN. apply existsb_exists. exists (th t). split.
  - apply in_map. exact H.
  - apply N.eqb_refl.
Qed.

Lemma signed_peer_fix : forall c s poolf b,
  signed_chain (chain s) ->
  forallb (fun t => negb (memN (tfull t) poolf) || tsig t) (b_txs b) = true ->
  signed_chain (chain (fst (connect_peer_fix c s poolf b))).
Proof.
  intros c s poolf b Hs Hv. unfold connect_peer_fix.
  destruct (sig_stage_fix poolf (b_txs b)) eqn:Hsig; [|exact Hs].
  apply txs_all_peer; [exact Hs|]. intros _ t Ht.
  unfold sig_stage_fix in Hsig. rewrite forallb_forall in Hsig, Hv.
  specialize (Hsig t Ht). specialize (Hv t Ht).
  destruct (tsig t); [reflexivity|].
  rewrite orb_false_r in Hsig, Hv. rewrite Hsig in Hv. discriminate Hv.
Qed.

Theorem fix_all_signed : forall c g ops,
  gen_ok g -> self_signed ops = true -> pool_verified ops = true ->
  spec_signed (chain (run_fix c (init g) ops)) = true.
Proof.
  intros c g ops Hgen Hself Hv. apply signed_spec.
  unfold self_signed, pool_verified in *. rewrite forallb_forall in Hself, Hv.
  apply (fold_left_inv _ _ (step_fix c) (fun s => signed_chain (chain s)) ops); [|apply txs_all_init; exact Hgen].
  intros s o Ho Hs. specialize (Hself o Ho). specialize (Hv o Ho). destruct o as [poolf b|b|]; cbn [step_fix].
  - apply signed_peer_fix; assumption.
  - apply txs_all_self; [exact Hs | apply forallb_forall; exact Hself].
  - apply txs_all_disconnect; exact Hs.
Qed.

(** under the repair the witness block is refused although T (FullHash id 1) is pooled *)
Example fix_refuses_witness :
  snd (connect_peer_fix w_cfg (init w_gen) [1%N] (mkBlk 2 1 1 1514533395 [w_forged])) = ESign.
Proof. reflexivity. Qed.

(** the repair accepts exactly what the old code accepts whenever the old shortcut was harmless *)
Lemma fix_same_when_signed : forall c s pool poolf b,
  forallb tsig (b_txs b) = true ->
  connect_peer_fix c s poolf b = connect_peer c s pool b.
Proof.
  intros c s pool poolf b Hb.
  assert (S : forall f : tx -> bool, forallb (fun t => f t || tsig t) (b_txs b) = true).
  { intro f. apply forallb_forall. intros t Ht. rewrite (proj1 (forallb_forall _ _) Hb t Ht). apply orb_true_r. }
  unfold connect_peer_fix, connect_peer, sig_stage_fix, sig_stage.
  rewrite (S (fun t => memN (tfull t) poolf)), !(S (fun t => memN (th t) _)). reflexivity.
Qed.
