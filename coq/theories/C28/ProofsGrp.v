(** C28 — executor.procExecTxList over single transactions and groups: a list whose receipts are
    all non-errors is a sequence of accepted single transactions and accepted whole groups
    ([okl]); what the producer's path keeps is such a list again.  Then executor.checkTx and
    checkTxGroup against the spec predicates: an [okl] list is what the oracle demands of a block. *)
From Coq Require Import List ZArith NArith Bool Lia.
From C33 Require Import C28.Model C28.Spec C28.ProofsLib.
Import ListNotations.
Open Scope Z_scope.

Section Grp.
  Variable c : cfg.
  Variables h bt : Z.

  Inductive okl : list tx -> Prop :=
  | okl_nil : okl []
  | okl_single : forall t r, tgc t = 0 -> check_tx c h bt t = true -> okl r -> okl (t :: r)
  | okl_group : forall t g r, 2 <= tgc t <= 20 -> Z.to_nat (tgc t) = length (t :: g) ->
      group_rc c h bt (t :: g) = true -> okl r -> okl ((t :: g) ++ r).

  Lemma all_true_app : forall a b, all_true (a ++ b) = all_true a && all_true b.
  Proof. intros a b. unfold all_true. apply forallb_app. Qed.

  Lemma all_true_repeat : forall n, all_true (repeat true n) = true.
  Proof. induction n as [|n IH]; [reflexivity | exact IH]. Qed.

  Lemma exec_go_0 : forall v txs, exec_go c h bt 0 v txs = exec_go c h bt 0 false txs.
  Proof. intros v [|t r]; reflexivity. Qed.

  Lemma exec_go_skip : forall txs p v, (p <= length txs)%nat ->
    exec_go c h bt p v txs = repeat v p ++ exec_go c h bt 0 false (skipn p txs).
  Proof.
    induction txs as [|t r IH]; intros p v Hp.
    - cbn [length] in Hp. assert (p = 0%nat) by lia. subst p. reflexivity.
    - destruct p as [|p].
      + cbn [repeat app skipn]. apply exec_go_0.
      + cbn [exec_go repeat app skipn]. f_equal. apply IH. cbn [length] in Hp. lia.
  Qed.

  Lemma keep_app : forall a b l, (length a <= length l)%nat ->
    keep (a ++ b) l = keep a (firstn (length a) l) ++ keep b (skipn (length a) l).
  Proof.
    induction a as [|x a IH]; intros b l Hl.
    - reflexivity.
    - destruct l as [|t l]; [cbn [length] in Hl; lia|].
      cbn [app keep length firstn skipn]. cbn [length] in Hl.
      destruct x; [cbn [app]; f_equal|]; apply IH; lia.
  Qed.

  Lemma keep_repeat_true : forall n l, length l = n -> keep (repeat true n) l = l.
  Proof.
    intros n l <-. induction l as [|t l IH]; [reflexivity|]. cbn [length repeat keep]. f_equal. exact IH.
  Qed.

  Lemma keep_repeat_false : forall n l, keep (repeat false n) l = [].
  Proof.
    induction n as [|n IH]; intros l; [destruct l; reflexivity|].
    destruct l as [|t l]; [reflexivity|]. cbn [repeat keep]. apply IH.
  Qed.

  Lemma keep_In : forall fl l t, In t (keep fl l) -> In t l.
  Proof.
    induction fl as [|f fl IH]; intros l t Ht; [destruct l; destruct Ht|].
    destruct l as [|x l]; [destruct Ht|]. cbn [keep] in Ht. destruct f.
    - destruct Ht as [Ht|Ht]; [left; exact Ht | right; exact (IH l t Ht)].
    - right. exact (IH l t Ht).
  Qed.

  Lemma keep_nd : forall fl l, NoDup (map th l) -> NoDup (map th (keep fl l)).
  Proof.
    induction fl as [|f fl IH]; intros l Hnd; [destruct l; constructor|].
    destruct l as [|x l]; [constructor|]. cbn [keep]. cbn [map] in Hnd.
    inversion Hnd as [|a m Hnotin Hnd']. subst a m. destruct f.
    - cbn [map]. constructor; [|exact (IH l Hnd')].
      intro Hin. apply Hnotin. apply in_map_iff in Hin. destruct Hin as [y [Ey Hy]].
      apply in_map_iff. exists y. split; [exact Ey | exact (keep_In fl l y Hy)].
    - exact (IH l Hnd').
  Qed.

  Lemma exec_go_cases : forall t r,
    exec_go c h bt 0 false (t :: r) = false :: exec_go c h bt 0 false r
    \/ tgc t = 0 /\ exec_go c h bt 0 false (t :: r) = check_tx c h bt t :: exec_go c h bt 0 false r
    \/ 2 <= tgc t <= 20 /\ (Z.to_nat (tgc t) <= length (t :: r))%nat
       /\ exec_go c h bt 0 false (t :: r)
          = repeat (group_rc c h bt (firstn (Z.to_nat (tgc t)) (t :: r))) (Z.to_nat (tgc t))
            ++ exec_go c h bt 0 false (skipn (Z.to_nat (tgc t)) (t :: r)).
  Proof.
    intros t r. cbn [exec_go].
    destruct ((tgc t <? 0) || (tgc t =? 1) || (tgc t >? 20)) eqn:E1; [left; reflexivity|].
    destruct (Z.eqb_spec (tgc t) 0) as [E2|E2]; [right; left; split; [exact E2 | reflexivity]|].
    destruct (Nat.ltb_spec (length (t :: r)) (Z.to_nat (tgc t))) as [E3|E3]; [left; reflexivity|].
    right; right. cbv zeta.
    apply orb_false_iff in E1. destruct E1 as [E1 E20]. apply orb_false_iff in E1. destruct E1 as [E0 E1].
    apply Z.ltb_ge in E0. apply Z.eqb_neq in E1. rewrite Z.gtb_ltb in E20. apply Z.ltb_ge in E20.
    split; [lia|]. split; [exact E3|].
    destruct (Z.to_nat (tgc t)) as [|k] eqn:Hk; [lia|]. cbn [repeat app skipn].
    rewrite Nat.sub_succ, Nat.sub_0_r. f_equal. apply exec_go_skip. cbn [length] in E3. lia.
  Qed.

  Lemma keep_okl_fuel : forall n txs, (length txs <= n)%nat ->
    okl (keep (exec_go c h bt 0 false txs) txs).
  Proof.
    induction n as [|n IH]; intros txs Hn.
    - destruct txs; [constructor | cbn [length] in Hn; lia].
    - destruct txs as [|t r]; [constructor|]. cbn [length] in Hn.
      destruct (exec_go_cases t r) as [E|[[Hg E]|[Hg [Hk E]]]]; rewrite E.
      + cbn [keep]. apply IH. lia.
      + cbn [keep]. destruct (check_tx c h bt t) eqn:Ec; [apply okl_single; [exact Hg | exact Ec|]|]; apply IH; lia.
      + remember (Z.to_nat (tgc t)) as k eqn:Ek.
        rewrite keep_app, repeat_length by (rewrite repeat_length; exact Hk).
        assert (Hrest : okl (keep (exec_go c h bt 0 false (skipn k (t :: r))) (skipn k (t :: r)))).
        { apply IH. rewrite skipn_length. cbn [length]. lia. }
        destruct (group_rc c h bt (firstn k (t :: r))) eqn:Hok; [|rewrite keep_repeat_false; exact Hrest].
        assert (Hl : length (firstn k (t :: r)) = k) by (rewrite firstn_length; lia).
        rewrite (keep_repeat_true k _ Hl).
        destruct k as [|k']; [lia|]. cbn [firstn] in *.
        apply okl_group; [exact Hg | rewrite <- Ek; exact (eq_sym Hl) | exact Hok | exact Hrest].
  Qed.

  Lemma keep_okl : forall txs, okl (keep (exec_rc c h bt txs) txs).
  Proof. intros txs. exact (keep_okl_fuel (length txs) txs (Nat.le_refl _)). Qed.

  Lemma exec_go_length : forall txs p v, length (exec_go c h bt p v txs) = length txs.
  Proof.
    induction txs as [|t r IH]; intros p v; [reflexivity|]. cbn [exec_go].
    destruct p; [|cbn [length]; f_equal; apply IH].
    destruct ((tgc t <? 0) || (tgc t =? 1) || (tgc t >? 20)); [cbn [length]; f_equal; apply IH|].
    destruct (tgc t =? 0); [cbn [length]; f_equal; apply IH|].
    destruct (length (t :: r) <? Z.to_nat (tgc t))%nat; cbn [length]; f_equal; apply IH.
  Qed.

  Lemma keep_all_true : forall fl l, length fl = length l -> all_true fl = true -> keep fl l = l.
  Proof.
    induction fl as [|f fl IH]; intros [|t l] Hl Hall; try discriminate Hl; [reflexivity|].
    cbn [all_true forallb] in Hall. apply andb_true_iff in Hall. destruct Hall as [Hf Hall].
    rewrite Hf. cbn [keep]. f_equal. apply IH; [injection Hl; auto | exact Hall].
  Qed.

  (** all receipts fine: everything is kept *)
  Lemma exec_okl : forall txs, all_true (exec_rc c h bt txs) = true -> okl txs.
  Proof.
    intros txs H. rewrite <- (keep_all_true _ txs (exec_go_length txs 0%nat false) H). apply keep_okl.
  Qed.

  Lemma group_rc_live : forall g t, 0 < h -> 0 < bt -> group_rc c h bt g = true -> In t g ->
    is_expire c t h bt = false.
  Proof.
    intros g t Hh Hb H Ht. unfold group_rc in H. apply andb_true_iff in H. destruct H as [H _].
    apply negb_true_iff in H.
    rewrite (proj2 (Z.gtb_lt h 0) Hh), (proj2 (Z.gtb_lt bt 0) Hb) in H. cbn [andb] in H.
    destruct (is_expire c t h bt) eqn:E; [|reflexivity].
    assert (X : existsb (fun t => is_expire c t h bt) g = true).
    { apply existsb_exists. exists t. split; assumption. }
    rewrite X in H. discriminate H.
  Qed.

  Lemma check_tx_live : forall t, 0 < h -> 0 < bt -> check_tx c h bt t = true -> is_expire c t h bt = false.
  Proof.
    intros t Hh Hb H. unfold check_tx in H.
    repeat (apply andb_true_iff in H; destruct H as [H _]). apply negb_true_iff in H.
    rewrite (proj2 (Z.gtb_lt h 0) Hh), (proj2 (Z.gtb_lt bt 0) Hb) in H. exact H.
  Qed.

  Lemma okl_live : forall txs, 0 < h -> 0 < bt -> okl txs ->
    forall t, In t txs -> is_expire c t h bt = false.
  Proof.
    intros txs Hh Hb H. induction H as [|t0 r Hg Hc Hr IH|t0 g r Hgc Hlen Hok Hr IH]; intros t Ht.
    - destruct Ht.
    - destruct Ht as [Ht|Ht]; [subst t; exact (check_tx_live t0 Hh Hb Hc) | exact (IH t Ht)].
    - apply in_app_or in Ht. destruct Ht as [Ht|Ht]; [exact (group_rc_live _ t Hh Hb Hok Ht) | exact (IH t Ht)].
  Qed.
End Grp.

Lemma flag_bound : ExpireBound < TxHeightFlag /\ 0 < ExpireBound.
Proof. unfold ExpireBound, TxHeightFlag. lia. Qed.

Lemma is_expire_spec : forall c t h bt, is_expire c t h bt = negb (spec_live c (texp t) h bt).
Proof.
  intros c t h bt. unfold is_expire, spec_live. cbv zeta.
  pose proof flag_bound as [Hfb Hb0]. generalize (texp t) as e. intro e.
  destruct (Z.eqb_spec e 0) as [E0|E0]; [reflexivity|]. cbn [orb].
  destruct (Z.leb_spec e ExpireBound) as [E1|E1]; cbn [andb orb].
  - rewrite (proj2 (Z.ltb_ge TxHeightFlag e)), (proj2 (Z.ltb_ge ExpireBound e)) by lia.
    cbn [andb]. rewrite !orb_false_r. apply Z.leb_antisym.
  - rewrite (proj2 (Z.ltb_lt ExpireBound e)) by lia. cbn [andb].
    destruct (tx_height_cases e) as [[Hv Hg]|[Hv Hg]]; rewrite Hg.
    + rewrite (proj2 (Z.gtb_lt _ _)), (proj2 (Z.ltb_lt TxHeightFlag e)), (proj2 (Z.leb_gt e TxHeightFlag)) by lia.
      cbn [andb]. rewrite orb_false_r. reflexivity.
    + rewrite (proj2 (Z.ltb_ge TxHeightFlag e)), (proj2 (Z.leb_le e TxHeightFlag)) by lia.
      cbn. apply Z.leb_antisym.
Qed.

Lemma live_of_not_expire : forall c t h bt,
  is_expire c t h bt = false -> spec_live c (texp t) h bt = true.
Proof. intros c t h bt H. rewrite is_expire_spec in H. apply negb_false_iff. exact H. Qed.

Lemma check_fee_spec : forall c t, check_fee c t = spec_fee c t.
Proof.
  intros c t. unfold check_fee, spec_fee.
  set (X := (tsize t / 1000 + 1) * c_minfee c).
  assert (T : forall r,
    (if tsize t >? c_maxsize c then false else if tfee t <? X then false
     else if (tfee t >? c_maxfee c) && (c_maxfee c >? 0) then false else r)
    = r && ((tsize t <=? c_maxsize c) && (X <=? tfee t) && ((c_maxfee c <=? 0) || (tfee t <=? c_maxfee c)))).
  { intro r. rewrite !Z.gtb_ltb, !Z.ltb_antisym.
    destruct (tsize t <=? c_maxsize c); cbn [negb andb]; [|symmetry; apply andb_false_r].
    destruct (X <=? tfee t); cbn [negb andb]; [|symmetry; apply andb_false_r].
    destruct (tfee t <=? c_maxfee c), (c_maxfee c <=? 0); cbn; rewrite ?andb_true_r, ?andb_false_r; reflexivity. }
  destruct (c_minfee c =? 0); [|rewrite T]; destruct (c_strict c), (tchain t =? c_chain c); reflexivity.
Qed.

Lemma check_tx_single : forall c h bt t, tgc t = 0 ->
  check_tx c h bt t = true -> spec_single c t = true.
Proof.
  intros c h bt t Hg H. unfold check_tx in H.
  apply andb_true_iff in H. destruct H as [H H4]. apply andb_true_iff in H. destruct H as [H H3].
  apply andb_true_iff in H. destruct H as [_ H2].
  unfold spec_single. rewrite Hg, H2, H3, <- check_fee_spec, H4. reflexivity.
Qed.

Lemma spec_of_check : forall c h bt t, 0 < h -> 0 < bt -> tgc t = 0 ->
  check_tx c h bt t = true -> spec_tx c h bt t = true.
Proof.
  intros c h bt t Hh Hb Hg H. unfold spec_tx.
  rewrite (live_of_not_expire c t h bt (check_tx_live c h bt t Hh Hb H)), (check_tx_single c h bt t Hg H).
  reflexivity.
Qed.

Lemma live_window : forall c h bt t,
  is_expire c t h bt = false -> tx_height (texp t) > 0 ->
  tx_height (texp t) - c_low c <= h /\ h <= tx_height (texp t) + c_high c.
Proof.
  intros c h bt t H Hg. pose proof flag_bound as [Hfb Hb0].
  destruct (tx_height_cases (texp t)) as [[Hv Hgv]|[Hv Hgv]]; [|lia].
  unfold is_expire in H. cbv zeta in H.
  rewrite (proj2 (Z.eqb_neq _ 0)), (proj2 (Z.leb_gt _ ExpireBound)), (proj2 (Z.gtb_lt _ 0)) in H by lia.
  apply negb_false_iff, andb_true_iff in H. destruct H as [Ha Hb].
  apply Z.leb_le in Ha, Hb. split; assumption.
Qed.

Lemma links_spec : forall g, links g = spec_links g.
Proof.
  induction g as [|t r IH]; [reflexivity|]. cbn [links spec_links].
  destruct r as [|u r']; [reflexivity|]. rewrite IH. reflexivity.
Qed.

Lemma check_group_spec : forall c g, check_group c g = true -> spec_group c g = true.
Proof.
  intros c g H. destruct g as [|hd tl]; [discriminate H|]. unfold check_group in H. unfold spec_group.
  apply andb_true_iff in H; destruct H as [H Xlinks].
  apply andb_true_iff in H; destruct H as [H Xgc].
  apply andb_true_iff in H; destruct H as [H Xhdrs].
  apply andb_true_iff in H; destruct H as [H Xhdr].
  apply andb_true_iff in H; destruct H as [H Xmax].
  apply andb_true_iff in H; destruct H as [H Xsum].
  apply andb_true_iff in H; destruct H as [H Xsize].
  apply andb_true_iff in H; destruct H as [Xchain Xfee0].
  (* the oracle's conjuncts, last first *)
  apply andb_true_intro; split; [|destruct (c_strict c); [exact Xchain | reflexivity]].
  apply andb_true_intro; split.
  2: { apply negb_true_iff, andb_false_iff in Xmax. apply orb_true_iff.
       destruct Xmax as [E|E]; [right | left]; apply Z.leb_le; rewrite Z.gtb_ltb in E; apply Z.ltb_ge in E; exact E. }
  apply andb_true_intro; split; [|exact Xsum].
  apply andb_true_intro; split; [|exact Xsize].
  apply andb_true_intro; split; [|exact Xfee0].
  apply andb_true_intro; split; [|rewrite <- links_spec; exact Xlinks].
  apply andb_true_intro; split; [|exact Xgc].
  apply andb_true_intro; split; [rewrite N.eqb_sym; exact Xhdr|].
  apply forallb_forall. intros x Hx. rewrite N.eqb_sym. exact (proj1 (forallb_forall _ _) Xhdrs x Hx).
Qed.

Lemma group_rc_spec : forall c h bt g, group_rc c h bt g = true -> spec_group c g = true.
Proof.
  intros c h bt g H. unfold group_rc in H. apply andb_true_iff in H. destruct H as [_ H].
  apply check_group_spec. exact H.
Qed.

Lemma firstn_app_len : forall (A : Type) (a b : list A), firstn (length a) (a ++ b) = a.
Proof.
  intros A a b. rewrite firstn_app, Nat.sub_diag, firstn_all. cbn [firstn]. apply app_nil_r.
Qed.

Lemma skipn_app_len : forall (A : Type) (a b : list A), skipn (length a) (a ++ b) = b.
Proof.
  intros A a b. rewrite skipn_app, Nat.sub_diag, skipn_all. reflexivity.
Qed.

Lemma okl_spec_fees : forall c h bt txs, okl c h bt txs ->
  forall n, (length txs <= n)%nat -> spec_fees n c txs = true.
Proof.
  intros c h bt txs H.
  induction H as [|t0 r Hg Hc Hr IH|t0 g r Hgc Hlen Hok Hr IH]; intros n Hn.
  - destruct n; reflexivity.
  - destruct n as [|n]; [cbn [length] in Hn; lia|]. cbn [spec_fees].
    rewrite Hg, (check_tx_single c h bt t0 Hg Hc). cbn [Z.eqb andb].
    apply IH. cbn [length] in Hn. lia.
  - destruct n as [|n]; [rewrite app_length in Hn; cbn [length] in Hn; lia|].
    change ((t0 :: g) ++ r) with (t0 :: (g ++ r)). cbn [spec_fees].
    destruct (Z.eqb_spec (tgc t0) 0) as [E|E]; [lia|].
    change (t0 :: (g ++ r)) with ((t0 :: g) ++ r).
    rewrite Hlen, firstn_app_len, skipn_app_len.
    rewrite (group_rc_spec c h bt _ Hok).
    assert (L1 : (2 <=? tgc t0) = true) by (apply Z.leb_le; lia).
    assert (L2 : (tgc t0 <=? 20) = true) by (apply Z.leb_le; lia).
    assert (L3 : (length (t0 :: g) <=? length ((t0 :: g) ++ r))%nat = true).
    { apply Nat.leb_le. rewrite app_length. lia. }
    rewrite L1, L2, L3. cbn [andb]. apply IH.
    rewrite app_length in Hn. cbn [length] in Hn. lia.
Qed.

Lemma okl_spec_block : forall c h bt txs, 0 < h -> 0 < bt -> okl c h bt txs ->
  spec_block c h bt txs = true.
Proof.
  intros c h bt txs Hh Hb H. unfold spec_block. apply andb_true_iff. split.
  - apply forallb_forall. intros t Ht. apply live_of_not_expire.
    exact (okl_live c h bt txs Hh Hb H t Ht).
  - exact (okl_spec_fees c h bt txs H (length txs) (Nat.le_refl _)).
Qed.

Lemma okl_whole : forall c h bt txs, okl c h bt txs ->
  forall t, In t txs -> tgc t <> 0 ->
  exists pre g post, txs = pre ++ g ++ post /\ In t g /\ spec_group c g = true.
Proof.
  intros c h bt txs H.
  induction H as [|t0 r Hg Hc Hr IH|t0 g r Hgc Hlen Hok Hr IH]; intros t Ht Hne.
  - destruct Ht.
  - destruct Ht as [Ht|Ht]; [subst t; contradiction|].
    destruct (IH t Ht Hne) as [pre [g [post [E [Hin Hs]]]]].
    exists (t0 :: pre), g, post. rewrite E. split; [reflexivity | split; assumption].
  - apply in_app_or in Ht. destruct Ht as [Ht|Ht].
    + exists [], (t0 :: g), r. split; [reflexivity|]. split; [exact Ht | exact (group_rc_spec c h bt _ Hok)].
    + destruct (IH t Ht Hne) as [pre [g' [post [E [Hin Hs]]]]].
      exists ((t0 :: g) ++ pre), g', post. rewrite E, <- app_assoc. split; [reflexivity | split; assumption].
Qed.
