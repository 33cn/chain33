(** C28 — the node with its mempool made concrete: it refines the model whose pool answers are
    inputs (so uniqueness, non-expiry, fees hold for it as well), and the signature part is
    stated against the pool the node really has. *)
From Coq Require Import List ZArith NArith Bool Lia.
From C33 Require Import C28.Model C28.Spec C28.Defs C28.ProofsLib C28.ProofsGrp C28.Proofs C28.ProofsSig.
Import ListNotations.
Open Scope Z_scope.

Definition op_of (n : node) (o : nop) : list op :=
  match o with
  | NPeer b => [OPeer (pool_hashes (n_pool n)) b]
  | NSelf b => [OSelf b]
  | NDisc => [ODisc]
  | NPool _ => []
  | NSync _ => []
  end.

(** the history of connections and disconnections a node history amounts to, each peer block
    with the answer the node's own pool gives at that moment *)
Fixpoint ops_of (c : cfg) (n : node) (nops : list nop) : list op :=
  match nops with
  | [] => []
  | o :: r => op_of n o ++ ops_of c (nstep c n o) r
  end.

Definition nop_txs (o : nop) : list tx :=
  match o with NPeer b => b_txs b | NSelf b => b_txs b | _ => [] end.

Definition nops_txs (nops : list nop) : list tx := flat_map nop_txs nops.

Lemma nstep_st : forall c n o, n_st (nstep c n o) = run c (n_st n) (op_of n o).
Proof.
  intros c n o. destruct o as [b|b| |e|hs]; cbn [nstep op_of run fold_left step].
  - destruct (connect_peer c (n_st n) (pool_hashes (n_pool n)) b) as [s' e]. reflexivity.
  - destruct (connect_self c (n_st n) b) as [[s' e] k]. reflexivity.
  - unfold disconnect. destruct (chain (n_st n)) as [|b [|q r]]; reflexivity.
  - reflexivity.
  - reflexivity.
Qed.

Lemma run_app : forall c s a b, run c s (a ++ b) = run c (run c s a) b.
Proof. intros c s a b. unfold run. apply fold_left_app. Qed.

Theorem node_refines : forall c nops n, n_st (nrun c n nops) = run c (n_st n) (ops_of c n nops).
Proof.
  intros c nops. induction nops as [|o r IH]; intros n; [reflexivity|].
  cbn [ops_of]. rewrite run_app, <- nstep_st. unfold nrun. cbn [fold_left]. apply IH.
Qed.

Lemma ops_of_txs : forall c nops n, ops_txs (ops_of c n nops) = nops_txs nops.
Proof.
  intros c nops. induction nops as [|o r IH]; intros n; [reflexivity|].
  cbn [ops_of]. unfold ops_txs, nops_txs in *. rewrite flat_map_app. cbn [flat_map].
  rewrite IH. f_equal. destruct o; cbn [op_of flat_map nop_txs op_txs]; try apply app_nil_r; reflexivity.
Qed.

Theorem node_chain_checked : forall c g nops, cfg_ok c -> gen_ok g -> hash_ok (nops_txs nops) ->
  let l := chain (n_st (nrun c (ninit g) nops)) in
  spec_unique l = true /\ spec_checked c l = true.
Proof.
  intros c g nops Hc Hg Hh. cbv zeta. rewrite node_refines. cbn [ninit n_st].
  rewrite <- (ops_of_txs c nops (ninit g)) in Hh. split.
  - exact (unique_all c g _ Hc Hg Hh).
  - exact (checked_all c g _ Hc Hg Hh).
Qed.

Definition nself_signed (nops : list nop) : bool :=
  forallb (fun o => match o with NSelf b => forallb tsig (b_txs b) | _ => true end) nops.

(** the mempool verifies the signatures of what it accepts (C22) *)
Definition noffers_signed (nops : list nop) : bool :=
  forallb (fun o => match o with NPool e => forallb tsig e | _ => true end) nops.

(** guard: a peer block's transaction that fails CheckSign either has a Hash() the pool does not
    hold, or the pool holds that very transaction (same FullHash()) *)
Definition step_guard (n : node) (o : nop) : bool :=
  match o with
  | NPeer b => forallb (fun t => tsig t || negb (memN (th t) (pool_hashes (n_pool n))) || pool_same (n_pool n) t)
                       (b_txs b)
  | _ => true
  end.

Fixpoint nguard (c : cfg) (n : node) (nops : list nop) : bool :=
  match nops with
  | [] => true
  | o :: r => step_guard n o && nguard c (nstep c n o) r
  end.

Definition nall_op_txs (o : nop) : list tx :=
  match o with NPeer b => b_txs b | NSelf b => b_txs b | NPool e => e | _ => [] end.

Definition nall_txs (nops : list nop) : list tx := flat_map nall_op_txs nops.

(** FullHash() covers the signature: equal FullHash, equal CheckSign *)
Definition fh_ok (U : list tx) : Prop :=
  forall t1 t2, In t1 U -> In t2 U -> tfull t1 = tfull t2 -> tsig t1 = tsig t2.

Definition nall_signed_full : Prop :=
  forall c g nops, gen_ok g -> fh_ok (nall_txs nops) ->
    nself_signed nops = true -> noffers_signed nops = true ->
    spec_signed (chain (n_st (nrun c (ninit g) nops))) = true.

Definition good (U : list tx) (t : tx) : Prop := tsig t = true /\ In t U.

Definition ents_signed (U : list tx) (p : list pent) : Prop :=
  forall e t, In e p -> In t e -> good U t.

Record NS (U : list tx) (n : node) : Prop := mkNS {
  ns_chain : txs_all (good U) (chain (n_st n));
  ns_pool : ents_signed U (n_pool n);
  ns_limbo : ents_signed U (n_limbo n)
}.

Lemma ns_signed : forall U n, NS U n -> signed_chain (chain (n_st n)).
Proof. intros U n HN b t Hb Ht. exact (proj1 (ns_chain U n HN b t Hb Ht)). Qed.

Lemma segs_In : forall n txs e t, In e (segs n txs) -> In t e -> In t txs.
Proof.
  induction n as [|n IH]; intros txs e t He Ht; [destruct He|].
  destruct txs as [|x r]; [destruct He|]. cbn [segs] in He.
  destruct ((2 <=? Z.to_nat (tgc x)) && (Z.to_nat (tgc x) <=? length (x :: r)))%nat.
  - destruct He as [He|He].
    + subst e. rewrite <- (firstn_skipn (Z.to_nat (tgc x)) (x :: r)). apply in_or_app. left. exact Ht.
    + rewrite <- (firstn_skipn (Z.to_nat (tgc x)) (x :: r)). apply in_or_app. right. exact (IH _ e t He Ht).
  - destruct He as [He|He].
    + subst e. destruct Ht as [Ht|[]]. left. exact Ht.
    + right. exact (IH r e t He Ht).
Qed.

Lemma ents_signed_filter : forall U f p, ents_signed U p -> ents_signed U (filter f p).
Proof. intros U f p H e t He Ht. apply filter_In in He. exact (H e t (proj1 He) Ht). Qed.

Lemma ents_signed_app : forall U p q, ents_signed U p -> ents_signed U q -> ents_signed U (p ++ q).
Proof.
  intros U p q Hp Hq e t He Ht. apply in_app_or in He.
  destruct He as [He|He]; [exact (Hp e t He Ht) | exact (Hq e t He Ht)].
Qed.

Lemma pool_after_signed : forall U c b p, ents_signed U p -> ents_signed U (pool_after c b p).
Proof. intros U c b p H. unfold pool_after, pool_exp, pool_rm. apply ents_signed_filter, ents_signed_filter. exact H. Qed.

Lemma pool_same_signed : forall U p t, fh_ok U -> ents_signed U p -> In t U ->
  pool_same p t = true -> tsig t = true.
Proof.
  intros U p t Hfh Hp HtU H. unfold pool_same in H. apply existsb_exists in H.
  destruct H as [e [He H]]. apply andb_true_iff in H. destruct H as [_ H].
  unfold p_full in H. destruct e as [|t' [|u r]]; try discriminate H.
  apply N.eqb_eq in H. destruct (Hp [t'] t' He (or_introl eq_refl)) as [Hs HU'].
  rewrite <- (Hfh t' t HU' HtU H). exact Hs.
Qed.

Section Steps.
  Variable c : cfg.
  Variable U : list tx.
  Hypothesis Hfh : fh_ok U.

  Lemma ns_peer : forall n pool b, NS U n ->
    (sig_stage pool (b_txs b) = true -> forall t, In t (b_txs b) -> good U t) ->
    NS U (let '(s', e) := connect_peer c (n_st n) pool b in
          mkNode s' (if is_ok e then pool_after c b (n_pool n) else n_pool n) (n_limbo n)).
  Proof.
    intros n pool b HN Hb.
    pose proof (txs_all_peer (good U) c (n_st n) pool b (ns_chain U n HN) Hb) as Hsc.
    destruct (connect_peer c (n_st n) pool b) as [s' er]. cbn [fst] in Hsc.
    constructor; cbn [n_st n_pool n_limbo]; [exact Hsc | | exact (ns_limbo U n HN)].
    destruct (is_ok er); [apply pool_after_signed|]; exact (ns_pool U n HN).
  Qed.

  Lemma ns_step : forall n o, NS U n -> incl (nall_op_txs o) U ->
    step_guard n o = true ->
    (match o with NSelf b => forallb tsig (b_txs b) | _ => true end) = true ->
    (match o with NPool e => forallb tsig e | _ => true end) = true ->
    NS U (nstep c n o).
  Proof.
    intros n o HN Hincl Hg Hsg Hof. destruct o as [b|b| |e|hs]; cbn [nstep nall_op_txs step_guard] in *.
    - (* peer: a mis-signed transaction that passed the stage is pooled by Hash(), so by the guard
         the pool holds that very transaction, signed *)
      apply ns_peer; [exact HN|]. intros Hst t Ht. split; [|exact (Hincl t Ht)].
      destruct (tsig t) eqn:E; [reflexivity|]. rewrite <- E.
      rewrite forallb_forall in Hg. specialize (Hg t Ht).
      rewrite E, (sig_stage_unsigned _ _ t Hst Ht E) in Hg.
      exact (pool_same_signed U (n_pool n) t Hfh (ns_pool U n HN) (Hincl t Ht) Hg).
    - pose proof (txs_all_self (good U) c (n_st n) b (ns_chain U n HN)) as Hsc.
      destruct (connect_self c (n_st n) b) as [[s' er] kept]. cbn [fst] in Hsc.
      constructor; cbn [n_st n_pool n_limbo].
      + apply Hsc. intros t Ht. rewrite forallb_forall in Hsg. exact (conj (Hsg t Ht) (Hincl t Ht)).
      + destruct (is_ok er); [apply pool_after_signed|]; exact (ns_pool U n HN).
      + exact (ns_limbo U n HN).
    - destruct (chain (n_st n)) as [|b [|q r]] eqn:E; try exact HN.
      constructor; cbn [n_st n_pool n_limbo].
      + exact (txs_all_disconnect _ c (n_st n) (ns_chain U n HN)).
      + exact (ns_pool U n HN).
      + apply ents_signed_app; [exact (ns_limbo U n HN)|].
        intros e t He Ht. apply (ns_chain U n HN b t); [rewrite E; left; reflexivity|].
        exact (segs_In _ _ e t He Ht).
    - constructor; cbn [n_st n_pool n_limbo]; [exact (ns_chain U n HN) | | exact (ns_limbo U n HN)].
      unfold pool_add. destruct (memN (p_hash e) (pool_hashes (n_pool n))); [exact (ns_pool U n HN)|].
      intros e' t [He'|He'] Ht; [|exact (ns_pool U n HN e' t He' Ht)].
      subst e'. rewrite forallb_forall in Hof. exact (conj (Hof t Ht) (Hincl t Ht)).
    - constructor; cbn [n_st n_pool n_limbo]; [exact (ns_chain U n HN) | | intros e t []].
      apply ents_signed_filter, ents_signed_app; [exact (ns_pool U n HN) | exact (ns_limbo U n HN)].
  Qed.

  Lemma ns_run : forall nops n, NS U n -> incl (nall_txs nops) U ->
    nself_signed nops = true -> noffers_signed nops = true -> nguard c n nops = true ->
    NS U (nrun c n nops).
  Proof.
    induction nops as [|o r IH]; intros n HN Hincl Hs Ho Hg; [exact HN|].
    cbn [nself_signed noffers_signed nguard forallb] in Hs, Ho, Hg.
    apply andb_true_iff in Hs. destruct Hs as [Hs1 Hs]. apply andb_true_iff in Ho. destruct Ho as [Ho1 Ho].
    apply andb_true_iff in Hg. destruct Hg as [Hg1 Hg].
    apply incl_app_inv in Hincl. destruct Hincl as [Hi1 Hi].
    unfold nrun. cbn [fold_left]. apply IH; try assumption.
    apply ns_step; assumption.
  Qed.
End Steps.

Lemma ns_init : forall U g, gen_ok g -> NS U (ninit g).
Proof.
  intros U g Hg. constructor; cbn [ninit n_st n_pool n_limbo].
  - apply txs_all_init. exact Hg.
  - intros e t [].
  - intros e t [].
Qed.

Theorem nall_signed_partial : forall c g nops, gen_ok g -> fh_ok (nall_txs nops) ->
  nself_signed nops = true -> noffers_signed nops = true -> nguard c (ninit g) nops = true ->
  spec_signed (chain (n_st (nrun c (ninit g) nops))) = true.
Proof.
  intros c g nops Hg Hfh Hs Ho Hgu. apply signed_spec.
  exact (ns_signed _ _ (ns_run c _ Hfh nops (ninit g) (ns_init _ g Hg) (incl_refl _) Hs Ho Hgu)).
Qed.

(** under the same guard the pool never holds a mis-signed transaction, although
    Mempool.delBlock puts the transactions of disconnected blocks back without verifying them *)
Theorem npool_signed_partial : forall c g nops, gen_ok g -> fh_ok (nall_txs nops) ->
  nself_signed nops = true -> noffers_signed nops = true -> nguard c (ninit g) nops = true ->
  forall e, In e (n_pool (nrun c (ninit g) nops)) -> forallb tsig e = true.
Proof.
  intros c g nops Hg Hfh Hs Ho Hgu e He. apply forallb_forall. intros t Ht.
  exact (proj1 (ns_pool _ _ (ns_run c _ Hfh nops (ninit g) (ns_init _ g Hg) (incl_refl _) Hs Ho Hgu) e t He Ht)).
Qed.

Theorem nchain_clean_partial : forall c g nops, cfg_ok c -> gen_ok g -> hash_ok (nops_txs nops) ->
  fh_ok (nall_txs nops) -> nself_signed nops = true -> noffers_signed nops = true ->
  nguard c (ninit g) nops = true ->
  spec_chain c (chain (n_st (nrun c (ninit g) nops))) = true.
Proof.
  intros c g nops Hc Hg Hh Hfh Hs Ho Hgu. unfold spec_chain.
  destruct (node_chain_checked c g nops Hc Hg Hh) as [H1 H2]. cbv zeta in H1, H2.
  rewrite H1, H2, (nall_signed_partial c g nops Hg Hfh Hs Ho Hgu). reflexivity.
Qed.
