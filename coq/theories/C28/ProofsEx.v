(** C28 — the hypotheses of the main theorems hold for a concrete non-trivial history. *)
From Coq Require Import List ZArith NArith Bool Lia.
From C33 Require Import C28.Model C28.Spec C28.Defs C28.ProofsLib C28.Proofs C28.ProofsSig.
Import ListNotations.
Open Scope Z_scope.

Example hyps_satisfiable : cfg_ok w_cfg /\ gen_ok w_gen /\ hash_ok (ops_txs g_ops).
Proof.
  split; [exact w_cfg_ok|]. split; [exact w_gen_ok|].
  apply hash_ok_inj; apply (inj_decoded _ _ _ (fun n => if N.eqb n 1 then g_t1 else g_t2)); repeat constructor.
Qed.

(** the example history really connects, replaces and re-connects blocks, with a TxHeight
    transaction leaving and re-entering the window cache *)
Example example_history_shape :
  let s := run w_cfg (init w_gen) g_ops in
  map b_id (chain s) = [4%N; 2%N; 1%N] /\ cache s = [(3, 2%N)] /\ index s = [2%N; 1%N].
Proof. vm_compute. repeat split. Qed.
