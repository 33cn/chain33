(** C28 — list / set lemmas used by the invariant proofs, and injectivity of a hash on a concrete
    list (for the example histories). *)
From Coq Require Import List ZArith NArith Bool Lia.
From C33 Require Import C28.Model C28.Spec C28.Defs.
Import ListNotations.
Open Scope Z_scope.

Lemma entry_eqb_eq : forall a b, entry_eqb a b = true <-> a = b.
Proof.
  intros [a1 a2] [b1 b2]. unfold entry_eqb. cbn [fst snd].
  rewrite andb_true_iff, Z.eqb_eq, N.eqb_eq. split.
  - intros [H1 H2]. subst. reflexivity.
  - intros H. inversion H. auto.
Qed.

(** the set-like updates (Go maps) and membership tests of the index (keys [N]) and of the window
    cache (keys [entry]) *)
Section SetLike.
  Variable A : Type.
  Variable eqb : A -> A -> bool.
  Hypothesis eqb_eq : forall a b, eqb a b = true <-> a = b.

  Lemma mem_In : forall x l, existsb (eqb x) l = true <-> In x l.
  Proof.
    intros x l. rewrite existsb_exists. split.
    - intros [y [Hy He]]. apply eqb_eq in He. subst y. exact Hy.
    - intros H. exists x. split; [exact H | apply eqb_eq; reflexivity].
  Qed.

  Lemma add_In : forall x e l, In x (if existsb (eqb e) l then l else e :: l) <-> x = e \/ In x l.
  Proof.
    intros x e l. destruct (existsb (eqb e) l) eqn:E.
    - apply mem_In in E. split; [auto | intros [H|H]; [subst x; exact E | exact H]].
    - cbn [In]. split; (intros [H|H]; [left; symmetry; exact H | right; exact H]).
  Qed.

  Lemma del_In : forall x e l, In x (filter (fun y => negb (eqb e y)) l) <-> In x l /\ x <> e.
  Proof.
    intros x e l. rewrite filter_In, negb_true_iff. split; (intros [H1 H2]; split; [exact H1|]).
    - intro Hx. subst x. rewrite (proj2 (eqb_eq e e) eq_refl) in H2. discriminate.
    - destruct (eqb e x) eqn:E; [|reflexivity]. apply eqb_eq in E. subst x. contradiction.
  Qed.

  Variable B : Type.
  Variable f : B -> A.

  Lemma add_all_In : forall (add : A -> list A -> list A),
    (forall x e l, In x (add e l) <-> x = e \/ In x l) ->
    forall bs l x, In x (fold_left (fun l b => add (f b) l) bs l) <-> In x (map f bs) \/ In x l.
  Proof.
    intros add H. induction bs as [|b bs IH]; intros l x; cbn [fold_left map In].
    { split; [right; assumption | intros [[]|Hx]; exact Hx]. }
    split.
    - intros Hx. apply IH in Hx. destruct Hx as [Hx|Hx]; [auto|].
      apply H in Hx. destruct Hx as [Hx|Hx]; auto.
    - intros [[Hx|Hx]|Hx]; apply IH; [right; apply H; auto | auto | right; apply H; auto].
  Qed.

  Lemma del_all_In : forall (del : A -> list A -> list A),
    (forall x e l, In x (del e l) <-> In x l /\ x <> e) ->
    forall bs l x, In x (fold_left (fun l b => del (f b) l) bs l) <-> In x l /\ ~ In x (map f bs).
  Proof.
    intros del H. induction bs as [|b bs IH]; intros l x; cbn [fold_left map In].
    { split; [intro Hx; split; [exact Hx | intros []] | intros [Hx _]; exact Hx]. }
    split.
    - intros Hx. apply IH in Hx. destruct Hx as [Hx Hn]. apply H in Hx. destruct Hx as [Hx Hne].
      split; [exact Hx|]. intros [E|E]; auto.
    - intros [Hx Hn]. apply IH. split; [apply H; split; [exact Hx|] |]; auto.
  Qed.
End SetLike.

Lemma memN_In : forall x l, memN x l = true <-> In x l.
Proof. exact (mem_In _ _ N.eqb_eq). Qed.

Lemma memE_In : forall x l, memE x l = true <-> In x l.
Proof. exact (mem_In _ _ entry_eqb_eq). Qed.

Lemma cadd_In : forall x e c, In x (cadd e c) <-> x = e \/ In x c.
Proof. exact (add_In _ _ entry_eqb_eq). Qed.

Lemma cdel_In : forall x e c, In x (cdel e c) <-> In x c /\ x <> e.
Proof. exact (del_In _ _ entry_eqb_eq). Qed.

Lemma iadd_In : forall x e l, In x (iadd e l) <-> x = e \/ In x l.
Proof. exact (add_In _ _ N.eqb_eq). Qed.

Lemma idel_In : forall x e l, In x (idel e l) <-> In x l /\ x <> e.
Proof. exact (del_In _ _ N.eqb_eq). Qed.

Lemma cadd_all_In : forall es c x, In x (cadd_all es c) <-> In x es \/ In x c.
Proof.
  intros es c x. pose proof (add_all_In _ _ (fun e => e) cadd cadd_In es c x) as H.
  rewrite map_id in H. exact H.
Qed.

Lemma cdel_all_In : forall es c x, In x (cdel_all es c) <-> In x c /\ ~ In x es.
Proof.
  intros es c x. pose proof (del_all_In _ _ (fun e => e) cdel cdel_In es c x) as H.
  rewrite map_id in H. exact H.
Qed.

Lemma iadd_all_In : forall (txs : list tx) i x,
  In x (fold_left (fun i t => iadd (th t) i) txs i) <-> In x (map th txs) \/ In x i.
Proof. exact (add_all_In _ _ th iadd iadd_In). Qed.

Lemma idel_all_In : forall (txs : list tx) i x,
  In x (fold_left (fun i t => idel (th t) i) txs i) <-> In x i /\ ~ In x (map th txs).
Proof. exact (del_all_In _ _ th idel idel_In). Qed.

Lemma nodupN_NoDup : forall l, nodupN l = true <-> NoDup l.
Proof.
  induction l as [|a l IH]; cbn [nodupN].
  - split; intros _; [constructor | reflexivity].
  - rewrite andb_true_iff, negb_true_iff. split.
    + intros [H1 H2]. constructor.
      * intro Hin. apply memN_In in Hin. congruence.
      * apply IH. exact H2.
    + intros H. inversion H as [|x r Hn Hd]; subst. split.
      * destruct (memN a l) eqn:E; [|reflexivity].
        apply memN_In in E. contradiction.
      * apply IH. exact Hd.
Qed.

Section NoDupApp.
  Variable A : Type.

  Lemma nd_app_iff : forall (l1 l2 : list A),
    NoDup (l1 ++ l2) <-> NoDup l1 /\ NoDup l2 /\ (forall x, In x l1 -> In x l2 -> False).
  Proof.
    induction l1 as [|a l1 IH]; intros l2; cbn [app].
    - split; [intro H; repeat split; [constructor | exact H | intros x []] | intros [_ [H _]]; exact H].
    - split.
      + intro H. inversion H as [|y r Hn Hd]; subst. apply IH in Hd. destruct Hd as [H1 [H2 H3]].
        split; [constructor; [intro Hin; apply Hn, in_or_app; left; exact Hin | exact H1]|].
        split; [exact H2|]. intros x [Hx|Hx] Hx2; [subst x; apply Hn, in_or_app; right; exact Hx2 | exact (H3 x Hx Hx2)].
      + intros [H1 [H2 H3]]. inversion H1 as [|y r Hn Hd]; subst. constructor.
        * intro Hin. apply in_app_or in Hin. destruct Hin as [Hin|Hin]; [contradiction|].
          exact (H3 a (or_introl eq_refl) Hin).
        * apply IH. split; [exact Hd|]. split; [exact H2|].
          intros x Hx1 Hx2. exact (H3 x (or_intror Hx1) Hx2).
  Qed.

  Lemma nd_app_l : forall (l1 l2 : list A), NoDup (l1 ++ l2) -> NoDup l1.
  Proof. intros l1 l2 H. exact (proj1 (proj1 (nd_app_iff l1 l2) H)). Qed.

  Lemma nd_app_r : forall (l1 l2 : list A), NoDup (l1 ++ l2) -> NoDup l2.
  Proof. intros l1 l2 H. exact (proj1 (proj2 (proj1 (nd_app_iff l1 l2) H))). Qed.

  Lemma nd_app_disj : forall (l1 l2 : list A) x, NoDup (l1 ++ l2) -> In x l1 -> In x l2 -> False.
  Proof. intros l1 l2 x H. exact (proj2 (proj2 (proj1 (nd_app_iff l1 l2) H)) x). Qed.

  Lemma nd_app_intro : forall (l1 l2 : list A),
    NoDup l1 -> NoDup l2 -> (forall x, In x l1 -> In x l2 -> False) -> NoDup (l1 ++ l2).
  Proof. intros l1 l2 H1 H2 Hd. exact (proj2 (nd_app_iff l1 l2) (conj H1 (conj H2 Hd))). Qed.
End NoDupApp.

Lemma nd_map_filter : forall (A B : Type) (f : A -> B) (p : A -> bool) (l : list A),
  NoDup (map f l) -> NoDup (map f (filter p l)).
Proof.
  intros A B f p. induction l as [|a l IH]; intros H.
  - constructor.
  - cbn [map] in H. inversion H as [|y r Hn Hd]; subst.
    cbn [filter]. destruct (p a).
    + cbn [map]. constructor.
      * intro Hin. apply Hn. apply in_map_iff in Hin. destruct Hin as [u [Hu1 Hu2]].
        apply filter_In in Hu2. destruct Hu2 as [Hu2 _].
        apply in_map_iff. exists u. split; assumption.
      * apply IH. exact Hd.
    + apply IH. exact Hd.
Qed.

Lemma nd_flat_same : forall (l : list blk) x d t t',
  NoDup (map th (chain_txs l)) -> In x l -> In d l ->
  In t (b_txs x) -> In t' (b_txs d) -> th t = th t' -> x = d.
Proof.
  induction l as [|a l IH]; intros x d t t' Hnd Hx Hd Ht Ht' He.
  - destruct Hx.
  - unfold chain_txs in Hnd. cbn [flat_map] in Hnd. rewrite map_app in Hnd.
    fold (chain_txs l) in Hnd.
    assert (Hin : forall y u, In y l -> In u (b_txs y) -> In (th u) (map th (chain_txs l))).
    { intros y u Hy Hu. apply in_map. unfold chain_txs. apply in_flat_map.
      exists y. split; assumption. }
    destruct Hx as [Hx|Hx]; destruct Hd as [Hd|Hd].
    + congruence.
    + subst a. exfalso. apply (nd_app_disj _ _ _ (th t) Hnd).
      * apply in_map. exact Ht.
      * rewrite He. exact (Hin d t' Hd Ht').
    + subst a. exfalso. apply (nd_app_disj _ _ _ (th t') Hnd).
      * apply in_map. exact Ht'.
      * rewrite <- He. exact (Hin x t Hx Ht).
    + apply (IH x d t t'); try assumption. exact (nd_app_r _ _ _ Hnd).
Qed.

Lemma ents_In : forall e txs, In e (ents txs) <->
  exists t, In t txs /\ tx_height (texp t) > 0 /\ e = (tx_height (texp t), tk t).
Proof.
  intros e txs. unfold ents. rewrite in_flat_map. split.
  - intros [t [Ht H]]. exists t. split; [exact Ht|].
    destruct (tx_height (texp t) >? 0) eqn:E.
    + apply Z.gtb_lt in E. destruct H as [H|[]]. split; [lia | symmetry; exact H].
    + destruct H.
  - intros [t [Ht [Hg He]]]. exists t. split; [exact Ht|].
    rewrite (proj2 (Z.gtb_lt _ _)) by lia. left. symmetry. exact He.
Qed.

Lemma filter_len_le : forall (A : Type) (f : A -> bool) l, (length (filter f l) <= length l)%nat.
Proof.
  intros A f. induction l as [|a l IH]; cbn [filter length].
  - lia.
  - destruct (f a); cbn [length]; lia.
Qed.

Lemma filter_len_eq : forall (A : Type) (f : A -> bool) l,
  length (filter f l) = length l -> filter f l = l.
Proof.
  intros A f. induction l as [|a l IH]; cbn [filter length]; intros H.
  - reflexivity.
  - destruct (f a).
    + cbn [length] in H. f_equal. apply IH. lia.
    + pose proof (filter_len_le A f l) as Hle. lia.
Qed.

Lemma del_dup_In : forall l t, In t (del_dup l) -> In t l.
Proof.
  induction l as [|a l IH]; intros t H; cbn [del_dup] in H.
  - destruct H.
  - destruct (existsb (fun u => N.eqb (th u) (th a)) l).
    + right. apply IH. exact H.
    + destruct H as [H|H]; [left; exact H | right; apply IH; exact H].
Qed.

Lemma del_dup_nd : forall l, NoDup (map th (del_dup l)).
Proof.
  induction l as [|a l IH]; cbn [del_dup].
  - constructor.
  - destruct (existsb (fun u => N.eqb (th u) (th a)) l) eqn:E.
    + exact IH.
    + cbn [map]. constructor; [|exact IH].
      intro Hin. apply in_map_iff in Hin. destruct Hin as [u [Hu1 Hu2]].
      apply del_dup_In in Hu2.
      assert (Ht : existsb (fun u => N.eqb (th u) (th a)) l = true).
      { apply existsb_exists. exists u. split; [exact Hu2 | apply N.eqb_eq; exact Hu1]. }
      congruence.
Qed.

Lemma del_dup_len_le : forall l, (length (del_dup l) <= length l)%nat.
Proof.
  induction l as [|a l IH]; cbn [del_dup length].
  - lia.
  - destruct (existsb (fun u => N.eqb (th u) (th a)) l); cbn [length]; lia.
Qed.

Lemma del_dup_len_eq : forall l, length (del_dup l) = length l -> del_dup l = l.
Proof.
  induction l as [|a l IH]; cbn [del_dup length]; intros H.
  - reflexivity.
  - destruct (existsb (fun u => N.eqb (th u) (th a)) l).
    + pose proof (del_dup_len_le l) as Hle. lia.
    + cbn [length] in H. f_equal. apply IH. lia.
Qed.

Lemma check_dup_In : forall s txs t, In t (check_dup s txs) -> In t txs /\ has_tx s t = false.
Proof.
  intros s txs t H. unfold check_dup in H. apply filter_In in H. destruct H as [H1 H2].
  split; [apply del_dup_In; exact H1|].
  destruct (has_tx s t) eqn:E; [|reflexivity].
  apply negb_true_iff in H2.
  assert (Hm : memN (th t) (map th (filter (has_tx s) (del_dup txs))) = true).
  { apply memN_In. apply in_map. apply filter_In. split; assumption. }
  congruence.
Qed.

Lemma check_dup_nd : forall s txs, NoDup (map th (check_dup s txs)).
Proof.
  intros s txs. unfold check_dup. apply nd_map_filter. apply del_dup_nd.
Qed.

Lemma check_dup_len_eq : forall s txs,
  length (check_dup s txs) = length txs -> check_dup s txs = txs.
Proof.
  intros s txs H. unfold check_dup in *.
  set (q := fun t : tx => negb (memN (th t) (map th (filter (has_tx s) (del_dup txs))))) in *.
  pose proof (filter_len_le tx q (del_dup txs)) as H1.
  pose proof (del_dup_len_le txs) as H2.
  assert (H3 : del_dup txs = txs) by (apply del_dup_len_eq; lia).
  assert (H4 : filter q (del_dup txs) = del_dup txs) by (apply filter_len_eq; lia).
  rewrite H4. exact H3.
Qed.

Lemma tx_height_cases : forall e,
  (e > TxHeightFlag /\ tx_height e = e - TxHeightFlag) \/ (e <= TxHeightFlag /\ tx_height e = -1).
Proof.
  intros e. unfold tx_height. destruct (Z.gtb_spec e TxHeightFlag) as [H|H].
  - left. split; [lia | reflexivity].
  - right. split; [lia | reflexivity].
Qed.

Lemma inj_decoded : forall (A B : Type) (f : A -> B) (g : B -> A) (l : list A),
  Forall (fun x => g (f x) = x) l -> forall x y, In x l -> In y l -> f x = f y -> x = y.
Proof.
  intros A B f g l H x y Hx Hy E. rewrite Forall_forall in H.
  rewrite <- (H x Hx), E. exact (H y Hy).
Qed.

Lemma hash_ok_inj : forall U,
  (forall t1 t2, In t1 U -> In t2 U -> th t1 = th t2 -> t1 = t2) ->
  (forall t1 t2, In t1 U -> In t2 U -> tk t1 = tk t2 -> t1 = t2) -> hash_ok U.
Proof.
  intros U Hh Hk t1 t2 H1 H2.
  split; intro E; [rewrite (Hh t1 t2 H1 H2 E) | rewrite (Hk t1 t2 H1 H2 E)]; auto.
Qed.

Lemma fold_left_inv : forall (S O : Type) (f : S -> O -> S) (I : S -> Prop) (ops : list O),
  (forall s o, In o ops -> I s -> I (f s o)) -> forall s, I s -> I (fold_left f ops s).
Proof.
  intros S O f I. induction ops as [|o r IH]; intros Hstep s Hs; [exact Hs|].
  cbn [fold_left]. apply IH.
  - intros s' o' Ho'. apply Hstep. right. exact Ho'.
  - apply Hstep; [left; reflexivity | exact Hs].
Qed.
