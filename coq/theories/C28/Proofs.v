(** C28 — the chain invariant: it holds initially and every operation preserves it; hence the
    main chain is duplicate-free and all its transactions passed the expiry / fee checks, and the
    transaction index and the txHeight cache hold exactly what they should. *)
From Coq Require Import List ZArith NArith Bool Lia.
From C33 Require Import C28.Model C28.Spec C28.Defs C28.ProofsLib C28.ProofsGrp.
Import ListNotations.
Open Scope Z_scope.

(** the block at position i from the end has height i *)
Fixpoint hts (l : list blk) : Prop :=
  match l with
  | [] => True
  | b :: r => b_h b = Z.of_nat (length r) /\ hts r
  end.

Lemma hts_range : forall l x, hts l -> In x l -> 0 <= b_h x < Z.of_nat (length l).
Proof.
  induction l as [|a l IH]; intros x H Hx.
  - destruct Hx.
  - cbn [hts] in H. destruct H as [H1 H2]. cbn [length]. rewrite Nat2Z.inj_succ.
    destruct Hx as [Hx|Hx].
    + subst x. lia.
    + pose proof (IH x H2 Hx) as Hr. lia.
Qed.

Lemma hts_uniq : forall l x y, hts l -> In x l -> In y l -> b_h x = b_h y -> x = y.
Proof.
  induction l as [|a l IH]; intros x y H Hx Hy He.
  - destruct Hx.
  - cbn [hts] in H. destruct H as [H1 H2].
    destruct Hx as [Hx|Hx]; destruct Hy as [Hy|Hy].
    + congruence.
    + subst a. pose proof (hts_range l y H2 Hy) as Hr. lia.
    + subst a. pose proof (hts_range l x H2 Hx) as Hr. lia.
    + exact (IH x y H2 Hx Hy He).
Qed.

Lemma block_at_some : forall l h d, block_at l h = Some d -> In d l /\ b_h d = h.
Proof.
  intros l h d H. unfold block_at in H. apply find_some in H. destruct H as [H1 H2].
  apply Z.eqb_eq in H2. split; assumption.
Qed.

Lemma block_at_head : forall b r h, b_h b = h -> block_at (b :: r) h = Some b.
Proof.
  intros b r h H. unfold block_at. cbn [find].
  rewrite (proj2 (Z.eqb_eq (b_h b) h) H). reflexivity.
Qed.

Lemma block_at_ex : forall l h, hts l -> 0 <= h < Z.of_nat (length l) ->
  exists d, block_at l h = Some d.
Proof.
  induction l as [|a l IH]; intros h H Hr.
  - cbn [length] in Hr. lia.
  - cbn [hts] in H. destruct H as [H1 H2].
    cbn [length] in Hr. rewrite Nat2Z.inj_succ in Hr.
    destruct (Z.eq_dec (b_h a) h) as [E|E].
    + exists a. apply block_at_head. exact E.
    + assert (Hr' : 0 <= h < Z.of_nat (length l)) by lia.
      destruct (IH h H2 Hr') as [d Hd]. exists d.
      unfold block_at in *. cbn [find].
      destruct (Z.eqb_spec (b_h a) h) as [E'|E']; [contradiction | exact Hd].
Qed.

Lemma in_chain_txs : forall l t, In t (chain_txs l) <-> exists x, In x l /\ In t (b_txs x).
Proof. intros l t. unfold chain_txs. apply in_flat_map. Qed.

Lemma chain_txs_cons : forall b l, chain_txs (b :: l) = b_txs b ++ chain_txs l.
Proof. reflexivity. Qed.

(** what a connection that succeeds has checked *)
Record accepted (c : cfg) (s : st) (b : blk) : Prop := mkAccepted {
  a_link : linked s b = true;
  a_nd : NoDup (map th (b_txs b));
  a_has : forall t, In t (b_txs b) -> has_tx s t = false;
  a_okl : okl c (b_h b) (b_time b) (b_txs b);
  a_time : parent_time s <= b_time b
}.

Lemma connect_peer_cases : forall c s pool b,
  connect_peer c s pool b = (attach c s b, ENone) /\ accepted c s b /\ sig_stage pool (b_txs b) = true
  \/ fst (connect_peer c s pool b) = s.
Proof.
  intros c s pool b. unfold connect_peer.
  destruct (linked s b) eqn:El; cbn [negb]; [|right; reflexivity].
  destruct (sig_stage pool (b_txs b)) eqn:Es; cbn [negb]; [|right; reflexivity].
  destruct (Nat.eqb_spec (length (check_dup s (b_txs b))) (length (b_txs b))) as [Ed|Ed];
    cbn [negb]; [|right; reflexivity].
  destruct (all_true (exec_rc c (b_h b) (b_time b) (b_txs b))) eqn:Ef; cbn [negb]; [|right; reflexivity].
  destruct (Z.gtb_spec (parent_time s) (b_time b)) as [Et|Et]; [right; reflexivity|].
  apply check_dup_len_eq in Ed.
  assert (HA : accepted c s b).
  { constructor; try assumption.
    - rewrite <- Ed. apply check_dup_nd.
    - intros t Ht. rewrite <- Ed in Ht. exact (proj2 (check_dup_In s _ t Ht)).
    - apply exec_okl. exact Ef. }
  destruct (b_txs b); [right; reflexivity | left; auto].
Qed.

Lemma connect_self_cases : forall c s b,
  (exists kept, connect_self c s b = (attach c s (mkBlk (b_id b) (b_par b) (b_h b) (b_time b) kept), ENone, kept)
     /\ accepted c s (mkBlk (b_id b) (b_par b) (b_h b) (b_time b) kept) /\ incl kept (b_txs b))
  \/ fst (fst (connect_self c s b)) = s.
Proof.
  intros c s b. unfold connect_self. cbv zeta.
  destruct (linked s b) eqn:El; cbn [negb]; [|right; reflexivity].
  destruct (Z.gtb_spec (parent_time s) (b_time b)) as [Et|Et]; [right; reflexivity|].
  remember (keep (exec_rc c (b_h b) (b_time b) (check_dup s (b_txs b))) (check_dup s (b_txs b))) as kept eqn:Ek.
  assert (Hk : forall t, In t kept -> In t (b_txs b) /\ has_tx s t = false).
  { intros t Ht. rewrite Ek in Ht. apply check_dup_In. exact (keep_In _ _ t Ht). }
  assert (HA : accepted c s (mkBlk (b_id b) (b_par b) (b_h b) (b_time b) kept)).
  { constructor; cbn [b_txs b_h b_time]; try assumption.
    - rewrite Ek. apply keep_nd, check_dup_nd.
    - intros t Ht. exact (proj2 (Hk t Ht)).
    - rewrite Ek. apply keep_okl. }
  destruct kept as [|t0 k0]; [right; reflexivity|]. left. exists (t0 :: k0).
  split; [reflexivity|]. split; [exact HA|]. intros t Ht. exact (proj1 (Hk t Ht)).
Qed.

(** two steps on sets, read at one element (for the index and the window cache): the union [B = I + C] seen
    through [C = W], and the difference [N = B - O] where [B = M] is the disjoint sum of [O]
    and [G] *)
Lemma union_iff : forall B I C W M : Prop, (B <-> I \/ C) -> (C <-> W) -> (M <-> I \/ W) -> (B <-> M).
Proof.
  intros B I C W M H1 H2 H3. split; intro H.
  - apply H3. apply H1 in H. destruct H as [H|H]; [left; exact H | right; apply H2; exact H].
  - apply H1. apply H3 in H. destruct H as [H|H]; [left; exact H | right; apply H2; exact H].
Qed.

Lemma diff_iff : forall N B O M G : Prop,
  (N <-> B /\ ~ O) -> (B <-> M) -> (M <-> O \/ G) -> (O -> ~ G) -> (N <-> G).
Proof.
  intros N B O M G H1 H2 H3 H4. split; intro H.
  - apply H1 in H. destruct H as [Hb Hn]. apply H2, H3 in Hb. destruct Hb as [Hb|Hb]; [contradiction | exact Hb].
  - apply H1. split; [apply H2, H3; right; exact H | intro Ho; exact (H4 Ho H)].
Qed.

Section Invariant.
  Variable c : cfg.
  Variable U : list tx.
  Hypothesis Hcfg : cfg_ok c.
  Hypothesis HU : hash_ok U.

  Record Inv (s : st) : Prop := mkInv {
    inv_hts : hts (chain s);
    inv_U : forall t, In t (chain_txs (chain s)) -> In t U;
    inv_nd : NoDup (map th (chain_txs (chain s)));
    inv_idx : index_exact s;
    inv_cache : cache_exact c s;
    inv_time : forall x, In x (chain s) -> 0 < b_time x;
    inv_okl : forall x, In x (chain s) -> 0 < b_h x -> okl c (b_h x) (b_time x) (b_txs x);
    inv_gen : forall x, In x (chain s) -> b_h x = 0 -> b_txs x = []
  }.

  Lemma inv_init : forall g, gen_ok g -> Inv (init g).
  Proof.
    intros g [Hg1 [Hg2 Hg3]].
    assert (Hct : chain_txs [g] = []).
    { unfold chain_txs. cbn [flat_map]. rewrite Hg3. reflexivity. }
    constructor; unfold init; cbn [chain index cache].
    - cbn [hts length]. split; [exact Hg1 | exact I].
    - intros t Ht. rewrite Hct in Ht. destruct Ht.
    - rewrite Hct. constructor.
    - unfold index_exact. cbn [chain index]. intros h. rewrite Hct. reflexivity.
    - unfold cache_exact. cbn [chain cache]. intros e. split.
      + intros [].
      + intros [b [Hb [_ He]]]. destruct Hb as [Hb|[]]. subst b. rewrite Hg3 in He. exact He.
    - intros x [Hx|[]]. subst x. exact Hg2.
    - intros x [Hx|[]] Hh. subst x. lia.
    - intros x [Hx|[]] _. subst x. exact Hg3.
  Qed.

  Lemma inv_live : forall s x t, Inv s -> In x (chain s) -> 0 < b_h x -> In t (b_txs x) ->
    is_expire c t (b_h x) (b_time x) = false.
  Proof.
    intros s x t HI Hx Hh Ht.
    exact (okl_live c (b_h x) (b_time x) (b_txs x) Hh (inv_time s HI x Hx) (inv_okl s HI x Hx Hh) t Ht).
  Qed.

  Lemma inv_txs_pos : forall s x t, Inv s -> In x (chain s) -> In t (b_txs x) -> 0 < b_h x.
  Proof.
    intros s x t HI Hx Ht.
    pose proof (hts_range _ x (inv_hts s HI) Hx) as Hr.
    destruct (Z.eq_dec (b_h x) 0) as [E|E]; [|lia].
    rewrite (inv_gen s HI x Hx E) in Ht. destruct Ht.
  Qed.

  Lemma att_facts : forall s b, Inv s -> accepted c s b ->
    exists p r, chain s = p :: r /\ b_h b = b_h p + 1 /\ 0 <= b_h p
                /\ b_h p = Z.of_nat (length r) /\ 0 < b_time b /\ tip_h s = b_h p.
  Proof.
    intros s b HI HA.
    pose proof (a_link c s b HA) as Hl. pose proof (a_time c s b HA) as Ht.
    pose proof (inv_hts s HI) as Hh. pose proof (inv_time s HI) as Hti.
    unfold linked, tip_of in Hl. unfold parent_time, tip_of in Ht. unfold tip_h.
    destruct (chain s) as [|p r] eqn:Hc; cbn [hd_error] in Hl, Ht; [discriminate|].
    apply andb_true_iff in Hl. destruct Hl as [_ Hl]. apply Z.eqb_eq in Hl.
    cbn [hts] in Hh. destruct Hh as [Hh1 Hh2].
    assert (Hp : 0 < b_time p) by (apply Hti; left; reflexivity).
    exists p, r. repeat split; try assumption; lia.
  Qed.

  Lemma attach_fresh : forall s b t t', Inv s -> accepted c s b -> incl (b_txs b) U ->
    In t (b_txs b) -> In t' (chain_txs (chain s)) -> th t = th t' -> False.
  Proof.
    intros s b t t' HI HA HbU Ht Ht' He.
    destruct (att_facts s b HI HA) as [p [r [Hc [Hb [Hp0 [Hpl [Hbt Htip]]]]]]].
    pose proof (a_has c s b HA t Ht) as Hhas.
    assert (Hbp0 : 0 < b_h b) by lia.
    pose proof (okl_live c (b_h b) (b_time b) (b_txs b) Hbp0 Hbt (a_okl c s b HA) t Ht) as Hchk.
    assert (HtU : In t U) by exact (HbU t Ht).
    assert (HtU' : In t' U) by (apply (inv_U s HI); exact Ht').
    destruct (HU t t' HtU HtU') as [Hk _]. destruct (Hk He) as [Hk1 Hk2].
    unfold has_tx in Hhas.
    destruct (Z.gtb_spec (tx_height (texp t)) 0) as [Eg|Eg].
    - (* t' has the TxHeight of t and was allowed at its block x as t is at b: x is within
         low + high of the tip, so the window cache holds the entry has_tx looked for *)
      apply in_chain_txs in Ht'. destruct Ht' as [x [Hx Hxt]].
      assert (Hin : In (tx_height (texp t), tk t) (cache s)).
      { apply (inv_cache s HI). exists x. split; [exact Hx|]. split.
        - pose proof (inv_txs_pos s x t' HI Hx Hxt) as Hxp.
          pose proof (inv_live s x t' HI Hx Hxp Hxt) as Hxc.
          assert (Hg' : tx_height (texp t') > 0) by (rewrite <- Hk2; lia).
          pose proof (live_window c (b_h x) (b_time x) t' Hxc Hg') as Hw'.
          assert (Hg : tx_height (texp t) > 0) by lia.
          pose proof (live_window c (b_h b) (b_time b) t Hchk Hg) as Hw.
          rewrite <- Hk2 in Hw'. lia.
        - apply ents_In. exists t'. split; [exact Hxt|]. rewrite <- Hk2, <- Hk1.
          split; [lia | reflexivity]. }
      apply memE_In in Hin. congruence.
    - assert (Hin : In (th t) (index s)).
      { apply (inv_idx s HI). rewrite He. apply in_map. exact Ht'. }
      apply memN_In in Hin. congruence.
  Qed.

  Lemma att_nd : forall s b, Inv s -> accepted c s b -> incl (b_txs b) U -> NoDup (map th (chain_txs (b :: chain s))).
  Proof.
    intros s b HI HA Hin. rewrite chain_txs_cons, map_app. apply nd_app_intro.
    - exact (a_nd c s b HA).
    - exact (inv_nd s HI).
    - intros h H1 H2. apply in_map_iff in H1. destruct H1 as [t [Et Ht]].
      apply in_map_iff in H2. destruct H2 as [t' [Et' Ht']].
      apply (attach_fresh s b t t' HI HA Hin Ht Ht'). congruence.
  Qed.

  Lemma att_U : forall s b, Inv s -> incl (b_txs b) U ->
    forall t, In t (chain_txs (b :: chain s)) -> In t U.
  Proof.
    intros s b HI Hin t Ht. rewrite chain_txs_cons in Ht. apply in_app_or in Ht.
    destruct Ht as [Ht|Ht]; [exact (Hin t Ht) | exact (inv_U s HI t Ht)].
  Qed.

  Lemma att_hts : forall s b, Inv s -> accepted c s b -> hts (b :: chain s).
  Proof.
    intros s b HI HA.
    destruct (att_facts s b HI HA) as [p [r [Hc [Hb [Hp0 [Hpl [Hbt Htip]]]]]]].
    cbn [hts]. split; [|exact (inv_hts s HI)].
    rewrite Hc. cbn [length]. rewrite Nat2Z.inj_succ. lia.
  Qed.

  Definition in_win (l : list blk) (lo : Z) (e : entry) : Prop :=
    exists b, In b l /\ lo < b_h b /\ In e (ents (b_txs b)).

  Lemma win_cons : forall b l lo e, lo < b_h b ->
    (in_win (b :: l) lo e <-> In e (ents (b_txs b)) \/ in_win l lo e).
  Proof.
    intros b l lo e Hlo. split.
    - intros [x [[Hx|Hx] H]]; [subst x; left; exact (proj2 H) | right; exists x; split; assumption].
    - intros [H|[x [Hx H]]]; [exists b | exists x]; (split; [|auto]); [left; reflexivity | right; exact Hx].
  Qed.

  Lemma win_lower : forall l d x e, hts l -> block_at l d = Some x ->
    (in_win l (d - 1) e <-> In e (ents (b_txs x)) \/ in_win l d e).
  Proof.
    intros l d x e Hh Hx. apply block_at_some in Hx. destruct Hx as [Hx Hd]. split.
    - intros [y [Hy [Hlo He]]]. destruct (Z.eq_dec (b_h y) d) as [E|E].
      + left. rewrite <- (hts_uniq l y x Hh Hy Hx); [exact He | congruence].
      + right. exists y. split; [exact Hy|]. split; [lia | exact He].
    - intros [He|[y [Hy [Hlo He]]]]; [exists x | exists y]; (split; [assumption|]; split; [lia | assumption]).
  Qed.

  Lemma win_neg : forall l d e, hts l -> d < 0 -> (in_win l (d - 1) e <-> in_win l d e).
  Proof.
    intros l d e Hh Hd.
    split; intros [y [Hy [Hlo He]]]; exists y; (split; [exact Hy|]; split; [|exact He]); [|lia].
    pose proof (hts_range l y Hh Hy). lia.
  Qed.

  (** an entry is in a window of the chain through the one block that holds it: 16-byte
      prefixes determine hashes, and hashes are unique on the chain *)
  Lemma win_holder : forall l x e l' lo,
    NoDup (map th (chain_txs l)) -> (forall t, In t (chain_txs l) -> In t U) ->
    In x l -> In e (ents (b_txs x)) -> incl l' l -> in_win l' lo e -> In x l' /\ lo < b_h x.
  Proof.
    intros l x e l' lo Hnd HinU Hx Hex Hl [y [Hy [Hlo Hey]]].
    apply ents_In in Hex. destruct Hex as [t [Ht [_ Ee]]].
    apply ents_In in Hey. destruct Hey as [t' [Ht' [_ Ee']]].
    assert (Hk : tk t = tk t') by congruence.
    assert (HtU : In t U) by (apply HinU, in_chain_txs; exists x; split; assumption).
    assert (HtU' : In t' U) by (apply HinU, in_chain_txs; exists y; split; [apply Hl|]; assumption).
    destruct (HU t t' HtU HtU') as [_ Hth].
    rewrite (nd_flat_same l x y t t' Hnd Hx (Hl y Hy) Ht Ht' (Hth Hk)). split; assumption.
  Qed.

  (** the new block's entries come in, those of the block that leaves the window go *)
  Lemma att_cache : forall s b, Inv s -> accepted c s b -> incl (b_txs b) U -> cache_exact c (attach c s b).
  Proof.
    intros s b HI HA Hin.
    destruct (att_facts s b HI HA) as [p [r [Hc [Hb [Hp0 [Hpl [Hbt Htip]]]]]]].
    pose proof (att_hts s b HI HA) as Hh'.
    destruct Hcfg as [Hlow Hhigh].
    unfold cache_exact, attach, tip_h. cbn [chain cache]. intros e.
    change (In e (cache_add c (b :: chain s) b (cache s)) <-> in_win (b :: chain s) (b_h b - (c_low c + c_high c)) e).
    unfold cache_add. cbv zeta. set (dh := b_h b - c_high c - c_low c).
    replace (b_h b - (c_low c + c_high c)) with dh by (unfold dh; lia).
    assert (H1 : In e (cadd_all (ents (b_txs b)) (cache s)) <-> in_win (b :: chain s) (dh - 1) e).
    { assert (Hca : In e (cache s) <-> in_win (chain s) (tip_h s - (c_low c + c_high c)) e)
        by exact (inv_cache s HI e).
      replace (tip_h s - (c_low c + c_high c)) with (dh - 1) in Hca by (unfold dh; lia).
      apply (union_iff _ _ _ _ _ (cadd_all_In _ _ e) Hca), win_cons. unfold dh. lia. }
    destruct (Z.geb_spec dh 0) as [Ed|Ed].
    - assert (Hr : 0 <= dh < Z.of_nat (length (b :: chain s))).
      { rewrite Hc. cbn [length]. rewrite !Nat2Z.inj_succ. unfold dh. lia. }
      destruct (block_at_ex _ _ Hh' Hr) as [d Hd]. rewrite Hd.
      apply (diff_iff _ _ _ _ _ (cdel_all_In _ _ e) H1 (win_lower _ dh d e Hh' Hd)). intros He Hw.
      apply block_at_some in Hd. destruct Hd as [Hdin Hdh].
      destruct (win_holder _ d e _ dh (att_nd s b HI HA Hin) (att_U s b HI Hin) Hdin He (incl_refl _) Hw). lia.
    - exact (iff_trans H1 (win_neg _ dh e Hh' Ed)).
  Qed.

  Lemma att_inv : forall s b, Inv s -> accepted c s b -> incl (b_txs b) U -> Inv (attach c s b).
  Proof.
    intros s b HI HA Hin.
    destruct (att_facts s b HI HA) as [p [r [Hc [Hb [Hp0 [Hpl [Hbt Htip]]]]]]].
    constructor; [| | | |exact (att_cache s b HI HA Hin)| | |]; unfold attach; cbn [chain].
    - exact (att_hts s b HI HA).
    - exact (att_U s b HI Hin).
    - exact (att_nd s b HI HA Hin).
    - unfold index_exact. cbn [chain index]. intros h. rewrite chain_txs_cons, map_app.
      exact (union_iff _ _ _ _ _ (iadd_all_In _ _ h) (inv_idx s HI h) (in_app_iff _ _ h)).
    - intros x [Hx|Hx].
      + subst x. exact Hbt.
      + exact (inv_time s HI x Hx).
    - intros x [Hx|Hx] Hh.
      + subst x. exact (a_okl c s b HA).
      + exact (inv_okl s HI x Hx Hh).
    - intros x [Hx|Hx] Hh.
      + subst x. lia.
      + exact (inv_gen s HI x Hx Hh).
  Qed.

  (** the entries of the block that re-enters the window come back, the tip's entries go *)
  Lemma disc_cache : forall b q r i ca i', Inv (mkSt (b :: q :: r) i ca) ->
    cache_exact c (mkSt (q :: r) i' (cache_del c (b :: q :: r) (b_h b) ca)).
  Proof.
    intros b q r i ca i' HI.
    pose proof (inv_hts _ HI) as Hh'. cbn [chain] in Hh'.
    destruct Hh' as [Hb0 Hh2]. pose proof (proj1 Hh2) as Hq.
    assert (Hh' : hts (b :: q :: r)) by exact (conj Hb0 Hh2).
    cbn [length] in Hb0. rewrite Nat2Z.inj_succ in Hb0.
    destruct Hcfg as [Hlow Hhigh].
    unfold cache_exact, tip_h. cbn [chain cache]. intros e.
    change (In e (cache_del c (b :: q :: r) (b_h b) ca) <-> in_win (q :: r) (b_h q - (c_low c + c_high c)) e).
    unfold cache_del. cbv zeta. set (ah := b_h b - c_high c - c_low c).
    replace (b_h q - (c_low c + c_high c)) with (ah - 1) by (unfold ah; lia).
    rewrite (block_at_head b (q :: r) (b_h b) eq_refl).
    assert (Hca : In e ca <-> in_win (b :: q :: r) ah e).
    { pose proof (inv_cache _ HI e) as Hca. unfold tip_h in Hca. cbn [chain cache] in Hca.
      replace ah with (b_h b - (c_low c + c_high c)) by (unfold ah; lia). exact Hca. }
    assert (H2 : in_win (b :: q :: r) (ah - 1) e <-> In e (ents (b_txs b)) \/ in_win (q :: r) (ah - 1) e)
      by (apply win_cons; unfold ah; lia).
    assert (H4 : In e (ents (b_txs b)) -> ~ in_win (q :: r) (ah - 1) e).
    { intros He Hw.
      destruct (win_holder _ b e _ _ (inv_nd _ HI) (inv_U _ HI) (or_introl eq_refl) He (incl_tl b (incl_refl _)) Hw)
        as [Hbin _].
      pose proof (hts_range _ b Hh2 Hbin) as Hr. cbn [length] in Hr. rewrite Nat2Z.inj_succ in Hr. lia. }
    destruct (Z.geb_spec ah 0) as [Ea|Ea].
    - assert (Hr : 0 <= ah < Z.of_nat (length (b :: q :: r))).
      { cbn [length]. rewrite !Nat2Z.inj_succ. unfold ah. lia. }
      destruct (block_at_ex _ _ Hh' Hr) as [a Ha]. rewrite Ha.
      refine (diff_iff _ _ _ _ _ (cdel_all_In _ _ e) _ H2 H4).
      exact (union_iff _ _ _ _ _ (cadd_all_In _ _ e) Hca (win_lower _ ah a e Hh' Ha)).
    - refine (diff_iff _ _ _ _ _ (cdel_all_In _ _ e) _ H2 H4).
      exact (iff_trans Hca (iff_sym (win_neg _ ah e Hh' Ea))).
  Qed.

  Lemma disc_inv : forall s, Inv s -> Inv (disconnect c s).
  Proof.
    intros [l i ca] HI. unfold disconnect. cbn [chain index cache].
    destruct l as [|b [|q r]]; [exact HI | exact HI |].
    pose proof (inv_hts _ HI) as Hh'. cbn [chain] in Hh'.
    pose proof (inv_nd _ HI) as Hnd. cbn [chain] in Hnd.
    rewrite chain_txs_cons, map_app in Hnd.
    constructor; cbn [chain].
    - exact (proj2 Hh').
    - intros t Ht. apply (inv_U _ HI). cbn [chain]. rewrite chain_txs_cons.
      apply in_or_app. right. exact Ht.
    - exact (nd_app_r _ _ _ Hnd).
    - unfold index_exact. cbn [chain index]. intros h.
      pose proof (inv_idx _ HI h) as Hi. cbn [chain index] in Hi. rewrite chain_txs_cons, map_app in Hi.
      refine (diff_iff _ _ _ _ _ (idel_all_In _ _ h) Hi (in_app_iff _ _ h) _).
      intros H1 H2. exact (nd_app_disj _ _ _ h Hnd H1 H2).
    - apply (disc_cache b q r i ca). exact HI.
    - intros x Hx. apply (inv_time _ HI). cbn [chain]. right. exact Hx.
    - intros x Hx Hh. apply (inv_okl _ HI); [cbn [chain]; right; exact Hx | exact Hh].
    - intros x Hx Hh. apply (inv_gen _ HI); [cbn [chain]; right; exact Hx | exact Hh].
  Qed.

  Lemma peer_inv : forall s pool b, Inv s -> incl (b_txs b) U ->
    Inv (fst (connect_peer c s pool b)).
  Proof.
    intros s pool b HI Hincl.
    destruct (connect_peer_cases c s pool b) as [[E [HA _]]|E]; rewrite E; [|exact HI].
    exact (att_inv s b HI HA Hincl).
  Qed.

  Lemma self_inv : forall s b, Inv s -> incl (b_txs b) U ->
    Inv (fst (fst (connect_self c s b))).
  Proof.
    intros s b HI Hincl.
    destruct (connect_self_cases c s b) as [[kept [E [HA Hk]]]|E]; rewrite E; [|exact HI].
    apply (att_inv s _ HI HA). intros t Ht. exact (Hincl t (Hk t Ht)).
  Qed.

  Lemma step_inv : forall s o, Inv s -> incl (op_txs o) U -> Inv (step c s o).
  Proof.
    intros s o HI Hincl. destruct o as [pool b|b|]; cbn [step op_txs] in *.
    - apply peer_inv; assumption.
    - apply self_inv; assumption.
    - apply disc_inv. exact HI.
  Qed.

  Lemma run_inv : forall ops s, Inv s -> (forall o, In o ops -> incl (op_txs o) U) ->
    Inv (run c s ops).
  Proof.
    intros ops s HI Hall. apply (fold_left_inv _ _ (step c) Inv ops); [|exact HI].
    intros s' o Ho HI'. exact (step_inv s' o HI' (Hall o Ho)).
  Qed.
End Invariant.

Lemma all_inv : forall c g ops, cfg_ok c -> gen_ok g -> hash_ok (ops_txs ops) ->
  Inv c (ops_txs ops) (run c (init g) ops).
Proof.
  intros c g ops Hc Hg Hh. apply run_inv; [exact Hc | exact Hh | apply inv_init; exact Hg |].
  intros o Ho t Ht. unfold ops_txs. apply in_flat_map. exists o. split; assumption.
Qed.

Theorem unique_all : forall c g ops, cfg_ok c -> gen_ok g -> hash_ok (ops_txs ops) ->
  spec_unique (chain (run c (init g) ops)) = true.
Proof.
  intros c g ops Hc Hg Hh. unfold spec_unique. apply nodupN_NoDup.
  exact (inv_nd _ _ _ (all_inv c g ops Hc Hg Hh)).
Qed.

Theorem checked_all : forall c g ops, cfg_ok c -> gen_ok g -> hash_ok (ops_txs ops) ->
  spec_checked c (chain (run c (init g) ops)) = true.
Proof.
  intros c g ops Hc Hg Hh. pose proof (all_inv c g ops Hc Hg Hh) as HI.
  unfold spec_checked. apply forallb_forall. intros x Hx.
  destruct (Z.leb_spec (b_h x) 0) as [E|E]; cbn [orb]; [reflexivity|].
  exact (okl_spec_block c (b_h x) (b_time x) (b_txs x) E (inv_time _ _ _ HI x Hx) (inv_okl _ _ _ HI x Hx E)).
Qed.

(** every transaction of every non-genesis block, group members included, is allowed by its own
    Expire at the block's height and time *)
Theorem members_unexpired_all : forall c g ops, cfg_ok c -> gen_ok g -> hash_ok (ops_txs ops) ->
  forall b t, In b (chain (run c (init g) ops)) -> 0 < b_h b -> In t (b_txs b) ->
    spec_live c (texp t) (b_h b) (b_time b) = true.
Proof.
  intros c g ops Hc Hg Hh b t Hb Hpos Ht. pose proof (all_inv c g ops Hc Hg Hh) as HI.
  apply live_of_not_expire. exact (inv_live c _ _ b t HI Hb Hpos Ht).
Qed.

(** a transaction with a GroupCount never stands on the chain without its whole group *)
Theorem members_whole_all : forall c g ops, cfg_ok c -> gen_ok g -> hash_ok (ops_txs ops) ->
  forall b t, In b (chain (run c (init g) ops)) -> In t (b_txs b) -> tgc t <> 0 ->
    exists pre grp post, b_txs b = pre ++ grp ++ post /\ In t grp /\ spec_group c grp = true.
Proof.
  intros c g ops Hc Hg Hh b t Hb Ht Hne. pose proof (all_inv c g ops Hc Hg Hh) as HI.
  pose proof (inv_txs_pos c _ _ b t HI Hb Ht) as Hpos.
  exact (okl_whole c (b_h b) (b_time b) (b_txs b) (inv_okl _ _ _ HI b Hb Hpos) t Ht Hne).
Qed.

Theorem cache_exact_all : forall c g ops, cfg_ok c -> gen_ok g -> hash_ok (ops_txs ops) ->
  cache_exact c (run c (init g) ops).
Proof.
  intros c g ops Hc Hg Hh. exact (inv_cache _ _ _ (all_inv c g ops Hc Hg Hh)).
Qed.

Theorem index_exact_all : forall c g ops, cfg_ok c -> gen_ok g -> hash_ok (ops_txs ops) ->
  index_exact (run c (init g) ops).
Proof.
  intros c g ops Hc Hg Hh. exact (inv_idx _ _ _ (all_inv c g ops Hc Hg Hh)).
Qed.

Print Assumptions unique_all.
Print Assumptions checked_all.
Print Assumptions cache_exact_all.
Print Assumptions index_exact_all.
