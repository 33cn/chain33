(** C28 — the signature claim against the concrete pool: refuted at full strength (a pooled
    transaction's body under another key; the same through the first member of a pooled group),
    the candidate repair (skip verification only for the pooled transaction itself) proved
    without a guard, and non-trivial histories with groups satisfying every hypothesis. *)
From Coq Require Import List ZArith NArith Bool Lia.
From C33 Require Import C28.Model C28.Spec C28.Defs C28.ProofsLib C28.ProofsGrp C28.Proofs C28.ProofsSig C28.ProofsNode.
Import ListNotations.
Open Scope Z_scope.

(** ** the refutation: T is offered and accepted; a peer block carries T's body with another
    account's key and a signature that does not verify *)
Definition nw_T : tx := mkTx 1 1 1 0 100000 237 33 true 0 0 0.
Definition nw_ops : list nop := [NPool [nw_T]; NPeer (mkBlk 2 1 1 1514533395 [w_forged])].

Lemma fh_ok_pairs : forall U, (forall t1 t2, In t1 U -> In t2 U -> tfull t1 = tfull t2 -> t1 = t2) -> fh_ok U.
Proof. intros U H t1 t2 H1 H2 E. rewrite (H t1 t2 H1 H2 E). reflexivity. Qed.

Theorem nall_signed_refuted : ~ nall_signed_full.
Proof.
  intro H. specialize (H w_cfg w_gen nw_ops w_gen_ok).
  assert (F : fh_ok (nall_txs nw_ops)).
  { apply fh_ok_pairs, (inj_decoded _ _ _ (fun n => if N.eqb n 1 then nw_T else w_forged)). repeat constructor. }
  specialize (H F eq_refl eq_refl). vm_compute in H. discriminate H.
Qed.

(** the guard of the partial theorem fails on the witness, as it must *)
Example nw_guard_fails : nguard w_cfg (ninit w_gen) nw_ops = false.
Proof. reflexivity. Qed.

(** ** a group: the first member pays, the second is bound to a height window *)
Definition gH : tx := mkTx 10 10 10 0 200000 300 33 true 2 10 11.
Definition gM : tx := mkTx 11 11 11 (TxHeightFlag + 3) 0 250 33 true 2 10 0.
Definition gH_forged : tx := mkTx 10 10 12 0 200000 300 33 false 2 10 11.
Definition gM_forged : tx := mkTx 11 11 13 (TxHeightFlag + 3) 0 250 33 false 2 10 0.

(** the group is pooled; a block carries it with a mis-signed first member: the pool knows the
    Hash(), nothing is verified, the block is accepted *)
Example forged_group_head_accepted :
  let n := nrun w_cfg (ninit w_gen) [NPool [gH; gM]; NPeer (mkBlk 2 1 1 1514533395 [gH_forged; gM])] in
  map b_id (chain (n_st n)) = [2%N; 1%N] /\ spec_signed (chain (n_st n)) = false.
Proof. vm_compute. split; reflexivity. Qed.

(** a mis-signed later member is refused: the pool knows the group by its first member only *)
Example forged_group_member_refused :
  snd (connect_peer w_cfg (init w_gen) (pool_hashes [[gH; gM]]) (mkBlk 2 1 1 1514533395 [gH; gM_forged])) = ESign.
Proof. reflexivity. Qed.

(** a group with a member that is expired at the block's height is refused as a whole from a
    peer and dropped as a whole by the producer's path, whatever its Header looks like *)
Definition gM_old : tx := mkTx 14 14 14 1 0 250 33 true 2 10 0.
Definition gH_old : tx := mkTx 15 15 15 0 200000 300 33 true 2 15 14.
Example expired_member_refused :
  snd (connect_peer w_cfg (init w_gen) [] (mkBlk 2 1 1 1514533395 [gH_old; gM_old])) = EExec
  /\ snd (connect_self w_cfg (init w_gen) (mkBlk 2 1 1 1514533395 [gH_old; gM_old; nw_T])) = [nw_T].
Proof. vm_compute. split; reflexivity. Qed.

(** a history that satisfies every hypothesis of the partial theorems: the group is pooled,
    arrives in a block with its own signatures, its block is replaced, the mempool takes the
    group back, and it is connected again on the other branch; the height-bound member leaves
    and re-enters the window cache *)
Definition gn_ops : list nop :=
  [NPool [gH; gM];
   NPeer (mkBlk 2 1 1 1514533395 [g_t1]);
   NPeer (mkBlk 3 2 2 1514533396 [gH; gM]);
   NDisc;
   NSync [10%N];
   NSelf (mkBlk 4 2 2 1514533397 [gH; gM; g_t1])].

Example gn_shape :
  let n := nrun w_cfg (ninit w_gen) gn_ops in
  map b_id (chain (n_st n)) = [4%N; 2%N; 1%N]
  /\ map (map tfull) (map b_txs (chain (n_st n))) = [[10%N; 11%N]; [1%N]; []]
  /\ cache (n_st n) = [(3, 11%N)] /\ n_pool n = [] /\ n_limbo n = []
  /\ n_pool (nrun w_cfg (ninit w_gen) (firstn 5 gn_ops)) = [[gH; gM]].
Proof. vm_compute. repeat split. Qed.

Example gn_hyps :
  cfg_ok w_cfg /\ gen_ok w_gen /\ hash_ok (nops_txs gn_ops) /\ fh_ok (nall_txs gn_ops)
  /\ nself_signed gn_ops = true /\ noffers_signed gn_ops = true /\ nguard w_cfg (ninit w_gen) gn_ops = true.
Proof.
  pose (g := fun n => if N.eqb n 10 then gH else if N.eqb n 11 then gM else g_t1).
  split; [exact w_cfg_ok|]. split; [exact w_gen_ok|].
  split; [apply hash_ok_inj; apply (inj_decoded _ _ _ g); repeat constructor|].
  split; [apply fh_ok_pairs, (inj_decoded _ _ _ g); repeat constructor|].
  vm_compute. repeat split.
Qed.

(** ** the candidate repair: verification is skipped only for a transaction the pool holds with
    the same FullHash() *)
Definition sig_stage_nfix (p : list pent) (txs : list tx) : bool :=
  forallb (fun t => pool_same p t || tsig t) txs.

Definition connect_peer_nfix (c : cfg) (s : st) (p : list pent) (b : blk) : st * err :=
  if sig_stage_nfix p (b_txs b) then connect_peer c s (map th (b_txs b)) b
  else (s, if linked s b then ESign else ELink).

Definition nstep_fix (c : cfg) (n : node) (o : nop) : node :=
  match o with
  | NPeer b =>
      let '(s', e) := connect_peer_nfix c (n_st n) (n_pool n) b in
      mkNode s' (if is_ok e then pool_after c b (n_pool n) else n_pool n) (n_limbo n)
  | _ => nstep c n o
  end.

Definition nrun_fix (c : cfg) (n : node) (ops : list nop) : node := fold_left (nstep_fix c) ops n.

Lemma ns_step_fix : forall c U n o, fh_ok U -> NS U n -> incl (nall_op_txs o) U ->
  (match o with NSelf b => forallb tsig (b_txs b) | _ => true end) = true ->
  (match o with NPool e => forallb tsig e | _ => true end) = true ->
  NS U (nstep_fix c n o).
Proof.
  intros c U n o Hfh HN Hincl Hsg Hof.
  destruct o as [b|b| |e|hs];
    try (apply (ns_step c U Hfh n _ HN Hincl eq_refl Hsg Hof)).
  cbn [nstep_fix nall_op_txs] in *. unfold connect_peer_nfix.
  destruct (sig_stage_nfix (n_pool n) (b_txs b)) eqn:Hst.
  - apply ns_peer; [exact HN|]. intros _ t Ht. split; [|exact (Hincl t Ht)].
    unfold sig_stage_nfix in Hst. rewrite forallb_forall in Hst. specialize (Hst t Ht).
    apply orb_true_iff in Hst. destruct Hst as [Hst|Hst]; [|exact Hst].
    exact (pool_same_signed U (n_pool n) t Hfh (ns_pool U n HN) (Hincl t Ht) Hst).
  - constructor; cbn [n_st n_pool n_limbo];
      [exact (ns_chain U n HN) | | exact (ns_limbo U n HN)].
    destruct (linked (n_st n) b); cbn [is_ok]; exact (ns_pool U n HN).
Qed.

Lemma ns_run_fix : forall c U, fh_ok U -> forall nops n, NS U n -> incl (nall_txs nops) U ->
  nself_signed nops = true -> noffers_signed nops = true -> NS U (nrun_fix c n nops).
Proof.
  intros c U Hfh nops n HN Hincl Hs Ho. unfold nself_signed, noffers_signed in *. rewrite forallb_forall in Hs, Ho.
  apply (fold_left_inv _ _ (nstep_fix c) (NS U) nops); [|exact HN].
  intros n' o Hin HN'. apply (ns_step_fix c U n' o Hfh HN'); [|exact (Hs o Hin)|exact (Ho o Hin)].
  intros t Ht. apply Hincl, in_flat_map. exists o. split; assumption.
Qed.

Theorem nfix_all_signed : forall c g nops, gen_ok g -> fh_ok (nall_txs nops) ->
  nself_signed nops = true -> noffers_signed nops = true ->
  spec_signed (chain (n_st (nrun_fix c (ninit g) nops))) = true
  /\ forall e, In e (n_pool (nrun_fix c (ninit g) nops)) -> forallb tsig e = true.
Proof.
  intros c g nops Hg Hfh Hs Ho.
  pose proof (ns_run_fix c _ Hfh nops (ninit g) (ns_init _ g Hg) (incl_refl _) Hs Ho) as HN.
  split.
  - apply signed_spec. exact (ns_signed _ _ HN).
  - intros e He. apply forallb_forall. intros t Ht. exact (proj1 (ns_pool _ _ HN e t He Ht)).
Qed.

(** under the repair both witnesses are refused although the pool holds the body *)
Example nfix_refuses_witnesses :
  map b_id (chain (n_st (nrun_fix w_cfg (ninit w_gen) nw_ops))) = [1%N]
  /\ map b_id (chain (n_st (nrun_fix w_cfg (ninit w_gen)
        [NPool [gH; gM]; NPeer (mkBlk 2 1 1 1514533395 [gH_forged; gM])]))) = [1%N].
Proof. vm_compute. split; reflexivity. Qed.

(** and the honest history runs exactly as before *)
Example nfix_same_on_honest :
  n_st (nrun_fix w_cfg (ninit w_gen) gn_ops) = n_st (nrun w_cfg (ninit w_gen) gn_ops).
Proof. vm_compute. reflexivity. Qed.
