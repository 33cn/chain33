(** C16 extension — the general decoder inverts the encoder:
    [wire_decode (encode_tx t) = Some (plain t)] for every transaction Go can
    hold (int ranges, valid UTF-8 in [to], lengths below 2^64), also with
    canonical unknown fields behind the declared ones.  The encoding of a
    message is [unk_bytes] of a list of canonical fields, which the parser
    reads back ([ProofsWire4.parse_fields_simple]); folding that list with the
    message's step function rebuilds the message field by field. *)
From Coq Require Import List NArith ZArith Lia Bool.
From C33 Require Import Lib.Harness C16.Proto C16.Model C16.Spec C16.Proofs
                        C16.ProtoUnknown C16.ModelUnknown C16.ProofsUnknown
                        C16.ProofsWire C16.ProofsWire4.
Import ListNotations.
Open Scope list_scope.

Lemma s32_u64 z : int32b z = true -> s32 (u64 z) = z.
Proof.
  intros [H1%Z.leb_le H2%Z.ltb_lt]%andb_true_iff. unfold s32.
  assert (E : Z.of_N (u64 z mod 2 ^ 32) = (z mod 2 ^ 32)%Z).
  { rewrite N2Z.inj_mod, Z_of_u64. symmetry.
    apply Znumtheory.Zmod_div_mod; [reflexivity|reflexivity|exists (2 ^ 32)%Z; reflexivity]. }
  change (2 ^ 32)%Z with (2 * 2 ^ 31)%Z in E. rewrite (mod_signed (2 ^ 31) z) in E by lia.
  set (m := u64 z mod 2 ^ 32) in *.
  destruct (N.ltb_spec m (2 ^ 31)); destruct (Z.ltb_spec z 0); lia.
Qed.

Definition sig_len_okb (s : sigt) : bool := len_okb (s_pub s) && len_okb (s_sig s).

Definition fields_sig (s : sigt) : list wfield :=
  f_int 1 (s_ty s) ++ f_bytes 2 (s_pub s) ++ f_bytes 3 (s_sig s).

Lemma encode_sig_fields s : encode_sig s = unk_bytes (fields_sig s).
Proof.
  unfold encode_sig, fields_sig. rewrite !unk_bytes_app, <- enc_int_fields, <- !enc_bytes_fields.
  reflexivity.
Qed.

Lemma simple_fields_sig s : sig_len_okb s = true -> forallb simple_fieldb (fields_sig s) = true.
Proof.
  intros [L1 L2]%andb_true_iff. unfold fields_sig.
  rewrite !forallb_app, simple_f_int, !simple_f_bytes by (reflexivity || assumption). reflexivity.
Qed.

Lemma fold_sig s :
  wf_sigb s = true -> fold_left step_sig (fields_sig s) (Some (sig0, [])) = Some (s, []).
Proof.
  intro W. unfold wf_sigb in W. destruct s as [ty pk sg]. cbn [s_ty s_pub s_sig] in *.
  unfold fields_sig, f_int. cbn [s_ty s_pub s_sig].
  destruct (Z.eqb_spec ty 0) as [->|Nz]; destruct pk as [|p0 pk]; destruct sg as [|g0 sg];
    cbn; rewrite ?(s32_u64 ty W); reflexivity.
Qed.

Lemma merge_sig_encode s :
  wf_sigb s = true -> sig_len_okb s = true -> merge_sig None [] (encode_sig s) = Some (s, []).
Proof.
  intros W L. unfold merge_sig.
  rewrite encode_sig_fields, parse_fields_simple by (apply simple_fields_sig, L). apply fold_sig, W.
Qed.

Definition tx_len_okb (t : tx) : bool :=
  len_okb (execer t) && len_okb (payload t) &&
  match signature t with Some s => sig_len_okb s && len_okb (encode_sig s) | None => true end &&
  len_okb (to_ t) && len_okb (header t) && len_okb (next t).

(** everything Go can hold *)
Definition wire_okb (t : tx) : bool := wf_txb t && utf8_valid (to_ t) && tx_len_okb t.

Definition fields_tx (t : tx) : list wfield :=
  f_bytes 1 (execer t) ++ f_bytes 2 (payload t) ++
  f_msg 3 (option_map encode_sig (signature t)) ++
  f_int 4 (fee t) ++ f_int 5 (expire t) ++ f_int 6 (nonce t) ++
  f_bytes 7 (to_ t) ++ f_int 8 (groupCount t) ++
  f_bytes 9 (header t) ++ f_bytes 10 (next t) ++ f_int 11 (chainID t).

Lemma encode_tx_fields t : encode_tx t = unk_bytes (fields_tx t).
Proof.
  unfold encode_tx, fields_tx.
  rewrite !unk_bytes_app, <- !enc_bytes_fields, <- !enc_int_fields, <- enc_msg_fields. reflexivity.
Qed.

Lemma simple_fields_tx t : tx_len_okb t = true -> forallb simple_fieldb (fields_tx t) = true.
Proof.
  unfold tx_len_okb. intro L. split_andb. unfold fields_tx.
  rewrite !forallb_app, !simple_f_bytes, !simple_f_int by (reflexivity || assumption).
  rewrite simple_f_msg; [reflexivity|reflexivity|].
  destruct (signature t); [split_andb; assumption|reflexivity].
Qed.

(** [step_tx] on the fields of one declared field whose value is still the default *)
Lemma st_execer b p s f x n o g hd nx c su u :
  fold_left step_tx (f_bytes 1 b) (Some (mk_dtx (mk_tx [] p s f x n o g hd nx c) su u)) =
  Some (mk_dtx (mk_tx b p s f x n o g hd nx c) su u).
Proof. destruct b; reflexivity. Qed.

Lemma st_payload e b s f x n o g hd nx c su u :
  fold_left step_tx (f_bytes 2 b) (Some (mk_dtx (mk_tx e [] s f x n o g hd nx c) su u)) =
  Some (mk_dtx (mk_tx e b s f x n o g hd nx c) su u).
Proof. destruct b; reflexivity. Qed.

Lemma st_signature e p s f x n o g hd nx c u :
  wf_optsig s = true -> match s with Some s => sig_len_okb s | None => true end = true ->
  fold_left step_tx (f_msg 3 (option_map encode_sig s))
            (Some (mk_dtx (mk_tx e p None f x n o g hd nx c) [] u)) =
  Some (mk_dtx (mk_tx e p s f x n o g hd nx c) [] u).
Proof.
  intros W L. destruct s as [s|]; [|reflexivity].
  cbn [option_map f_msg fold_left step_tx w_fn w_wt w_val d_tx d_sunk d_unk signature].
  rewrite (merge_sig_encode s W L). reflexivity.
Qed.

Lemma st_fee e p s z x n o g hd nx c su u : int64b z = true ->
  fold_left step_tx (f_int 4 z) (Some (mk_dtx (mk_tx e p s 0 x n o g hd nx c) su u)) =
  Some (mk_dtx (mk_tx e p s z x n o g hd nx c) su u).
Proof.
  intro H. unfold f_int. destruct (Z.eqb_spec z 0) as [->|_]; [reflexivity|].
  cbn [fold_left step_tx w_fn w_wt w_val]. rewrite (s64_u64 z H). reflexivity.
Qed.

Lemma st_expire e p s f z n o g hd nx c su u : int64b z = true ->
  fold_left step_tx (f_int 5 z) (Some (mk_dtx (mk_tx e p s f 0 n o g hd nx c) su u)) =
  Some (mk_dtx (mk_tx e p s f z n o g hd nx c) su u).
Proof.
  intro H. unfold f_int. destruct (Z.eqb_spec z 0) as [->|_]; [reflexivity|].
  cbn [fold_left step_tx w_fn w_wt w_val]. rewrite (s64_u64 z H). reflexivity.
Qed.

Lemma st_nonce e p s f x z o g hd nx c su u : int64b z = true ->
  fold_left step_tx (f_int 6 z) (Some (mk_dtx (mk_tx e p s f x 0 o g hd nx c) su u)) =
  Some (mk_dtx (mk_tx e p s f x z o g hd nx c) su u).
Proof.
  intro H. unfold f_int. destruct (Z.eqb_spec z 0) as [->|_]; [reflexivity|].
  cbn [fold_left step_tx w_fn w_wt w_val]. rewrite (s64_u64 z H). reflexivity.
Qed.

Lemma st_to e p s f x n b g hd nx c su u : utf8_valid b = true ->
  fold_left step_tx (f_bytes 7 b) (Some (mk_dtx (mk_tx e p s f x n [] g hd nx c) su u)) =
  Some (mk_dtx (mk_tx e p s f x n b g hd nx c) su u).
Proof.
  intro U. destruct b; [reflexivity|].
  cbn [f_bytes fold_left step_tx w_fn w_wt w_val]. rewrite U. reflexivity.
Qed.

Lemma st_groupCount e p s f x n o z hd nx c su u : int32b z = true ->
  fold_left step_tx (f_int 8 z) (Some (mk_dtx (mk_tx e p s f x n o 0 hd nx c) su u)) =
  Some (mk_dtx (mk_tx e p s f x n o z hd nx c) su u).
Proof.
  intro H. unfold f_int. destruct (Z.eqb_spec z 0) as [->|_]; [reflexivity|].
  cbn [fold_left step_tx w_fn w_wt w_val]. rewrite (s32_u64 z H). reflexivity.
Qed.

Lemma st_header e p s f x n o g b nx c su u :
  fold_left step_tx (f_bytes 9 b) (Some (mk_dtx (mk_tx e p s f x n o g [] nx c) su u)) =
  Some (mk_dtx (mk_tx e p s f x n o g b nx c) su u).
Proof. destruct b; reflexivity. Qed.

Lemma st_next e p s f x n o g hd b c su u :
  fold_left step_tx (f_bytes 10 b) (Some (mk_dtx (mk_tx e p s f x n o g hd [] c) su u)) =
  Some (mk_dtx (mk_tx e p s f x n o g hd b c) su u).
Proof. destruct b; reflexivity. Qed.

Lemma st_chainID e p s f x n o g hd nx z su u : int32b z = true ->
  fold_left step_tx (f_int 11 z) (Some (mk_dtx (mk_tx e p s f x n o g hd nx 0) su u)) =
  Some (mk_dtx (mk_tx e p s f x n o g hd nx z) su u).
Proof.
  intro H. unfold f_int. destruct (Z.eqb_spec z 0) as [->|_]; [reflexivity|].
  cbn [fold_left step_tx w_fn w_wt w_val]. rewrite (s32_u64 z H). reflexivity.
Qed.

Lemma fold_fields_tx t :
  wire_okb t = true -> fold_left step_tx (fields_tx t) (Some (plain tx0)) = Some (plain t).
Proof.
  unfold wire_okb, wf_txb, wf_ints, tx_len_okb, fields_tx, plain, tx0. intro W. split_andb.
  destruct t as [e p s f x n o g hd nx c].
  cbn [execer payload signature fee expire nonce to_ groupCount header next chainID] in *.
  assert (Ls : match s with Some s => sig_len_okb s | None => true end = true)
    by (destruct s; [split_andb; assumption|reflexivity]).
  rewrite !fold_left_app, st_execer, st_payload, st_signature, st_fee, st_expire, st_nonce, st_to,
    st_groupCount, st_header, st_next, st_chainID by assumption.
  reflexivity.
Qed.

Lemma wire_okb_simple t : wire_okb t = true -> forallb simple_fieldb (fields_tx t) = true.
Proof. unfold wire_okb. intro W. split_andb. apply simple_fields_tx. assumption. Qed.

Theorem wire_decode_encode_plain t : wire_okb t = true -> wire_decode (encode_tx t) = Some (plain t).
Proof.
  intro W. unfold wire_decode.
  rewrite encode_tx_fields, parse_fields_simple by (apply wire_okb_simple, W). apply fold_fields_tx, W.
Qed.

Theorem wire_decode_encode_unknown t ufs :
  wire_okb t = true -> forallb simple_fieldb ufs = true -> forallb tx_unknownb ufs = true ->
  wire_decode (encode_d (mk_dtx t [] (unk_bytes ufs))) = Some (mk_dtx t [] (unk_bytes ufs)).
Proof.
  intros W S U. rewrite encode_d_no_sunk, encode_tx_fields, <- unk_bytes_app. unfold wire_decode.
  rewrite parse_fields_simple by (rewrite forallb_app, S, wire_okb_simple by exact W; reflexivity).
  rewrite fold_left_app, fold_fields_tx, fold_unknown by assumption. reflexivity.
Qed.

Lemma wire_okb_cleared t : wire_okb t = true -> wire_okb (set_sig None t) = true.
Proof.
  unfold wire_okb, wf_txb, wf_ints, tx_len_okb. intro W. split_andb; assumption || reflexivity.
Qed.

Theorem signed_bytes_decode t :
  wire_okb t = true -> wire_decode (signed_bytes t) = Some (plain (set_sig None t)).
Proof.
  intro W. unfold signed_bytes. rewrite clone_tx_id. apply wire_decode_encode_plain, wire_okb_cleared, W.
Qed.

Example ex_wire_ok : wire_okb (sign_tx 1 toy_pub toy_sg toy_tx) = true.
Proof. vm_compute. reflexivity. Qed.
