(** C16 extension — canonical fields: the general parser reads back any
    sequence of them ([parse_fields_simple]); the field encoders of [Proto] emit
    them; the ones [step_tx] does not know end up among the unknown bytes.
    Canonical means varint, length-delimited, fixed32 and fixed64 fields with
    minimal varints; groups and over-long varints are covered by the
    correspondence check only. *)
From Coq Require Import List NArith ZArith Lia Bool.
From C33 Require Import Lib.Harness C16.Proto C16.Model C16.Spec C16.Proofs
                        C16.ProtoUnknown C16.ModelUnknown C16.ProofsWire.
Import ListNotations.
Open Scope list_scope.

Definition simple_fieldb (f : wfield) : bool :=
  fn_okb (w_fn f) &&
  match w_wt f, w_val f with
  | 0%N, WVar v => (v <? 2 ^ 64)%N && bytes_eqb (w_raw f) (varint v)
  | 2%N, WBytes b => len_okb b && bytes_eqb (w_raw f) (varint (N.of_nat (length b)) ++ b)
  | 1%N, WOther => (length (w_raw f) =? 8)%nat
  | 5%N, WOther => (length (w_raw f) =? 4)%nat
  | _, _ => false
  end.

(** the decoder of Transaction treats it as unknown (default branch of [step_tx]) *)
Definition tx_unknownb (f : wfield) : bool :=
  match w_fn f, w_wt f, w_val f with
  | 1%N, 2%N, WBytes _ | 2%N, 2%N, WBytes _ | 3%N, 2%N, WBytes _ | 7%N, 2%N, WBytes _
  | 9%N, 2%N, WBytes _ | 10%N, 2%N, WBytes _ => false
  | 4%N, 0%N, WVar _ | 5%N, 0%N, WVar _ | 6%N, 0%N, WVar _ | 8%N, 0%N, WVar _ | 11%N, 0%N, WVar _ => false
  | _, _, _ => true
  end.

Lemma parse_simple fuel f r :
  simple_fieldb f = true -> parse_field (S fuel) (unk_field f ++ r) = Some (f, r).
Proof.
  unfold simple_fieldb, unk_field. destruct f as [fn wt val raw]. cbn [w_fn w_wt w_val w_raw].
  intros [Hfn H]%andb_true_iff. rewrite <- app_assoc.
  destruct wt as [|[[|[]|]|[|[]|]|]]; destruct val as [v|b|]; try discriminate.
  - apply andb_true_iff in H as [Hv%N.ltb_lt ->%bytes_eqb_eq]. apply parse_field_var; assumption.
  - apply Nat.eqb_eq in H.
    apply (parse_field_fixed fuel fn 5 4); [assumption|right; split; reflexivity|rewrite H; reflexivity].
  - apply andb_true_iff in H as [Hv%len_okb_lt ->%bytes_eqb_eq]. apply parse_field_bytes; assumption.
  - apply Nat.eqb_eq in H.
    apply (parse_field_fixed fuel fn 1 8); [assumption|left; split; reflexivity|rewrite H; reflexivity].
Qed.

Lemma unk_bytes_app fs gs : unk_bytes (fs ++ gs) = unk_bytes fs ++ unk_bytes gs.
Proof. apply flat_map_app. Qed.

(** every field takes at least its key from the input, so fuel above the
    length of the input is enough *)
Lemma parse_fields_aux_simple fs : forall g,
  forallb simple_fieldb fs = true -> (length (unk_bytes fs) < g)%nat ->
  parse_fields_aux g (unk_bytes fs) = Some fs.
Proof.
  induction fs as [|f fs IH]; intros [|g] S Hg; try reflexivity; [inversion Hg|].
  cbn [forallb] in S. apply andb_true_iff in S as [Sf S].
  pose proof (parse_simple g f (unk_bytes fs) Sf) as Pf.
  pose proof (key_nonnil (w_fn f) (w_wt f) (w_raw f)) as Ne. fold (unk_field f) in Ne.
  change (unk_bytes (f :: fs)) with (unk_field f ++ unk_bytes fs) in *.
  destruct (unk_field f) as [|x e]; [congruence|].
  cbn [app length parse_fields_aux] in *. rewrite Pf, IH; [reflexivity|exact S|].
  rewrite app_length in Hg. lia.
Qed.

Theorem parse_fields_simple fs :
  forallb simple_fieldb fs = true -> parse_fields (unk_bytes fs) = Some fs.
Proof. intro S. apply parse_fields_aux_simple; [exact S|apply Nat.lt_succ_diag_r]. Qed.

Definition f_bytes (fn : N) (b : list N) : list wfield :=
  match b with [] => [] | _ => [mk_wf fn 2 (WBytes b) (varint (N.of_nat (length b)) ++ b)] end.
Definition f_int (fn : N) (z : Z) : list wfield :=
  if (z =? 0)%Z then [] else [mk_wf fn 0 (WVar (u64 z)) (varint (u64 z))].
Definition f_msg (fn : N) (o : option (list N)) : list wfield :=
  match o with None => [] | Some b => [mk_wf fn 2 (WBytes b) (varint (N.of_nat (length b)) ++ b)] end.

Lemma enc_bytes_fields fn b : enc_bytes fn b = unk_bytes (f_bytes fn b).
Proof. destruct b; [reflexivity|]. symmetry. apply app_nil_r. Qed.

Lemma enc_int_fields fn z : enc_int fn z = unk_bytes (f_int fn z).
Proof. unfold enc_int, f_int. destruct (z =? 0)%Z; [reflexivity|]. symmetry. apply app_nil_r. Qed.

Lemma enc_msg_fields fn o : enc_msg fn o = unk_bytes (f_msg fn o).
Proof. destruct o; [|reflexivity]. symmetry. apply app_nil_r. Qed.

Lemma simple_ld fn b :
  fn_okb fn = true -> len_okb b = true ->
  simple_fieldb (mk_wf fn 2 (WBytes b) (varint (N.of_nat (length b)) ++ b)) = true.
Proof.
  intros Hfn Hl. unfold simple_fieldb. cbn [w_fn w_wt w_val w_raw].
  rewrite Hfn, Hl, bytes_eqb_refl. reflexivity.
Qed.

Lemma simple_f_bytes fn b :
  fn_okb fn = true -> len_okb b = true -> forallb simple_fieldb (f_bytes fn b) = true.
Proof.
  intros Hfn Hl. destruct b as [|x b]; [reflexivity|]. cbn [f_bytes forallb].
  rewrite simple_ld by assumption. reflexivity.
Qed.

Lemma simple_f_int fn z : fn_okb fn = true -> forallb simple_fieldb (f_int fn z) = true.
Proof.
  intro Hfn. unfold f_int. destruct (z =? 0)%Z; [reflexivity|].
  cbn [forallb]. unfold simple_fieldb. cbn [w_fn w_wt w_val w_raw].
  rewrite Hfn, (proj2 (N.ltb_lt _ _) (u64_lt z)), bytes_eqb_refl. reflexivity.
Qed.

Lemma simple_f_msg fn o :
  fn_okb fn = true -> match o with Some b => len_okb b | None => true end = true ->
  forallb simple_fieldb (f_msg fn o) = true.
Proof.
  intros Hfn Hl. destruct o as [b|]; [|reflexivity]. cbn [f_msg forallb].
  rewrite simple_ld by assumption. reflexivity.
Qed.

(** [step_tx] and [tx_unknownb] look at the field number first, then at the
    wire type, then at the value: a number that is not declared decides alone,
    a declared one with another wire type does, and so on *)
Lemma step_tx_unknown d f :
  tx_unknownb f = true ->
  step_tx (Some d) f = Some (mk_dtx (d_tx d) (d_sunk d) (d_unk d ++ unk_field f)).
Proof.
  unfold tx_unknownb, step_tx. intro U.
  destruct (w_fn f) as [|[[[[]|[]|]|[[]|[]|]|]|[[[]|[]|]|[[]|[]|]|]|]]; try reflexivity;
    destruct (w_wt f) as [|[[]|[]|]]; try reflexivity;
    destruct (w_val f); try reflexivity; discriminate U.
Qed.

Lemma fold_unknown ufs : forall d,
  forallb tx_unknownb ufs = true ->
  fold_left step_tx ufs (Some d) = Some (mk_dtx (d_tx d) (d_sunk d) (d_unk d ++ unk_bytes ufs)).
Proof.
  induction ufs as [|f ufs IH]; intros d U.
  - cbn. rewrite app_nil_r. destruct d; reflexivity.
  - cbn [forallb] in U. apply andb_true_iff in U as [Uf U]. cbn [fold_left].
    rewrite (step_tx_unknown d f Uf), IH by exact U. cbn [d_tx d_sunk d_unk].
    change (unk_bytes (f :: ufs)) with (unk_field f ++ unk_bytes ufs). rewrite app_assoc. reflexivity.
Qed.

Example ex_simple_unknown :
  forallb simple_fieldb [mk_wf 12 0 (WVar 5) [5]%N; mk_wf 15 2 (WBytes [97; 98]%N) [2; 97; 98]%N;
                         mk_wf 4 1 WOther [1; 2; 3; 4; 5; 6; 7; 8]%N] = true /\
  forallb tx_unknownb [mk_wf 12 0 (WVar 5) [5]%N; mk_wf 15 2 (WBytes [97; 98]%N) [2; 97; 98]%N;
                       mk_wf 4 1 WOther [1; 2; 3; 4; 5; 6; 7; 8]%N] = true.
Proof. split; vm_compute; reflexivity. Qed.
