(** C16 extension — what the unknown fields do to the property clauses:
    full-strength statements, refutations, partial theorems with boolean guards. *)
From Coq Require Import String List NArith ZArith Lia Bool.
From C33 Require Import Lib.Harness C16.Proto C16.Model C16.Spec C16.Proofs
                        C16.ProtoUnknown C16.ModelUnknown C16.ProofsUnknown.
Import ListNotations.
Open Scope list_scope.

(** * "the hash changes when any other field changes", for decoded messages *)
Definition C16_hash_binds_message_full : Prop :=
  forall (H : list N -> list N), (forall a b, H a = H b -> a = b) ->
  forall d1 d2, wf_txb (d_tx d1) = true -> wf_txb (d_tx d2) = true ->
    (tx_hash_d H d1 = tx_hash_d H d2 -> d_unk d1 = d_unk d2) /\
    (full_hash_d H d1 = full_hash_d H d2 -> encode_d d1 = encode_d d2).

Definition toy_signed : tx := sign_tx 1 toy_pub toy_sg toy_tx.
Definition toy_unk : list N := [96; 5]%N.          (* field 12, varint 5 *)
Definition toy_d : dtx := mk_dtx toy_signed [] toy_unk.

Lemma hash_binds_message_refuted : ~ C16_hash_binds_message_full.
Proof.
  intro F. destruct (F (fun x => x) (fun a b E => E) (plain toy_signed) toy_d eq_refl eq_refl) as [G _].
  discriminate (G (proj1 (hash_same_for_any_unknown _ _ toy_signed [] [] [] toy_unk))).
Qed.

Lemma hash_binds_message_partial :
  forall (HT : Type) (H : list N -> HT), (forall a b, H a = H b -> a = b) ->
  forall d1 d2, wf_txb (d_tx d1) = true -> wf_txb (d_tx d2) = true ->
    (full_hash_d H d1 = full_hash_d H d2 -> d_tx d1 = d_tx d2) /\
    (full_hash_d H d1 = full_hash_d H d2 -> has_unknown d1 = false -> has_unknown d2 = false -> d1 = d2) /\
    (tx_hash_d H d1 = tx_hash_d H d2 ->
       execer (d_tx d1) = execer (d_tx d2) /\ payload (d_tx d1) = payload (d_tx d2) /\
       fee (d_tx d1) = fee (d_tx d2) /\ expire (d_tx d1) = expire (d_tx d2) /\
       nonce (d_tx d1) = nonce (d_tx d2) /\ to_ (d_tx d1) = to_ (d_tx d2) /\
       groupCount (d_tx d1) = groupCount (d_tx d2) /\ next (d_tx d1) = next (d_tx d2) /\
       chainID (d_tx d1) = chainID (d_tx d2)).
Proof.
  intros HT H Hinj d1 d2 W1 W2.
  destruct (hash_ignores_unknown HT H d1) as [A1 B1].
  destruct (hash_ignores_unknown HT H d2) as [A2 B2].
  split; [|split].
  - rewrite B1, B2. intro E. apply (fullhash_binds HT H Hinj); assumption.
  - rewrite B1, B2. intros E U1 U2. apply (fullhash_binds HT H Hinj) in E; try assumption.
    destruct d1 as [t1 s1 u1], d2 as [t2 s2 u2]. cbn [d_tx] in E. subst t2.
    unfold has_unknown in U1, U2. cbn [d_unk d_sunk] in U1, U2.
    destruct u1, s1, u2, s2; try discriminate. reflexivity.
  - rewrite A1, A2. intro E. apply (hash_binds HT H Hinj); assumption.
Qed.

(** * "a signature produced with the sender's key verifies", for decoded messages *)
Definition C16_sign_then_verify_message_full : Prop :=
  forall ds verify mall issued m ty pub sg h d,
    ideal_scheme verify mall issued ->
    load ds (crypto_id ty) h = Some d ->
    issued (d_id d) pub (sign_msg_d m) sg ->
    check_sign_d ds verify (sign_d ty pub sg m) h = true.

Lemma signed_bytes_sign_d ty pub sg m :
  signed_bytes_d (sign_d ty pub sg m) = encode_tx (set_sig None (d_tx m)).
Proof. rewrite signed_bytes_d_eq. unfold sign_d, set_sig_d. cbn [d_tx]. destruct (d_tx m); reflexivity. Qed.

Lemma sign_msg_d_eq m : sign_msg_d m = encode_tx (set_sig None (d_tx m)) ++ d_unk m.
Proof. apply encode_d_no_sunk. Qed.

Lemma check_sign_d_sign_d ds verify ty pub sg m h :
  check_sign_d ds verify (sign_d ty pub sg m) h =
  match load ds (crypto_id ty) h with
  | None => false
  | Some dr => verify (d_id dr) (encode_tx (set_sig None (d_tx m))) pub sg
  end.
Proof. unfold check_sign_d. rewrite signed_bytes_sign_d. reflexivity. Qed.

Lemma sign_then_verify_message_partial :
  forall ds verify mall issued m ty pub sg h d,
    has_tx_unknown m = false ->
    ideal_scheme verify mall issued ->
    load ds (crypto_id ty) h = Some d ->
    issued (d_id d) pub (sign_msg_d m) sg ->
    check_sign_d ds verify (sign_d ty pub sg m) h = true.
Proof.
  intros ds verify mall issued m ty pub sg h d U [Mr Vi] L I.
  rewrite check_sign_d_sign_d, L. apply Vi. exists sg. split; [|apply Mr].
  rewrite sign_msg_d_eq in I. unfold has_tx_unknown in U. destruct (d_unk m); [|discriminate].
  rewrite app_nil_r in I. exact I.
Qed.

Lemma sign_then_verify_message_exact :
  forall ds verify mall issued m ty pub sg h,
    ideal_scheme verify mall issued ->
    only_issued issued (crypto_id ty) pub (sign_msg_d m) sg ->
    check_sign_d ds verify (sign_d ty pub sg m) h = true ->
    d_unk m = [].
Proof.
  intros ds verify mall issued m ty pub sg h [Mr Vi] Only C.
  rewrite check_sign_d_sign_d in C.
  destruct (load ds (crypto_id ty) h) as [d|] eqn:L; [|discriminate].
  apply load_id in L. rewrite L in C.
  apply Vi in C as (s0 & I & _). apply Only in I as (_ & Em & _).
  rewrite sign_msg_d_eq in Em. exact (app_self_nil _ _ Em).
Qed.

(** refutation: the key signed the bytes [Sign] signs for a message with an
    unknown field, and nothing else *)
Lemma sign_then_verify_message_refuted : ~ C16_sign_then_verify_message_full.
Proof.
  intro F. set (m := mk_dtx toy_tx [] toy_unk).
  pose proof (once_ideal toy_mall 1 toy_pub (sign_msg_d m) toy_sg toy_mall_refl) as Id.
  specialize (F toy_ds _ _ _ m 1%Z toy_pub toy_sg 20%Z (mk_drv 1 true 0) Id eq_refl
                (conj eq_refl (conj eq_refl (conj eq_refl eq_refl)))).
  discriminate (sign_then_verify_message_exact _ _ _ _ m 1%Z _ _ _ Id (once_only _ _ _ _) F).
Qed.

Example ex_unknown_same_hashes :
  tx_hash_d (fun x => x) toy_d = tx_hash_d (fun x => x) (plain toy_signed) /\
  full_hash_d (fun x => x) toy_d = full_hash_d (fun x => x) (plain toy_signed) /\
  encode_d toy_d <> encode_d (plain toy_signed).
Proof.
  destruct (hash_same_for_any_unknown _ (fun x => x) toy_signed [] toy_unk [] []) as [A B].
  split; [exact A|split; [exact B|]].
  unfold toy_d, plain. rewrite !encode_d_no_sunk. intros E%app_inv_head. discriminate E.
Qed.

Example ex_unknown_decodes : wire_decode (encode_d toy_d) = Some toy_d.
Proof. vm_compute. reflexivity. Qed.

Example ex_guard_partial :
  has_tx_unknown (plain toy_tx) = false /\ has_tx_unknown (mk_dtx toy_tx [] toy_unk) = true /\
  check_sign_d toy_ds toy_verify (sign_d 1 toy_pub toy_sg (plain toy_tx)) 20 = true.
Proof. repeat split; reflexivity. Qed.
