(** C16 extension — the general field parser ([ProtoUnknown.parse_field]) on
    canonical input: ConsumeVarint reads back a canonical varint below 2^64,
    and after the canonical key of a field the parser is the value consumer of
    its wire type. *)
From Coq Require Import List NArith ZArith Lia Bool.
From C33 Require Import Lib.Harness C16.Proto C16.Model C16.Spec C16.Proofs
                        C16.ProtoUnknown C16.ModelUnknown.
Import ListNotations.
Open Scope list_scope.

Lemma gvn_cons k b tl :
  get_varint_n (S k) (b :: tl) =
  if (b <? 128)%N then
    match k with
    | O => if (b <? 2)%N then Some (b, tl) else None
    | _ => Some (b, tl)
    end
  else match get_varint_n k tl with
       | Some (v, r) => Some ((b - 128) + 128 * v, r)%N
       | None => None
       end.
Proof. reflexivity. Qed.

(** [S k] bytes are allowed; the induction follows [varint_aux] as in
    [Proto.get_varint_aux] *)
Lemma get_varint_n_aux : forall f k n r,
  (n < 2 ^ (N.of_nat f) * 128)%N -> (n < 2 * 128 ^ N.of_nat k)%N ->
  get_varint_n (S k) (varint_aux f n ++ r) = Some (n, r).
Proof.
  assert (One : forall k n r, (n < 128)%N -> (n < 2 * 128 ^ N.of_nat k)%N ->
                 get_varint_n (S k) ([n] ++ r) = Some (n, r)).
  { intros k n r L Hk. cbn [app]. rewrite gvn_cons. apply N.ltb_lt in L. rewrite L.
    destruct k; [|reflexivity]. change (n < 2)%N in Hk. apply N.ltb_lt in Hk. rewrite Hk. reflexivity. }
  induction f as [|f IH]; intros k n r Hf Hk; cbn [varint_aux]; [apply One; assumption|].
  destruct (N.ltb_spec n 128) as [L|G]; [apply One; assumption|].
  destruct k as [|k]; [cbn in Hk; lia|].
  destruct (varint_byte n G) as [B E]. cbn [app]. rewrite gvn_cons, B, IH, E; [reflexivity| |].
  - rewrite Nat2N.inj_succ, N.pow_succ_r' in Hf. pose proof (pow2_pos (N.of_nat f)).
    apply N.div_lt_upper_bound; nia.
  - rewrite Nat2N.inj_succ, N.pow_succ_r' in Hk. apply N.div_lt_upper_bound; lia.
Qed.

Lemma get_varint64_varint : forall n r, (n < 2 ^ 64)%N -> get_varint64 (varint n ++ r) = Some (n, r).
Proof.
  intros n r Hn. unfold get_varint64, varint. apply get_varint_n_aux; [|exact Hn].
  rewrite N2Nat.id. pose proof (N.size_gt n). pose proof (pow2_pos (N.size n)). nia.
Qed.

Lemma consumed_app (x r : list N) : consumed (x ++ r) r = x.
Proof.
  unfold consumed. rewrite app_length, Nat.add_sub, firstn_app, Nat.sub_diag, firstn_all.
  cbn [firstn]. apply app_nil_r.
Qed.

Lemma split_at_app (b r : list N) : split_at (N.of_nat (length b)) (b ++ r) = Some (b, r).
Proof.
  unfold split_at. destruct (N.ltb_spec (N.of_nat (length (b ++ r))) (N.of_nat (length b))) as [L|G].
  - rewrite app_length in L. lia.
  - rewrite Nat2N.id, firstn_app, Nat.sub_diag, firstn_all, skipn_app, Nat.sub_diag, skipn_all.
    cbn [firstn skipn app]. rewrite app_nil_r. reflexivity.
Qed.

Definition fn_okb (fn : N) : bool := ((1 <=? fn) && (fn <=? 2 ^ 29 - 1))%N.

Lemma tag_div fn wt : (wt < 8)%N -> ((fn * 8 + wt) / 8 = fn /\ (fn * 8 + wt) mod 8 = wt)%N.
Proof.
  intro H. split.
  - rewrite N.div_add_l by lia. rewrite N.div_small by lia. lia.
  - rewrite N.add_comm, N.mod_add by lia. apply N.mod_small; lia.
Qed.

Lemma parse_field_key fuel fn wt r :
  fn_okb fn = true -> (wt < 8)%N ->
  parse_field fuel (key fn wt ++ r) =
  match skip_value fuel fn wt r with
  | None => None
  | Some r' => Some (mk_wf fn wt (value_of wt (consumed r r')) (consumed r r'), r')
  end.
Proof.
  intros [H1%N.leb_le H2%N.leb_le]%andb_true_iff Wt. change (2 ^ 29 - 1)%N with 536870911%N in H2.
  unfold parse_field, key.
  rewrite get_varint64_varint by (change (2 ^ 64)%N with 18446744073709551616%N; lia).
  destruct (tag_div fn wt Wt) as [-> ->]. unfold max_field.
  destruct (N.ltb_spec fn 1); [lia|]. destruct (N.ltb_spec (2 ^ 29 - 1) fn); [lia|]. reflexivity.
Qed.

Lemma parse_field_var fuel fn v r :
  fn_okb fn = true -> (v < 2 ^ 64)%N ->
  parse_field (S fuel) (key fn 0 ++ varint v ++ r) = Some (mk_wf fn 0 (WVar v) (varint v), r).
Proof.
  intros Hfn Hv. rewrite parse_field_key by (exact Hfn || reflexivity). cbn [skip_value].
  rewrite get_varint64_varint, consumed_app by exact Hv. unfold value_of.
  rewrite <- (app_nil_r (varint v)) at 1. rewrite get_varint64_varint by exact Hv. reflexivity.
Qed.

Lemma parse_field_bytes fuel fn b r :
  fn_okb fn = true -> (N.of_nat (length b) < 2 ^ 64)%N ->
  parse_field (S fuel) (key fn 2 ++ (varint (N.of_nat (length b)) ++ b) ++ r) =
  Some (mk_wf fn 2 (WBytes b) (varint (N.of_nat (length b)) ++ b), r).
Proof.
  intros Hfn Hv. rewrite parse_field_key by (exact Hfn || reflexivity). cbn [skip_value].
  rewrite <- app_assoc, get_varint64_varint, split_at_app, app_assoc, consumed_app by exact Hv.
  unfold value_of. rewrite get_varint64_varint by exact Hv. reflexivity.
Qed.

(** fixed64 and fixed32 *)
Lemma parse_field_fixed fuel fn wt k raw r :
  fn_okb fn = true -> ((wt = 1 /\ k = 8) \/ (wt = 5 /\ k = 4))%N -> N.of_nat (length raw) = k ->
  parse_field (S fuel) (key fn wt ++ raw ++ r) = Some (mk_wf fn wt WOther raw, r).
Proof.
  intros Hfn Hw Hl.
  destruct Hw as [[-> ->]|[-> ->]]; rewrite parse_field_key by (exact Hfn || reflexivity);
    cbn [skip_value]; rewrite <- Hl, split_at_app, consumed_app; reflexivity.
Qed.

Definition len_okb (b : list N) : bool := (N.of_nat (length b) <? 2 ^ 64)%N.

Lemma len_okb_lt b : len_okb b = true -> (N.of_nat (length b) < 2 ^ 64)%N.
Proof. unfold len_okb. apply N.ltb_lt. Qed.

Lemma u64_lt z : (u64 z < 2 ^ 64)%N.
Proof.
  apply N2Z.inj_lt. rewrite Z_of_u64. apply Z.mod_pos_bound. reflexivity.
Qed.

Lemma key_nonnil fn wt rest : key fn wt ++ rest <> [].
Proof.
  unfold key, varint. destruct (N.to_nat (N.size (fn * 8 + wt))); cbn [varint_aux].
  - discriminate.
  - destruct (_ <? 128)%N; discriminate.
Qed.
