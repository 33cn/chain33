(** C16 — proofs: the canonical decoder inverts the encoder, hence the encoding
    is injective; the Hash / FullHash / clone clauses; Sign and CheckSign over
    an ideal signature functionality; a toy scheme with the ECDSA symmetry that
    refutes the full-strength "altered signature fails" clause. *)
From Coq Require Import String List NArith ZArith Lia Bool.
From C33 Require Import Lib.Harness C16.Proto C16.Model C16.Spec.
Import ListNotations.
Open Scope list_scope.

(** break the boolean conjunctions among the hypotheses and in the goal *)
Ltac split_andb :=
  repeat match goal with
         | H : _ && _ = true |- _ => apply andb_prop in H; destruct H
         | |- _ && _ = true => apply andb_true_intro; split
         end.

(** turn the byte-string and integer tests among the hypotheses into equations *)
Ltac eqb_subst :=
  repeat match goal with
         | H : bytes_eqb _ _ = true |- _ => apply bytes_eqb_eq in H; subst
         | H : Z.eqb _ _ = true |- _ => apply Z.eqb_eq in H; subst
         end.

Lemma sig_eqb_spec a b : sig_eqb a b = true <-> a = b.
Proof.
  unfold sig_eqb. split.
  - destruct a as [ty pk sg], b as [ty' pk' sg']. cbn [s_ty s_pub s_sig].
    intro E. split_andb. eqb_subst. reflexivity.
  - intros ->. rewrite Z.eqb_refl, !bytes_eqb_refl. reflexivity.
Qed.

Lemma tx_eqb_spec a b : tx_eqb a b = true <-> a = b.
Proof.
  unfold tx_eqb, unsigned_eqb, core_eqb. split.
  - destruct a as [e p sg f x n o g hd nx c], b as [e' p' sg' f' x' n' o' g' hd' nx' c'].
    cbn [execer payload signature fee expire nonce to_ groupCount header next chainID].
    intro E. split_andb. eqb_subst.
    destruct sg as [s|], sg' as [s'|]; try discriminate; [|reflexivity].
    replace s' with s by (apply sig_eqb_spec; assumption). reflexivity.
  - intros ->. rewrite !bytes_eqb_refl, !Z.eqb_refl. cbn [andb].
    destruct (signature b); [apply sig_eqb_spec|]; reflexivity.
Qed.

(** what follows a field in an encoding starts with the key of a later field:
    [key_above_field] once for each field that follows *)
Ltac ka :=
  repeat (eapply key_above_field;
          [ | first [apply enc_bytes_shape | apply enc_int_shape | apply enc_msg_shape] | ];
          [ reflexivity | ]);
  apply key_above_nil.

Lemma decode_sig_encode s : wf_sigb s = true -> decode_sig (encode_sig s) = Some s.
Proof.
  intro W. unfold wf_sigb in W. apply int32b_int64b in W.
  unfold decode_sig, encode_sig.
  rewrite <- (app_nil_r (enc_bytes 3 (s_sig s))).
  rewrite dec_int_enc by (first [exact W | ka]). cbn [bind].
  rewrite dec_bytes_enc by ka. cbn [bind].
  rewrite dec_bytes_enc by ka. cbn [bind at_end].
  destruct s; reflexivity.
Qed.

Lemma decode_opt_sig_encode o :
  wf_optsig o = true -> decode_opt_sig (option_map encode_sig o) = Some o.
Proof.
  destruct o as [s|]; cbn [wf_optsig option_map decode_opt_sig]; [|reflexivity].
  intro W. rewrite decode_sig_encode by exact W. reflexivity.
Qed.

Lemma wf_txb_parts t : wf_txb t = true ->
  wf_optsig (signature t) = true /\ int64b (fee t) = true /\ int64b (expire t) = true /\
  int64b (nonce t) = true /\ int64b (groupCount t) = true /\ int64b (chainID t) = true.
Proof.
  unfold wf_txb, wf_ints. intro W. split_andb. repeat split; auto using int32b_int64b.
Qed.

Theorem decode_tx_encode t : wf_txb t = true -> decode_tx (encode_tx t) = Some t.
Proof.
  intro W. apply wf_txb_parts in W as (Hs & Hf & He & Hn & Hg & Hc).
  unfold decode_tx, encode_tx.
  rewrite <- (app_nil_r (enc_int 11 (chainID t))).
  rewrite dec_bytes_enc by ka. cbn [bind].
  rewrite dec_bytes_enc by ka. cbn [bind].
  rewrite dec_msg_enc by ka. cbn [bind].
  rewrite decode_opt_sig_encode by exact Hs.
  rewrite dec_int_enc by (first [assumption | ka]). cbn [bind].
  rewrite dec_int_enc by (first [assumption | ka]). cbn [bind].
  rewrite dec_int_enc by (first [assumption | ka]). cbn [bind].
  rewrite dec_bytes_enc by ka. cbn [bind].
  rewrite dec_int_enc by (first [assumption | ka]). cbn [bind].
  rewrite dec_bytes_enc by ka. cbn [bind].
  rewrite dec_bytes_enc by ka. cbn [bind].
  rewrite dec_int_enc by (first [assumption | ka]). cbn [bind at_end].
  destruct t; reflexivity.
Qed.

Theorem encode_tx_injective t1 t2 :
  wf_txb t1 = true -> wf_txb t2 = true -> encode_tx t1 = encode_tx t2 -> t1 = t2.
Proof.
  intros W1 W2 E. pose proof (decode_tx_encode t1 W1) as D1.
  rewrite E, (decode_tx_encode t2 W2) in D1. congruence.
Qed.

Lemma clone_tx_id t : clone_tx t = t.
Proof. destruct t; reflexivity. Qed.

Lemma clone_id t : clone t = t.
Proof.
  unfold clone. rewrite clone_tx_id.
  destruct t as [e p [[ty pk sg]|] f x n o g hd nx c]; reflexivity.
Qed.

Lemma wf_cleared t : wf_txb t = true -> wf_txb (set_sig None t) = true.
Proof.
  unfold wf_txb. intro W. split_andb; [reflexivity|assumption].
Qed.

Lemma wf_cleared_header t hd : wf_txb t = true -> wf_txb (set_header hd t) = true.
Proof. unfold wf_txb. intro H. exact H. Qed.

Lemma hash_pre_ignores t sg hd : hash_pre (set_header hd (set_sig sg t)) = hash_pre t.
Proof. destruct t; reflexivity. Qed.

Lemma hash_ignores_sig_and_header :
  forall (HT : Type) (H : list N -> HT) t sg hd,
    tx_hash H (set_header hd (set_sig sg t)) = tx_hash H t.
Proof. intros. unfold tx_hash. rewrite hash_pre_ignores. reflexivity. Qed.

Lemma hash_pre_injective t1 t2 :
  wf_txb t1 = true -> wf_txb t2 = true -> hash_pre t1 = hash_pre t2 ->
  set_header [] (set_sig None t1) = set_header [] (set_sig None t2).
Proof.
  intros W1 W2 E. unfold hash_pre in E. rewrite !clone_tx_id in E.
  apply encode_tx_injective in E; [exact E| |]; apply wf_cleared_header, wf_cleared; assumption.
Qed.

Lemma hash_binds :
  forall (HT : Type) (H : list N -> HT),
    (forall a b, H a = H b -> a = b) ->
    forall t1 t2, wf_txb t1 = true -> wf_txb t2 = true ->
    tx_hash H t1 = tx_hash H t2 ->
    execer t1 = execer t2 /\ payload t1 = payload t2 /\ fee t1 = fee t2 /\
    expire t1 = expire t2 /\ nonce t1 = nonce t2 /\ to_ t1 = to_ t2 /\
    groupCount t1 = groupCount t2 /\ next t1 = next t2 /\ chainID t1 = chainID t2.
Proof.
  intros HT H Hinj t1 t2 W1 W2 E. apply Hinj, hash_pre_injective in E; [|assumption..].
  destruct t1, t2. injection E as -> -> -> -> -> -> -> -> ->. repeat split; reflexivity.
Qed.

Lemma fullhash_binds :
  forall (HT : Type) (H : list N -> HT),
    (forall a b, H a = H b -> a = b) ->
    forall t1 t2, wf_txb t1 = true -> wf_txb t2 = true ->
    full_hash H t1 = full_hash H t2 -> t1 = t2.
Proof.
  intros HT H Hinj t1 t2 W1 W2 E. unfold full_hash, full_pre in E. apply Hinj in E.
  rewrite !clone_id in E. apply encode_tx_injective; assumption.
Qed.

Lemma clone_preserves :
  forall (HT : Type) (H : list N -> HT) t,
    tx_hash H (clone t) = tx_hash H t /\ full_hash H (clone t) = full_hash H t /\
    tx_hash H (clone_tx t) = tx_hash H t /\ full_hash H (clone_tx t) = full_hash H t.
Proof. intros. rewrite clone_id, clone_tx_id. repeat split; reflexivity. Qed.

Lemma signed_bytes_sign_tx ty pub sg t : signed_bytes (sign_tx ty pub sg t) = sign_msg t.
Proof. destruct t; reflexivity. Qed.

Lemma load_id ds id h d : load ds id h = Some d -> d_id d = id.
Proof.
  unfold load. destruct (find _ ds) as [d0|] eqn:F; [|discriminate].
  apply find_some in F as [_ F]. apply Z.eqb_eq in F.
  destruct (_ || _); [|discriminate]. intro E. injection E as <-. exact F.
Qed.

(** what [mall] relates to an issued signature is accepted: the property's clause
    is the reflexive case, the rest of the class is what refutes
    [C16_altered_fails_full] *)
Lemma sign_then_verify_mall :
  forall ds verify mall issued t ty pub sg sg' h d,
    ideal_scheme verify mall issued ->
    load ds (crypto_id ty) h = Some d ->
    issued (d_id d) pub (sign_msg t) sg -> mall (d_id d) sg sg' = true ->
    check_sign ds verify (sign_tx ty pub sg' t) h = true.
Proof.
  intros ds verify mall issued t ty pub sg sg' h d [_ Vi] L I M.
  unfold check_sign. cbn [sign_tx set_sig signature s_ty s_pub s_sig].
  rewrite L. change (mk_tx _ _ _ _ _ _ _ _ _ _ _) with (sign_tx ty pub sg' t).
  rewrite signed_bytes_sign_tx. apply Vi. exists sg. split; assumption.
Qed.

Lemma sign_then_verify :
  forall ds verify mall issued t ty pub sg h d,
    ideal_scheme verify mall issued ->
    load ds (crypto_id ty) h = Some d ->
    issued (d_id d) pub (sign_msg t) sg ->
    check_sign ds verify (sign_tx ty pub sg t) h = true.
Proof.
  intros ds verify mall issued t ty pub sg h d Id L I.
  apply (sign_then_verify_mall ds verify mall issued t ty pub sg sg h d Id L I), (proj1 Id).
Qed.

Lemma accepted_is_issued :
  forall ds verify mall issued t ty pub sg t' s' h,
    ideal_scheme verify mall issued ->
    only_issued issued (crypto_id ty) pub (sign_msg t) sg ->
    wf_txb t = true -> wf_txb t' = true ->
    signature t' = Some s' -> crypto_id (s_ty s') = crypto_id ty ->
    check_sign ds verify t' h = true ->
    set_sig None t' = set_sig None t /\ s_pub s' = pub /\ mall (crypto_id ty) sg (s_sig s') = true.
Proof.
  intros ds verify mall issued t ty pub sg t' s' h [Mr Vi] Only W W' Sg Id C.
  unfold check_sign in C. rewrite Sg in C.
  destruct (load ds (crypto_id (s_ty s')) h) as [d|] eqn:L; [|discriminate].
  apply load_id in L. rewrite L, Id in C.
  apply Vi in C as (s0 & I & M). apply Only in I as (Ep & Em & Es). subst s0.
  unfold signed_bytes, sign_msg in Em. rewrite clone_tx_id in Em.
  apply encode_tx_injective in Em; [| apply wf_cleared; assumption | apply wf_cleared; assumption].
  auto.
Qed.

Lemma altered_fails_partial :
  forall ds verify mall issued t ty pub sg t' s' h,
    ideal_scheme verify mall issued ->
    only_issued issued (crypto_id ty) pub (sign_msg t) sg ->
    wf_txb t = true -> wf_txb t' = true ->
    signature t' = Some s' -> crypto_id (s_ty s') = crypto_id ty ->
    (set_sig None t' <> set_sig None t \/ s_pub s' <> pub \/
     mall (crypto_id ty) sg (s_sig s') = false) ->
    check_sign ds verify t' h = false.
Proof.
  intros ds verify mall issued t ty pub sg t' s' h Id Only W W' Sg Eid Alt.
  destruct (check_sign ds verify t' h) eqn:C; [|reflexivity]. exfalso.
  destruct (accepted_is_issued ds verify mall issued t ty pub sg t' s' h Id Only W W' Sg Eid C)
    as (E1 & E2 & E3).
  destruct Alt as [A|[A|A]]; [apply A, E1 | apply A, E2 | rewrite E3 in A; discriminate].
Qed.

Lemma enabled_false_load ds id h :
  (0 <= h)%Z -> enabled ds id h = false -> load ds id h = None.
Proof.
  intros Hh. unfold enabled, load. induction ds as [|d ds IH]; cbn [existsb find]; [reflexivity|].
  intro E. apply orb_false_iff in E as [E1 E2].
  destruct (Z.eqb (d_id d) id) eqn:Eid.
  - cbn [andb] in E1. destruct (Z.ltb_spec h 0); [lia|]. cbn [orb].
    rewrite E1. reflexivity.
  - apply IH, E2.
Qed.

Lemma disabled_fails :
  forall ds verify t s h,
    (0 <= h)%Z -> signature t = Some s ->
    enabled ds (crypto_id (s_ty s)) h = false ->
    check_sign ds verify t h = false.
Proof.
  intros ds verify t s h Hh Sg E. unfold check_sign. rewrite Sg.
  rewrite (enabled_false_load _ _ _ Hh E). reflexivity.
Qed.

Lemma unsigned_fails : forall ds verify t h, signature t = None -> check_sign ds verify t h = false.
Proof. intros ds verify t h Sg. unfold check_sign. rewrite Sg. reflexivity. Qed.

(** * The functionality that issued one signature, [sg0] for message [msg0]
      under key [pub0] of driver [id0], and accepts it up to [mall]: ideal in
      the sense of [Spec.ideal_scheme] for every reflexive [mall] *)
Definition issued_once (id0 : Z) (pub0 msg0 sg0 : list N) (id : Z) (p m s : list N) : Prop :=
  id = id0 /\ p = pub0 /\ m = msg0 /\ s = sg0.
Definition verify_once (mall : Z -> list N -> list N -> bool) (id0 : Z) (pub0 msg0 sg0 : list N)
    (id : Z) (m p s : list N) : bool :=
  Z.eqb id id0 && bytes_eqb p pub0 && bytes_eqb m msg0 && mall id sg0 s.

Lemma once_ideal mall id0 pub0 msg0 sg0 :
  (forall id s, mall id s s = true) ->
  ideal_scheme (verify_once mall id0 pub0 msg0 sg0) mall (issued_once id0 pub0 msg0 sg0).
Proof.
  intro Mr. split; [exact Mr|].
  intros id m p s. unfold verify_once, issued_once.
  rewrite !andb_true_iff, Z.eqb_eq, !bytes_eqb_eq. split.
  - intros [[[-> ->] ->] M]. exists sg0. auto.
  - intros (s0 & (-> & -> & -> & ->) & M). auto.
Qed.

Lemma once_only id0 pub0 msg0 sg0 : only_issued (issued_once id0 pub0 msg0 sg0) id0 pub0 msg0 sg0.
Proof. intros p m s. unfold issued_once. intuition. Qed.

(** * A scheme with the ECDSA symmetry: (r, s) ~ (r, q - s) on two-byte toy
      signatures, q = 251.  It is an ideal scheme in the sense above, and it
      refutes the full-strength statement. *)
Definition toy_mall (_ : Z) (a b : list N) : bool :=
  match a, b with
  | [r; s], [r'; s'] => (N.eqb r r' && (N.eqb s s' || N.eqb (s + s') 251))%N
  | _, _ => bytes_eqb a b
  end.

Definition toy_tx : tx :=
  mk_tx (bs "coins"%string) (hx "0a0b0c"%string) None 100000 0 77
        (bs "1JmFaA6unrCFYEWPGRi7uuXY1KthTJxJEP"%string)
        0 [] [] 0.
Definition toy_pub : list N := hx "02aabbcc"%string.
Definition toy_sg : list N := [7; 100]%N.
Definition toy_sg' : list N := [7; 151]%N.
Definition toy_ds : list drv := [mk_drv 1 true 0; mk_drv 2 true 10].

Definition toy_issued1 : Z -> list N -> list N -> list N -> Prop :=
  issued_once 1 toy_pub (sign_msg toy_tx) toy_sg.
Definition toy_verify (id : Z) (m p s : list N) : bool :=
  Z.eqb id 1 && bytes_eqb p toy_pub && bytes_eqb m (sign_msg toy_tx) && toy_mall id toy_sg s.

Lemma toy_mall_refl id s : toy_mall id s s = true.
Proof.
  unfold toy_mall.
  destruct s as [|r [|s [|x tl]]]; try (apply bytes_eqb_eq; reflexivity).
  rewrite !N.eqb_refl. reflexivity.
Qed.

Lemma toy_ideal : ideal_scheme toy_verify toy_mall toy_issued1.
Proof. exact (once_ideal toy_mall 1 toy_pub (sign_msg toy_tx) toy_sg toy_mall_refl). Qed.

Lemma toy_only : only_issued toy_issued1 (crypto_id 1) toy_pub (sign_msg toy_tx) toy_sg.
Proof. exact (once_only 1 toy_pub (sign_msg toy_tx) toy_sg). Qed.

Lemma altered_fails_refuted : ~ C16_altered_fails_full.
Proof.
  intro F.
  specialize (F toy_ds toy_verify toy_mall toy_issued1 toy_tx 1%Z toy_pub toy_sg
                (sign_tx 1 toy_pub toy_sg' toy_tx) (mk_sig 1 toy_pub toy_sg') 20%Z
                toy_ideal toy_only eq_refl eq_refl eq_refl eq_refl).
  assert (C : check_sign toy_ds toy_verify (sign_tx 1 toy_pub toy_sg' toy_tx) 20 = true).
  { apply (sign_then_verify_mall toy_ds _ _ _ toy_tx 1%Z toy_pub toy_sg toy_sg' 20%Z (mk_drv 1 true 0)
             toy_ideal eq_refl); [repeat split|]; reflexivity. }
  rewrite F in C; [discriminate|].
  right. right. discriminate.
Qed.

(** * Non-vacuity: the hypotheses of the theorems are satisfiable *)
Example ex_wf : wf_txb toy_tx = true /\ wf_txb (sign_tx 1 toy_pub toy_sg toy_tx) = true.
Proof. split; reflexivity. Qed.

Example ex_roundtrip :
  decode_tx (encode_tx (sign_tx 1 toy_pub toy_sg toy_tx)) = Some (sign_tx 1 toy_pub toy_sg toy_tx).
Proof. apply decode_tx_encode. reflexivity. Qed.

(** an injective "hash" exists (the identity), and the hash theorems say
    something about it *)
Example ex_hash_binds :
  tx_hash (fun x => x) toy_tx <> tx_hash (fun x => x) (set_header [1%N] (mk_tx (bs "coins"%string) (hx "0a0b0c"%string) None 100001 0 77
        (bs "1JmFaA6unrCFYEWPGRi7uuXY1KthTJxJEP"%string) 0 [] [] 0)).
Proof. vm_compute. discriminate. Qed.

Example ex_hash_ignores :
  tx_hash (fun x => x) (set_header [9%N] (sign_tx 1 toy_pub toy_sg toy_tx)) = tx_hash (fun x => x) toy_tx.
Proof. apply (hash_ignores_sig_and_header _ (fun x => x) toy_tx). Qed.

Example ex_sign_then_verify :
  check_sign toy_ds toy_verify (sign_tx 1 toy_pub toy_sg toy_tx) 20 = true.
Proof.
  apply (sign_then_verify toy_ds toy_verify toy_mall toy_issued1 toy_tx 1%Z toy_pub toy_sg 20%Z
           (mk_drv 1 true 0) toy_ideal eq_refl).
  repeat split; reflexivity.
Qed.

(** guard of the partial theorem: a signature outside the malleability class *)
Example ex_guard : toy_mall 1 toy_sg [7; 3]%N = false /\ toy_mall 1 toy_sg toy_sg' = true.
Proof. split; reflexivity. Qed.

Example ex_altered_sig_fails :
  check_sign toy_ds toy_verify (sign_tx 1 toy_pub [7; 3]%N toy_tx) 20 = false.
Proof.
  apply (altered_fails_partial toy_ds toy_verify toy_mall toy_issued1 toy_tx 1%Z toy_pub toy_sg
           (sign_tx 1 toy_pub [7; 3]%N toy_tx) (mk_sig 1 toy_pub [7; 3]%N) 20%Z
           toy_ideal toy_only eq_refl eq_refl eq_refl eq_refl).
  right. right. reflexivity.
Qed.

Example ex_altered_header_fails :
  check_sign toy_ds toy_verify (set_header [1%N] (sign_tx 1 toy_pub toy_sg toy_tx)) 20 = false.
Proof.
  apply (altered_fails_partial toy_ds toy_verify toy_mall toy_issued1 toy_tx 1%Z toy_pub toy_sg
           (set_header [1%N] (sign_tx 1 toy_pub toy_sg toy_tx)) (mk_sig 1 toy_pub toy_sg) 20%Z
           toy_ideal toy_only eq_refl eq_refl eq_refl eq_refl).
  left. intros E%(f_equal header). discriminate E.
Qed.

Example ex_disabled :
  check_sign toy_ds toy_verify (sign_tx 2 toy_pub toy_sg toy_tx) 9 = false /\
  enabled toy_ds (crypto_id 2) 9 = false /\ enabled toy_ds (crypto_id 2) 10 = true.
Proof. repeat split; reflexivity. Qed.
