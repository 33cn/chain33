(** Protobuf (proto3) wire encoding for the field kinds chain33 messages use:
    varint ([int32]/[int64], negatives as the 10-byte two's complement of the
    sign-extended 64-bit value), length-delimited ([bytes], [string],
    sub-message), omission of default values, fields emitted in field-number
    order.  Decoders for one field at a time ("is the next key mine? then read
    it, else I have the default value") with the round-trip lemmas from which
    injectivity of a message encoding follows.  Byte strings are [list N]. *)
From Coq Require Import List NArith ZArith Lia Bool.
Import ListNotations.
Open Scope N_scope.

Fixpoint varint_aux (f : nat) (n : N) : list N :=
  match f with
  | O => [n]
  | S f' => if n <? 128 then [n] else (n mod 128 + 128) :: varint_aux f' (n / 128)
  end.

(** Fuel = number of bits of [n]: always enough (one step consumes 7 bits). *)
Definition varint (n : N) : list N := varint_aux (N.to_nat (N.size n)) n.

Fixpoint get_varint (l : list N) : option (N * list N) :=
  match l with
  | [] => None
  | b :: tl =>
      if b <? 128 then Some (b, tl)
      else match get_varint tl with
           | Some (v, r) => Some ((b - 128) + 128 * v, r)
           | None => None
           end
  end.

(** what [get_varint] does with the first byte [n mod 128 + 128] of a longer varint *)
Lemma varint_byte n : 128 <= n ->
  (n mod 128 + 128 <? 128) = false /\ n mod 128 + 128 - 128 + 128 * (n / 128) = n.
Proof.
  intro G. split; [apply N.ltb_ge, N.le_add_l|].
  rewrite N.add_sub, N.add_comm. symmetry. apply N.div_mod. discriminate.
Qed.

Lemma pow2_pos k : 1 <= 2 ^ k.
Proof. apply N.lt_pred_le, N.neq_0_lt_0, N.pow_nonzero. discriminate. Qed.

Lemma get_varint_aux : forall f n r,
  n < 2 ^ (N.of_nat f) * 128 -> get_varint (varint_aux f n ++ r) = Some (n, r).
Proof.
  assert (One : forall n r, n < 128 -> get_varint ([n] ++ r) = Some (n, r)).
  { intros n r L. cbn [app get_varint]. apply N.ltb_lt in L. rewrite L. reflexivity. }
  induction f as [|f IH]; intros n r Hn; cbn [varint_aux]; [apply One; exact Hn|].
  destruct (N.ltb_spec n 128) as [L|G]; [apply One; exact L|].
  destruct (varint_byte n G) as [B E]. cbn [app get_varint]. rewrite B, IH, E; [reflexivity|].
  rewrite Nat2N.inj_succ, N.pow_succ_r' in Hn. pose proof (pow2_pos (N.of_nat f)).
  apply N.div_lt_upper_bound; nia.
Qed.

Lemma get_varint_varint : forall n r, get_varint (varint n ++ r) = Some (n, r).
Proof.
  intros n r. unfold varint. apply get_varint_aux.
  rewrite N2Nat.id. pose proof (N.size_gt n). pose proof (pow2_pos (N.size n)). nia.
Qed.

Lemma varint_inj : forall a b, varint a = varint b -> a = b.
Proof.
  intros a b E. pose proof (get_varint_varint a []) as Ha.
  rewrite E, get_varint_varint in Ha. congruence.
Qed.

(** * Integers: Go [uint64(int64(v))] and back *)
Definition u64 (z : Z) : N := Z.to_N (z mod 2 ^ 64).
Definition s64 (n : N) : Z :=
  if n <? 2 ^ 63 then Z.of_N n else (Z.of_N n - 2 ^ 64)%Z.

Definition int64b (z : Z) : bool := ((- 2 ^ 63 <=? z) && (z <? 2 ^ 63))%Z.
Definition int32b (z : Z) : bool := ((- 2 ^ 31 <=? z) && (z <? 2 ^ 31))%Z.

Lemma int32b_int64b z : int32b z = true -> int64b z = true.
Proof.
  unfold int32b, int64b. intros [H1%Z.leb_le H2%Z.ltb_lt]%andb_true_iff.
  apply andb_true_iff. split; [apply Z.leb_le|apply Z.ltb_lt]; lia.
Qed.

Lemma mod_signed M z :
  (- M <= z < M)%Z -> (z mod (2 * M))%Z = if (z <? 0)%Z then (z + 2 * M)%Z else z.
Proof.
  intro H.
  destruct (Z.ltb_spec z 0); [symmetry; apply Z.mod_unique with (q := (-1)%Z)|apply Z.mod_small]; lia.
Qed.

Lemma Z_of_u64 z : Z.of_N (u64 z) = (z mod 2 ^ 64)%Z.
Proof. apply Z2N.id, Z.mod_pos_bound. reflexivity. Qed.

Lemma s64_u64 : forall z, int64b z = true -> s64 (u64 z) = z.
Proof.
  intros z [H1%Z.leb_le H2%Z.ltb_lt]%andb_true_iff. unfold s64.
  pose proof (Z_of_u64 z) as E. change (2 ^ 64)%Z with (2 * 2 ^ 63)%Z in E.
  rewrite (mod_signed (2 ^ 63) z) in E by lia.
  destruct (N.ltb_spec (u64 z) (2 ^ 63)); destruct (Z.ltb_spec z 0); lia.
Qed.

Lemma u64_zero_iff : forall z, int64b z = true -> (u64 z = 0 <-> z = 0%Z).
Proof.
  intros z Hz. split; intro E.
  - rewrite <- (s64_u64 z Hz), E. reflexivity.
  - subst. reflexivity.
Qed.

(** * Field encoders.  Wire types: 0 = varint, 2 = length-delimited. *)
Definition key (fn wt : N) : list N := varint (fn * 8 + wt).

Definition len_delim (fn : N) (b : list N) : list N :=
  key fn 2 ++ varint (N.of_nat (length b)) ++ b.

(** [bytes] / [string] (proto3: empty = default = omitted; Go nil and empty
    slices are the same on the wire) *)
Definition enc_bytes (fn : N) (b : list N) : list N :=
  match b with [] => [] | _ => len_delim fn b end.

(** [int32] / [int64] (proto3: 0 omitted) *)
Definition enc_int (fn : N) (z : Z) : list N :=
  if (z =? 0)%Z then [] else key fn 0 ++ varint (u64 z).

(** singular sub-message given by its encoded body: absent pointer omitted, a
    present message with all-default fields is emitted with length 0 *)
Definition enc_msg (fn : N) (o : option (list N)) : list N :=
  match o with None => [] | Some b => len_delim fn b end.

(** repeated sub-message (each element emitted, even if empty) *)
Definition enc_rep_msg (fn : N) (bs : list (list N)) : list N :=
  flat_map (len_delim fn) bs.

(** * One-field decoders: value and remaining input *)
Definition take_len (l : list N) : option (list N * list N) :=
  match get_varint l with
  | Some (n, r) =>
      if N.of_nat (length r) <? n then None
      else Some (firstn (N.to_nat n) r, skipn (N.to_nat n) r)
  | None => None
  end.

Definition dec_bytes (fn : N) (l : list N) : option (list N * list N) :=
  match get_varint l with
  | Some (k, r) => if k =? fn * 8 + 2 then take_len r else Some ([], l)
  | None => Some ([], l)
  end.

Definition dec_int (fn : N) (l : list N) : option (Z * list N) :=
  match get_varint l with
  | Some (k, r) =>
      if k =? fn * 8 + 0 then
        match get_varint r with Some (v, r') => Some (s64 v, r') | None => None end
      else Some (0%Z, l)
  | None => Some (0%Z, l)
  end.

Definition dec_msg (fn : N) (l : list N) : option (option (list N) * list N) :=
  match get_varint l with
  | Some (k, r) =>
      if k =? fn * 8 + 2 then
        match take_len r with Some (b, r') => Some (Some b, r') | None => None end
      else Some (None, l)
  | None => Some (None, l)
  end.

(** * "The rest of the input starts with the key of a later field (or is not a
      field at all)": what makes the one-field decoders deterministic. *)
Definition key_above (fn : N) (l : list N) : bool :=
  match get_varint l with
  | Some (k, _) => fn * 8 + 7 <? k
  | None => true
  end.

Lemma key_above_nil fn : key_above fn [] = true.
Proof. reflexivity. Qed.

Lemma key_above_mono fn fn' l : fn <= fn' -> key_above fn' l = true -> key_above fn l = true.
Proof.
  unfold key_above. destruct (get_varint l) as [[k r]|]; [|reflexivity].
  rewrite !N.ltb_lt. lia.
Qed.

Definition field_shape (fn : N) (e : list N) : Prop :=
  e = [] \/ exists wt rest, wt <= 7 /\ e = key fn wt ++ rest.

Lemma enc_bytes_shape fn b : field_shape fn (enc_bytes fn b).
Proof.
  destruct b as [|x b]; [left; reflexivity|]. right.
  exists 2, (varint (N.of_nat (length (x :: b))) ++ x :: b). split; [lia|reflexivity].
Qed.

Lemma enc_int_shape fn z : field_shape fn (enc_int fn z).
Proof.
  unfold enc_int. destruct (z =? 0)%Z; [left; reflexivity|]. right.
  exists 0, (varint (u64 z)). split; [lia|reflexivity].
Qed.

Lemma enc_msg_shape fn o : field_shape fn (enc_msg fn o).
Proof.
  destruct o as [b|]; [|left; reflexivity]. right.
  exists 2, (varint (N.of_nat (length b)) ++ b). split; [lia|reflexivity].
Qed.

Lemma key_above_field fn fn' e l :
  fn < fn' -> field_shape fn' e -> key_above fn' l = true -> key_above fn (e ++ l) = true.
Proof.
  intros Hlt [->|(wt & rest & Hwt & ->)] Hl.
  - apply key_above_mono with fn'; [lia|exact Hl].
  - unfold key_above, key. rewrite <- app_assoc, get_varint_varint. apply N.ltb_lt. lia.
Qed.

Lemma take_len_ok b r : take_len (varint (N.of_nat (length b)) ++ b ++ r) = Some (b, r).
Proof.
  unfold take_len. rewrite get_varint_varint.
  destruct (N.ltb_spec (N.of_nat (length (b ++ r))) (N.of_nat (length b))) as [L|G].
  - rewrite app_length in L. lia.
  - rewrite Nat2N.id. rewrite firstn_app, Nat.sub_diag, firstn_all, firstn_O, app_nil_r.
    rewrite skipn_app, Nat.sub_diag, skipn_all. reflexivity.
Qed.

Lemma len_delim_inj fn b b' r r' :
  len_delim fn b ++ r = len_delim fn b' ++ r' -> b = b' /\ r = r'.
Proof.
  unfold len_delim. rewrite <- !app_assoc. intros E%app_inv_head%(f_equal take_len).
  rewrite !take_len_ok in E. injection E as -> ->. split; reflexivity.
Qed.

Lemma dec_default_bytes fn l : key_above fn l = true -> dec_bytes fn l = Some ([], l).
Proof.
  unfold key_above, dec_bytes. destruct (get_varint l) as [[k r]|]; [|reflexivity].
  rewrite N.ltb_lt. intro H. destruct (N.eqb_spec k (fn * 8 + 2)); [lia|reflexivity].
Qed.

Lemma dec_default_int fn l : key_above fn l = true -> dec_int fn l = Some (0%Z, l).
Proof.
  unfold key_above, dec_int. destruct (get_varint l) as [[k r]|]; [|reflexivity].
  rewrite N.ltb_lt. intro H. destruct (N.eqb_spec k (fn * 8 + 0)); [lia|reflexivity].
Qed.

Lemma dec_default_msg fn l : key_above fn l = true -> dec_msg fn l = Some (None, l).
Proof.
  unfold key_above, dec_msg. destruct (get_varint l) as [[k r]|]; [|reflexivity].
  rewrite N.ltb_lt. intro H. destruct (N.eqb_spec k (fn * 8 + 2)); [lia|reflexivity].
Qed.

Lemma dec_bytes_enc fn b l :
  key_above fn l = true -> dec_bytes fn (enc_bytes fn b ++ l) = Some (b, l).
Proof.
  intro Hl. destruct b as [|x b].
  - apply dec_default_bytes, Hl.
  - unfold enc_bytes, len_delim, dec_bytes, key. rewrite <- !app_assoc, get_varint_varint.
    rewrite N.eqb_refl. apply take_len_ok.
Qed.

Lemma dec_int_enc fn z l :
  int64b z = true -> key_above fn l = true -> dec_int fn (enc_int fn z ++ l) = Some (z, l).
Proof.
  intros Hz Hl. unfold enc_int. destruct (Z.eqb_spec z 0) as [->|Nz].
  - apply dec_default_int, Hl.
  - unfold dec_int, key. rewrite <- !app_assoc, get_varint_varint, N.eqb_refl.
    rewrite get_varint_varint, s64_u64 by exact Hz. reflexivity.
Qed.

Lemma dec_msg_enc fn o l :
  key_above fn l = true -> dec_msg fn (enc_msg fn o ++ l) = Some (o, l).
Proof.
  intro Hl. destruct o as [b|].
  - unfold enc_msg, len_delim, dec_msg, key. rewrite <- !app_assoc, get_varint_varint.
    rewrite N.eqb_refl, take_len_ok. reflexivity.
  - apply dec_default_msg, Hl.
Qed.

(** * Examples (non-vacuity; values cross-checked against golang/protobuf by the harness) *)
Example varint_300 : varint 300 = [172; 2]. Proof. reflexivity. Qed.
Example enc_int_neg1 : enc_int 4 (-1) = [32; 255; 255; 255; 255; 255; 255; 255; 255; 255; 1].
Proof. vm_compute. reflexivity. Qed.
Example enc_int_zero : enc_int 4 0 = []. Proof. reflexivity. Qed.
Example enc_bytes_ab : enc_bytes 1 [97; 98] = [10; 2; 97; 98]. Proof. reflexivity. Qed.
Example enc_msg_empty : enc_msg 3 (Some []) = [26; 0]. Proof. reflexivity. Qed.
Example dec_int_neg1 : dec_int 4 (enc_int 4 (-1) ++ [40; 1]) = Some ((-1)%Z, [40; 1]).
Proof. vm_compute. reflexivity. Qed.
