(** C16 extension — the eth theorem without the decoding guard; the general
    decoder is injective on canonical encodings only. *)
From Coq Require Import List NArith ZArith Lia Bool.
From C33 Require Import Lib.Harness C16.Proto C16.Model C16.Spec C16.Proofs
                        C16.ProtoUnknown C16.ModelUnknown C16.ModelEth C16.SpecExt
                        C16.ProofsWire C16.ProofsWire2 C16.ProofsExt.
Import ListNotations.
Open Scope list_scope.

Lemma wire_ok_decodes_plain t : wire_okb t = true -> decodes_plainb t = true.
Proof.
  intro W. unfold decodes_plainb. rewrite (signed_bytes_decode t W). cbn [d_tx plain].
  apply tx_eqb_spec. reflexivity.
Qed.

(** outer fields that Go can hold *)
Definition outer_okb (fee' expire' : Z) (to' : list N) (gc' : Z) (hd' nx' : list N) (cid' : Z) : bool :=
  int64b fee' && int64b expire' && utf8_valid to' && len_okb to' && int32b gc' &&
  len_okb hd' && len_okb nx' && int32b cid'.

Lemma with_outer_ok t fee' expire' to' gc' hd' nx' cid' :
  wire_okb t = true -> outer_okb fee' expire' to' gc' hd' nx' cid' = true ->
  wire_okb (with_outer t fee' expire' to' gc' hd' nx' cid') = true.
Proof.
  unfold wire_okb, outer_okb, wf_txb, wf_ints, tx_len_okb, with_outer.
  cbn [execer payload signature fee expire nonce to_ groupCount header next chainID].
  intros W O. split_andb; assumption.
Qed.

Theorem eth_unbound_outer_fields_ok :
  forall cfg xaddr parse inner other ds t s h fee' expire' to' gc' hd' nx' cid',
    wire_okb t = true -> outer_okb fee' expire' to' gc' hd' nx' cid' = true ->
    signature t = Some s -> crypto_id (s_ty s) = eth_id ->
    note_mode (action_of (xaddr (execer t)) (execer t) (payload t) (nonce t)) = true ->
    check_sign ds (ethv cfg xaddr parse inner other) (with_outer t fee' expire' to' gc' hd' nx' cid') h =
    check_sign ds (ethv cfg xaddr parse inner other) t h.
Proof.
  intros cfg xaddr parse inner other ds t s h fee' expire' to' gc' hd' nx' cid' W O Sg Id NM.
  apply (eth_unbound_outer_fields cfg xaddr parse inner other ds t s); try assumption.
  - apply wire_ok_decodes_plain, W.
  - apply wire_ok_decodes_plain, with_outer_ok; assumption.
Qed.

Example ex_outer_ok :
  wire_okb (ethtoy_tx 100) = true /\ outer_okb 999999 0 [49]%N 0 [] [] 0 = true.
Proof. split; vm_compute; reflexivity. Qed.

(** * The decoder is not injective: repeated declared fields (last value wins),
      explicit defaults, any field order *)
Definition C16_wire_decode_injective_full : Prop :=
  forall w1 w2 d, wire_decode w1 = Some d -> wire_decode w2 = Some d -> w1 = w2.

Lemma wire_decode_injective_refuted : ~ C16_wire_decode_injective_full.
Proof.
  intro F.
  specialize (F (encode_tx toy_tx) ([32; 7]%N ++ encode_tx toy_tx) (plain toy_tx)).
  assert (A : wire_decode (encode_tx toy_tx) = Some (plain toy_tx)) by (vm_compute; reflexivity).
  assert (B : wire_decode ([32; 7]%N ++ encode_tx toy_tx) = Some (plain toy_tx)) by (vm_compute; reflexivity).
  specialize (F A B). vm_compute in F. discriminate F.
Qed.

Lemma wire_decode_injective_partial :
  forall t1 t2, wire_okb t1 = true -> wire_okb t2 = true ->
    wire_decode (encode_tx t1) = wire_decode (encode_tx t2) -> t1 = t2.
Proof.
  intros t1 t2 W1 W2 E. rewrite (wire_decode_encode_plain t1 W1), (wire_decode_encode_plain t2 W2) in E.
  injection E as E. exact E.
Qed.
