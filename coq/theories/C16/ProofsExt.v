(** C16 extension — Signature.ty / sender, and the secp256k1eth note mode. *)
From Coq Require Import String List NArith ZArith Lia Bool.
From C33 Require Import Lib.Harness C16.Proto C16.Model C16.Spec C16.Proofs C16.ProofsFrom
                        C16.ProtoUnknown C16.ModelUnknown C16.ModelEth C16.SpecExt C16.ProofsUnknown.
Import ListNotations.
Open Scope list_scope.

Definition set_ty (ty' : Z) (t : tx) : tx :=
  set_sig (option_map (fun s => mk_sig ty' (s_pub s) (s_sig s)) (signature t)) t.

(** what From() is computed from *)
Definition sender_of (t : tx) : option (Z * list N) :=
  option_map (fun s => (addr_id (s_ty s), s_pub s)) (signature t).

(** ty enters Hash, the signed bytes and CheckSign only through the driver id *)
Lemma ty_only_selects_driver :
  forall ds verify t s ty' h,
    signature t = Some s -> crypto_id ty' = crypto_id (s_ty s) ->
    check_sign ds verify (set_ty ty' t) h = check_sign ds verify t h /\
    hash_pre (set_ty ty' t) = hash_pre t /\ signed_bytes (set_ty ty' t) = signed_bytes t.
Proof.
  intros ds verify t s ty' h Sg E.
  destruct t as [e p sg0 f x n o g hd nx c]. cbn [signature] in Sg. subst sg0.
  unfold set_ty, check_sign. cbn [signature option_map set_sig s_ty s_pub s_sig
    execer payload fee expire nonce to_ groupCount header next chainID].
  rewrite E. repeat split; reflexivity.
Qed.

Lemma set_ty_sig ty' t s :
  signature t = Some s -> sig_ty (set_ty ty' t) = ty' /\ sig_pub (set_ty ty' t) = s_pub s.
Proof. intro Sg. unfold sig_ty, sig_pub, set_ty. cbn [signature set_sig]. rewrite Sg. split; reflexivity. Qed.

Lemma ty_selects_driver_and_sender :
  forall adrv ds verify t s ty' h,
    signature t = Some s -> crypto_id ty' = crypto_id (s_ty s) ->
    usable adrv ty' (s_pub s) = usable adrv (s_ty s) (s_pub s) ->
    check_sign_tx adrv ds verify (set_ty ty' t) h = check_sign_tx adrv ds verify t h.
Proof.
  intros adrv ds verify t s ty' h Sg E U.
  rewrite !check_sign_tx_split.
  destruct (set_ty_sig ty' t s Sg) as [-> ->].
  destruct (ty_only_selects_driver ds verify t s ty' h Sg E) as (-> & _).
  unfold sig_ty, sig_pub. rewrite Sg, U. reflexivity.
Qed.

Lemma checksign_tx_ignores_unknown :
  forall adrv ds verify d h, check_sign_tx_d adrv ds verify d h = check_sign_tx adrv ds verify (d_tx d) h.
Proof.
  intros adrv ds verify d h. unfold check_sign_tx_d, check_sign_tx.
  rewrite checksign_ignores_unknown. reflexivity.
Qed.

(** full strength: whoever is accepted with the honest signature is the
    sender the signer meant (same address format of the same key) *)
Definition C16_sender_bound_full : Prop :=
  forall adrv ds verify mall issued t ty pub sg t' s' h,
    ideal_scheme verify mall issued ->
    only_issued issued (crypto_id ty) pub (sign_msg t) sg ->
    wf_txb t = true -> wf_txb t' = true ->
    signature t' = Some s' -> crypto_id (s_ty s') = crypto_id ty ->
    check_sign_tx adrv ds verify t' h = true ->
    sender_of t' = sender_of (sign_tx ty pub sg t) /\
    tx_from adrv t' = tx_from adrv (sign_tx ty pub sg t).

(** still refuted after the repair of finding 11 (finding 10: the address id
    bits are not signed): between two address formats that both have a driver
    anyone can move the transaction to the other account of the key *)
Lemma sender_bound_refuted : ~ C16_sender_bound_full.
Proof.
  intro F.
  specialize (F toy_adrv toy_ds toy_verify toy_mall toy_issued1 toy_tx 1%Z toy_pub toy_sg
                (sign_tx 4097 toy_pub toy_sg toy_tx) (mk_sig 4097 toy_pub toy_sg) 20%Z
                toy_ideal toy_only eq_refl eq_refl eq_refl eq_refl).
  assert (C : check_sign_tx toy_adrv toy_ds toy_verify (sign_tx 4097 toy_pub toy_sg toy_tx) 20 = true)
    by (vm_compute; reflexivity).
  destruct (F C) as [F1 _]. vm_compute in F1. discriminate F1.
Qed.

(** guard: the address-format bits are the signer's; then the sender is bound *)
Lemma sender_bound_partial :
  forall adrv ds verify mall issued t ty pub sg t' s' h,
    Z.eqb (addr_id (s_ty s')) (addr_id ty) = true ->
    ideal_scheme verify mall issued ->
    only_issued issued (crypto_id ty) pub (sign_msg t) sg ->
    wf_txb t = true -> wf_txb t' = true ->
    signature t' = Some s' -> crypto_id (s_ty s') = crypto_id ty ->
    check_sign_tx adrv ds verify t' h = true ->
    sender_of t' = sender_of (sign_tx ty pub sg t) /\
    tx_from adrv t' = tx_from adrv (sign_tx ty pub sg t).
Proof.
  intros adrv ds verify mall issued t ty pub sg t' s' h G Id Only W W' Sg Eid C.
  apply check_sign_tx_true in C as [_ C].
  destruct (accepted_is_issued ds verify mall issued t ty pub sg t' s' h Id Only W W' Sg Eid C)
    as (_ & Ep & _).
  apply Z.eqb_eq in G. split.
  - unfold sender_of. rewrite Sg. cbn [option_map sign_tx set_sig signature s_ty s_pub].
    rewrite G, Ep. reflexivity.
  - rewrite !from_value. destruct (sig_of_sign_tx ty pub sg t) as [-> ->].
    unfold sig_ty, sig_pub. rewrite Sg, G, Ep. reflexivity.
Qed.

Example ex_addr_id : addr_id 1 = 0%Z /\ addr_id 4097 = 1%Z /\ addr_id 8452 = 2%Z /\ addr_id 28673 = 7%Z /\
                     crypto_id 4097 = 1%Z /\ crypto_id 1073741825 = 1%Z /\ crypto_id 32769 <> 1%Z.
Proof. repeat split; try reflexivity. vm_compute. discriminate. Qed.

Lemma action_of_nonce xa e p n a : action_of xa e p n = Some a -> a_nonce a = n.
Proof.
  unfold action_of. intro A.
  destruct (contains evm_str e); [destruct (decode_evmact p) as [ea|]|].
  - destruct (ea_code ea); [destruct (bytes_eqb (ea_caddr ea) xa)|]; injection A as <-; reflexivity.
  - destruct (decode_coins p) as [[|x|]|]; try discriminate. injection A as <-. reflexivity.
  - destruct (decode_coins p) as [[|x|]|]; try discriminate. injection A as <-. reflexivity.
Qed.

Section Eth.
  Variable cfg : ethcfg.
  Variable xaddr : list N -> list N.
  Variable parse : list N -> option ethview.
  Variable inner : hsrc -> list N -> list N -> bool.
  Variable other : Z -> list N -> list N -> list N -> bool.

  Definition ethv := verify_with_eth cfg xaddr parse inner other.

  (** the decision once the action is known *)
  Definition eth_verify_act (act : option action) (msg pub sg : list N) : bool :=
    match act with
    | Some a =>
        match a_note a with
        | [] => inner (HMsg msg) pub sg
        | _ :: _ =>
            match parse (a_note a) with
            | None => false
            | Some e =>
                Z.eqb (e_chain e) (c_chain cfg) && Z.eqb (a_nonce a) (e_nonce e) &&
                N.eqb (eth_amount cfg (e_value e)) (a_amount a) &&
                bytes_eqb (e_data e) (a_code a) &&
                match e_to e with None => true | Some to => bytes_eqb (eth_from_hex (a_to a)) to end &&
                inner (HEth (e_sighash e)) pub sg
            end
        end
    | None => inner (HMsg msg) pub sg
    end.

  Lemma eth_verify_unfold msg pub sg :
    eth_verify cfg xaddr parse inner msg pub sg = eth_verify_act (decode_tx_action xaddr msg) msg pub sg.
  Proof. reflexivity. Qed.

  Lemma note_mode_ignores_msg act m1 m2 pub sg :
    note_mode act = true -> eth_verify_act act m1 pub sg = eth_verify_act act m2 pub sg.
  Proof.
    unfold note_mode, eth_verify_act. destruct act as [a|]; [|discriminate].
    destruct (a_note a); [discriminate|reflexivity].
  Qed.

  (** guard: the signed bytes decode back to the declared fields (true of every
      transaction Go can hold, [ProofsWire3.wire_ok_decodes_plain]; checked on
      each case by the harness) *)
  Definition decodes_plainb (t : tx) : bool :=
    match wire_decode (signed_bytes t) with
    | Some d => tx_eqb (d_tx d) (set_sig None t)
    | None => false
    end.

  Lemma decodes_plain_action t :
    decodes_plainb t = true ->
    decode_tx_action xaddr (signed_bytes t) =
    action_of (xaddr (execer t)) (execer t) (payload t) (nonce t).
  Proof.
    unfold decodes_plainb, decode_tx_action. destruct (wire_decode (signed_bytes t)) as [d|]; [|discriminate].
    intros ->%tx_eqb_spec. destruct t; reflexivity.
  Qed.

  Lemma eth_same_action_same_verdict :
    forall ds t t' s h,
      signature t = Some s -> crypto_id (s_ty s) = eth_id ->
      decodes_plainb t = true -> decodes_plainb t' = true ->
      execer t' = execer t -> payload t' = payload t -> nonce t' = nonce t ->
      signature t' = signature t ->
      note_mode (action_of (xaddr (execer t)) (execer t) (payload t) (nonce t)) = true ->
      check_sign ds ethv t' h = check_sign ds ethv t h.
  Proof.
    intros ds t t' s h Sg Id D D' Ee Ep En Es NM. unfold check_sign. rewrite Es, Sg.
    destruct (load ds (crypto_id (s_ty s)) h) as [d|] eqn:L; [|reflexivity].
    apply load_id in L. rewrite L, Id.
    unfold ethv, verify_with_eth. rewrite Z.eqb_refl.
    rewrite !eth_verify_unfold, (decodes_plain_action t D), (decodes_plain_action t' D').
    rewrite Ee, Ep, En. apply note_mode_ignores_msg, NM.
  Qed.

  Definition with_outer (t : tx) (fee' expire' : Z) (to' : list N) (gc' : Z) (hd' nx' : list N) (cid' : Z) : tx :=
    mk_tx (execer t) (payload t) (signature t) fee' expire' (nonce t) to' gc' hd' nx' cid'.

  Lemma eth_unbound_outer_fields :
    forall ds t s h fee' expire' to' gc' hd' nx' cid',
      signature t = Some s -> crypto_id (s_ty s) = eth_id ->
      decodes_plainb t = true ->
      decodes_plainb (with_outer t fee' expire' to' gc' hd' nx' cid') = true ->
      note_mode (action_of (xaddr (execer t)) (execer t) (payload t) (nonce t)) = true ->
      check_sign ds ethv (with_outer t fee' expire' to' gc' hd' nx' cid') h = check_sign ds ethv t h.
  Proof.
    intros ds t s h fee' expire' to' gc' hd' nx' cid' Sg Id D D' NM.
    exact (eth_same_action_same_verdict ds t _ s h Sg Id D D' eq_refl eq_refl eq_refl eq_refl NM).
  Qed.

  Lemma eth_accepted_binds :
    forall ds t' s' h,
      signature t' = Some s' -> crypto_id (s_ty s') = eth_id ->
      decodes_plainb t' = true ->
      check_sign ds ethv t' h = true ->
      forall a, action_of (xaddr (execer t')) (execer t') (payload t') (nonce t') = Some a ->
      a_note a <> [] ->
      exists e, parse (a_note a) = Some e /\
                inner (HEth (e_sighash e)) (s_pub s') (s_sig s') = true /\
                e_chain e = c_chain cfg /\ nonce t' = e_nonce e /\
                eth_amount cfg (e_value e) = a_amount a /\ e_data e = a_code a /\
                (forall to, e_to e = Some to -> eth_from_hex (a_to a) = to).
  Proof.
    intros ds t' s' h Sg Id D C a A NE. unfold check_sign in C. rewrite Sg in C.
    destruct (load ds (crypto_id (s_ty s')) h) as [d|] eqn:L; [|discriminate].
    apply load_id in L. rewrite L, Id in C.
    unfold ethv, verify_with_eth in C. rewrite Z.eqb_refl in C.
    rewrite eth_verify_unfold, (decodes_plain_action t' D), A in C.
    unfold eth_verify_act in C.
    pose proof (action_of_nonce _ _ _ _ a A) as An.
    destruct (a_note a) as [|n0 nt] eqn:En; [congruence|].
    destruct (parse (n0 :: nt)) as [e|]; [|discriminate].
    rewrite !andb_true_iff in C. destruct C as [[[[[C1 C2] C3] C4] C5] C6].
    exists e. split; [reflexivity|]. split; [exact C6|].
    apply Z.eqb_eq in C1. apply Z.eqb_eq in C2. apply N.eqb_eq in C3. apply bytes_eqb_eq in C4.
    repeat split; auto; try congruence.
    intros to Et. rewrite Et in C5. apply bytes_eqb_eq in C5. exact C5.
  Qed.
End Eth.

(** the key signed exactly one thing: the Ethereum transaction with signing hash [h0] *)
Definition inner_only (inner : hsrc -> list N -> list N -> bool) (h0 pub sg : list N) : Prop :=
  forall src p s, inner src p s = true <-> (src = HEth h0 /\ p = pub /\ s = sg).

Definition C16_eth_altered_fails_full : Prop :=
  forall cfg xaddr parse inner other ds t t' s' h h0 pub sg,
    inner_only inner h0 pub sg ->
    wf_txb t = true -> wf_txb t' = true ->
    signature t = Some (mk_sig eth_id pub sg) ->
    check_sign ds (verify_with_eth cfg xaddr parse inner other) t h = true ->
    signature t' = Some s' -> crypto_id (s_ty s') = eth_id ->
    (set_sig None t' <> set_sig None t \/ s_pub s' <> pub \/ s_sig s' <> sg) ->
    check_sign ds (verify_with_eth cfg xaddr parse inner other) t' h = false.

Definition ethtoy_cfg : ethcfg := mk_ec 0 (10 ^ 8).
Definition ethtoy_xaddr (_ : list N) : list N := [88]%N.
Definition ethtoy_view : ethview := mk_ev 0 77 0 [] None [1; 2; 3]%N.
Definition ethtoy_parse (_ : list N) : option ethview := Some ethtoy_view.
Definition ethtoy_inner (src : hsrc) (p s : list N) : bool :=
  match src with
  | HEth h => bytes_eqb h [1; 2; 3]%N && bytes_eqb p toy_pub && bytes_eqb s toy_sg
  | HMsg _ => false
  end.
Definition ethtoy_ds : list drv := [mk_drv 260 true 0].
(** execer "evm", payload = EVMAction4Chain33{note: "00"}, nonce 77 *)
Definition ethtoy_tx (fee' : Z) : tx :=
  mk_tx [101; 118; 109]%N [58; 2; 48; 48]%N (Some (mk_sig 260 toy_pub toy_sg)) fee' 0 77
        [49]%N 0 [] [] 0.

Lemma ethtoy_inner_only : inner_only ethtoy_inner [1; 2; 3]%N toy_pub toy_sg.
Proof.
  intros src p s. unfold ethtoy_inner. split.
  - destruct src as [m|hh]; [discriminate|]. rewrite !andb_true_iff. intros [[A B] C].
    apply bytes_eqb_eq in A. apply bytes_eqb_eq in B. apply bytes_eqb_eq in C. subst. auto.
  - intros (-> & -> & ->). reflexivity.
Qed.

Lemma eth_altered_fails_refuted : ~ C16_eth_altered_fails_full.
Proof.
  intro F.
  specialize (F ethtoy_cfg ethtoy_xaddr ethtoy_parse ethtoy_inner (fun _ _ _ _ => false) ethtoy_ds
                (ethtoy_tx 100) (ethtoy_tx 999999) (mk_sig 260 toy_pub toy_sg) 5%Z [1; 2; 3]%N toy_pub toy_sg
                ethtoy_inner_only eq_refl eq_refl eq_refl).
  assert (C : check_sign ethtoy_ds (verify_with_eth ethtoy_cfg ethtoy_xaddr ethtoy_parse ethtoy_inner
                                     (fun _ _ _ _ => false)) (ethtoy_tx 100) 5 = true)
    by (vm_compute; reflexivity).
  specialize (F C eq_refl eq_refl).
  assert (C' : check_sign ethtoy_ds (verify_with_eth ethtoy_cfg ethtoy_xaddr ethtoy_parse ethtoy_inner
                                      (fun _ _ _ _ => false)) (ethtoy_tx 999999) 5 = true)
    by (vm_compute; reflexivity).
  rewrite F in C'; [discriminate|].
  left. vm_compute. discriminate.
Qed.

(** non-vacuity of the eth lemmas: the toy transaction satisfies their guards *)
Example ex_eth_guards :
  decodes_plainb (ethtoy_tx 100) = true /\ decodes_plainb (ethtoy_tx 999999) = true /\
  note_mode (action_of (ethtoy_xaddr []) (execer (ethtoy_tx 100)) (payload (ethtoy_tx 100)) 77) = true /\
  ethtoy_tx 999999 = with_outer (ethtoy_tx 100) 999999 0 [49]%N 0 [] [] 0.
Proof. repeat split; vm_compute; reflexivity. Qed.
