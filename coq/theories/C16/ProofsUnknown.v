(** C16 extension — proofs about unknown protobuf fields. *)
From Coq Require Import String List NArith ZArith Lia Bool.
From C33 Require Import Lib.Harness C16.Proto C16.Model C16.Spec C16.Proofs
                        C16.ProtoUnknown C16.ModelUnknown.
Import ListNotations.
Open Scope list_scope.

Lemma app_self_nil {A} (l u : list A) : l = l ++ u -> u = [].
Proof. intro E. rewrite <- (app_nil_r l) in E at 1. apply app_inv_head in E. symmetry. exact E. Qed.

Lemma encode_d_split d :
  encode_d d = encode_d (mk_dtx (d_tx d) (d_sunk d) []) ++ d_unk d.
Proof. unfold encode_d. cbn [d_tx d_sunk d_unk]. rewrite app_nil_r, <- !app_assoc. reflexivity. Qed.

Lemma encode_d_nounk t : encode_d (mk_dtx t [] []) = encode_tx t.
Proof.
  unfold encode_d, encode_tx, encode_sig_u. cbn [d_tx d_sunk d_unk]. rewrite !app_nil_r.
  destruct (signature t) as [s|]; cbn [option_map]; [rewrite app_nil_r|]; reflexivity.
Qed.

(** without a Signature its unknown bytes are not emitted *)
Lemma encode_d_plain t sunk : encode_d (mk_dtx (set_sig None t) sunk []) = encode_tx (set_sig None t).
Proof. unfold encode_d, encode_tx. cbn. rewrite !app_nil_r. reflexivity. Qed.

Lemma encode_d_no_sunk t u : encode_d (mk_dtx t [] u) = encode_tx t ++ u.
Proof. rewrite encode_d_split. cbn [d_tx d_sunk d_unk]. rewrite encode_d_nounk. reflexivity. Qed.

(** * Hash, FullHash, checkSign do not see them: the copies they encode have
      no unknown part left *)
Lemma hash_pre_d_eq d : hash_pre_d d = hash_pre (d_tx d).
Proof. apply encode_d_nounk. Qed.

Lemma full_pre_d_eq d : full_pre_d d = full_pre (d_tx d).
Proof. apply encode_d_nounk. Qed.

Lemma signed_bytes_d_eq d : signed_bytes_d d = signed_bytes (d_tx d).
Proof. apply encode_d_nounk. Qed.

Lemma hash_ignores_unknown :
  forall (HT : Type) (H : list N -> HT) d,
    tx_hash_d H d = tx_hash H (d_tx d) /\ full_hash_d H d = full_hash H (d_tx d).
Proof.
  intros. unfold tx_hash_d, full_hash_d, tx_hash, full_hash.
  rewrite hash_pre_d_eq, full_pre_d_eq. split; reflexivity.
Qed.

Lemma hash_same_for_any_unknown :
  forall (HT : Type) (H : list N -> HT) t su1 u1 su2 u2,
    tx_hash_d H (mk_dtx t su1 u1) = tx_hash_d H (mk_dtx t su2 u2) /\
    full_hash_d H (mk_dtx t su1 u1) = full_hash_d H (mk_dtx t su2 u2).
Proof.
  intros. unfold tx_hash_d, full_hash_d. rewrite !hash_pre_d_eq, !full_pre_d_eq. split; reflexivity.
Qed.

Lemma checksign_ignores_unknown :
  forall ds verify d h, check_sign_d ds verify d h = check_sign ds verify (d_tx d) h.
Proof. intros. unfold check_sign_d, check_sign. rewrite signed_bytes_d_eq. reflexivity. Qed.

Lemma clone_drops_unknown :
  forall (HT : Type) (H : list N -> HT) d,
    encode_d (clone_d d) = encode_tx (d_tx d) /\
    d_unk (clone_tx_d d) = [] /\ d_sunk (clone_tx_d d) = d_sunk d /\
    tx_hash_d H (clone_d d) = tx_hash_d H d /\ full_hash_d H (clone_d d) = full_hash_d H d /\
    tx_hash_d H (clone_tx_d d) = tx_hash_d H d /\ full_hash_d H (clone_tx_d d) = full_hash_d H d.
Proof.
  intros HT H d.
  split; [unfold clone_d; rewrite clone_id; apply encode_d_nounk|].
  split; [reflexivity|]. split; [reflexivity|].
  unfold tx_hash_d, full_hash_d. rewrite !hash_pre_d_eq, !full_pre_d_eq.
  unfold clone_d, clone_tx_d. cbn [d_tx]. rewrite clone_id, clone_tx_id. repeat split; reflexivity.
Qed.

Lemma clone_same_encoding_iff d :
  encode_d (clone_d d) = encode_d d <-> (d_unk d = [] /\ (signature (d_tx d) = None \/ d_sunk d = [])).
Proof.
  unfold clone_d. rewrite clone_id, encode_d_nounk. unfold encode_d, encode_tx, encode_sig_u.
  set (t := d_tx d).
  split.
  - (* the two encodings agree up to field 3; there the sub-message bodies and
       what follows them must be equal *)
    intro E. do 2 apply app_inv_head in E.
    destruct (signature t) as [s|]; cbn [option_map enc_msg app] in E.
    + apply len_delim_inj in E as [E1 E2]. repeat apply app_inv_head in E2.
      split; [exact (app_self_nil _ _ E2)|right; exact (app_self_nil _ _ E1)].
    + repeat apply app_inv_head in E.
      split; [exact (app_self_nil _ _ E)|left; reflexivity].
  - intros [U S]. rewrite U. destruct S as [S|S].
    + rewrite S. cbn [option_map]. rewrite !app_nil_r. reflexivity.
    + rewrite S. destruct (signature t); cbn [option_map]; rewrite ?app_nil_r; reflexivity.
Qed.
