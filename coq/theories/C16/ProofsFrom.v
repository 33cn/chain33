(** C16 — Transaction.From() and the sender gate of Transaction.CheckSign
    (repair of finding 11, /repo 909acb0).

    [check_sign] (Model.v) is what CheckSign did before the repair and still is
    the part after the gate (signature present, types.CheckSign); the whole of
    Transaction.CheckSign is [check_sign_tx].  [check_sign_tx_split] carries
    every statement about [check_sign] over. *)
From Coq Require Import String List NArith ZArith Lia Bool.
From C33 Require Import Lib.Harness C16.Proto C16.Model C16.Spec C16.Proofs.
Import ListNotations.
Open Scope list_scope.

Lemma from_value adrv t :
  tx_from adrv t =
  Some (match adrv (addr_id (sig_ty t)) (sig_pub t) with AAddr a => a | ANone | APanic => [] end).
Proof. unfold tx_from, from_addr. destruct (adrv _ _); reflexivity. Qed.

Lemma from_total : forall adrv t, exists a, tx_from adrv t = Some a.
Proof. intros adrv t. rewrite from_value. eexists. reflexivity. Qed.

Lemma from_usable adrv t :
  usable adrv (sig_ty t) (sig_pub t) = true ->
  exists a, adrv (addr_id (sig_ty t)) (sig_pub t) = AAddr a /\ tx_from adrv t = Some a.
Proof.
  unfold usable. intro U. rewrite from_value.
  destruct (adrv (addr_id (sig_ty t)) (sig_pub t)) as [| |a]; try discriminate.
  exists a. split; reflexivity.
Qed.

Lemma from_unusable adrv t :
  usable adrv (sig_ty t) (sig_pub t) = false -> tx_from adrv t = Some [].
Proof.
  unfold usable. intro U. rewrite from_value.
  destruct (adrv (addr_id (sig_ty t)) (sig_pub t)); try reflexivity. discriminate.
Qed.

Lemma from_addr_usable adrv t :
  match from_addr adrv t with Some _ => true | None => false end = usable adrv (sig_ty t) (sig_pub t).
Proof. unfold from_addr, usable. destruct (adrv _ _); reflexivity. Qed.

Lemma check_sign_tx_split adrv ds verify t h :
  check_sign_tx adrv ds verify t h = usable adrv (sig_ty t) (sig_pub t) && check_sign ds verify t h.
Proof.
  unfold check_sign_tx. rewrite <- from_addr_usable.
  destruct (signature t) as [s|] eqn:Sg.
  - destruct (from_addr adrv t); reflexivity.
  - rewrite (unsigned_fails ds verify t h Sg). apply eq_sym, andb_false_r.
Qed.

Lemma check_sign_tx_true adrv ds verify t h :
  check_sign_tx adrv ds verify t h = true ->
  usable adrv (sig_ty t) (sig_pub t) = true /\ check_sign ds verify t h = true.
Proof. rewrite check_sign_tx_split. apply andb_true_iff. Qed.

Lemma check_sign_false_tx adrv ds verify t h :
  check_sign ds verify t h = false -> check_sign_tx adrv ds verify t h = false.
Proof. intro C. rewrite check_sign_tx_split, C. apply andb_false_r. Qed.

Lemma unusable_rejected :
  forall adrv ds verify t s h,
    signature t = Some s ->
    (forall a, adrv (addr_id (s_ty s)) (s_pub s) <> AAddr a) ->
    check_sign_tx adrv ds verify t h = false.
Proof.
  intros adrv ds verify t s h Sg N. rewrite check_sign_tx_split.
  unfold usable, sig_ty, sig_pub. rewrite Sg.
  destruct (adrv (addr_id (s_ty s)) (s_pub s)) as [| |a] eqn:E; try reflexivity.
  exfalso. exact (N a eq_refl).
Qed.

Lemma accepted_has_sender :
  forall adrv ds verify t h,
    check_sign_tx adrv ds verify t h = true ->
    exists s a, signature t = Some s /\ adrv (addr_id (s_ty s)) (s_pub s) = AAddr a /\
                tx_from adrv t = Some a /\ check_sign ds verify t h = true.
Proof.
  intros adrv ds verify t h C. apply check_sign_tx_true in C as [U C].
  destruct (signature t) as [s|] eqn:Sg.
  - destruct (from_usable adrv t U) as (a & E & F). exists s, a.
    unfold sig_ty, sig_pub in E. rewrite Sg in E. auto.
  - rewrite (unsigned_fails ds verify t h Sg) in C. discriminate.
Qed.

Lemma sig_of_sign_tx ty pub sg t :
  sig_ty (sign_tx ty pub sg t) = ty /\ sig_pub (sign_tx ty pub sg t) = pub.
Proof. split; reflexivity. Qed.

Lemma sign_then_verify_tx :
  forall adrv ds verify mall issued t ty pub sg h d,
    ideal_scheme verify mall issued ->
    load ds (crypto_id ty) h = Some d ->
    issued (d_id d) pub (sign_msg t) sg ->
    usable adrv ty pub = true ->
    check_sign_tx adrv ds verify (sign_tx ty pub sg t) h = true.
Proof.
  intros adrv ds verify mall issued t ty pub sg h d Id L I U.
  rewrite check_sign_tx_split. destruct (sig_of_sign_tx ty pub sg t) as [-> ->].
  rewrite U. exact (sign_then_verify ds verify mall issued t ty pub sg h d Id L I).
Qed.

(** the guard is needed: a type whose address format has no driver is not a
    type to sign with - the honest signer is refused as well *)
Lemma sign_unusable_refused :
  forall adrv ds verify t ty pub sg h,
    usable adrv ty pub = false ->
    check_sign_tx adrv ds verify (sign_tx ty pub sg t) h = false.
Proof.
  intros adrv ds verify t ty pub sg h U. rewrite check_sign_tx_split.
  destruct (sig_of_sign_tx ty pub sg t) as [-> ->]. rewrite U. reflexivity.
Qed.

Lemma altered_fails_tx_partial :
  forall adrv ds verify mall issued t ty pub sg t' s' h,
    ideal_scheme verify mall issued ->
    only_issued issued (crypto_id ty) pub (sign_msg t) sg ->
    wf_txb t = true -> wf_txb t' = true ->
    signature t' = Some s' -> crypto_id (s_ty s') = crypto_id ty ->
    (set_sig None t' <> set_sig None t \/ s_pub s' <> pub \/
     mall (crypto_id ty) sg (s_sig s') = false) ->
    check_sign_tx adrv ds verify t' h = false.
Proof.
  intros adrv ds verify mall issued t ty pub sg t' s' h Id Only W W' Sg Eid Alt.
  apply check_sign_false_tx.
  exact (altered_fails_partial ds verify mall issued t ty pub sg t' s' h Id Only W W' Sg Eid Alt).
Qed.

Lemma disabled_fails_tx :
  forall adrv ds verify t s h,
    (0 <= h)%Z -> signature t = Some s ->
    enabled ds (crypto_id (s_ty s)) h = false ->
    check_sign_tx adrv ds verify t h = false.
Proof.
  intros adrv ds verify t s h Hh Sg E. apply check_sign_false_tx.
  exact (disabled_fails ds verify t s h Hh Sg E).
Qed.

Lemma unsigned_fails_tx :
  forall adrv ds verify t h, signature t = None -> check_sign_tx adrv ds verify t h = false.
Proof. intros adrv ds verify t h Sg. unfold check_sign_tx. rewrite Sg. reflexivity. Qed.

Lemma disabled_or_unsigned_fails_tx :
  forall adrv ds verify t h,
    (signature t = None \/
     exists s, (0 <= h)%Z /\ signature t = Some s /\ enabled ds (crypto_id (s_ty s)) h = false) ->
    check_sign_tx adrv ds verify t h = false.
Proof.
  intros adrv ds verify t h [Sg | (s & Hh & Sg & E)].
  - exact (unsigned_fails_tx adrv ds verify t h Sg).
  - exact (disabled_fails_tx adrv ds verify t s h Hh Sg E).
Qed.

(** * Examples: the address drivers of /repo in miniature *)
(** 0, 1: hash of the key (any key); 2: eth, panics on an empty key; 3: utxo,
    registered, panics "implement me"; 4..7: no driver *)
Definition toy_adrv (id : Z) (pub : list N) : aout :=
  if Z.eqb id 0 || Z.eqb id 1 then AAddr (Z.to_N id :: 58%N :: pub)
  else if Z.eqb id 2 then match pub with [] => APanic | _ :: _ => AAddr (2%N :: 120%N :: pub) end
  else if Z.eqb id 3 then APanic
  else ANone.

(** ty = secp256k1 | 3<<12 (utxo), | 5<<12 (no driver): signed by the key
    holder, accepted by the signature driver - refused, and From() is "" *)
Example ex_unusable_refused :
  check_sign toy_ds toy_verify (sign_tx 12289 toy_pub toy_sg toy_tx) 20 = true /\
  check_sign_tx toy_adrv toy_ds toy_verify (sign_tx 12289 toy_pub toy_sg toy_tx) 20 = false /\
  tx_from toy_adrv (sign_tx 12289 toy_pub toy_sg toy_tx) = Some [] /\
  check_sign_tx toy_adrv toy_ds toy_verify (sign_tx 20481 toy_pub toy_sg toy_tx) 20 = false /\
  tx_from toy_adrv (sign_tx 20481 toy_pub toy_sg toy_tx) = Some [].
Proof. vm_compute. repeat split; reflexivity. Qed.

(** usable formats: accepted, with the driver's address as sender *)
Example ex_usable_accepted :
  usable toy_adrv 1 toy_pub = true /\
  check_sign_tx toy_adrv toy_ds toy_verify (sign_tx 1 toy_pub toy_sg toy_tx) 20 = true /\
  tx_from toy_adrv (sign_tx 1 toy_pub toy_sg toy_tx) = Some (0%N :: 58%N :: toy_pub) /\
  check_sign_tx toy_adrv toy_ds toy_verify (sign_tx 8193 toy_pub toy_sg toy_tx) 20 = true /\
  tx_from toy_adrv (sign_tx 8193 toy_pub toy_sg toy_tx) = Some (2%N :: 120%N :: toy_pub).
Proof. vm_compute. repeat split; reflexivity. Qed.

(** eth format with an empty key, and no signature at all: From() answers *)
Example ex_from_edge :
  tx_from toy_adrv (sign_tx 8193 [] toy_sg toy_tx) = Some [] /\
  check_sign_tx toy_adrv toy_ds (fun _ _ _ _ => true) (sign_tx 8193 [] toy_sg toy_tx) 20 = false /\
  tx_from toy_adrv toy_tx = Some [0%N; 58%N] /\
  signature toy_tx = None.
Proof. vm_compute. repeat split; reflexivity. Qed.
