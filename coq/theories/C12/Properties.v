(** C12 — property theorems only. *)
From Coq Require Import List NArith Bool.
From C33 Require Import Lib.Harness Lib.Bytes C12.Model C12.Spec C12.Proofs.
From C33 Require Import C12.ModelGroup C12.ProofsGroup C12.ProofsGroupState.
Import ListNotations.
Open Scope N_scope.

Theorem C12_write_allowed_implies_spec :
  forall title fork exec_addr registered friend key real txexec,
    is_allow_key_write title fork exec_addr registered friend key real txexec = true ->
    allowed_key title exec_addr registered friend real txexec key
    \/ (fork = false /\ legacy_exception title txexec key).
Proof. exact write_allowed_implies_spec. Qed.
Print Assumptions C12_write_allowed_implies_spec.

Theorem C12_write_allowed_full_refuted : ~ write_allowed_full.
Proof. exact write_allowed_full_refuted. Qed.
Print Assumptions C12_write_allowed_full_refuted.

Theorem C12_write_allowed_implies_spec_partial :
  forall title fork exec_addr registered friend key real txexec,
    fork || negb (legacy_exception_b title txexec key) = true ->
    is_allow_key_write title fork exec_addr registered friend key real txexec = true ->
    allowed_key title exec_addr registered friend real txexec key.
Proof. exact write_allowed_partial. Qed.
Print Assumptions C12_write_allowed_implies_spec_partial.

Theorem C12_key_executor_unique :
  forall key e1 e2, in_namespace e1 key -> in_namespace e2 key -> e1 = e2.
Proof. exact in_namespace_unique. Qed.
Print Assumptions C12_key_executor_unique.

Theorem C12_own_namespace_always_allowed :
  forall title fork exec_addr registered friend key real txexec,
    own_namespace title txexec key ->
    is_allow_key_write title fork exec_addr registered friend key real txexec = true.
Proof. exact own_namespace_allowed. Qed.
Print Assumptions C12_own_namespace_always_allowed.

Theorem C12_success_implies_all_keys_allowed :
  forall title fork exec_addr registered friend feekv r txexec ty kvs,
    exec_tx_one title fork exec_addr registered friend feekv r txexec = (true, ty, kvs) ->
    (r = ER_nil /\ ty = ty_exec_pack /\ kvs = feekv)
    \/ exists kvs0 memset,
         r = ER_ok ty kvs0 memset /\ kvs = feekv ++ kvs0
         /\ (forall k, In k memset -> In k (map fst kvs0))
         /\ (forall k, In k (map fst kvs0) ->
               allowed_key title exec_addr registered friend (real_exec_of title registered txexec) txexec k
               \/ (fork = false /\ legacy_exception title txexec k)).
Proof. exact success_implies_all_keys_allowed. Qed.
Print Assumptions C12_success_implies_all_keys_allowed.

Theorem C12_failure_discards_writes :
  forall title fork exec_addr registered friend feekv r txexec ty kvs,
    exec_tx_one title fork exec_addr registered friend feekv r txexec = (false, ty, kvs) ->
    ty = ty_exec_pack /\ kvs = feekv
    /\ (r = ER_err
        \/ exists ty0 kvs0 memset, r = ER_ok ty0 kvs0 memset
             /\ ((exists k, In k memset /\ ~ In k (map fst kvs0))
                 \/ (exists k, In k (map fst kvs0)
                       /\ is_allow_exec title fork exec_addr registered friend k txexec = false))).
Proof. exact failure_discards_writes. Qed.
Print Assumptions C12_failure_discards_writes.

Theorem C12_refused_tx_state :
  forall title fork exec_addr registered friend allow_list s feekv r txexec s' ty kvs,
    apply_tx title fork exec_addr registered friend allow_list s feekv r txexec
      = (s', (false, ty, kvs)) ->
    (kvs = feekv \/ kvs = []) /\ s' = st_set s kvs.
Proof. exact refused_tx_state. Qed.
Print Assumptions C12_refused_tx_state.

Theorem C12_local_key_shape :
  forall execer key,
    is_allow_local_key execer key = 0 <->
    (local_shape execer key \/ local_shape (get_real_exec_name execer) key).
Proof. intros execer key. split; [apply local_key_shape|apply local_shape_accepted]. Qed.
Print Assumptions C12_local_key_shape.

Theorem C12_exec_local_keys_shape :
  forall execer ks memset,
    exec_local_tx execer (Some ks) memset = 0 ->
    (forall k, In k memset -> In k ks)
    /\ forall k, In k ks -> local_shape execer k \/ local_shape (get_real_exec_name execer) k.
Proof. exact exec_local_tx_shape. Qed.
Print Assumptions C12_exec_local_keys_shape.

(** transaction groups on the state db (ModelGroup.v) *)
Theorem C12_group_unreported_write_refused :
  forall title fork exec_addr registered friend s feekv pre m post,
    intx s = false ->
    own_driver_runs title registered m ->
    unreported_write m ->
    exec_tx_group title fork exec_addr registered friend s feekv (pre ++ m :: post)
    = (fee_only s feekv, false, failed_group feekv (pre ++ m :: post)).
Proof. exact group_unreported_write_refused. Qed.
Print Assumptions C12_group_unreported_write_refused.

Theorem C12_group_failure_keeps_fee_only :
  forall title fork exec_addr registered friend s feekv ms s' rs,
    intx s = false -> ms <> [] ->
    exec_tx_group title fork exec_addr registered friend s feekv ms = (s', false, rs) ->
    rs = failed_group feekv ms /\ s' = fee_only s feekv
    /\ forall k, sdb_get s' k = st_get (st_set (cache s) feekv) k.
Proof. exact group_failure. Qed.
Print Assumptions C12_group_failure_keeps_fee_only.

Theorem C12_group_success_reported_allowed_state :
  forall title fork exec_addr registered friend s feekv ms s' rs,
    intx s = false ->
    exec_tx_group title fork exec_addr registered friend s feekv ms = (s', true, rs) ->
    Forall (clean title fork exec_addr registered friend) ms
    /\ rs = group_receipts title registered feekv ms
    /\ intx s' = false /\ txcache s' = []
    /\ (forall k, sdb_get s' k = st_get (st_set (cache s) (concat (map snd rs))) k).
Proof. exact group_success. Qed.
Print Assumptions C12_group_success_reported_allowed_state.

Theorem C12_sdb_tx_unreported_write_refused :
  forall title fork exec_addr registered friend allow_list s feekv m,
    intx s = false -> own_driver_runs title registered m -> unreported_write m ->
    exec_tx_sdb title fork exec_addr registered friend allow_list s feekv m
    = (if is_allow_exec_name allow_list (real_exec_of title registered (m_exec m)) (m_exec m)
       then (fee_only s feekv, false, (ty_exec_pack, feekv)) else (s, false, (0, []))).
Proof. exact single_unreported_write_refused. Qed.
Print Assumptions C12_sdb_tx_unreported_write_refused.
