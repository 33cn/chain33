(** C12 — proofs about the write-permission model. *)
From Coq Require Import String.
From Coq Require Import List NArith Bool Lia PeanoNat.
From C33 Require Import Lib.Harness Lib.Bytes C12.Model C12.Spec.
Import ListNotations.
Open Scope N_scope.

Lemma split_at_spec c l a b :
  split_at c l = Some (a, b) -> l = a ++ c :: b /\ ~ In c a.
Proof.
  revert a. induction l as [|x tl IH]; intros a H; simpl in H; [discriminate|].
  destruct (N.eqb x c) eqn:E.
  - apply N.eqb_eq in E. injection H as <- <-. subst x. split; [reflexivity|intros []].
  - destruct (split_at c tl) as [[a' b']|]; [|discriminate].
    injection H as <- <-. destruct (IH a' eq_refl) as [-> NI].
    split; [reflexivity|]. intros [F|F]; [|exact (NI F)].
    subst x. rewrite N.eqb_refl in E. discriminate.
Qed.

Lemma split_at_app c a b : ~ In c a -> split_at c (a ++ c :: b) = Some (a, b).
Proof.
  induction a as [|x a IH]; intro H; simpl.
  - rewrite N.eqb_refl. reflexivity.
  - destruct (N.eqb x c) eqn:E.
    + apply N.eqb_eq in E. exfalso. apply H. left. exact E.
    + rewrite IH; [reflexivity|]. intro F. apply H. right. exact F.
Qed.

Lemma has_byte_false c l : has_byte c l = false <-> ~ In c l.
Proof.
  unfold has_byte. rewrite <- not_true_iff_false, existsb_exists. split.
  - intros H F. apply H. exists c. split; [exact F|apply N.eqb_refl].
  - intros H [x [Hx E]]. apply N.eqb_eq in E. subst x. exact (H Hx).
Qed.

Lemma mem_spec k l : existsb (bytes_eqb k) l = true <-> In k l.
Proof.
  rewrite existsb_exists. split.
  - intros [x [Hx E]]. apply bytes_eqb_eq in E. subst x. exact Hx.
  - intro H. exists k. split; [exact H|apply bytes_eqb_refl].
Qed.

Lemma forallb_false {A} (f : A -> bool) l :
  forallb f l = false -> exists x, In x l /\ f x = false.
Proof.
  induction l as [|a l IH]; simpl; [discriminate|].
  destruct (f a) eqn:E.
  - intro H. destruct (IH H) as [x [Hx Fx]]. exists x. auto.
  - intros _. exists a. auto.
Qed.

Lemma skipn_mavl s : skipn 5 (b_mavl ++ s) = s.
Proof. reflexivity. Qed.

(** * FindExecer: the executor segment is exact *)
Lemma find_execer_ok key e : find_execer key = FE_ok e -> in_namespace e key.
Proof.
  unfold find_execer. destruct (is_prefix b_mavl key) eqn:P; [|discriminate].
  apply is_prefix_iff in P as [s ->]. rewrite skipn_mavl.
  destruct (split_at c_dash s) as [[a b]|] eqn:S; [|discriminate].
  intro H. inversion H; subst. apply split_at_spec in S as [-> N].
  exists b. split; [reflexivity|exact N].
Qed.

Lemma in_namespace_find key e : in_namespace e key -> find_execer key = FE_ok e.
Proof.
  intros [rest [-> N]]. unfold find_execer.
  rewrite is_prefix_app, skipn_mavl, split_at_app by exact N. reflexivity.
Qed.

Lemma in_namespace_unique key e1 e2 : in_namespace e1 key -> in_namespace e2 key -> e1 = e2.
Proof.
  intros H1 H2. apply in_namespace_find in H1, H2. congruence.
Qed.

(** * GetExecKey on a mavl key: the exec-account area shape *)
Lemma get_exec_key_area key a :
  is_prefix b_mavl key = true -> get_exec_key key = Some a -> in_exec_area a key.
Proof.
  intros P. apply is_prefix_iff in P as [s ->]. unfold get_exec_key. rewrite skipn_mavl.
  destruct (split_at c_dash s) as [[x r1]|] eqn:S1; [|discriminate].
  destruct (split_at c_dash r1) as [[y r2]|] eqn:S2; [|discriminate].
  destruct (split_at c_dash r2) as [[seg r3]|] eqn:S3; [|discriminate].
  destruct (bytes_eqb seg b_exec) eqn:E; [|discriminate].
  destruct (split_at c_colon r3) as [[addr rest]|] eqn:S4; [|discriminate].
  intro H. inversion H; subst addr.
  apply bytes_eqb_eq in E. subst seg.
  apply split_at_spec in S1 as [-> N1]. apply split_at_spec in S2 as [-> N2].
  apply split_at_spec in S3 as [-> _]. apply split_at_spec in S4 as [-> N4].
  exists x, y, rest. repeat split; auto.
Qed.

Lemma in_exec_area_get key a : in_exec_area a key -> get_exec_key key = Some a.
Proof.
  intros [x [y [rest [-> [N1 [N2 N3]]]]]]. unfold get_exec_key. rewrite skipn_mavl.
  rewrite split_at_app by exact N1. rewrite split_at_app by exact N2.
  replace (b_exec ++ c_dash :: a ++ c_colon :: rest) with (b_exec ++ c_dash :: (a ++ c_colon :: rest)) by reflexivity.
  rewrite split_at_app.
  - rewrite bytes_eqb_refl. rewrite split_at_app by exact N3. reflexivity.
  - unfold b_exec, c_dash. simpl. intros [F|[F|[F|[F|[]]]]]; discriminate.
Qed.

Section AllowProofs.
  Variable title : list N.
  Variable fork_exec_key : bool.
  Variable exec_addr : list N -> list N.
  Variable registered : list N -> bool.
  Variable friend : list N -> list N -> list N -> list N -> bool.

  Let allowed := allowed_key title exec_addr registered friend.

  Lemma write_allowed_implies_spec key real txexec :
    is_allow_key_write title fork_exec_key exec_addr registered friend key real txexec = true ->
    allowed real txexec key \/ (fork_exec_key = false /\ legacy_exception title txexec key).
  Proof.
    unfold is_allow_key_write, allow_decision, allowed, allowed_key.
    destruct (find_execer key) as [e| |] eqn:F; try (simpl; discriminate).
    pose proof (find_execer_ok _ _ F) as NS.
    assert (is_prefix b_mavl key = true) as PM.
    { unfold find_execer in F. destruct (is_prefix b_mavl key); [reflexivity|discriminate]. }
    destruct (bytes_eqb e (get_para_exec title txexec)) eqn:E1.
    { intros _. apply bytes_eqb_eq in E1. subst e. left. left. exact NS. }
    destruct (negb fork_exec_key && bytes_eqb (get_para_exec title txexec) b_manage
              && bytes_eqb e b_config) eqn:E2.
    { intros _. apply andb_true_iff in E2 as [E2 E2c]. apply andb_true_iff in E2 as [E2a E2b].
      apply negb_true_iff in E2a. apply bytes_eqb_eq in E2b, E2c. subst e.
      right. split; [exact E2a|]. left. split; assumption. }
    destruct (negb fork_exec_key && bytes_eqb (get_para_exec title txexec) b_token
              && is_prefix b_create_token key) eqn:E3.
    { intros _. apply andb_true_iff in E3 as [E3 E3c]. apply andb_true_iff in E3 as [E3a E3b].
      apply negb_true_iff in E3a. apply bytes_eqb_eq in E3b.
      right. split; [exact E3a|]. right. split; assumption. }
    destruct (get_exec_key key) as [a|] eqn:K.
    - pose proof (get_exec_key_area _ _ PM K) as AR.
      destruct (bytes_eqb a (exec_addr txexec)) eqn:E4.
      { intros _. apply bytes_eqb_eq in E4. subst a. left. right. left. exact AR. }
      destruct (bytes_eqb a (exec_addr real)) eqn:E5; simpl; intro H.
      + apply bytes_eqb_eq in E5. subst a. left. right. right.
        exists real. split; [right; split; [reflexivity|exact AR]|exact H].
      + left. right. right. exists e. split; [left; exact NS|exact H].
    - simpl. intro H. left. right. right. exists e. split; [left; exact NS|exact H].
  Qed.

  Lemma own_namespace_allowed key real txexec :
    own_namespace title txexec key ->
    is_allow_key_write title fork_exec_key exec_addr registered friend key real txexec = true.
  Proof.
    intro H. unfold is_allow_key_write, allow_decision.
    rewrite (in_namespace_find _ _ H), bytes_eqb_refl. reflexivity.
  Qed.

  Lemma decision_dichotomy key real txexec :
    is_allow_key_write title fork_exec_key exec_addr registered friend key real txexec = false ->
    ~ own_namespace title txexec key.
  Proof.
    intros H O. rewrite (own_namespace_allowed _ real _ O) in H. discriminate.
  Qed.

  Lemma check_kv_spec memset keys :
    check_kv memset keys = true <-> (forall k, In k memset -> In k keys).
  Proof.
    unfold check_kv. rewrite forallb_forall. split; intros H k Hk; apply mem_spec, H, Hk.
  Qed.

  Lemma check_kv_false memset keys :
    check_kv memset keys = false -> exists k, In k memset /\ ~ In k keys.
  Proof.
    intro H. apply forallb_false in H as [k [Hk Nk]]. exists k. split; [exact Hk|].
    rewrite <- mem_spec, Nk. discriminate.
  Qed.

  Lemma check_key_allow_spec keys txexec :
    check_key_allow title fork_exec_key exec_addr registered friend keys txexec = true ->
    forall k, In k keys ->
      allowed (real_exec_of title registered txexec) txexec k
      \/ (fork_exec_key = false /\ legacy_exception title txexec k).
  Proof.
    unfold check_key_allow. rewrite forallb_forall. intros H k Hk.
    apply write_allowed_implies_spec. exact (H k Hk).
  Qed.

  Let run := exec_tx_one title fork_exec_key exec_addr registered friend.

  Lemma success_implies_all_keys_allowed feekv r txexec ty kvs :
    run feekv r txexec = (true, ty, kvs) ->
    (r = ER_nil /\ ty = ty_exec_pack /\ kvs = feekv)
    \/ exists kvs0 memset,
         r = ER_ok ty kvs0 memset /\ kvs = feekv ++ kvs0
         /\ (forall k, In k memset -> In k (map fst kvs0))
         /\ (forall k, In k (map fst kvs0) ->
               allowed (real_exec_of title registered txexec) txexec k
               \/ (fork_exec_key = false /\ legacy_exception title txexec k)).
  Proof.
    unfold run, exec_tx_one. destruct r as [| |ty0 kvs0 memset].
    - discriminate.
    - intro H. injection H as <- <-. left. auto.
    - destruct (check_kv memset (map fst kvs0)) eqn:C1; [|discriminate].
      destruct (check_key_allow _ _ _ _ _ _ _) eqn:C2; [|discriminate].
      intro H. injection H as <- <-. right. exists kvs0, memset.
      split; [reflexivity|]. split; [reflexivity|]. split.
      + apply check_kv_spec. exact C1.
      + apply check_key_allow_spec. exact C2.
  Qed.

  Lemma failure_discards_writes feekv r txexec ty kvs :
    run feekv r txexec = (false, ty, kvs) ->
    ty = ty_exec_pack /\ kvs = feekv
    /\ (r = ER_err
        \/ exists ty0 kvs0 memset, r = ER_ok ty0 kvs0 memset
             /\ ((exists k, In k memset /\ ~ In k (map fst kvs0))
                 \/ (exists k, In k (map fst kvs0)
                       /\ is_allow_exec title fork_exec_key exec_addr registered friend k txexec = false))).
  Proof.
    unfold run, exec_tx_one. destruct r as [| |ty0 kvs0 memset].
    - intro H. injection H as <- <-. auto.
    - discriminate.
    - destruct (check_kv memset (map fst kvs0)) eqn:C1;
        [destruct (check_key_allow _ _ _ _ _ _ _) eqn:C2; [discriminate|]|];
        intro H; injection H as <- <-; (split; [reflexivity|]); (split; [reflexivity|]);
        right; exists ty0, kvs0, memset; (split; [reflexivity|]).
      + right. exact (forallb_false _ _ C2).
      + left. exact (check_kv_false _ _ C1).
  Qed.

  (** the state later transactions see: a refused transaction contributes the fee KVs only *)
  Lemma refused_tx_state allow_list s feekv r txexec s' ty kvs :
    apply_tx title fork_exec_key exec_addr registered friend allow_list s feekv r txexec
      = (s', (false, ty, kvs)) ->
    (kvs = feekv \/ kvs = []) /\ s' = st_set s kvs.
  Proof.
    unfold apply_tx. intro H. injection H as <- E.
    rewrite E. split; [|reflexivity].
    unfold exec_tx in E.
    destruct (is_allow_exec_name allow_list (real_exec_of title registered txexec) txexec).
    - apply failure_discards_writes in E as [_ [-> _]]. left. reflexivity.
    - injection E as _ <-. right. reflexivity.
  Qed.
End AllowProofs.

Lemma nth_is_app a t c i :
  i = length a -> (nth_is i (a ++ t) c = true <-> exists r, t = c :: r).
Proof.
  intros ->. unfold nth_is. rewrite nth_error_app2, Nat.sub_diag by apply le_n.
  destruct t as [|x r]; simpl.
  - split; [discriminate|intros [r E]; discriminate E].
  - rewrite N.eqb_eq. split; [intros ->; exists r; reflexivity|intros [r' E]; congruence].
Qed.

(** the key splits as LODB, '-', executor, '-', rest: the two '-' tests read positions 4 and
    5 + |executor|, i.e. the byte after a prefix of that length *)
Lemma local_key2_shape execer key :
  is_allow_local_key2 execer key = 0 -> local_shape execer key.
Proof.
  unfold is_allow_local_key2.
  destruct (Nat.ltb (length execer) 1) eqn:L1; [discriminate|].
  destruct (Nat.leb (length key) (4 + length execer + 2)) eqn:L2; [discriminate|].
  destruct (nth_is (4 + length execer + 2 - 1) key c_dash) eqn:D1; [|cbn [negb orb]; discriminate].
  destruct (nth_is 4 key c_dash) eqn:D2; [|cbn [negb orb]; discriminate]. cbn [negb orb].
  destruct (is_prefix b_lodb key) eqn:P1; [|cbn [negb orb]; discriminate]. cbn [negb orb].
  destruct (is_prefix execer (skipn 5 key)) eqn:P2; [|cbn [negb orb]; discriminate]. intros _.
  apply Nat.ltb_ge in L1. apply Nat.leb_gt in L2.
  apply is_prefix_iff in P1 as [s ->].
  apply (nth_is_app b_lodb) in D2 as [s' ->]; [|reflexivity].
  change (skipn 5 (b_lodb ++ c_dash :: s')) with s' in P2.
  apply is_prefix_iff in P2 as [t ->].
  apply (nth_is_app (b_lodb ++ c_dash :: execer)) in D1 as [rest ->];
    [|unfold b_lodb; simpl; lia].
  exists rest. split; [reflexivity|]. split.
  - intros ->. simpl in L1. lia.
  - intros ->. unfold b_lodb in L2. simpl in L2. rewrite app_length in L2. simpl in L2. lia.
Qed.

Lemma local_shape_key2 execer key :
  local_shape execer key -> is_allow_local_key2 execer key = 0.
Proof.
  intros [rest [-> [NE NR]]]. unfold is_allow_local_key2.
  assert (1 <= length execer)%nat as L by (destruct execer; [congruence|simpl; lia]).
  assert (1 <= length rest)%nat as L' by (destruct rest; [congruence|simpl; lia]).
  destruct (Nat.ltb_spec (length execer) 1) as [F|_]; [lia|].
  destruct (Nat.leb_spec (length (b_lodb ++ c_dash :: execer ++ c_dash :: rest)) (4 + length execer + 2))
    as [F|_]; [unfold b_lodb in F; simpl in F; rewrite app_length in F; simpl in F; lia|].
  assert (nth_is (4 + length execer + 2 - 1) (b_lodb ++ c_dash :: execer ++ c_dash :: rest) c_dash = true)
    as D1.
  { apply (nth_is_app (b_lodb ++ c_dash :: execer)); [unfold b_lodb; simpl; lia|].
    exists rest. reflexivity. }
  assert (nth_is 4 (b_lodb ++ c_dash :: execer ++ c_dash :: rest) c_dash = true) as D2 by reflexivity.
  rewrite D1, D2, is_prefix_app.
  change (skipn 5 (b_lodb ++ c_dash :: execer ++ c_dash :: rest)) with (execer ++ c_dash :: rest).
  rewrite is_prefix_app. reflexivity.
Qed.

Lemma local_key_shape execer key :
  is_allow_local_key execer key = 0 ->
  local_shape execer key \/ local_shape (get_real_exec_name execer) key.
Proof.
  unfold is_allow_local_key.
  destruct (N.eqb (is_allow_local_key2 execer key) 0) eqn:E.
  - intros _. left. apply local_key2_shape. apply N.eqb_eq. exact E.
  - destruct (bytes_eqb (get_real_exec_name execer) execer) eqn:R.
    + intro H. rewrite H in E. discriminate.
    + intro H. right. apply local_key2_shape. exact H.
Qed.

Lemma local_shape_accepted execer key :
  local_shape execer key \/ local_shape (get_real_exec_name execer) key ->
  is_allow_local_key execer key = 0.
Proof.
  intros [H|H]; unfold is_allow_local_key.
  - rewrite (local_shape_key2 _ _ H). reflexivity.
  - destruct (N.eqb (is_allow_local_key2 execer key) 0) eqn:E; [reflexivity|].
    destruct (bytes_eqb (get_real_exec_name execer) execer) eqn:R.
    + apply bytes_eqb_eq in R. rewrite R in H. rewrite (local_shape_key2 _ _ H) in E. discriminate.
    + apply local_shape_key2. exact H.
Qed.

Lemma exec_local_tx_shape execer ks memset :
  exec_local_tx execer (Some ks) memset = 0 ->
  (forall k, In k memset -> In k ks)
  /\ forall k, In k ks -> local_shape execer k \/ local_shape (get_real_exec_name execer) k.
Proof.
  unfold exec_local_tx.
  destruct (forallb (fun k => existsb (bytes_eqb k) ks) memset) eqn:C1; [|discriminate].
  destruct (forallb (fun k => N.eqb (is_allow_local_key execer k) 0) ks) eqn:C2; [|discriminate].
  intros _. rewrite forallb_forall in C1, C2. split; intros k Hk.
  - apply mem_spec, C1, Hk.
  - apply local_key_shape, N.eqb_eq, C2, Hk.
Qed.

(** * Refutation witness for the three-disjunct statement (heights before ForkExecKey) *)
Definition no_friend (_ _ _ _ : list N) : bool := false.
Definition no_addr (_ : list N) : list N := [].
Definition no_reg (_ : list N) : bool := false.

Lemma legacy_witness_allowed :
  is_allow_key_write (bs "local") false no_addr no_reg no_friend
                     (bs "mavl-config-x") b_manage b_manage = true.
Proof. vm_compute. reflexivity. Qed.

Lemma legacy_witness_not_spec :
  ~ allowed_key (bs "local") no_addr no_reg no_friend b_manage b_manage (bs "mavl-config-x").
Proof.
  intros [H|[H|[o [_ F]]]].
  - apply in_namespace_find in H. vm_compute in H. discriminate.
  - apply in_exec_area_get in H. vm_compute in H. discriminate.
  - discriminate F.
Qed.

(** * the executable oracles agree with the spec predicates *)
Lemma in_namespace_b_iff e key : in_namespace_b e key = true <-> in_namespace e key.
Proof.
  unfold in_namespace_b, in_namespace. split.
  - intro H. apply andb_true_iff in H as [P N]. apply is_prefix_iff in P as [s ->].
    apply negb_true_iff in N. apply has_byte_false in N.
    exists s. split; [|exact N]. rewrite <- !app_assoc. reflexivity.
  - intros [rest [-> N]]. apply andb_true_iff. split.
    + apply is_prefix_iff. exists rest. rewrite <- !app_assoc. reflexivity.
    + apply negb_true_iff. apply has_byte_false. exact N.
Qed.

Lemma legacy_exception_b_iff title txexec key :
  legacy_exception_b title txexec key = true <-> legacy_exception title txexec key.
Proof.
  unfold legacy_exception_b, legacy_exception.
  rewrite orb_true_iff, !andb_true_iff, !bytes_eqb_eq, in_namespace_b_iff. reflexivity.
Qed.

Lemma write_allowed_partial title fork exec_addr registered friend key real txexec :
  fork || negb (legacy_exception_b title txexec key) = true ->
  is_allow_key_write title fork exec_addr registered friend key real txexec = true ->
  allowed_key title exec_addr registered friend real txexec key.
Proof.
  intros G H. apply write_allowed_implies_spec in H as [H|[F L]]; [exact H|].
  subst fork. simpl in G. apply negb_true_iff in G.
  apply legacy_exception_b_iff in L. congruence.
Qed.

Definition write_allowed_full : Prop :=
  forall title fork exec_addr registered friend key real txexec,
    is_allow_key_write title fork exec_addr registered friend key real txexec = true ->
    allowed_key title exec_addr registered friend real txexec key.

Lemma write_allowed_full_refuted : ~ write_allowed_full.
Proof.
  intro H. apply legacy_witness_not_spec. apply (H _ false). exact legacy_witness_allowed.
Qed.

(** * Examples: the hypotheses are satisfiable by concrete non-trivial inputs *)
Definition ex_addr2 (n : list N) : list N := bs "A" ++ map (fun x => if N.eqb x 58 then 95 else x) n.
Definition ex_reg (n : list N) : bool := bytes_eqb n (bs "coins") || bytes_eqb n (bs "token").
Definition ex_friend (drv self key txexec : list N) : bool :=
  bytes_eqb drv (bs "coins") && bytes_eqb txexec (bs "token").

Example ex_own_namespace :
  is_allow_key_write (bs "user.p.x.") true ex_addr2 ex_reg ex_friend
    (bs "mavl-token-sym") (bs "token") (bs "user.p.x.token") = true.
Proof. vm_compute. reflexivity. Qed.

Example ex_prefix_not_confused :
  is_allow_key_write (bs "local") true ex_addr2 ex_reg no_friend
    (bs "mavl-coinsx-a") (bs "coins") (bs "coins") = false
  /\ is_allow_key_write (bs "local") true ex_addr2 ex_reg no_friend
    (bs "mavl-coins-a") (bs "coinsx") (bs "coinsx") = false.
Proof. vm_compute. split; reflexivity. Qed.

Example ex_exec_area :
  is_allow_key_write (bs "local") true ex_addr2 ex_reg no_friend
    (bs "mavl-coins-bty-exec-Atoken:user") (bs "token") (bs "token") = true
  /\ is_allow_key_write (bs "local") true ex_addr2 ex_reg no_friend
    (bs "mavl-coins-bty-exec-Acoins:user") (bs "token") (bs "token") = false.
Proof. vm_compute. split; reflexivity. Qed.

Example ex_friend_path :
  allow_decision (bs "local") true ex_addr2 ex_reg ex_friend
    (bs "mavl-coins-bty-addr") (bs "token") (bs "token") = D_friend (bs "coins") (bs "coins") true
  /\ allow_decision (bs "local") true ex_addr2 ex_reg ex_friend
    (bs "mavl-unknown-x") (bs "token") (bs "token") = D_friend (bs "none") (bs "unknown") false.
Proof. vm_compute. split; reflexivity. Qed.

Example ex_guard_satisfiable :
  true || negb (legacy_exception_b (bs "local") (bs "token") (bs "mavl-token-a")) = true
  /\ false || negb (legacy_exception_b (bs "local") (bs "token") (bs "mavl-token-a")) = true
  /\ false || negb (legacy_exception_b (bs "local") (bs "token") (bs "mavl-create-token-S")) = false.
Proof. vm_compute. repeat split; reflexivity. Qed.

Example ex_tx_accepted :
  exec_tx_one (bs "local") true ex_addr2 ex_reg ex_friend [(bs "fee", bs "1")]
    (ER_ok 2 [(bs "mavl-token-a", bs "v"); (bs "mavl-coins-bty-exec-Atoken:u", bs "w")] [bs "mavl-token-a"])
    (bs "token")
  = (true, 2, [(bs "fee", bs "1"); (bs "mavl-token-a", bs "v"); (bs "mavl-coins-bty-exec-Atoken:u", bs "w")]).
Proof. vm_compute. reflexivity. Qed.

Example ex_tx_refused :
  exec_tx_one (bs "local") true ex_addr2 ex_reg no_friend [(bs "fee", bs "1")]
    (ER_ok 2 [(bs "mavl-token-a", bs "v"); (bs "mavl-coins-a", bs "w")] []) (bs "token")
  = (false, 1, [(bs "fee", bs "1")])
  /\ exec_tx_one (bs "local") true ex_addr2 ex_reg no_friend [(bs "fee", bs "1")]
    (ER_ok 2 [(bs "mavl-token-a", bs "v")] [bs "mavl-token-hidden"]) (bs "token")
  = (false, 1, [(bs "fee", bs "1")]).
Proof. vm_compute. split; reflexivity. Qed.

Example ex_local :
  is_allow_local_key (bs "user.p.x.token") (bs "LODB-token-a") = 0
  /\ is_allow_local_key (bs "token") (bs "LODB-token-") = 2
  /\ is_allow_local_key (bs "token") (bs "LODB-tokenx-a") = 1
  /\ is_allow_local_key (bs "tokenx") (bs "LODB-token-ab") = 1.
Proof. vm_compute. repeat split; reflexivity. Qed.
