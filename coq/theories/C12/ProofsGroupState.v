(** C12 — the state db under execTxOne and under the members of a group; accepted groups: every
    member reported all it wrote, every reported key is allowed, and what later transactions
    read is exactly what the receipts report. *)
From Coq Require Import List NArith Bool.
From C33 Require Import Lib.Harness Lib.Bytes C12.Model C12.Spec C12.Proofs C12.ModelGroup.
Import ListNotations.
Open Scope N_scope.

Lemma st_get_app a b k :
  st_get (a ++ b) k = match st_get a k with Some v => Some v | None => st_get b k end.
Proof.
  induction a as [|[k' v] a IH]; simpl; [reflexivity|].
  destruct (bytes_eqb k' k); [reflexivity|exact IH].
Qed.

Lemma st_get_in a k : In k (map fst a) <-> st_get a k <> None.
Proof.
  induction a as [|[k' v] a IH]; simpl.
  - split; [intros []|intro H; apply H; reflexivity].
  - destruct (bytes_eqb k' k) eqn:E.
    + apply bytes_eqb_eq in E. split; [discriminate|auto].
    + rewrite <- IH. split; [intros [F|F]; [|exact F]|auto].
      subst k'. rewrite bytes_eqb_refl in E. discriminate.
Qed.

Lemma st_get_none a k : ~ In k (map fst a) -> st_get a k = None.
Proof.
  intro H. destruct (st_get a k) eqn:E; [|reflexivity].
  exfalso. apply H, st_get_in. rewrite E. discriminate.
Qed.

(** bindings whose keys all occur in front of them are never seen *)
Lemma st_get_shadow a b c k :
  (forall x, In x (map fst b) -> In x (map fst a)) ->
  st_get (a ++ b ++ c) k = st_get (a ++ c) k.
Proof.
  intro H. rewrite !st_get_app.
  destruct (st_get a k) eqn:A; [reflexivity|].
  destruct (st_get b k) eqn:B; [|reflexivity].
  exfalso. apply (proj1 (st_get_in a k)); [|exact A].
  apply H, st_get_in. rewrite B. discriminate.
Qed.

Lemma map_fst_rev (l : list kvp) x : In x (map fst (rev l)) <-> In x (map fst l).
Proof. rewrite map_rev, <- in_rev. reflexivity. Qed.

Lemma sdb_sets_eq kvs : forall s,
  sdb_sets s kvs =
  if intx s then mk_sdb (cache s) (rev kvs ++ txcache s) (keys s ++ map fst kvs) true
  else mk_sdb (rev kvs ++ cache s) (txcache s) (keys s) false.
Proof.
  unfold sdb_sets. induction kvs as [|[k v] tl IH]; intro s; simpl.
  - rewrite app_nil_r. destruct s as [c t ks []]; reflexivity.
  - rewrite IH. unfold sdb_set. destruct (intx s); simpl; rewrite <- !app_assoc; reflexivity.
Qed.

Lemma begin_after_fee s feekv :
  intx s = false -> sdb_begin (sdb_sets s feekv) = mk_sdb (rev feekv ++ cache s) [] [] true.
Proof. intro H. rewrite sdb_sets_eq, H. reflexivity. Qed.

Section GroupState.
  Variable title : list N.
  Variable fork_exec_key : bool.
  Variable exec_addr : list N -> list N.
  Variable registered : list N -> bool.
  Variable friend : list N -> list N -> list N -> list N -> bool.

  Let eff := effective title registered.

  (** the member (as it really ran) reported every key it Set, and every reported key passes
      the write rule *)
  Definition clean (m : member) : Prop :=
    m_res (eff m) <> GR_err
    /\ (forall k, In k (map fst (m_direct (eff m))) -> In k (reported (m_res (eff m))))
    /\ (forall k, In k (reported (m_res (eff m))) ->
          allowed_key title exec_addr registered friend
            (real_exec_of title registered (m_exec (eff m))) (m_exec (eff m)) k
          \/ (fork_exec_key = false /\ legacy_exception title (m_exec (eff m)) k)).

  (** the receipt of an accepted member, given the receipt it started from *)
  Definition rcpt_of (fl : rcpt) (m : member) : rcpt :=
    match m_res (eff m) with
    | GR_ok ty kvs => (ty, snd fl ++ kvs)
    | _ => fl
    end.

  Definition group_receipts (feekv : list kvp) (ms : list member) : list rcpt :=
    match ms with
    | [] => []
    | m0 :: tl => rcpt_of (ty_exec_pack, feekv) m0 :: map (rcpt_of (ty_exec_pack, [])) tl
    end.

  Lemma rcpt_of_keys fl m x :
    In x (map fst (snd (rcpt_of fl m)))
    <-> In x (map fst (snd fl)) \/ In x (reported (m_res (eff m))).
  Proof.
    unfold rcpt_of. destruct (m_res (eff m)); cbn [reported snd In].
    3: rewrite map_app, in_app_iff; reflexivity.
    all: split; [left; assumption|intros [F|[]]; exact F].
  Qed.

  Lemma one_cases s fl m :
    let s1 := sdb_sets (sdb_start_tx s) (m_direct (eff m)) in
    g_exec_tx_one title fork_exec_key exec_addr registered friend s fl m = (s1, None)
    \/ (m_res (eff m) <> GR_err
        /\ check_kv (keys s1) (reported (m_res (eff m))) = true
        /\ check_key_allow title fork_exec_key exec_addr registered friend
             (reported (m_res (eff m))) (m_exec (eff m)) = true
        /\ g_exec_tx_one title fork_exec_key exec_addr registered friend s fl m
           = (sdb_sets s1 (snd (rcpt_of fl m)), Some (rcpt_of fl m))).
  Proof.
    unfold g_exec_tx_one, rcpt_of. fold eff.
    destruct (m_res (eff m)) as [| |ty kvs]; [left; reflexivity|..];
      (destruct (check_kv _ _); [|left; reflexivity]);
      (destruct (check_key_allow _ _ _ _ _ _ _); [|left; reflexivity]);
      right; repeat split; discriminate.
  Qed.

  (** execTxOne never leaves the memory transaction and never touches the block cache; when it
      accepts, the member's direct Sets are hidden behind the receipt's KVs *)
  Lemma one_inv s fl m s1 o :
    intx s = true ->
    g_exec_tx_one title fork_exec_key exec_addr registered friend s fl m = (s1, o) ->
    intx s1 = true /\ cache s1 = cache s
    /\ forall r, o = Some r ->
         clean m /\ r = rcpt_of fl m
         /\ forall X k, st_get (txcache s1 ++ X) k = st_get (rev (snd r) ++ txcache s ++ X) k.
  Proof.
    intro H. pose proof (one_cases s fl m) as O.
    rewrite sdb_sets_eq in O. cbn [sdb_start_tx intx cache txcache keys app] in O. rewrite H in O.
    destruct O as [E|[R [CK [CA E]]]]; rewrite E; intro E'; injection E' as <- <-.
    - split; [reflexivity|]. split; [reflexivity|]. discriminate.
    - rewrite sdb_sets_eq. split; [reflexivity|]. split; [reflexivity|].
      intros r Er. injection Er as <-. pose proof (proj1 (check_kv_spec _ _) CK) as W.
      split; [split; [exact R|split; [exact W|apply check_key_allow_spec; exact CA]]|].
      split; [reflexivity|]. intros X k. cbn [intx txcache]. rewrite <- !app_assoc.
      apply st_get_shadow. intros x Hx. rewrite map_fst_rev in *.
      apply rcpt_of_keys. right. exact (W x Hx).
  Qed.

  (** the members of a group in order, the first starting from the ExecPack receipt with [feekv]:
      execTxGroup runs this from the fee KVs, and [group_rest] is this from none *)
  Definition members (feekv : list kvp) (s : sdb) (ms : list member) : sdb * option (list rcpt) :=
    match ms with
    | [] => (s, Some [])
    | m :: tl =>
        match g_exec_tx_one title fork_exec_key exec_addr registered friend s (ty_exec_pack, feekv) m with
        | (s1, Some r) =>
            match group_rest title fork_exec_key exec_addr registered friend s1 tl with
            | (s2, Some rs) => (s2, Some (r :: rs))
            | (s2, None) => (s2, None)
            end
        | (s1, None) => (s1, None)
        end
    end.

  Lemma group_rest_members s ms :
    group_rest title fork_exec_key exec_addr registered friend s ms = members [] s ms.
  Proof. destruct ms; reflexivity. Qed.

  Lemma exec_tx_group_members s feekv m tl :
    exec_tx_group title fork_exec_key exec_addr registered friend s feekv (m :: tl)
    = match members feekv (sdb_begin (sdb_sets s feekv)) (m :: tl) with
      | (s2, Some rs) => (sdb_commit s2, true, rs)
      | (s2, None) => (sdb_rollback s2, false, failed_group feekv (m :: tl))
      end.
  Proof.
    unfold exec_tx_group, members.
    destruct (g_exec_tx_one _ _ _ _ _ _ _ m) as [s1 [r|]]; [|reflexivity].
    destruct (group_rest _ _ _ _ _ s1 tl) as [s2 [rs|]]; reflexivity.
  Qed.

  Lemma group_receipts_nil ms : group_receipts [] ms = map (rcpt_of (ty_exec_pack, [])) ms.
  Proof. destruct ms; reflexivity. Qed.

  Lemma members_inv ms : forall feekv s s2 o,
    intx s = true ->
    members feekv s ms = (s2, o) ->
    intx s2 = true /\ cache s2 = cache s
    /\ forall rs, o = Some rs ->
         Forall clean ms /\ rs = group_receipts feekv ms
         /\ forall X k, st_get (txcache s2 ++ X) k
                        = st_get (rev (concat (map snd rs)) ++ txcache s ++ X) k.
  Proof.
    induction ms as [|m tl IH]; intros feekv s s2 o H; cbn [members].
    - intro E. injection E as <- <-. split; [exact H|]. split; [reflexivity|].
      intros rs E. injection E as <-. repeat split. constructor.
    - destruct (g_exec_tx_one title fork_exec_key exec_addr registered friend s (ty_exec_pack, feekv) m)
        as [s1 o1] eqn:E1.
      destruct (one_inv _ _ _ _ _ H E1) as [I1 [C1 S1]].
      destruct o1 as [r|].
      + rewrite group_rest_members.
        destruct (members [] s1 tl) as [s2' o2] eqn:E2.
        destruct (IH _ _ _ _ I1 E2) as [I2 [C2 S2]].
        destruct o2 as [rs'|]; intro E; injection E as <- <-;
          (split; [exact I2|]; split; [congruence|]); intros rs E; [|discriminate E].
        injection E as <-.
        destruct (S1 _ eq_refl) as [CL [Er G1]]. destruct (S2 _ eq_refl) as [F [Ers G2]].
        split; [constructor; assumption|].
        split; [rewrite group_receipts_nil in Ers; cbn [group_receipts]; congruence|].
        intros X k. rewrite G2. cbn [map concat]. rewrite rev_app_distr, <- app_assoc.
        rewrite !(st_get_app (rev (concat (map snd rs')))), G1. reflexivity.
      + intro E. injection E as <- <-. split; [exact I1|]. split; [exact C1|]. discriminate.
  Qed.

  Lemma group_success s feekv ms s' rs :
    intx s = false ->
    exec_tx_group title fork_exec_key exec_addr registered friend s feekv ms = (s', true, rs) ->
    Forall clean ms /\ rs = group_receipts feekv ms
    /\ intx s' = false /\ txcache s' = []
    /\ (forall k, sdb_get s' k = st_get (st_set (cache s) (concat (map snd rs))) k).
  Proof.
    intros H. destruct ms as [|m0 tl]; [discriminate|].
    rewrite exec_tx_group_members, (begin_after_fee s feekv H).
    destruct (members _ _ _) as [s2 [rs2|]] eqn:E; [|discriminate].
    destruct (members_inv _ _ (mk_sdb _ _ _ true) _ _ eq_refl E) as [_ [C S]].
    destruct (S _ eq_refl) as [F [Ers G]].
    intro E'. injection E' as <- <-.
    split; [exact F|]. split; [exact Ers|]. split; [reflexivity|]. split; [reflexivity|].
    intro k. unfold sdb_get, sdb_commit, st_set. cbn [intx cache].
    rewrite G, C. cbn [cache txcache app].
    (* the fee KVs sit in the block cache and again in the first receipt *)
    apply st_get_shadow. intros x Hx. rewrite map_fst_rev in *.
    rewrite Ers. cbn [group_receipts map concat]. rewrite map_app, in_app_iff.
    left. apply rcpt_of_keys. left. exact Hx.
  Qed.
End GroupState.
