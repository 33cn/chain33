(** C12 — refused groups: a member that writes what it does not report takes the whole group
    down, and a failed group leaves the fee KVs only; examples. *)
From Coq Require Import String.
From Coq Require Import List NArith Bool.
From C33 Require Import Lib.Harness Lib.Bytes C12.Model C12.Spec C12.Proofs C12.ModelGroup.
From C33 Require Import C12.ProofsGroupState.
Import ListNotations.
Open Scope N_scope.

Section GroupProofs.
  Variable title : list N.
  Variable fork_exec_key : bool.
  Variable exec_addr : list N -> list N.
  Variable registered : list N -> bool.
  Variable friend : list N -> list N -> list N -> list N -> bool.

  Let group := exec_tx_group title fork_exec_key exec_addr registered friend.

  (** the member's own driver runs (not the none driver) *)
  Definition own_driver_runs (m : member) : Prop :=
    bytes_eqb (driver_for title registered (m_exec m)) b_none = false.

  (** the member's Exec Sets a state key that its receipt does not report *)
  Definition unreported_write (m : member) : Prop :=
    exists k, In k (map fst (m_direct m)) /\ ~ In k (reported (m_res m)).

  Lemma unreported_not_clean m :
    own_driver_runs m -> unreported_write m ->
    ~ clean title fork_exec_key exec_addr registered friend m.
  Proof.
    unfold own_driver_runs, clean, effective. intros -> [k [Hk Nk]] [_ [W _]].
    exact (Nk (W k Hk)).
  Qed.

  (** the state db a failed group leaves: the fee KVs on top of the old block cache, nothing
      pending *)
  Definition fee_only (s : sdb) (feekv : list kvp) : sdb :=
    mk_sdb (rev feekv ++ cache s) [] [] false.

  (** what later transactions of the block read afterwards *)
  Lemma fee_only_get s feekv k :
    sdb_get (fee_only s feekv) k = st_get (st_set (cache s) feekv) k.
  Proof. reflexivity. Qed.

  Lemma group_failure s feekv ms s' rs :
    intx s = false -> ms <> [] ->
    group s feekv ms = (s', false, rs) ->
    rs = failed_group feekv ms /\ s' = fee_only s feekv
    /\ forall k, sdb_get s' k = st_get (st_set (cache s) feekv) k.
  Proof.
    intros H NE. destruct ms as [|m0 tl]; [congruence|].
    unfold group. rewrite exec_tx_group_members, (begin_after_fee s feekv H).
    destruct (members _ _ _ _ _ _ _ _) as [s2 [rs2|]] eqn:E; intro E'; [discriminate E'|].
    injection E' as <- <-.
    destruct (members_inv _ _ _ _ _ _ _ (mk_sdb _ _ _ true) _ _ eq_refl E) as [_ [C _]].
    split; [reflexivity|]. unfold sdb_rollback. rewrite C.
    split; [reflexivity|]. apply fee_only_get.
  Qed.

  (** C12 for groups: a member that writes a key it does not report is refused, and with it
      the whole group, regardless of what the members before it wrote or reported: were the
      group accepted, that member would be clean *)
  Lemma group_unreported_write_refused s feekv pre m post :
    intx s = false -> own_driver_runs m -> unreported_write m ->
    group s feekv (pre ++ m :: post)
    = (fee_only s feekv, false, failed_group feekv (pre ++ m :: post)).
  Proof.
    intros H O U. destruct (group s feekv (pre ++ m :: post)) as [[s' []] rs] eqn:E.
    - destruct (group_success _ _ _ _ _ _ _ _ _ _ H E) as [F _].
      destruct (unreported_not_clean m O U). exact (Forall_elt _ _ _ F).
    - apply group_failure in E as [-> [-> _]]; [reflexivity|exact H|destruct pre; discriminate].
  Qed.
End GroupProofs.

(** a single transaction run on the state db is a group of one *)
Lemma exec_tx_sdb_group title fork exec_addr registered friend allow_list s feekv m :
  is_allow_exec_name allow_list (real_exec_of title registered (m_exec m)) (m_exec m) = true ->
  exec_tx_sdb title fork exec_addr registered friend allow_list s feekv m
  = let '(s', ok, rs) := exec_tx_group title fork exec_addr registered friend s feekv [m] in
    (s', ok, hd (ty_exec_pack, feekv) rs).
Proof.
  intro A. unfold exec_tx_sdb, exec_tx_group. rewrite A.
  destruct (g_exec_tx_one _ _ _ _ _ _ _ m) as [s1 [r|]]; reflexivity.
Qed.

Lemma single_unreported_write_refused title fork exec_addr registered friend allow_list s feekv m :
  intx s = false -> own_driver_runs title registered m -> unreported_write m ->
  exec_tx_sdb title fork exec_addr registered friend allow_list s feekv m
  = (if is_allow_exec_name allow_list (real_exec_of title registered (m_exec m)) (m_exec m)
     then (fee_only s feekv, false, (ty_exec_pack, feekv)) else (s, false, (0, []))).
Proof.
  intros H O U. destruct (is_allow_exec_name _ _ _) eqn:A.
  - rewrite (exec_tx_sdb_group _ _ _ _ _ _ _ _ _ A).
    rewrite (group_unreported_write_refused _ _ _ _ _ _ _ [] m [] H O U). reflexivity.
  - unfold exec_tx_sdb. rewrite A. reflexivity.
Qed.

(** * Examples (non-vacuity): two registered drivers, the second member of a group Sets the key
    the first one reported *)
Definition exg_reg (n : list N) : bool := bytes_eqb n (bs "token") || bytes_eqb n (bs "coinsx").
Definition exg_fee : list kvp := [(bs "mavl-coins-bty-payer", bs "99")].
Definition exg_owner : member :=
  Member (bs "token") [] (GR_ok 2 [(bs "mavl-token-a", bs "good")]).
Definition exg_sly : member :=
  Member (bs "coinsx") [(bs "mavl-token-a", bs "evil")] (GR_ok 2 [(bs "mavl-coinsx-b", bs "x")]).
Definition exg_loud : member :=
  Member (bs "coinsx") [(bs "mavl-token-a", bs "evil")]
         (GR_ok 2 [(bs "mavl-token-a", bs "evil"); (bs "mavl-coinsx-b", bs "x")]).
Definition exg_honest : member :=
  Member (bs "coinsx") [(bs "mavl-coinsx-b", bs "d")] (GR_ok 2 [(bs "mavl-coinsx-b", bs "x")]).
Definition exg_start : sdb := mk_sdb [(bs "mavl-token-a", bs "old")] [] [] false.

Example ex_group_hypotheses :
  intx exg_start = false
  /\ own_driver_runs (bs "local") exg_reg exg_sly
  /\ unreported_write exg_sly.
Proof.
  split; [reflexivity|]. split; [vm_compute; reflexivity|].
  exists (bs "mavl-token-a"). split; [left; reflexivity|].
  vm_compute. intros [F|[]]. discriminate F.
Qed.

Example ex_group_sly_refused :
  exec_tx_group (bs "local") true no_addr exg_reg no_friend exg_start exg_fee
                [exg_owner; exg_sly; exg_honest]
  = (fee_only exg_start exg_fee, false,
     [(1, exg_fee); (1, []); (1, [])])
  /\ sdb_get (fee_only exg_start exg_fee) (bs "mavl-token-a") = Some (bs "old").
Proof. vm_compute. split; reflexivity. Qed.

(** the honest group is accepted; a member that reports the foreign key is refused by the
    write rule (no friend), and accepted when the owner's driver approves *)
Example ex_group_honest_accepted :
  let '(s', ok, rs) := exec_tx_group (bs "local") true no_addr exg_reg no_friend exg_start exg_fee
                                     [exg_owner; exg_honest] in
  ok = true
  /\ rs = [(2, exg_fee ++ [(bs "mavl-token-a", bs "good")]); (2, [(bs "mavl-coinsx-b", bs "x")])]
  /\ sdb_get s' (bs "mavl-token-a") = Some (bs "good")
  /\ sdb_get s' (bs "mavl-coinsx-b") = Some (bs "x").
Proof. vm_compute. repeat split; reflexivity. Qed.

Example ex_group_loud :
  snd (fst (exec_tx_group (bs "local") true no_addr exg_reg no_friend exg_start exg_fee
                          [exg_owner; exg_loud])) = false
  /\ (let '(s', ok, rs) := exec_tx_group (bs "local") true no_addr exg_reg
                             (fun drv _ _ _ => bytes_eqb drv (bs "token")) exg_start exg_fee
                             [exg_owner; exg_loud] in
      ok = true /\ sdb_get s' (bs "mavl-token-a") = Some (bs "evil")).
Proof. vm_compute. repeat split; reflexivity. Qed.
