(** C29 — proofs, part 4: granularity of the write log.

    The model has no notion of the size of a block: [FTx b h] stands for the
    index records of ALL transactions of block [b], and the units an operation
    emits do not depend on how many there are.  Here: every operation writes
    the blockchain database in at most ONE unit; a connect that advances the
    chain writes exactly one, the connect batch (tx index, block rows, last
    height, height->hash, sequence record, total difficulty), a disconnect that
    shortens the chain exactly one, the disconnect batch; hence the log of any
    operation sequence holds at most one such unit per operation.  The
    correspondence check compares the write trace of the Go node with this log
    unit by unit, so a connect or disconnect that reaches the database in two
    writes (for a block of any size) disagrees with the model. *)
From Coq Require Import List ZArith NArith Bool Lia.
From C33 Require Import C25.Model C29.Model.
Import ListNotations.
Open Scope Z_scope.

(** a fact of the blockchain database (everything but the state tree, which
    lives in the store database and is committed by block execution) *)
Definition chain_fact (f : fact) : bool :=
  match f with FState _ => false | _ => true end.
Definition chain_unit (u : wunit) : bool := existsb chain_fact u.
Definition chain_units (log : list wunit) : list wunit := filter chain_unit log.

Lemma chain_units_app : forall a b, chain_units (a ++ b) = chain_units a ++ chain_units b.
Proof. intros. unfold chain_units. apply filter_app. Qed.

Lemma conn_batch_chain_unit : forall d b td, chain_unit (conn_batch d b td) = true.
Proof. reflexivity. Qed.

(** the connect batch holds every chain record of the connect *)
Lemma conn_batch_complete : forall d b td,
  let u := conn_batch d b td in
  In (FTx (bid b) (Some (bht b))) u /\ In (FBlkUpd (bid b)) u /\ In (FLast (bht b)) u /\
  In (FHash (bht b) (Some (bid b))) u /\ In (FSeq (next_seq d) (bid b) true) u /\
  In (FTd (bid b) td) u.
Proof. intros d b td. repeat split; repeat first [apply in_eq|apply in_cons]. Qed.

Theorem connect_is_one_unit : forall sid s b,
  let r := exec_op sid s (OConn b) in
  (chain_units (snd r) = [] /\ p_chain (fst r) = p_chain s) \/
  (exists td, td_of (p_d s) b = Some td /\
     chain_units (snd r) = [conn_batch (p_d s) b td] /\ p_chain (fst r) = b :: p_chain s).
Proof.
  intros sid s b. cbn [exec_op].
  destruct (tip_ok (p_chain s) b && d_blk (p_d s) (bid b)) eqn:Hg.
  - unfold conn_units. destruct (td_of (p_d s) b) as [td|] eqn:Htd.
    + right. exists td. cbn. auto.
    + left. cbn. auto.
  - left. cbn. auto.
Qed.

Theorem disconnect_is_one_unit : forall sid s b,
  let r := exec_op sid s (ODisc b) in
  (snd r = [] /\ fst r = s) \/
  (exists t c, p_chain s = t :: c /\ bid t = bid b /\
     snd r = disc_units (p_d s) t /\ chain_units (snd r) = snd r /\ length (snd r) = 1%nat /\
     p_chain (fst r) = c).
Proof.
  intros sid s b. cbn [exec_op].
  destruct (p_chain s) as [|t c] eqn:Hc.
  - left. auto.
  - destruct (N.eqb (bid t) (bid b)) eqn:He.
    + right. exists t, c. apply N.eqb_eq in He. cbn. repeat split; auto.
    + left. auto.
Qed.

Lemma store_at_most_one : forall d b, (length (store_units d b) <= 1)%nat.
Proof.
  intros. unfold store_units. destruct (d_blk d (bid b)); [cbn; lia|].
  destruct (td_of d b); cbn; lia.
Qed.

Lemma filter_length_le : forall A (f : A -> bool) l, (length (filter f l) <= length l)%nat.
Proof. induction l as [|x l IH]; cbn; [lia|]. destruct (f x); cbn; lia. Qed.

Lemma op_at_most_one : forall sid s o, (length (chain_units (snd (exec_op sid s o))) <= 1)%nat.
Proof.
  intros sid s o. destruct o as [b|b|b].
  - cbn [exec_op snd]. unfold chain_units.
    pose proof (filter_length_le _ chain_unit (store_units (p_d s) b)).
    pose proof (store_at_most_one (p_d s) b). lia.
  - destruct (connect_is_one_unit sid s b) as [[H _]|[td [_ [H _]]]]; rewrite H; cbn; lia.
  - destruct (disconnect_is_one_unit sid s b) as [[H _]|[t [c [_ [_ [_ [H1 [H2 _]]]]]]]].
    + rewrite H. cbn. lia.
    + rewrite H1, H2. lia.
Qed.

Theorem log_one_unit_per_op : forall sid ops s,
  (length (chain_units (snd (run_ops sid s ops))) <= length ops)%nat.
Proof.
  intros sid ops. induction ops as [|o r IH]; intros s; [cbn; lia|].
  cbn [run_ops].
  pose proof (op_at_most_one sid s o) as H1.
  destruct (exec_op sid s o) as [s1 us] eqn:He.
  specialize (IH s1). destruct (run_ops sid s1 r) as [s2 log] eqn:Hr.
  cbn [snd] in *. rewrite chain_units_app, app_length. cbn [length]. lia.
Qed.

(** non-vacuity: on a fresh database the genesis block is connected by one
    chain unit, and a disconnect of the tip is one unit *)
Definition g4 : block := mkB 0%N 1000000%N 0 1365.
Definition s4 : pst := fst (run_ops (fun x => x) (mkP (replay d0 (fresh_units d0)) []) [OStore g4]).

Example connect_one_unit_example :
  chain_units (snd (exec_op (fun x => x) s4 (OConn g4))) = [conn_batch (p_d s4) g4 1365] /\
  chain_units (snd (exec_op (fun x => x) (fst (exec_op (fun x => x) s4 (OConn g4))) (ODisc g4)))
  = [[FTx 0%N None; FLast (-1); FHash 0 None; FSeq 1 0%N false; FLastSeq 1]].
Proof. split; vm_compute; reflexivity. Qed.
