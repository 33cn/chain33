(** C29 — proofs, part 2: the write log of a whole delivery history (fresh
    database, flag writes, genesis, deliveries decided by the C25 fork-choice
    model): every block an operation mentions is the genesis block or a
    delivered block, so the theorems of part 1 apply to every history; a
    concrete reorganisation history; and why the single batch is needed. *)
From Coq Require Import List ZArith NArith Bool Lia FinFun.
From C33 Require Import C25.Model C25.Proofs C29.Model C29.Proofs.
Import ListNotations.
Open Scope Z_scope.

Section Blocks.
Variable U : list block.

Definition bl (s : state) : Prop :=
  (forall n, In n (idx s) -> In (nblk n) U) /\ (forall c, In c (orph s) -> In c U).

Lemma bl_orph : forall s o, bl s -> (forall c, In c o -> In c U) -> bl (mkS (idx s) o (main s) (evs s)).
Proof. intros s o [Hi _] Ho. split; assumption. Qed.

Lemma bl_remove : forall s h, bl s -> bl (mkS (idx s) (remove_orph h (orph s)) (main s) (evs s)).
Proof. intros s h B. apply bl_orph; [exact B|]. intros c Hc. apply remove_orph_in in Hc as [Hc _]. apply (proj2 B), Hc. Qed.

(** connectBestChain changes neither the index nor the pool *)
Lemma connect_best_bl : forall fin s b td, bl s -> bl (fst (fst (connect_best fin s b td))).
Proof.
  intros fin s b td B. unfold connect_best.
  destruct (N.eqb (bpar b) (tip s)); [exact B|].
  destruct (find_node (tip s) (idx s)) as [t|]; [|exact B].
  destruct ((td <=? ntd t) || (bht b <? fin + margin)); [exact B|].
  destruct (branch (S (Z.to_nat (bht b))) (idx s) (main s) (bid b)) as [[p fk]|]; exact B.
Qed.

Lemma accept_bl : forall fin s b, bl s -> In b U -> bl (fst (fst (accept fin s b))).
Proof.
  intros fin s b B Hb. unfold accept.
  destruct (find_node (bpar b) (idx s)) as [p|]; [|exact B].
  destruct (negb (bht b =? bht (nblk p) + 1)); [exact B|].
  apply connect_best_bl. split; [|exact (proj2 B)].
  intros n [<-|Hn]; [exact Hb|apply (proj1 B), Hn].
Qed.

Lemma ev_ops_in : forall ix evl, (forall n, In n ix -> In (nblk n) U) -> ops_in U (flat_map (ev_op ix) evl).
Proof.
  intros ix evl H o Ho. apply in_flat_map in Ho as (e & _ & He).
  unfold ev_op, find_blk in He. destruct (find_node (fst e) ix) as [n|] eqn:F; [|destruct He].
  apply find_node_some in F as [Hn _]. destruct He as [<-|[]]. destruct (snd e); exact (H n Hn).
Qed.

Lemma accept_ops_in : forall fin s b, bl s -> In b U -> ops_in U (accept_ops fin s b).
Proof.
  intros fin s b B Hb. unfold accept_ops.
  destruct (find_node (bpar b) (idx s)) as [p|]; [|intros o []].
  destruct (negb (bht b =? bht (nblk p) + 1)); [intros o []|].
  intros o [<-|Ho]; [exact Hb|].
  revert o Ho. apply ev_ops_in. exact (proj1 (accept_bl fin s b B Hb)).
Qed.

(** [porph_ops] and [deliver_ops] follow [porph] and [deliver] branch by
    branch, so the state and the operations are treated together *)
Lemma porph_bl : forall fuel fin q s, bl s ->
  bl (fst (porph fuel fin q s)) /\ ops_in U (porph_ops fuel fin q s).
Proof.
  induction fuel as [|f IH]; intros fin q s B; [split; [exact B|intros o []]|].
  cbn [porph porph_ops]. destruct q as [|p q']; [split; [exact B|intros o []]|].
  destruct (first_child p (orph s)) as [c|] eqn:FC; [|apply IH; exact B].
  apply first_child_some in FC as [Hc _]. apply (proj2 B) in Hc.
  pose proof (bl_remove s (bid c) B) as B0.
  pose proof (accept_ops_in fin _ c B0 Hc) as O1. pose proof (accept_bl fin _ c B0 Hc) as B1.
  destruct (accept fin _ c) as [[s1 m1] e1]. cbn [fst] in B1.
  destruct e1; try (split; [exact B1|apply ops_in_app; split; [exact O1|intros o []]]).
  destruct (IH fin ((p :: q') ++ [bid c]) s1 B1) as [B2 O2].
  split; [exact B2|apply ops_in_app; split; assumption].
Qed.

Lemma deliver_bl : forall fin s b, bl s -> In b U ->
  bl (step fin s b) /\ ops_in U (deliver_ops fin s b).
Proof.
  intros fin s b B Hb. unfold step, deliver, deliver_ops.
  destruct (in_idx (bid b) (idx s)); [split; [exact B|intros o []]|].
  destruct (in_orph (bid b) (orph s) && negb (in_idx (bpar b) (idx s))); [split; [exact B|intros o []]|].
  set (s1 := if in_orph (bid b) (orph s) then _ else s).
  assert (B1 : bl s1) by (subst s1; destruct (in_orph (bid b) (orph s)); [apply bl_remove|]; exact B).
  clearbody s1.
  destruct (negb (in_idx (bpar b) (idx s1))).
  - split; [|intros o []]. apply bl_orph; [exact B1|]. intros x Hx.
    apply in_app_or in Hx as [Hx|[<-|[]]]; [apply (proj2 B1), Hx|exact Hb].
  - pose proof (accept_ops_in fin s1 b B1 Hb) as O2. pose proof (accept_bl fin s1 b B1 Hb) as B2.
    destruct (accept fin s1 b) as [[s2 m2] e2]. cbn [fst] in B2.
    destruct e2; try (split; [exact B2|apply ops_in_app; split; [exact O2|intros o []]]).
    destruct (porph_bl (porph_fuel s2) fin [bid b] s2 B2) as [B3 O3].
    split; [|apply ops_in_app; split; assumption].
    destruct (porph (porph_fuel s2) fin [bid b] s2) as [s3 e3]. destruct e3; exact B3.
Qed.

Lemma order_ops_in : forall fin order s, bl s -> (forall b, In b order -> In b U) -> ops_in U (order_ops fin s order).
Proof.
  induction order as [|b r IH]; intros s B H; [intros o []|].
  destruct (deliver_bl fin s b B (H b (or_introl eq_refl))) as [B1 O1].
  cbn [order_ops]. apply ops_in_app. split; [exact O1|].
  apply IH; [exact B1|]. intros x Hx. apply H. right. exact Hx.
Qed.

End Blocks.

Lemma history_ops_in : forall fin g order, ops_in (g :: order) (history_ops fin g order).
Proof.
  intros fin g order. unfold history_ops. apply ops_in_app. split.
  - intros o [<-|[<-|[]]]; left; reflexivity.
  - apply order_ops_in.
    + split; [|intros c []]. intros n [<-|[]]. left. reflexivity.
    + intros b Hb. right. exact Hb.
Qed.

(** the flag writes do not touch any chain record *)
Lemma inv_flags : forall sid U k, inv sid U (mkP (replay d0 (firstn k (fresh_units d0))) []).
Proof.
  intros sid U k.
  destruct k as [|[|[|k]]];
    (constructor; cbn; [left; reflexivity|exact I|reflexivity|reflexivity|constructor|intros x []]).
Qed.

Definition hash_identifies (U : list block) : Prop :=
  forall x y, In x U -> In y U -> bid x = bid y -> x = y.

(** From the flag writes on, the theorems of part 1 apply to the operations
    of the history. *)
Theorem history_resume : forall sid fin g order k,
  hash_identifies (g :: order) ->
  (length (fresh_units d0) <= k)%nat ->
  let ops := history_ops fin g order in
  let s0 := mkP (replay d0 (fresh_units d0)) [] in
  exists j, (j <= length ops)%nat /\
    let dk := replay d0 (firstn k (history_log sid fin g order)) in
    let cj := chain_after sid s0 ops j in
    consistent_with sid (g :: order) dk cj /\
    let send := fst (run_ops sid (mkP dk cj) (skipn j ops)) in
    p_chain send = p_chain (fst (run_ops sid s0 ops)) /\
    consistent_with sid (g :: order) (p_d send) (p_chain send).
Proof.
  intros sid fin g order k HU Hk ops s0. unfold history_log. fold ops.
  set (fl := fresh_units d0) in *.
  rewrite firstn_app, (firstn_all2 fl) by lia. rewrite replay_app.
  pose proof (inv_flags sid (g :: order) (length fl)) as I. fold fl in I. rewrite firstn_all in I.
  exact (resume_same_final sid (g :: order) HU [] (replay d0 fl) ops (k - length fl) I
           (history_ops_in fin g order)).
Qed.

Theorem history_crash_consistent : forall sid fin g order k,
  hash_identifies (g :: order) ->
  let ops := history_ops fin g order in
  let s0 := mkP (replay d0 (fresh_units d0)) [] in
  exists j, (j <= length ops)%nat /\
    consistent_with sid (g :: order) (replay d0 (firstn k (history_log sid fin g order)))
                    (chain_after sid s0 ops j).
Proof.
  intros sid fin g order k HU ops s0.
  destruct (Nat.le_gt_cases (length (fresh_units d0)) k) as [Hk|Hk].
  - destruct (history_resume sid fin g order k HU Hk) as (j & Hj & C & _). exists j. exact (conj Hj C).
  - (* the crash falls within the flag writes: nothing of the chain exists *)
    exists 0%nat. split; [apply Nat.le_0_l|]. unfold history_log.
    rewrite firstn_app. replace (k - length (fresh_units d0))%nat with 0%nat by lia.
    cbn [firstn]. rewrite app_nil_r.
    exact (inv_consistent sid (g :: order) (mkP _ []) (inv_flags sid (g :: order) k)).
Qed.

(** A concrete history: trunk of 13 blocks, a branch of 3 from height 11 that
    overtakes it (reorganisation of depth 2 above the 12-block margin) *)

Fixpoint trunk (n : nat) (from : N) (h : Z) : list block :=
  match n with
  | O => []
  | S m => mkB (from + 1) from (h + 1) 5 :: trunk m (from + 1) (h + 1)
  end.

Definition ex_g : block := mkB 0 99 0 5.
Definition ex_order : list block :=
  trunk 13 0 0 ++ [mkB 14 11 12 5; mkB 15 14 13 5; mkB 16 15 14 5].
Definition ex_sid : N -> N := fun x => x.
Definition ex_ops : list op := history_ops 0 ex_g ex_order.
Definition ex_log : list wunit := history_log ex_sid 0 ex_g ex_order.

Definition is_disc (o : op) : bool := match o with ODisc _ => true | _ => false end.

(** the hashes are 0, 1, ..., 16 *)
Lemma example_ids : NoDup (map bid (ex_g :: ex_order)).
Proof.
  change (NoDup (map N.of_nat (seq 0 17))).
  apply Injective_map_NoDup; [exact Nat2N.inj|apply seq_NoDup].
Qed.

Lemma example_valid :
  hash_identifies (ex_g :: ex_order) /\
  length (filter is_disc ex_ops) = 2%nat /\ length ex_log = 55%nat /\
  map bid (p_chain (fst (run_ops ex_sid (mkP (replay d0 (fresh_units d0)) []) ex_ops)))
  = [16; 15; 14; 11; 10; 9; 8; 7; 6; 5; 4; 3; 2; 1; 0]%N.
Proof. split; [exact (id_inj _ example_ids)|]. vm_compute. repeat split. Qed.

(** The single batch is needed: with the last-height record written as a
    write of its own before the rest of the connect batch, a crash between the
    two leaves a database on which start-up fails *)

Definition split_conn (u : wunit) : list wunit :=
  match u with
  | FTx b h :: FBlkUpd b' :: FLast l :: rest => [[FLast l]; FTx b h :: FBlkUpd b' :: rest]
  | _ => [u]
  end.

Definition ex_split_log : list wunit := flat_map split_conn ex_log.

Lemma split_same_final :
  recover (replay d0 ex_split_log) = recover (replay d0 ex_log).
Proof. vm_compute. reflexivity. Qed.

Lemma split_unsafe :
  exists k, recover (replay d0 (firstn k ex_split_log)) = RFail.
Proof. exists 5%nat. vm_compute. reflexivity. Qed.
