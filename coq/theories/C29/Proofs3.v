(** C29 — proofs, part 3: continued processing by re-delivery.  After a crash
    the node rebuilds its block index from the recovered best chain only; when
    the blocks of the history are delivered again (in any order), the
    fork-choice model of C25, started from that rebuilt index, ends on the same
    block as the uninterrupted run (under C25's guard: a unique heaviest block
    at least 12 above the finalized height). *)
From Coq Require Import List ZArith NArith Bool Lia.
From C33 Require Import C25.Model C25.Proofs C25.Proofs2 C29.Model C29.Proofs C29.Proofs2.
Import ListNotations.
Open Scope Z_scope.

(** the index rebuilt at start-up (InitIndexAndBestView) from the recovered
    chain [c] (tip first): one node per block with the stored total difficulty *)
Fixpoint chain_nodes (c : list block) : list node :=
  match c with
  | [] => []
  | b :: r => mkN b (sumd c) :: chain_nodes r
  end.

Definition restart_state (c : list block) : state := mkS (chain_nodes c) [] (ids c) [].

Section Redeliver.
Variables (fin : Z) (g : block) (T : list block).
Hypothesis Hg : In g T.
Hypothesis Hnd : NoDup (map bid T).
Hypothesis Hconn : forall b, In b T -> exists l td, path g T b l td.
Hypothesis Hdiff : forall b, In b T -> 0 <= bdiff b.
Hypothesis Hg0 : bht g = 0.

(** what the invariant of part 1 says about the shape of a recovered chain *)
Fixpoint linked_chain (c : list block) : Prop :=
  match c with
  | [] => True
  | b :: r =>
      In b T /\ bht b = Z.of_nat (length r) /\
      match r with [] => True | t :: _ => bpar b = bid t end /\
      linked_chain r
  end.

Lemma height0_root : forall b, In b T -> bht b = 0 -> b = g.
Proof.
  intros b Hb H0. destruct (Hconn b Hb) as (l & td & P).
  apply path_inv in P as [(E & _)|(p & l0 & td0 & _ & Pp & _ & Hh & _)]; [exact E|].
  apply path_height in Pp. lia.
Qed.

Lemma linked_path : forall r b, linked_chain (b :: r) -> path g T b (ids (b :: r)) (sumd (b :: r)).
Proof.
  induction r as [|t r' IH]; intros b (Hb & Hh & Hp & Lr).
  - cbn [length] in Hh. assert (b = g) by (apply height0_root; [exact Hb|lia]). subst b.
    cbn [ids map sumd]. replace (bdiff g + 0) with (bdiff g) by lia. apply path_root.
  - specialize (IH t Lr).
    cbn [ids map sumd] in *. replace (bdiff b + (bdiff t + sumd r')) with ((bdiff t + sumd r') + bdiff b) by lia.
    apply (path_step g T b t _ _ Hb IH Hp).
    destruct Lr as (_ & Ht & _). cbn [length] in Hh. lia.
Qed.

Lemma sumd_nonneg : forall c, linked_chain c -> 0 <= sumd c.
Proof.
  induction c as [|b r IH]; intros L; [cbn; lia|].
  cbn [linked_chain] in L. destruct L as (Hb & _ & _ & Lr). cbn [sumd].
  specialize (IH Lr). specialize (Hdiff b Hb). lia.
Qed.

Lemma chain_nodes_ok : forall c, linked_chain c -> forall n, In n (chain_nodes c) ->
  (exists l, path g T (nblk n) l (ntd n)) /\
  (nblk n = g \/ in_idx (bpar (nblk n)) (chain_nodes c) = true) /\
  ntd n <= sumd c.
Proof.
  induction c as [|b r IH]; intros L n Hn; [destruct Hn|].
  cbn [chain_nodes] in Hn |- *. destruct Hn as [<-|Hn]; cbn [nblk ntd].
  - split; [exists (ids (b :: r)); apply linked_path, L|]. split; [|apply Z.le_refl].
    destruct L as (Hb & Hh & Hp & Lr). destruct r as [|t r'].
    + left. apply height0_root; [exact Hb|cbn [length] in Hh; lia].
    + right. rewrite Hp. apply in_idx_tail, (in_idx_head (mkN t _)).
  - destruct L as (Hb & _ & _ & Lr). destruct (IH Lr n Hn) as (P & Q & Le).
    split; [exact P|]. split; [destruct Q as [Q|Q]; [left; exact Q|right; apply in_idx_tail, Q]|].
    cbn [sumd]. specialize (Hdiff b Hb). lia.
Qed.

Lemma root_indexed : forall c, linked_chain c -> c <> [] -> in_idx (bid g) (chain_nodes c) = true.
Proof.
  induction c as [|b r IH]; intros L Ne; [contradiction|].
  destruct L as (Hb & Hh & _ & Lr). cbn [chain_nodes]. destruct r as [|t r'].
  - assert (b = g) by (apply height0_root; [exact Hb|cbn [length] in Hh; lia]). subst b.
    apply (in_idx_head (mkN g _)).
  - apply in_idx_tail, IH; [exact Lr|discriminate].
Qed.

(** C25's invariant with nothing delivered yet and no orphans *)
Lemma restart_inv : forall c, linked_chain c -> c <> [] ->
  C25.Proofs2.inv fin g T [] (restart_state c).
Proof.
  intros c L Ne. unfold C25.Proofs2.inv, restart_state. cbn [orph idx main].
  split; [|split; [intros x []|split; [intros x []|intros x []]]].
  split; [|split].
  - intros n Hn. destruct (chain_nodes_ok c L n Hn) as (P & Q & _). exact (conj P Q).
  - apply root_indexed; assumption.
  - destruct c as [|b r]; [contradiction|].
    exists (mkN b (sumd (b :: r))). split; [left; reflexivity|]. split.
    + apply (linked_path r b L).
    + intros n Hn _. apply (chain_nodes_ok _ L n Hn).
Qed.

Lemma inv_linked : forall sid U d c, (forall x, In x U -> In x T) -> inv sid U (mkP d c) -> linked_chain c.
Proof.
  intros sid U d c HU [_ IR _ _ _ IU]. cbn [p_d p_chain] in *.
  induction c as [|b r IH]; [exact I|].
  cbn [chain_rec] in IR. destruct IR as (Hh & Hp & _ & _ & _ & _ & _ & _ & Rr).
  cbn [linked_chain]. split; [apply HU, IU; left; reflexivity|]. split; [exact Hh|]. split; [exact Hp|].
  apply IH; [exact Rr|]. intros x Hx. apply IU. right. exact Hx.
Qed.

Theorem redeliver_same_final : forall sid order k H lH tdH,
  (forall b, In b order -> In b T) ->
  (forall b, In b T -> b = g \/ In b order) ->
  path g T H lH tdH ->
  (forall x l td, path g T x l td -> x <> H -> td < tdH) ->
  fin + margin <= bht H ->
  let ops := history_ops fin g order in
  let s0 := mkP (replay d0 (fresh_units d0)) [] in
  exists j, (j <= length ops)%nat /\
    let dk := replay d0 (firstn k (history_log sid fin g order)) in
    let cj := chain_after sid s0 ops j in
    consistent_with sid (g :: order) dk cj /\
    (cj <> [] ->
     let s := fold_left (step fin) order (restart_state cj) in
     tip s = tip (run fin g order) /\ main s = main (run fin g order)).
Proof.
  intros sid order k H lH tdH Hsub Hall PH Hmax Hm ops s0.
  assert (HU : hash_identifies (g :: order)).
  { intros x y Hx Hy E. apply (id_inj T Hnd); [| |exact E].
    - destruct Hx as [<-|Hx]; [exact Hg|apply Hsub; exact Hx].
    - destruct Hy as [<-|Hy]; [exact Hg|apply Hsub; exact Hy]. }
  destruct (history_crash_consistent sid fin g order k HU) as (j & Hj & CW).
  exists j. split; [exact Hj|]. cbv zeta. fold ops s0 in CW |- *. split; [exact CW|].
  intros Ne.
  assert (L : linked_chain (chain_after sid s0 ops j)).
  { eapply (inv_linked sid (g :: order)); [|exact (proj1 CW)].
    intros x [<-|Hx]; [exact Hg|apply Hsub; exact Hx]. }
  assert (Hg0' : 0 <= bht g) by lia.
  destruct (converges fin g T Hg Hnd Hconn Hdiff Hg0' order H lH tdH Hsub Hall PH Hmax Hm) as (T1 & M1 & _).
  destruct (converges_from fin g T Hg Hnd Hconn Hdiff Hg0' [] _ order H lH tdH (restart_inv _ L Ne) Hsub)
    as (T2 & M2 & _); try assumption.
  { intros b Hb. destruct (Hall b Hb); auto. }
  split; [rewrite T2, T1; reflexivity|rewrite M2, M1; reflexivity].
Qed.

End Redeliver.
