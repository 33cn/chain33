(** C29 — proofs, part 1: every prefix of the write log of ANY operation
    sequence recovers to a consistent chain that the node had reached, and
    resuming the remaining operations ends in the same chain. *)
From Coq Require Import List ZArith NArith Bool Lia.
From C33 Require Import C25.Model C29.Model.
Import ListNotations.
Open Scope Z_scope.

Lemma replay_app : forall d l1 l2, replay d (l1 ++ l2) = replay (replay d l1) l2.
Proof. intros. unfold replay. apply fold_left_app. Qed.

Lemma updN_same : forall A (f : N -> A) k v, updN f k v k = v.
Proof. intros. unfold updN. rewrite N.eqb_refl. reflexivity. Qed.
Lemma updN_other : forall A (f : N -> A) k v x, x <> k -> updN f k v x = f x.
Proof. intros A f k v x H. unfold updN. apply N.eqb_neq in H. rewrite H. reflexivity. Qed.
Lemma updZ_same : forall A (f : Z -> A) k v, updZ f k v k = v.
Proof. intros. unfold updZ. rewrite Z.eqb_refl. reflexivity. Qed.
Lemma updZ_other : forall A (f : Z -> A) k v x, x <> k -> updZ f k v x = f x.
Proof. intros A f k v x H. unfold updZ. apply Z.eqb_neq in H. rewrite H. reflexivity. Qed.

Lemma updN_true : forall (f : N -> bool) k x, f x = true -> updN f k true x = true.
Proof. intros f k x H. unfold updN. destruct (N.eqb x k); [reflexivity|exact H]. Qed.

Lemma store_unit : forall d b td, apply_unit d [FBlk b; FTd b td] =
  mkD (d_flag d) (d_tx d) (updN (d_blk d) b true) (updN (d_blkd d) b true) (d_last d) (d_h2h d)
      (d_seq d) (d_hseq d) (d_lastseq d) (updN (d_td d) b (Some td)) (d_state d) (d_other d).
Proof. intros [] b td. reflexivity. Qed.

Lemma state_unit : forall d x, apply_unit d [FState x] =
  mkD (d_flag d) (d_tx d) (d_blk d) (d_blkd d) (d_last d) (d_h2h d)
      (d_seq d) (d_hseq d) (d_lastseq d) (d_td d) (updN (d_state d) x true) (d_other d).
Proof. intros [] x. reflexivity. Qed.

(** The connect batch takes its sequence number from the state [ds] in which it
    was computed (before the state commit) and is applied to the state after it. *)
Lemma conn_unit : forall d ds b td, apply_unit d (conn_batch ds b td) =
  mkD (d_flag d) (updN (d_tx d) (bid b) (Some (bht b))) (d_blk d) (updN (d_blkd d) (bid b) true)
      (Some (bht b)) (updZ (d_h2h d) (bht b) (Some (bid b)))
      (updZ (d_seq d) (next_seq ds) (Some (bid b, true))) (updN (d_hseq d) (bid b) (Some (next_seq ds)))
      (Some (next_seq ds)) (updN (d_td d) (bid b) (Some td)) (d_state d) (d_other d).
Proof. intros [] ds b td. reflexivity. Qed.

Lemma disc_unit : forall d b, replay d (disc_units d b) =
  mkD (d_flag d) (updN (d_tx d) (bid b) None) (d_blk d) (d_blkd d)
      (Some (bht b - 1)) (updZ (d_h2h d) (bht b) None)
      (updZ (d_seq d) (next_seq d) (Some (bid b, false))) (d_hseq d)
      (Some (next_seq d)) (d_td d) (d_state d) (d_other d).
Proof. intros [] b. reflexivity. Qed.

(** reads the fields off a state written out as above *)
Ltac fields := cbn [p_d p_chain d_tx d_blk d_blkd d_last d_h2h d_lastseq d_td d_state] in *.

Definition op_block (o : op) : block :=
  match o with OStore b => b | OConn b => b | ODisc b => b end.

Section Crash.
Variable sid : N -> N.
Variable U : list block.
Hypothesis U_fun : forall x y, In x U -> In y U -> bid x = bid y -> x = y.

Definition ids (c : list block) : list N := map bid c.

Fixpoint sumd (c : list block) : Z :=
  match c with [] => 0 | b :: r => bdiff b + sumd r end.

(** the records of every block of the chain [c] (tip first) *)
Fixpoint chain_rec (d : dst) (c : list block) : Prop :=
  match c with
  | [] => True
  | b :: r =>
      bht b = Z.of_nat (length r) /\
      match r with [] => True | t :: _ => bpar b = bid t end /\
      d_h2h d (bht b) = Some (bid b) /\ d_blkd d (bid b) = true /\ d_blk d (bid b) = true /\
      d_tx d (bid b) = Some (bht b) /\ d_td d (bid b) = Some (sumd c) /\
      d_state d (sid (bid b)) = true /\
      chain_rec d r
  end.

Record inv (s : pst) : Prop := mkInv {
  i_last : match p_chain s with
           | [] => d_last (p_d s) = None \/ d_last (p_d s) = Some (-1)
           | _ :: r => d_last (p_d s) = Some (Z.of_nat (length r))
           end;
  i_rec : chain_rec (p_d s) (p_chain s);
  i_above : forall i, Z.of_nat (length (p_chain s)) <= i -> d_h2h (p_d s) i = None;
  i_tx : forall x, ~ In x (ids (p_chain s)) -> d_tx (p_d s) x = None;
  i_nodup : NoDup (ids (p_chain s));
  i_in : forall x, In x (p_chain s) -> In x U
}.

Lemma chain_rec_height : forall d c x, chain_rec d c -> In x c -> 0 <= bht x < Z.of_nat (length c).
Proof.
  induction c as [|b r IH]; intros x H Hx; [destruct Hx|].
  cbn [chain_rec] in H. destruct H as (Hh & _ & _ & _ & _ & _ & _ & _ & Hr).
  cbn [length]. destruct Hx as [<-|Hx]; [lia|]. specialize (IH x Hr Hx). lia.
Qed.

Lemma chain_rec_blk : forall d c x, chain_rec d c -> In x (ids c) -> d_blk d x = true.
Proof.
  induction c as [|b r IH]; intros x H Hx; [destruct Hx|].
  cbn [chain_rec] in H. destruct H as (_ & _ & _ & _ & Hb & _ & _ & _ & Hr).
  destruct Hx as [<-|Hx]; [exact Hb|]. apply IH; assumption.
Qed.

Lemma chain_rec_ext : forall d d' c,
  chain_rec d c ->
  (forall i, 0 <= i < Z.of_nat (length c) -> d_h2h d' i = d_h2h d i) ->
  (forall x, In x (ids c) -> d_tx d' x = d_tx d x /\ d_td d' x = d_td d x /\
                             (d_blkd d x = true -> d_blkd d' x = true) /\
                             (d_blk d x = true -> d_blk d' x = true)) ->
  (forall x, d_state d x = true -> d_state d' x = true) ->
  chain_rec d' c.
Proof.
  induction c as [|b r IH]; intros H Hh Hx Hs; [exact I|].
  pose proof (chain_rec_height d (b :: r) b H (or_introl eq_refl)) as Hb.
  cbn [chain_rec] in *. destruct H as (A1 & A2 & A3 & A4 & A4' & A5 & A6 & A7 & Hr).
  destruct (Hx (bid b) (or_introl eq_refl)) as (X1 & X2 & X3 & X4).
  rewrite (Hh _ Hb), X1, X2. repeat split; auto.
  apply IH; auto.
  - intros i Hi. apply Hh. cbn [length]. lia.
  - intros x Hin. apply Hx. right. exact Hin.
Qed.

Lemma tip_ok_facts : forall d c b, chain_rec d c -> tip_ok c b = true ->
  bht b = Z.of_nat (length c) /\ match c with [] => True | t :: _ => bpar b = bid t end.
Proof.
  intros d c b H Ht. destruct c as [|t r]; cbn [tip_ok] in Ht.
  - apply Z.eqb_eq in Ht. cbn [length]. split; [lia|exact I].
  - apply andb_true_iff in Ht as [Hp Hh]. apply N.eqb_eq in Hp. apply Z.eqb_eq in Hh.
    cbn [chain_rec] in H. destruct H as (Ht' & _). cbn [length]. split; [lia|exact Hp].
Qed.

(** so from a state with the invariant [conn_units] never takes its branch
    without a batch *)
Lemma td_of_chain : forall d c b,
  chain_rec d c -> tip_ok c b = true -> td_of d b = Some (sumd (b :: c)).
Proof.
  intros d c b H Ht. destruct (tip_ok_facts d c b H Ht) as [Hh Hp].
  unfold td_of. destruct c as [|t r].
  - cbn [length] in Hh. rewrite Hh. cbn. f_equal. lia.
  - assert (E : (bht b =? 0) = false) by (apply Z.eqb_neq; cbn [length] in Hh; lia).
    rewrite E, Hp. cbn [chain_rec] in H. destruct H as (_ & _ & _ & _ & _ & _ & Td & _).
    rewrite Td. cbn [sumd]. f_equal. lia.
Qed.

Lemma inv_frame : forall d d' c, inv (mkP d c) ->
  d_last d' = d_last d -> d_h2h d' = d_h2h d -> d_tx d' = d_tx d ->
  (forall x, In x (ids c) -> d_td d' x = d_td d x) ->
  (forall x, d_blkd d x = true -> d_blkd d' x = true) ->
  (forall x, d_blk d x = true -> d_blk d' x = true) ->
  (forall x, d_state d x = true -> d_state d' x = true) ->
  inv (mkP d' c).
Proof.
  intros d d' c [IL IR IA IT IN IU] EL EH ET ETd Mb Mk Ms. constructor; fields.
  - rewrite EL. exact IL.
  - apply (chain_rec_ext d); [exact IR| | |exact Ms].
    + intros i _. rewrite EH. reflexivity.
    + intros x Hx. rewrite ET. auto.
  - intros i Hi. rewrite EH. apply IA, Hi.
  - intros x Hx. rewrite ET. apply IT, Hx.
  - exact IN.
  - exact IU.
Qed.

Lemma store_inv : forall d c b td, inv (mkP d c) -> d_blk d b = false ->
  inv (mkP (apply_unit d [FBlk b; FTd b td]) c).
Proof.
  intros d c b td I Eb. rewrite store_unit. apply (inv_frame d); fields; auto using updN_true.
  intros x Hx. apply updN_other. intros ->.
  rewrite (chain_rec_blk d c _ (i_rec _ I) Hx) in Eb. discriminate.
Qed.

(** a crash can fall between the state commit and the connect batch *)
Lemma state_inv : forall d c x, inv (mkP d c) -> inv (mkP (apply_unit d [FState x]) c).
Proof. intros d c x I. rewrite state_unit. apply (inv_frame d); fields; auto using updN_true. Qed.

Lemma conn_inv : forall d ds c b, inv (mkP d c) -> In b U -> tip_ok c b = true ->
  d_blk d (bid b) = true -> d_state d (sid (bid b)) = true ->
  inv (mkP (apply_unit d (conn_batch ds b (sumd (b :: c)))) (b :: c)).
Proof.
  intros d ds c b [IL IR IA IT IN IU] V Ht Eb Es. rewrite conn_unit. fields.
  destruct (tip_ok_facts d c b IR Ht) as [Vh Vp].
  assert (Vn : ~ In (bid b) (ids c)).
  { (* a block of the chain with the hash of [b] is [b], whose height is the length of the chain *)
    intros Hin. apply in_map_iff in Hin as (x & Ex & Hx).
    assert (x = b) by (apply U_fun; [apply IU; exact Hx|exact V|exact Ex]). subst x.
    pose proof (chain_rec_height _ _ _ IR Hx). lia. }
  constructor; fields.
  - rewrite Vh. reflexivity.
  - cbn [chain_rec]. fields. rewrite !updN_same, updZ_same. repeat split; try assumption.
    apply (chain_rec_ext d); [exact IR| | |]; fields.
    + intros i Hi. apply updZ_other. lia.
    + intros x Hx. rewrite !updN_other by (intros ->; contradiction). auto.
    + auto.
  - intros i Hi. cbn [length] in Hi. rewrite updZ_other by lia. apply IA. lia.
  - intros x Hx. cbn [ids map] in Hx. rewrite updN_other by (intros ->; apply Hx; left; reflexivity).
    apply IT. intros Hin. apply Hx. right. exact Hin.
  - cbn [ids map]. constructor; assumption.
  - intros x [<-|Hx]; [exact V|apply IU; exact Hx].
Qed.

Lemma disc_inv : forall d t c, inv (mkP d (t :: c)) -> inv (mkP (replay d (disc_units d t)) c).
Proof.
  intros d t c [IL IR IA IT IN IU]. rewrite disc_unit. fields.
  cbn [chain_rec] in IR. destruct IR as (Hh & _ & _ & _ & _ & _ & _ & _ & Rr).
  cbn [ids map] in IN, IT. apply NoDup_cons_iff in IN as [Hnt INr].
  constructor; fields.
  - rewrite Hh. destruct c as [|t' r]; [right; reflexivity|]. cbn [length]. f_equal. lia.
  - apply (chain_rec_ext d); [exact Rr| | |]; fields.
    + intros i Hi. apply updZ_other. lia.
    + intros x Hx. rewrite updN_other by (intros ->; contradiction). auto.
    + auto.
  - intros i Hi. destruct (Z.eq_dec i (bht t)) as [->|Ne]; [apply updZ_same|].
    rewrite updZ_other by exact Ne. apply IA. cbn [length]. lia.
  - intros x Hx. destruct (N.eq_dec x (bid t)) as [->|Ne]; [apply updN_same|].
    rewrite updN_other by exact Ne. apply IT. intros [E|Hin]; [congruence|contradiction].
  - exact INr.
  - intros x Hx. apply IU. right. exact Hx.
Qed.

Lemma exec_inv : forall s o, inv s -> In (op_block o) U -> inv (fst (exec_op sid s o)).
Proof.
  intros [d c] o I V. destruct o as [b|b|b]; cbn [exec_op p_d p_chain op_block] in *.
  - unfold store_units. destruct (d_blk d (bid b)) eqn:Eb; [exact I|].
    destruct (td_of d b) as [td|]; [|exact I]. apply store_inv; assumption.
  - destruct (tip_ok c b) eqn:Ht; [|exact I]. destruct (d_blk d (bid b)) eqn:Eb; [|exact I].
    unfold conn_units. rewrite (td_of_chain d c b (i_rec _ I) Ht). cbn [andb fst replay fold_left].
    apply conn_inv; [apply state_inv; exact I|exact V|exact Ht| |]; rewrite state_unit; fields.
    + exact Eb.
    + apply updN_same.
  - destruct c as [|t c']; [exact I|]. destruct (N.eqb (bid t) (bid b)); [|exact I].
    apply disc_inv. exact I.
Qed.

Definition ops_in (ops : list op) : Prop := forall o, In o ops -> In (op_block o) U.

Lemma run_ops_cons : forall s o r,
  run_ops sid s (o :: r) =
  (fst (run_ops sid (fst (exec_op sid s o)) r),
   snd (exec_op sid s o) ++ snd (run_ops sid (fst (exec_op sid s o)) r)).
Proof.
  intros s o r. cbn [run_ops]. destruct (exec_op sid s o) as [s1 us]. cbn [fst snd].
  destruct (run_ops sid s1 r) as [s2 lg]. reflexivity.
Qed.

Lemma run_ops_app_fst : forall l1 l2 s,
  fst (run_ops sid s (l1 ++ l2)) = fst (run_ops sid (fst (run_ops sid s l1)) l2).
Proof.
  induction l1 as [|o r IH]; intros l2 s; [reflexivity|].
  cbn [app]. rewrite !run_ops_cons. cbn [fst]. apply IH.
Qed.

Lemma run_inv : forall ops s, inv s -> ops_in ops -> inv (fst (run_ops sid s ops)).
Proof.
  induction ops as [|o r IH]; intros s I V; [exact I|].
  rewrite run_ops_cons. cbn [fst]. apply IH.
  - apply exec_inv; [exact I|]. apply V. left. reflexivity.
  - intros x Hx. apply V. right. exact Hx.
Qed.

Lemma ops_in_app : forall a b, ops_in (a ++ b) <-> ops_in a /\ ops_in b.
Proof.
  intros a b. split.
  - intros V. split; intros o Ho; apply V, in_or_app; [left|right]; exact Ho.
  - intros [Va Vb] o Ho. apply in_app_or in Ho as [Ho|Ho]; [apply Va|apply Vb]; exact Ho.
Qed.

(** The decisions of the node depend on the durable state only through the
    stored-rows set, the total difficulties and the last sequence number; a
    lone state commit changes none of them. *)
Definition eqv3 (d d' : dst) : Prop :=
  (forall x, d_blk d x = d_blk d' x) /\ (forall x, d_td d x = d_td d' x) /\ d_lastseq d = d_lastseq d'.

Lemma eqv3_refl : forall d, eqv3 d d.
Proof. intros d. repeat split. Qed.

Lemma eqv3_state : forall d x, eqv3 d (apply_unit d [FState x]).
Proof. intros d x. rewrite state_unit. repeat split. Qed.

Lemma eqv3_fact : forall d d' f, eqv3 d d' -> eqv3 (apply_fact d f) (apply_fact d' f).
Proof.
  intros d d' f (A & B & C). destruct d, d'. cbn in A, B, C.
  destruct f; cbn; (split; [|split]); cbn; auto; intros x; unfold updN;
    try (rewrite A); try (rewrite B); reflexivity.
Qed.

Lemma eqv3_unit : forall u d d', eqv3 d d' -> eqv3 (apply_unit d u) (apply_unit d' u).
Proof.
  induction u as [|f u IH]; intros d d' E; [exact E|]. cbn [apply_unit fold_left].
  apply IH. apply eqv3_fact. exact E.
Qed.

Lemma eqv3_replay : forall l d d', eqv3 d d' -> eqv3 (replay d l) (replay d' l).
Proof.
  induction l as [|u l IH]; intros d d' E; [exact E|]. cbn [replay fold_left].
  apply IH. apply eqv3_unit. exact E.
Qed.

Lemma eqv3_exec : forall d d' c o, eqv3 d d' -> exists c1 us,
  exec_op sid (mkP d c) o = (mkP (replay d us) c1, us) /\
  exec_op sid (mkP d' c) o = (mkP (replay d' us) c1, us).
Proof.
  intros d d' c o (A & B & C).
  assert (Td : forall b, td_of d b = td_of d' b) by (intros b; unfold td_of; rewrite B; reflexivity).
  assert (Ns : next_seq d = next_seq d') by (unfold next_seq; rewrite C; reflexivity).
  destruct o as [b|b|b]; cbn [exec_op p_d p_chain].
  - unfold store_units. rewrite A, Td. eexists _, _. split; reflexivity.
  - rewrite A. destruct (tip_ok c b && d_blk d' (bid b)); [|exists c, []; split; reflexivity].
    unfold conn_units, conn_batch. rewrite Td, Ns. eexists _, _. split; reflexivity.
  - destruct c as [|t c']; [exists [], []; split; reflexivity|].
    destruct (N.eqb (bid t) (bid b)); [|exists (t :: c'), []; split; reflexivity].
    unfold disc_units. rewrite Ns. eexists _, _. split; reflexivity.
Qed.

Lemma eqv3_run : forall ops d d' c, eqv3 d d' ->
  p_chain (fst (run_ops sid (mkP d c) ops)) = p_chain (fst (run_ops sid (mkP d' c) ops)).
Proof.
  induction ops as [|o r IH]; intros d d' c E; [reflexivity|].
  rewrite !run_ops_cons. destruct (eqv3_exec d d' c o E) as (c1 & us & -> & ->). cbn [fst].
  apply IH, eqv3_replay, E.
Qed.

Lemma exec_durable : forall s o, p_d (fst (exec_op sid s o)) = replay (p_d s) (snd (exec_op sid s o)).
Proof. intros [d c] o. destruct (eqv3_exec d d c o (eqv3_refl d)) as (c1 & us & -> & _). reflexivity. Qed.

Lemma exec_units : forall s o,
  let us := snd (exec_op sid s o) in
  us = [] \/ (exists u, us = [u]) \/ (exists x u, us = [[FState x]; u]).
Proof.
  intros [d c] o. destruct o as [b|b|b]; cbn [exec_op snd p_d p_chain].
  - unfold store_units. destruct (d_blk d (bid b)); [left; reflexivity|].
    destruct (td_of d b); [right; left; eexists; reflexivity|left; reflexivity].
  - destruct (tip_ok c b && d_blk d (bid b)); [|left; reflexivity]. cbn [snd]. unfold conn_units.
    destruct (td_of d b).
    + right; right. do 2 eexists. reflexivity.
    + right; left. eexists. reflexivity.
  - destruct c as [|t c']; [left; reflexivity|].
    destruct (N.eqb (bid t) (bid b)); [|left; reflexivity].
    right; left. eexists. reflexivity.
Qed.

(** a crash inside one operation loses it whole, or keeps its lone state commit *)
Lemma exec_crash : forall s o k, (k < length (snd (exec_op sid s o)))%nat ->
  let dk := replay (p_d s) (firstn k (snd (exec_op sid s o))) in
  dk = p_d s \/ exists x, dk = apply_unit (p_d s) [FState x].
Proof.
  intros s o k. destruct (exec_units s o) as [->|[(u & ->)|(x & u & ->)]]; cbn [length]; intros Hk.
  - lia.
  - left. replace k with 0%nat by lia. reflexivity.
  - destruct k as [|[|k]]; [left; reflexivity|right; exists x; reflexivity|lia].
Qed.

Lemma crash_prefix : forall ops s k,
  exists j, (j <= length ops)%nat /\
    let sj := fst (run_ops sid s (firstn j ops)) in
    let dk := replay (p_d s) (firstn k (snd (run_ops sid s ops))) in
    dk = p_d sj \/ exists x, dk = apply_unit (p_d sj) [FState x].
Proof.
  induction ops as [|o r IH]; intros s k.
  - exists 0%nat. split; [cbn; lia|]. cbn. left. destruct k; reflexivity.
  - rewrite run_ops_cons. cbn [snd]. rewrite firstn_app.
    destruct (Nat.le_gt_cases (length (snd (exec_op sid s o))) k) as [Hk|Hk].
    + (* the whole operation is durable *)
      destruct (IH (fst (exec_op sid s o)) (k - length (snd (exec_op sid s o)))%nat) as (j & Hj & HH).
      exists (S j). split; [cbn [length]; lia|].
      cbn [firstn]. rewrite run_ops_cons. cbn [fst].
      rewrite firstn_all2 by exact Hk. rewrite replay_app, <- exec_durable. exact HH.
    + exists 0%nat. split; [cbn; lia|].
      replace (k - length (snd (exec_op sid s o)))%nat with 0%nat by lia.
      rewrite firstn_O, app_nil_r. exact (exec_crash s o k Hk).
Qed.

Lemma read_chain_inv : forall d c, chain_rec d c -> read_chain d (length c) = Some (ids c).
Proof.
  induction c as [|b r IH]; intros H; [reflexivity|].
  cbn [chain_rec] in H. destruct H as (Hh & _ & H2 & Hb & _ & _ & _ & _ & Hr).
  cbn [length read_chain]. rewrite <- Hh, H2, Hb, (IH Hr). reflexivity.
Qed.

Lemma recover_inv : forall s, inv s ->
  recover (p_d s) = match p_chain s with
                    | [] => RFresh
                    | _ :: r => RChain (Z.of_nat (length r)) (ids (p_chain s))
                    end.
Proof.
  intros [d c] [IL IR _ _ _ _]. cbn [p_d p_chain] in *. unfold recover.
  destruct c as [|b r].
  - destruct IL as [-> | ->]; reflexivity.
  - rewrite IL. assert (E : (Z.of_nat (length r) <? 0) = false) by (apply Z.ltb_ge; lia).
    rewrite E, Nat2Z.id. change (S (length r)) with (length (b :: r)).
    rewrite (read_chain_inv _ _ IR). reflexivity.
Qed.

(** [consistent_with d c]: the durable records describe exactly the chain [c]
    (tip first): last height, hash by height, block rows, tx index, total
    difficulties and states of all its blocks, nothing above its height, no
    other transaction indexed; and start-up recovers exactly [c]. *)
Definition consistent_with (d : dst) (c : list block) : Prop :=
  inv (mkP d c) /\
  recover d = match c with [] => RFresh | _ :: r => RChain (Z.of_nat (length r)) (ids c) end.

Lemma inv_consistent : forall s, inv s -> consistent_with (p_d s) (p_chain s).
Proof. intros [d c] I. exact (conj I (recover_inv _ I)). Qed.

Definition chain_after (s : pst) (ops : list op) (j : nat) : list block :=
  p_chain (fst (run_ops sid s (firstn j ops))).

Theorem resume_same_final : forall (c0 : list block) (d00 : dst) (ops : list op) (k : nat),
  inv (mkP d00 c0) -> ops_in ops ->
  let log := snd (run_ops sid (mkP d00 c0) ops) in
  exists j, (j <= length ops)%nat /\
    let dk := replay d00 (firstn k log) in
    let cj := chain_after (mkP d00 c0) ops j in
    consistent_with dk cj /\
    let send := fst (run_ops sid (mkP dk cj) (skipn j ops)) in
    p_chain send = p_chain (fst (run_ops sid (mkP d00 c0) ops)) /\
    consistent_with (p_d send) (p_chain send).
Proof.
  intros c0 d00 ops k I V log.
  destruct (crash_prefix ops (mkP d00 c0) k) as (j & Hj & HH). exists j. split; [exact Hj|].
  rewrite <- (firstn_skipn j ops) in V. apply ops_in_app in V as [V1 V2].
  pose proof (run_inv _ _ I V1) as Ij.
  unfold chain_after. cbv zeta in *. fold log in HH. cbn [p_d] in HH.
  destruct (fst (run_ops sid (mkP d00 c0) (firstn j ops))) as [dj cj] eqn:Ej. cbn [p_d p_chain] in *.
  set (dk := replay d00 (firstn k log)) in *.
  assert (Ik : inv (mkP dk cj) /\ eqv3 dj dk).
  { destruct HH as [->|(x & ->)]; [exact (conj Ij (eqv3_refl _))|].
    exact (conj (state_inv _ _ x Ij) (eqv3_state _ x)). }
  destruct Ik as [Ik Eq].
  split; [exact (inv_consistent _ Ik)|]. split; [|exact (inv_consistent _ (run_inv _ _ Ik V2))].
  rewrite <- (eqv3_run _ _ _ _ Eq), <- Ej, <- run_ops_app_fst, firstn_skipn. reflexivity.
Qed.

Theorem crash_consistent : forall (c0 : list block) (d00 : dst) (ops : list op) (k : nat),
  inv (mkP d00 c0) -> ops_in ops ->
  let log := snd (run_ops sid (mkP d00 c0) ops) in
  exists j, (j <= length ops)%nat /\
    consistent_with (replay d00 (firstn k log)) (chain_after (mkP d00 c0) ops j).
Proof.
  intros c0 d00 ops k I V log. destruct (resume_same_final c0 d00 ops k I V) as (j & Hj & C & _).
  exists j. exact (conj Hj C).
Qed.

End Crash.
