(** C08 — LocalDB refines the (base, committed overlay, optional transaction) specification. *)
From Coq Require Import String.
From Coq Require Import List NArith ZArith Bool Lia.
From C33 Require Import Lib.Harness Lib.Bytes Lib.OMap C07.Model C07.Spec C07.ProofsBase C07.Proofs
  C08.Model C08.Spec C08.ProofsBase.
Import ListNotations.

Definition txs (tx : option store) : store := match tx with Some t => t | None => [] end.

Definition cache_rel (cache tx : option store) (main committed : store) (ro : bool) : Prop :=
  if ro then cache = None /\ committed = [] /\ tx = None
  else exists c, cache = Some c /\ wf_store c /\
                 forall k, lookup [c; main] k = lookup [committed; main] k.

(** stated through the projections, so that it can be read off an updated record by computation *)
Definition Inv (l : ldb) (s : sdb) : Prop :=
  l_main l = s_base s /\ l_ro l = s_ro s /\ wf_store (l_main l) /\ wf_store (txs (l_tx l)) /\
  s_tx s = (if l_intx l then Some (txs (l_tx l)) else None) /\
  (l_intx l = false -> txs (l_tx l) = []) /\
  cache_rel (l_cache l) (l_tx l) (l_main l) (s_committed s) (l_ro l).

(* reads the clauses off the updated records and leaves those that are neither hypotheses nor trivial *)
Ltac mkinv :=
  unfold Inv;
  cbn [fst s_step ldb_begin ldb_rollback reset_tx l_tx l_cache l_main l_intx l_ro s_base s_committed s_tx s_ro txs];
  refine (conj _ (conj _ (conj _ (conj _ (conj _ (conj _ _))))));
  try assumption; try reflexivity.

Lemma ro_tx_none cache tx main committed : cache_rel cache tx main committed true -> tx = None.
Proof. intros (_ & _ & H). exact H. Qed.

Lemma cache_rel_lookup cache tx main committed ro : cache_rel cache tx main committed ro ->
  forall k, lookup (match cache with Some c => [c] | None => [] end ++ [main]) k = lookup [committed; main] k.
Proof.
  unfold cache_rel. destruct ro.
  - intros (-> & -> & _) k. reflexivity.
  - intros (c & -> & _ & H). exact H.
Qed.

Lemma cache_rel_wf cache tx main committed ro : cache_rel cache tx main committed ro ->
  Forall wf_store (match cache with Some c => [c] | None => [] end).
Proof.
  unfold cache_rel. destruct ro.
  - intros (-> & _). constructor.
  - intros (c & -> & Wc & _). constructor; [exact Wc | constructor].
Qed.

Lemma cache_rel_tx cache tx tx' main committed ro :
  cache_rel cache tx main committed ro -> (ro = true -> tx' = None) -> cache_rel cache tx' main committed ro.
Proof.
  unfold cache_rel. destruct ro; [|auto]. intros (H1 & H2 & _) H. repeat split; auto.
Qed.

Lemma cache_rel_read_through cache tx main committed ro k v :
  cache_rel cache tx main committed ro -> wf_bytes k ->
  match cache with Some c => get k c | None => None end = None -> get k main = Some v ->
  cache_rel (option_map (put k v) cache) tx main committed ro.
Proof.
  unfold cache_rel. destruct ro.
  - intros (-> & H) _ _ _. exact (conj eq_refl H).
  - intros (c & -> & Wc & H) Wk Ec Em. exists (put k v c). split; [reflexivity|]. split; [apply put_wf; assumption|].
    intro k'. rewrite <- H. simpl. rewrite get_put. destruct (beqb k' k) eqn:E; [|reflexivity].
    apply beqb_eq in E. subst k'. rewrite Ec, Em. reflexivity.
Qed.

Lemma cache_rel_put cache tx main committed k v :
  cache_rel cache tx main committed false -> wf_bytes k ->
  cache_rel (option_map (put k v) cache) tx main (put k v committed) false.
Proof.
  intros (c & -> & Wc & H) Wk. exists (put k v c). split; [reflexivity|]. split; [apply put_wf; assumption|].
  intro k'. specialize (H k'). simpl in *. rewrite !get_put. destruct (beqb k' k); [reflexivity | exact H].
Qed.

Lemma lookup_put_all t c base k : sorted t ->
  lookup [put_all t c; base] k = match get k t with Some v => Some v | None => lookup [c; base] k end.
Proof. intro Hs. simpl. rewrite (get_put_all k t c Hs). destruct (get k t); reflexivity. Qed.

Lemma lookup_overlay2 t c base k :
  lookup [overlay2 t c; base] k = match get k t with Some v => Some v | None => lookup [c; base] k end.
Proof. simpl. rewrite get_overlay2. destruct (get k t); reflexivity. Qed.

Lemma cache_rel_commit cache tx main committed ro :
  cache_rel cache tx main committed ro -> wf_store (txs tx) ->
  cache_rel (option_map (commit_loop (S (length (txs tx))) (db_open (txs tx) [] false)) cache) None main
            (overlay2 (txs tx) committed) ro.
Proof.
  unfold cache_rel. destruct ro.
  - intros (-> & -> & ->) _. repeat split.
  - generalize (txs tx). intros t (c & -> & Wc & H) Wt. exists (put_all t c). cbn [option_map].
    rewrite commit_loop_spec. split; [reflexivity|]. split; [apply put_all_wf; assumption|].
    intro k. rewrite lookup_put_all by apply Wt. rewrite lookup_overlay2.
    destruct (get k t); [reflexivity | apply H].
Qed.

Lemma inv_init base ro : wf_store base -> Inv (new_localdb base ro) (new_spec base ro).
Proof.
  intro W. unfold new_localdb, new_spec. destruct ro; mkinv; try exact wf_nil.
  - repeat split.
  - exists []. split; [reflexivity|]. split; [exact wf_nil | reflexivity].
Qed.

Lemma lookup_txs tx rest k :
  lookup (match tx with Some t => [t] | None => [] end ++ rest) k = lookup (txs tx :: rest) k.
Proof. destruct tx; reflexivity. Qed.

Lemma inv_lookup l s : Inv l s -> forall k, lookup (ldb_layers l) k = lookup (s_layers s) k.
Proof.
  intros (Hm & _ & _ & _ & HT & HE & HC) k. unfold ldb_layers, s_layers.
  rewrite !lookup_txs, HT. cbn [lookup]. rewrite (cache_rel_lookup _ _ _ _ _ HC k), Hm.
  destruct (l_intx l); [reflexivity|]. rewrite HE; reflexivity.
Qed.

Lemma inv_layers_wf l s : Inv l s -> Forall wf_store (ldb_layers l).
Proof.
  intros (_ & _ & Wm & Wt & _ & _ & HC). unfold ldb_layers. apply Forall_app. split; [|apply Forall_app; split].
  - destruct (l_tx l); constructor; [exact Wt | constructor].
  - exact (cache_rel_wf _ _ _ _ _ HC).
  - constructor; [exact Wm | constructor].
Qed.

Lemma get_raw_refines l s k : Inv l s -> wf_bytes k ->
  snd (ldb_get_raw l k) = lookup (s_layers s) k /\ Inv (fst (ldb_get_raw l k)) s.
Proof.
  intros HI Wk. rewrite <- (inv_lookup l s HI k).
  assert (HI' := HI). destruct HI' as (Hm & Hr & Wm & Wt & HT & HE & HC).
  unfold ldb_get_raw, ldb_layers. rewrite lookup_txs. cbn [lookup].
  (* outside a transaction the txcache is empty, so asking it changes nothing *)
  replace (if l_intx l then match l_tx l with Some t => get k t | None => None end else None)
    with (get k (txs (l_tx l)))
    by (destruct (l_intx l); [destruct (l_tx l); reflexivity | rewrite HE; reflexivity]).
  destruct (get k (txs (l_tx l))); [split; [reflexivity | exact HI]|].
  assert (RT := fun v => cache_rel_read_through _ _ _ _ _ k v HC Wk).
  destruct (l_cache l) as [c|]; simpl in *.
  - destruct (get k c); [split; [reflexivity | exact HI]|].
    destruct (get k (l_main l)) as [v|]; [|split; [reflexivity | exact HI]].
    split; [reflexivity|]. mkinv. apply RT; reflexivity.
  - destruct (get k (l_main l)); (split; [reflexivity|]); [mkinv | exact HI].
Qed.

Definition visible (r : option bytes) : option bytes :=
  match r with Some v => if isdeleted v then None else Some v | None => None end.

Lemma ldb_get_visible l k : ldb_get l k = (fst (ldb_get_raw l k), visible (snd (ldb_get_raw l k))).
Proof. unfold ldb_get. destruct (ldb_get_raw l k) as [l' [v|]]; [cbn; destruct (isdeleted v)|]; reflexivity. Qed.

Lemma visible_some r v : visible r = Some v <-> r = Some v /\ v <> [].
Proof.
  destruct r as [[|b w]|]; cbn; split; try discriminate; try (intros [H _]; discriminate H).
  - intros [H N]. injection H as <-. destruct (N eq_refl).
  - intro H. split; [exact H | injection H as <-; discriminate].
  - intros [H _]. exact H.
Qed.

Lemma step_get l s k : Inv l s -> wf_bytes k ->
  snd (ldb_step l (OGet k)) = snd (s_step s (OGet k)) /\
  Inv (fst (ldb_step l (OGet k))) (fst (s_step s (OGet k))).
Proof.
  intros HI Wk. destruct (get_raw_refines l s k HI Wk) as [Hr HI'].
  cbn [ldb_step s_step]. rewrite ldb_get_visible, Hr. split; [reflexivity | exact HI'].
Qed.

Lemma step_list l s p k c d : Inv l s -> wf_bytes p -> prefix_ok p = true ->
  snd (ldb_step l (OList p k c d)) = snd (s_step s (OList p k c d)).
Proof.
  intros HI Wp Hp. cbn [ldb_step s_step snd]. unfold ldb_list.
  rewrite (mg_list_spec _ p k c d (inv_layers_wf l s HI) Wp Hp).
  f_equal. apply spec_list_ext. apply inv_lookup. exact HI.
Qed.

Lemma step_count l s p : Inv l s -> wf_bytes p -> prefix_ok p = true ->
  snd (ldb_step l (OCount p)) = snd (s_step s (OCount p)).
Proof.
  intros HI Wp Hp. cbn [ldb_step s_step snd]. unfold ldb_prefix_count.
  rewrite (mg_prefix_count_spec _ p (inv_layers_wf l s HI) Wp Hp).
  f_equal. apply spec_count_ext. apply inv_lookup. exact HI.
Qed.

(** Begin ([intx = true]) and Rollback ([intx = false]) drop the txcache *)
Lemma inv_drop_tx l s intx : Inv l s ->
  Inv (mk_ldb None (l_cache l) (l_main l) intx (l_ro l))
      (mk_sdb (s_base s) (s_committed s) (if intx then Some [] else None) (s_ro s)).
Proof.
  intros (Hm & Hr & Wm & _ & _ & _ & HC). mkinv; [exact wf_nil|].
  eapply cache_rel_tx; [exact HC | reflexivity].
Qed.

Lemma step_commit l s : Inv l s -> Inv (ldb_commit l) (fst (s_step s OCommit)).
Proof.
  intros (Hm & Hr & Wm & Wt & HT & HE & HC).
  (* the specification lays the same store over the committed overlay as the copy loop copies *)
  assert (E : match s_tx s with Some t => overlay2 t (s_committed s) | None => s_committed s end
              = overlay2 (txs (l_tx l)) (s_committed s))
    by (rewrite HT; destruct (l_intx l); [reflexivity | rewrite HE; reflexivity]).
  unfold ldb_commit. cbn [s_step fst]. rewrite E. clear E.
  assert (C := cache_rel_commit _ _ _ _ _ HC Wt).
  destruct (l_tx l); mkinv; exact wf_nil.
Qed.

Lemma step_set l s k v : Inv l s -> wf_bytes k ->
  snd (ldb_step l (OSet k v)) = snd (s_step s (OSet k v)) /\
  Inv (fst (ldb_step l (OSet k v))) (fst (s_step s (OSet k v))).
Proof.
  intros HI Wk. assert (HI' := HI). destruct HI' as (Hm & Hr & Wm & Wt & HT & HE & HC).
  cbn [ldb_step s_step]. unfold ldb_set. rewrite <- Hr, HT.
  destruct (l_ro l); [split; [reflexivity | exact HI]|].
  destruct (l_intx l); (split; [reflexivity|]); mkinv.
  - apply put_wf; assumption.
  - discriminate.
  - apply cache_rel_put; assumption.
Qed.

Theorem step_refines l s o : Inv l s -> op_ok o = true ->
  snd (ldb_step l o) = snd (s_step s o) /\ Inv (fst (ldb_step l o)) (fst (s_step s o)).
Proof.
  intros HI Hok. destruct o as [| | |k v|k|p k c d|p]; simpl in Hok.
  - split; [reflexivity | exact (inv_drop_tx l s true HI)].
  - split; [reflexivity | apply step_commit; exact HI].
  - split; [reflexivity | exact (inv_drop_tx l s false HI)].
  - apply step_set; [exact HI | apply wf_bytesb_iff; exact Hok].
  - apply step_get; [exact HI | apply wf_bytesb_iff; exact Hok].
  - apply andb_true_iff in Hok as [H1 H2]. apply wf_bytesb_iff in H1.
    split; [apply step_list; assumption | exact HI].
  - apply andb_true_iff in Hok as [H1 H2]. apply wf_bytesb_iff in H1.
    split; [apply step_count; assumption | exact HI].
Qed.

Theorem run_refines : forall ops l s, Inv l s -> forallb op_ok ops = true ->
  snd (ldb_run l ops) = snd (s_run s ops) /\ Inv (fst (ldb_run l ops)) (fst (s_run s ops)).
Proof.
  induction ops as [|o ops IH]; intros l s HI Hok; simpl; [split; [reflexivity | exact HI]|].
  simpl in Hok. apply andb_true_iff in Hok as [Ho Hops].
  destruct (step_refines l s o HI Ho) as [Hr HI1].
  destruct (ldb_step l o) as [l1 r1], (s_step s o) as [s1 r1']. cbn [fst snd] in *. subst r1'.
  destruct (IH l1 s1 HI1 Hops) as [Hrs HI2].
  destruct (ldb_run l1 ops) as [l2 rs], (s_run s1 ops) as [s2 rs']. cbn [fst snd] in *. subst rs'.
  split; [reflexivity | exact HI2].
Qed.

Theorem refines base ro ops : wf_store base -> forallb op_ok ops = true ->
  run_localdb base ro ops = run_spec base ro ops.
Proof.
  intros W Hok. unfold run_localdb, run_spec.
  apply (run_refines ops _ _ (inv_init base ro W) Hok).
Qed.

Lemma get_out l s k : Inv l s -> wf_bytes k ->
  snd (ldb_get l k) = visible (lookup (ldb_layers l) k).
Proof.
  intros HI Wk. rewrite ldb_get_visible, (inv_lookup l s HI k). cbn [snd].
  f_equal. apply (get_raw_refines l s k HI Wk).
Qed.

Lemma take_zero l : take 0 l = l.
Proof. reflexivity. Qed.

Theorem list_agrees_with_get base ro ops :
  wf_store base -> forallb op_ok ops = true ->
  let l := fst (ldb_run (new_localdb base ro) ops) in
  forall prefix d, wf_bytes prefix -> prefix_ok prefix = true ->
  exists entries,
    ldb_list l prefix [] 0 d = Some (map (collect d) entries) /\
    ldb_prefix_count l prefix = Some (Z.of_nat (length entries)) /\
    NoDup (map fst entries) /\
    forall k v, wf_bytes k ->
      (In (k, v) entries <-> snd (ldb_get l k) = Some v /\ is_prefix prefix k = true).
Proof.
  intros W Hok l prefix d Wp Hp.
  destruct (run_refines ops _ _ (inv_init base ro W) Hok) as [_ HI]. fold l in HI.
  set (s := fst (s_run (new_spec base ro) ops)) in HI.
  exists (expected (ldb_layers l) prefix d).
  split; [|split; [|split]].
  - unfold ldb_list. rewrite (mg_list_spec _ prefix [] 0 d (inv_layers_wf l s HI) Wp Hp). reflexivity.
  - unfold ldb_prefix_count. rewrite (mg_prefix_count_spec _ prefix (inv_layers_wf l s HI) Wp Hp).
    unfold spec_count, expected, in_order. destruct (is_asc d); [reflexivity | rewrite rev_length; reflexivity].
  - apply expected_nodup.
  - intros k v Wk. rewrite (get_out l s k HI Wk). split.
    + intro H. apply expected_char in H as (H1 & H2 & H3). split; [apply visible_some; split; assumption | exact H3].
    + intros [H1 H3]. apply visible_some in H1 as [H1 H2]. apply expected_char. repeat split; assumption.
Qed.

Definition op_wf (o : op) : bool :=
  match o with
  | OSet k _ => wf_bytesb k
  | OGet k => wf_bytesb k
  | OList p _ _ _ => wf_bytesb p
  | OCount p => wf_bytesb p
  | _ => true
  end.

Definition refines_full : Prop :=
  forall base ro ops, wf_store base -> forallb op_wf ops = true ->
    run_localdb base ro ops = run_spec base ro ops.

Theorem refines_full_refuted : ~ refines_full.
Proof.
  intro H.
  (* C07's witness: the count under [ev_prefix] runs on past the keys with that prefix *)
  specialize (H (hd [] ev_layers) false [OSet (bs "zz"%string) (bs "w"%string); OCount ev_prefix]).
  assert (W : wf_store (hd [] ev_layers)) by (apply wf_storeb_ok; vm_compute; reflexivity).
  specialize (H W eq_refl). vm_compute in H. discriminate.
Qed.

(** a non-trivial history satisfying the hypotheses *)
Definition ex_base : store := [(bs "a1"%string, bs "one"%string); (bs "a2"%string, bs "two"%string); (bs "b"%string, bs "bee"%string)].
Definition ex_ops : list op :=
  [OGet (bs "a1"%string); OBegin; OSet (bs "a1"%string) []; OSet (bs "a3"%string) (bs "three"%string); OList (bs "a"%string) [] 0 9;
   ORollback; OList (bs "a"%string) [] 0 9; OBegin; OSet (bs "a2"%string) []; OCommit; OGet (bs "a2"%string); OCount (bs "a"%string)].

Example ex_hist :
  wf_storeb ex_base = true /\ forallb op_ok ex_ops = true /\
  run_localdb ex_base false ex_ops =
  [RGet (Some (bs "one"%string)); RUnit; RUnit; RUnit; RList [bs "a2"%string; bs "a3"%string]; RUnit;
   RList [bs "a1"%string; bs "a2"%string]; RUnit; RUnit; RUnit; RGet None; RCount 1].
Proof. vm_compute. repeat split. Qed.
