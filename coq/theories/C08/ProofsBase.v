(** C08 — lemmas about Commit's copy loop and layered lookups. *)
From Coq Require Import List NArith ZArith Bool Lia.
From C33 Require Import Lib.Harness Lib.Bytes Lib.OMap C07.Model C07.Spec C07.ProofsBase C07.ProofsSingle C07.Proofs
  C08.Model C08.Spec.
Import ListNotations.

Definition put_all (t c : store) : store := fold_left (fun c e => put (fst e) (snd e) c) t c.

Lemma range_all (m : store) : range_of [] m = m.
Proof.
  unfold range_of, range_filter, filter_keys. apply filter_all_true. intros e _.
  unfold in_range, resolve_end. simpl. rewrite bleb_nil_l. reflexivity.
Qed.

Lemma commit_loop_rem all : forall l fuel c, (length l <= fuel)%nat ->
  commit_loop fuel (mk_dbit all false (PRem l)) c = put_all (tl l) c.
Proof.
  induction l as [|e l IH]; intros fuel c Hf; destruct fuel as [|f]; try (simpl in Hf; lia); try reflexivity.
  cbn [commit_loop]. unfold db_next, set_pos. cbn [di_pos di_all di_rev db_cur tl].
  destruct l as [|e' l']; [reflexivity|].
  rewrite (IH f (put (fst e') (snd e') c)); [reflexivity|]. cbn [length] in Hf |- *. lia.
Qed.

Lemma commit_loop_spec (t c : store) :
  commit_loop (S (length t)) (db_open t [] false) c = put_all t c.
Proof.
  unfold db_open. rewrite range_all. cbn [commit_loop]. unfold db_next, set_pos.
  cbn [di_pos di_all di_rev db_cur]. destruct t as [|e t]; [reflexivity|].
  rewrite commit_loop_rem by (unfold store, entry, bytes in *; lia). reflexivity.
Qed.

Lemma get_put_all k : forall (t c : store), sorted t ->
  get k (put_all t c) = match get k t with Some v => Some v | None => get k c end.
Proof.
  induction t as [|[k' v'] t IH]; intros c Hs; [reflexivity|].
  apply sorted_cons in Hs as [Hlb Hs]. simpl in Hlb.
  unfold put_all. cbn [fold_left fst snd]. fold (put_all t (put k' v' c)).
  rewrite (IH _ Hs). cbn [get]. rewrite get_put.
  destruct (beqb k k') eqn:E; [|reflexivity].
  apply beqb_eq in E. subst k'. rewrite (get_lb_none k t Hlb). reflexivity.
Qed.

Lemma put_all_sorted (t c : store) : sorted c -> sorted (put_all t c).
Proof.
  revert c. induction t as [|e t IH]; intros c Hc; [exact Hc|].
  unfold put_all. simpl. apply IH. apply put_sorted. exact Hc.
Qed.

Lemma put_keys_wf (k v : bytes) (c : store) :
  wf_bytes k -> Forall (fun e => wf_bytes (fst e)) c -> Forall (fun e => wf_bytes (fst e)) (put k v c).
Proof.
  intros Wk Wc. rewrite Forall_forall in *. intros e He. apply In_put in He as [->|He]; [exact Wk | apply Wc; exact He].
Qed.

Lemma put_wf (k v : bytes) (c : store) : wf_bytes k -> wf_store c -> wf_store (put k v c).
Proof. intros Wk [Hs Wc]. split; [apply put_sorted; exact Hs | apply put_keys_wf; assumption]. Qed.

Lemma put_all_wf (t c : store) : wf_store t -> wf_store c -> wf_store (put_all t c).
Proof.
  intros [_ Wt]. revert c. induction t as [|e t IH]; intros c Wc; [exact Wc|].
  inversion Wt; subst. unfold put_all. simpl. apply IH; [assumption|]. apply put_wf; assumption.
Qed.

Lemma wf_nil : wf_store [].
Proof. split; [exact I | constructor]. Qed.

Lemma overlay_ext (L1 L2 : list store) : (forall k, lookup L1 k = lookup L2 k) -> overlay L1 = overlay L2.
Proof.
  intro H. apply sorted_ext; try apply overlay_sorted. intro k. rewrite !get_overlay. apply H.
Qed.

Lemma spec_list_ext L1 L2 p k c d : (forall x, lookup L1 x = lookup L2 x) ->
  spec_list L1 p k c d = spec_list L2 p k c d.
Proof. intro H. unfold spec_list, view. rewrite (overlay_ext L1 L2 H). reflexivity. Qed.

Lemma spec_count_ext L1 L2 p : (forall x, lookup L1 x = lookup L2 x) -> spec_count L1 p = spec_count L2 p.
Proof. intro H. unfold spec_count, view. rewrite (overlay_ext L1 L2 H). reflexivity. Qed.
