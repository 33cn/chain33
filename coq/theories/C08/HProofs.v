(** C08 — the handlers: they keep transactions apart (the replies to the requests that reach
    transaction [i] are those of one database serving these requests alone; generic in the
    per-transaction database), and over LocalDB they refine the per-transaction specification. *)
From Coq Require Import String.
From Coq Require Import List NArith ZArith Bool Lia.
From C33 Require Import Lib.Harness Lib.Bytes Lib.OMap C07.Model C07.Spec C07.ProofsBase C07.Proofs
  C08.Model C08.Spec C08.ProofsBase C08.Proofs C08.HModel C08.HSpec.
Import ListNotations.

Lemma tget_tset {A} (i j : Z) (b : A) (t : list (Z * A)) :
  tget i (tset j b t) = if (j =? i)%Z then option_map (fun _ => b) (tget j t) else tget i t.
Proof.
  induction t as [|[k a] t IH]; simpl.
  - destruct (j =? i)%Z; reflexivity.
  - destruct (k =? j)%Z eqn:Ekj; simpl.
    + apply Z.eqb_eq in Ekj. subst k. destruct (j =? i)%Z; reflexivity.
    + rewrite IH. destruct (k =? i)%Z eqn:Eki; [|reflexivity].
      apply Z.eqb_eq in Eki. subst k. rewrite Z.eqb_sym in Ekj. rewrite Ekj. reflexivity.
Qed.

Lemma tget_tdel {A} (i j : Z) (t : list (Z * A)) :
  tget i (tdel j t) = if (j =? i)%Z then None else tget i t.
Proof.
  induction t as [|[k a] t IH]; simpl.
  - destruct (j =? i)%Z; reflexivity.
  - destruct (k =? j)%Z eqn:Ekj.
    + rewrite IH. apply Z.eqb_eq in Ekj. subst k. destruct (j =? i)%Z; reflexivity.
    + simpl. rewrite IH. destruct (k =? i)%Z eqn:Eki; [|reflexivity].
      apply Z.eqb_eq in Eki. subst k. rewrite Z.eqb_sym in Ekj. rewrite Ekj. reflexivity.
Qed.

Lemma fresh_id_free {A} fuel (n : Z) (t : list (Z * A)) : tget n t = None -> fresh_id fuel n t = n.
Proof. destruct fuel; simpl; [reflexivity|]. intros ->. reflexivity. Qed.

(** as far as the table and the scan of [sel] are concerned, a request has one of four shapes *)
Inductive shape := SNew (ro : bool) | SClose (j : Z) | STx (j : Z) | SNone.

Definition shape_of (h : hop) : shape :=
  match h with
  | HNew ro => SNew ro
  | HClose j => SClose j
  | _ => match addressed h with Some j => STx j | None => SNone end
  end.

Lemma sel_cons {A} i n closed h tl (x : A) xl :
  sel i n closed (h :: tl) (x :: xl) =
  match shape_of h with
  | SNew _ => sel i (n + 1)%Z closed tl xl
  | SClose j => sel i n (closed || ((j =? i)%Z && is_live i n closed)) tl xl
  | STx j => if (j =? i)%Z && is_live i n closed then x :: sel i n closed tl xl else sel i n closed tl xl
  | SNone => sel i n closed tl xl
  end.
Proof. destruct h; cbn [sel shape_of]; try reflexivity; destruct (addressed _); reflexivity. Qed.

Lemma ro_of_cons i n h tl :
  ro_of i n (h :: tl) =
  match shape_of h with
  | SNew ro => if (n + 1 =? i)%Z then ro else ro_of i (n + 1)%Z tl
  | _ => ro_of i n tl
  end.
Proof. destruct h; cbn [ro_of shape_of]; try reflexivity; destruct (addressed _); reflexivity. Qed.

Lemma is_live_succ i n : (0 <= n)%Z -> is_live i (n + 1) false = (n + 1 =? i)%Z || is_live i n false.
Proof.
  intro Hn. unfold is_live. lia.
Qed.

Lemma sel_closed {A} i : forall hs (xs : list A) n, sel i n true hs xs = [].
Proof.
  induction hs as [|h tl IH]; intros [|x xl] n; try reflexivity.
  rewrite sel_cons. unfold is_live. destruct (shape_of h); rewrite ?andb_false_r; apply IH.
Qed.

Section Iso.
  Variable T : Type.
  Variable newf : store -> bool -> T.
  Variable stepf : T -> op -> T * out.
  Variable rawlist : store -> bytes -> bytes -> Z -> Z -> option (list bytes).
  Variable countf : store -> option T -> bytes -> option Z.

  Let step := hstep T newf stepf rawlist countf.
  Let run := hrun T newf stepf rawlist countf.

  Lemma hstep_shape st h :
    match shape_of h with
    | SNew ro => let id := fresh_id (S (length (h_tab st))) (h_ctr st + 1)%Z (h_tab st) in
                 fst (step st h) = mk_hst (h_base st) ((id, newf (h_base st) ro) :: h_tab st) id
    | SClose j => fst (step st h) = mk_hst (h_base st) (tdel j (h_tab st)) (h_ctr st)
    | STx j => step st h = with_tx T stepf st j h
    | SNone => fst (step st h) = st
    end.
  Proof.
    destruct h as [ro|j|j|j|j|j kvs|j ks|j p k c d|j p]; cbn [shape_of addressed step hstep]; try reflexivity;
      [destruct (j =? 0)%Z | destruct (j =? 0)%Z | destruct (0 <? j)%Z]; reflexivity.
  Qed.

  Lemma hstep_addressed st h j : addressed h = Some j -> step st h = with_tx T stepf st j h.
  Proof.
    intro A. assert (S := hstep_shape st h). unfold shape_of in S. rewrite A in S.
    destruct h; try exact S; discriminate A.
  Qed.

  Lemma run_cons st h tl : snd (run st (h :: tl)) = snd (step st h) :: snd (run (fst (step st h)) tl).
  Proof.
    unfold run, step. cbn [hrun]. destruct (hstep T newf stepf rawlist countf st h) as [st1 r].
    cbn [fst snd]. destruct (hrun T newf stepf rawlist countf st1 tl). reflexivity.
  Qed.

  Lemma with_tx_eq st j h :
    with_tx T stepf st j h =
    match tget j (h_tab st) with
    | None => (st, HErr ENoPtr)
    | Some t => (mk_hst (h_base st) (tset j (fst (serve T stepf t h)) (h_tab st)) (h_ctr st), snd (serve T stepf t h))
    end.
  Proof. unfold with_tx. destruct (tget j (h_tab st)) as [t|]; [destruct (serve T stepf t h)|]; reflexivity. Qed.

  Lemma with_tx_entry st i j h :
    tget i (h_tab (fst (with_tx T stepf st j h))) =
    if (j =? i)%Z then option_map (fun t => fst (serve T stepf t h)) (tget i (h_tab st)) else tget i (h_tab st).
  Proof.
    rewrite with_tx_eq. destruct (Z.eqb_spec j i) as [->|N].
    - destruct (tget i (h_tab st)) eqn:E; cbn [fst h_tab option_map]; [|exact E].
      rewrite tget_tset, Z.eqb_refl, E. reflexivity.
    - destruct (tget j (h_tab st)); cbn [fst h_tab]; [|reflexivity].
      rewrite tget_tset. destruct (Z.eqb_spec j i); [contradiction | reflexivity].
  Qed.

  (** what the scan of [sel] knows about the state while [i] is not closed *)
  Definition tracks (base : store) (i n : Z) (st : hst T) : Prop :=
    h_base st = base /\ h_ctr st = n /\ (0 <= n)%Z /\
    (forall j, (n < j)%Z -> tget j (h_tab st) = None) /\
    is_live i n false = if tget i (h_tab st) then true else false.

  Lemma tracks_init base i : tracks base i 0 (mk_hst base [] 0%Z).
  Proof.
    unfold tracks, is_live. cbn [h_base h_tab h_ctr tget]. repeat split; lia.
  Qed.

  Lemma tracks_new base i n st t : tracks base i n st ->
    tracks base i (n + 1) (mk_hst (h_base st) (((n + 1)%Z, t) :: h_tab st) (n + 1)%Z).
  Proof.
    intros (Hb & Hc & Hn & Hhi & Hl). unfold tracks. cbn [h_base h_tab h_ctr tget].
    rewrite (is_live_succ i n Hn). repeat split; try assumption; try lia.
    - intros j Hj. destruct (Z.eqb_spec (n + 1) j); [lia | apply Hhi; lia].
    - destruct (n + 1 =? i)%Z; [reflexivity | exact Hl].
  Qed.

  Lemma tracks_same base i n st tab : tracks base i n st ->
    (forall k, tget k (h_tab st) = None -> tget k tab = None) ->
    (if tget i tab then true else false) = (if tget i (h_tab st) then true else false) ->
    tracks base i n (mk_hst (h_base st) tab (h_ctr st)).
  Proof.
    intros (Hb & Hc & Hn & Hhi & Hl) F E. unfold tracks. cbn [h_base h_tab h_ctr]. rewrite E. repeat split; auto.
  Qed.

  Lemma tracks_with_tx base i n st j h : tracks base i n st -> tracks base i n (fst (with_tx T stepf st j h)).
  Proof.
    intro TR. rewrite with_tx_eq. destruct (tget j (h_tab st)) as [t|] eqn:Ej; cbn [fst]; [|exact TR].
    apply tracks_same; [exact TR | |]; [intros k Hk|]; rewrite tget_tset.
    - destruct (Z.eqb_spec j k); [congruence | exact Hk].
    - destruct (Z.eqb_spec j i) as [<-|]; [rewrite Ej|]; reflexivity.
  Qed.

  Definition cur (base : store) (i n : Z) (st : hst T) (hs : list hop) : T :=
    match tget i (h_tab st) with Some t => t | None => newf base (ro_of i n hs) end.

  Theorem sel_serves base i : forall hs st n, tracks base i n st ->
    sel i n false hs (snd (run st hs)) = serve_all T stepf (cur base i n st hs) (sel i n false hs hs).
  Proof.
    induction hs as [|h tl IH]; intros st n TR; [reflexivity|].
    assert (TR' := TR). destruct TR' as (Hb & Hc & Hn & Hhi & Hl).
    rewrite run_cons, !sel_cons. unfold cur. rewrite ro_of_cons.
    assert (S := hstep_shape st h). destruct (shape_of h) as [ro|j|j|]; cbn zeta in S; rewrite S.
    - (* the counter is free, so the new transaction gets id n+1 *)
      rewrite Hc, (fresh_id_free _ (n + 1)%Z) by (apply Hhi; lia).
      rewrite (IH _ _ (tracks_new base i n st _ TR)). unfold cur. cbn [h_tab tget].
      destruct (Z.eqb_spec (n + 1) i) as [<-|]; [|reflexivity]. rewrite Hhi by lia. rewrite Hb. reflexivity.
    - cbn [orb]. destruct ((j =? i)%Z && is_live i n false) eqn:E; [rewrite !sel_closed; reflexivity|].
      (* closing another id, or [i] when it is not in the table, leaves [i] as it was *)
      assert (G : tget i (tdel j (h_tab st)) = tget i (h_tab st)).
      { rewrite tget_tdel. destruct (j =? i)%Z; [|reflexivity]. cbn [andb] in E. rewrite E in Hl.
        destruct (tget i (h_tab st)); [discriminate | reflexivity]. }
      rewrite (IH _ n). 
      + unfold cur. cbn [h_tab]. rewrite G. reflexivity.
      + apply tracks_same; [exact TR | | rewrite G; reflexivity].
        intros k Hk. rewrite tget_tdel. destruct (j =? k)%Z; [reflexivity | exact Hk].
    - rewrite (IH _ n (tracks_with_tx base i n st j h TR)). unfold cur. rewrite with_tx_entry.
      destruct (Z.eqb_spec j i) as [->|]; cbn [andb]; [|reflexivity].
      (* [i] is live exactly when it is in the table, and then its entry serves the request *)
      rewrite Hl, with_tx_eq. destruct (tget i (h_tab st)) as [t|]; cbn [option_map snd serve_all]; [|reflexivity].
      destruct (serve T stepf t h). reflexivity.
    - exact (IH st n TR).
  Qed.

  Theorem isolated_gen base hs i :
    sel i 0%Z false hs (snd (run (mk_hst base [] 0%Z) hs)) =
    serve_all T stepf (newf base (ro_of i 0%Z hs)) (sel i 0%Z false hs hs).
  Proof. exact (sel_serves base i hs _ 0%Z (tracks_init base i)). Qed.
End Iso.

Theorem handlers_isolated base hs i :
  replies_for i hs (run_handlers base hs) =
  serve_all ldb ldb_step (new_localdb base (ro_of i 0%Z hs)) (reqs_for i hs).
Proof. apply isolated_gen. Qed.

Lemma run_calls_refines : forall ops l s, Inv l s -> forallb op_ok ops = true ->
  snd (run_calls ldb ldb_step l ops) = snd (run_calls sdb s_step s ops) /\
  Inv (fst (run_calls ldb ldb_step l ops)) (fst (run_calls sdb s_step s ops)).
Proof.
  induction ops as [|o ops IH]; intros l s HI Hok; cbn [run_calls]; [split; [reflexivity | exact HI]|].
  cbn [forallb] in Hok. apply andb_true_iff in Hok as [Ho Hops].
  destruct (step_refines l s o HI Ho) as [Hr HI1].
  destruct (ldb_step l o) as [l1 r1], (s_step s o) as [s1 r1']. cbn [fst snd] in *. subst r1'.
  destruct (is_panic r1); [split; [reflexivity | exact HI1]|].
  destruct (IH l1 s1 HI1 Hops) as [Hrs HI2].
  destruct (run_calls ldb ldb_step l1 ops) as [l2 rs], (run_calls sdb s_step s1 ops) as [s2 rs']. cbn [fst snd] in *.
  subst rs'. split; [reflexivity | exact HI2].
Qed.

(** a request is the calls it makes on its transaction, and a reply computed from what they return *)
Definition calls (h : hop) : list op :=
  match h with
  | HBegin _ => [OBegin]
  | HCommit _ => [OCommit]
  | HRollback _ => [ORollback]
  | HSet _ kvs => map (fun kv => OSet (fst kv) (snd kv)) kvs
  | HGet _ ks => map OGet ks
  | HList _ p k c d => [OList p k c d]
  | _ => []
  end.

Definition reply (h : hop) (xs : list out) : hout :=
  match h with
  | HSet _ _ => if existsb is_panic xs then HErr EPanic else HOk
  | HGet _ _ => HVals (map val_of xs)
  | HList _ _ _ _ _ => match xs with [RList vs] => HItems vs | _ => HFuel end
  | _ => HOk
  end.

Lemma serve_calls T (stepf : T -> op -> T * out) t h :
  serve T stepf t h = (fst (run_calls T stepf t (calls h)), reply h (snd (run_calls T stepf t (calls h)))).
Proof.
  destruct h; cbn [serve calls reply]; try reflexivity;
    try (destruct (run_calls T stepf t _); reflexivity);
    cbn [run_calls]; destruct (stepf t _) as [t1 x]; destruct x; reflexivity.
Qed.

Lemma forallb_map {A B} (f : B -> bool) (g : A -> B) l : forallb f (map g l) = forallb (fun a => f (g a)) l.
Proof. induction l as [|a l IH]; [reflexivity|]. cbn [map forallb]. rewrite IH. reflexivity. Qed.

Lemma calls_ok h : hop_ok h = true -> forallb op_ok (calls h) = true.
Proof.
  destruct h; cbn [hop_ok calls forallb]; rewrite ?forallb_map, ?andb_true_r; trivial.
Qed.

Lemma serve_refines l s h : Inv l s -> hop_ok h = true ->
  snd (serve ldb ldb_step l h) = snd (serve sdb s_step s h) /\
  Inv (fst (serve ldb ldb_step l h)) (fst (serve sdb s_step s h)).
Proof.
  intros HI Hok. rewrite !serve_calls. cbn [fst snd].
  destruct (run_calls_refines _ l s HI (calls_ok h Hok)) as [-> HI1]. split; [reflexivity | exact HI1].
Qed.

Lemma serve_all_refines : forall hs l s, Inv l s -> forallb hop_ok hs = true ->
  serve_all ldb ldb_step l hs = serve_all sdb s_step s hs.
Proof.
  induction hs as [|h hs IH]; intros l s HI Hok; cbn [serve_all]; [reflexivity|].
  cbn [forallb] in Hok. apply andb_true_iff in Hok as [Ho Hs].
  destruct (serve_refines l s h HI Ho) as [Hr HI1].
  destruct (serve ldb ldb_step l h) as [l1 r], (serve sdb s_step s h) as [s1 r']. cbn [fst snd] in *. subst r'.
  f_equal. apply IH; assumption.
Qed.

Lemma sel_forallb (P : hop -> bool) i : forall hs n closed,
  forallb P hs = true -> forallb P (sel i n closed hs hs) = true.
Proof.
  induction hs as [|h tl IH]; intros n closed H; [reflexivity|].
  cbn [forallb] in H. apply andb_true_iff in H as [Hh Ht]. rewrite sel_cons.
  destruct (shape_of h); try (apply IH; exact Ht).
  destruct (_ && _); [cbn [forallb]; rewrite Hh|]; apply IH; exact Ht.
Qed.

Theorem handlers_refine base hs i : wf_store base -> forallb hop_ok hs = true ->
  replies_for i hs (run_handlers base hs) =
  serve_all sdb s_step (new_spec base (ro_of i 0%Z hs)) (reqs_for i hs).
Proof.
  intros W Hok. rewrite handlers_isolated.
  apply serve_all_refines; [apply inv_init; exact W | apply sel_forallb; exact Hok].
Qed.

Definition clean (s : sdb) : Prop := s_committed s = [] /\ (s_tx s = None \/ s_tx s = Some []).

Definition ent_rel (base : store) (all : list hop) (a : Z * ldb) (b : Z * sdb) : Prop :=
  fst a = fst b /\ Inv (snd a) (snd b) /\ s_base (snd b) = base /\
  (writes_to (fst a) all = false -> clean (snd b)).

Definition st_rel (base : store) (all : list hop) (m : hst ldb) (s : hst sdb) : Prop :=
  h_base m = base /\ h_base s = base /\ h_ctr m = h_ctr s /\ Forall2 (ent_rel base all) (h_tab m) (h_tab s).

Lemma rel_tget base all i : forall t1 t2, Forall2 (ent_rel base all) t1 t2 ->
  match tget i t1, tget i t2 with
  | Some l, Some s => ent_rel base all (i, l) (i, s)
  | None, None => True
  | _, _ => False
  end.
Proof.
  induction 1 as [|[j l] [j' s] t1 t2 (E & HI & HB & HC) _ IH]; cbn [tget]; [exact I|].
  cbn [fst snd] in *. subst j'. destruct (j =? i)%Z eqn:Eji; [|exact IH].
  apply Z.eqb_eq in Eji. subst j. exact (conj eq_refl (conj HI (conj HB HC))).
Qed.

Lemma rel_tset base all i l s : forall t1 t2, Forall2 (ent_rel base all) t1 t2 ->
  ent_rel base all (i, l) (i, s) -> Forall2 (ent_rel base all) (tset i l t1) (tset i s t2).
Proof.
  induction 1 as [|[j l0] [j' s0] t1 t2 HR HT IH]; intro HN; cbn [tset]; [constructor|].
  assert (E : j = j') by (destruct HR as (E & _); exact E). subst j'.
  destruct (j =? i)%Z eqn:Eji.
  - apply Z.eqb_eq in Eji. subst j. constructor; assumption.
  - constructor; [exact HR | apply IH; exact HN].
Qed.

Lemma rel_tdel base all i : forall t1 t2, Forall2 (ent_rel base all) t1 t2 ->
  Forall2 (ent_rel base all) (tdel i t1) (tdel i t2).
Proof.
  induction 1 as [|[j l0] [j' s0] t1 t2 HR HT IH]; cbn [tdel]; [constructor|].
  assert (E : j = j') by (destruct HR as (E & _); exact E). subst j'.
  destruct (j =? i)%Z; [exact IH | constructor; assumption].
Qed.

Lemma rel_fresh base all : forall fuel n t1 t2, Forall2 (ent_rel base all) t1 t2 ->
  fresh_id fuel n t1 = fresh_id fuel n t2.
Proof.
  induction fuel as [|f IH]; intros n t1 t2 HR; cbn [fresh_id]; [reflexivity|].
  assert (G := rel_tget base all n t1 t2 HR).
  destruct (tget n t1), (tget n t2); try contradiction; [apply IH; exact HR | reflexivity].
Qed.

Lemma clean_lookup s : clean s -> forall k, lookup (s_layers s) k = lookup [s_base s] k.
Proof.
  destruct s as [b c t r]. unfold clean, s_layers. cbn. intros [-> [-> | ->]] k; reflexivity.
Qed.

Lemma run_calls_gets_state : forall ks s, fst (run_calls sdb s_step s (map OGet ks)) = s.
Proof. induction ks as [|k ks IH]; intro s; cbn; [reflexivity|]. specialize (IH s). destruct (run_calls sdb s_step s (map OGet ks)). exact IH. Qed.

Lemma s_step_base s o : s_base (fst (s_step s o)) = s_base s.
Proof. destruct o; cbn [s_step]; try reflexivity. destruct (s_ro s); [reflexivity|]. destruct (s_tx s); reflexivity. Qed.

Lemma run_calls_base : forall ops s, s_base (fst (run_calls sdb s_step s ops)) = s_base s.
Proof.
  induction ops as [|o ops IH]; intro s; cbn [run_calls]; [reflexivity|].
  assert (B := s_step_base s o). destruct (s_step s o) as [s1 x]. cbn [fst] in B.
  destruct (is_panic x); [exact B|].
  specialize (IH s1). destruct (run_calls sdb s_step s1 ops) as [s2 xs]. cbn [fst] in *. congruence.
Qed.

Lemma serve_spec_base s h : s_base (fst (serve sdb s_step s h)) = s_base s.
Proof. rewrite serve_calls. apply run_calls_base. Qed.

Lemma serve_spec_clean s h : (forall j kv kvs, h <> HSet j (kv :: kvs)) -> clean s ->
  clean (fst (serve sdb s_step s h)).
Proof.
  intros NS C. destruct s as [b c t r]. unfold clean in *. cbn [s_committed s_tx] in C. destruct C as [-> Ht].
  destruct h as [ro|j|j|j|j|j kvs|j ks|j p k c d|j p]; cbn [serve s_step fst s_committed s_tx s_base s_ro];
    try (split; [reflexivity | exact Ht]).
  - split; [reflexivity | right; reflexivity].
  - destruct Ht as [-> | ->]; cbn; split; auto.
  - split; [reflexivity | left; reflexivity].
  - destruct kvs as [|kv kvs]; [cbn; split; [reflexivity | exact Ht]|]. exfalso. exact (NS j kv kvs eq_refl).
  - assert (G := run_calls_gets_state ks (mk_sdb b [] t r)).
    destruct (run_calls sdb s_step (mk_sdb b [] t r) (map OGet ks)) as [s1 xs]. cbn [fst] in *. subst s1.
    cbn. split; [reflexivity | exact Ht].
Qed.

Lemma writes_to_in i kv kvs all : In (HSet i (kv :: kvs)) all -> writes_to i all = true.
Proof.
  intro H. unfold writes_to. apply existsb_exists. exists (HSet i (kv :: kvs)). split; [exact H|]. apply Z.eqb_refl.
Qed.

Lemma f2_len {A B} (R : A -> B -> Prop) l1 l2 : Forall2 R l1 l2 -> length l1 = length l2.
Proof. induction 1; simpl; congruence. Qed.

Definition hs_step : hst sdb -> hop -> hst sdb * hout := hstep sdb new_spec s_step s_rawlist s_count.

Lemma with_tx_refines base all m s i h :
  st_rel base all m s -> In h all -> hop_ok h = true -> addressed h = Some i ->
  snd (with_tx ldb ldb_step m i h) = snd (with_tx sdb s_step s i h) /\
  st_rel base all (fst (with_tx ldb ldb_step m i h)) (fst (with_tx sdb s_step s i h)).
Proof.
  intros (Bm & Bs & Ec & HT) Hin Hok Hid. unfold with_tx.
  assert (G := rel_tget base all i _ _ HT).
  destruct (tget i (h_tab m)) as [l|], (tget i (h_tab s)) as [sp|]; try contradiction.
  - destruct G as (_ & HI & HB & HC). cbn [fst snd] in *.
    destruct (serve_refines l sp h HI Hok) as [Hr HI1].
    assert (B1 := serve_spec_base sp h).
    assert (C1 : writes_to i all = false -> clean (fst (serve sdb s_step sp h))).
    { intro Hw. apply serve_spec_clean; [|apply HC; exact Hw].
      intros j kv kvs E. subst h. cbn [addressed] in Hid. destruct (j =? 0)%Z; [discriminate Hid|].
      injection Hid as ->. rewrite (writes_to_in i kv kvs all Hin) in Hw. discriminate. }
    destruct (serve ldb ldb_step l h) as [l1 r], (serve sdb s_step sp h) as [s1 r']. cbn [fst snd] in *. subst r'.
    split; [reflexivity|]. unfold st_rel. cbn [h_base h_ctr h_tab].
    refine (conj Bm (conj Bs (conj Ec _))). apply rel_tset; [exact HT|].
    unfold ent_rel. cbn [fst snd]. refine (conj eq_refl (conj HI1 (conj _ C1))). congruence.
  - split; [reflexivity|]. exact (conj Bm (conj Bs (conj Ec HT))).
Qed.

Lemma hstep_refines base all m s h : wf_store base ->
  st_rel base all m s -> In h all -> hop_ok h = true ->
  (match h with HCount i _ => writes_to i all = false | _ => True end) ->
  snd (m_step m h) = snd (hs_step s h) /\ st_rel base all (fst (m_step m h)) (fst (hs_step s h)).
Proof.
  intros W R Hin Hok Hcnt. unfold m_step, hs_step.
  destruct (addressed h) as [i|] eqn:A.
  { rewrite !(hstep_addressed _ _ _ _ _ _ h i A). apply with_tx_refines; assumption. }
  (* the requests that reach no transaction *)
  assert (R' := R). destruct R' as (Bm & Bs & Ec & HT).
  destruct h as [ro|j|j|j|j|j kvs|j ks|j p k c d|j p]; cbn [addressed] in A; try discriminate A; cbn [hstep].
  - (* New *)
    rewrite (f2_len _ _ _ HT), Ec, (rel_fresh base all _ _ _ _ HT). cbn [fst snd].
    split; [reflexivity|]. unfold st_rel. cbn [h_base h_ctr h_tab].
    refine (conj Bm (conj Bs (conj eq_refl _))). constructor; [|exact HT].
    unfold ent_rel. cbn [fst snd]. rewrite Bm, Bs.
    refine (conj eq_refl (conj (inv_init base ro W) (conj eq_refl _))).
    intros _. split; [reflexivity | left; reflexivity].
  - (* Close *)
    cbn [fst snd]. assert (G := rel_tget base all j _ _ HT). split.
    + destruct (tget j (h_tab m)), (tget j (h_tab s)); try contradiction; reflexivity.
    + unfold st_rel. cbn [h_base h_ctr h_tab]. refine (conj Bm (conj Bs (conj Ec _))). apply rel_tdel. exact HT.
  - (* Set without a transaction id *)
    destruct (j =? 0)%Z; [split; [reflexivity | exact R] | discriminate A].
  - (* Get without one: the base *)
    destruct (j =? 0)%Z; [|discriminate A]. cbn [fst snd]. rewrite Bm, Bs. split; [reflexivity | exact R].
  - (* List without one: the base *)
    destruct (0 <? j)%Z; [discriminate A|].
    cbn [fst snd hop_ok] in *. apply andb_true_iff in Hok as [Wp Hp]. apply wf_bytesb_iff in Wp.
    rewrite Bm, Bs. unfold s_rawlist. rewrite (db_list_spec base p k c d W Wp Hp). split; [reflexivity | exact R].
  - (* Count: the base, which is what a transaction that is never written reads *)
    cbn [fst snd hop_ok] in *. apply andb_true_iff in Hok as [Wp Hp]. apply wf_bytesb_iff in Wp.
    rewrite Bm, Bs. unfold m_count, s_count. rewrite (db_prefix_count_spec1 base p W Wp Hp).
    split; [|exact R]. assert (G := rel_tget base all j _ _ HT).
    destruct (tget j (h_tab m)) as [l|], (tget j (h_tab s)) as [sp|]; try contradiction; [|reflexivity].
    destruct G as (_ & _ & HB & HC). cbn [fst snd] in *. specialize (HC Hcnt).
    rewrite (spec_count_ext [base] (s_layers sp) p); [reflexivity|].
    intro x. rewrite (clean_lookup sp HC x), HB. reflexivity.
Qed.

Lemma hrun_refines base all : wf_store base -> forall hs m s,
  st_rel base all m s -> (forall h, In h hs -> In h all) -> forallb hop_ok hs = true ->
  (forall i p, In (HCount i p) hs -> writes_to i all = false) ->
  snd (hrun ldb new_localdb ldb_step db_list m_count m hs) = snd (hrun sdb new_spec s_step s_rawlist s_count s hs).
Proof.
  intro W. induction hs as [|h tl IH]; intros m s R Hin Hok Hcnt; cbn [hrun]; [reflexivity|].
  cbn [forallb] in Hok. apply andb_true_iff in Hok as [Ho Ht].
  assert (HC : match h with HCount i _ => writes_to i all = false | _ => True end).
  { destruct h; try exact I. apply (Hcnt i prefix). left. reflexivity. }
  destruct (hstep_refines base all m s h W R (Hin h (or_introl eq_refl)) Ho HC) as [Hr R1].
  unfold m_step, hs_step in *.
  destruct (hstep ldb new_localdb ldb_step db_list m_count m h) as [m1 r].
  destruct (hstep sdb new_spec s_step s_rawlist s_count s h) as [s1 r']. cbn [fst snd] in *. subst r'.
  assert (E := IH m1 s1 R1 (fun x Hx => Hin x (or_intror Hx)) Ht (fun i p Hx => Hcnt i p (or_intror Hx))).
  destruct (hrun ldb new_localdb ldb_step db_list m_count m1 tl) as [m2 rs].
  destruct (hrun sdb new_spec s_step s_rawlist s_count s1 tl) as [s2 rs']. cbn [snd] in *. subst rs'. reflexivity.
Qed.

Theorem handlers_machine base hs : wf_store base -> forallb hop_ok hs = true -> count_ok hs = true ->
  run_handlers base hs = run_hspec base hs.
Proof.
  intros W Hok Hc. unfold run_handlers, run_hspec, init_handlers.
  apply (hrun_refines base hs W hs); auto.
  - unfold st_rel. cbn. repeat split; constructor.
  - intros i p Hin. unfold count_ok in Hc. rewrite forallb_forall in Hc. specialize (Hc _ Hin). cbn in Hc.
    apply negb_true_iff in Hc. exact Hc.
Qed.

(** the count request does not see the asking transaction's writes *)
Definition handlers_machine_full : Prop :=
  forall base hs, wf_store base -> forallb hop_ok hs = true -> run_handlers base hs = run_hspec base hs.

Definition cnt_witness : list hop :=
  [HNew false; HSet 1 [(bs "a1"%string, bs "x"%string)]; HGet 1 [bs "a1"%string]; HList 1 (bs "a"%string) [] 0 9; HCount 1 (bs "a"%string)].

Theorem handlers_machine_full_refuted : ~ handlers_machine_full.
Proof.
  intro H. specialize (H [] cnt_witness).
  assert (W : wf_store []) by exact wf_nil.
  specialize (H W eq_refl). vm_compute in H. discriminate.
Qed.

(** non-vacuity: two transactions over one base, the second never sees the first one's writes *)
Definition hex_base : store := [(bs "a1"%string, bs "one"%string); (bs "a2"%string, bs "two"%string)].
Definition hex_hist : list hop :=
  [HNew false; HNew false; HBegin 1; HSet 1 [(bs "a1"%string, []); (bs "a3"%string, bs "three"%string)];
   HGet 1 [bs "a1"%string; bs "a3"%string]; HGet 2 [bs "a1"%string; bs "a3"%string]; HGet 0 [bs "a1"%string; bs "a3"%string];
   HList 1 (bs "a"%string) [] 0 9; HList 2 (bs "a"%string) [] 0 9; HList 0 (bs "a"%string) [] 0 9;
   HCommit 1; HGet 2 [bs "a3"%string]; HCount 2 (bs "a"%string); HClose 1; HGet 1 [bs "a2"%string]; HSet 0 []; HNew true;
   HSet 3 [(bs "k"%string, bs "v"%string)]].

Example hex_run :
  wf_storeb hex_base = true /\ forallb hop_ok hex_hist = true /\ count_ok hex_hist = true /\
  run_handlers hex_base hex_hist =
  [HId 1; HId 2; HOk; HOk; HVals [None; Some (bs "three"%string)]; HVals [Some (bs "one"%string); None];
   HVals [Some (bs "one"%string); None];
   HItems [bs "a2"%string; bs "a3"%string]; HItems [bs "a1"%string; bs "a2"%string]; HItems [bs "a1"%string; bs "a2"%string];
   HOk; HVals [None]; HCnt 2; HOk; HErr ENoPtr; HErr ENotInTx; HId 3; HErr EPanic] /\
  reqs_for 2 hex_hist = [HGet 2 [bs "a1"%string; bs "a3"%string]; HList 2 (bs "a"%string) [] 0 9; HGet 2 [bs "a3"%string]].
Proof. vm_compute. repeat split. Qed.
