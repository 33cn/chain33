(** C06 — what a wrapper over a library cursor owes to refine the abstract
    iterator (a position in the list of in-range entries), and the
    goLevelDBIt wrapper (LevelDB and memdb) as the first instance. *)
From Coq Require Import List NArith Bool Lia.
From C33 Require Import Lib.Harness Lib.Bytes Lib.OMap C06.Model C06.Spec.
Import ListNotations.

Lemma drop_until_app_false {A} (f : A -> bool) a b :
  (forall x, In x a -> f x = false) -> drop_until f (a ++ b) = drop_until f b.
Proof.
  induction a as [|x a IH]; simpl; intro H; auto.
  rewrite (H x) by auto. apply IH. intros y Hy. apply H. auto.
Qed.

Lemma drop_until_hd_true {A} (f : A -> bool) x l : f x = true -> drop_until f (x :: l) = x :: l.
Proof. intro H. simpl. rewrite H. reflexivity. Qed.

Lemma drop_until_all_false {A} (f : A -> bool) l :
  (forall x, In x l -> f x = false) -> drop_until f l = [].
Proof.
  intro H. rewrite <- (app_nil_r l). rewrite drop_until_app_false by exact H. reflexivity.
Qed.

Lemma drop_until_id {A} (g : A -> bool) l : Forall (fun x => g x = true) l -> drop_until g l = l.
Proof. destruct l as [|x l]; [reflexivity|]. intro F. apply drop_until_hd_true, (Forall_inv F). Qed.

Lemma hd_drop_until {A} (f : A -> bool) l : hd_error (drop_until f l) = hd_error (filter f l).
Proof.
  induction l as [|x l IH]; simpl; auto. destruct (f x); simpl; auto.
Qed.

Lemma filter_rev {A} (f : A -> bool) l : filter f (rev l) = rev (filter f l).
Proof.
  induction l as [|x l IH]; simpl; auto.
  rewrite filter_app, IH. simpl. destruct (f x); simpl; auto. rewrite app_nil_r. reflexivity.
Qed.

Lemma last_map {A B} (f : A -> B) l d : List.last (map f l) (f d) = f (List.last l d).
Proof. induction l as [|x l IH]; [reflexivity|]. destruct l; [reflexivity | exact IH]. Qed.

Lemma filter_length_le {A} (f : A -> bool) l : (length (filter f l) <= length l)%nat.
Proof. induction l as [|x l IH]; simpl; [lia|]. destruct (f x); simpl; lia. Qed.

Definition nonempty {A} (l : list A) : bool := match l with [] => false | _ => true end.

Lemma bleb_false_bltb a b : bleb a b = false -> bltb b a = true.
Proof. intro H. rewrite bltb_nbleb, H. reflexivity. Qed.

Lemma bleb_false_flip a b : bleb a b = false -> bleb b a = true.
Proof. intro H. apply bltb_bleb, bleb_false_bltb, H. Qed.

(** A wrapper state [inj c] stands for a list [l] of entries still to come
    ([R c l]).  A wrapper whose three calls land where [spec_step] says
    refines the abstract iterator. *)
Section Contract.
Variables (C : Type) (inj : C -> it_state) (rv : bool) (LS : list entry)
  (R : C -> list entry -> Prop).

Definition lands (c : C) (o : iop) (l : list entry) : Prop :=
  exists c', it_step (inj c) o = (inj c', spec_obs l) /\ R c' l.

Hypothesis Hrewind : forall c, lands c IRewind LS.
Hypothesis Hseek : forall c k, lands c (ISeek k) (drop_until (seek_pred rv k) LS).
Hypothesis Hnext : forall c l, R c l -> lands c INext (tl l).

Definition ok_pos (c : C) (p : spec_pos) : Prop :=
  match p with Some l => R c l | None => True end.

Lemma contract_step c p o l : ok_pos c p -> spec_step rv LS p o = Some l -> lands c o l.
Proof.
  intros Hp E. destruct o as [|k|]; simpl in E.
  - injection E as <-. apply Hrewind.
  - injection E as <-. apply Hseek.
  - destruct p as [l0|]; [|discriminate]. injection E as <-. apply Hnext, Hp.
Qed.

Lemma contract_run : forall os c p, ok_pos c p -> (p = None -> positioned os = true) ->
  map Some (it_run (inj c) os) = spec_run rv LS p os.
Proof.
  induction os as [|o os IH]; intros c p Hp Hpos; [reflexivity|].
  destruct (spec_step rv LS p o) as [l|] eqn:E.
  - destruct (contract_step c p o l Hp E) as [c' [E1 HR]].
    cbn [it_run spec_run]. rewrite E1, E. cbn [map option_map]. f_equal.
    apply IH; [exact HR | discriminate].
  - (* only Next on an iterator not yet positioned has no specified outcome *)
    destruct o; try discriminate. destruct p; [discriminate|]. discriminate (Hpos eq_refl).
Qed.

Lemma contract_collect : forall fuel c l, R c l -> (length l < fuel)%nat ->
  it_collect_from fuel (inj c) (spec_obs l) = l.
Proof.
  induction fuel as [|f IH]; intros c l HR Hf; [lia|].
  destruct l as [|e l']; [reflexivity|].
  destruct (Hnext c _ HR) as [c' [E HR']].
  cbn [it_collect_from spec_obs]. rewrite E.
  rewrite IH; [destruct e; reflexivity | exact HR' | simpl in Hf |- *; lia].
Qed.

Lemma contract_collect_rewind c n : (length LS <= n)%nat ->
  (let '(s, r) := it_step (inj c) IRewind in it_collect_from (S n) s r) = LS.
Proof.
  intro Hn. destruct (Hrewind c) as [c' [E HR]]. rewrite E.
  apply contract_collect; [exact HR | lia].
Qed.

End Contract.

Section Ldb.
Variables (L : list entry) (start : key) (end' : option key).
Hypothesis HL : sorted L.
Hypothesis Hck : forall e, In e L -> check_key start end' (fst e) = true.

Definition ldb (rv : bool) (c : lcur) : ldb_it := mk_ldb_it L start end' rv c.
Definition mkit (rv : bool) (c : lcur) : it_state := ItL (ldb rv c).

Definition Rf (c : lcur) (s : list entry) : Prop :=
  match c with
  | LAt pre e post => L = rev pre ++ e :: post /\ s = e :: post
  | LEOI => s = []
  | LSOI => False
  end.

Definition Rr (c : lcur) (s : list entry) : Prop :=
  match c with
  | LAt pre e post => L = rev pre ++ e :: post /\ s = e :: pre
  | LSOI => s = []
  | LEOI => L = [] /\ s = []
  end.

Definition R (rv : bool) := if rv then Rr else Rf.

Definition LS (rv : bool) : list entry := if rv then rev L else L.

Lemma at_in pre e post : L = rev pre ++ e :: post -> In e L.
Proof. intro E. rewrite E. apply in_elt. Qed.

Lemma at_post_gt pre e post x : L = rev pre ++ e :: post -> In x post -> bltb (fst e) (fst x) = true.
Proof.
  intros E Hx. rewrite E in HL. apply sorted_app in HL as [_ [S _]].
  destruct S as [LB _]. apply bltb_lt. eapply lb_all_In; eauto.
Qed.

Lemma at_pre_lt pre e post x : L = rev pre ++ e :: post -> In x pre -> bltb (fst x) (fst e) = true.
Proof.
  intros E Hx. rewrite E in HL. apply sorted_app in HL as [_ [_ S]].
  apply bltb_lt. apply S; [apply in_rev in Hx; exact Hx | left; reflexivity].
Qed.

(** A call that leaves the library cursor on [c'] and returns either the
    library's verdict or that and Valid(): inside [L], checkKey always
    holds, so both are "[c'] is on an entry". *)
Lemma lands_at rv c o c' l (r : bool) :
  it_step (mkit rv c) o = (mkit rv c', mk_ires r (ldb_valid (ldb rv c')) (l_cur c')) ->
  r = l_valid c' \/ r = l_valid c' && ldb_valid (ldb rv c') ->
  R rv c' l -> lands _ (mkit rv) (R rv) c o l.
Proof.
  intros Es Hr HR. exists c'. split; [|exact HR]. rewrite Es. f_equal.
  destruct c' as [| |pre e post].
  - assert (l = []) by (destruct rv; [exact HR | contradiction]).
    subst l. destruct Hr as [->| ->]; reflexivity.
  - assert (l = []) by (destruct rv; [exact (proj2 HR) | exact HR]).
    subst l. destruct Hr as [->| ->]; reflexivity.
  - assert (G : exists l0, l = e :: l0 /\ In e L).
    { destruct rv; destruct HR as [E ->]; eexists; split; eauto using at_in. }
    destruct G as [l0 [-> Hin]].
    assert (V : ldb_valid (ldb rv (LAt pre e post)) = true) by exact (Hck e Hin).
    rewrite V in Hr |- *. destruct Hr as [->| ->]; reflexivity.
Qed.

Lemma rewind_f : Rf (l_first L) L.
Proof. unfold l_first. case_eq L; simpl; auto. Qed.

Lemma next_f c s : Rf c s -> Rf (l_next L c) (tl s).
Proof.
  destruct c as [| |pre e post]; simpl; try contradiction.
  - intros ->. reflexivity.
  - intros [E ->]. destruct post as [|e' post']; simpl; auto.
    split; auto. rewrite E. rewrite <- app_assoc. reflexivity.
Qed.

(** where the library Seek(k) stops *)
Definition splits_at (k : key) (c : lcur) : Prop :=
  match c with
  | LAt pre e post =>
      L = rev pre ++ e :: post /\ bleb k (fst e) = true /\
      (forall x, In x pre -> bleb k (fst x) = false)
  | LEOI => forall x, In x L -> bleb k (fst x) = false
  | LSOI => False
  end.

Lemma seek_go_f k : forall rest pre,
  L = rev pre ++ rest -> (forall x, In x pre -> bleb k (fst x) = false) ->
  splits_at k (l_seek_go k pre rest).
Proof.
  induction rest as [|e post IH]; intros pre E Hpre; simpl.
  - intros x Hx. rewrite E, app_nil_r in Hx. apply in_rev in Hx. auto.
  - destruct (bleb k (fst e)) eqn:B; [simpl; auto|].
    apply IH.
    + rewrite E. simpl. rewrite <- app_assoc. reflexivity.
    + intros x [<-|Hx]; auto.
Qed.

Lemma seek_f k : splits_at k (l_seek L k).
Proof. apply (seek_go_f k L []); [reflexivity | intros x []]. Qed.

Lemma seek_f_R k : Rf (l_seek L k) (drop_until (seek_pred false k) L).
Proof.
  pose proof (seek_f k) as H. destruct (l_seek L k) as [| |pre e post]; simpl in *; [tauto| |].
  - apply drop_until_all_false, H.
  - destruct H as [E [Hge Hpre]]. split; [exact E|]. rewrite E at 1.
    rewrite drop_until_app_false by (intros x Hx; apply in_rev in Hx; exact (Hpre x Hx)).
    apply drop_until_hd_true, Hge.
Qed.

Lemma rewind_r : Rr (l_last L) (rev L).
Proof.
  unfold l_last. destruct (rev L) as [|e pre] eqn:E; simpl; auto.
  split; auto. rewrite <- (rev_involutive L), E. reflexivity.
Qed.

Lemma next_r c s : Rr c s -> Rr (l_prev L c) (tl s).
Proof.
  destruct c as [| |pre e post]; simpl.
  - intros ->. reflexivity.
  - intros [E ->]. unfold l_last. rewrite E. reflexivity.
  - intros [E ->]. destruct pre as [|e' pre']; simpl; auto.
    split; auto. rewrite E. simpl. rewrite <- app_assoc. reflexivity.
Qed.

Lemma rev_at pre e post : L = rev pre ++ e :: post -> rev L = rev post ++ e :: pre.
Proof.
  intros ->. rewrite rev_app_distr. simpl. rewrite rev_involutive, <- app_assoc. reflexivity.
Qed.

(** Key() after the library Seek (nil when not valid) *)
Definition seek_key (c : lcur) : key := match l_cur c with Some e => fst e | None => [] end.

(** reverse Seek: library Seek, then step back unless it hit the key exactly *)
Lemma seek_r k :
  let c := l_seek L k in
  Rr (if negb (beqb (seek_key c) k) then l_prev L c else c) (drop_until (seek_pred true k) (rev L)).
Proof.
  intro c. subst c. pose proof (seek_f k) as H. unfold seek_key.
  destruct (l_seek L k) as [| |pre e post]; [contradiction| |]; simpl in H |- *.
  - (* every key is below k *)
    rewrite drop_until_id.
    2:{ apply Forall_forall. intros x Hx. apply in_rev in Hx. apply bleb_false_flip, H, Hx. }
    destruct (beqb [] k) eqn:Ek; simpl; [|apply rewind_r].
    apply beqb_eq in Ek. subst k. destruct L as [|e0 l0]; [simpl; auto|].
    specialize (H e0 (or_introl eq_refl)). rewrite bleb_nil_l in H. discriminate.
  - destruct H as [E [Hge Hpre]].
    rewrite (rev_at _ _ _ E).
    rewrite drop_until_app_false.
    2:{ intros x Hx. apply in_rev in Hx. unfold seek_pred.
        rewrite bleb_nbltb, (bleb_bltb_trans k (fst e) (fst x)); auto.
        eapply at_post_gt; eauto. }
    simpl. destruct (beqb (fst e) k) eqn:Ek; simpl.
    + apply beqb_eq in Ek. rewrite Ek, bleb_refl. split; auto.
    + assert (Hek : bleb (fst e) k = false).
      { destruct (bleb (fst e) k) eqn:B; auto.
        apply beqb_neq in Ek. exfalso. apply Ek. apply bleb_antisym; auto. }
      rewrite Hek.
      destruct pre as [|e' pre']; simpl; auto.
      rewrite (bleb_false_flip k (fst e')) by (apply Hpre; left; reflexivity).
      split; auto. rewrite E. simpl. rewrite <- app_assoc. reflexivity.
Qed.

Lemma ldb_rewind_lands rv c : lands _ (mkit rv) (R rv) c IRewind (LS rv).
Proof.
  eapply lands_at; [reflexivity | right; reflexivity |].
  destruct rv; [apply rewind_r | apply rewind_f].
Qed.

Lemma ldb_next_lands rv c l : R rv c l -> lands _ (mkit rv) (R rv) c INext (tl l).
Proof.
  intro HR. eapply lands_at; [reflexivity | right; reflexivity |].
  destruct rv; [apply next_r | apply next_f]; exact HR.
Qed.

Lemma ldb_seek_lands rv c k :
  lands _ (mkit rv) (R rv) c (ISeek k) (drop_until (seek_pred rv k) (LS rv)).
Proof.
  destruct rv; [|eapply lands_at; [reflexivity | left; reflexivity | exact (seek_f_R k)]].
  (* Seek, then Prev() && Valid() unless the library landed on k itself *)
  pose proof (seek_r k) as HR. cbv zeta in HR.
  destruct (negb (beqb (seek_key (l_seek L k)) k)) eqn:N.
  all: eapply lands_at; [| | exact HR].
  1, 3: cbn [it_step mkit]; unfold ldb_seek; cbn [li_rev li_L ldb andb];
    fold (seek_key (l_seek L k)); rewrite N; reflexivity.
  - right; reflexivity.
  - left; reflexivity.
Qed.

Lemma ldb_run rv c os : positioned os = true ->
  map Some (it_run (mkit rv c) os) = spec_run rv (LS rv) None os.
Proof.
  intro P.
  apply (contract_run _ _ _ _ _ (ldb_rewind_lands rv) (ldb_seek_lands rv) (ldb_next_lands rv))
    with (p := None); [exact I | intros _; exact P].
Qed.

Lemma ldb_collect rv c n : (length L <= n)%nat ->
  (let '(s, r) := it_step (mkit rv c) IRewind in it_collect_from (S n) s r) = LS rv.
Proof.
  intro Hn. apply (contract_collect_rewind _ _ _ _ (ldb_rewind_lands rv) (ldb_next_lands rv)).
  unfold LS. destruct rv; [rewrite rev_length|]; exact Hn.
Qed.

End Ldb.

Lemma range_check_key (m : store) start e' x :
  In x (range_filter (Some start) e' m) -> check_key start e' (fst x) = true.
Proof.
  intro H. apply range_filter_In in H as [_ H]. unfold in_range in H. unfold check_key.
  apply andb_true_iff in H as [H1 H2]. rewrite H1. simpl.
  destruct e' as [e|]; auto. apply bltb_bleb. exact H2.
Qed.

Lemma resolve_end_spec start end_ : resolve_end start end_ = spec_end start end_.
Proof. unfold resolve_end, spec_end. destruct end_; reflexivity. Qed.

Definition not_badger (b : backend) : bool := match b with BBadger => false | _ => true end.

Lemma it_open_ldb b (m : store) start end_ rv : not_badger b = true ->
  it_open b m start end_ rv =
  mkit (spec_range m start end_) start (spec_end start end_) rv LSOI.
Proof.
  intro B. unfold mkit, ldb, spec_range. rewrite <- resolve_end_spec.
  destruct b; [reflexivity | reflexivity | discriminate].
Qed.

Theorem ldb_iter_refines b (m : store) start end_ rv iops :
  not_badger b = true -> sorted m -> positioned iops = true ->
  map Some (it_run (it_open b m start end_ rv) iops) =
  spec_run rv (spec_list m start end_ rv) None iops.
Proof.
  intros B S P. rewrite it_open_ldb by exact B.
  apply ldb_run; [apply range_filter_sorted, S | apply range_check_key | exact P].
Qed.

(** Rewind and Next never compare keys: the order of [m] plays no part *)
Theorem ldb_iter_collect b (m : store) start end_ rv :
  not_badger b = true ->
  it_collect b m start end_ rv = spec_list m start end_ rv.
Proof.
  intro B. unfold it_collect. rewrite it_open_ldb by exact B.
  apply ldb_collect; [apply range_check_key | apply filter_length_le].
Qed.

(** Seek lands on the least in-range key >= k (forward) / the greatest
    in-range key <= k (reverse) *)
Lemma seek_pos_fwd k (L : list entry) : hd_error (drop_until (seek_pred false k) L) = seek_ge k L.
Proof. unfold seek_ge, first, filter_keys. rewrite hd_drop_until. reflexivity. Qed.

Lemma seek_pos_rev k (L : list entry) : hd_error (drop_until (seek_pred true k) (rev L)) = seek_le k L.
Proof.
  unfold seek_le, filter_keys. rewrite hd_drop_until, last_rev, <- filter_rev. reflexivity.
Qed.

(** ... for any iterator that refines the abstract one *)
Lemma seek_spec_of_refines (s0 : it_state) (m : store) start end_ rv k pre_ops :
  map Some (it_run s0 (pre_ops ++ [ISeek k])) =
    spec_run rv (spec_list m start end_ rv) None (pre_ops ++ [ISeek k]) ->
  List.last (it_run s0 (pre_ops ++ [ISeek k])) (false, false, [], []) =
  match (if rv then seek_le k (spec_range m start end_) else seek_ge k (spec_range m start end_)) with
  | Some e => (true, true, fst e, snd e)
  | None => (false, false, [], [])
  end.
Proof.
  intro H. set (LS := spec_list m start end_ rv) in *.
  assert (G : forall os sp, spec_run rv LS sp (os ++ [ISeek k]) =
            spec_run rv LS sp os ++ [Some (spec_obs (drop_until (seek_pred rv k) LS))]).
  { induction os as [|o os IH]; intro sp; simpl; [reflexivity|]. rewrite IH. reflexivity. }
  rewrite G in H. apply (f_equal (fun l => List.last l (Some (false, false, [], [])))) in H.
  rewrite last_map, last_last in H. injection H as ->.
  unfold LS, spec_list. destruct rv.
  - rewrite <- seek_pos_rev. destruct (drop_until _ _); reflexivity.
  - rewrite <- seek_pos_fwd. destruct (drop_until _ _); reflexivity.
Qed.

Theorem ldb_seek_spec b (m : store) start end_ rv k pre_ops :
  not_badger b = true -> sorted m -> positioned (pre_ops ++ [ISeek k]) = true ->
  List.last (it_run (it_open b m start end_ rv) (pre_ops ++ [ISeek k])) (false, false, [], []) =
  match (if rv then seek_le k (spec_range m start end_) else seek_ge k (spec_range m start end_)) with
  | Some e => (true, true, fst e, snd e)
  | None => (false, false, [], [])
  end.
Proof.
  intros B S P. apply seek_spec_of_refines. apply ldb_iter_refines; auto.
Qed.

(** prefix iteration = the keys that have the prefix (well-formed bytes; the
    prefix bound must not happen to be the EmptyValue sentinel) *)
Theorem prefix_range (m : store) start :
  wf_bytes start -> Forall (fun e => wf_bytes (fst e)) m ->
  succ_prefix start <> Some empty_value ->
  spec_range m start None = filter_keys (is_prefix start) m.
Proof.
  intros Ws Wm Hne. unfold spec_range, range_filter, filter_keys.
  apply filter_ext_in. intros e He.
  rewrite Forall_forall in Wm. specialize (Wm e He).
  rewrite (is_prefix_charb start (fst e) Ws Wm).
  unfold in_range, spec_end, below_succb.
  destruct (succ_prefix start) as [u|]; [|reflexivity].
  destruct (beqb u empty_value) eqn:E; [|reflexivity].
  apply beqb_eq in E. subst. congruence.
Qed.
