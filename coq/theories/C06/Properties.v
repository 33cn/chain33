(** C06 — the property theorems.  [not_badger]: goLevelDB and memdb share the
    goLevelDBIt wrapper; goBadgerDBIt has its own theorems, with
    [keys_nonempty] where a Seek is involved (ProofsBadger.v). *)
From Coq Require Import List NArith Bool.
From C33 Require Import Lib.Harness Lib.Bytes Lib.OMap C06.Model C06.Spec C06.ProofsKV C06.ProofsIter C06.ProofsBadger.
Import ListNotations.

Theorem C06_batch_is_fold : forall b (m : store) ws, sorted m ->
  db_batch b m ws = fold_left apply_write ws m /\ sorted (db_batch b m ws).
Proof. exact batch_is_fold_sorted. Qed.
Print Assumptions C06_batch_is_fold.

Theorem C06_read_your_writes : forall (m : store) k k' v, sorted m ->
  db_get (db_set m k v) k = Some v /\
  db_get (db_del m k) k = None /\
  (k' <> k -> db_get (db_set m k v) k' = db_get m k' /\ db_get (db_del m k) k' = db_get m k') /\
  sorted (db_set m k v) /\ sorted (db_del m k).
Proof. exact read_your_writes. Qed.
Print Assumptions C06_read_your_writes.

Theorem C06_read_after_batch : forall b (m : store) ws k, sorted m ->
  db_get (db_batch b m ws) k =
  match last_write k ws with Some r => r | None => db_get m k end.
Proof. exact db_batch_get. Qed.
Print Assumptions C06_read_after_batch.

Theorem C06_iter_refines : forall b (m : store) start end_ rv iops,
  not_badger b = true -> sorted m -> positioned iops = true ->
  map Some (it_run (it_open b m start end_ rv) iops) =
  spec_run rv (spec_list m start end_ rv) None iops.
Proof. exact ldb_iter_refines. Qed.
Print Assumptions C06_iter_refines.

Theorem C06_iter_collect_spec : forall b (m : store) start end_ rv,
  not_badger b = true -> sorted m ->
  it_collect b m start end_ rv = spec_list m start end_ rv.
Proof. intros b m start end_ rv B _. exact (ldb_iter_collect b m start end_ rv B). Qed.
Print Assumptions C06_iter_collect_spec.

Theorem C06_seek_spec : forall b (m : store) start end_ rv k pre_ops,
  not_badger b = true -> sorted m -> positioned (pre_ops ++ [ISeek k]) = true ->
  List.last (it_run (it_open b m start end_ rv) (pre_ops ++ [ISeek k])) (false, false, [], []) =
  match (if rv then seek_le k (spec_range m start end_) else seek_ge k (spec_range m start end_)) with
  | Some e => (true, true, fst e, snd e)
  | None => (false, false, [], [])
  end.
Proof. exact ldb_seek_spec. Qed.
Print Assumptions C06_seek_spec.

Theorem C06_prefix_range : forall (m : store) start,
  wf_bytes start -> Forall (fun e => wf_bytes (fst e)) m ->
  succ_prefix start <> Some empty_value ->
  spec_range m start None = filter_keys (is_prefix start) m.
Proof. exact prefix_range. Qed.
Print Assumptions C06_prefix_range.

Theorem C06_badger_iter_refines : forall (m : store) start end_ rv iops,
  sorted m -> keys_nonempty m = true -> positioned iops = true ->
  map Some (it_run (it_open BBadger m start end_ rv) iops) =
  spec_run rv (spec_list m start end_ rv) None iops.
Proof. intros m start end_ rv iops S. exact (badger_iter_refines m start end_ rv S iops). Qed.
Print Assumptions C06_badger_iter_refines.

Theorem C06_badger_iter_collect : forall (m : store) start end_ rv,
  sorted m ->
  it_collect BBadger m start end_ rv = spec_list m start end_ rv.
Proof. exact badger_iter_collect. Qed.
Print Assumptions C06_badger_iter_collect.

Theorem C06_badger_seek_spec : forall (m : store) start end_ rv k pre_ops,
  sorted m -> keys_nonempty m = true -> positioned (pre_ops ++ [ISeek k]) = true ->
  List.last (it_run (it_open BBadger m start end_ rv) (pre_ops ++ [ISeek k])) (false, false, [], []) =
  match (if rv then seek_le k (spec_range m start end_) else seek_ge k (spec_range m start end_)) with
  | Some e => (true, true, fst e, snd e)
  | None => (false, false, [], [])
  end.
Proof. exact badger_seek_spec. Qed.
Print Assumptions C06_badger_seek_spec.
