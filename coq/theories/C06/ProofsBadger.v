(** C06 — the goBadgerDBIt wrapper (end bound exclusive, Seek clamped into
    the range) keeps the same iterator contract as the LevelDB/memdb one. *)
From Coq Require Import String.
From Coq Require Import List NArith Bool Lia.
From C33 Require Import Lib.Harness Lib.Bytes Lib.OMap C06.Model C06.Spec C06.ProofsIter.
Import ListNotations.

Definition ord (rv : bool) (a b : key) : bool := if rv then bltb b a else bltb a b.

Fixpoint ds (rv : bool) (l : list entry) : Prop :=
  match l with
  | [] => True
  | x :: tl => Forall (fun y => ord rv (fst x) (fst y) = true) tl /\ ds rv tl
  end.

Lemma ds_sorted (m : store) : sorted m -> ds false m.
Proof.
  induction m as [|x m IH]; simpl; auto. intros [LB S]. split; auto.
  unfold lb_all in LB. rewrite Forall_forall in *. intros y Hy. apply bltb_lt. auto.
Qed.

Lemma ds_snoc rv a x : ds rv a -> (forall y, In y a -> ord rv (fst y) (fst x) = true) -> ds rv (a ++ [x]).
Proof.
  induction a as [|z a IH]; simpl.
  - intros _ _. split; [constructor|exact I].
  - intros [F D] H. split.
    + apply Forall_app. split; auto.
    + apply IH; auto.
Qed.

Lemma ds_rev (m : store) : sorted m -> ds true (rev m).
Proof.
  induction m as [|x m IH]; simpl; auto. intros [LB S].
  apply ds_snoc; auto. intros y Hy. apply in_rev in Hy. unfold ord. apply bltb_lt.
  eapply lb_all_In; eauto.
Qed.

Lemma ds_drop_until rv g l : ds rv l -> ds rv (drop_until g l).
Proof.
  induction l as [|x l IH]; simpl; auto. intros [F D]. destruct (g x); simpl; auto.
Qed.

Definition up (rv : bool) (g : entry -> bool) : Prop :=
  forall x y, g x = true -> ord rv (fst x) (fst y) = true -> g y = true.

Lemma seek_pred_up rv k : up rv (seek_pred rv k).
Proof.
  unfold up, seek_pred, ord. destruct rv; intros x y H1 H2.
  - apply bltb_bleb. eapply bltb_bleb_trans; eauto.
  - apply bltb_bleb. eapply bleb_bltb_trans; eauto.
Qed.

Lemma drop_until_Forall rv (g : entry -> bool) l :
  up rv g -> ds rv l -> Forall (fun x => g x = true) (drop_until g l).
Proof.
  intro M. induction l as [|x l IH]; simpl; [constructor|]. intros [F D].
  destruct (g x) eqn:G; [|auto]. constructor; auto.
  rewrite Forall_forall in *. intros y Hy. eapply M; eauto.
Qed.

Lemma filter_drop_until_comm rv (f g : entry -> bool) l :
  up rv g -> ds rv l -> filter f (drop_until g l) = drop_until g (filter f l).
Proof.
  intro M. induction l as [|x l IH]; simpl; auto. intros [F D].
  destruct (g x) eqn:G.
  - simpl. destruct (f x).
    + simpl. rewrite G. reflexivity.
    + symmetry. apply drop_until_id. apply Forall_forall. intros y Hy.
      apply filter_In in Hy as [Hy _]. rewrite Forall_forall in F. eapply M; eauto.
  - rewrite (IH D). destruct (f x); simpl; [rewrite G|]; reflexivity.
Qed.

Lemma filter_none {A} (f : A -> bool) l : Forall (fun x => f x = false) l -> filter f l = [].
Proof.
  induction l as [|x l IH]; simpl; auto. intro F. inversion F; subst. rewrite H1. auto.
Qed.

Lemma drop_until_ext {A} (f g : A -> bool) l :
  (forall x, In x l -> f x = g x) -> drop_until f l = drop_until g l.
Proof.
  induction l as [|x l IH]; simpl; auto. intro H.
  rewrite <- (H x) by auto. destruct (f x); [reflexivity|]. apply IH. intros y Hy. apply H. auto.
Qed.

Lemma bltb_nil_r k : bltb k [] = false.
Proof. destruct k; reflexivity. Qed.

Lemma bleb_cons_nil a r : bleb (a :: r) [] = false.
Proof. reflexivity. Qed.

Lemma bltb_beqb_false a b : bltb a b = true -> beqb a b = false.
Proof. unfold bltb, beqb. destruct (bcmp a b); auto; discriminate. Qed.

Lemma bltb_zero y : bltb y [0%N] = true -> y = [].
Proof.
  destruct y as [|a r]; auto. unfold bltb. destruct a as [|p]; simpl.
  - destruct r; discriminate.
  - discriminate.
Qed.

(** the library Seek(k): forward for every k, reverse for a non-empty k *)
Lemma b_seek_drop rv (l : list entry) k : rv = false \/ nonempty k = true ->
  b_seek rv l k = drop_until (seek_pred rv k) l.
Proof.
  intro H. destruct k as [|a k]; [|reflexivity].
  destruct H as [->|H]; [|discriminate]. simpl.
  destruct l as [|x l]; auto. simpl. rewrite bleb_nil_l. reflexivity.
Qed.

Lemma skip_end_none (c : list entry) : skip_end None c = c.
Proof. destruct c; reflexivity. Qed.

(** going down: "first entry <= e, stepping over e itself" = "first entry < e" *)
Lemma skip_le_lt e (l : list entry) : ds true l ->
  skip_end (Some e) (drop_until (seek_pred true e) l) = drop_until (fun x => bltb (fst x) e) l.
Proof.
  induction l as [|x l IH]; [reflexivity|]. intro H. simpl in H. destruct H as [F D].
  cbn [drop_until seek_pred]. rewrite bleb_lt_or_eq.
  destruct (bltb _ e) eqn:L; cbn [orb].
  - cbn [skip_end at_end]. unfold key in *. rewrite (bltb_beqb_false _ _ L). reflexivity.
  - destruct (beqb _ e) eqn:E.
    + cbn [skip_end at_end]. unfold key in *. rewrite E. apply beqb_eq in E. symmetry. apply drop_until_id.
      rewrite Forall_forall in *. intros y Hy. specialize (F y Hy). unfold ord in F.
      rewrite <- E. exact F.
    + apply IH. exact D.
Qed.

(** going down from "\x00" over non-empty keys: at most the key "\x00" itself is left *)
Lemma seek_zero_tl (l : list entry) : ds true l -> (forall x, In x l -> nonempty (fst x) = true) ->
  tl (drop_until (seek_pred true [0%N]) l) = [].
Proof.
  induction l as [|x l IH]; [reflexivity|]. intros [F D] N. simpl.
  destruct (bleb (fst x) [0%N]) eqn:P; [|apply IH; [exact D | intros y Hy; apply N; right; exact Hy]].
  destruct l as [|y l]; [reflexivity|]. exfalso.
  pose proof (bltb_zero _ (bltb_bleb_trans _ _ _ (Forall_inv F) P)) as Z.
  specialize (N y (or_intror (or_introl eq_refl))). rewrite Z in N. discriminate.
Qed.

Definition keys_nonempty (m : store) : bool := forallb (fun e => nonempty (fst e)) m.

(** [all]: the entries of the snapshot in iteration order *)
Section Badger.
Variables (rv : bool) (all : list entry) (start : key) (e' : option key).

Definition inr (x : entry) : bool := in_range (Some start) e' (fst x).
Definition LSb : list entry := filter inr all.

(** entry side / exit side of the range in iteration order *)
Definition ent (x : entry) : bool :=
  if rv then match e' with Some e => bltb (fst x) e | None => true end
  else bleb start (fst x).
Definition ext (x : entry) : bool :=
  if rv then bleb start (fst x)
  else match e' with Some e => bltb (fst x) e | None => true end.

Lemma inr_ent_ext x : inr x = ent x && ext x.
Proof. unfold inr, in_range, ent, ext. destruct rv; auto. apply andb_comm. Qed.

(** Valid(): "not on end" and checkKey's [<= end] together are the exclusive test *)
Lemma valid_inr x :
  negb (at_end e' (fst x)) && check_key start e' (fst x) = inr x.
Proof.
  unfold inr, check_key, in_range, at_end. destruct e' as [e|]; [|reflexivity].
  unfold beqb, bleb, bltb. destruct (bcmp start _); destruct (bcmp _ e); reflexivity.
Qed.

Lemma ext_mono x y : ext x = false -> ord rv (fst x) (fst y) = true -> ext y = false.
Proof.
  unfold ext, ord. destruct rv.
  - intros H1 H2. destruct (bleb start (fst y)) eqn:B; auto.
    rewrite (bltb_bleb _ _ (bleb_bltb_trans _ _ _ B H2)) in H1. discriminate.
  - destruct e' as [e|]; [|discriminate]. intros H1 H2.
    destruct (bltb (fst y) e) eqn:B; auto.
    rewrite (bltb_trans _ _ _ H2 B) in H1. discriminate.
Qed.

Lemma ent_up : up rv ent.
Proof.
  unfold up, ent, ord. destruct rv; intros x y.
  - destruct e' as [e|]; auto. intros H1 H2. eapply bltb_trans; eauto.
  - intros H1 H2. apply bltb_bleb. eapply bleb_bltb_trans; eauto.
Qed.

Lemma LSb_ent x : In x LSb -> ent x = true.
Proof.
  intro H. apply filter_In in H as [_ H]. rewrite inr_ent_ext in H.
  apply andb_true_iff in H as [H _]. exact H.
Qed.

(** in-range entries form a prefix of the list *)
Fixpoint pfx (l : list entry) : Prop :=
  match l with
  | [] => True
  | x :: tl => (inr x = false -> Forall (fun y => inr y = false) tl) /\ pfx tl
  end.

Lemma pfx_none l : Forall (fun y => inr y = false) l -> pfx l.
Proof.
  induction l as [|x l IH]; simpl; auto. intro F. inversion F; subst. split; auto.
Qed.

Lemma pfx_ent l : ds rv l -> Forall (fun x => ent x = true) l -> pfx l.
Proof.
  induction l as [|x l IH]; simpl; auto. intros [F D] E. inversion E; subst.
  split; auto. intro Hx. rewrite inr_ent_ext, H1 in Hx. simpl in Hx.
  rewrite Forall_forall in *. intros y Hy. rewrite inr_ent_ext.
  rewrite (ext_mono x y Hx (F y Hy)). apply andb_false_r.
Qed.

(** the library cursor [cur] (the entries from the current one on) stands
    for its in-range entries, which come first *)
Definition RB (cur s : list entry) : Prop := s = filter inr cur /\ pfx cur.

Definition bad (cur : list entry) : bad_it := mk_bad_it all start e' rv cur.
Definition mkb (cur : list entry) : it_state := ItB (bad cur).

(** every call leaves the library cursor somewhere and returns Valid() *)
Lemma lands_on cur o cur' s : RB cur' s ->
  it_step (mkb cur) o =
    (mkb cur', mk_ires (bad_valid (bad cur')) (bad_valid (bad cur')) (bad_entry (bad cur'))) ->
  lands _ mkb RB cur o s.
Proof.
  intros HR E. exists cur'. split; [|exact HR]. rewrite E. f_equal.
  destruct HR as [-> P]. unfold bad_valid, bad_entry, bad. simpl.
  destruct cur' as [|x tl]; [reflexivity|]. simpl.
  rewrite (valid_inr x).
  destruct (inr x) eqn:E1; [reflexivity|].
  destruct P as [P _]. rewrite (filter_none inr tl (P E1)). reflexivity.
Qed.

Lemma next_RB cur s : RB cur s -> RB (tl cur) (tl s).
Proof.
  intros [-> P]. destruct cur as [|x tl]; [split; auto|].
  simpl in *. destruct P as [P1 P2]. split; auto.
  destruct (inr x) eqn:E; [reflexivity|]. rewrite (filter_none inr tl (P1 eq_refl)). reflexivity.
Qed.

Lemma RB_none cur : (forall x, inr x = false) -> RB cur LSb.
Proof.
  intro N. assert (F : forall l, Forall (fun x => inr x = false) l) by (intro l; apply Forall_forall; auto).
  split; [|apply pfx_none, F]. unfold LSb. rewrite !filter_none by apply F. reflexivity.
Qed.

Hypothesis Hds : ds rv all.

(** the library Seek, when all it keeps is on the entry side of the range *)
Lemma drop_RB g : up rv g -> (forall x, g x = true -> ent x = true) ->
  RB (drop_until g all) (drop_until g LSb).
Proof.
  intros M HE. split.
  - symmetry. apply (filter_drop_until_comm rv); assumption.
  - apply pfx_ent; [apply ds_drop_until, Hds|].
    pose proof (drop_until_Forall rv g all M Hds) as F.
    rewrite Forall_forall in *. intros x Hx. apply HE, F, Hx.
Qed.

Lemma ent_RB : RB (drop_until ent all) LSb.
Proof.
  pose proof (drop_RB ent ent_up (fun x H => H)) as H.
  rewrite (drop_until_id ent LSb) in H by (apply Forall_forall, LSb_ent). exact H.
Qed.

End Badger.

Lemma rewind_RB rv all start e' : ds rv all ->
  RB start e' (bad_rewind_cur rv all start e') (LSb all start e').
Proof.
  intro D. destruct rv; simpl.
  - unfold bad_rewind_rev. destruct e' as [[|a e0]|].
    + (* empty non-nil end: nothing is in range *)
      apply RB_none. intro x. unfold inr, in_range. rewrite bltb_nil_r. apply andb_false_r.
    + rewrite b_seek_drop by (right; reflexivity).
      rewrite (skip_le_lt (a :: e0) all D). exact (ent_RB true all start _ D).
    + (* no upper bound: the library rewinds *)
      rewrite skip_end_none. simpl.
      rewrite <- (drop_until_id (ent true start None) all) at 1 by (apply Forall_forall; reflexivity).
      exact (ent_RB true all start None D).
  - rewrite b_seek_drop by auto. exact (ent_RB false all start e' D).
Qed.

Lemma seek_fwd_RB all start e' k : ds false all ->
  RB start e' (bad_seek_fwd all start k) (drop_until (seek_pred false k) (LSb all start e')).
Proof.
  intro D. unfold bad_seek_fwd. rewrite b_seek_drop by auto.
  set (k' := if bltb k start then start else k).
  assert (Hk' : bleb start k' = true).
  { unfold k'. destruct (bltb k start) eqn:B; [apply bleb_refl|].
    rewrite bleb_nbltb, B. reflexivity. }
  rewrite (drop_until_ext (seek_pred false k) (seek_pred false k') (LSb all start e')).
  - apply (drop_RB false); [exact D | apply seek_pred_up |].
    intros x Hx. exact (bleb_trans _ _ _ Hk' Hx).
  - (* a target below start and start itself keep every in-range entry *)
    intros x Hx. apply (LSb_ent false) in Hx. unfold k', seek_pred. simpl in Hx.
    destruct (bltb k start) eqn:B; [|reflexivity].
    rewrite Hx. apply bltb_bleb. exact (bltb_bleb_trans _ _ _ B Hx).
Qed.

Lemma seek_rev_RB all start e' k : ds true all ->
  (forall x, In x all -> nonempty (fst x) = true) ->
  RB start e' (bad_seek_rev all e' k) (drop_until (seek_pred true k) (LSb all start e')).
Proof.
  intros D N. unfold bad_seek_rev.
  destruct (match e' with Some e => bleb e k | None => false end) eqn:C.
  - (* target at or above the end bound: Rewind *)
    destruct e' as [e|]; [|discriminate].
    rewrite drop_until_id; [exact (rewind_RB true all start (Some e) D)|].
    apply Forall_forall. intros x Hx. apply (LSb_ent true) in Hx.
    apply bltb_bleb. exact (bltb_bleb_trans _ _ _ Hx C).
  - destruct k as [|a k0].
    + (* empty target: nothing is at or below it *)
      rewrite b_seek_drop by (right; reflexivity). rewrite (seek_zero_tl all D N).
      rewrite drop_until_all_false; [split; [reflexivity | exact I]|].
      intros x Hx. apply filter_In in Hx as [Hx _]. apply N in Hx. unfold seek_pred.
      destruct (fst x); [discriminate|reflexivity].
    + rewrite b_seek_drop by (right; reflexivity).
      apply (drop_RB true); [exact D | apply seek_pred_up |].
      intros x Hx. unfold ent. destruct e' as [e|]; [|reflexivity].
      exact (bleb_bltb_trans _ _ _ Hx (bleb_false_bltb _ _ C)).
Qed.

Lemma seek_RB rv all start e' k : ds rv all ->
  (forall x, In x all -> nonempty (fst x) = true) ->
  RB start e' (bad_seek_cur rv all start e' k) (drop_until (seek_pred rv k) (LSb all start e')).
Proof.
  intros D N. destruct rv; [apply seek_rev_RB | apply seek_fwd_RB]; assumption.
Qed.

Section Store.
Variables (m : store) (start : key) (end_ : option key) (rv : bool).
Hypothesis Hm : sorted m.

Let e' := spec_end start end_.
Let all := if rv then rev m else m.
Let inj := mkb rv all start e'.
Let Rel := RB start e'.
Let LS := LSb all start e'.

Lemma ds_all : ds rv all.
Proof. unfold all. destruct rv; [apply ds_rev | apply ds_sorted]; exact Hm. Qed.

Lemma LS_spec : spec_list m start end_ rv = LS.
Proof.
  unfold spec_list, spec_range, range_filter, filter_keys, LS, LSb, all, inr.
  destruct rv; auto. rewrite filter_rev. reflexivity.
Qed.

Lemma bad_open_eq : it_open BBadger m start end_ rv = inj (bad_rewind_cur rv all start e').
Proof. unfold it_open, bad_open, inj, mkb, bad. rewrite resolve_end_spec. reflexivity. Qed.

Lemma badger_rewind_lands cur : lands _ inj Rel cur IRewind LS.
Proof. eapply lands_on; [exact (rewind_RB rv all start e' ds_all) | reflexivity]. Qed.

Lemma badger_next_lands cur l : Rel cur l -> lands _ inj Rel cur INext (tl l).
Proof. intro HR. eapply lands_on; [exact (next_RB _ _ _ _ HR) | reflexivity]. Qed.

Lemma badger_seek_lands cur k : keys_nonempty m = true ->
  lands _ inj Rel cur (ISeek k) (drop_until (seek_pred rv k) LS).
Proof.
  intro Hne. eapply lands_on; [apply (seek_RB rv all start e' k ds_all) | reflexivity].
  intros x Hx. unfold keys_nonempty in Hne. rewrite forallb_forall in Hne. apply Hne.
  unfold all in Hx. destruct rv; [apply in_rev|]; exact Hx.
Qed.

(** [keys_nonempty]: a Badger store holds no empty key (Txn.Set rejects it);
    only a reverse Seek with an empty target needs it. *)
Theorem badger_iter_refines iops : keys_nonempty m = true -> positioned iops = true ->
  map Some (it_run (it_open BBadger m start end_ rv) iops) =
  spec_run rv (spec_list m start end_ rv) None iops.
Proof.
  intros Hne P. rewrite bad_open_eq, LS_spec.
  apply (contract_run _ _ _ _ _ badger_rewind_lands (fun c k => badger_seek_lands c k Hne) badger_next_lands)
    with (p := None); [exact I | intros _; exact P].
Qed.

(** Rewind; Next while valid (no Seek: no condition on the keys) *)
Theorem badger_iter_collect : it_collect BBadger m start end_ rv = spec_list m start end_ rv.
Proof.
  unfold it_collect. rewrite bad_open_eq, LS_spec.
  apply (contract_collect_rewind _ _ _ _ badger_rewind_lands badger_next_lands).
  assert (length LS <= length all)%nat by apply filter_length_le.
  assert (length all = length m) by (unfold all; destruct rv; [apply rev_length | reflexivity]).
  lia.
Qed.

End Store.

Theorem badger_seek_spec (m : store) start end_ rv k pre_ops :
  sorted m -> keys_nonempty m = true -> positioned (pre_ops ++ [ISeek k]) = true ->
  List.last (it_run (it_open BBadger m start end_ rv) (pre_ops ++ [ISeek k])) (false, false, [], []) =
  match (if rv then seek_le k (spec_range m start end_) else seek_ge k (spec_range m start end_)) with
  | Some e => (true, true, fst e, snd e)
  | None => (false, false, [], [])
  end.
Proof. intros S N P. apply seek_spec_of_refines. apply badger_iter_refines; auto. Qed.

(** examples: the inputs of the two repaired findings, and non-vacuity *)
Definition wit_store : store :=
  [(bs "a", bs "va"); (bs "a1", bs "va1"); (bs "a2", bs "va2"); (bs "b", bs "vb"); (bs "c", bs "vc")]%string.

Lemma wit_sorted : sorted wit_store.
Proof. apply sortedb_iff. vm_compute. reflexivity. Qed.

(** a stored key equal to the exclusive end bound is not visited (prefix and
    explicit range, both directions) *)
Example badger_end_exclusive_example :
  it_collect BBadger wit_store (bs "a"%string) None false =
    [(bs "a", bs "va"); (bs "a1", bs "va1"); (bs "a2", bs "va2")]%string /\
  it_collect BBadger wit_store (bs "a"%string) (Some (bs "b"%string)) true =
    [(bs "a2", bs "va2"); (bs "a1", bs "va1"); (bs "a", bs "va")]%string.
Proof. vm_compute. split; reflexivity. Qed.

(** Seek targets outside the range and the empty target are clamped *)
Example badger_seek_clamped_example :
  sorted wit_store /\ keys_nonempty wit_store = true /\
  it_run (it_open BBadger wit_store (bs "a1"%string) (Some (bs "bz"%string)) false)
         [ISeek (bs "a"%string); ISeek []; ISeek (bs "c"%string)] =
    [(true, true, bs "a1", bs "va1"); (true, true, bs "a1", bs "va1"); (false, false, [], [])]%string /\
  it_run (it_open BBadger wit_store (bs "a1"%string) (Some (bs "b"%string)) true)
         [ISeek (bs "c"%string); ISeek (bs "b"%string); ISeek []; ISeek (bs "a"%string)] =
    [(true, true, bs "a2", bs "va2"); (true, true, bs "a2", bs "va2"); (false, false, [], []);
     (false, false, [], [])]%string.
Proof. split; [exact wit_sorted|]. vm_compute. repeat split. Qed.

(** [keys_nonempty] cannot be dropped from the statement about the model: with an
    empty key in the list (a state no Badger store reaches) a reverse
    Seek(empty) differs.  This is a limit of the domain, not a finding. *)
Example badger_empty_key_outside_domain :
  map Some (it_run (it_open BBadger [([], bs "v")]%string [] (Some empty_value) true) [ISeek []]) <>
  spec_run true (spec_list [([], bs "v")]%string [] (Some empty_value) true) None [ISeek []].
Proof. vm_compute. discriminate. Qed.

(** hypotheses of the LevelDB/memdb theorems are satisfiable, non-trivially *)
Example ldb_example :
  sorted wit_store /\ not_badger BLdb = true /\
  positioned [ISeek (bs "a2"%string); INext; IRewind] = true /\
  it_collect BLdb wit_store (bs "a"%string) None true =
    [(bs "a2", bs "va2"); (bs "a1", bs "va1"); (bs "a", bs "va")]%string /\
  it_collect BMem wit_store (bs "a"%string) (Some (bs "b"%string)) false =
    [(bs "a", bs "va"); (bs "a1", bs "va1"); (bs "a2", bs "va2")]%string /\
  succ_prefix (bs "a"%string) <> Some empty_value.
Proof. split; [exact wit_sorted|]. vm_compute. repeat split; discriminate. Qed.
