(** C06 — point writes, batches and reads. *)
From Coq Require Import List NArith Bool.
From C33 Require Import Lib.Harness Lib.Bytes Lib.OMap C06.Model C06.Spec.
Import ListNotations.

Lemma apply_write_sorted (m : store) w : sorted m -> sorted (apply_write m w).
Proof.
  intro S. unfold apply_write, db_set, db_del. destruct (snd w).
  - apply put_sorted, S.
  - apply del_sorted, S.
Qed.

Lemma get_apply_write (m : store) w k :
  sorted m -> get k (apply_write m w) = if beqb k (fst w) then snd w else get k m.
Proof.
  intro S. unfold apply_write, db_set, db_del. destruct (snd w) as [v|].
  - apply get_put.
  - apply get_del, S.
Qed.

Lemma fold_apply_sorted ws : forall m : store, sorted m -> sorted (fold_left apply_write ws m).
Proof.
  induction ws as [|w ws IH]; simpl; auto. intros m S. apply IH, apply_write_sorted, S.
Qed.

Lemma fold_apply_get ws : forall (m : store) k, sorted m ->
  get k (fold_left apply_write ws m) =
  match last_write k ws with Some r => r | None => get k m end.
Proof.
  induction ws as [|w ws IH]; simpl; auto. intros m k S.
  rewrite IH by (apply apply_write_sorted, S).
  destruct (last_write k ws) as [r|]; [reflexivity|].
  rewrite get_apply_write by exact S. destruct (beqb k (fst w)); reflexivity.
Qed.

(** badger: the pending entries of the transaction *)
Definition putw (p : list (key * option val)) (w : write) := put (fst w) (snd w) p.

Lemma pending_get ws : forall p k,
  get k (fold_left putw ws p) =
  match last_write k ws with Some r => Some r | None => get k p end.
Proof.
  induction ws as [|w ws IH]; simpl; auto. intros p k.
  rewrite IH. destruct (last_write k ws) as [r|]; [reflexivity|].
  unfold putw. rewrite get_put. destruct (beqb k (fst w)); reflexivity.
Qed.

Lemma last_write_sorted (p : list write) k : sorted p -> last_write k p = get k p.
Proof.
  induction p as [|[k' r] tl IH]; simpl; auto. intros [L S]. simpl in L.
  rewrite (IH S). destruct (beqb k k') eqn:E.
  - apply beqb_eq in E. subst k'. rewrite (get_lb_none k tl L). reflexivity.
  - destruct (get k tl); reflexivity.
Qed.

Lemma badger_batch_get (m : store) ws k : sorted m ->
  get k (badger_batch_write m ws) =
  match last_write k ws with Some r => r | None => get k m end.
Proof.
  intro S. unfold badger_batch_write, badger_pending.
  change (fun p w => put (fst w) (snd w) p) with putw.
  rewrite fold_apply_get by exact S.
  rewrite last_write_sorted by apply (of_list_sorted ws).
  rewrite pending_get. simpl. destruct (last_write k ws); reflexivity.
Qed.

Lemma db_batch_sorted b (m : store) ws : sorted m -> sorted (db_batch b m ws).
Proof. intro S. destruct b; apply fold_apply_sorted, S. Qed.

Lemma batch_is_fold b (m : store) ws : sorted m ->
  db_batch b m ws = fold_left apply_write ws m.
Proof.
  intro S. destruct b; try reflexivity. simpl.
  apply sorted_ext.
  - apply (db_batch_sorted BBadger), S.
  - apply fold_apply_sorted, S.
  - intro k. rewrite badger_batch_get, fold_apply_get by exact S. reflexivity.
Qed.

Lemma batch_is_fold_sorted b (m : store) ws : sorted m ->
  db_batch b m ws = fold_left apply_write ws m /\ sorted (db_batch b m ws).
Proof. intro S. split; [exact (batch_is_fold b m ws S) | exact (db_batch_sorted b m ws S)]. Qed.

Lemma db_batch_get b (m : store) ws k : sorted m ->
  db_get (db_batch b m ws) k =
  match last_write k ws with Some r => r | None => db_get m k end.
Proof.
  intro S. unfold db_get. rewrite batch_is_fold by exact S. apply fold_apply_get, S.
Qed.

Lemma read_your_writes (m : store) k k' v : sorted m ->
  db_get (db_set m k v) k = Some v /\
  db_get (db_del m k) k = None /\
  (k' <> k -> db_get (db_set m k v) k' = db_get m k' /\ db_get (db_del m k) k' = db_get m k') /\
  sorted (db_set m k v) /\ sorted (db_del m k).
Proof.
  intro S. unfold db_get, db_set, db_del. repeat split.
  - apply get_put_same.
  - apply get_del_same, S.
  - apply get_put_other, H.
  - apply get_del_other, H.
  - apply put_sorted, S.
  - apply del_sorted, S.
Qed.
