(** C39 — what runs on an endpoint was allowed by the policy [may_run]: on JSON-RPC
    always, on gRPC for unary methods (a streaming method is the counterexample);
    the eth gate lets in the clients the IP gate of the other two endpoints lets in. *)
From Coq Require Import List String Ascii Bool NArith.
From C33 Require Import C39.Model C39.Spec.
Import ListNotations.
Open Scope string_scope.

Lemma mem_app : forall s a b, mem s (a ++ b)%list = mem s a || mem s b.
Proof. intros s a b. unfold mem. apply existsb_app. Qed.

Lemma is_star_eq : forall l, is_star l = true -> l = ["*"].
Proof.
  intros [|s [|t l]] H; simpl in H; try discriminate.
  apply String.eqb_eq in H. now subst.
Qed.

Lemma is_nil_eq : forall (l : list string), is_nil l = true -> l = [].
Proof. intros [|x l] H; [reflexivity|discriminate]. Qed.

Lemma configured_ips_app : forall cfg,
  is_nil (c_whitelist cfg) && is_nil (c_whitlist cfg) = false ->
  configured_ips cfg = (c_whitelist cfg ++ c_whitlist cfg)%list.
Proof.
  intros cfg H. unfold configured_ips.
  destruct (c_whitelist cfg) as [|x wl]; destruct (c_whitlist cfg) as [|y wh];
    simpl in *; try reflexivity. discriminate.
Qed.

(** Whatever InitIPWhitelist puts into the map was listed by the operator, or a
    star was ("0.0.0.0" stands for it), or nothing was listed and it is 127.0.0.1. *)
Lemma init_ip_listed : forall cfg x,
  mem x (init_ip cfg) = true ->
  mem "*" (configured_ips cfg) || mem x (configured_ips cfg) = true.
Proof.
  intros cfg x H. unfold init_ip in H.
  destruct (is_nil (c_whitelist cfg) && is_nil (c_whitlist cfg)) eqn:Hnil.
  - apply andb_true_iff in Hnil as [H1 H2].
    apply is_nil_eq in H1. apply is_nil_eq in H2.
    unfold configured_ips. rewrite H1, H2. simpl app. cbv iota.
    rewrite H. apply orb_true_r.
  - rewrite (configured_ips_app cfg Hnil), !mem_app.
    destruct (is_star (c_whitelist cfg)) eqn:Hs1.
    { apply is_star_eq in Hs1. rewrite Hs1. reflexivity. }
    destruct (is_star (c_whitlist cfg)) eqn:Hs2.
    { apply is_star_eq in Hs2. rewrite Hs2. simpl (mem "*" ["*"]). now rewrite orb_true_r. }
    destruct (negb (is_nil (c_whitelist cfg))); rewrite H; now rewrite ?orb_true_r.
Qed.

Lemma ip_gate_allowed : forall cfg c,
  is_loopback c = false -> ip_gate (init cfg) c = true -> ip_allowed cfg c = true.
Proof.
  intros cfg c Hlb Hg. unfold ip_gate in Hg. rewrite Hlb in Hg. simpl in Hg.
  unfold ip_allowed.
  apply orb_true_iff in Hg as [Hg|Hg]; apply init_ip_listed in Hg;
    apply orb_true_iff in Hg as [Hg|Hg]; rewrite Hg; now rewrite ?orb_true_r.
Qed.

Lemma fn_lists_allowed : forall wl bl fn,
  mem fn (init_fb bl) = false ->
  mem "*" (init_fw wl) || mem fn (init_fw wl) = true ->
  fn_allowed wl bl fn = true.
Proof.
  intros wl bl fn Hb Hw. unfold fn_allowed.
  apply andb_true_iff. split.
  - unfold init_fb in Hb. destruct (is_nil bl) eqn:Hn.
    + apply is_nil_eq in Hn. now subst.
    + now rewrite Hb.
  - unfold init_fw in Hw. destruct (is_nil wl) eqn:Hn; [reflexivity|].
    destruct (is_star wl) eqn:Hs.
    + apply is_star_eq in Hs. subst. reflexivity.
    + simpl. exact Hw.
Qed.

Lemma dispatch_last_component : forall reg rq fn fs m e,
  jr_body rq = BObj fs -> decode_method fs "" false = (m, e) ->
  jsonrpc_dispatch reg rq = Some fn -> fn = last_component dot m.
Proof.
  intros reg rq fn fs m e Hb Hd H. unfold jsonrpc_dispatch in H.
  rewrite Hb, Hd in H. destruct e; [discriminate|].
  unfold last_component. destruct (split_last dot m) as [[svc|] l]; [|discriminate].
  simpl. destruct (_ && _) in H; [|discriminate]. now inversion H.
Qed.

(** What a request that passes the gate has gone through. *)
Lemma jsonrpc_gate_pass : forall cfg remote rq m,
  jsonrpc_gate cfg remote rq = JPass m ->
  exists c fs,
    remote = Some c /\ ip_gate (init cfg) c = true /\ auth_gate cfg (jr_auth rq) = true /\
    jr_body rq = BObj fs /\ decode_method fs "" false = (m, false) /\
    (is_loopback c = false ->
     mem (last_component dot m) (init_fb (c_jfb cfg)) = false /\
     mem "*" (init_fw (c_jfw cfg)) || mem (last_component dot m) (init_fw (c_jfw cfg)) = true).
Proof.
  intros cfg remote rq m Hg. unfold jsonrpc_gate in Hg.
  destruct remote as [c|]; [|discriminate].
  destruct (ip_gate (init cfg) c) eqn:Hip; [|discriminate].
  destruct (auth_gate cfg (jr_auth rq)) eqn:Hau; [|discriminate].
  destruct (negb (jr_path_root rq)); [discriminate|].
  destruct (jr_body rq) as [fs|] eqn:Hb; [|discriminate].
  destruct (decode_method fs "" false) as [m' e] eqn:Hd.
  destruct e; [discriminate|]. destruct (gate_other_err fs); [discriminate|]. simpl in Hg.
  destruct (negb (is_loopback c) && _) eqn:Hm in Hg; [discriminate|]. injection Hg as ->.
  exists c, fs. do 5 (split; [first [reflexivity | assumption]|]). intro Hlb.
  rewrite Hlb in Hm. apply orb_false_iff in Hm as [Hbl Hwl].
  apply negb_false_iff in Hwl. split; assumption.
Qed.

(** gate and dispatcher agree on the method: what runs is the last dot component
    of the method string the gate checked *)
Theorem jsonrpc_gate_sees_dispatched_method : forall cfg reg remote rq fn,
  jsonrpc_run cfg reg remote rq = Some fn ->
  exists m, jsonrpc_gate cfg remote rq = JPass m /\ fn = last_component dot m.
Proof.
  intros cfg reg remote rq fn H. unfold jsonrpc_run in H.
  destruct (jsonrpc_gate cfg remote rq) eqn:Hg; try discriminate.
  exists m. split; [reflexivity|].
  destruct (jsonrpc_gate_pass _ _ _ _ Hg) as (c & fs & _ & _ & _ & Hb & Hd & _).
  eapply dispatch_last_component; eauto.
Qed.

Theorem jsonrpc_runs_implies_allowed : forall cfg reg remote rq fn,
  jsonrpc_run cfg reg remote rq = Some fn ->
  exists c, remote = Some c /\
            (is_loopback c = false -> may_run cfg EJrpc c fn (jr_auth rq) = true).
Proof.
  intros cfg reg remote rq fn H.
  destruct (jsonrpc_gate_sees_dispatched_method _ _ _ _ _ H) as [m [Hg ->]].
  destruct (jsonrpc_gate_pass _ _ _ _ Hg) as (c & fs & -> & Hip & Hau & _ & _ & Hfn).
  exists c. split; [reflexivity|]. intro Hlb. destruct (Hfn Hlb) as [Hbl Hwl].
  unfold may_run. rewrite (ip_gate_allowed cfg c Hlb Hip), (fn_lists_allowed _ _ _ Hbl Hwl).
  exact Hau.
Qed.

Lemma split_last_strip : forall s svc m,
  split_last slash (strip_slash s) = (Some svc, m) -> last_component slash s = m.
Proof.
  intros s svc m H. unfold last_component. destruct s as [|c tl]; simpl in *.
  - discriminate.
  - destruct (Ascii.eqb c slash) eqn:Hc.
    + rewrite H. reflexivity.
    + simpl in H. destruct (split_last slash tl) as [[p|] l].
      * inversion H. reflexivity.
      * rewrite Hc in H. discriminate.
Qed.

Lemma glookup_name : forall t svc m x,
  glookup t svc m = GUnary x \/ glookup t svc m = GStream x -> x = m.
Proof.
  induction t as [|[[s n] str] tl IH]; intros svc m x H; simpl in H.
  - destruct H; discriminate.
  - destruct (String.eqb s svc && String.eqb n m).
    + destruct str; destruct H as [H|H]; simpl in H; inversion H; reflexivity.
    + eapply IH; eauto.
Qed.

(** full statement: every gRPC method that runs for a non-loopback client is allowed *)
Definition grpc_runs_implies_allowed_full : Prop :=
  forall cfg t c full fn,
    grpc_run cfg t c full = GRan fn -> is_loopback c = false ->
    may_run cfg EGrpc c fn AuthNone = true.

Definition refute_cfg : config :=
  mkConfig ["10.39.1.1"] [] [] [] [] ["SubEvent"] "" "".
Definition refute_tbl : gtable :=
  [("types.chain33", "Version", false); ("types.chain33", "SubEvent", true)].

(** the unary interceptor is the only gate; a server-streaming method (SubEvent) runs
    for an address that is not on the list, even when the method is blacklisted *)
Theorem grpc_runs_implies_allowed_refuted : ~ grpc_runs_implies_allowed_full.
Proof.
  intro H.
  specialize (H refute_cfg refute_tbl (V4 192 0 2 2) "/types.chain33/SubEvent" "SubEvent"
                eq_refl eq_refl).
  vm_compute in H. discriminate.
Qed.

Theorem grpc_runs_implies_allowed_partial : forall cfg t c full fn,
  grpc_is_stream t full = false ->
  grpc_run cfg t c full = GRan fn -> is_loopback c = false ->
  may_run cfg EGrpc c fn AuthNone = true.
Proof.
  intros cfg t c full fn Hns H Hlb.
  unfold grpc_run in H. unfold grpc_is_stream in Hns.
  destruct (grpc_dispatch t full) as [|x|x] eqn:Hd; try discriminate.
  assert (Hx : x = last_component slash full).
  { unfold grpc_dispatch in Hd.
    destruct (split_last slash (strip_slash full)) as [[svc|] m] eqn:Hs; [|discriminate].
    rewrite (split_last_strip _ _ _ Hs).
    eapply glookup_name. left. exact Hd. }
  unfold grpc_auth, grpc_func_valid in H.
  destruct (ip_gate (init cfg) c) eqn:Hip; [|discriminate].
  destruct (mem (last_component slash full) (s_gb (init cfg))) eqn:Hbl; [discriminate|].
  destruct (mem "*" (s_gw (init cfg)) || mem (last_component slash full) (s_gw (init cfg))) eqn:Hwl;
    [|discriminate].
  inversion H; subst fn. subst x.
  unfold may_run. rewrite (ip_gate_allowed cfg c Hlb Hip).
  simpl in Hbl, Hwl. now rewrite (fn_lists_allowed _ _ _ Hbl Hwl).
Qed.

Lemma existsb_eth : forall t l,
  existsb (fun a => String.eqb a "0.0.0.0" || String.eqb a t) l
  = mem "0.0.0.0" l || mem t l.
Proof.
  intros t l. unfold mem. induction l as [|a l IH]; [reflexivity|].
  cbn [existsb]. rewrite IH.
  rewrite (String.eqb_sym "0.0.0.0" a), (String.eqb_sym t a).
  destruct (String.eqb a "0.0.0.0"), (String.eqb a t),
    (existsb (String.eqb "0.0.0.0") l), (existsb (String.eqb t) l); reflexivity.
Qed.

(** with a list under either key, the map InitIPWhitelist fills is the list the eth
    gate walks, a single star written as 0.0.0.0 *)
Lemma init_ip_eth_list : forall cfg,
  ip_list_configured cfg = true ->
  is_nil (eth_list cfg) = false /\
  init_ip cfg = if is_star (eth_list cfg) then ["0.0.0.0"] else eth_list cfg.
Proof.
  intros cfg Hcfg. unfold ip_list_configured in Hcfg. unfold eth_list, init_ip.
  destruct (c_whitelist cfg) as [|a wl]; destruct (c_whitlist cfg) as [|b wh];
    [discriminate| | |]; cbn [is_nil andb orb negb];
    change (is_star (@nil string)) with false; cbv iota.
  - split; [reflexivity|]. destruct (is_star (b :: wh)); reflexivity.
  - split; [reflexivity|]. destruct (is_star (a :: wl)); reflexivity.
  - destruct (is_star (b :: wh)) eqn:Hs; [rewrite Hs|]; split; try reflexivity.
    destruct (is_star (a :: wl)); reflexivity.
Qed.

(** for a non-empty IP list under either key the eth gate lets in exactly the
    addresses the JSON-RPC and gRPC gates let in *)
Theorem eth_same_clients : forall cfg c,
  ip_list_configured cfg = true -> eth_ip_gate cfg c = ip_gate (init cfg) c.
Proof.
  intros cfg c Hcfg. destruct (init_ip_eth_list cfg Hcfg) as [Hn Hip].
  unfold eth_ip_gate, ip_gate. cbn [init s_ip]. rewrite Hip, Hn, existsb_eth, <- orb_assoc.
  destruct (is_star (eth_list cfg)); reflexivity.
Qed.

(** the behaviour the eth endpoint keeps: no IP list at all = every address is served
    (the other two endpoints then serve 127.0.0.1 only) *)
Theorem eth_no_list_serves_all : forall cfg c,
  ip_list_configured cfg = false -> eth_ip_gate cfg c = true.
Proof.
  intros cfg c Hcfg. unfold ip_list_configured in Hcfg.
  apply orb_false_iff in Hcfg as [H1 H2].
  apply negb_false_iff in H1. apply negb_false_iff in H2.
  unfold eth_ip_gate, eth_list. rewrite H1. simpl. rewrite H2. simpl.
  apply orb_true_r.
Qed.

Definition ex_cfg : config :=
  mkConfig ["192.0.2.2"; "fd39::1"] [] ["Version"; "IsSync"] ["Version"] ["IsSync"] [] "u" "p".

Definition ex_req : jreq :=
  mkJreq true (AuthCreds "u" "p")
         (BObj [("method", JStr "Chain33.CloseQueue"); ("METHOD", JStr "X.Chain33.Version");
                ("method", JNull); ("params", JArrOk); ("id", JNumU)]).

(** a non-loopback, listed client with credentials runs Version (duplicate keys: last one wins) *)
Example jsonrpc_runs_nonvacuous :
  is_loopback (V4 192 0 2 2) = false /\
  jsonrpc_run ex_cfg ["Version"; "IsSync"; "CloseQueue"] (Some (V4 192 0 2 2))
              (mkJreq true (AuthCreds "u" "p")
                 (BObj [("method", JStr "Chain33.CloseQueue"); ("METHOD", JStr "Chain33.Version");
                        ("method", JNull); ("params", JArrOk); ("id", JNumU)]))
  = Some "Version".
Proof. vm_compute. split; reflexivity. Qed.

(** ... the gate looks at the last component even when the dispatcher will not find the service *)
Example jsonrpc_gate_example :
  jsonrpc_gate ex_cfg (Some (V6 [253;57;0;0;0;0;0;0;0;0;0;0;0;0;0;1]%N "fd39::1")) ex_req
  = JPass "X.Chain33.Version"
  /\ jsonrpc_run ex_cfg ["Version"] (Some (V4 192 0 2 2)) ex_req = None
  /\ jsonrpc_gate ex_cfg (Some (V4 192 0 2 2))
        (mkJreq true (AuthCreds "u" "p") (BObj [("method", JStr "Chain33.IsSync"); ("params", JArrOk)]))
     = JRejMethod
  /\ jsonrpc_gate ex_cfg (Some (V4 192 0 2 2))
        (mkJreq true (AuthCreds "u" "x") (BObj [("method", JStr "Chain33.Version"); ("params", JArrOk)]))
     = JRejAuth
  /\ jsonrpc_gate ex_cfg (Some (V4 10 39 1 1)) ex_req = JRejIP.
Proof. vm_compute. repeat split; reflexivity. Qed.

Example grpc_partial_nonvacuous :
  grpc_is_stream refute_tbl "/types.chain33/Version" = false /\
  grpc_run ex_cfg refute_tbl (V4 192 0 2 2) "/types.chain33/Version" = GRan "Version" /\
  grpc_run ex_cfg refute_tbl (V4 10 39 1 1) "/types.chain33/Version" = GRejIP /\
  grpc_run ex_cfg refute_tbl (V4 192 0 2 2) "/types.chain33/IsSync" = GUnimpl.
Proof. vm_compute. repeat split; reflexivity. Qed.

(** a list under "whitlist" only, and a "whitlist" star next to a restrictive "whitelist":
    the two configurations in which the precedence between the keys decides *)
Example eth_same_clients_nonvacuous :
  let only_whitlist := mkConfig [] ["10.39.1.1"] [] [] [] [] "" "" in
  let star_beside := mkConfig ["10.39.1.1"] ["*"] [] [] [] [] "" "" in
  ip_list_configured ex_cfg = true /\
  eth_ip_gate ex_cfg (V4 192 0 2 2) = true /\ eth_ip_gate ex_cfg (V4 10 39 1 1) = false /\
  eth_ip_gate ex_cfg (V4Mapped 192 0 2 2) = true /\
  ip_list_configured only_whitlist = true /\
  eth_ip_gate only_whitlist (V4 192 0 2 2) = false /\ eth_ip_gate only_whitlist (V4 10 39 1 1) = true /\
  ip_list_configured star_beside = true /\
  eth_ip_gate star_beside (V4 192 0 2 2) = true.
Proof. vm_compute. repeat split; reflexivity. Qed.
