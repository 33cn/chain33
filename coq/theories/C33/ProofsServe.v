(** C33 — proofs about the serving side of the download protocol and the
    peer-info handlers of Streams.v *)
From Coq Require Import List ZArith NArith Bool Lia.
From C33 Require Import C33.Model C33.Streams C33.ProofsStreams.
Import ListNotations.
Open Scope Z_scope.

Lemma serve_range_fwd : forall chain old s e,
  fst (serve_range chain old s e) = if range_bad s e then None else Some (s, e).
Proof.
  intros chain old s e. unfold serve_range. destruct (range_bad s e); [reflexivity|].
  destruct (chain s e) as [[|hs]|w|w|]; try reflexivity.
  destruct (length hs =? 0)%nat; [reflexivity|]. destruct old; [reflexivity|].
  destruct (go_nth hs 0 W_BLK0); reflexivity.
Qed.

Lemma serve_range_no_panic : forall chain old s e,
  (range_bad s e = false -> chain s e <> Died) -> no_panic (snd (serve_range chain old s e)).
Proof.
  intros chain old s e Hc. unfold serve_range.
  destruct (range_bad s e); [exact I|].
  specialize (Hc eq_refl). destruct (chain s e) as [[|hs]|w|w|]; cbn; try exact I; try congruence.
  destruct hs as [|b tl]; cbn; [exact I|]. destruct old; exact I.
Qed.

Definition int64 (z : Z) : Prop := - two63 <= z < two63.
Definition int64b (z : Z) : bool := (- two63 <=? z) && (z <? two63).

Lemma wrap64_spec : forall z, int64 (wrap64 z) /\ exists k, wrap64 z = z + k * (2 * two63).
Proof.
  intros z. unfold int64, wrap64.
  pose proof (Z.mod_pos_bound (z + two63) (2 * two63) eq_refl) as B.
  split; [lia|]. exists (- ((z + two63) / (2 * two63))). rewrite Z.mod_eq by discriminate. lia.
Qed.

Lemma wrap64_range : forall z, int64 (wrap64 z).
Proof. intros z. apply wrap64_spec. Qed.

Lemma wrap64_id : forall z, int64 z -> wrap64 z = z.
Proof.
  intros z Hz. destruct (wrap64_spec z) as [R [k E]]. unfold int64, two63 in *. lia.
Qed.

Lemma wrap64_diff : forall s e,
  int64 s -> int64 e -> s <= e -> wrap64 (e - s) = e - s \/ wrap64 (e - s) < 0.
Proof.
  intros s e Hs He Hse. destruct (wrap64_spec (e - s)) as [R [k E]]. unfold int64, two63 in *. lia.
Qed.

Lemma range_ok : forall s e,
  int64 s -> int64 e -> range_bad s e = false -> 0 <= s /\ span_ok s e = true.
Proof.
  intros s e Hs He Hr. unfold range_bad in Hr.
  apply orb_false_elim in Hr. destruct Hr as [Hr H3].
  apply orb_false_elim in Hr. destruct Hr as [H1 H2].
  assert (H0 : 0 <= s) by lia. assert (Hse : s <= e) by lia.
  rewrite wrap64_id in H3 by (unfold int64, two63 in *; lia).
  split; [exact H0|]. unfold span_ok. apply andb_true_intro; split; lia.
Qed.

(** the count test of the query functions, [limit <= End-Start || End-Start < 0]
    in int64, taken after Start <= End: what passes is a true difference below
    the limit (a wrapped one is negative) *)
Lemma count_test : forall limit s e,
  int64 s -> int64 e -> s <= e ->
  (limit <=? wrap64 (e - s)) || (wrap64 (e - s) <? 0) = false -> 0 <= e - s < limit.
Proof.
  intros limit s e Hs He Hse H. destruct (wrap64_diff s e Hs He Hse) as [W|W]; [rewrite W in H|]; lia.
Qed.

(** after it the count min(End, tip) - Start + 1 does not wrap either *)
Lemma clamp_count : forall tip s e,
  int64 s -> s <= tip -> 0 <= e - s < two63 - 1 ->
  let en := if tip <? e then tip else e in
  wrap64 (wrap64 (en - s) + 1) = en - s + 1 /\ 1 <= en - s + 1 <= e - s + 1.
Proof.
  intros tip s e Hs Ht He en.
  assert (Hen : s <= en <= e) by (unfold en; destruct (tip <? e) eqn:E; lia).
  rewrite (wrap64_id (en - s)), (wrap64_id (en - s + 1)) by (unfold int64, two63 in *; lia). lia.
Qed.

Lemma go_make_ok : forall A cap n,
  0 <= n <= max_len -> n <= cap -> @go_make A cap n = Ok (repeat None (Z.to_nat n)).
Proof.
  intros A cap n Hn Hc. unfold go_make.
  replace ((n <? 0) || (max_len <? n)) with false by lia.
  replace (cap <? n) with false by lia. reflexivity.
Qed.

Lemma zseq_len : forall n s, length (zseq s n) = n.
Proof. induction n; cbn; intros; [reflexivity|]. rewrite IHn. reflexivity. Qed.

Definition blocks_within (limit : Z) (o : out chain_ans) : Prop :=
  match o with
  | Done CErr => True
  | Done (CBlocks hs) => 1 <= Z.of_nat (length hs) <= limit
  | _ => False
  end.

Lemma blocks_within_cases : forall limit o,
  blocks_within limit o ->
  o = Done CErr \/ exists hs, o = Done (CBlocks hs) /\ 1 <= Z.of_nat (length hs) <= limit.
Proof. intros limit [[|hs]|w|w|] H; try contradiction; eauto. Qed.

Lemma blocks_within_nat : forall n o,
  blocks_within (Z.of_nat n) o ->
  o = Done CErr \/ exists hs, o = Done (CBlocks hs) /\ (1 <= length hs <= n)%nat.
Proof.
  intros n o B. destruct (blocks_within_cases _ _ B) as [->|(hs & -> & L)]; [left; reflexivity|right].
  exists hs. split; [reflexivity|lia].
Qed.

(** ProcGetBlockDetailsMsg, any int64 request (the callers behind the queue: rpc,
    consensus, the p2p handlers): an error or 1..1000 blocks, never a panic,
    never an allocation beyond min(1000, End-Start+1) pointers *)
Lemma chain_get_spec : forall tip cap s e,
  int64 s -> int64 e -> Z.min max_per_time (e - s + 1) <= cap ->
  blocks_within max_per_time (chain_get tip cap s e).
Proof.
  intros tip cap s e Hs He Hcap. unfold chain_get.
  destruct (tip <? s) eqn:E1; [exact I|].
  destruct (e <? s) eqn:E2; [exact I|].
  destruct ((max_per_time <=? wrap64 (e - s)) || (wrap64 (e - s) <? 0)) eqn:E3; [exact I|].
  apply count_test in E3; [|assumption|assumption|lia]. unfold max_per_time in *.
  destruct (clamp_count tip s e Hs) as [-> Hn]; [lia|unfold two63; lia|].
  rewrite go_make_ok by (unfold max_len; lia).
  destruct (s <? 0); [exact I|]. cbn. rewrite zseq_len. lia.
Qed.

Definition sreq_int64 (r : rd (option (Z * Z))) : Prop :=
  match r with RdMsg (Some (s, e)) => int64 s /\ int64 e | _ => True end.
Definition sreq_new_int64 (r : rd (Z * Z)) : Prop :=
  match r with RdMsg (s, e) => int64 s /\ int64 e | _ => True end.

(** in front of ProcGetBlockDetailsMsg: 257 pointers are all a forwarded range can ask for *)
Lemma serve_range_real : forall tip cap old s e,
  257 <= cap -> int64 s -> int64 e ->
  serve_survives (serve_range (chain_get tip cap) old s e) = true
  /\ forall s' e', fst (serve_range (chain_get tip cap) old s e) = Some (s', e') -> 0 <= s' /\ span_ok s' e' = true.
Proof.
  intros tip cap old s e Hcap Hs He. split.
  - apply no_panic_survives, serve_range_no_panic. intros Er D.
    destruct (range_ok s e Hs He Er) as [_ Hsp]. unfold span_ok in Hsp.
    pose proof (chain_get_spec tip cap s e Hs He ltac:(lia)) as B. rewrite D in B. exact B.
  - intros s' e'. rewrite serve_range_fwd. destruct (range_bad s e) eqn:Er; [discriminate|].
    intros H; injection H as <- <-. apply range_ok; assumption.
Qed.

(** the request that used to end the process: start = -2^40, end = 2^63-1 *)
Definition req_wrap : rd (option (Z * Z)) := RdMsg (Some (- 1099511627776, two63 - 1)).

Lemma split_nonempty : forall sep s, split sep s <> [].
Proof.
  intros sep s. destruct s as [|c tl]; cbn; [discriminate|].
  destruct (split sep tl) as [|cur rest]; [discriminate|]. destruct (N.eqb c sep); discriminate.
Qed.

Lemma go_nth_in_range : forall A (l : list A) i w, (i < length l)%nat -> exists x, go_nth l i w = Done x.
Proof.
  intros A l i w H. unfold go_nth. destruct (nth_error l i) as [x|] eqn:E; [eauto|].
  apply nth_error_None in E. lia.
Qed.

Lemma parse_ip_total : forall a, exists ip, parse_ip a = Done ip.
Proof.
  intros a. unfold parse_ip. destruct (length (split SLASH a) <? 5)%nat eqn:E; [eauto|].
  apply Nat.ltb_ge in E.
  destruct (go_nth_in_range _ (split SLASH a) 4 W_SPLIT ltac:(lia)) as [p4 H4]. rewrite H4.
  destruct (snd (atoi p4)); [|eauto].
  apply go_nth_in_range. lia.
Qed.

Lemma set_external_total : forall e ext addr, exists r, set_external e ext addr = Done r.
Proof.
  intros e ext addr. unfold set_external. destruct (parse_ip_total addr) as [ip ->].
  destruct (pe_public e ip); eauto.
Qed.

Lemma version_msg_total : forall e ext m, no_panic (snd (version_msg e ext m)).
Proof.
  intros e ext m. unfold version_msg. destruct (negb (vm_version m =? pe_channel e)); [exact I|].
  destruct (parse_ip_total (vm_from m)) as [ip ->].
  destruct (pe_public e ip && negb (pe_maddr e (vm_from m))); [exact I|].
  destruct (set_external_total e ext (vm_recv m)) as [[ext' eff] ->]. exact I.
Qed.

Lemma ver_loop_total : forall vl cv i,
  (i + length vl <= length cv)%nat -> exists b, ver_loop vl cv i = Done b.
Proof.
  induction vl as [|l tl IH]; cbn [ver_loop length]; intros cv i H; [eauto|].
  destruct (go_nth_in_range _ cv i W_VERI ltac:(lia)) as [c ->].
  destruct (fst (atoi c) <? fst (atoi l)); [eauto|]. apply IH. lia.
Qed.

Lemma check_version_limit_total : forall lim ver, exists b, check_version_limit lim ver = Done b.
Proof.
  intros lim ver. unfold check_version_limit. destruct lim as [|c tl]; [eauto|].
  destruct (negb (length (split AT ver) =? 2)%nat) eqn:E; [eauto|].
  apply negb_false_iff, Nat.eqb_eq in E.
  destruct (go_nth_in_range _ (split AT ver) 1 W_VER1 ltac:(lia)) as [v1 ->].
  destruct (length (split DOT v1) <? length (split DOT (c :: tl)))%nat eqn:E2; [eauto|].
  apply Nat.ltb_ge in E2. apply ver_loop_total. lia.
Qed.
