(** C33 — property theorems only.
    [step c st p ev] is one event of the light-broadcast component in state
    [st] with mempool content [p]: [Alive st' p' effects] or [Crashed why]
    (the node process is gone).  [run] folds [step] over a history ([None] =
    crashed).  [under_recover ev]: the event is handled inside
    handleBroadcastReceive (deferred recover).  [mem_ok c ev]: the operating
    system can provide a slice with one element per short hash of the light
    block just received, [length (lt_sh lb) <= c_cap c] (addLtBlock sizes its
    allocations with Header.TxCount only after 0 < TxCount <= len(STxHashes)
    was tested; the hash list itself is already in memory, decoded).  It is a
    statement about the node's memory, not about a number the peer writes into
    a 60-byte message. *)
From Coq Require Import List ZArith NArith Bool Lia.
From C33 Require Import C33.Model C33.ProofsBase C33.ProofsMain C33.ProofsStep C33.ProofsThm.
From C33 Require Import C33.Streams C33.ProofsStreams C33.ProofsServe C33.Store C33.ProofsStore.
Import ListNotations.
Open Scope Z_scope.

(** no peer message handled under the recover ends the process: nil header,
    negative / zero / huge counts (TxCount = 2^40 included), counts that
    disagree with the hash list, groups of any length, undecodable or unknown
    peer messages are processed or dropped *)
Theorem C33_recovered_paths_total : forall c st p ev,
  under_recover ev = true -> mem_ok c ev = true ->
  exists st' p' e, step c st p ev = Alive st' p' e.
Proof.
  intros c st p ev U M. pose proof (step_spec c st p ev) as S.
  destruct (step c st p ev) as [st' p' e|w]; [eauto|].
  destruct S as [(now & -> & _)|(_ & M' & _)]; [discriminate U|congruence].
Qed.
Print Assumptions C33_recovered_paths_total.

(** the guard holds for the light block that used to abort the process
    (TxCount = 2^40, three short hashes); the block is dropped, only the
    duplicate filter remembers its header hash *)
Theorem C33_recovered_guard_example :
  mem_ok cfg0 (ERecvLt 0 1%N 2%N (mkLt (Some (mkHdr (-1) 5 1%N 1%N)) None [1; 2]%N)) = true
  /\ mem_ok cfg0 (ERecvLt 0 1%N 2%N lt_w) = true
  /\ mem_ok cfg0 ev_oom = true
  /\ step cfg0 init pool_w ev_oom = Alive (mkSt [1%N] [] [] 0) pool_w [].
Proof. split; [reflexivity|]. split; [reflexivity|]. exact oom_dropped. Qed.
Print Assumptions C33_recovered_guard_example.

(** no history of peer messages, pool changes and loop iterations ends the
    process - whatever groups the pool returns, with or without a validator
    (c_noval is any) *)
Theorem C33_no_panic_outside_recover : forall c p0 evs,
  forallb (mem_ok c) evs = true -> run c init p0 evs <> None.
Proof.
  intros c p0 evs HM H.
  destruct (crash_split c evs init p0 init_inv H) as (pre & ev & post & st & p & -> & _ & _ & M & _).
  rewrite forallb_app in HM. apply andb_true_iff in HM as [_ HM]. simpl in HM.
  rewrite M in HM. discriminate.
Qed.
Print Assumptions C33_no_panic_outside_recover.

(** the history that used to kill the pending loop (a 3-slot block whose last
    slot is later answered with a 2-member group) satisfies the guard; the
    group is not expanded and the block stays pending with that slot empty *)
Theorem C33_no_panic_example :
  forallb (mem_ok cfg0) hist_overrun = true /\
  match run cfg0 init pool_w hist_overrun with
  | Some (st, _) => map pd_txs (st_pend st) = [[Some 11; Some 1; None]%N]
  | None => False
  end.
Proof. vm_compute. auto. Qed.
Print Assumptions C33_no_panic_example.

(** with and without a validator the honest history (the block arrives before
    its last transactions, the pending loop completes it) hands the block over
    and the loop goes on *)
Theorem C33_validator_optional_example : forall c, c = cfg0 \/ c = cfg_noval ->
  match run c init [] [ERecvLt 0 1%N 2%N lt_w; ETick 500000000] with
  | Some (st, p) =>
      length (st_pend st) = 1%nat /\
      step c st p (EPool [(2%N, grp2)]) = Alive st [(2%N, grp2)] [] /\
      exists st', step c st [(2%N, grp2)] (ETick 1500000000)
                  = Alive st' [(2%N, grp2)]
                          [Post 2%N (mkBlk 5 1%N 0%N [Some 11; Some 16; Some 17]%N)]
                  /\ st_pend st' = []
  | None => False
  end.
Proof.
  intros c [->| ->]; vm_compute; repeat split; eexists; split; reflexivity.
Qed.
Print Assumptions C33_validator_optional_example.

(** the guard is exactly what is needed: every crash of every history is the
    out-of-memory abort at the arrival of a light block whose hash list is
    longer than any slice the operating system can provide *)
Theorem C33_crash_characterisation : forall c p0 evs,
  run c init p0 evs = None ->
  exists pre ev post st p,
    evs = pre ++ ev :: post /\ run c init p0 pre = Some (st, p) /\ oom_on_arrival c st p ev.
Proof. intros c p0 evs. apply crash_split, init_inv. Qed.
Print Assumptions C33_crash_characterisation.

(** in every reachable state one iteration of pendBlockLoop completes: the
    loop body has no reachable panic site (sTxHashes[i], Txs[index],
    Txs[index+j] are in range, the nil validator is not dereferenced) *)
Theorem C33_loop_never_panics : forall c p0 evs st p now,
  run c init p0 evs = Some (st, p) -> exists st' e, tick_raw c p now st = Ok (st', e).
Proof.
  intros c p0 evs st p now H. pose proof (run_inv c evs init p0 st p init_inv H) as I.
  pose proof (tick_spec c p now st) as T.
  destruct (tick_raw c p now st) as [[st' e]|w|]; [eauto|contradiction|contradiction].
Qed.
Print Assumptions C33_loop_never_panics.

(** addLtBlock does not panic at all, recovered or not, on any light block
    (malformed ones included) for which a slice as long as the hash list can
    be made; 2^45 is Go's own limit for such a slice *)
Theorem C33_light_block_never_panics : forall c p now from pub lb st,
  Z.of_nat (length (lt_sh lb)) <= c_cap c -> Z.of_nat (length (lt_sh lb)) <= max_len ->
  exists st' e, add_lt c p now from pub lb st = Ok (st', e).
Proof.
  intros c p now from pub lb st HC HM. pose proof (add_lt_spec c p now from pub lb st) as A.
  destruct (add_lt c p now from pub lb st) as [[st' e]|w|]; [eauto|lia|lia].
Qed.
Print Assumptions C33_light_block_never_panics.

Theorem C33_light_block_example :
  Z.of_nat (length (lt_sh lt_w)) <= c_cap cfg0 /\ Z.of_nat (length (lt_sh lt_w)) <= max_len
  /\ add_lt cfg0 [(2%N, grp2)] 0 1%N 2%N lt_w init
     = Ok (init, [Post 2%N (mkBlk 5 1%N 0%N [Some 11; Some 16; Some 17]%N)]).
Proof. vm_compute. repeat split; discriminate. Qed.
Print Assumptions C33_light_block_example.

(** downloadBlockFromPeerOld: whatever a peer answers to a block request - no
    stream, a reset, a short / wrong header, an oversized, truncated or
    undecodable frame, a reply without Message, with an empty item list, with
    several items, with a first item that carries nothing, a transaction, or a
    block of another height - the reply is accepted or dropped; there is no
    panic (the caller is a per-height goroutine without recover) *)
Theorem C33_download_reply_never_panics : forall h w,
  match from_peer h w with Panicked _ | Died => False | Done _ | Dropped _ => True end.
Proof. exact from_peer_no_panic. Qed.
Print Assumptions C33_download_reply_never_panics.

(** at the level of Go values the decoder is safe exactly when the first item
    is not a nil pointer; replies decoded from the wire never have one *)
Theorem C33_download_reply_go_level :
  (forall h r, first_item_present r = true ->
     match extract h r with Panicked _ | Died => False | Done _ | Dropped _ => True end)
  /\ (forall h tl, extract h (Some (None :: tl)) = Panicked W_NILITEM)
  /\ (forall m, first_item_present (option_map (map lift_item) m) = true).
Proof. split; [exact extract_guarded|split; [reflexivity|exact lift_present]]. Qed.
Print Assumptions C33_download_reply_go_level.

(** malformed replies are rejected: a reply is accepted only if its first item
    is a block of the requested height, and that block is what is handed on *)
Theorem C33_download_accepts_only_requested : forall h w b,
  from_peer h w = Done b -> bk_h b = h /\ exists tl, w = WMsg (Some (WIblock b :: tl)).
Proof. exact from_peer_accepts. Qed.
Print Assumptions C33_download_accepts_only_requested.

(** handleEventDownloadBlock: no per-height goroutine (no recover) and no
    re-download in checkTask panics, for every range, task list and script of
    peer replies; the model's fuel is never the reason for giving up *)
Theorem C33_download_job_survives : forall j,
  jr_dead (run_job j) = false /\ jr_aborted (run_job j) = false.
Proof. intros j. destruct (run_job_attempts j) as (rs & ack & asked & _ & ->). split; reflexivity. Qed.
Print Assumptions C33_download_job_survives.

Theorem C33_download_loop_total : forall h wires ts,
  match fst (download_block h wires ts) with Panicked _ | Died => False | Done _ | Dropped _ => True end
  /\ fst (download_block h wires ts) <> Dropped D_FUEL.
Proof.
  intros h wires ts. pose proof (download_block_spec h wires ts) as D.
  destruct (fst (download_block h wires ts)) as [[p b]|d|s|]; try contradiction; split; try exact I; congruence.
Qed.
Print Assumptions C33_download_loop_total.

(** every block the job hands to the blockchain module was sent by that peer,
    for that height, as the first item of one of its replies *)
Theorem C33_download_job_delivers_sent : forall j d,
  In d (jr_del (run_job j)) -> sent_by (j_script j) d.
Proof.
  intros j d. destruct (run_job_attempts j) as (rs & ack & asked & F & ->). apply attempts_sent, F.
Qed.
Print Assumptions C33_download_job_delivers_sent.

(** heights 5..6 from two peers: peer 0 answers height 5 with an empty item
    list and height 6 with a block of height 7, then (second request) with
    nothing; peer 1 answers 5 correctly and 6 only at the second request: 5 is
    delivered by peer 1 in phase one, 6 by peer 1 in phase two *)
Theorem C33_download_job_example :
  let j := mkJob 5 6 [mkTask 0 9; mkTask 1 9]
             [(0%N, 5, [WMsg (Some [])]); (0%N, 6, [WMsg (Some [WIblock (mkB 7 3)]); WMsg None]);
              (1%N, 5, [WMsg (Some [WIblock (mkB 5 1)])]);
              (1%N, 6, [WBadHdr; WMsg (Some [WIblock (mkB 6 2); WItx])])] in
  run_job j = mkJres 0 false false [(5, 1%N, 1%N); (6, 1%N, 2%N)]
                     [(5, [0%N; 1%N]); (6, [0%N; 1%N]); (6, [0%N; 1%N])].
Proof. vm_compute. reflexivity. Qed.
Print Assumptions C33_download_job_example.

(** serving side, whatever the blockchain module answers (as long as it answers):
    both stream handlers survive every request; the only panic is the field
    read through the nil Message of an old-protocol request (wrong header or
    empty message), which the stream wrapper's recover turns into a reset *)
Theorem C33_serve_handlers_total : forall chain,
  (forall s e, chain s e <> Died) ->
  (forall r, serve_survives (serve_old chain r) = true)
  /\ (forall r, serve_survives (serve_new chain r) = true)
  /\ (forall r w, snd (serve_old chain r) = Panicked w -> w = W_NILREQ /\ (r = RdZero \/ r = RdMsg None))
  /\ (forall r, match snd (serve_new chain r) with Panicked _ | Died => False | _ => True end).
Proof.
  intros chain Hc.
  assert (R : forall old s e, no_panic (snd (serve_range chain old s e)))
    by (intros old s e; apply serve_range_no_panic; intros _; apply Hc).
  split; [|split; [|split]].
  - intros [| |[[s e]|]]; [reflexivity|reflexivity| |reflexivity]. apply no_panic_survives, R.
  - intros [| |[s e]]; [reflexivity| |]; apply no_panic_survives, R.
  - intros [| |[[s e]|]] w H; cbn [serve_old snd] in H; [discriminate| | |]; try (injection H as <-; auto).
    specialize (R true s e). rewrite H in R. contradiction.
  - (* folded, so that comparing with [R] does not evaluate [serve_range chain false 0 0] *)
    intros r. change (no_panic (snd (serve_new chain r))). destruct r as [| |[s e]]; [exact I| |]; apply R.
Qed.
Print Assumptions C33_serve_handlers_total.

(** ... in front of the real blockchain module (ProcGetBlockDetailsMsg, blocks
    0..tip, memory for 257 pointers): every request with int64 fields, old or
    new protocol, is survived, and every range handed on starts at a
    non-negative height and spans at most 257 blocks (as integers).  Holds since
    both handlers reject Start < 0 before they take End-Start (finding 4,
    repaired: StartHeight = -2^40, EndHeight = 2^63-1 used to pass the wrapped
    test here and in the blockchain module and ended in a fatal allocation) *)
Theorem C33_serve_request : forall tip cap,
  int64 tip -> 257 <= cap ->
  (forall r, sreq_int64 r ->
     serve_survives (serve_old (chain_get tip cap) r) = true
     /\ forall s e, fst (serve_old (chain_get tip cap) r) = Some (s, e) -> 0 <= s /\ span_ok s e = true)
  /\ (forall r, sreq_new_int64 r ->
     serve_survives (serve_new (chain_get tip cap) r) = true
     /\ forall s e, fst (serve_new (chain_get tip cap) r) = Some (s, e) -> 0 <= s /\ span_ok s e = true).
Proof.
  intros tip cap _ Hcap. split.
  - intros [| |[[s e]|]] Hr; [split; [reflexivity|discriminate]..| |split; [reflexivity|discriminate]].
    destruct Hr as [Hs He]. apply serve_range_real; assumption.
  - intros [| |[s e]] Hr; [split; [reflexivity|discriminate]| |].
    + apply serve_range_real; try assumption; unfold int64, two63; lia.
    + destruct Hr as [Hs He]. apply serve_range_real; assumption.
Qed.
Print Assumptions C33_serve_request.

Theorem C33_serve_request_example :
  serve_old (chain_get 10 1000) (RdMsg (Some (3, 200))) = (Some (3, 200), Done [3; 4; 5; 6; 7; 8; 9; 10])
  /\ serve_new (chain_get 10 1000) (RdMsg (3, 200)) = (Some (3, 200), Done [3])
  /\ sreq_int64 req_wrap
  /\ serve_old (chain_get 10 2147483648) req_wrap = (None, Dropped D_RANGE)
  /\ serve_new (chain_get 10 2147483648) (RdMsg (- two63, 5)) = (None, Dropped D_RANGE).
Proof.
  split; [vm_compute; reflexivity|]. split; [vm_compute; reflexivity|].
  split; [cbn; unfold int64, two63; lia|]. split; vm_compute; reflexivity.
Qed.
Print Assumptions C33_serve_request_example.

(** the blockchain module's side of the same range (ProcGetBlockDetailsMsg is also
    reached by the rpc and consensus modules through the queue): for every int64
    request it answers with an error or with 1..1000 blocks - no panic, no
    allocation beyond MaxBlockCountPerTime pointers.  Holds since the count test
    also rejects a negative (= wrapped) End-Start *)
Theorem C33_chain_get_blocks_total : forall tip cap s e,
  int64 s -> int64 e -> int64 tip -> 1000 <= cap ->
  chain_get tip cap s e = Done CErr
  \/ exists hs, chain_get tip cap s e = Done (CBlocks hs) /\ (1 <= length hs <= 1000)%nat.
Proof.
  intros tip cap s e Hs He _ Hcap. apply (blocks_within_nat 1000).
  apply chain_get_spec; try assumption. unfold max_per_time. lia.
Qed.
Print Assumptions C33_chain_get_blocks_total.

Theorem C33_chain_get_blocks_example :
  chain_get 10 2147483648 (- 1099511627776) (two63 - 1) = Done CErr
  /\ chain_get 10 2147483648 (- 4611686018427387904) 4611686018427387904 = Done CErr
  /\ chain_get 10 2147483648 3 200 = Done (CBlocks [3; 4; 5; 6; 7; 8; 9; 10])
  /\ chain_get 2000 2147483648 0 999 = Done (CBlocks (zseq 0 1000))
  /\ chain_get 2000 2147483648 0 1000 = Done CErr.
Proof.
  (* the fourth by conversion, which leaves [zseq 0 1000] folded on both sides *)
  repeat apply conj; [vm_compute; reflexivity..|reflexivity|vm_compute; reflexivity].
Qed.
Print Assumptions C33_chain_get_blocks_example.

(** peer-info handlers: for every channel, every pair of library oracles
    (IsPublicIP, NewMultiaddr), every external address and every request
    (undecodable, wrong header, nil Message, any three field values) both
    version handlers reply or drop without a panic; checkVersionLimit, which
    runs on the Version string of a peer's answer in a goroutine without
    recover, returns for every limit and every string *)
Theorem C33_peer_handlers_total :
  (forall e ext r, match snd (handle_version e ext r) with Panicked _ | Died => False | _ => True end)
  /\ (forall e ext r, match snd (handle_version_old e ext r) with Panicked _ | Died => False | _ => True end)
  /\ (forall a, exists ip, parse_ip a = Done ip)
  /\ (forall lim ver, exists b, check_version_limit lim ver = Done b)
  /\ (forall lim r, match refresh_one lim r with Panicked _ | Died => False | _ => True end).
Proof.
  split; [intros e ext [| |m]; [exact I|apply version_msg_total..]|].
  split; [intros e ext [| |[m|]]; [exact I|apply version_msg_total..]|].
  split; [exact parse_ip_total|]. split; [exact check_version_limit_total|].
  intros lim [| |v]; cbn [refresh_one].
  - exact I.
  - destruct (check_version_limit_total lim []) as [b ->]. exact I.
  - destruct (check_version_limit_total lim v) as [b ->]. exact I.
Qed.
Print Assumptions C33_peer_handlers_total.

(** "/ip4/8.8.8.8/tcp/13802" read as ip 8.8.8.8; limit 6.8.9 lets x@6.8.10 pass,
    rejects x@6.8 (too few parts), x@6.8.8 and a string with two '@' *)
Theorem C33_peer_handlers_example :
  parse_ip [47;105;112;52;47;56;46;56;46;56;46;56;47;116;99;112;47;49;51;56;48;50]%N = Done [56;46;56;46;56;46;56]%N
  /\ parse_ip [47;105;112;52;47;56;46;56;46;56;46;56;47;116;99;112;47;120]%N = Done []
  /\ check_version_limit [54;46;56;46;57]%N [120;64;54;46;56;46;49;48]%N = Done true
  /\ check_version_limit [54;46;56;46;57]%N [120;64;54;46;56]%N = Done false
  /\ check_version_limit [54;46;56;46;57]%N [120;64;54;46;56;46;56]%N = Done false
  /\ check_version_limit [54;46;56;46;57]%N [120;64;64;54;46;56;46;57]%N = Done false.
Proof. vm_compute. repeat split. Qed.
Print Assumptions C33_peer_handlers_example.

(** p2pstore header requests (handleStreamGetHeaderOld needs no signature,
    handleStreamGetHeader a signature under the requester's own key; neither
    tests the range) in front of ProcGetHeadersMsg, and the same range sent by
    the rpc module: for every int64 range the blockchain module answers with an
    error or with 1..10000 headers - no panic, no allocation beyond
    MaxHeaderCountPerTime pointers; the handlers answer, drop or (nil Message,
    nil Headers, other oneof member: recovered by the stream wrapper) reset.
    Holds since the count test also rejects a negative (= wrapped) End-Start
    (finding 5, repaired: StartHeight = -2^40, EndHeight = 2^63-1 sized the
    reply slice with 2^40 pointers: fatal out of memory) *)
Theorem C33_header_request_total : forall tip cap,
  int64 tip -> 10000 <= cap ->
  (forall s e, int64 s -> int64 e ->
     chain_headers tip cap s e = Done CErr
     \/ exists hs, chain_headers tip cap s e = Done (CBlocks hs) /\ 1 <= Z.of_nat (length hs) <= 10000)
  /\ (forall r, sreq_int64 r ->
        match get_header_old (chain_headers tip cap) r with
        | Done (RHeaders hs) => 1 <= Z.of_nat (length hs) <= 10000
        | Dropped _ => True
        | Panicked w => w = W_NILHREQ /\ (r = RdZero \/ r = RdMsg None)
        | _ => False
        end)
  /\ (forall r, preq_typed r ->
        match get_header (chain_headers tip cap) r with
        | Done (RHeaders hs) => 1 <= Z.of_nat (length hs) <= 10000
        | Done RError | Dropped _ => True
        | Panicked w => w = W_NILHDRS \/ w = W_ASSERT
        | _ => False
        end).
Proof.
  intros tip cap _ Hcap. split; [|split].
  - intros s e Hs He. apply blocks_within_cases, chain_headers_spec; assumption.
  - intros r Hr. apply get_header_old_spec; assumption.
  - intros r Hr. apply get_header_spec; assumption.
Qed.
Print Assumptions C33_header_request_total.

(** GetBlockSequences (rpc GetBlockSequences through the queue): an error or
    1..1000 entries for every int64 range.  Holds since the count test also
    rejects a wrapped End-Start (finding 6, repaired: Start = -65536, End =
    2^63-1 was answered with 65536 nil entries and the whole table, Start =
    -2^40 appended until memory ran out) *)
Theorem C33_block_sequences_total : forall last cap s e,
  int64 s -> int64 e -> int64 last -> 1000 <= cap ->
  chain_seqs last cap s e = Done QErr
  \/ exists a b, chain_seqs last cap s e = Done (QSeqs a b) /\ 0 <= a /\ 0 <= b /\ 1 <= a + b <= 1000.
Proof.
  intros last cap s e Hs He _ Hcap. pose proof (chain_seqs_spec last cap s e Hs He Hcap) as S.
  destruct (chain_seqs last cap s e) as [[|a b]|d|w|]; try contradiction; [left; reflexivity|right; eauto].
Qed.
Print Assumptions C33_block_sequences_total.

(** all modelled p2pstore handlers (header old / new, chunk record, fetch chunk,
    shard peers, full node) and the two direct ranges, on every node (chain
    height, last sequence, chunk records, local store, routing table of any
    size; memory for 10000 pointers and for one peerDistance record per peer of
    the table plus a bucket) and for every request whose integer fields have
    their Go types: the process survives, the routing table's lock is never
    left held, the only panics are the three recovered reads, and every reply
    is within the limit of its kind (10000 headers, 1000 sequence entries, the
    chunk records / stored bodies / peers the node has).  Holds for the
    shard-peer handler since it answers Count < 0 with an error and cuts Count
    to the size of the table (finding 7, repaired) *)
Theorem C33_p2pstore_handlers_total : forall e q,
  env_ok e -> streq_typed q ->
  store_survives (store_step e q) = true
  /\ snd (store_step e q) = false
  /\ reply_ok e (fst (store_step e q)).
Proof.
  intros e q He Hq. destruct (store_step_ok e q He Hq) as [Hr Hl].
  split; [|split; assumption].
  unfold store_survives. destruct (fst (store_step e q)); try reflexivity. contradiction.
Qed.
Print Assumptions C33_p2pstore_handlers_total.

(** the node of the harness (height 3, records 0..2, twelve stored bodies, six
    peers) satisfies the hypotheses; served requests; the three witnesses are
    rejected; what kbucket's NearestPeers does with the counts the handler now
    keeps away from it: -21 panics with the read lock held, 2^31-1 asks for
    more than a 16 GiB process gets; the key format of the local store *)
Theorem C33_p2pstore_example :
  env_ok env_example
  /\ sreq_int64 hreq_wrap
  /\ store_step env_example (QHdrOld hreq_wrap) = (Dropped D_CHAIN, false)
  /\ store_step env_example (QHdr (RdMsg (mkPR true true (MReqBlocks (- 1099511627776) (two63 - 1))))) = (Done RError, false)
  /\ store_step env_example (QHdr (RdMsg (mkPR true true (MReqBlocks 2 9)))) = (Done (RHeaders [2; 3]), false)
  /\ store_step env_example (QHdr (RdMsg (mkPR false false (MReqBlocks 2 9)))) = (Panicked W_NILHDRS, false)
  /\ store_step env_example (QHdr (RdMsg (mkPR true false (MReqBlocks 2 9)))) = (Dropped D_SIGN, false)
  /\ store_step env_example (QHdr (RdMsg (mkPR true true MOther))) = (Panicked W_ASSERT, false)
  /\ store_step env_example (QDirSeq (- 5) 0) = (Done (RSeqs 5 1), false)
  /\ store_step env_example (QDirSeq (- 65536) (two63 - 1)) = (Done RError, false)
  /\ store_step env_example (QRec (RdMsg (mkPR true true (MRecords 0 2)))) = (Done (RRecords 3), false)
  /\ store_step env_example (QRec (RdMsg (mkPR true true (MRecords 0 (two63 - 1))))) = (Done RError, false)
  /\ store_step env_example (QChunk (RdMsg (mkPR true true (MChunk 10 12)))) = (Done (RBodies 3), false)
  /\ store_step env_example (QChunk (RdMsg (mkPR true true (MChunk 12 99)))) = (Done RError, false)
  /\ store_step env_example (QChunk (RdMsg (mkPR true true (MChunk (- two63) (two63 - 1))))) = (Done (RBodies 0), false)
  /\ store_step env_example (QShard (RdMsg (mkPR false false (MPeers false (- 21))))) = (Done RError, false)
  /\ store_step env_example (QShard (RdMsg (mkPR false false (MPeers true 2147483647)))) = (Done (RPeers 6), false)
  /\ store_step env_example (QShard (RdMsg (mkPR false false (MPeers false 3)))) = (Done (RPeers 3), false)
  /\ nearest_peers 6 429496729 (- 21) = (Panicked W_NEGCAP, true)
  /\ nearest_peers 6 429496729 (- 1) = (Panicked W_NEGLEN, false)
  /\ nearest_peers 6 429496729 2147483647 = (Died, false)
  /\ fmt12 (- 5) = [45; 48; 48; 48; 48; 48; 48; 48; 48; 48; 48; 53]%N
  /\ fmt12 1000000000000 = [49; 48; 48; 48; 48; 48; 48; 48; 48; 48; 48; 48; 48]%N.
Proof.
  split; [exact env_example_ok|]. split; [cbn; unfold int64, two63; lia|].
  vm_compute. repeat split.
Qed.
Print Assumptions C33_p2pstore_example.
