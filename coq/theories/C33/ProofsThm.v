(** C33 — every crash of a history is the out-of-memory abort at the arrival
    of a light block; the configurations, blocks and histories of the examples
    (the inputs that used to kill the node). *)
From Coq Require Import List ZArith NArith Bool Lia.
From C33 Require Import C33.Model C33.ProofsBase C33.ProofsMain C33.ProofsStep.
Import ListNotations.
Open Scope Z_scope.

Lemma run_app : forall c pre post st p,
  run c st p (pre ++ post) =
  match run c st p pre with Some (s, q) => run c s q post | None => None end.
Proof.
  induction pre as [|ev pre IH]; intros post st p; simpl; [reflexivity|].
  destruct (step c st p ev); [apply IH|reflexivity].
Qed.

(** the one way a step can still end the process: the operating system cannot
    provide a slice as long as the hash list of the light block just received *)
Definition oom_on_arrival (c : config) (st : state) (p : pool) (ev : event) : Prop :=
  under_recover ev = true /\ mem_ok c ev = false /\ step c st p ev = Crashed 0%N.

(** with the invariant the pending loop is not a crash site *)
Lemma crash_split : forall c evs st p,
  pend_inv st -> run c st p evs = None ->
  exists pre ev post st1 p1,
    evs = pre ++ ev :: post /\ run c st p pre = Some (st1, p1) /\ oom_on_arrival c st1 p1 ev.
Proof.
  induction evs as [|ev evs IH]; intros st p I H; simpl in H; [discriminate|].
  pose proof (step_spec c st p ev) as S.
  destruct (step c st p ev) as [s1 p1 e1|w] eqn:E.
  - destruct (IH s1 p1 (S I) H) as (pre & ev0 & post & s2 & p2 & -> & B & C).
    exists (ev :: pre), ev0, post, s2, p2. split; [reflexivity|].
    split; [simpl; rewrite E; exact B|exact C].
  - destruct S as [(now & _ & N)|(U & M & ->)]; [contradiction|].
    exists [], ev, evs, st, p. split; [reflexivity|]. split; [reflexivity|].
    split; [exact U|]. split; [exact M|exact E].
Qed.

Definition cfg0 : config := mkCfg 2147483648 3600000 [] false.
Definition cfg_noval : config := mkCfg 2147483648 3600000 [] true.
Definition plain (id : N) : ptx := mkPtx id 0 [].
Definition grp2 : ptx := mkPtx 18%N 2 [16; 17]%N.
Definition lt_w : ltblock := mkLt (Some (mkHdr 3 5 1%N 1%N)) (Some 11%N) [1; 2; 3]%N.

(** (former finding 1) 3 slots (miner + 2), slot 2 missing at arrival, later answered
    with a 2-member group: the group does not fit, the block stays pending *)
Definition hist_overrun : list event :=
  [ERecvLt 0 1%N 2%N lt_w; ETick 500000000;
   EPool [(2%N, plain 1%N); (3%N, grp2)]; ETick 1500000000].
Definition pool_w : pool := [(2%N, plain 1%N)].

(** (former finding 2) TxCount = 2^40 with three short hashes: dropped, only the
    duplicate filter remembers the header hash *)
Definition ev_oom : event := ERecvLt 0 1%N 2%N (mkLt (Some (mkHdr 1099511627776 5 1%N 1%N)) (Some 11%N) [1; 2; 3]%N).
Lemma oom_dropped :
  mem_ok cfg0 ev_oom = true /\ step cfg0 init pool_w ev_oom = Alive (mkSt [1%N] [] [] 0) pool_w [].
Proof. vm_compute. auto. Qed.

(** the same block as in [hist_overrun], the group arrives where it fits: the block is posted *)
Definition hist_fits : list event :=
  [ERecvLt 0 1%N 2%N lt_w; ETick 500000000;
   EPool [(2%N, grp2)]; ETick 1500000000].
