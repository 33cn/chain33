(** C33 — proofs about the p2pstore stream handlers and the blockchain
    functions behind them (Store.v) *)
From Coq Require Import List ZArith NArith Bool Lia.
From C33 Require Import C33.Model C33.Streams C33.Store C33.ProofsStreams C33.ProofsServe.
Import ListNotations.
Open Scope Z_scope.

Definition int32 (z : Z) : Prop := - 2147483648 <= z < 2147483648.

Lemma chain_headers_spec : forall tip cap s e,
  int64 s -> int64 e -> max_hdr_per_time <= cap ->
  blocks_within max_hdr_per_time (chain_headers tip cap s e).
Proof.
  intros tip cap s e Hs He Hcap. unfold chain_headers.
  destruct (e <? s) eqn:E2; [exact I|].
  destruct ((max_hdr_per_time <=? wrap64 (e - s)) || (wrap64 (e - s) <? 0)) eqn:E3; [exact I|].
  destruct (tip <? s) eqn:E1; [exact I|].
  apply count_test in E3; [|assumption|assumption|lia]. unfold max_hdr_per_time in *.
  destruct (clamp_count tip s e Hs) as [-> Hn]; [lia|unfold two63; lia|].
  replace (_ <? 1) with false by lia.
  rewrite go_make_ok by (unfold max_len; lia).
  destruct (s <? 0); [exact I|]. cbn. rewrite zseq_len. lia.
Qed.

Lemma chain_seqs_spec : forall last cap s e,
  int64 s -> int64 e -> max_per_time <= cap ->
  match chain_seqs last cap s e with
  | Done QErr => True
  | Done (QSeqs a b) => 0 <= a /\ 0 <= b /\ 1 <= a + b <= 1000
  | _ => False
  end.
Proof.
  intros last cap s e Hs He Hcap. unfold chain_seqs.
  destruct (last <? s) eqn:E1; [exact I|].
  destruct (e <? s) eqn:E2; [exact I|].
  destruct ((max_per_time <=? wrap64 (e - s)) || (wrap64 (e - s) <? 0)) eqn:E3; [exact I|].
  apply count_test in E3; [|assumption|assumption|lia]. unfold max_per_time in *.
  set (en := if last <? e then last else e).
  assert (Hen : s <= en <= e) by (unfold en; destruct (last <? e) eqn:E5; lia).
  replace (cap <? en - s + 1) with false by lia.
  destruct (s <? 0) eqn:E6; lia.
Qed.

Lemma chain_records_bound : forall nrec s e n,
  chain_records nrec s e = Some n -> 1 <= n <= nrec.
Proof.
  intros nrec s e n. unfold chain_records.
  destruct (e <? s) eqn:E1; [discriminate|].
  destruct ((0 <=? s) && (e <? nrec)) eqn:E2; [|discriminate].
  apply andb_prop in E2. destruct E2 as [Ea Eb]. intros H; injection H as <-. lia.
Qed.

Lemma load_chunk_bound : forall db s e n,
  load_chunk db s e = Some n -> 0 <= n <= Z.of_nat (length db).
Proof.
  intros db s e n. unfold load_chunk.
  set (k := length (filter (in_key_range s (wrap64 (e + 1))) db)).
  assert (Hk : (k <= length db)%nat) by apply filter_len_le.
  destruct (Z.of_nat k =? wrap64 (wrap64 (e - s) + 1)); [|discriminate].
  intros H; injection H as <-. lia.
Qed.

(** requests whose integer fields have their Go types *)
Definition mem_typed (m : pmember) : Prop :=
  match m with
  | MReqBlocks s e | MRecords s e | MChunk s e => int64 s /\ int64 e
  | MPeers _ c => int32 c
  | MNone | MOther => True
  end.

Definition preq_typed (r : rd p2preq) : Prop :=
  match r with RdMsg m => mem_typed (pr_mem m) | _ => True end.

Definition streq_typed (q : streq) : Prop :=
  match q with
  | QHdrOld r => sreq_int64 r
  | QHdr r | QRec r | QChunk r | QShard r => preq_typed r
  | QFull => True
  | QDirHdr s e | QDirSeq s e => int64 s /\ int64 e
  end.

Definition env_ok (e : stenv) : Prop :=
  int64 (se_tip e) /\ int64 (se_last e) /\ 0 <= se_npeers e
  /\ max_hdr_per_time <= se_cap e /\ se_npeers e + bucket_size <= se_capp e.

(** what the requester may get: never the end of the process; a reply within
    the limits of its kind; the panics are the three recovered reads *)
Definition reply_ok (e : stenv) (o : out reply) : Prop :=
  match o with
  | Died => False
  | Panicked w => w = W_NILHREQ \/ w = W_NILHDRS \/ w = W_ASSERT
  | Dropped _ => True
  | Done RError | Done RNode => True
  | Done (RHeaders hs) => 1 <= Z.of_nat (length hs) <= 10000
  | Done (RSeqs a b) => 0 <= a /\ 0 <= b /\ 1 <= a + b <= 1000
  | Done (RRecords n) => 1 <= n <= se_nrec e
  | Done (RBodies n) => 0 <= n <= Z.of_nat (length (se_db e))
  | Done (RPeers n) => 0 <= n <= se_npeers e
  end.

Lemma headers_reply_cases : forall tip cap s t on_err,
  max_hdr_per_time <= cap -> int64 s -> int64 t ->
  headers_reply (chain_headers tip cap s t) on_err = on_err
  \/ exists hs, headers_reply (chain_headers tip cap s t) on_err = Done (RHeaders hs)
                /\ 1 <= Z.of_nat (length hs) <= 10000.
Proof.
  intros tip cap s t on_err Hcap Hs Hts.
  destruct (blocks_within_cases _ _ (chain_headers_spec tip cap s t Hs Hts Hcap)) as [->|(hs & -> & L)]; cbn; eauto.
Qed.

(** HandlerWithAuthAndSign: a property of everything the wrapper itself
    answers and of [f] on typed members holds of the wrapped handler *)
Lemma with_auth_elim : forall (P : out reply -> Prop) f r,
  preq_typed r -> P (Dropped D_STREAM) -> P (Panicked W_NILHDRS) -> P (Dropped D_SIGN) ->
  (forall m, mem_typed m -> P (f m)) -> P (with_auth f r).
Proof.
  intros P f r Hr Hs Hh Hg Hf. unfold with_auth.
  destruct r as [| |[h sg m]]; cbn; [exact Hs|exact Hh|].
  unfold authenticate; cbn. destruct h; cbn; [|exact Hh]. destruct sg; cbn; [|exact Hg].
  apply Hf, Hr.
Qed.

Lemma get_header_old_spec : forall tip cap r,
  max_hdr_per_time <= cap -> sreq_int64 r ->
  match get_header_old (chain_headers tip cap) r with
  | Done (RHeaders hs) => 1 <= Z.of_nat (length hs) <= 10000
  | Dropped _ => True
  | Panicked w => w = W_NILHREQ /\ (r = RdZero \/ r = RdMsg None)
  | _ => False
  end.
Proof.
  intros tip cap [| |[[s t]|]] Hcap Hr; cbn [get_header_old]; try exact I; try (split; auto).
  destruct Hr as [Hs Hts].
  destruct (headers_reply_cases tip cap s t (Dropped D_CHAIN) Hcap Hs Hts) as [->|(hs & -> & Hl)]; [exact I|exact Hl].
Qed.

Lemma get_header_spec : forall tip cap r,
  max_hdr_per_time <= cap -> preq_typed r ->
  match get_header (chain_headers tip cap) r with
  | Done (RHeaders hs) => 1 <= Z.of_nat (length hs) <= 10000
  | Done RError | Dropped _ => True
  | Panicked w => w = W_NILHDRS \/ w = W_ASSERT
  | _ => False
  end.
Proof.
  intros tip cap r Hcap Hr. unfold get_header.
  apply with_auth_elim; auto.
  intros [|s t|s t|s t|k c|] Hm; auto. destruct Hm as [Hs Hts].
  destruct (headers_reply_cases tip cap s t (Done RError) Hcap Hs Hts) as [->|(hs & -> & Hl)]; [exact I|exact Hl].
Qed.

Lemma with_auth_ok : forall e f r,
  (forall m, mem_typed m -> reply_ok e (f m)) -> preq_typed r -> reply_ok e (with_auth f r).
Proof. intros e f r Hf Hr. apply with_auth_elim; cbn; auto. Qed.

Lemma headers_reply_ok : forall e s t on_err,
  env_ok e -> int64 s -> int64 t -> reply_ok e on_err ->
  reply_ok e (headers_reply (chain_headers (se_tip e) (se_cap e) s t) on_err).
Proof.
  intros e s t on_err (_ & _ & _ & Hcap & _) Hs Hts Herr.
  destruct (headers_reply_cases (se_tip e) _ s t on_err Hcap Hs Hts) as [->|(hs & -> & L)]; assumption.
Qed.

Lemma get_chunk_record_ok : forall e r,
  preq_typed r -> reply_ok e (get_chunk_record (se_nrec e) r).
Proof.
  intros e r Hr. unfold get_chunk_record. apply with_auth_ok; [|exact Hr].
  intros m Hm. destruct m as [|s t|s t|s t|k c|]; try (cbn; auto).
  destruct (chain_records (se_nrec e) s t) as [n|] eqn:E; [|exact I].
  cbn. eapply chain_records_bound; eassumption.
Qed.

Lemma fetch_chunk_ok : forall e r,
  preq_typed r -> reply_ok e (fetch_chunk (se_db e) r).
Proof.
  intros e r Hr. unfold fetch_chunk. apply with_auth_ok; [|exact Hr].
  intros m Hm. destruct m as [|s t|s t|s t|k c|]; try (cbn; auto).
  destruct (load_chunk (se_db e) s t) as [n|] eqn:E; [|exact I].
  cbn. eapply load_chunk_bound; eassumption.
Qed.

Lemma nearest_peers_ok : forall npeers capp count,
  0 <= count -> count + bucket_size <= capp ->
  nearest_peers npeers capp count = (Done (Z.min count npeers), false).
Proof.
  intros npeers capp count H0 Hc. unfold nearest_peers.
  replace (count + bucket_size <? 0) with false by (unfold bucket_size; lia).
  replace (capp <? count + bucket_size) with false by lia.
  replace (count <? 0) with false by lia. reflexivity.
Qed.

(** NearestPeers is only reached with a count between 1 and the size of the table *)
Lemma shard_peers_ok : forall e r,
  env_ok e -> preq_typed r ->
  reply_ok e (fst (shard_peers (se_npeers e) (se_capp e) r)) /\ snd (shard_peers (se_npeers e) (se_capp e) r) = false.
Proof.
  intros e r (_ & _ & Hn & _ & Hc) Hr. unfold shard_peers.
  destruct r as [| |[h sg [|s t|s t|s t|k c|]]]; cbn; auto.
  destruct (c <? 0) eqn:E1; [cbn; auto|].
  destruct (c =? 0) eqn:E2; [cbn; split; [lia|reflexivity]|].
  rewrite nearest_peers_ok by lia. cbn. split; [lia|reflexivity].
Qed.

Lemma store_step_ok : forall e q,
  env_ok e -> streq_typed q ->
  reply_ok e (fst (store_step e q)) /\ snd (store_step e q) = false.
Proof.
  intros e q He Hq. pose proof He as (_ & _ & _ & Hcap & _).
  destruct q as [r|r|r|r|r| |s t|s t]; cbn [store_step fst snd]; try (split; [|reflexivity]).
  - pose proof (get_header_old_spec (se_tip e) _ r Hcap Hq) as S.
    destruct (get_header_old _ r) as [[]|d|w|]; cbn; tauto.
  - pose proof (get_header_spec (se_tip e) _ r Hcap Hq) as S.
    destruct (get_header _ r) as [[]|d|w|]; cbn; tauto.
  - apply get_chunk_record_ok, Hq.
  - apply fetch_chunk_ok, Hq.
  - apply shard_peers_ok; assumption.
  - exact I.
  - destruct Hq as [Hs Hts]. apply headers_reply_ok; try assumption. exact I.
  - destruct Hq as [Hs Hts]. unfold max_hdr_per_time in Hcap.
    pose proof (chain_seqs_spec (se_last e) (se_cap e) s t Hs Hts ltac:(unfold max_per_time; lia)) as S.
    destruct (chain_seqs _ _ s t) as [[|a b]|d|w|]; try contradiction; [exact I|exact S].
Qed.

(** the ranges that used to pass the wrapped tests *)
Definition hreq_wrap : rd (option (Z * Z)) := RdMsg (Some (- 1099511627776, two63 - 1)).
Definition env_example : stenv :=
  mkSE 3 3 3 [0; 1; 2; 3; 4; 7; 10; 11; 12; 99; 100; 999999999999] 6 2147483648 429496729.

Lemma env_example_ok : env_ok env_example.
Proof. unfold env_ok, env_example, int64, two63, max_hdr_per_time, bucket_size; cbn. lia. Qed.
