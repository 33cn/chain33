(** C33 — buildPendBlock / buildPendList / addLtBlock: outcome lemmas and the
    invariant of the pending list. *)
From Coq Require Import List ZArith NArith Bool Lia.
From C33 Require Import C33.Model C33.ProofsBase.
Import ListNotations.
Open Scope Z_scope.

Definition nil_in_range (pd : pend) : Prop :=
  forall j, nth_error (pd_txs pd) j = Some None -> (j < length (pd_sh pd))%nat.

(** buildPendBlock panics only on a block with a nil slot beyond its hash list
    (sTxHashes[i]); a failed (not posted) build leaves no such slot *)
Lemma build_spec : forall p pd,
  match build p pd with
  | Ok (pd', b, _) => b = false -> nil_in_range pd'
  | Panic _ => ~ nil_in_range pd
  | Fatal => False
  end.
Proof.
  intros p pd. unfold build. destruct (pd_sh pd) as [|s0 shs'] eqn:Es; [intros H; discriminate H|].
  rewrite <- Es.
  pose proof (need_from_spec (pd_txs pd) 0 (pd_sh pd)) as N.
  destruct (need_from 0 (pd_txs pd) (pd_sh pd)) as [nd|w|]; [|exact (proj2 N)|exact N].
  destruct N as [A F].
  destruct (fill_res p nd (pd_txs pd) true F) as (t' & ok' & -> & _ & M).
  destruct ok'; [intros H; discriminate H|]. intros _ j Hj. apply A, M, Hj.
Qed.

Lemma scan_spec : forall p now timeout l,
  match scan p now timeout l with
  | Ok (keep, _, _) => Forall nil_in_range l -> Forall nil_in_range keep
  | Panic _ => ~ Forall nil_in_range l
  | Fatal => False
  end.
Proof.
  intros p now timeout l. induction l as [|pd l IH]; simpl; [intros _; constructor|].
  pose proof (build_spec p pd) as B.
  destruct (build p pd) as [[[pd' b] e]|w|]; [|intros F; exact (B (Forall_inv F))|contradiction].
  destruct (scan p now timeout l) as [[[k t] e']|w|]; [|intros F; exact (IH (Forall_inv_tail F))|contradiction].
  destruct b; [intros F; exact (IH (Forall_inv_tail F))|].
  destruct (timeout <=? _); intros F; [exact (IH (Forall_inv_tail F))|].
  constructor; [apply B; reflexivity|exact (IH (Forall_inv_tail F))].
Qed.

Lemma scan_not_fatal : forall p now timeout l, scan p now timeout l <> Fatal.
Proof.
  intros p now timeout l H. pose proof (scan_spec p now timeout l) as S. rewrite H in S. exact S.
Qed.

Definition pend_inv (st : state) : Prop := Forall nil_in_range (st_pend st).

Lemma tick_spec : forall c p now st,
  match tick_raw c p now st with
  | Ok (st', _) => pend_inv st -> pend_inv st'
  | Panic _ => ~ pend_inv st
  | Fatal => False
  end.
Proof.
  intros c p now st. unfold tick_raw. pose proof (scan_spec p now (c_timeout c) (st_pend st)) as S.
  destruct (scan p now (c_timeout c) (st_pend st)) as [[[k t] e]|w|]; exact S.
Qed.

Lemma req_scan_total : forall c st l, exists keep e, req_scan c st l = (keep, e).
Proof. intros. destruct (req_scan c st l); eauto. Qed.

(** addLtBlock: a count the hash list does not cover is dropped; otherwise the
    only failures are the two of make (the count sizes the slice); an accepted
    block is posted or appended to the pending list with every nil slot covered *)
Lemma add_lt_spec : forall c p now from pub lb st,
  match add_lt c p now from pub lb st with
  | Ok (st', _) =>
      st' = st \/ exists pd, nil_in_range pd
                             /\ st' = mkSt (st_filter st) (st_pend st ++ [pd]) (st_reqs st) (st_height st)
  | Panic _ => max_len < lt_txcount lb <= Z.of_nat (length (lt_sh lb))
  | Fatal => c_cap c < lt_txcount lb <= Z.of_nat (length (lt_sh lb))
  end.
Proof.
  intros c p now from pub lb st. unfold add_lt.
  destruct ((lt_txcount lb <=? 0) || (Z.of_nat (length (lt_sh lb)) <? lt_txcount lb)) eqn:E0; [left; reflexivity|].
  apply orb_false_iff in E0 as [E1 E2]. apply Z.leb_gt in E1. apply Z.ltb_ge in E2.
  unfold lt_txcount in *. destruct (lt_hdr lb) as [h|]; [|lia].
  unfold go_make.
  destruct ((h_txcount h <? 0) || (max_len <? h_txcount h)) eqn:E3; [lia|].
  destruct (c_cap c <? h_txcount h) eqn:E4; [lia|].
  destruct (set_nth_some _ (repeat (@None txid) (Z.to_nat (h_txcount h))) 0%nat (lt_miner lb)) as [txs1 E5].
  { rewrite repeat_length. lia. }
  rewrite E5. apply set_nth_length in E5. rewrite repeat_length in E5.
  match goal with |- context [build p ?pd] => pose proof (build_spec p pd) as B; destruct (build p pd) as [[[pd' b] e]|w|] end.
  - destruct b; [left; reflexivity|right]. exists pd'. split; [apply B|]; reflexivity.
  - exfalso. apply B. intros j Hj. simpl in *.
    assert (nth_error txs1 j <> None) as Hn by congruence. apply nth_error_Some in Hn. lia.
  - contradiction.
Qed.
