(** C33 — lemmas about the Go-semantics helpers and buildPendBlock's two loops. *)
From Coq Require Import List ZArith NArith Bool Lia.
From C33 Require Import C33.Model.
Import ListNotations.
Open Scope Z_scope.

Lemma set_nth_some : forall A (l : list A) i v,
  (i < length l)%nat -> exists l', set_nth l i v = Some l'.
Proof.
  induction l as [|x l IH]; intros i v H; simpl in *; [lia|].
  destruct i as [|i]; [eauto|].
  destruct (IH i v) as [l' E]; [lia|]. rewrite E. eauto.
Qed.

Lemma set_nth_none : forall A (l : list A) i v,
  (length l <= i)%nat -> set_nth l i v = None.
Proof.
  induction l as [|x l IH]; intros i v H; simpl in *; [destruct i; reflexivity|].
  destruct i as [|i]; [lia|]. rewrite IH by lia. reflexivity.
Qed.

Lemma set_nth_length : forall A (l l' : list A) i v,
  set_nth l i v = Some l' -> length l' = length l.
Proof.
  induction l as [|x l IH]; intros l' i v H; simpl in *; [destruct i; discriminate|].
  destruct i as [|i].
  - inversion H; reflexivity.
  - destruct (set_nth l i v) eqn:E; [|discriminate]. inversion H; subst. simpl.
    f_equal. eapply IH; eauto.
Qed.

Lemma set_nth_same : forall A (l l' : list A) i v,
  set_nth l i v = Some l' -> nth_error l' i = Some v.
Proof.
  induction l as [|x l IH]; intros l' i v H; simpl in *; [destruct i; discriminate|].
  destruct i as [|i].
  - inversion H; reflexivity.
  - destruct (set_nth l i v) eqn:E; [|discriminate]. inversion H; subst. simpl. eauto.
Qed.

Lemma set_nth_other : forall A (l l' : list A) i j v,
  set_nth l i v = Some l' -> i <> j -> nth_error l' j = nth_error l j.
Proof.
  induction l as [|x l IH]; intros l' i j v H N; simpl in *; [destruct i; discriminate|].
  destruct i as [|i].
  - inversion H; subst. destruct j; [congruence|reflexivity].
  - destruct (set_nth l i v) eqn:E; [|discriminate]. inversion H; subst.
    destruct j as [|j]; [reflexivity|]. simpl. eapply IH; eauto.
Qed.

Lemma set_nth_nil_mono : forall (l l' : list (option txid)) i m j,
  set_nth l i (Some m) = Some l' -> nth_error l' j = Some None -> nth_error l j = Some None.
Proof.
  intros l l' i m j H Hn.
  destruct (Nat.eq_dec i j) as [->|N].
  - rewrite (set_nth_same _ _ _ _ _ H) in Hn. discriminate.
  - rewrite (set_nth_other _ _ _ _ _ _ H N) in Hn. exact Hn.
Qed.

Definition nil_mono (txs' txs : list (option txid)) : Prop :=
  forall j, nth_error txs' j = Some None -> nth_error txs j = Some None.

Lemma put_members_spec : forall ms txs index,
  match put_members txs index ms with
  | Ok txs' => length txs' = length txs /\ nil_mono txs' txs
  | Panic w => w = W_GROUP /\ (length txs < index + length ms)%nat
  | Fatal => False
  end.
Proof.
  induction ms as [|m ms IH]; intros txs index; simpl.
  - split; [reflexivity|]. intros j Hj; exact Hj.
  - destruct (set_nth txs index (Some m)) as [t1|] eqn:E.
    + pose proof (set_nth_length _ _ _ _ _ E) as L1.
      specialize (IH t1 (S index)). destruct (put_members t1 (S index) ms) as [t2|w|]; [|lia|exact IH].
      destruct IH as [L2 M2]. split; [lia|].
      intros j Hj. eapply set_nth_nil_mono; eauto.
    + split; [reflexivity|].
      destruct (Nat.lt_ge_cases index (length txs)) as [Hlt|Hge]; [|lia].
      destruct (set_nth_some _ txs index (Some m) Hlt) as [l' E']. congruence.
Qed.

(** the first loop succeeds exactly when every nil slot has a short hash; the
    indices it returns lie inside the slice *)
Lemma need_from_spec : forall txs i shs,
  match need_from i txs shs with
  | Ok nd => (forall j, nth_error txs j = Some None -> (i + j < length shs)%nat)
             /\ Forall (fun ih => (fst ih < i + length txs)%nat) nd
  | Panic w => w = W_SHASH
               /\ ~ (forall j, nth_error txs j = Some None -> (i + j < length shs)%nat)
  | Fatal => False
  end.
Proof.
  induction txs as [|[t|] txs IH]; intros i shs; simpl.
  - split; [intros [|j]; discriminate|constructor].
  - specialize (IH (S i) shs). destruct (need_from (S i) txs shs) as [nd|w|]; [|split|exact IH].
    + destruct IH as [A F]. split.
      * intros [|j] Hj; [discriminate|]. specialize (A j Hj). lia.
      * eapply Forall_impl; [|exact F]. intros ih B. simpl in B. lia.
    + apply IH.
    + intros H. apply (proj2 IH). intros j Hj. specialize (H (S j) Hj). lia.
  - destruct (nth_error shs i) as [h|] eqn:En.
    2:{ split; [reflexivity|]. intros H. apply nth_error_None in En. specialize (H 0%nat eq_refl). lia. }
    assert (Hi : (i < length shs)%nat) by (apply nth_error_Some; congruence).
    specialize (IH (S i) shs). destruct (need_from (S i) txs shs) as [nd|w|]; [|split|exact IH].
    + destruct IH as [A F]. split.
      * intros [|j] Hj; [lia|]. specialize (A j Hj). lia.
      * constructor; [simpl; lia|]. eapply Forall_impl; [|exact F]. intros ih B. simpl in B. lia.
    + apply IH.
    + intros H. apply (proj2 IH). intros j Hj. specialize (H (S j) Hj). lia.
Qed.

Lemma need_from_panic : forall txs i shs w, need_from i txs shs = Panic w -> w = W_SHASH.
Proof.
  intros txs i shs w H. pose proof (need_from_spec txs i shs) as S. rewrite H in S. apply S.
Qed.

(** the second loop completes (same length, nil slots only shrink) provided its
    indices are valid: the bound test keeps every group inside the slice *)
Lemma fill_res : forall p nd txs ok,
  Forall (fun ih => (fst ih < length txs)%nat) nd ->
  exists txs' ok', fill p nd txs ok = Ok (txs', ok') /\ length txs' = length txs /\ nil_mono txs' txs.
Proof.
  induction nd as [|[index h] nd IH]; intros txs ok F; simpl.
  - exists txs, ok. split; [reflexivity|]. split; [reflexivity|]. intros j Hj; exact Hj.
  - inversion F as [|x l Hr F']; subst. simpl in Hr.
    destruct (nth_error txs index) as [[t|]|] eqn:En.
    + apply IH, F'.
    + destruct (pool_get h p) as [e|]; [|apply IH, F'].
      destruct (length txs <? index + length (members e))%nat eqn:Eb; [apply IH, F'|].
      apply Nat.ltb_ge in Eb.
      destruct (set_nth_some _ txs index (Some (px_id e)) Hr) as [t1 E1]. rewrite E1.
      pose proof (set_nth_length _ _ _ _ _ E1) as L1.
      pose proof (put_members_spec (members e) t1 index) as S.
      destruct (put_members t1 index (members e)) as [t2|w|]; [|lia|contradiction].
      destruct S as [L2 M2].
      destruct (IH t2 ok) as [t3 [ok' [E3 [L3 M3]]]].
      { rewrite L2, L1. exact F'. }
      exists t3, ok'. split; [exact E3|]. split; [lia|].
      intros j Hj. eapply set_nth_nil_mono; [exact E1|]. apply M2. apply M3. exact Hj.
    + apply nth_error_None in En. lia.
Qed.
