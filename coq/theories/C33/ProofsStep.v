(** C33 — one step and histories: where a step can end the process, and the
    invariant of the pending list along a history. *)
From Coq Require Import List ZArith NArith Bool Lia.
From C33 Require Import C33.Model C33.ProofsBase C33.ProofsMain.
Import ListNotations.
Open Scope Z_scope.

(** events handled inside handleBroadcastReceive (deferred recover) *)
Definition under_recover (ev : event) : bool :=
  match ev with
  | ERecvLt _ _ _ _ | EPeerReq _ _ _ | EPeerResp _ _ _ _ | EPeerOther => true
  | _ => false
  end.

(** the operating system can provide a slice with one element per short hash
    of the light block the node has just decoded (addLtBlock sizes its three
    allocations with TxCount only after TxCount <= len(STxHashes) was tested) *)
Definition mem_ok (c : config) (ev : event) : bool :=
  match ev with
  | ERecvLt _ _ _ lb => Z.of_nat (length (lt_sh lb)) <=? c_cap c
  | _ => true
  end.

(** what a step does to the invariant, and the two places where it can end the
    process: the pending loop (no recover), were the invariant to fail, and the
    fatal allocation in addLtBlock (no recover helps) *)
Lemma step_spec : forall c st p ev,
  match step c st p ev with
  | Alive st' _ _ => pend_inv st -> pend_inv st'
  | Crashed w => (exists now, ev = ETick now /\ ~ pend_inv st)
                 \/ (under_recover ev = true /\ mem_ok c ev = false /\ w = 0%N)
  end.
Proof.
  intros c st p ev. destruct ev; simpl; try (intros I; exact I).
  - unfold recv_lt_raw. destruct (mem_n (lt_hash lb) (st_filter st)); [intros I; exact I|].
    match goal with |- context [add_lt ?a ?b ?c0 ?d ?e ?f ?g] =>
      pose proof (add_lt_spec a b c0 d e f g) as A; destruct (add_lt a b c0 d e f g) as [[s e0]|w|] end.
    + intros I. destruct A as [->|(pd & R & ->)]; [exact I|].
      apply Forall_app. split; [exact I|]. constructor; [exact R|constructor].
    + intros I; exact I.
    + right. split; [reflexivity|]. split; [simpl; lia|reflexivity].
  - pose proof (tick_spec c p now st) as T.
    destruct (tick_raw c p now st) as [[st' e]|w|]; [exact T|left; eauto|contradiction].
  - destruct decodes; [|intros I; exact I].
    unfold add_req. destruct (height <=? 0); [intros I; exact I|].
    destruct (handle_req c st from height) as [[|] e0]; intros I; exact I.
  - destruct (decodes && hasmsg); intros I; exact I.
  - destruct (req_scan c st (st_reqs st)). intros I; exact I.
Qed.

Lemma run_inv : forall c evs st p st' p',
  pend_inv st -> run c st p evs = Some (st', p') -> pend_inv st'.
Proof.
  induction evs as [|ev evs IH]; intros st p st' p' I H; simpl in H.
  - injection H as <- _. exact I.
  - destruct (step c st p ev) as [s1 p1 e1|w] eqn:E; [|discriminate].
    pose proof (step_spec c st p ev) as S. rewrite E in S. exact (IH s1 p1 st' p' (S I) H).
Qed.

Lemma init_inv : pend_inv init.
Proof. constructor. Qed.
