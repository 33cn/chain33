(** C33 — proofs about the stream receive paths of Streams.v *)
From Coq Require Import List ZArith NArith Bool Lia.
From C33 Require Import C33.Model C33.Streams.
Import ListNotations.
Open Scope Z_scope.

Definition no_panic {A} (o : out A) : Prop :=
  match o with Panicked _ | Died => False | _ => True end.

Lemma is_panic_false : forall A (o : out A), is_panic o = false <-> no_panic o.
Proof. intros A [a|w|s|]; cbn; intuition discriminate. Qed.

Lemma no_panic_survives : forall A recovered (o : out A), no_panic o -> survives recovered o = true.
Proof. intros A recovered [a|w|s|]; cbn; intros H; try reflexivity; contradiction. Qed.

(** Go level: the first item, if there is one, is not a nil pointer *)
Definition first_item_present (r : reply) : bool :=
  match r with
  | Some (None :: _) => false
  | _ => true
  end.

Lemma extract_guarded : forall h r, first_item_present r = true -> no_panic (extract h r).
Proof.
  intros h [items|]; cbn; [|intros _; exact I].
  destruct items as [|[v|] tl]; cbn; intros Hg; try exact I; try discriminate.
  destruct v as [| | |[b|]]; cbn; try exact I.
  destruct (bk_h b =? h); exact I.
Qed.

Lemma lift_present : forall m, first_item_present (option_map (map lift_item) m) = true.
Proof. intros [[|w tl]|]; reflexivity. Qed.

Lemma from_peer_no_panic : forall h w, no_panic (from_peer h w).
Proof.
  intros h w. unfold from_peer. destruct w as [| | |m]; cbn; try exact I.
  apply extract_guarded, lift_present.
Qed.

Lemma from_peer_accepts : forall h w b,
  from_peer h w = Done b ->
  bk_h b = h /\ exists tl, w = WMsg (Some (WIblock b :: tl)).
Proof.
  intros h w b. unfold from_peer. destruct w as [| | |[items|]]; cbn; try discriminate.
  destruct items as [|[| |b'] tl]; cbn; try discriminate.
  destruct (bk_h b' =? h) eqn:E; [|discriminate].
  intros H; injection H as <-. split; [lia|]. exists tl. reflexivity.
Qed.

Lemma availb_in : forall h ts t, availb h ts = Some t -> In t ts.
Proof.
  induction ts as [|x tl IH]; cbn; intros t H; [discriminate|].
  destruct (t_adv x <? h); [right; auto|left; congruence].
Qed.

Lemma filter_len_le : forall A (f : A -> bool) l, (length (filter f l) <= length l)%nat.
Proof. induction l as [|x tl IH]; cbn; [lia|]. destruct (f x); cbn; lia. Qed.

Lemma without_shorter : forall t ts, In t ts -> (length (without t ts) < length ts)%nat.
Proof.
  intros t ts. unfold without. induction ts as [|x tl IH]; cbn; intros Hin; [contradiction|].
  destruct Hin as [->|Hin].
  - rewrite N.eqb_refl. cbn.
    pose proof (filter_len_le _ (fun x => negb (t_peer x =? t_peer t)%N) tl). lia.
  - specialize (IH Hin). destruct (negb (t_peer x =? t_peer t)%N); cbn; lia.
Qed.

(** what downloadBlock may return: the block a peer was accepted with, or a
    reason for giving up that is not the model's fuel *)
Definition dl_ok (h : Z) (wires : N -> wire) (o : out (N * blk)) : Prop :=
  match o with
  | Done (p, b) => from_peer h (wires p) = Done b
  | Dropped d => d <> D_FUEL
  | _ => False
  end.

Lemma dl_ok_no_panic : forall h wires o, dl_ok h wires o -> no_panic o.
Proof. intros h wires [[p b]|d|s|] H; try exact I; contradiction. Qed.

(** every failed request removes a task, so fuel above the number of tasks is never used up *)
Lemma dl_fuel_enough : forall fuel h wires ts retry asked,
  (length ts < fuel)%nat -> dl_ok h wires (fst (dl_loop fuel h wires ts retry asked)).
Proof.
  induction fuel as [|f IH]; intros h wires ts retry asked Hlen; [lia|].
  cbn [dl_loop]. destruct ts as [|t0 tl]; [discriminate|].
  destruct (50 <? retry + 1); [discriminate|].
  destruct (availb h (t0 :: tl)) as [t|] eqn:Ea; [|discriminate].
  pose proof (from_peer_no_panic h (wires (t_peer t))) as Hn.
  destruct (from_peer h (wires (t_peer t))) as [b|d|s|] eqn:Hb; [exact Hb| |contradiction|contradiction].
  apply IH. pose proof (without_shorter t (t0 :: tl) (availb_in _ _ _ Ea)). lia.
Qed.

Lemma download_block_spec : forall h wires ts, dl_ok h wires (fst (download_block h wires ts)).
Proof. intros. unfold download_block. apply dl_fuel_enough. lia. Qed.

(** a delivered block was sent for that height by that peer, as the first item of a reply *)
Definition sent_by (s : script) (d : delivery) : Prop :=
  match d with
  | (h, p, id) => exists n tl, nth n (script_get s p h) WErr = WMsg (Some (WIblock (mkB h id) :: tl))
  end.

Lemma accepted_sent : forall s h att p b,
  from_peer h (wire_at s h att p) = Done b -> sent_by s (h, p, bk_id b).
Proof.
  intros s h att p [bh bid] H. apply from_peer_accepts in H as [<- [tl Hw]].
  exists (att p), tl. exact Hw.
Qed.

(** what both phases record per height: the outcome of downloadBlock with the
    job's task list, under some numbering of the requests *)
Definition attempt_of (j : job) (x : Z * (out (N * blk) * list N)) : Prop :=
  exists att, snd x = download_block (fst x) (wire_at (j_script j) (fst x) att) (j_tasks j).

Lemma phase1_attempts : forall j hs, Forall (attempt_of j) (phase1 j hs).
Proof.
  induction hs as [|h tl IH]; cbn [phase1]; constructor; [|exact IH]. exists (fun _ => O). reflexivity.
Qed.

Lemma phase2_attempts : forall j failed, Forall (attempt_of j) (phase2 j failed).
Proof.
  induction failed as [|[h a] tl IH]; cbn [phase2]; [constructor|].
  assert (A : attempt_of j (h, download_block h (wire_at (j_script j) h (fun p => count_in p a)) (j_tasks j)))
    by (eexists; reflexivity).
  destruct (is_panic _); repeat constructor; assumption.
Qed.

Lemma attempts_no_panic : forall j rs,
  Forall (attempt_of j) rs -> existsb (fun x => is_panic (fst (snd x))) rs = false.
Proof.
  induction 1 as [|x rs [att A] F IH]; cbn [existsb]; [reflexivity|].
  rewrite IH, orb_false_r, A. eapply is_panic_false, dl_ok_no_panic, download_block_spec.
Qed.

Lemma attempts_sent : forall j rs d,
  Forall (attempt_of j) rs -> In d (deliveries rs) -> sent_by (j_script j) d.
Proof.
  induction 1 as [|[h [o al]] rs [att A] F IH]; cbn [deliveries flat_map fst snd]; [contradiction|].
  intros Hin. apply in_app_or in Hin as [Hin|Hin]; [|exact (IH Hin)].
  destruct o as [[p b]|w|s|]; try contradiction. destruct Hin as [<-|[]].
  cbn [fst snd] in A. pose proof (download_block_spec h (wire_at (j_script j) h att) (j_tasks j)) as D.
  rewrite <- A in D. exact (accepted_sent _ _ _ _ _ D).
Qed.

(** no phase panics, so the job runs through both, and all it delivers comes from their attempts *)
Lemma run_job_attempts : forall j,
  exists rs ack asked, Forall (attempt_of j) rs /\ run_job j = mkJres ack false false (deliveries rs) asked.
Proof.
  intros j. unfold run_job.
  destruct (j_end j <? j_start j); [exists []; eauto|].
  destruct (j_tasks j) as [|t tl] eqn:Et; [exists []; eauto|].
  rewrite (attempts_no_panic j) by apply phase1_attempts.
  rewrite (attempts_no_panic j) by apply phase2_attempts.
  eexists (_ ++ _), _, _. split; [apply Forall_app; split; [apply phase1_attempts|apply phase2_attempts]|].
  unfold deliveries. rewrite flat_map_app. reflexivity.
Qed.
