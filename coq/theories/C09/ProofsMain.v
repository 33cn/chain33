(** C09 — GetV correctness under Safe1, Trash safety under Safe2, DelMVCC restores;
    witnesses against the statements without the guards, and an example history
    on which guards and theorems are evaluated. *)
From Coq Require Import String List NArith ZArith Bool Lia.
From C33 Require Import Lib.Harness Lib.Bytes Lib.OMap C09.Model C09.Spec C09.ProofsKeys C09.ProofsExecKeys C09.ProofsDb.
Import ListNotations.
Open Scope Z_scope.

Lemma hit_is_write h k v e :
  hist_ok h -> Safe1 (k :: keys_of h) = true -> vok v ->
  In e (db_of h) -> getv_hit (gprefix k) (gkey k v) e = true ->
  exists n x, fst e = gkey k n /\ snd e = VRaw x /\ wrote h n k (Some x) /\ n <= v.
Proof.
  intros OK S1 Hv Hin Hit. destruct e as [key val].
  pose proof (getv_hit_data _ _ _ Hit) as D. simpl in D.
  destruct (db_of_data_form h key val OK Hin D) as [k' [n [x [-> [W ->]]]]].
  unfold getv_hit in Hit. simpl in Hit.
  apply andb_true_iff in Hit as [Hit _]. apply andb_true_iff in Hit as [Hp Hle].
  assert (k = k').
  { apply (safe1_range k k' n); [| |exact Hp]; apply (pairwise_In _ _ _ _ S1); simpl; eauto using wrote_key. }
  subst k'. exists n, x. repeat split; auto.
  apply bleb_le in Hle. rewrite gkey_cmp in Hle by eauto using wrote_vok.
  destruct (Z.compare_spec n v); try lia. congruence.
Qed.

(** GetV on any sorted sub-store of [db_of h] that still holds the entry the spec points at *)
Lemma getv_sub h k v (d' : db) :
  hist_ok h -> nonempty_values h = true -> Safe1 (k :: keys_of h) = true -> vok v ->
  sorted d' -> (forall e, In e d' -> In e (db_of h)) ->
  (forall w b, spec_find h k v = Some (w, Some b) -> get (gkey k w) d' = Some (VRaw b)) ->
  getv d' k v = spec_getv h k v.
Proof.
  intros OK NE S1 Hv Sd Sub Keep. unfold spec_getv, getv; cbv zeta.
  destruct (spec_find h k v) as [[w x]|] eqn:F.
  - specialize (Keep w). apply spec_find_some in F as [W [Hwv Max]].
    destruct (wrote_nonempty _ _ _ _ NE W) as [c [b ->]].
    specialize (Keep _ eq_refl). apply (get_In _ _ _ Sd) in Keep.
    assert (Vw : vok w) by eauto using wrote_vok.
    rewrite (last_filter_max (getv_hit (gprefix k) (gkey k v)) d' (gkey k w, VRaw (c :: b))); auto.
    + rewrite key_version_gkey by exact Vw. replace (v <? w) with false; [reflexivity|].
      symmetry. apply Z.ltb_ge. exact Hwv.
    + unfold getv_hit. cbn [fst snd val_empty negb].
      replace (is_prefix (gprefix k) (gkey k w)) with true
        by (symmetry; rewrite gkey_gprefix; apply is_prefix_app).
      rewrite andb_true_r. cbn [andb]. apply bleb_le. rewrite gkey_cmp by assumption.
      destruct (Z.compare_spec w v); try discriminate. lia.
    + intros e' Hin' Hit'. destruct (hit_is_write h k v e' OK S1 Hv (Sub _ Hin') Hit') as [n [x [E [_ [W' Hn]]]]].
      rewrite E. simpl. apply bleb_le. rewrite gkey_cmp by eauto using wrote_vok.
      specialize (Max _ _ W' Hn). destruct (Z.compare_spec n w); try discriminate. lia.
  - rewrite last_filter_none; [reflexivity|].
    intros e Hin. destruct (getv_hit (gprefix k) (gkey k v) e) eqn:Hit; [|reflexivity]. exfalso.
    destruct (hit_is_write h k v e OK S1 Hv (Sub _ Hin) Hit) as [n [x [_ [_ [W' Hn]]]]].
    eapply spec_find_none; eauto.
Qed.

Lemma getv_partial h k v :
  hist_ok h -> nonempty_values h = true -> Safe1 (k :: keys_of h) = true -> vok v ->
  getv (db_of h) k v = spec_getv h k v.
Proof.
  intros OK NE S1 Hv. apply getv_sub; auto using db_of_sorted.
  intros w b F. apply spec_find_some in F as [W _]. apply (db_of_get_wrote h k w _ OK W).
Qed.

Definition form_ok (K : list (list N)) (L : list (list N * val)) : Prop :=
  forall e, In e L -> exists k n, fst e = gkey k n /\ In k K /\ vok n.

Lemma trash_step_gkey cut k n v pk dels : vok n ->
  trash_step cut (gkey k n, v) (pk, dels) =
  if is_prefix pk (gkey k n) then (pk, if n <=? cut then gkey k n :: dels else dels)
  else (P_data ++ k, dels).
Proof.
  intro Vn. unfold trash_step. cbn [fst]. rewrite key_version_gkey, cut_version_gkey by exact Vn.
  destruct (is_prefix pk (gkey k n)); cbn [negb]; [destruct (n <=? cut)|]; reflexivity.
Qed.

(** [key] is a version <= cut of a key that has a newer version among L *)
Definition superseded (L : list (list N)) (cut : Z) (key : list N) : Prop :=
  exists k n n', key = gkey k n /\ vok n /\ vok n' /\ n <= cut /\ n < n' /\ In (gkey k n') L.

Lemma superseded_cons x L cut key : superseded L cut key -> superseded (x :: L) cut key.
Proof.
  intros [k [n [n' [A [B [C [D [E F]]]]]]]]. exists k, n, n'.
  exact (conj A (conj B (conj C (conj D (conj E (or_intror F)))))).
Qed.

(** the walk goes down the sorted entries: its current prefix comes from an entry
    already seen, hence from one that sorts above the entry at hand, and
    [safe2_prefix] says that entry is of the same key *)
Lemma trash_fold_inv K cut L :
  Safe2 K = true -> sorted L -> form_ok K L ->
  let st := fold_right (trash_step cut) (sentinel, []) L in
  (fst st = sentinel \/
   exists k' n', fst st = P_data ++ k' /\ In k' K /\ vok n' /\ In (gkey k' n') (keys L)) /\
  (forall key, In key (snd st) -> superseded (keys L) cut key).
Proof.
  intros S2. induction L as [|[key v] tl IH]; intros Srt Form; cbn [fold_right].
  - split; [left; reflexivity|intros key []].
  - destruct Srt as [LB Srt].
    destruct (Form _ (or_introl eq_refl)) as [k [n [Ek [Hk Vn]]]]. cbn [fst] in Ek, LB. subst key.
    destruct (IH Srt (fun x Hx => Form x (or_intror Hx))) as [Ipk Idel]. clear IH.
    destruct (fold_right (trash_step cut) (sentinel, []) tl) as [pk dels]. cbn [fst snd] in Ipk, Idel.
    assert (Weak : forall key, In key dels -> superseded (keys ((gkey k n, v) :: tl)) cut key).
    { intros key Hkey. apply (superseded_cons (gkey k n)), Idel, Hkey. }
    rewrite trash_step_gkey by exact Vn.
    destruct (is_prefix pk (gkey k n)) eqn:Pf; cbn [fst snd].
    + destruct Ipk as [->|[k' [n' [-> [Hk' [Vn' Hin']]]]]]; [rewrite sentinel_not_prefix in Pf; discriminate|].
      assert (Lt' : bcmp (gkey k n) (gkey k' n') = Lt).
      { apply in_map_iff in Hin' as [e' [<- He']]. exact (lb_all_In _ _ _ LB He'). }
      assert (k = k') by (apply (safe2_prefix k n k' n'); auto; apply (pairwise_In _ _ _ _ S2); auto).
      subst k'. split.
      * right. exists k, n'. cbn [keys map In]. auto.
      * destruct (n <=? cut) eqn:Ec; [|exact Weak]. intros key [<-|Hkey]; [|auto].
        rewrite gkey_cmp in Lt' by assumption. apply Z.compare_lt_iff in Lt'. apply Z.leb_le in Ec.
        exists k, n, n'. cbn [keys map In]. auto 10.
    + split; [|exact Weak]. right. exists k, n. cbn [keys map In fst]. auto.
Qed.

Lemma db_data_form_ok h : hist_ok h ->
  form_ok (keys_of h) (filter (fun e => is_prefix P_data (fst e)) (db_of h)).
Proof.
  intros OK [key v] Hin. apply filter_In in Hin as [Hin D]. simpl in D.
  destruct (db_of_data_form h key v OK Hin D) as [k [n [x [-> [W _]]]]].
  exists k, n. eauto using wrote_key, wrote_vok.
Qed.

Lemma trash_dels_sound h cut key :
  hist_ok h -> Safe2 (keys_of h) = true -> In key (trash_dels (db_of h) cut) ->
  exists k n n' x', key = gkey k n /\ vok n /\ n <= cut /\ n < n' /\ wrote h n' k (Some x').
Proof.
  intros OK S2 Hin. unfold trash_dels in Hin.
  pose proof (trash_fold_inv (keys_of h) cut _ S2
                (sorted_filter _ _ (db_of_sorted h)) (db_data_form_ok h OK)) as [_ Idel].
  destruct (Idel key Hin) as [k [n [n' [-> [Vn [Vn' [Hc [Hlt Hk]]]]]]]].
  unfold keys in Hk. apply in_map_iff in Hk as [[key' v'] [Ee He]]. simpl in Ee. subst key'.
  apply filter_In in He as [He D]. simpl in D.
  destruct (db_of_data_form h _ v' OK He D) as [k2 [n2 [x [E [W _]]]]].
  apply gkey_inj in E as [<- <-]; [|exact Vn'|eapply wrote_vok; eauto].
  exists k, n, n', x. auto.
Qed.

Lemma fold_del_sorted ks (d : db) : sorted d -> sorted (fold_left (fun m k => del k m) ks d).
Proof. revert d; induction ks as [|k ks IH]; intros d S; simpl; [exact S|]. apply IH, del_sorted, S. Qed.

Lemma fold_del_In ks (d : db) e : In e (fold_left (fun m k => del k m) ks d) -> In e d.
Proof.
  revert d; induction ks as [|k ks IH]; intros d H; simpl in *; [exact H|].
  eapply In_del. apply IH. exact H.
Qed.

Lemma get_fold_del key ks (d : db) : sorted d -> ~ In key ks ->
  get key (fold_left (fun m k => del k m) ks d) = get key d.
Proof.
  revert d; induction ks as [|k ks IH]; intros d S N; simpl; [reflexivity|].
  rewrite IH; [|apply del_sorted; exact S|intro; apply N; right; assumption].
  apply get_del_other. intro E. apply N. left. auto.
Qed.

Lemma trash_keeps h cut k n x :
  hist_ok h -> Safe2 (keys_of h) = true -> wrote h n k (Some x) ->
  (cut < n \/ newest h k = Some n) ->
  get (gkey k n) (trash (db_of h) cut) = Some (VRaw x).
Proof.
  intros OK S2 W Prot. unfold trash. rewrite get_fold_del; [| apply db_of_sorted |].
  - rewrite (db_of_get_wrote h k n _ OK W). reflexivity.
  - intro Hd. destruct (trash_dels_sound h cut _ OK S2 Hd) as [k1 [n1 [n' [x' [E [Vn1 [Hc [Hlt W']]]]]]]].
    apply gkey_inj in E as [<- <-]; [|eapply wrote_vok; eauto|exact Vn1].
    destruct Prot as [P|P]; [lia|]. pose proof (newest_max h k n P _ _ W'). lia.
Qed.

Lemma trash_partial h cut k v :
  hist_ok h -> nonempty_values h = true -> Safe2 (k :: keys_of h) = true -> vok v ->
  protected_read h cut k v = true ->
  getv (trash (db_of h) cut) k v = spec_getv h k v.
Proof.
  intros OK NE S2 Hv Prot. apply getv_sub; auto using Safe2_Safe1.
  - apply fold_del_sorted, db_of_sorted.
  - intro e. apply fold_del_In.
  - intros w b F. unfold protected_read in Prot. rewrite F in Prot. apply spec_find_some in F as [W _].
    apply trash_keeps; [exact OK|exact (pairwise_tail _ _ _ S2)|exact W|].
    apply orb_true_iff in Prot as [P|P]; [left; apply Z.ltb_lt, P|right].
    destruct (newest h k) as [nw|]; [|discriminate]. apply Z.eqb_eq in P. subst nw. reflexivity.
Qed.

Lemma last_write_some_in k ws : In k (map fst ws) -> last_write k ws <> None.
Proof. intros H E. apply (lookup_last_none k ws) in E. auto. Qed.

Lemma del_mvcc_inner_ok d ks h v strict l :
  del_mvcc_inner d ks h v strict = Ok l -> l = del_kvlist ks h v.
Proof.
  unfold del_mvcc_inner.
  destruct strict; [destruct (get_max_version d) as [mv|]; [destruct (mv =? v)|]|];
    try discriminate; (destruct (get_version d h) as [vd|]; [|discriminate]);
    destruct (vd =? v); try discriminate; destruct (v <? 0); try discriminate;
    intro H; inversion H; reflexivity.
Qed.

Lemma delmvcc_restores h hs ws strict kvs :
  hist_ok ((hs, ws) :: h) ->
  del_mvcc (db_of ((hs, ws) :: h)) hs (hlen h) strict = Ok kvs ->
  forall k v, getv (write_all kvs (db_of ((hs, ws) :: h))) k v = getv (db_of h) k v.
Proof.
  intros OK Hdel k v.
  (* the key list read back is the one just written *)
  assert (KL : get_del_kvlist (db_of ((hs, ws) :: h)) (hlen h) = Ok (map fst ws)).
  { unfold get_del_kvlist. cbn [db_of]. rewrite get_write_all by apply db_of_sorted.
    rewrite lookup_last_add_meta, beqb_refl by reflexivity. reflexivity. }
  unfold del_mvcc in Hdel. rewrite KL in Hdel. apply del_mvcc_inner_ok in Hdel. subst kvs.
  apply getv_ext; [apply write_all_sorted| |]; try apply db_of_sorted.
  intros key D. rewrite get_write_all by apply db_of_sorted. apply get_undo_top; [exact OK| |].
  - intros ->. rewrite kl_key_not_data in D. discriminate.
  - intros [-> | ->]; [rewrite hash_key_not_data in D|rewrite ver_key_not_data in D]; discriminate.
Qed.

(** * the unguarded statements are false *)
Definition C09_getv_full : Prop :=
  forall h k v, hist_ok h -> nonempty_values h = true -> vok v ->
    getv (db_of h) k v = spec_getv h k v.

Definition C09_trash_full : Prop :=
  forall h cut k v, hist_ok h -> nonempty_values h = true -> vok v ->
    protected_read h cut k v = true ->
    getv (trash (db_of h) cut) k v = spec_getv h k v.

Definition key_a : list N := Eval compute in bs "a"%string.
Definition key_a5 : list N := Eval compute in bs "a.00000000000000000005"%string.
Definition key_am : list N := Eval compute in bs "a-"%string.
Definition hash0 : list N := Eval compute in bs "H0000000"%string.
Definition hash1 : list N := Eval compute in bs "H0000001"%string.

(** versions 0: a := 01, a.00000000000000000005 := 02;  1: a := 03 *)
Definition witness1 : hist :=
  [(hash1, [(key_a, Some [3%N])]); (hash0, [(key_a, Some [1%N]); (key_a5, Some [2%N])])].

(** versions 0: a := 01, a- := 02;  1: a := 03 *)
Definition witness2 : hist :=
  [(hash1, [(key_a, Some [3%N])]); (hash0, [(key_a, Some [1%N]); (key_am, Some [2%N])])].

Lemma witness1_getv : getv (db_of witness1) key_a 6 = Ok [2%N] /\ spec_getv witness1 key_a 6 = Ok [3%N].
Proof. split; vm_compute; reflexivity. Qed.

Lemma witness2_trash :
  getv (trash (db_of witness2) 1) key_am 0 = Err ENotFound /\ spec_getv witness2 key_am 0 = Ok [2%N]
  /\ protected_read witness2 1 key_am 0 = true.
Proof. repeat apply conj; vm_compute; reflexivity. Qed.

Lemma refuted_getv : ~ C09_getv_full.
Proof.
  intro H. specialize (H witness1 key_a 6).
  destruct witness1_getv as [A B]. rewrite A, B in H.
  assert (Ok [2%N] = Ok [3%N] :> res (list N)); [|discriminate].
  apply H; [vm_compute; reflexivity | vm_compute; reflexivity | unfold vok, two63; lia].
Qed.

Lemma refuted_trash : ~ C09_trash_full.
Proof.
  intro H. specialize (H witness2 1 key_am 0).
  destruct witness2_trash as [A [B C]]. rewrite A, B in H.
  assert (Err ENotFound = Ok [2%N] :> res (list N)); [|discriminate].
  apply H; [vm_compute; reflexivity | vm_compute; reflexivity | unfold vok, two63; lia | exact C].
Qed.

(** * the hypotheses are satisfiable by non-trivial states *)
Definition ex_keys : list (list N) :=
  Eval compute in [bs "a"; bs "a0"; bs "a~x"; bs "ab"; bs "a/"; bs "b"; bs "b5~"; bs "b5"]%string.

Definition ex_hist : hist :=
  Eval compute in
  [ (bs "H0000003", [(bs "a", Some [7%N]); (bs "b5~", Some [8%N])]);
    (bs "H0000002", [(bs "a0", Some [5%N]); (bs "a", Some [6%N]); (bs "a0", Some [9%N])]);
    (bs "H0000001", [(bs "ab", Some [3%N]); (bs "a~x", Some [4%N]); (bs "b5", Some [10%N])]);
    (bs "H0000000", [(bs "a", Some [1%N]); (bs "a/", Some [2%N]); (bs "b", Some [11%N])]) ]%string.

Example guards_satisfiable :
  Safe2 ex_keys = true /\ Safe1 ex_keys = true /\
  hist_okb ex_hist = true /\ nonempty_values ex_hist = true /\
  forallb (fun k => Safe2 (k :: keys_of ex_hist)) ex_keys = true.
Proof. repeat apply conj; vm_compute; reflexivity. Qed.

(** the keys really are prefixes of one another *)
Example ex_keys_nested :
  is_prefix (nth 0 ex_keys []) (nth 1 ex_keys []) = true /\
  is_prefix (nth 0 ex_keys []) (nth 2 ex_keys []) = true /\
  is_prefix (nth 7 ex_keys []) (nth 6 ex_keys []) = true.
Proof. repeat apply conj; reflexivity. Qed.

(** GetV on the example: the second write of version 2 to "a0" wins, later versions do not leak *)
Example ex_getv :
  getv (db_of ex_hist) (nth 1 ex_keys []) 3 = Ok [9%N] /\
  getv (db_of ex_hist) (nth 0 ex_keys []) 1 = Ok [1%N] /\
  getv (db_of ex_hist) (nth 6 ex_keys []) 2 = Err ENotFound.
Proof. repeat apply conj; vm_compute; reflexivity. Qed.

(** Trash(2) on the example removes something, and a protected read exists *)
Example ex_trash :
  (length (trash (db_of ex_hist) 2) <? length (db_of ex_hist))%nat = true /\
  protected_read ex_hist 2 (nth 0 ex_keys []) 3 = true /\
  protected_read ex_hist 2 (nth 4 ex_keys []) 1 = true /\
  protected_read ex_hist 2 (nth 0 ex_keys []) 1 = false.
Proof. repeat apply conj; vm_compute; reflexivity. Qed.

Example ex_delmvcc :
  exists kvs, del_mvcc (db_of ex_hist) (fst (hd ([], []) ex_hist)) (hlen ex_hist - 1) true = Ok kvs.
Proof. eexists. vm_compute. reflexivity. Qed.
