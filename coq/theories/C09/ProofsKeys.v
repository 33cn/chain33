(** C09 — facts about the key encodings: pad, GetKey, getVersion, cutVersion, and
    what the guards Safe1 / Safe2 say about two data keys. *)
From Coq Require Import List NArith ZArith Bool Lia.
From C33 Require Import Lib.Harness Lib.Bytes Lib.OMap C09.Model C09.Spec.
Import ListNotations.
Open Scope Z_scope.

Definition vok (n : Z) : Prop := 0 <= n < two63.

Lemma app_eq_len {A} (a b x y : list A) :
  length x = length y -> a ++ x = b ++ y -> a = b /\ x = y.
Proof.
  intros L E.
  assert (La : length a = length b).
  { apply (f_equal (@length A)) in E. rewrite !app_length in E. lia. }
  revert b La E; induction a as [|c a IH]; intros [|d b] La E; simpl in *; try discriminate.
  - auto.
  - inversion E; subst. destruct (IH b) as [-> ->]; auto.
Qed.

Lemma bcmp_app_l p a b : bcmp (p ++ a) (p ++ b) = bcmp a b.
Proof. induction p as [|x p IH]; simpl; [reflexivity|]. rewrite N.compare_refl. exact IH. Qed.

Lemma bcmp_app_eqlen a b x y :
  length a = length b ->
  bcmp (a ++ x) (b ++ y) = match bcmp a b with Eq => bcmp x y | c => c end.
Proof.
  revert b; induction a as [|c a IH]; intros [|d b] L; simpl in *; try discriminate; [reflexivity|].
  destruct (c ?= d)%N; auto.
Qed.

Lemma bcmp_single a b : bcmp [a] [b] = (a ?= b)%N.
Proof. simpl. destruct (a ?= b)%N; reflexivity. Qed.

Lemma is_prefix_app_l p a b : is_prefix (p ++ a) (p ++ b) = is_prefix a b.
Proof. induction p as [|x p IH]; simpl; [reflexivity|]. rewrite N.eqb_refl. exact IH. Qed.

Lemma is_prefix_app_cases a b c :
  is_prefix a (b ++ c) = true ->
  is_prefix a b = true \/ exists s, a = b ++ s /\ s <> [] /\ is_prefix s c = true.
Proof.
  revert a; induction b as [|y b IH]; intros a H.
  - destruct a as [|x a]; [left; reflexivity|]. right. exists (x :: a). repeat split; auto. discriminate.
  - destruct a as [|x a]; [left; reflexivity|]. simpl in H.
    apply andb_true_iff in H as [H1 H2]. apply N.eqb_eq in H1. subst y.
    destruct (IH a H2) as [P|[s [E [Ns Ps]]]].
    + left. simpl. rewrite N.eqb_refl. exact P.
    + right. exists s. subst a. auto.
Qed.

Lemma ext_byte_app k c rest : ext_byte k (k ++ c :: rest) = Some c.
Proof. induction k as [|x k IH]; simpl; [reflexivity|]. rewrite N.eqb_refl. exact IH. Qed.

Definition digit (c : N) : Prop := (48 <= c <= 57)%N.

Lemma pad_nonneg n : 0 <= n -> pad n = pad_aux 20 n.
Proof. intro H. unfold pad. destruct (n <? 0) eqn:E; [apply Z.ltb_lt in E; lia|reflexivity]. Qed.

Lemma pad_aux_length i n : length (pad_aux i n) = i.
Proof. revert n; induction i as [|i IH]; intro n; cbn [pad_aux]; [reflexivity|]. rewrite app_length, IH. apply Nat.add_1_r. Qed.

Lemma digit_char n : digit (Z.to_N (48 + n mod 10)) /\ Z.of_N (Z.to_N (48 + n mod 10)) - 48 = n mod 10.
Proof. pose proof (Z.mod_pos_bound n 10 eq_refl). unfold digit. rewrite Z2N.id; lia. Qed.

Lemma pad_aux_digits i n : Forall digit (pad_aux i n).
Proof.
  revert n; induction i as [|i IH]; intro n; cbn [pad_aux]; [constructor|].
  apply Forall_app. split; [apply IH|]. constructor; [apply digit_char|constructor].
Qed.

Lemma div10_bound i n : 0 <= n < 10 ^ Z.of_nat (S i) -> 0 <= n / 10 < 10 ^ Z.of_nat i.
Proof.
  rewrite Nat2Z.inj_succ, Z.pow_succ_r by apply Nat2Z.is_nonneg. intros [H0 H1].
  split; [apply Z.div_pos; [exact H0|reflexivity]|apply Z.div_lt_upper_bound; [reflexivity|exact H1]].
Qed.

Lemma compare_base10 q r q' r' : 0 <= r < 10 -> 0 <= r' < 10 ->
  (10 * q + r ?= 10 * q' + r') = match q ?= q' with Eq => r ?= r' | c => c end.
Proof.
  intros Hr Hr'. destruct (Z.compare_spec q q') as [->|L|G].
  - apply Z.add_compare_mono_l.
  - apply Z.compare_lt_iff. lia.
  - apply Z.compare_gt_iff. lia.
Qed.

Lemma pad_aux_cmp i n m :
  0 <= n < 10 ^ Z.of_nat i -> 0 <= m < 10 ^ Z.of_nat i ->
  bcmp (pad_aux i n) (pad_aux i m) = (n ?= m).
Proof.
  revert n m; induction i as [|i IH]; intros n m Hn Hm.
  - simpl in *. replace m with n by lia. symmetry. apply Z.compare_refl.
  - cbn [pad_aux]. rewrite bcmp_app_eqlen by (rewrite !pad_aux_length; reflexivity).
    rewrite (IH _ _ (div10_bound _ _ Hn) (div10_bound _ _ Hm)).
    pose proof (Z.mod_pos_bound n 10 eq_refl) as Bn. pose proof (Z.mod_pos_bound m 10 eq_refl) as Bm.
    rewrite bcmp_single, Z2N.inj_compare, Z.add_compare_mono_l by lia.
    rewrite <- compare_base10, <- !Z.div_mod by (assumption || discriminate). reflexivity.
Qed.

Lemma parse_digits_pad_aux i n acc :
  0 <= n < 10 ^ Z.of_nat i ->
  forall tl, parse_digits (pad_aux i n ++ tl) acc = parse_digits tl (acc * 10 ^ Z.of_nat i + n).
Proof.
  revert n acc; induction i as [|i IH]; intros n acc Hn tl.
  - simpl in *. f_equal. lia.
  - cbn [pad_aux]. rewrite <- app_assoc, (IH _ _ (div10_bound _ _ Hn)). cbn [app parse_digits].
    destruct (digit_char n) as [[D1 D2] V]. apply N.leb_le in D1, D2. rewrite D1, D2, V. cbn [andb].
    f_equal. rewrite Nat2Z.inj_succ, Z.pow_succ_r by apply Nat2Z.is_nonneg.
    pose proof (Z.div_mod n 10 ltac:(discriminate)). lia.
Qed.

Lemma two63_lt : two63 < 10 ^ Z.of_nat 20.
Proof. reflexivity. Qed.

Lemma pad_length n : vok n -> length (pad n) = 20%nat.
Proof. intros [H _]. rewrite pad_nonneg by exact H. apply pad_aux_length. Qed.

Lemma pad_digits n : vok n -> Forall digit (pad n).
Proof. intros [H _]. rewrite pad_nonneg by exact H. apply pad_aux_digits. Qed.

Lemma pad_cmp n m : vok n -> vok m -> bcmp (pad n) (pad m) = (n ?= m).
Proof.
  intros Hn Hm. pose proof two63_lt. unfold vok in *.
  rewrite !pad_nonneg by lia. apply pad_aux_cmp; lia.
Qed.

Lemma pad_inj n m : vok n -> vok m -> pad n = pad m -> n = m.
Proof.
  intros Hn Hm E. apply Z.compare_eq. rewrite <- (pad_cmp n m Hn Hm), E. apply bcmp_refl.
Qed.

Lemma parse_int_pad n : vok n -> parse_int (pad n) = Some n.
Proof.
  intros Hn. pose proof (pad_digits n Hn) as D. pose proof (pad_length n Hn) as L.
  assert (P : parse_digits (pad n) 0 = Some n).
  { pose proof two63_lt. unfold vok in Hn. rewrite pad_nonneg by lia.
    rewrite <- (app_nil_r (pad_aux 20 n)), parse_digits_pad_aux by lia. simpl. f_equal. }
  destruct (pad n) as [|c tl] eqn:E; [discriminate|].
  inversion D as [|? ? Dc _]; subst. unfold digit in Dc.
  unfold parse_int.
  replace (c =? 45)%N with false by (symmetry; apply N.eqb_neq; lia).
  replace (c =? 43)%N with false by (symmetry; apply N.eqb_neq; lia).
  rewrite P. destruct Hn as [_ Hn]. apply Z.ltb_lt in Hn. rewrite Hn. reflexivity.
Qed.

Lemma digit_not_dot c : digit c -> (c =? dot)%N = false.
Proof. unfold digit, dot. intro H. apply N.eqb_neq. lia. Qed.

Lemma after_last_dot_nodot s : Forall digit s -> after_last_dot s = None.
Proof.
  induction 1 as [|c s Hc _ IH]; simpl; [reflexivity|]. rewrite IH, digit_not_dot by exact Hc. reflexivity.
Qed.

Lemma before_last_dot_nodot s : Forall digit s -> before_last_dot s = None.
Proof.
  induction 1 as [|c s Hc _ IH]; simpl; [reflexivity|]. rewrite IH, digit_not_dot by exact Hc. reflexivity.
Qed.

Lemma after_last_dot_app a s : Forall digit s -> after_last_dot (a ++ dot :: s) = Some s.
Proof.
  intro D. induction a as [|c a IH]; simpl.
  - rewrite after_last_dot_nodot by exact D. reflexivity.
  - rewrite IH. reflexivity.
Qed.

Lemma before_last_dot_app a s : Forall digit s -> before_last_dot (a ++ dot :: s) = Some a.
Proof.
  intro D. induction a as [|c a IH]; simpl.
  - rewrite before_last_dot_nodot by exact D. reflexivity.
  - rewrite IH. reflexivity.
Qed.

Lemma gkey_split k n : gkey k n = (P_data ++ k) ++ dot :: pad n.
Proof. unfold gkey. rewrite app_assoc. reflexivity. Qed.

Lemma gkey_gprefix k n : gkey k n = gprefix k ++ pad n.
Proof. unfold gkey, gprefix. rewrite <- !app_assoc. reflexivity. Qed.

Lemma key_version_gkey k n : vok n -> key_version (gkey k n) = Ok n.
Proof.
  intro H. unfold key_version. rewrite gkey_split, after_last_dot_app by (apply pad_digits; exact H).
  rewrite parse_int_pad by exact H. reflexivity.
Qed.

Lemma cut_version_gkey k n : vok n -> before_last_dot (gkey k n) = Some (P_data ++ k).
Proof. intro H. rewrite gkey_split. apply before_last_dot_app, pad_digits, H. Qed.

Lemma gkey_inj k n k' n' : vok n -> vok n' -> gkey k n = gkey k' n' -> k = k' /\ n = n'.
Proof.
  intros Hn Hn' E. unfold gkey in E. apply app_inv_head in E.
  apply app_eq_len in E; [|simpl; rewrite !pad_length by assumption; reflexivity].
  destruct E as [-> E]. inversion E as [E']. split; [reflexivity|]. apply pad_inj; assumption.
Qed.

Lemma gkey_inj_same k k' n : gkey k n = gkey k' n -> k = k'.
Proof. unfold gkey. intro E. apply app_inv_head in E. apply app_inv_tail in E. exact E. Qed.

Lemma gkey_cmp k n m : vok n -> vok m -> bcmp (gkey k n) (gkey k m) = (n ?= m).
Proof.
  intros Hn Hm. rewrite !gkey_gprefix, bcmp_app_l. apply pad_cmp; assumption.
Qed.

Lemma gkey_data k n : is_prefix P_data (gkey k n) = true.
Proof. unfold gkey. apply is_prefix_app. Qed.

Lemma gprefix_data k key : is_prefix (gprefix k) key = true -> is_prefix P_data key = true.
Proof. intro H. eapply is_prefix_trans; [|exact H]. unfold gprefix. apply is_prefix_app. Qed.

Lemma hash_key_not_data h : is_prefix P_data (hash_key h) = false.
Proof. reflexivity. Qed.
Lemma ver_key_not_data v : is_prefix P_data (ver_key v) = false.
Proof. reflexivity. Qed.
Lemma kl_key_not_data v : is_prefix P_data (kl_key v) = false.
Proof. reflexivity. Qed.
Lemma sentinel_not_prefix k n : is_prefix sentinel (gkey k n) = false.
Proof. reflexivity. Qed.

(** Safe1: inside the prefix range of k there are only entries of k *)
Lemma safe1_range k k' n' :
  safe1_pair k k' = true -> safe1_pair k' k = true ->
  is_prefix (gprefix k) (gkey k' n') = true -> k = k'.
Proof.
  unfold safe1_pair, gprefix, gkey. intros S1 S2 H.
  rewrite is_prefix_app_l in H.
  apply is_prefix_app_cases in H as [H|[s [E [Ns Ps]]]].
  - apply is_prefix_iff in H as [t ->]. rewrite <- app_assoc in S1. simpl in S1.
    rewrite ext_byte_app in S1. unfold dot in S1. simpl in S1. discriminate.
  - destruct s as [|c s]; [congruence|]. simpl in Ps.
    apply andb_true_iff in Ps as [Pc _]. apply N.eqb_eq in Pc. subst c.
    destruct s as [|x s].
    + apply app_inj_tail in E as [E _]. exact E.
    + exfalso. destruct (exists_last (l := x :: s)) as [s' [y Es]]; [discriminate|].
      rewrite Es in E. change (k ++ [dot] = k' ++ (dot :: s') ++ [y]) in E.
      rewrite app_assoc in E. apply app_inj_tail in E as [E _]. subst k.
      rewrite ext_byte_app in S2. unfold dot in S2. simpl in S2. discriminate.
Qed.

(** Safe2: an entry of another key k, met after the walk took its prefix from an
    entry of k' that sorts above it, never has that prefix *)
Lemma safe2_prefix k n k' n' :
  safe2_pair k k' = true -> safe2_pair k' k = true ->
  is_prefix (P_data ++ k') (gkey k n) = true ->
  bcmp (gkey k n) (gkey k' n') = Lt -> k = k'.
Proof.
  unfold safe2_pair, gkey. intros S1 S2 H L.
  rewrite is_prefix_app_l in H. rewrite bcmp_app_l in L.
  apply is_prefix_app_cases in H as [H|[s [E [Ns Ps]]]].
  - apply is_prefix_iff in H as [t ->]. destruct t as [|c t]; [rewrite app_nil_r; reflexivity|].
    exfalso. rewrite ext_byte_app in S2. apply N.ltb_lt in S2.
    rewrite <- app_assoc, bcmp_app_l in L. simpl in L.
    destruct (N.compare_spec c dot); try discriminate; lia.
  - exfalso. destruct s as [|c s]; [congruence|]. simpl in Ps.
    apply andb_true_iff in Ps as [Pc _]. apply N.eqb_eq in Pc. subst c k'.
    rewrite ext_byte_app in S1. apply N.ltb_lt in S1. lia.
Qed.

Lemma pairwise_iff p ks :
  pairwise p ks = true <-> forall k k', In k ks -> In k' ks -> p k k' = true.
Proof.
  unfold pairwise. rewrite forallb_forall. split.
  - intros H k k' Hk Hk'. specialize (H k Hk). rewrite forallb_forall in H. auto.
  - intros H k Hk. apply forallb_forall. auto.
Qed.

Lemma pairwise_In p ks k k' : pairwise p ks = true -> In k ks -> In k' ks -> p k k' = true.
Proof. intro H. apply pairwise_iff, H. Qed.

Lemma pairwise_tail p k ks : pairwise p (k :: ks) = true -> pairwise p ks = true.
Proof. rewrite !pairwise_iff. intros H a b Ha Hb. apply H; right; assumption. Qed.

Lemma safe2_safe1_pair k k' : safe2_pair k k' = true -> safe1_pair k k' = true.
Proof.
  unfold safe2_pair, safe1_pair. destruct (ext_byte k k') as [c|]; [|auto].
  intro H. apply N.ltb_lt in H. apply negb_true_iff, N.eqb_neq. lia.
Qed.

Lemma Safe2_Safe1 ks : Safe2 ks = true -> Safe1 ks = true.
Proof.
  unfold Safe2, Safe1. rewrite !pairwise_iff. intros H a b Ha Hb. apply safe2_safe1_pair, H; assumption.
Qed.
