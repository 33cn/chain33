(** C09 — what the store contains after a history: the data entries, the three
    meta entries of every version, and what DelMVCC's list undoes; the spec's
    search. *)
From Coq Require Import List NArith ZArith Bool Lia.
From C33 Require Import Lib.Harness Lib.Bytes Lib.OMap C09.Model C09.Spec C09.ModelExec C09.SpecExec
     C09.ProofsKeys C09.ProofsExecKeys.
Import ListNotations.
Open Scope Z_scope.

Lemma last_filter_max {V} (f : list N * V -> bool) (m : omap V) e :
  sorted m -> In e m -> f e = true ->
  (forall e', In e' m -> f e' = true -> bleb (fst e') (fst e) = true) ->
  last (filter f m) = Some e.
Proof.
  intros S Hin Hf Hmax.
  assert (Sf : sorted (filter f m)) by (apply sorted_filter; exact S).
  assert (Hin' : In e (filter f m)) by (apply filter_In; auto).
  destruct (last (filter f m)) as [e1|] eqn:L.
  - pose proof (last_In _ _ L) as H1. apply filter_In in H1 as [H1 F1].
    pose proof (last_greatest _ _ Sf L e Hin') as G.
    pose proof (Hmax e1 H1 F1) as G'.
    pose proof (bleb_antisym _ _ G G') as E.
    destruct e as [k v], e1 as [k1 v1]. simpl in E. subst k1.
    apply (get_In k v m S) in Hin. apply (get_In k v1 m S) in H1. congruence.
  - apply last_None in L. rewrite L in Hin'. destruct Hin'.
Qed.

Lemma last_filter_none {V} (f : list N * V -> bool) (m : omap V) :
  (forall e, In e m -> f e = false) -> last (filter f m) = None.
Proof.
  intro H. apply last_None. destruct (filter f m) as [|e tl] eqn:E; [reflexivity|].
  assert (Hin : In e (filter f m)) by (rewrite E; left; reflexivity).
  apply filter_In in Hin as [Hin Hf]. rewrite (H e Hin) in Hf. discriminate.
Qed.

(** association lists in which the last entry for a key decides: a kv list
    written to the store; the writes of one version ([last_write]) and the
    StateDB cache ([cache_get]) are this function at other value types, up
    to conversion *)
Section LookupLast.
Context {V : Type}.
Implicit Type kvs : list (list N * V).

Fixpoint lookup_last (key : list N) kvs : option V :=
  match kvs with
  | [] => None
  | kv :: tl =>
      match lookup_last key tl with
      | Some x => Some x
      | None => if beqb key (fst kv) then Some (snd kv) else None
      end
  end.

Lemma lookup_last_app key a b :
  lookup_last key (a ++ b) = match lookup_last key b with Some x => Some x | None => lookup_last key a end.
Proof.
  induction a as [|kv a IH]; simpl.
  - destruct (lookup_last key b); reflexivity.
  - rewrite IH. destruct (lookup_last key b); reflexivity.
Qed.

Lemma lookup_last_In key kvs x : lookup_last key kvs = Some x -> In (key, x) kvs.
Proof.
  induction kvs as [|kv kvs IH]; simpl; [discriminate|].
  destruct (lookup_last key kvs) as [y|].
  - intro H. right. apply IH. exact H.
  - destruct (beqb key (fst kv)) eqn:E; [|discriminate]. apply beqb_eq in E.
    intro H. inversion H; subst. left. destruct kv; reflexivity.
Qed.

Lemma lookup_last_none key kvs : lookup_last key kvs = None <-> ~ In key (map fst kvs).
Proof.
  induction kvs as [|kv kvs IH]; simpl; [tauto|].
  destruct (lookup_last key kvs).
  - split; [discriminate|]. intro H. apply IH. tauto.
  - destruct (beqb key (fst kv)) eqn:E; [apply beqb_eq in E|apply beqb_neq in E].
    + split; [discriminate|]. intro H. exfalso. apply H. left. auto.
    + split; [|reflexivity]. intros _ [H|H]; [congruence|]. apply (proj1 IH eq_refl), H.
Qed.
End LookupLast.

Lemma cache_get_last_write k ws : cache_get k ws = last_write k ws.
Proof. reflexivity. Qed.

Lemma last_write_In k ws x : last_write k ws = Some x -> In (k, x) ws.
Proof. apply lookup_last_In. Qed.

Lemma write_kv_sorted d kv : sorted d -> sorted (write_kv d kv).
Proof. intro S. unfold write_kv. destruct (snd kv); [apply put_sorted|apply del_sorted]; exact S. Qed.

Lemma write_all_sorted kvs d : sorted d -> sorted (write_all kvs d).
Proof.
  revert d; induction kvs as [|kv kvs IH]; intros d S; simpl; [exact S|].
  apply IH, write_kv_sorted, S.
Qed.

Lemma get_write_kv key d kv : sorted d ->
  get key (write_kv d kv) = if beqb key (fst kv) then snd kv else get key d.
Proof.
  intro S. unfold write_kv. destruct (snd kv) as [v|]; [apply get_put|apply get_del; exact S].
Qed.

Lemma get_write_all key kvs d : sorted d ->
  get key (write_all kvs d) =
  match lookup_last key kvs with Some x => x | None => get key d end.
Proof.
  revert d; induction kvs as [|kv kvs IH]; intros d S; simpl; [reflexivity|].
  rewrite IH by (apply write_kv_sorted; exact S).
  destruct (lookup_last key kvs); [reflexivity|]. rewrite get_write_kv by exact S.
  destruct (beqb key (fst kv)); reflexivity.
Qed.

Lemma lookup_last_data k n ws :
  lookup_last (gkey k n) (data_kvs ws n) = option_map (option_map VRaw) (last_write k ws).
Proof.
  induction ws as [|w ws IH]; simpl; [reflexivity|].
  rewrite IH. destruct (last_write k ws); simpl; [reflexivity|].
  destruct (beqb k (fst w)) eqn:E.
  - apply beqb_eq in E. subst. rewrite beqb_refl. reflexivity.
  - replace (beqb (gkey k n) (gkey (fst w) n)) with false; [reflexivity|].
    symmetry. apply beqb_neq. intro G. apply gkey_inj_same in G. apply beqb_neq in E. auto.
Qed.

Lemma data_kvs_keys ws n : map fst (data_kvs ws n) = map (fun k => gkey k n) (map fst ws).
Proof. unfold data_kvs. rewrite !map_map. reflexivity. Qed.

Lemma lookup_last_data_form key n ws x :
  lookup_last key (data_kvs ws n) = Some x -> exists k, key = gkey k n /\ In k (map fst ws).
Proof.
  intro H. apply lookup_last_In, (in_map fst) in H. rewrite data_kvs_keys in H.
  apply in_map_iff in H as [k [E I]]. eauto.
Qed.

Lemma lookup_last_data_none key ws n :
  is_prefix P_data key = false -> lookup_last key (data_kvs ws n) = None.
Proof.
  intro H. apply lookup_last_none. rewrite data_kvs_keys. intro I.
  apply in_map_iff in I as [k [<- _]]. rewrite gkey_data in H. discriminate.
Qed.

Lemma not_data_neq key key' : is_prefix P_data key = true -> is_prefix P_data key' = false -> beqb key key' = false.
Proof. intros H1 H2. apply beqb_neq. intro E. subst. congruence. Qed.

Lemma lookup_last_add key ws h n : is_prefix P_data key = true ->
  lookup_last key (add_kvlist ws h n) = lookup_last key (data_kvs ws n).
Proof.
  intro D. unfold add_kvlist, kvw. rewrite !lookup_last_app. simpl.
  rewrite (not_data_neq key (kl_key n) D (kl_key_not_data n)).
  rewrite (not_data_neq key (ver_key n) D (ver_key_not_data n)).
  rewrite (not_data_neq key (hash_key h) D (hash_key_not_data h)).
  destruct (lookup_last key (data_kvs ws n)); reflexivity.
Qed.

Lemma lookup_last_add_meta key ws hs n : is_prefix P_data key = false ->
  lookup_last key (add_kvlist ws hs n) =
    if beqb key (kl_key n) then Some (Some (VKeys (map fst ws)))
    else if beqb key (ver_key n) then Some (Some (VRaw hs))
    else if beqb key (hash_key hs) then Some (Some (VVer n)) else None.
Proof.
  intro D. unfold add_kvlist, kvw. rewrite !lookup_last_app.
  rewrite (lookup_last_data_none key ws n D). simpl.
  destruct (beqb key (kl_key n)); [reflexivity|].
  destruct (beqb key (ver_key n)); [reflexivity|].
  destruct (beqb key (hash_key hs)); reflexivity.
Qed.

Lemma add_keys ws hs n :
  map fst (add_kvlist ws hs n) = map fst (del_kvlist (map fst ws) hs n) ++ [kl_key n].
Proof.
  unfold add_kvlist, del_kvlist, data_kvs. cbn [app map fst]. rewrite map_app, !map_map. reflexivity.
Qed.

Lemma del_kvlist_In key x ks hs n : In (key, x) (del_kvlist ks hs n) ->
  x = None /\ (key = hash_key hs \/ key = ver_key n \/ exists k, key = gkey k n).
Proof.
  intros [E|[E|H]]; [inversion E; auto|inversion E; auto|].
  apply in_map_iff in H as [k [E _]]. inversion E. eauto.
Qed.

Lemma add_keys_mvcc key ws hs n : In key (map fst (add_kvlist ws hs n)) -> is_mvcc_key key = true.
Proof.
  unfold add_kvlist. rewrite !map_app, data_kvs_keys. simpl.
  intros [<-|[<-|H]]; [apply hash_key_mvcc|apply ver_key_mvcc|].
  apply in_app_or in H as [H|[<-|[]]]; [|apply kl_key_mvcc]. apply in_map_iff in H as [k [<- _]]. apply gkey_mvcc.
Qed.

Lemma lookup_last_flag_add ws hs n : lookup_last flag_key (add_kvlist ws hs n) = None.
Proof. apply lookup_last_none. intro H. apply add_keys_mvcc, mvcc_not_flag in H. auto. Qed.

Lemma lookup_last_flag_del (ws : list write) hs n :
  lookup_last flag_key (del_kvlist (map fst ws) hs n) = None.
Proof.
  apply lookup_last_none. intro H. apply (mvcc_not_flag flag_key); [|reflexivity].
  apply (add_keys_mvcc _ ws hs n). rewrite add_keys. apply in_or_app. left. exact H.
Qed.

(** [wrote h n k x]: version n of h has x as its last write to k *)
Fixpoint wrote (h : hist) (n : Z) (k : list N) (x : option (list N)) : Prop :=
  match h with
  | [] => False
  | (_, ws) :: older => (n = hlen older /\ last_write k ws = Some x) \/ wrote older n k x
  end.

Lemma hlen_nonneg h : 0 <= hlen h.
Proof. unfold hlen. lia. Qed.

Lemma hlen_cons v h : hlen (v :: h) = hlen h + 1.
Proof. unfold hlen. simpl length. lia. Qed.

Lemma hist_ok_tail b h : hist_ok (b :: h) -> hist_ok h /\ vok (hlen h).
Proof.
  unfold hist_ok, vok. rewrite hlen_cons. pose proof (hlen_nonneg h). lia.
Qed.

Lemma wrote_range h n k x : wrote h n k x -> 0 <= n < hlen h.
Proof.
  induction h as [|[hs ws] older IH]; simpl; [tauto|]. rewrite hlen_cons.
  pose proof (hlen_nonneg older) as NN. intros [[-> _]|H]; [lia|]. specialize (IH H). lia.
Qed.

Lemma wrote_vok h n k x : hist_ok h -> wrote h n k x -> vok n.
Proof. unfold hist_ok, vok. intros OK W. apply wrote_range in W. lia. Qed.

Lemma wrote_fun h n k x y : wrote h n k x -> wrote h n k y -> x = y.
Proof.
  induction h as [|[hs ws] older IH]; simpl; [tauto|].
  intros [[E1 L1]|H1] [[E2 L2]|H2].
  - congruence.
  - apply wrote_range in H2. lia.
  - apply wrote_range in H1. lia.
  - auto.
Qed.

Lemma wrote_key h n k x : wrote h n k x -> In k (keys_of h).
Proof.
  induction h as [|[hs ws] older IH]; simpl; [tauto|]. intros [[_ L]|H]; apply in_or_app.
  - left. apply last_write_In in L. apply in_map_iff. exists (k, x). auto.
  - right. auto.
Qed.

Lemma wrote_nonempty h n k x : nonempty_values h = true -> wrote h n k x ->
  exists c b, x = Some (c :: b).
Proof.
  induction h as [|[hs ws] older IH]; simpl; [tauto|]. intros NE.
  apply andb_true_iff in NE as [NE1 NE2]. intros [[_ L]|H]; [|auto].
  apply last_write_In in L. rewrite forallb_forall in NE1. specialize (NE1 _ L).
  unfold nonempty_value in NE1. simpl in NE1. destruct x as [[|c b]|]; try discriminate. eauto.
Qed.

Lemma spec_find_some h k v w x : spec_find h k v = Some (w, x) ->
  wrote h w k x /\ w <= v /\ (forall n y, wrote h n k y -> n <= v -> n <= w).
Proof.
  induction h as [|[hs ws] older IH]; simpl; [discriminate|].
  destruct (hlen older <=? v) eqn:Ev.
  - apply Z.leb_le in Ev. destruct (last_write k ws) as [y|] eqn:L.
    + intro H. inversion H; subst. split; [left; auto|]. split; [exact Ev|].
      intros n y' [[-> _]|Hw] _; [lia|]. apply wrote_range in Hw. lia.
    + intro H. destruct (IH H) as [A [B C]]. split; [right; exact A|]. split; [exact B|].
      intros n y' [[_ L']|Hw] Hn; [congruence|eauto].
  - apply Z.leb_gt in Ev. intro H. destruct (IH H) as [A [B C]]. split; [right; exact A|]. split; [exact B|].
    intros n y' [[-> _]|Hw] Hn; [lia|eauto].
Qed.

Lemma spec_find_none h k v : spec_find h k v = None ->
  forall n y, wrote h n k y -> n <= v -> False.
Proof.
  induction h as [|[hs ws] older IH]; simpl; [tauto|].
  destruct (hlen older <=? v) eqn:Ev.
  - destruct (last_write k ws) as [y|] eqn:L; [discriminate|].
    intros H n y' [[_ L']|Hw] Hn; [congruence|eauto].
  - apply Z.leb_gt in Ev. intros H n y' [[-> _]|Hw] Hn; [lia|eauto].
Qed.

Lemma newest_max h k nw : newest h k = Some nw -> forall n y, wrote h n k y -> n <= nw.
Proof.
  unfold newest. destruct (spec_find h k (hlen h)) as [[w x]|] eqn:F; simpl; [|discriminate].
  intro E. inversion E; subst. apply spec_find_some in F as [_ [_ Max]].
  intros n y W. apply (Max n y W). apply wrote_range in W. lia.
Qed.

Lemma db_of_sorted h : sorted (db_of h).
Proof.
  induction h as [|[hs ws] older IH]; cbn [db_of]; [exact I|]. apply write_all_sorted, IH.
Qed.

Lemma db_of_get_wrote h k n x : hist_ok h -> wrote h n k x ->
  get (gkey k n) (db_of h) = option_map VRaw x.
Proof.
  induction h as [|[hs ws] older IH]; cbn [db_of wrote]; [tauto|]. intros OK W.
  destruct (hist_ok_tail _ _ OK) as [OKo Vo].
  rewrite get_write_all, lookup_last_add by (apply db_of_sorted || apply gkey_data).
  destruct W as [[-> L]|W].
  - rewrite lookup_last_data, L. reflexivity.
  - destruct (lookup_last (gkey k n) (data_kvs ws (hlen older))) as [y|] eqn:E; [exfalso|auto].
    apply lookup_last_data_form in E as [k' [E _]].
    apply gkey_inj in E as [_ E]; [|eapply wrote_vok; eauto|exact Vo].
    apply wrote_range in W. lia.
Qed.

Lemma db_of_data_form h key v : hist_ok h ->
  In (key, v) (db_of h) -> is_prefix P_data key = true ->
  exists k n x, key = gkey k n /\ wrote h n k (Some x) /\ v = VRaw x.
Proof.
  induction h as [|[hs ws] older IH]; cbn [db_of wrote]; [simpl; tauto|]. intros OK Hin D.
  destruct (hist_ok_tail _ _ OK) as [OKo _].
  apply get_In in Hin; [|apply write_all_sorted, db_of_sorted].
  rewrite get_write_all, lookup_last_add in Hin by (apply db_of_sorted || exact D).
  destruct (lookup_last key (data_kvs ws (hlen older))) as [y|] eqn:E.
  - pose proof E as E'. apply lookup_last_data_form in E' as [k [-> _]].
    rewrite lookup_last_data in E. subst y.
    destruct (last_write k ws) as [[x|]|] eqn:L; simpl in E; try discriminate.
    inversion E; subst. exists k, (hlen older), x. auto.
  - apply get_In in Hin; [|apply db_of_sorted].
    destruct (IH OKo Hin D) as [k [n [x [A [B C]]]]]. exists k, n, x. auto.
Qed.

Lemma db_of_fresh h k n : hist_ok h -> vok n -> hlen h <= n -> get (gkey k n) (db_of h) = None.
Proof.
  intros OK Vn Hn. destruct (get (gkey k n) (db_of h)) as [x|] eqn:G; [exfalso|reflexivity].
  apply (get_In _ _ _ (db_of_sorted h)) in G.
  destruct (db_of_data_form h _ x OK G (gkey_data k n)) as [k2 [n2 [y [E [W _]]]]].
  apply gkey_inj in E as [_ ->]; [|exact Vn|eapply wrote_vok; eauto].
  apply wrote_range in W. lia.
Qed.

Lemma getv_hit_data k v e : getv_hit (gprefix k) (gkey k v) e = true -> is_prefix P_data (fst e) = true.
Proof.
  unfold getv_hit. intro H. apply andb_true_iff in H as [H _]. apply andb_true_iff in H as [H _].
  eapply gprefix_data; eauto.
Qed.

Lemma getv_ext d d' k v : sorted d -> sorted d' ->
  (forall key, is_prefix P_data key = true -> get key d = get key d') ->
  getv d k v = getv d' k v.
Proof.
  intros S S' H. unfold getv; cbv zeta. replace (filter (getv_hit (gprefix k) (gkey k v)) d') with (filter (getv_hit (gprefix k) (gkey k v)) d); [reflexivity|].
  apply sorted_ext_In; try (apply sorted_filter; assumption).
  intros [key x]. rewrite !filter_In. split; intros [A B]; (split; [|exact B]).
  - apply (get_In key x d' S'). rewrite <- H by (apply (getv_hit_data _ _ _ B)). apply (get_In key x d S), A.
  - apply (get_In key x d S). rewrite H by (apply (getv_hit_data _ _ _ B)). apply (get_In key x d' S'), A.
Qed.

Lemma block_at_range h i b : block_at h i = Some b -> 0 <= i < hlen h.
Proof.
  induction h as [|b0 older IH]; simpl; [discriminate|]. rewrite hlen_cons.
  pose proof (hlen_nonneg older). destruct (i =? hlen older) eqn:E.
  - apply Z.eqb_eq in E. intros _. lia.
  - intro H'. specialize (IH H'). lia.
Qed.

Lemma block_at_none h i : hlen h <= i -> block_at h i = None.
Proof. intro H. destruct (block_at h i) eqn:B; [apply block_at_range in B; lia|reflexivity]. Qed.

Lemma block_at_In h i b : block_at h i = Some b -> In b h.
Proof.
  induction h as [|b0 older IH]; simpl; [discriminate|].
  destruct (i =? hlen older); intro H; [inversion H; auto|auto].
Qed.

Lemma block_at_top hs ws h : block_at ((hs, ws) :: h) (hlen h) = Some (hs, ws).
Proof. simpl. rewrite Z.eqb_refl. reflexivity. Qed.

Lemma block_at_older b0 h i b : block_at h i = Some b -> block_at (b0 :: h) i = Some b.
Proof.
  intro H. pose proof (block_at_range _ _ _ H) as R. simpl.
  destruct (i =? hlen h) eqn:E; [apply Z.eqb_eq in E; lia|exact H].
Qed.

Lemma height_of_In h hs i : height_of h hs = Some i -> In hs (hashes h) /\ 0 <= i < hlen h.
Proof.
  induction h as [|[hs0 ws0] older IH]; simpl; [discriminate|]. rewrite hlen_cons.
  pose proof (hlen_nonneg older). destruct (beqb hs hs0) eqn:E.
  - apply beqb_eq in E. intro H'. inversion H'. split; [auto|lia].
  - intro H'. destruct (IH H'). split; [auto|lia].
Qed.

(** state hashes identify the blocks of the chain and stay clear of the other meta keys *)
Definition hashes_ok (h : hist) : Prop :=
  NoDup (hashes h) /\ Forall (fun hs => hash_safe hs = true) (hashes h).

Lemma hashes_ok_cons hs ws h :
  hashes_ok ((hs, ws) :: h) <-> hash_safe hs = true /\ ~ In hs (hashes h) /\ hashes_ok h.
Proof.
  unfold hashes_ok. cbn [hashes map fst]. split.
  - intros [N F]. inversion N; inversion F; subst. auto.
  - intros [S [N [ND F]]]. split; constructor; assumption.
Qed.

Lemma height_of_block h i hs ws : hashes_ok h -> block_at h i = Some (hs, ws) -> height_of h hs = Some i.
Proof.
  induction h as [|[hs0 ws0] older IH]; simpl; [discriminate|]. intros HO B.
  apply hashes_ok_cons in HO as [_ [Nin HO]]. destruct (Z.eqb_spec i (hlen older)) as [->|_].
  - inversion B. rewrite beqb_refl. reflexivity.
  - replace (beqb hs hs0) with false; [auto|]. symmetry. apply beqb_neq. intros ->. apply Nin.
    apply block_at_In in B. apply (in_map fst) in B. exact B.
Qed.

(** hash -> version: the topmost block with that state hash decides *)
Lemma db_of_hash h hs : hashes_ok h -> hash_safe hs = true ->
  get (hash_key hs) (db_of h) = option_map VVer (height_of h hs).
Proof.
  induction h as [|[hs0 ws0] older IH]; intros HO S; [reflexivity|]. cbn [db_of height_of].
  apply hashes_ok_cons in HO as [_ [_ HO]].
  rewrite get_write_all, lookup_last_add_meta by (apply db_of_sorted || reflexivity).
  rewrite hash_kl_eqb, hash_ver_eqb, hash_key_eqb by exact S. destruct (beqb hs hs0); [reflexivity|auto].
Qed.

Lemma db_of_ver h i : hist_ok h -> hashes_ok h -> vok i ->
  get (ver_key i) (db_of h) = option_map (fun b => VRaw (fst b)) (block_at h i) /\
  get (kl_key i) (db_of h) = option_map (fun b => VKeys (map fst (snd b))) (block_at h i).
Proof.
  induction h as [|[hs0 ws0] older IH]; intros OK HO Vi; [split; reflexivity|]. cbn [db_of block_at].
  destruct (hist_ok_tail _ _ OK) as [OKo Vo]. apply hashes_ok_cons in HO as [S0 [_ HO]].
  rewrite !get_write_all, !lookup_last_add_meta by (apply db_of_sorted || reflexivity).
  rewrite ver_kl_eqb, kl_ver_eqb, ver_key_eqb, kl_key_eqb, ver_hash_eqb, kl_hash_eqb by assumption.
  destruct (i =? hlen older); [split; reflexivity|auto].
Qed.

Lemma db_of_meta_form h key x :
  get key (db_of h) = Some x -> is_prefix P_data key = false ->
  exists i hs ws, block_at h i = Some (hs, ws) /\
    (key = hash_key hs \/ (key = ver_key i /\ x = VRaw hs) \/ (key = kl_key i /\ x = VKeys (map fst ws))).
Proof.
  induction h as [|[hs0 ws0] older IH]; cbn [db_of]; [simpl; discriminate|]. intros G D.
  rewrite get_write_all in G by apply db_of_sorted. rewrite lookup_last_add_meta in G by exact D.
  destruct (beqb key (kl_key (hlen older))) eqn:E1.
  { apply beqb_eq in E1. injection G as <-. exists (hlen older), hs0, ws0.
    split; [apply block_at_top|]. right. right. auto. }
  destruct (beqb key (ver_key (hlen older))) eqn:E2.
  { apply beqb_eq in E2. injection G as <-. exists (hlen older), hs0, ws0.
    split; [apply block_at_top|]. right. left. auto. }
  destruct (beqb key (hash_key hs0)) eqn:E3.
  { apply beqb_eq in E3. exists (hlen older), hs0, ws0. split; [apply block_at_top|]. left. exact E3. }
  destruct (IH G D) as [i [hs [ws [B F]]]]. exists i, hs, ws. split; [apply block_at_older; exact B|exact F].
Qed.

(** DelMVCC's list for the top version, written over the store, gives back the
    store below that version key by key — but for the key list, which stays,
    and for the two meta keys only if the chain below does not hold them *)
Lemma get_undo_top h hs ws key : hist_ok ((hs, ws) :: h) -> key <> kl_key (hlen h) ->
  (key = hash_key hs \/ key = ver_key (hlen h) -> get key (db_of h) = None) ->
  match lookup_last key (del_kvlist (map fst ws) hs (hlen h)) with
  | Some x => x
  | None => get key (db_of ((hs, ws) :: h))
  end = get key (db_of h).
Proof.
  intros OK NK Meta. destruct (hist_ok_tail _ _ OK) as [OKh Vn].
  destruct (lookup_last key (del_kvlist (map fst ws) hs (hlen h))) as [x|] eqn:L.
  - apply lookup_last_In, del_kvlist_In in L as [-> [E|[E|[k ->]]]]; symmetry; auto.
    apply db_of_fresh; [exact OKh|exact Vn|lia].
  - cbn [db_of]. rewrite get_write_all by apply db_of_sorted.
    replace (lookup_last key (add_kvlist ws hs (hlen h))) with (@None (option val)); [reflexivity|].
    symmetry. apply lookup_last_none. rewrite add_keys. intro H.
    apply in_app_or in H as [H|[H|[]]]; [|auto]. apply lookup_last_none in L. auto.
Qed.
