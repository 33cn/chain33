(** C09 — block histories over the plain KVDB layer.  The node's store stays in a
    relation with [db_of chain] that every connect / disconnect preserves
    ([agree]: equal except for the plugin flag and key lists of versions above
    the chain, which DelMVCC leaves behind); connect / disconnect never panic on
    node-shaped histories with fresh safe state hashes; hence StateDB reads are
    right and depend on the chain only. *)
From Coq Require Import String List NArith ZArith Bool Lia.
From C33 Require Import Lib.Harness Lib.Bytes Lib.OMap C09.Model C09.Spec C09.ModelExec C09.SpecExec
     C09.ProofsKeys C09.ProofsExecKeys C09.ProofsDb C09.ProofsMain.
Import ListNotations.
Open Scope Z_scope.

(** keys the node's store may hold beyond [db_of h] *)
Definition stale (h : hist) (key : list N) : Prop :=
  key = flag_key \/ exists n, hlen h <= n /\ vok n /\ key = kl_key n.

Definition agree (d : db) (h : hist) : Prop :=
  sorted d /\ forall key, ~ stale h key -> get key d = get key (db_of h).

Lemma not_stale_data h key : is_prefix P_data key = true -> ~ stale h key.
Proof.
  intros D [E|[n [_ [_ E]]]]; subst key.
  - discriminate D.
  - rewrite kl_key_not_data in D. discriminate.
Qed.

Lemma not_stale_hash h hs : hash_safe hs = true -> ~ stale h (hash_key hs).
Proof.
  intros S [E|[n [_ [_ E]]]].
  - revert E. apply mvcc_not_flag, hash_key_mvcc.
  - revert E. apply hash_key_kl_key, S.
Qed.

Lemma not_stale_ver h n : ~ stale h (ver_key n).
Proof.
  intros [E|[m [_ [_ E]]]].
  - revert E. apply mvcc_not_flag, ver_key_mvcc.
  - revert E. apply ver_key_kl_key.
Qed.

Lemma not_stale_kl h n : vok n -> n < hlen h -> ~ stale h (kl_key n).
Proof.
  intros V L [E|[m [Hm [Vm E]]]].
  - revert E. apply mvcc_not_flag, kl_key_mvcc.
  - apply kl_key_inj in E; try assumption. lia.
Qed.

Lemma not_stale_mver h key : is_prefix P_mver key = true -> ~ stale h key.
Proof.
  intros M [E|[n [_ [_ E]]]]; subst key.
  - discriminate M.
  - rewrite kl_key_not_mver in M. discriminate.
Qed.

Lemma stale_mono b h key : stale (b :: h) key -> stale h key.
Proof.
  intros [E|[n [Hn [V E]]]]; [left; exact E|]. right. exists n. rewrite hlen_cons in Hn.
  split; [lia|split; assumption].
Qed.

Lemma agree_getv d h k v : agree d h -> getv d k v = getv (db_of h) k v.
Proof.
  intros [S A]. apply getv_ext; [exact S|apply db_of_sorted|].
  intros key D. apply A, not_stale_data, D.
Qed.

Lemma agree_getv_spec d h k v : agree d h -> hist_ok h -> nonempty_values h = true ->
  Safe1 (k :: keys_of h) = true -> vok v -> getv d k v = spec_getv h k v.
Proof. intros AG OK NE S1 Hv. rewrite (agree_getv _ _ k v AG). apply getv_partial; assumption. Qed.

(** the kvs CheckEnable returns in front of the block's (the type is [list kvw]
    spelled out, so that lemmas about [++] rewrite in [flag_kv _ ++ _]) *)
Definition flag_kv (height : Z) : list (list N * option val) :=
  if height =? 0 then [(flag_key, Some (VVer 1))] else [].

Lemma lookup_last_flag_kv key height : key <> flag_key -> lookup_last key (flag_kv height) = None.
Proof.
  intro N. unfold flag_kv. destruct (height =? 0); simpl; [rewrite (proj2 (beqb_neq _ _) N)|]; reflexivity.
Qed.

Lemma get_write_flag key height kvs d : sorted d -> key <> flag_key ->
  get key (write_all (flag_kv height ++ kvs) d) =
  match lookup_last key kvs with Some x => x | None => get key d end.
Proof.
  intros S N. rewrite get_write_all, lookup_last_app, (lookup_last_flag_kv _ _ N) by exact S.
  destruct (lookup_last key kvs); reflexivity.
Qed.

Lemma agree_connect d h hs ws : agree d h -> hist_ok ((hs, ws) :: h) ->
  agree (write_all (flag_kv (hlen h) ++ add_kvlist ws hs (hlen h)) d) ((hs, ws) :: h).
Proof.
  intros [S A] OK. destruct (hist_ok_tail _ _ OK) as [OKh Vn].
  split; [apply write_all_sorted, S|]. intros key NS.
  assert (NF : key <> flag_key) by (intro E; apply NS; left; exact E).
  cbn [db_of]. rewrite get_write_flag, get_write_all by (apply db_of_sorted || assumption).
  destruct (lookup_last key (add_kvlist ws hs (hlen h))) as [x|] eqn:E; [reflexivity|].
  apply A. intros [E'|[n [Hn [V E']]]]; [auto|].
  destruct (Z.eq_dec n (hlen h)) as [->|Ne].
  - subst key. rewrite lookup_last_add_meta in E by reflexivity. rewrite beqb_refl in E. discriminate.
  - apply NS. right. exists n. rewrite hlen_cons. split; [lia|split; assumption].
Qed.

Lemma agree_disconnect d h hs ws : agree d ((hs, ws) :: h) ->
  hist_ok ((hs, ws) :: h) -> hashes_ok ((hs, ws) :: h) ->
  agree (write_all (flag_kv (hlen h) ++ del_kvlist (map fst ws) hs (hlen h)) d) h.
Proof.
  intros [S A] OK HO. destruct (hist_ok_tail _ _ OK) as [OKh Vn].
  apply hashes_ok_cons in HO as [S0 [Nin HOh]].
  split; [apply write_all_sorted, S|]. intros key NS.
  assert (NF : key <> flag_key) by (intro E; apply NS; left; exact E).
  rewrite get_write_flag by assumption.
  rewrite A by (intro St; apply NS, (stale_mono _ _ _ St)).
  apply get_undo_top; [exact OK| |].
  - intro E. apply NS. right. exists (hlen h). split; [lia|split; assumption].
  - (* the chain below holds neither the state hash nor the version of the removed block *)
    intros [-> | ->].
    + rewrite db_of_hash by assumption.
      destruct (height_of h hs) eqn:Hh; [apply height_of_In in Hh as [I _]; contradiction|reflexivity].
    + destruct (db_of_ver h (hlen h) OKh HOh Vn) as [V _]. rewrite V, block_at_none by lia. reflexivity.
Qed.

Definition flag_inv (d : db) (flag : Z) (h : hist) : Prop :=
  (flag = 0 \/ flag = 1) /\
  (get flag_key d = Some (VVer 1) \/ (get flag_key d = None /\ h = [])).

Definition inv (st : nstate) (h : hist) : Prop :=
  agree (fst st) h /\ flag_inv (fst st) (snd st) h /\ hist_ok h /\ hashes_ok h.

Lemma inv_init : inv ([], 0) [].
Proof.
  unfold inv. cbn [fst snd]. split; [|split; [|split]].
  - split; [exact I|]. intros key _. reflexivity.
  - split; [left; reflexivity|]. right. split; reflexivity.
  - unfold hist_ok. reflexivity.
  - split; constructor.
Qed.

Lemma lget_raw key d : lget false key d = get key d.
Proof. unfold lget. destruct (get key d); reflexivity. Qed.

Lemma get_version_agree d h hs : agree d h -> hashes_ok h -> hash_safe hs = true ->
  get_version_l false d hs = match height_of h hs with Some i => Ok i | None => Err ENotFound end.
Proof.
  intros [S A] HO Sh. unfold get_version_l.
  rewrite lget_raw, A, db_of_hash by auto using not_stale_hash.
  destruct (height_of h hs) as [i|] eqn:Hh; [|reflexivity]. apply height_of_In in Hh as [_ R].
  simpl. destruct (Z.ltb_spec i 0); [lia|reflexivity].
Qed.

Lemma get_version_top d h hs ws : agree d ((hs, ws) :: h) -> hashes_ok ((hs, ws) :: h) ->
  get_version_l false d hs = Ok (hlen h).
Proof.
  intros AG HO. rewrite (get_version_agree _ _ _ AG HO) by (apply hashes_ok_cons in HO; apply HO).
  simpl. rewrite beqb_refl. reflexivity.
Qed.

Lemma agree_top d h hs ws : agree d ((hs, ws) :: h) -> hist_ok ((hs, ws) :: h) ->
  hashes_ok ((hs, ws) :: h) ->
  get (ver_key (hlen h)) d = Some (VRaw hs) /\ get (kl_key (hlen h)) d = Some (VKeys (map fst ws)).
Proof.
  intros [S A] OK HO. destruct (hist_ok_tail _ _ OK) as [_ Vn].
  rewrite (A (ver_key _)) by apply not_stale_ver.
  rewrite (A (kl_key _)) by (apply not_stale_kl; [exact Vn|rewrite hlen_cons; lia]).
  destruct (db_of_ver _ (hlen h) OK HO Vn) as [V K]. rewrite V, K, block_at_top. split; reflexivity.
Qed.

Lemma get_max_version_agree d hs ws h : agree d ((hs, ws) :: h) -> hist_ok ((hs, ws) :: h) ->
  hashes_ok ((hs, ws) :: h) -> get_max_version_l false d = Ok (hlen h).
Proof.
  intros AG OK HO. pose proof AG as [S A]. destruct (hist_ok_tail _ _ OK) as [OKh Vn].
  destruct (agree_top d h hs ws AG OK HO) as [G _].
  unfold get_max_version_l.
  rewrite (last_filter_max _ d (ver_key (hlen h), VRaw hs)).
  - eapply get_version_top; eauto.
  - exact S.
  - apply (get_In _ _ _ S), G.
  - cbn [fst snd]. rewrite ver_key_mver. apply hashes_ok_cons in HO as [S0 _].
    apply hash_safe_nonempty in S0. destruct hs; [congruence|reflexivity].
  - intros [key' x'] Hin F. cbn [fst snd] in F. apply andb_true_iff in F as [M _]. cbn [fst snd].
    apply (get_In _ _ _ S) in Hin. rewrite A in Hin by (apply not_stale_mver, M).
    destruct (db_of_meta_form _ _ _ Hin (mver_not_data _ M)) as [i [hs' [ws' [B' Fm]]]].
    pose proof (block_at_range _ _ _ B') as R. rewrite hlen_cons in R.
    destruct Fm as [E|[[E _]|[E _]]]; subst key'.
    + rewrite hash_key_not_mver in M; [discriminate|]. destruct HO as [_ F']. rewrite Forall_forall in F'.
      apply F'. apply block_at_In in B'. apply (in_map fst) in B'. exact B'.
    + apply ver_key_le; unfold vok in *; lia.
    + rewrite kl_key_not_mver in M. discriminate.
Qed.

(** enableMVCC at the state hash on top of the chain sees the height of that block;
    on the empty chain (height 0) a missing version is no error *)
Lemma enable_ok (sdb : bool) d c hash height : agree d c -> hashes_ok c ->
  match c with [] => height = 0 | (p, _) :: _ => hash = p end ->
  exists ver, (if sdb then sdb_enable false d hash height else Done (-2)) = Done ver /\
              (sdb = true -> c <> [] -> ver = hlen c - 1).
Proof.
  intros AG HO H. destruct sdb; [|exists (-2); split; [reflexivity|discriminate]]. unfold sdb_enable.
  destruct c as [|[p wp] older]; subst.
  - simpl. destruct (get_version_l false d hash); eexists; (split; [reflexivity|congruence]).
  - rewrite (get_version_top d _ p wp AG HO). exists (hlen older).
    split; [reflexivity|]. intros _ _. rewrite hlen_cons. lia.
Qed.

(** CheckEnable caches 1, and the flag is in the store afterwards (it is written at height 0) *)
Lemma flag_step d flag h height kvs h' :
  flag_inv d flag h -> (h = [] -> height = 0) -> sorted d -> lookup_last flag_key kvs = None ->
  check_enable false d flag height = Done (1, flag_kv height) /\
  flag_inv (write_all (flag_kv height ++ kvs) d) 1 h'.
Proof.
  intros [Hf Hd] H0 S L.
  assert (Hd' : get flag_key d = Some (VVer 1) \/ (get flag_key d = None /\ height = 0))
    by (destruct Hd as [G|[G E]]; auto).
  split.
  - unfold check_enable, load_flag, flag_kv. rewrite lget_raw.
    destruct Hf as [-> | ->], Hd' as [-> | [-> ->]]; simpl; try reflexivity;
      destruct (height =? 0); reflexivity.
  - split; [right; reflexivity|left].
    rewrite get_write_all, lookup_last_app, L by exact S. unfold flag_kv.
    destruct Hd' as [G|[_ ->]]; [destruct (height =? 0)|]; simpl; auto.
Qed.

Lemma add_mvcc_ok d h hs ws : agree d h -> hist_ok ((hs, ws) :: h) -> hashes_ok h ->
  add_mvcc_l false d ws hs (top_prev h) (hlen h) = Ok (add_kvlist ws hs (hlen h)).
Proof.
  intros AG OK HO. destruct (hist_ok_tail _ _ OK) as [OKh Vn]. unfold add_mvcc_l.
  assert (NN : (hlen h <? 0) = false) by (apply Z.ltb_ge; unfold vok in Vn; lia).
  destruct h as [|[p wp] older].
  - simpl. reflexivity.
  - rewrite !hlen_cons in *. pose proof (hlen_nonneg older) as NO.
    assert (P : (0 <? hlen older + 1) = true) by (apply Z.ltb_lt; lia).
    rewrite P. cbn [top_prev].
    replace (hlen older + 1 - 1) with (hlen older) by lia.
    destruct (agree_top d _ p wp AG OKh HO) as [G _].
    unfold get_version_hash_l. rewrite lget_raw, G, bytes_eqb_refl, NN. reflexivity.
Qed.

Lemma del_mvcc_ok d h hs ws : agree d ((hs, ws) :: h) -> hist_ok ((hs, ws) :: h) ->
  hashes_ok ((hs, ws) :: h) ->
  del_mvcc_l false d hs (hlen h) = Ok (del_kvlist (map fst ws) hs (hlen h)).
Proof.
  intros AG OK HO. destruct (hist_ok_tail _ _ OK) as [OKh Vn]. unfold del_mvcc_l, get_del_kvlist_l.
  destruct (agree_top d h hs ws AG OK HO) as [_ G]. rewrite lget_raw, G.
  rewrite (get_max_version_agree d hs ws h AG OK HO), Z.eqb_refl.
  rewrite (get_version_top d h hs ws AG HO), Z.eqb_refl.
  destruct (hlen h <? 0) eqn:E; [apply Z.ltb_lt in E; unfold vok in Vn; lia|reflexivity].
Qed.

(** [ws] has the type it has in [sop], so that [sstep]'s call of [connect] is this very term *)
Lemma connect_ok sdb d flag h hs (ws : list (list N * option (list N))) :
  inv (d, flag) h -> hist_ok ((hs, ws) :: h) -> hash_safe hs = true -> ~ In hs (hashes h) ->
  exists st' ver, connect false sdb (d, flag) (hlen h, hs, top_prev h, ws) = (st', 0%N, ver) /\
                  inv st' ((hs, ws) :: h) /\ (sdb = true -> h <> [] -> ver = hlen h - 1).
Proof.
  intros [AG [FI [OKh HO]]] OK S0 Nin. cbn [fst snd] in AG, FI.
  destruct (enable_ok sdb d h (match top_prev h with Some p => p | None => hs end) (hlen h) AG HO)
    as [ver [EN Ever]]; [destruct h as [|[p wp] older]; reflexivity|].
  destruct (flag_step d flag h (hlen h) _ ((hs, ws) :: h) FI ltac:(intros ->; reflexivity)
              (proj1 AG) (lookup_last_flag_add ws hs (hlen h))) as [CE FI'].
  exists (write_all (flag_kv (hlen h) ++ add_kvlist ws hs (hlen h)) d, 1), ver. split; [|split; [|exact Ever]].
  - unfold connect, exec_add. cbn [b_prev b_hash b_height b_kvs fst snd].
    rewrite EN, CE, (add_mvcc_ok d h hs ws AG OK HO). reflexivity.
  - split; [apply agree_connect; assumption|]. split; [exact FI'|]. split; [exact OK|].
    apply hashes_ok_cons. auto.
Qed.

Lemma disconnect_ok sdb d flag h hs (ws : list (list N * option (list N))) :
  inv (d, flag) ((hs, ws) :: h) ->
  exists st' ver, disconnect false sdb (d, flag) (hlen h, hs, top_prev h, ws) = (st', 0%N, ver) /\
                  inv st' h /\ (sdb = true -> ver = hlen h).
Proof.
  intros [AG [FI [OK HO]]]. cbn [fst snd] in AG, FI.
  destruct (enable_ok sdb d _ hs (hlen h) AG HO eq_refl) as [ver [EN Ever]].
  destruct (flag_step d flag _ (hlen h) _ h FI ltac:(discriminate)
              (proj1 AG) (lookup_last_flag_del ws hs (hlen h))) as [CE FI'].
  exists (write_all (flag_kv (hlen h) ++ del_kvlist (map fst ws) hs (hlen h)) d, 1), ver. split; [|split].
  - unfold disconnect, exec_del. cbn [b_prev b_hash b_height b_kvs fst snd].
    rewrite EN, CE, (del_mvcc_ok d h hs ws AG OK HO). reflexivity.
  - split; [apply agree_disconnect; assumption|]. split; [exact FI'|]. split; [apply (hist_ok_tail _ _ OK)|].
    apply hashes_ok_cons in HO. apply HO.
  - intro Es. rewrite (Ever Es ltac:(discriminate)), hlen_cons. lia.
Qed.

Lemma srun_app L sdb a b s :
  srun L sdb s (a ++ b) = match srun L sdb s a with Done s' => srun L sdb s' b | Panic x => Panic x end.
Proof.
  revert s; induction a as [|o a IH]; intro s; simpl; [reflexivity|].
  destruct (sstep L sdb s o); [apply IH|reflexivity].
Qed.

Lemma chain_from_app c a b : chain_from c (a ++ b) = chain_from (chain_from c a) b.
Proof. revert c; induction a as [|o a IH]; intro c; simpl; [reflexivity|]. destruct o; apply IH. Qed.

Lemma hashes_tl (c : hist) : hashes (List.tl c) = List.tl (hashes c).
Proof. destruct c; reflexivity. Qed.

Lemma ops_okb_app a : forall c b, ops_okb_from (hashes c) (a ++ b) = true ->
  ops_okb_from (hashes c) a = true /\ ops_okb_from (hashes (chain_from c a)) b = true.
Proof.
  induction a as [|o a IH]; intros c b G; simpl app in G.
  - split; [reflexivity|exact G].
  - destruct o as [hs ws| |]; cbn [ops_okb_from chain_from] in *.
    + apply andb_true_iff in G as [G1 G2].
      destruct (IH ((hs, ws) :: c) b G2) as [A B]. split; [rewrite G1; exact A|exact B].
    + rewrite <- hashes_tl in *. apply IH. exact G.
    + apply IH. exact G.
Qed.

Lemma hlen_tl (c : hist) : hlen (List.tl c) <= hlen c.
Proof. destruct c as [|b c]; [simpl; lia|]. rewrite hlen_cons. simpl List.tl. lia. Qed.

Lemma chain_from_len ops : forall c, hlen (chain_from c ops) <= hlen c + Z.of_nat (length ops).
Proof.
  induction ops as [|o ops IH]; intro c.
  - simpl. lia.
  - change (length (o :: ops)) with (S (length ops)). rewrite Nat2Z.inj_succ.
    destruct o as [hs ws| |]; cbn [chain_from].
    + specialize (IH ((hs, ws) :: c)). rewrite hlen_cons in IH. lia.
    + specialize (IH (List.tl c)). pose proof (hlen_tl c). lia.
    + specialize (IH c). lia.
Qed.

Lemma existsb_beqb_In x l : existsb (beqb x) l = false -> ~ In x l.
Proof.
  intros E Hin. assert (existsb (beqb x) l = true); [|congruence].
  apply existsb_exists. exists x. split; [exact Hin|apply beqb_refl].
Qed.

Lemma sstep_ok sdb st c o : inv st c -> hlen c + 1 < two63 -> ops_okb_from (hashes c) [o] = true ->
  exists st', sstep false sdb (st, c) o = Done (st', chain_from c [o]) /\ inv st' (chain_from c [o]).
Proof.
  intros I Bd G. destruct st as [d flag]. destruct o as [hs ws| |]; cbn [sstep chain_from List.tl].
  - cbn [ops_okb_from] in G. rewrite andb_true_r in G. apply andb_true_iff in G as [G1 G2].
    apply negb_true_iff, existsb_beqb_In in G2.
    assert (OK : hist_ok ((hs, ws) :: c)) by (unfold hist_ok; rewrite hlen_cons; lia).
    destruct (connect_ok sdb d flag c hs ws I OK G1 G2) as [st' [ver [E [I' _]]]].
    change (clen c) with (hlen c). rewrite E. eauto.
  - destruct c as [|[hs ws] older]; [eauto|].
    destruct (disconnect_ok sdb d flag older hs ws I) as [st' [ver [E [I' _]]]].
    change (clen older) with (hlen older). rewrite E. eauto.
  - exists (d, 0). split; [reflexivity|]. destruct I as [AG [[_ Hd] R]].
    split; [exact AG|]. split; [split; [left; reflexivity|exact Hd]|exact R].
Qed.

Lemma srun_inv sdb ops : forall st c,
  inv st c -> hlen c + Z.of_nat (length ops) < two63 -> ops_okb_from (hashes c) ops = true ->
  exists st', srun false sdb (st, c) ops = Done (st', chain_from c ops) /\ inv st' (chain_from c ops).
Proof.
  induction ops as [|o ops IH]; intros st c I Bd G; [exists st; split; [reflexivity|exact I]|].
  change (o :: ops) with ([o] ++ ops) in *. apply ops_okb_app in G as [G1 G2].
  rewrite app_length in Bd. pose proof (chain_from_len [o] c) as Lo. simpl length in Bd, Lo.
  destruct (sstep_ok sdb st c o I ltac:(lia) G1) as [st1 [E I1]].
  destruct (IH st1 _ I1 ltac:(lia) G2) as [st2 [R I2]].
  exists st2. rewrite chain_from_app. split; [|exact I2]. cbn [app srun]. rewrite E. exact R.
Qed.

Lemma srun_init sdb ops : ops_okb ops = true -> Z.of_nat (length ops) < two63 ->
  exists st, srun false sdb sinit ops = Done (st, chain_of ops) /\ inv st (chain_of ops).
Proof. intros G Bd. apply (srun_inv sdb ops ([], 0) [] inv_init); [simpl; lia|exact G]. Qed.

Lemma state_read st h hash i height k : inv st h -> height_of h hash = Some i ->
  nonempty_values h = true -> Safe1 (k :: keys_of h) = true ->
  sdb_read false (fst st) hash height k = Done (i, spec_getv h k i).
Proof.
  intros [AG [_ [OK HO]]] Hh NE S1. pose proof (height_of_In _ _ _ Hh) as [Hin R].
  assert (Sh : hash_safe hash = true) by (destruct HO as [_ F]; rewrite Forall_forall in F; auto).
  unfold sdb_read, sdb_enable. rewrite (get_version_agree _ _ _ AG HO Sh), Hh.
  unfold sdb_get. simpl cache_get. cbv iota. destruct (Z.leb_spec 0 i); [|lia].
  rewrite (agree_getv_spec _ h); auto. unfold vok, hist_ok in *; lia.
Qed.

Lemma sdb_read_agree d1 d2 h hash height k : agree d1 h -> agree d2 h -> hash_safe hash = true ->
  sdb_read false d1 hash height k = sdb_read false d2 hash height k.
Proof.
  intros A1 A2 S. unfold sdb_read.
  replace (sdb_enable false d1 hash height) with (sdb_enable false d2 hash height).
  - destruct (sdb_enable false d2 hash height) as [v|s]; [|reflexivity]. unfold sdb_get. simpl.
    rewrite (agree_getv d1 h), (agree_getv d2 h) by assumption. reflexivity.
  - unfold sdb_enable, get_version_l. rewrite !lget_raw.
    rewrite (proj2 A1), (proj2 A2) by (apply not_stale_hash, S). reflexivity.
Qed.

Lemma block_reads_correct sdb ops i hs ws k :
  ops_okb ops = true -> Z.of_nat (length ops) < two63 ->
  nonempty_values (chain_of ops) = true -> Safe1 (k :: keys_of (chain_of ops)) = true ->
  block_at (chain_of ops) i = Some (hs, ws) ->
  exists st, srun false sdb sinit ops = Done (st, chain_of ops) /\
             sdb_read false (fst st) hs (i + 1) k = Done (i, spec_getv (chain_of ops) k i).
Proof.
  intros G Bd NE S1 B. destruct (srun_init sdb ops G Bd) as [st [R I]]. exists st. split; [exact R|].
  apply state_read; auto. apply (height_of_block _ _ _ ws); [apply I|exact B].
Qed.

Lemma disconnect_restores sdb ops hs ws st1 c1 :
  ops_okb (ops ++ [SConnect hs ws; SDisconnect]) = true ->
  Z.of_nat (length ops) + 2 < two63 ->
  srun false sdb sinit ops = Done (st1, c1) ->
  exists st2, srun false sdb sinit (ops ++ [SConnect hs ws; SDisconnect]) = Done (st2, c1) /\
    forall hash height k, hash_safe hash = true ->
      sdb_read false (fst st2) hash height k = sdb_read false (fst st1) hash height k.
Proof.
  intros G Bd R1.
  destruct (srun_init sdb _ G) as [st2 [R2 I2]]; [rewrite app_length, Nat2Z.inj_add; simpl; lia|].
  apply (ops_okb_app ops []) in G as [G _].
  destruct (srun_init sdb ops G) as [st [R I]]; [lia|].
  rewrite R in R1. injection R1 as <- <-.
  unfold chain_of in R2, I2. rewrite chain_from_app in R2, I2. cbn [chain_from List.tl] in R2, I2.
  exists st2. split; [exact R2|]. intros hash height k S.
  apply (sdb_read_agree _ _ (chain_of ops)); [apply I2|apply I|exact S].
Qed.

Lemma inblock_reads sdb ops hs ws k st :
  ops_okb (ops ++ [SConnect hs ws]) = true -> Z.of_nat (length ops) + 1 < two63 ->
  srun false sdb sinit ops = Done (st, chain_of ops) -> chain_of ops <> [] ->
  nonempty_values (chain_of ops) = true -> Safe1 (k :: keys_of (chain_of ops)) = true ->
  let b := (hlen (chain_of ops), hs, top_prev (chain_of ops), ws) in
  exists st', connect false true st b = (st', 0%N, hlen (chain_of ops) - 1) /\
              inblock_read (fst st) b (hlen (chain_of ops) - 1) k = spec_inblock_read (chain_of ops) ws k.
Proof.
  intros G Bd R NE NV S1 b.
  apply (ops_okb_app ops []) in G as [Ga Gb].
  destruct (srun_init sdb ops Ga) as [st0 [R0 I]]; [lia|].
  rewrite R0 in R. injection R as <-. fold (chain_of ops) in Gb.
  cbn [ops_okb_from] in Gb. apply andb_true_iff in Gb as [Gb _]. apply andb_true_iff in Gb as [G1 G2].
  apply negb_true_iff, existsb_beqb_In in G2.
  pose proof (chain_from_len ops []) as L. fold (chain_of ops) in L. change (hlen []) with 0 in L.
  assert (OK : hist_ok ((hs, ws) :: chain_of ops)) by (unfold hist_ok; rewrite hlen_cons; lia).
  destruct st0 as [d flag].
  destruct (connect_ok true d flag (chain_of ops) hs ws I OK G1 G2) as [st' [ver [E [_ Ev]]]].
  specialize (Ev eq_refl NE). subst ver. exists st'. split; [exact E|].
  unfold inblock_read, sdb_get, spec_inblock_read. subst b. unfold b_kvs. cbn [snd fst].
  rewrite cache_get_last_write. destruct (last_write k ws) as [[v|]|]; try reflexivity.
  destruct I as [AG [_ [OKh _]]]. cbn [fst] in AG.
  assert (P : 0 <= hlen (chain_of ops) - 1).
  { destruct (chain_of ops) as [|b0 c0]; [congruence|]. rewrite hlen_cons. pose proof (hlen_nonneg c0). lia. }
  destruct (Z.leb_spec 0 (hlen (chain_of ops) - 1)); [|lia].
  apply (agree_getv_spec _ _ _ _ AG OKh NV S1). unfold vok, hist_ok in *; lia.
Qed.
