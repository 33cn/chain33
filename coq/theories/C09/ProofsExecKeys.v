(** C09 — the meta key namespace (.-mvcc-.m.<hash>, .-mvcc-.m.version.<pad>,
    .-mvcc-.m.versionkl.<pad>) and the plugin flag key: which keys can coincide. *)
From Coq Require Import String List NArith ZArith Bool Lia.
From C33 Require Import Lib.Harness Lib.Bytes Lib.OMap C09.Model C09.Spec C09.ModelExec C09.SpecExec
     C09.ProofsKeys.
Import ListNotations.
Open Scope Z_scope.

Definition S_ver : list N := Eval compute in bs "version."%string.
Definition S_kl : list N := Eval compute in bs "versionkl."%string.

Lemma P_mver_split : P_mver = P_meta ++ S_ver. Proof. reflexivity. Qed.
Lemma P_mkl_split : P_mkl = P_meta ++ S_kl. Proof. reflexivity. Qed.

Lemma ver_key_split v : ver_key v = P_meta ++ (S_ver ++ pad v).
Proof. unfold ver_key. rewrite P_mver_split, <- app_assoc. reflexivity. Qed.
Lemma kl_key_split v : kl_key v = P_meta ++ (S_kl ++ pad v).
Proof. unfold kl_key. rewrite P_mkl_split, <- app_assoc. reflexivity. Qed.

Lemma hash_safe_nonempty hs : hash_safe hs = true -> hs <> [].
Proof. destruct hs; [discriminate|]. intros _. discriminate. Qed.

Lemma hash_safe_noversion hs : hash_safe hs = true -> is_prefix P_version hs = false.
Proof. destruct hs; [reflexivity|]. unfold hash_safe. intro H. apply negb_true_iff in H. exact H. Qed.

Lemma S_ver_version s : is_prefix P_version (S_ver ++ s) = true. Proof. reflexivity. Qed.
Lemma S_kl_version s : is_prefix P_version (S_kl ++ s) = true. Proof. reflexivity. Qed.

Lemma hash_key_ver_key hs v : hash_safe hs = true -> hash_key hs <> ver_key v.
Proof.
  intros S E. rewrite ver_key_split in E. unfold hash_key in E. apply app_inv_head in E.
  apply hash_safe_noversion in S. subst hs. rewrite S_ver_version in S. discriminate.
Qed.

Lemma hash_key_kl_key hs v : hash_safe hs = true -> hash_key hs <> kl_key v.
Proof.
  intros S E. rewrite kl_key_split in E. unfold hash_key in E. apply app_inv_head in E.
  apply hash_safe_noversion in S. subst hs. rewrite S_kl_version in S. discriminate.
Qed.

Lemma hash_key_not_mver hs : hash_safe hs = true -> is_prefix P_mver (hash_key hs) = false.
Proof.
  intro S. rewrite P_mver_split. unfold hash_key. rewrite is_prefix_app_l.
  destruct (is_prefix S_ver hs) eqn:E; [|reflexivity].
  apply is_prefix_iff in E as [s ->]. apply hash_safe_noversion in S.
  rewrite S_ver_version in S. discriminate.
Qed.

Lemma hash_key_inj a b : hash_key a = hash_key b -> a = b.
Proof. unfold hash_key. apply app_inv_head. Qed.

Lemma ver_key_inj n m : vok n -> vok m -> ver_key n = ver_key m -> n = m.
Proof. intros Hn Hm E. unfold ver_key in E. apply app_inv_head in E. apply pad_inj; assumption. Qed.

Lemma kl_key_inj n m : vok n -> vok m -> kl_key n = kl_key m -> n = m.
Proof. intros Hn Hm E. unfold kl_key in E. apply app_inv_head in E. apply pad_inj; assumption. Qed.

Lemma ver_key_kl_key n m : ver_key n <> kl_key m.
Proof.
  rewrite ver_key_split, kl_key_split. intro E. apply app_inv_head in E.
  unfold S_ver, S_kl in E. simpl in E. discriminate E.
Qed.

(** the same as rewrite rules: how [beqb] decides between two meta keys (the
    comparisons met when a meta key is looked up in an AddMVCC list) *)
Lemma hash_ver_eqb hs v : hash_safe hs = true -> beqb (hash_key hs) (ver_key v) = false.
Proof. intro S. apply beqb_neq, hash_key_ver_key, S. Qed.
Lemma hash_kl_eqb hs v : hash_safe hs = true -> beqb (hash_key hs) (kl_key v) = false.
Proof. intro S. apply beqb_neq, hash_key_kl_key, S. Qed.
Lemma ver_hash_eqb hs v : hash_safe hs = true -> beqb (ver_key v) (hash_key hs) = false.
Proof. intro S. rewrite beqb_sym. apply hash_ver_eqb, S. Qed.
Lemma kl_hash_eqb hs v : hash_safe hs = true -> beqb (kl_key v) (hash_key hs) = false.
Proof. intro S. rewrite beqb_sym. apply hash_kl_eqb, S. Qed.
Lemma ver_kl_eqb n m : beqb (ver_key n) (kl_key m) = false.
Proof. apply beqb_neq, ver_key_kl_key. Qed.
Lemma kl_ver_eqb n m : beqb (kl_key n) (ver_key m) = false.
Proof. rewrite beqb_sym. apply ver_kl_eqb. Qed.

Lemma hash_key_eqb a b : beqb (hash_key a) (hash_key b) = beqb a b.
Proof. unfold beqb, hash_key. rewrite bcmp_app_l. reflexivity. Qed.

Lemma ver_key_eqb n m : vok n -> vok m -> beqb (ver_key n) (ver_key m) = (n =? m).
Proof. intros Hn Hm. unfold beqb, ver_key. rewrite bcmp_app_l, pad_cmp, Z.eqb_compare by assumption. reflexivity. Qed.

Lemma kl_key_eqb n m : vok n -> vok m -> beqb (kl_key n) (kl_key m) = (n =? m).
Proof. intros Hn Hm. unfold beqb, kl_key. rewrite bcmp_app_l, pad_cmp, Z.eqb_compare by assumption. reflexivity. Qed.

Lemma ver_key_mver n : is_prefix P_mver (ver_key n) = true.
Proof. unfold ver_key. apply is_prefix_app. Qed.

Lemma kl_key_not_mver n : is_prefix P_mver (kl_key n) = false.
Proof. reflexivity. Qed.

Lemma ver_key_le n m : vok n -> vok m -> n <= m -> bleb (ver_key n) (ver_key m) = true.
Proof.
  intros Hn Hm L. apply bleb_le. unfold ver_key. rewrite bcmp_app_l, pad_cmp by assumption.
  intro G. apply Z.compare_gt_iff in G. lia.
Qed.

Lemma mver_not_data key : is_prefix P_mver key = true -> is_prefix P_data key = false.
Proof. intro H. apply is_prefix_iff in H as [s ->]. reflexivity. Qed.

(** keys of the .-mvcc- namespace start with the dot; the flag key does not *)
Definition is_mvcc_key (key : list N) : bool := match key with c :: _ => (c =? dot)%N | [] => false end.

Lemma flag_key_not_mvcc : is_mvcc_key flag_key = false. Proof. reflexivity. Qed.
Lemma hash_key_mvcc hs : is_mvcc_key (hash_key hs) = true. Proof. reflexivity. Qed.
Lemma ver_key_mvcc n : is_mvcc_key (ver_key n) = true. Proof. reflexivity. Qed.
Lemma kl_key_mvcc n : is_mvcc_key (kl_key n) = true. Proof. reflexivity. Qed.
Lemma gkey_mvcc k n : is_mvcc_key (gkey k n) = true. Proof. reflexivity. Qed.

Lemma data_mvcc key : is_prefix P_data key = true -> is_mvcc_key key = true.
Proof. intro H. apply is_prefix_iff in H as [s ->]. reflexivity. Qed.

Lemma mvcc_not_flag key : is_mvcc_key key = true -> key <> flag_key.
Proof. intros H E. subst. rewrite flag_key_not_mvcc in H. discriminate. Qed.

