(** C09 — block histories: the guards are necessary (witnesses), the node's
    local layer cannot read the state of height 0, and Examples. *)
From Coq Require Import String List NArith ZArith Bool Lia.
From C33 Require Import Lib.Harness Lib.Bytes Lib.OMap C09.Model C09.Spec C09.ModelExec C09.SpecExec
     C09.ProofsKeys C09.ProofsExecKeys C09.ProofsDb C09.ProofsMain C09.ProofsExec.
Import ListNotations.
Open Scope Z_scope.

(** * the unguarded statements *)
(** disconnect restores every state read — without asking for fresh state hashes *)
Definition C09_disconnect_restores_full : Prop :=
  forall sdb ops hs ws st1 c1,
    ops_safeb (ops ++ [SConnect hs ws; SDisconnect]) = true ->
    Z.of_nat (length ops) + 2 < two63 ->
    srun false sdb sinit ops = Done (st1, c1) ->
    exists st2, srun false sdb sinit (ops ++ [SConnect hs ws; SDisconnect]) = Done (st2, c1) /\
      forall hash height k, hash_safe hash = true ->
        sdb_read false (fst st2) hash height k = sdb_read false (fst st1) hash height k.

(** state reads are right over either local layer *)
Definition C09_block_reads_full : Prop :=
  forall L sdb ops i hs ws k,
    ops_okb ops = true -> Z.of_nat (length ops) < two63 ->
    nonempty_values (chain_of ops) = true -> Safe1 (k :: keys_of (chain_of ops)) = true ->
    block_at (chain_of ops) i = Some (hs, ws) ->
    exists st, srun L sdb sinit ops = Done (st, chain_of ops) /\
               sdb_read L (fst st) hs (i + 1) k = Done (i, spec_getv (chain_of ops) k i).

(** * witness 3: an empty block (same state hash as its parent) is connected and removed *)
Definition key_b : list N := Eval compute in bs "b"%string.

Definition dup_ops : list sop :=
  [SConnect hash0 [(key_a, Some [1%N])]; SConnect hash1 [(key_a, Some [2%N]); (key_b, Some [3%N])]].
Definition dup_tail : list sop := [SConnect hash1 []; SDisconnect].

Definition dup_chain : hist := Eval vm_compute in chain_of dup_ops.

Definition run_state (r : pres sstate) : nstate :=
  match r with Done (s, _) => s | Panic _ => ([], -1) end.

Definition dup_st1 : nstate := Eval vm_compute in run_state (srun false true sinit dup_ops).
Definition dup_st2 : nstate := Eval vm_compute in run_state (srun false true sinit (dup_ops ++ dup_tail)).

Lemma dup_run1 : srun false true sinit dup_ops = Done (dup_st1, dup_chain).
Proof. vm_compute. reflexivity. Qed.
Lemma dup_run2 : srun false true sinit (dup_ops ++ dup_tail) = Done (dup_st2, dup_chain).
Proof. rewrite srun_app, dup_run1. vm_compute. reflexivity. Qed.
Lemma dup_read1 : sdb_read false (fst dup_st1) hash1 2 key_a = Done (1, Ok [2%N]).
Proof. vm_compute. reflexivity. Qed.
Lemma dup_read2 : sdb_read false (fst dup_st2) hash1 2 key_a = Panic 1.
Proof. vm_compute. reflexivity. Qed.

(** the block below cannot be removed any more, nor a new block be connected on it *)
Lemma dup_stuck :
  sstep false true (dup_st2, dup_chain) SDisconnect = Panic 1 /\
  sstep false false (dup_st2, dup_chain) SDisconnect = Panic 3 /\
  sstep false true (dup_st2, dup_chain) (SConnect (bs "H0000002") []) = Panic 1.
Proof. repeat apply conj; vm_compute; reflexivity. Qed.

(** the history of witness 3 fails the fresh-hash guard only *)
Example dup_guard :
  ops_okb (dup_ops ++ dup_tail) = false /\ ops_safeb (dup_ops ++ dup_tail) = true /\ ops_okb dup_ops = true.
Proof. repeat apply conj; reflexivity. Qed.

Lemma refuted_disconnect_restores : ~ C09_disconnect_restores_full.
Proof.
  intro F.
  destruct (F true dup_ops hash1 [] dup_st1 dup_chain) as [st2 [R Q]].
  - apply dup_guard.
  - reflexivity.
  - exact dup_run1.
  - assert (E : Done (dup_st2, dup_chain) = Done (st2, dup_chain)) by (rewrite <- dup_run2; exact R).
    injection E as <-. specialize (Q hash1 2 key_a eq_refl).
    rewrite dup_read1, dup_read2 in Q. discriminate Q.
Qed.

(** * witness 4: over the node's local layer the second block cannot be connected:
      the hash -> version entry of version 0 is Encode(Int64{0}) = zero bytes,
      which the local layer reads as deleted *)
Lemma lget_local_empty key d v : get key d = Some v -> val_empty v = true -> lget true key d = None.
Proof. intros G E. unfold lget. rewrite G, E. reflexivity. Qed.

Lemma local_version0_unreadable d hs height :
  get (hash_key hs) d = Some (VVer 0) -> 0 < height -> sdb_enable true d hs height = Panic 1.
Proof.
  intros G H. unfold sdb_enable, get_version_l.
  rewrite (lget_local_empty _ _ _ G eq_refl).
  destruct (0 <? height) eqn:E; [reflexivity|apply Z.ltb_ge in E; lia].
Qed.

(** a node with the mvcc plugin enabled stops at height 1, whatever the blocks are *)
Lemma local_layer_stuck hs0 ws0 hs1 ws1 rest :
  hash_safe hs0 = true ->
  srun true true sinit (SConnect hs0 ws0 :: SConnect hs1 ws1 :: rest) = Panic 1.
Proof.
  intro S0.
  assert (E1 : sstep true true sinit (SConnect hs0 ws0) =
               Done ((write_all ([(flag_key, Some (VVer 1))] ++ add_kvlist ws0 hs0 0) [], 1), [(hs0, ws0)])).
  { reflexivity. }
  cbn [srun]. rewrite E1. cbn [srun sstep top_prev].
  set (d1 := write_all ([(flag_key, Some (VVer 1))] ++ add_kvlist ws0 hs0 0) []).
  assert (G : get (hash_key hs0) d1 = Some (VVer 0)).
  { unfold d1. rewrite get_write_all, lookup_last_app, lookup_last_add_meta by (exact I || reflexivity).
    rewrite hash_kl_eqb, hash_ver_eqb, beqb_refl by exact S0. reflexivity. }
  unfold connect. cbn [b_prev b_hash b_height b_kvs fst snd].
  change (clen [(hs0, ws0)]) with 1.
  rewrite (local_version0_unreadable d1 hs0 1 G ltac:(lia)). reflexivity.
Qed.

Lemma refuted_block_reads : ~ C09_block_reads_full.
Proof.
  intro F.
  destruct (F true true dup_ops 0 hash0 [(key_a, Some [1%N])] key_a) as [st [R _]].
  1: apply dup_guard. 1-4: reflexivity.
  unfold dup_ops in R. rewrite local_layer_stuck in R by reflexivity. discriminate R.
Qed.

(** * Examples: the guards are satisfiable by a non-trivial history with a
      re-organisation, and the theorems say something on it *)
Definition ex_ops : list sop :=
  Eval compute in
  [ SConnect (bs "S0") [(bs "a", Some [1%N]); (bs "a/", Some [2%N])];
    SConnect (bs "S1") [(bs "a", Some [3%N]); (bs "b", Some [4%N])];
    SConnect (bs "S2") [(bs "a0", Some [5%N])];
    SRestart;
    SDisconnect; SDisconnect;
    SConnect (bs "S1'") [(bs "a0", Some [6%N]); (bs "a", Some [7%N])];
    SConnect (bs "S2'") [(bs "b", Some [8%N])];
    SDisconnect;
    SConnect (bs "S2") [(bs "a0", Some [5%N])] ]%string.

Example ex_ops_guards :
  ops_okb ex_ops = true /\ nonempty_values (chain_of ex_ops) = true /\
  hlen (chain_of ex_ops) = 3 /\
  forallb (fun k => Safe1 (k :: keys_of (chain_of ex_ops))) ex_keys = true.
Proof. repeat apply conj; vm_compute; reflexivity. Qed.

Definition ex_st : nstate := Eval vm_compute in run_state (srun false true sinit ex_ops).

Lemma ex_run : srun false true sinit ex_ops = Done (ex_st, chain_of ex_ops).
Proof. vm_compute. reflexivity. Qed.

Example ex_ops_reads :
  exists st, srun false true sinit ex_ops = Done (st, chain_of ex_ops) /\
    sdb_read false (fst st) (bs "S0") 1 (bs "a") = Done (0, Ok [1%N]) /\
    sdb_read false (fst st) (bs "S1'") 2 (bs "a") = Done (1, Ok [7%N]) /\
    sdb_read false (fst st) (bs "S1'") 2 (bs "b") = Done (1, Err ENotFound) /\
    sdb_read false (fst st) (bs "S2") 3 (bs "a0") = Done (2, Ok [5%N]) /\
    sdb_read false (fst st) (bs "S1") 2 (bs "a") = Panic 1.
Proof. exists ex_st. split; [exact ex_run|]. repeat apply conj; vm_compute; reflexivity. Qed.
