(** C38 — the timed statement for quiescent histories (one request at a time,
    time passing between requests, the timer function running as soon as it
    is due): every observation of "unlocked" falls inside the timeout of the
    most recent successful unlock.  This is the oracle [obs_ok_timed] that the
    correspondence check applies to the implementation's timed histories.
    Here: the histories, and what holds while one request runs alone. *)
From Coq Require Import List ZArith NArith Bool Lia Arith.
From C33 Require Import Lib.Harness C38.Model C38.Spec C38.ProofsMain.
Import ListNotations.
Open Scope Z_scope.

Inductive seq_op :=
| OCall (q : req)
| OPass (d : Z)
| ORestart.

Definition seq_step (g : gstate) (o : seq_op) : gstate :=
  match o with
  | OCall q => fst (call q g)
  | OPass d => pass d g
  | ORestart => exec1 g SRestart
  end.

Definition seq_run (ops : list seq_op) (g : gstate) : gstate := fold_left seq_step ops g.

Lemma timeout_ns_bound T : 0 <= T -> 0 <= timeout_ns T <= second * T.
Proof.
  intro H. unfold timeout_ns, wrap64, second.
  assert (0 <= (1000000000 * T + 2 ^ 63) mod 2 ^ 64 <= 1000000000 * T + 2 ^ 63).
  { split; [apply Z.mod_pos_bound; lia|apply Z.mod_le; lia]. }
  lia.
Qed.

Lemma timeout_ns_nonneg T : 0 <= timeout_ns T.
Proof. unfold timeout_ns. lia. Qed.

Lemma exec_app a b g : exec (a ++ b) g = exec b (exec a g).
Proof. unfold exec. apply fold_left_app. Qed.

Lemma exec_cons it sc g : exec (it :: sc) g = exec sc (exec1 g it).
Proof. reflexivity. Qed.

Lemma steps_done_noop n : forall g i,
  (match nth_error (thr g) i with Some (_, PDone _) | None => True | _ => False end) ->
  exec (repeat (SStep i) n) g = g.
Proof.
  induction n as [|n IH]; intros g i H; [reflexivity|].
  cbn [repeat]. rewrite exec_cons. replace (exec1 g (SStep i)) with g; [exact (IH g i H)|].
  unfold exec1. destruct (nth_error (thr g) i) as [[q []]|]; (reflexivity || contradiction).
Qed.

Lemma run_thread_sched fuel : forall i g,
  run_thread fuel i g = exec (repeat (SStep i) fuel) g.
Proof.
  induction fuel as [|f IH]; intros i g; [reflexivity|].
  cbn [run_thread repeat]. rewrite exec_cons.
  destruct (nth_error (thr g) i) as [[q c]|] eqn:E.
  - destruct c; try apply IH.
    symmetry. apply (steps_done_noop (S f)). rewrite E. exact I.
  - symmetry. apply (steps_done_noop (S f)). rewrite E. exact I.
Qed.

Lemma nth_error_last {A} (ts : list A) x : nth_error (ts ++ [x]) (length ts) = Some x.
Proof. rewrite nth_error_app2, Nat.sub_diag by lia. reflexivity. Qed.

Lemma upd_last {A} (ts : list A) x y : upd (length ts) y (ts ++ [x]) = ts ++ [y].
Proof. induction ts as [|z ts IH]; simpl; [reflexivity|]. rewrite IH. reflexivity. Qed.

Lemma exec1_last ts s q c tr :
  exec1 (mkG s (ts ++ [(q, c)]) tr) (SStep (length ts)) =
  match step_thread (length ts) s q c with
  | Some (s', c', e) => mkG s' (ts ++ [(q, c')]) (e ++ tr)
  | None => mkG s (ts ++ [(q, c)]) tr
  end.
Proof.
  unfold exec1. cbn [sh thr trace]. rewrite nth_error_last.
  destruct (step_thread (length ts) s q c) as [[[s' c'] e]|]; [rewrite upd_last|]; reflexivity.
Qed.

(** an upper bound on the steps a request still has to make *)
Definition rank (c : pc) : nat :=
  match c with
  | PDone _ => 0 | PRel _ => 1
  | PAcq => 7
  | PU_seed => 5 | PU_check => 4 | PU_cas => 3 | PU_timer => 2
  | PL_seed => 2 | PL_cas => 1
  | PS_flag => 6 | PS_seed => 5 | PS_verify => 4 | PS_hasseed => 3 | PS_write => 2
  | PX_flag => 4 | PX_seed => 3 | PX_secret => 2
  | PO_read => 2 | PO_seed _ => 1
  | PV_do => 2
  end%nat.

Lemma step_rank {i s q c s' c' evs} : step i s q c s' c' evs -> (rank c' < rank c)%nat.
Proof.
  destruct 1; unfold setpw_after_status; repeat case_if; simpl; try lia.
  destruct q; simpl; lia.
Qed.

Lemma step_progress i s q c :
  in_prog q c = true -> (c = PAcq -> mtx s = None) ->
  step_thread i s q c = None -> exists r, c = PDone r.
Proof.
  intros P A. destruct c; cbn; try discriminate;
    try (destruct q; (discriminate P || discriminate); fail).
  - rewrite A by reflexivity. discriminate.
  - eauto.
  - destruct q; try discriminate P.
    destruct (is_empty (mem_pw s)), (disk_pw s) as [d|]; try destruct (pw_eqb p d);
      try destruct (pw_eqb p (mem_pw s)); discriminate.
  - destruct q; try discriminate P.
    destruct (is_empty old), (disk_pw s) as [d|]; try destruct (pw_eqb old d); discriminate.
  - destruct q; try discriminate P.
    destruct (has_seed s), (is_empty p), (valid_pw p); discriminate.
Qed.

Fixpoint last_unlock (tr : list event) : option (Z * Z) :=
  match tr with
  | [] => None
  | EUnlock _ T tu :: _ => Some (T, tu)
  | ELock _ :: _ | ERestart :: _ => None
  | _ :: tl => last_unlock tl
  end.

Lemma auth_timed_last tr t :
  auth_timed tr t =
  match last_unlock tr with
  | Some (T, tu) => (T <=? 0) || (t <=? tu + second * T)
  | None => false
  end.
Proof. induction tr as [|e tr IH]; simpl; [reflexivity|]. destruct e; auto. Qed.

Definition K1 (s : shared) : Prop := forall dl, timer s = Some dl -> now s <= dl.

Definition TQ (s : shared) (tr : list event) : Prop :=
  locked s = false ->
  exists T tu, last_unlock tr = Some (T, tu)
               /\ (T <= 0 \/ exists dl, timer s = Some dl /\ dl <= tu + second * T).

(** what is known about the flag at each pc of a request that runs alone: between
    its CAS and the arming of the timer an unlock has cleared the flag at the
    present instant, and no deadline stands for it yet *)
Definition flag_clause (s : shared) (q : req) (c : pc) (tr : list event) : Prop :=
  match c with
  | PU_timer => locked s = false /\
                exists p0 T tk, q = QUnlock p0 T tk /\ last_unlock tr = Some (T, now s)
  | _ => TQ s tr
  end.

Lemma auth_now {s tr} : K1 s -> TQ s tr -> locked s = false -> auth_timed tr (now s) = true.
Proof.
  intros K T L. destruct (T L) as (T0 & tu & E & [Hn|(dl & Et & Hd)]); rewrite auth_timed_last, E.
  - apply orb_true_iff. left. apply Z.leb_le. exact Hn.
  - apply orb_true_iff. right. apply Z.leb_le. specialize (K _ Et). lia.
Qed.

Lemma auth_now_alone {s q c tr} :
  K1 s -> flag_clause s q c tr -> locked s = false -> auth_timed tr (now s) = true.
Proof.
  intros K F L. destruct c; try exact (auth_now K F L).
  destruct F as (_ & p0 & T & tk & _ & E). rewrite auth_timed_last, E.
  apply orb_true_iff. rewrite !Z.leb_le. unfold second. lia.
Qed.
