(** C38 — the lock LTS under every schedule: what one atomic step can do (the
    relation [step]), the invariant [Inv] that every schedule item keeps, and
    what it says about the trace. *)
From Coq Require Import List ZArith NArith Bool Lia Arith.
From C33 Require Import Lib.Harness C38.Model C38.Spec C38.Witness.
Import ListNotations.
Open Scope Z_scope.

Definition reach (sched : list sched_item) : gstate := exec sched init_g.

Lemma nth_error_upd_inv {A} (l : list A) i j x y :
  nth_error (upd i x l) j = Some y ->
  (j = i /\ y = x) \/ (j <> i /\ nth_error l j = Some y).
Proof.
  revert i j; induction l as [|z l IH]; intros [|i] [|j] H; simpl in H; try discriminate H.
  - left. split; congruence.
  - right. split; [discriminate|exact H].
  - right. split; [discriminate|exact H].
  - destruct (IH _ _ H) as [[-> ->]|[N E]]; [left|right]; auto.
Qed.

Lemma nth_error_snoc {A} (l : list A) x j y :
  nth_error (l ++ [x]) j = Some y ->
  nth_error l j = Some y \/ (j = length l /\ y = x).
Proof.
  intro H. destruct (Nat.lt_ge_cases j (length l)) as [L|L].
  - rewrite nth_error_app1 in H by exact L. left; exact H.
  - rewrite nth_error_app2 in H by exact L.
    destruct (j - length l)%nat eqn:E; simpl in H.
    + inversion H; subst. right. split; [lia|reflexivity].
    + destruct n; discriminate.
Qed.

(** One rule per outcome of [step_thread]: state and events are spelled out, a
    test that only chooses the next pc stays inside the rule.  The rules say what
    a step can do, not when: of the conditions only the free mutex of [PAcq] is
    kept.  Every lemma about a step goes through [step_of]. *)
Inductive step (i : nat) (s : shared) (q : req) : pc -> shared -> pc -> list event -> Prop :=
| step_acq : mtx s = None -> step i s q PAcq (set_mtx s (Some i)) (after_acq q) []
| step_rel r : step i s q (PRel r) (set_mtx s None) (PDone r) [ERet i r]
| step_u_seed :
    step i s q PU_seed s (if has_seed s then PU_check else PRel (RErr eSaveSeedFirst)) []
| step_u_ok p T tk : q = QUnlock p T tk ->
    step i s q PU_check (set_mem s p) (if tk then PRel ROk else PU_cas) []
| step_u_bad p T tk e : q = QUnlock p T tk -> step i s q PU_check s (PRel (RErr e)) []
| step_u_cas p T tk : q = QUnlock p T tk ->
    step i s q PU_cas (set_locked s false) (if T =? 0 then PRel ROk else PU_timer)
         [EUnlock i T (now s)]
| step_u_timer p T tk : q = QUnlock p T tk ->
    step i s q PU_timer (set_timer s (Some (now s + timeout_ns T))) (PRel ROk) []
| step_l_seed : step i s q PL_seed s PL_cas []
| step_l_noseed :
    step i s q PL_seed s (PDone (RErr eSaveSeedFirst)) [ERet i (RErr eSaveSeedFirst)]
| step_l_cas : step i s q PL_cas (set_locked s true) (PDone ROk) [ERet i ROk; ELock i]
| step_s_flag old nw : q = QSetPasswd old nw ->
    step i s q PS_flag s (if locked s then setpw_after_status nw else PS_seed) []
| step_s_seed old nw : q = QSetPasswd old nw ->
    step i s q PS_seed s
         (if has_seed s then setpw_after_status nw else PRel (RErr eSaveSeedFirst)) []
| step_s_verify old nw : q = QSetPasswd old nw ->
    step i s q PS_verify s (if verify_old s old then PS_hasseed else PRel (RErr eVerifyOld)) []
| step_s_hasseed :
    step i s q PS_hasseed s (if has_seed s then PS_write else PRel (RErr eSaveSeedFirst)) []
| step_s_write old nw : q = QSetPasswd old nw ->
    step i s q PS_write (set_pws s (Some nw) nw) (PRel ROk) []
| step_s_bad old nw e : q = QSetPasswd old nw -> step i s q PS_write s (PRel (RErr e)) []
| step_x_flag :
    step i s q PX_flag s (if locked s then PRel (RErr eLocked) else PX_seed)
         [EObs i (negb (locked s)) true (now s)]
| step_x_seed :
    step i s q PX_seed s (if has_seed s then PX_secret else PRel (RErr eSaveSeedFirst)) []
| step_x_import : q = QSecret KImport ->
    step i s q PX_secret (set_naccts s (naccts s + 1)%N) (PRel ROk) []
| step_x_none : step i s q PX_secret s (PRel (secret_result s q)) []
| step_x_secret k : q = QSecret k ->
    step i s q PX_secret s (PRel (secret_result s q)) [ESecret i]
| step_x_api a : q = QApiPriv a ->
    step i s q PX_secret s (PRel (secret_result s q)) [EApiSecret i]
| step_o_status : q = QStatus ->
    step i s q PO_read s (PO_seed (locked s)) [EObs i (negb (locked s)) false (now s)]
| step_o_locked :
    step i s q PO_read s (PDone (RBool (locked s)))
         [ERet i (RBool (locked s)); EObs i (negb (locked s)) false (now s)]
| step_o_seed v :
    step i s q (PO_seed v) s (PDone (RStatus v (has_seed s))) [ERet i (RStatus v (has_seed s))]
| step_v_ok p : q = QSaveSeed p -> step i s q PV_do (set_pws s (Some p) p) (PRel ROk) []
| step_v_bad p e : q = QSaveSeed p -> step i s q PV_do s (PRel (RErr e)) [].

Lemma step_of {i s q c s' c' evs} :
  step_thread i s q c = Some (s', c', evs) -> step i s q c s' c' evs.
Proof.
  assert (match step_thread i s q c with
          | Some (s', c', evs) => step i s q c s' c' evs
          | None => True
          end) as A.
  { (* split on every test that decides between [Some] and [None] or between two
       rules; then exactly one rule fits *)
    destruct c; cbn; [destruct (mtx s) eqn:?|..];
      repeat match goal with
             | |- match match ?x with _ => _ end with _ => _ end => destruct x
             end;
      try exact I;
      try match goal with
          | |- step _ _ _ PL_seed _ _ _ => destruct (has_seed s)
          | |- step _ _ _ PX_secret _ _ _ =>
              destruct q as [| | |[]| | | |]; cbn; try destruct (is_secret _)
          end;
      econstructor; eauto. }
  intro H. rewrite H in A. exact A.
Qed.

Definition in_prog (q : req) (c : pc) : bool :=
  match c with
  | PDone _ => true
  | PAcq | PRel _ => match q with QLock | QIsLocked | QStatus => false | _ => true end
  | PU_seed | PU_check | PU_cas | PU_timer => match q with QUnlock _ _ _ => true | _ => false end
  | PL_seed | PL_cas => match q with QLock => true | _ => false end
  | PS_flag | PS_seed | PS_verify | PS_hasseed | PS_write =>
      match q with QSetPasswd _ _ => true | _ => false end
  | PX_flag | PX_seed => match q with QSecret _ => true | _ => false end
  | PX_secret => match q with QSecret _ | QApiPriv _ => true | _ => false end
  | PO_read => match q with QIsLocked | QStatus => true | _ => false end
  | PO_seed _ => match q with QStatus => true | _ => false end
  | PV_do => match q with QSaveSeed _ => true | _ => false end
  end.

(** splits on the test that chooses the next pc *)
Ltac case_if := match goal with |- context [if ?b then _ else _] => destruct b end.

Lemma step_prog {i s q c s' c' evs} :
  step i s q c s' c' evs -> in_prog q c = true -> in_prog q c' = true.
Proof.
  intros H P. destruct H; subst; try (destruct q; try discriminate P);
    unfold setpw_after_status; repeat case_if; reflexivity.
Qed.

Lemma step_mutex {i s q c s' c' evs} :
  step i s q c s' c' evs -> in_prog q c = true ->
  (mtx s' = mtx s /\ holds c' = holds c)
  \/ (c = PAcq /\ mtx s = None /\ mtx s' = Some i /\ holds c' = true)
  \/ (mtx s' = None /\ holds c = true /\ holds c' = false).
Proof.
  intros H P. destruct H; unfold setpw_after_status; simpl;
    try (left; split; [reflexivity|repeat case_if; reflexivity]).
  - right; left. destruct q; try discriminate P; auto.
  - right; right. auto.
Qed.

Lemma step_class {i s q c s' c' evs} :
  step i s q c s' c' evs ->
  (c = PU_cas /\ forall tr, auth_of (evs ++ tr) = true)
  \/ (c = PL_cas /\ locked s' = true)
  \/ (locked s' = locked s /\ forall tr, auth_of (evs ++ tr) = auth_of tr).
Proof.
  destruct 1; auto.
Qed.

Lemma step_obs_ok {i s q c s' c' evs lf tr} :
  step i s q c s' c' evs ->
  obs_ok lf tr = true ->
  (locked s = false -> auth_of tr = true) ->
  obs_ok lf (evs ++ tr) = true.
Proof.
  intros H Htr Ha. destruct H; try exact Htr; simpl.
  (* the three rules that read the flag *)
  all: destruct (locked s); [exact Htr|]; simpl; rewrite Htr, andb_true_r; destruct lf; auto.
Qed.

Lemma obs_ok_weaken tr : obs_ok true tr = true -> obs_ok false tr = true.
Proof.
  induction tr as [|e tr IH]; simpl; [reflexivity|].
  destruct e; try exact IH. destruct unlocked; [|exact IH].
  intro H. apply andb_true_iff in H as [H1 H2]. rewrite (IH H2), andb_true_r.
  rewrite orb_true_r in H1. destruct held; simpl; [exact H1|reflexivity].
Qed.

Definition has_good_obs (i : nat) (tr : list event) : bool := existsb (is_good_obs i) tr.

Lemma has_good_obs_app i evs tr : has_good_obs i tr = true -> has_good_obs i (evs ++ tr) = true.
Proof. unfold has_good_obs. intro H. rewrite existsb_app, H. apply orb_true_r. Qed.

Definition past_flag (q : req) (c : pc) : bool :=
  match c, q with (PX_seed | PX_secret), QSecret _ => true | _, _ => false end.

Lemma step_secrets_ok {i s q c s' c' evs tr} :
  step i s q c s' c' evs ->
  secrets_ok tr = true ->
  (past_flag q c = true -> has_good_obs i tr = true) ->
  secrets_ok (evs ++ tr) = true.
Proof.
  intros H Htr Hs. destruct H; try exact Htr.
  subst q. simpl. rewrite Htr, andb_true_r. apply Hs. reflexivity.
Qed.

Lemma step_past_flag {i s q c s' c' evs} :
  step i s q c s' c' evs -> past_flag q c' = true ->
  past_flag q c = true \/ evs = [EObs i true true (now s)].
Proof.
  destruct 1; unfold setpw_after_status; repeat case_if; try discriminate; auto.
  destruct q; discriminate.
Qed.

Record thread_inv (g : gstate) (i : nat) (q : req) (c : pc) : Prop := mkThreadInv {
  ti_prog : in_prog q c = true;
  ti_mutex : holds c = true -> mtx (sh g) = Some i;
  ti_obs : past_flag q c = true -> has_good_obs i (trace g) = true;
}.

Arguments ti_prog {g i q c}.
Arguments ti_mutex {g i q c}.

Record Inv (g : gstate) : Prop := mkInv {
  inv_thr : forall i q c, nth_error (thr g) i = Some (q, c) -> thread_inv g i q c;
  inv_flag : locked (sh g) = false -> auth_of (trace g) = true;
  inv_all : obs_ok true (trace g) = true;
  inv_secrets : secrets_ok (trace g) = true;
}.

Lemma Inv_init : Inv init_g.
Proof. constructor; try reflexivity; [intros [|i] q c H|intro H]; discriminate H. Qed.

Lemma Inv_spawn g q : Inv g -> Inv (exec1 g (SSpawn q)).
Proof.
  intros [T F Ha Hs]. constructor; try assumption.
  intros i q' c Hi. apply nth_error_snoc in Hi as [Hi|[_ [= -> ->]]].
  - destruct (T _ _ _ Hi). constructor; assumption.
  - destruct q; constructor; (reflexivity || discriminate).
Qed.

Lemma Inv_advance g d : Inv g -> Inv (exec1 g (SAdvance d)).
Proof.
  intros I. unfold exec1. destruct (d <? 0); [exact I|].
  assert (I' : Inv (mkG (set_now (sh g) (now (sh g) + d)) (thr g) (trace g))).
  { destruct I as [T F Ha Hs]. constructor; try assumption.
    intros i q c Hi. destruct (T _ _ _ Hi). constructor; assumption. }
  destruct (timer (sh g)) as [dl|]; [destruct (now (sh g) + d <=? dl)|]; assumption.
Qed.

Lemma Inv_fire g : Inv g -> Inv (exec1 g SFire).
Proof.
  intros I. unfold exec1. destruct (timer (sh g)) as [dl|]; [|exact I].
  destruct (dl <=? now (sh g)); [|exact I].
  destruct I as [T F Ha Hs]. constructor; try assumption.
  - intros i q c Hi. destruct (T _ _ _ Hi). constructor; assumption.
  - discriminate.
Qed.

Lemma Inv_restart g : Inv g -> Inv (exec1 g SRestart).
Proof.
  intros I. unfold exec1. destruct (forallb is_done (thr g)) eqn:D; [|exact I].
  destruct I as [T F Ha Hs]. constructor; try assumption; [|discriminate].
  intros i q c Hi. rewrite forallb_forall in D. apply nth_error_In, D in Hi.
  destruct c; try discriminate Hi. constructor; (reflexivity || discriminate).
Qed.

Lemma Inv_step g i : Inv g -> Inv (exec1 g (SStep i)).
Proof.
  intros I. unfold exec1.
  destruct (nth_error (thr g) i) as [[q c]|] eqn:Hi; [|exact I].
  destruct (step_thread i (sh g) q c) as [[[s' c'] evs]|] eqn:Hst; [|exact I].
  apply step_of in Hst. destruct I as [T F Ha Hs]. destruct (T _ _ _ Hi) as [P M G].
  pose proof (step_mutex Hst P) as SM.
  constructor; cbn [sh thr trace].
  - intros j qj cj Hj. apply nth_error_upd_inv in Hj as [[-> [= -> ->]]|[Hne Hj]].
    + (* the thread that moved *)
      constructor; cbn [sh trace].
      * exact (step_prog Hst P).
      * intro Hh. destruct SM as [[E Eh]|[(_ & _ & E & _)|(_ & _ & Eh)]];
          [rewrite E; apply M|exact E|]; congruence.
      * intro Hp. destruct (step_past_flag Hst Hp) as [Hp'| ->].
        -- apply has_good_obs_app, G, Hp'.
        -- unfold has_good_obs. simpl. rewrite Nat.eqb_refl. reflexivity.
    + (* the others: the mutex is not taken while one of them holds it *)
      destruct (T _ _ _ Hj) as [Pj Mj Gj]. constructor; cbn [sh trace].
      * exact Pj.
      * intro Hh. specialize (Mj Hh). destruct SM as [[E _]|[(_ & En & _)|(_ & Hc & _)]].
        -- rewrite E. exact Mj.
        -- congruence.
        -- specialize (M Hc). congruence.
      * intro Hp. apply has_good_obs_app, Gj, Hp.
  - intros Hl. destruct (step_class Hst) as [[_ A]|[[_ L]|[L A]]].
    + apply A.
    + congruence.
    + rewrite A. apply F. congruence.
  - exact (step_obs_ok Hst Ha F).
  - exact (step_secrets_ok Hst Hs G).
Qed.

Lemma Inv_exec sched : forall g, Inv g -> Inv (exec sched g).
Proof.
  induction sched as [|it tl IH]; intros g I; [exact I|].
  apply IH. destruct it;
    [apply Inv_spawn|apply Inv_step|apply Inv_advance|apply Inv_fire|apply Inv_restart]; exact I.
Qed.

Lemma Inv_reachable sched : Inv (reach sched).
Proof. exact (Inv_exec sched _ Inv_init). Qed.

Lemma secrets_ok_split l1 i l2 :
  secrets_ok (l1 ++ ESecret i :: l2) = true -> has_good_obs i l2 = true.
Proof.
  induction l1 as [|e l1 IH]; simpl.
  - intro H. apply andb_true_iff in H as [H _]. exact H.
  - destruct e; try exact IH. intro H. apply andb_true_iff in H as [_ H]. exact (IH H).
Qed.

Lemma good_obs_in i l : has_good_obs i l = true -> exists t, In (EObs i true true t) l.
Proof.
  unfold has_good_obs. rewrite existsb_exists. intros [e [Hin He]].
  destruct e; simpl in He; try discriminate.
  destruct unlocked, held; try discriminate.
  apply Nat.eqb_eq in He. subst. eauto.
Qed.

(** a request returns a stored secret only after its own flag test, made under
    the mutex, saw the wallet unlocked *)
Lemma no_secret_while_locked sched i newer older :
  trace (reach sched) = newer ++ ESecret i :: older ->
  exists t, In (EObs i true true t) older.
Proof.
  intro H. pose proof (inv_secrets _ (Inv_reachable sched)) as S.
  rewrite H in S. apply good_obs_in, (secrets_ok_split _ _ _ S).
Qed.

(** every observer (lock-free or not) sees "unlocked" only after a successful
    unlock with no lock / timeout / restart in between *)
Lemma observed_unlocked sched : obs_ok true (trace (reach sched)) = true.
Proof. exact (inv_all _ (Inv_reachable sched)). Qed.

(** non-vacuity, with real concurrency: a password change (right old password,
    wallet unlocked) is in flight while Lock and IsWalletLocked run; a seed
    request waits for the mutex and is then refused; the change succeeds and the
    wallet stays locked until it is unlocked with the NEW password, after which
    the seed is handed out *)
Definition sched_concurrent : list sched_item :=
  [SSpawn (QSaveSeed pwA)] ++ steps 0 3
  ++ [SSpawn (QUnlock pwA 5 false)] ++ steps 1 6
  ++ [SSpawn QIsLocked] ++ steps 2 1
  ++ [SSpawn (QSetPasswd pwA pwB)] ++ steps 3 4
  ++ [SSpawn (QSecret (KSeed pwB)); SStep 4]         (* waits *)
  ++ [SSpawn QLock] ++ steps 5 2
  ++ [SSpawn QIsLocked] ++ steps 6 1
  ++ steps 3 3 ++ steps 4 3
  ++ [SAdvance (5 * second); SFire; SSpawn QStatus] ++ steps 7 2
  ++ [SSpawn (QUnlock pwA 0 false)] ++ steps 8 4
  ++ [SSpawn (QUnlock pwB 0 false)] ++ steps 9 5
  ++ [SSpawn (QSecret (KSeed pwB))] ++ steps 10 5.
