(** C38 — quiescent histories satisfy the timed oracle: the invariant [LI] of a
    request running alone, and the invariant [QI] between requests, which every
    operation of a history keeps. *)
From Coq Require Import List ZArith NArith Bool Lia Arith.
From C33 Require Import Lib.Harness C38.Model C38.Spec C38.ProofsMain C38.ProofsTimed.
Import ListNotations.
Open Scope Z_scope.

Lemma TQ_locked s tr : locked s = true -> TQ s tr.
Proof. intros L L'. congruence. Qed.

Lemma TQ_same s s' tr tr' :
  locked s' = locked s -> timer s' = timer s -> last_unlock tr' = last_unlock tr ->
  TQ s tr -> TQ s' tr'.
Proof. unfold TQ. intros -> -> ->. auto. Qed.

Lemma K1_same s s' : timer s' = timer s -> now s' = now s -> K1 s -> K1 s'.
Proof. unfold K1. intros -> ->. auto. Qed.

(** a request running alone as thread [n]; [tr] is the whole trace *)
Record LI (n : nat) (s : shared) (q : req) (c : pc) (tr : list event) : Prop := mkLI {
  li_pc : in_prog q c = true;
  li_mtx : mtx s = if holds c then Some n else None;
  li_k1 : K1 s;
  li_obs : obs_ok_timed tr = true;
  li_flag : flag_clause s q c tr;
}.
Arguments li_pc {n s q c tr}.
Arguments li_mtx {n s q c tr}.

Lemma step_K1 {n s q c s' c' e} : step n s q c s' c' e -> K1 s -> K1 s'.
Proof.
  intros H K. destruct H; try exact K.
  intros dl [= <-]. pose proof (timeout_ns_nonneg T). simpl. lia.
Qed.

Lemma step_obs_timed {n s q c s' c' e tr} :
  step n s q c s' c' e ->
  obs_ok_timed tr = true ->
  (locked s = false -> auth_timed tr (now s) = true) ->
  obs_ok_timed (e ++ tr) = true.
Proof.
  intros H Htr Ha. destruct H; try exact Htr; simpl.
  (* the three rules that read the flag *)
  all: destruct (locked s); [exact Htr|]; simpl; rewrite Ha, Htr; reflexivity.
Qed.

Lemma step_clause {n s q c s' c' e tr} :
  step n s q c s' c' e -> flag_clause s q c tr -> flag_clause s' q c' (e ++ tr).
Proof.
  intros H F. destruct H; unfold setpw_after_status; simpl in F |- *;
    try (repeat case_if; exact F).
  - destruct q; exact F.
  - (* the CAS: no timeout, or the timer is armed next *)
    destruct (T =? 0) eqn:E; simpl; [|eauto 7].
    apply Z.eqb_eq in E. intros _. exists T, (now s). split; [reflexivity|lia].
  - (* the timer is armed inside the window *)
    destruct F as (L & p0 & T0 & tk0 & Eq & LU). subst q. injection Eq as <- <- <-.
    intros _. exists T, (now s). split; [exact LU|].
    destruct (Z.le_gt_cases T 0) as [Le|Gt]; [left; exact Le|right].
    eexists. split; [reflexivity|]. pose proof (timeout_ns_bound T). lia.
  - apply TQ_locked. reflexivity.
Qed.

Lemma step_LI {n s q c tr s' c' e} :
  LI n s q c tr -> step n s q c s' c' e -> LI n s' q c' (e ++ tr).
Proof.
  intros [P M K O F] H. constructor.
  - exact (step_prog H P).
  - destruct (step_mutex H P) as [[-> ->]|[(_ & _ & -> & ->)|(-> & _ & ->)]];
      [exact M|reflexivity..].
  - exact (step_K1 H K).
  - exact (step_obs_timed H O (auth_now_alone K F)).
  - exact (step_clause H F).
Qed.

Lemma steps_alone ts q k : forall s c tr,
  LI (length ts) s q c tr ->
  exists s' c' tr',
    exec (repeat (SStep (length ts)) k) (mkG s (ts ++ [(q, c)]) tr) = mkG s' (ts ++ [(q, c')]) tr'
    /\ LI (length ts) s' q c' tr' /\ ((rank c <= k)%nat -> exists r, c' = PDone r).
Proof.
  induction k as [|k IH]; intros s c tr L.
  - exists s, c, tr. split; [reflexivity|split; [exact L|]]. destruct c; simpl; try lia. eauto.
  - cbn [repeat]. rewrite exec_cons, exec1_last.
    destruct (step_thread (length ts) s q c) as [[[s1 c1] e1]|] eqn:E.
    + apply step_of in E. destruct (IH _ _ _ (step_LI L E)) as (s' & c' & tr' & R & L' & D).
      exists s', c', tr'. split; [exact R|split; [exact L'|]].
      intro. apply D. pose proof (step_rank E). lia.
    + destruct (step_progress (length ts) s q c (li_pc L)) as [r ->];
        [intros ->; exact (li_mtx L)|exact E|].
      destruct (IH _ _ _ L) as (s' & c' & tr' & R & L' & D).
      exists s', c', tr'. split; [exact R|split; [exact L'|]]. intros _. apply D. simpl. lia.
Qed.

Record QI (g : gstate) : Prop := mkQI {
  qi_done : forallb is_done (thr g) = true;
  qi_mtx : mtx (sh g) = None;
  qi_k1 : K1 (sh g);
  qi_tq : TQ (sh g) (trace g);
  qi_obs : obs_ok_timed (trace g) = true;
}.

Lemma QI_init : QI init_g.
Proof. constructor; try reflexivity; intro; discriminate. Qed.

Lemma call_alone q g :
  QI g ->
  exists s r tr, fst (call q g) = mkG s (thr g ++ [(q, PDone r)]) tr
                 /\ LI (length (thr g)) s q (PDone r) tr.
Proof.
  intros [D M K T O]. unfold call. cbn [fst]. rewrite run_thread_sched.
  destruct (steps_alone (thr g) q 16 (sh g) (init_pc q) (ESpawn (length (thr g)) q :: trace g))
    as (s & c & tr & R & L & Fin).
  { destruct q; constructor; try assumption; reflexivity. }
  destruct Fin as [r ->]. { destruct q; simpl; lia. }
  exists s, r, tr. split; [exact R|exact L].
Qed.

Lemma QI_call g q : QI g -> QI (fst (call q g)).
Proof.
  intro Q. destruct (call_alone q g Q) as (s & r & tr & -> & [_ M K O F]).
  constructor; cbn [sh thr trace]; try assumption.
  rewrite forallb_app, (qi_done _ Q). reflexivity.
Qed.

Lemma QI_advance g d : QI g -> QI (exec1 g (SAdvance d)).
Proof.
  intros Q. unfold exec1. destruct (d <? 0); [exact Q|].
  assert (K1 (set_now (sh g) (now (sh g) + d)) ->
          QI (mkG (set_now (sh g) (now (sh g) + d)) (thr g) (trace g))) as A.
  { intro K. destruct Q. constructor; assumption. }
  destruct (timer (sh g)) as [dl|] eqn:Et.
  - destruct (Z.leb_spec (now (sh g) + d) dl) as [Le|_]; [|exact Q].
    apply A. intros dl' E. simpl in E |- *. rewrite Et in E. injection E as <-. exact Le.
  - apply A. intros dl' E. simpl in E. congruence.
Qed.

Lemma QI_fire g : QI g -> QI (exec1 g SFire).
Proof.
  intros Q. unfold exec1. destruct (timer (sh g)) as [dl|]; [|exact Q].
  destruct (dl <=? now (sh g)); [|exact Q].
  destruct Q. constructor; try assumption; [discriminate|apply TQ_locked; reflexivity].
Qed.

Lemma QI_restart g : QI g -> QI (exec1 g SRestart).
Proof.
  intros Q. unfold exec1. destruct (forallb is_done (thr g)); [|exact Q].
  destruct Q. constructor; try assumption; [reflexivity|discriminate|apply TQ_locked; reflexivity].
Qed.

Lemma QI_pass g d : QI g -> QI (pass d g).
Proof.
  intro Q. unfold pass. destruct (timer (sh g)) as [dl|].
  - destruct (now (sh g) + d <? dl); [apply QI_advance, Q|].
    apply QI_advance, QI_fire, QI_advance, Q.
  - apply QI_advance, Q.
Qed.

Lemma QI_seq ops : forall g, QI g -> QI (seq_run ops g).
Proof.
  unfold seq_run. induction ops as [|o ops IH]; intros g Q; simpl; [exact Q|].
  apply IH. destruct o; [apply QI_call|apply QI_pass|apply QI_restart]; exact Q.
Qed.

Definition pwT : pw := [97; 98; 99; 100; 49; 50; 51; 52]%N.
(** non-vacuity: a 1 s unlock seen unlocked after 0.5 s and locked after 1.5 s;
    a negative timeout that overflows int64 stays unlocked (unconstrained by the oracle) *)
Definition ops_example : list seq_op :=
  [OCall (QSaveSeed pwT); OCall (QUnlock pwT 1 false); OPass 500000000; OCall QIsLocked;
   OPass 1000000000; OCall QIsLocked; OCall (QSecret (KSeed pwT));
   OCall (QUnlock pwT (-9223372037) false); OPass 1000000000; OCall QIsLocked].
