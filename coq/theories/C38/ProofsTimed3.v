(** C38 — secrets in quiescent histories.  A quiescent history ([seq_run]) is
    one particular schedule of the step-level LTS, so the invariant of arbitrary
    schedules ([Inv], C38.ProofsMain) holds for it beside [QI]; and a request for
    a secret made in a quiescent state whose flag is set is refused.  The example
    is what the harness's timed batteries test on the real wallet: the same
    secret-returning request for the same account, inside the window and after
    it has closed. *)
From Coq Require Import List ZArith NArith Bool.
From C33 Require Import Lib.Harness C38.Model C38.Spec C38.ProofsMain
  C38.ProofsTimed C38.ProofsTimed2.
Import ListNotations.
Open Scope Z_scope.

Definition op_sched (g : gstate) (o : seq_op) : list sched_item :=
  match o with
  | OCall q => SSpawn q :: repeat (SStep (length (thr g))) 16
  | OPass d =>
      match timer (sh g) with
      | Some dl =>
          if now (sh g) + d <? dl then [SAdvance d]
          else let d1 := Z.max 0 (dl - now (sh g)) in [SAdvance d1; SFire; SAdvance (d - d1)]
      | None => [SAdvance d]
      end
  | ORestart => [SRestart]
  end.

Lemma seq_step_sched g o : seq_step g o = exec (op_sched g o) g.
Proof.
  destruct o as [q|d|]; cbn [seq_step op_sched].
  - unfold call. cbn [fst]. apply run_thread_sched.
  - unfold pass. destruct (timer (sh g)) as [dl|]; [|reflexivity].
    destruct (now (sh g) + d <? dl); reflexivity.
  - reflexivity.
Qed.

Lemma seq_run_sched ops : forall g, exists sched, seq_run ops g = exec sched g.
Proof.
  unfold seq_run. induction ops as [|o ops IH]; intro g.
  - exists []. reflexivity.
  - cbn [fold_left]. destruct (IH (seq_step g o)) as [sc E].
    exists (op_sched g o ++ sc). rewrite exec_app, <- seq_step_sched. exact E.
Qed.

Lemma obs_ok_timed_at l1 : forall i h t l2,
  obs_ok_timed (l1 ++ EObs i true h t :: l2) = true -> auth_timed l2 t = true.
Proof.
  induction l1 as [|e l1 IH]; intros i h t l2 H.
  - simpl in H. apply andb_true_iff in H as [H _]. exact H.
  - cbn [app obs_ok_timed] in H.
    destruct e; try exact (IH _ _ _ _ H).
    destruct unlocked; [|exact (IH _ _ _ _ H)].
    apply andb_true_iff in H as [_ H]. exact (IH _ _ _ _ H).
Qed.

Lemma step_alone k ts s q c tr s' c' e :
  step_thread (length ts) s q c = Some (s', c', e) ->
  exec (repeat (SStep (length ts)) (S k)) (mkG s (ts ++ [(q, c)]) tr)
  = exec (repeat (SStep (length ts)) k) (mkG s' (ts ++ [(q, c')]) (e ++ tr)).
Proof. intro H. cbn [repeat]. rewrite exec_cons, exec1_last, H. reflexivity. Qed.

(** three steps: the mutex is free, the flag is set, the mutex is released *)
Lemma call_secret_locked g k :
  QI g -> locked (sh g) = true -> snd (call (QSecret k) g) = Some (RErr eLocked).
Proof.
  intros Q L. pose proof (qi_mtx _ Q) as M. unfold call. cbn [snd]. rewrite run_thread_sched.
  destruct g as [s ts tr]. cbn [sh thr trace exec1 init_pc] in *.
  rewrite (step_alone 15 ts s _ PAcq _ (set_mtx s (Some (length ts))) PX_flag [])
    by (cbn [step_thread]; rewrite M; reflexivity).
  rewrite (step_alone 14 ts _ _ PX_flag _ _ (PRel (RErr eLocked)) _)
    by (cbn [step_thread set_mtx locked]; rewrite L; reflexivity).
  rewrite (step_alone 13 ts _ _ (PRel _) _ _ _ _) by reflexivity.
  rewrite steps_done_noop by (cbn [thr]; rewrite nth_error_last; exact I).
  unfold result_of. cbn [thr]. rewrite nth_error_last. reflexivity.
Qed.

(** non-vacuity: a 1 s unlock; the seed is handed out after 0.5 s and refused
    after 1.5 s, and again after a failed re-unlock *)
Definition ops_secret_example : list seq_op :=
  [OCall (QSaveSeed pwT); OCall (QUnlock pwT 1 false); OPass 500000000;
   OCall (QSecret (KSeed pwT)); OPass 1000000000; OCall (QSecret (KSeed pwT));
   OCall (QUnlock [] 2 false); OCall (QSecret (KSeed pwT))].

Example secret_example :
  let g := seq_run ops_secret_example init_g in
  result_of g 2 = Some RSecret /\ result_of g 3 = Some (RErr eLocked)
  /\ result_of g 5 = Some (RErr eLocked)
  /\ existsb (fun e => match e with ESecret _ => true | _ => false end) (trace g) = true
  /\ auth_timed (trace g) (now (sh g)) = false.
Proof. vm_compute. repeat split; reflexivity. Qed.
