(** C38 — the property theorems, read off the invariant of arbitrary schedules
    ([Inv], C38.ProofsMain) and that of quiescent histories ([QI], C38.ProofsTimed2).
    [reach sched] is the state of the lock LTS
    (C38.Model) after an arbitrary schedule of atomic steps of arbitrarily
    many requests, timer expiries, passages of time and restarts; [trace] is
    its event history (newest first); [obs_ok] / [auth_of] (C38.Spec) say that
    every observation of "unlocked" is preceded by an unlock whose password was
    verified, with no lock / timer expiry / restart in between. *)
From Coq Require Import List ZArith NArith Bool.
From C33 Require Import C38.Model C38.Spec C38.Witness C38.ProofsMain C38.ProofsTimed C38.ProofsTimed2 C38.ProofsTimed3.
Import ListNotations.
Open Scope Z_scope.

Theorem C38_mutex_exclusive : forall sched i j qi ci qj cj,
  nth_error (thr (reach sched)) i = Some (qi, ci) ->
  nth_error (thr (reach sched)) j = Some (qj, cj) ->
  holds ci = true -> holds cj = true -> i = j.
Proof.
  intros sched i j qi ci qj cj Hi Hj Hci Hcj. pose proof (inv_thr _ (Inv_reachable sched)) as T.
  pose proof (ti_mutex (T _ _ _ Hi) Hci) as A.
  pose proof (ti_mutex (T _ _ _ Hj) Hcj) as B. congruence.
Qed.
Print Assumptions C38_mutex_exclusive.

Theorem C38_no_secret_while_locked : forall sched i newer older,
  trace (reach sched) = newer ++ ESecret i :: older ->
  exists t, In (EObs i true true t) older.
Proof. exact no_secret_while_locked. Qed.
Print Assumptions C38_no_secret_while_locked.

(** no step of a ProcWalletSetPasswd request changes the lock flag, in any state
    reachable by any schedule (chain33 66be1e2 removed the temporary unlock) *)
Theorem C38_setpasswd_leaves_flag : forall sched i old nw c,
  nth_error (thr (reach sched)) i = Some (QSetPasswd old nw, c) ->
  locked (sh (exec1 (reach sched) (SStep i))) = locked (sh (reach sched)).
Proof.
  intros sched i old nw c Hi.
  pose proof (ti_prog (inv_thr _ (Inv_reachable sched) _ _ _ Hi)) as P.
  unfold exec1. rewrite Hi.
  destruct (step_thread i (sh (reach sched)) (QSetPasswd old nw) c) as [[[s' c'] evs]|] eqn:E;
    [|reflexivity].
  (* the two steps that write the flag are not in the program of this request *)
  destruct (step_class (step_of E)) as [[-> _]|[[-> _]|[L _]]];
    [discriminate P..|exact L].
Qed.
Print Assumptions C38_setpasswd_leaves_flag.

(** full strength, every schedule: every observer, lock-free (IsWalletLocked /
    GetWalletStatus) or under the mutex, sees "unlocked" only after a verified
    unlock with no lock / timer expiry / restart since *)
Theorem C38_observed_unlocked_implies_unlock_before : forall sched,
  obs_ok true (trace (reach sched)) = true.
Proof. exact observed_unlocked. Qed.
Print Assumptions C38_observed_unlocked_implies_unlock_before.

Theorem C38_secret_implies_unlock_before : forall sched,
  obs_ok false (trace (reach sched)) = true.
Proof. intro sched. apply obs_ok_weaken, observed_unlocked. Qed.
Print Assumptions C38_secret_implies_unlock_before.

Theorem C38_flag_clear_implies_unlock_before : forall sched,
  locked (sh (reach sched)) = false -> auth_of (trace (reach sched)) = true.
Proof. intro sched. exact (inv_flag _ (Inv_reachable sched)). Qed.
Print Assumptions C38_flag_clear_implies_unlock_before.

(** the schedule of finding C38-F1: IsWalletLocked, asked while a password change
    with a wrong old password holds the mutex, says "locked" (before chain33
    66be1e2 it said "unlocked") *)
Theorem C38_window_closed :
  let g := reach sched_window in
  result_of g 0 = Some ROk
  /\ result_of g 1 = Some (RErr eVerifyOld)
  /\ result_of g 2 = Some (RBool true)
  /\ locked (sh g) = true.
Proof. vm_compute. repeat split; reflexivity. Qed.
Print Assumptions C38_window_closed.

(** the schedule of finding C38-F2: a ProcWalletLock that completes between the
    flag test and the rest of a failing password change stays in effect (before
    chain33 66be1e2 the password change put "unlocked" back) *)
Theorem C38_lock_survives_setpasswd :
  let g := reach sched_lock_race in
  result_of g 1 = Some ROk
  /\ result_of g 2 = Some (RErr eVerifyOld)
  /\ result_of g 3 = Some ROk
  /\ result_of g 4 = Some (RErr eLocked)
  /\ locked (sh g) = true.
Proof. vm_compute. repeat split; reflexivity. Qed.
Print Assumptions C38_lock_survives_setpasswd.

Theorem C38_concurrent_example :
  let g := reach sched_concurrent in
  result_of g 2 = Some (RBool false)
  /\ result_of g 3 = Some ROk
  /\ result_of g 4 = Some (RErr eLocked)
  /\ result_of g 6 = Some (RBool true)
  /\ result_of g 7 = Some (RStatus true true)
  /\ result_of g 8 = Some (RErr eInputPw)
  /\ result_of g 9 = Some ROk
  /\ result_of g 10 = Some RSecret
  /\ existsb (fun e => match e with EObs _ true _ _ => true | _ => false end) (trace g) = true.
Proof. vm_compute. repeat split; reflexivity. Qed.
Print Assumptions C38_concurrent_example.

(** quiescent histories ([seq_run]: one request at a time, time passing in
    between, the timer function running as soon as it is due, restarts): the
    timed oracle [obs_ok_timed] holds, for every int64 timeout *)
Theorem C38_timeout_respected_seq : forall ops,
  obs_ok_timed (trace (seq_run ops init_g)) = true.
Proof. intro ops. exact (qi_obs _ (QI_seq ops _ QI_init)). Qed.
Print Assumptions C38_timeout_respected_seq.

Theorem C38_unlocked_inside_timeout_seq : forall ops,
  let g := seq_run ops init_g in
  locked (sh g) = false -> auth_timed (trace g) (now (sh g)) = true.
Proof.
  intros ops g L. pose proof (QI_seq ops _ QI_init) as Q.
  exact (auth_now (qi_k1 _ Q) (qi_tq _ Q) L).
Qed.
Print Assumptions C38_unlocked_inside_timeout_seq.

Theorem C38_timed_example :
  let g := seq_run ops_example init_g in
  result_of g 2 = Some (RBool false) /\ result_of g 3 = Some (RBool true)
  /\ result_of g 4 = Some (RErr eLocked) /\ result_of g 6 = Some (RBool false).
Proof. vm_compute. repeat split; reflexivity. Qed.
Print Assumptions C38_timed_example.

(** quiescent histories: whenever a request hands out a stored key, the seed or
    a signature made with a stored key ([ESecret i]), its own flag test under the
    mutex ([EObs i true true t]) was made at a time t at which the most recent
    successful unlock - with no lock and no restart since - had no timeout
    (T <= 0) or was at most T seconds old.  (Time does not pass inside a request
    of a quiescent history, so t is also the time of the reply.) *)
Theorem C38_no_secret_after_timeout : forall ops i newer older,
  trace (seq_run ops init_g) = newer ++ ESecret i :: older ->
  exists t mid older',
    older = mid ++ EObs i true true t :: older' /\ auth_timed older' t = true.
Proof.
  intros ops i newer older H. destruct (seq_run_sched ops init_g) as [sched E].
  assert (H' : trace (reach sched) = newer ++ ESecret i :: older) by (rewrite <- H, E; reflexivity).
  destruct (no_secret_while_locked _ _ _ _ H') as [t Hin].
  apply in_split in Hin as (mid & older' & ->).
  exists t, mid, older'. split; [reflexivity|].
  pose proof (C38_timeout_respected_seq ops) as O. rewrite H in O.
  change (newer ++ ESecret i :: mid ++ EObs i true true t :: older')
    with (newer ++ (ESecret i :: mid) ++ EObs i true true t :: older') in O.
  rewrite app_assoc in O. exact (obs_ok_timed_at _ _ _ _ _ O).
Qed.
Print Assumptions C38_no_secret_after_timeout.

(** the form the timed batteries of the harness test: after any quiescent
    history whose last successful unlock has expired (or was followed by a lock
    or a restart, or never happened), every request that needs the unlocked
    wallet - DumpPrivkey, GetSeed, SignRawTx by address, ImportPrivKey,
    SendToAddress, CheckWalletStatus, for every account - is refused with
    ErrWalletIsLocked, whatever was handed out for the same account before *)
Theorem C38_refused_after_timeout : forall ops k,
  let g := seq_run ops init_g in
  auth_timed (trace g) (now (sh g)) = false ->
  snd (call (QSecret k) g) = Some (RErr eLocked).
Proof.
  intros ops k g A. subst g. apply call_secret_locked; [exact (QI_seq ops _ QI_init)|].
  destruct (locked (sh (seq_run ops init_g))) eqn:L; [reflexivity|].
  pose proof (C38_unlocked_inside_timeout_seq ops L). congruence.
Qed.
Print Assumptions C38_refused_after_timeout.

Theorem C38_secret_timed_example :
  let g := seq_run ops_secret_example init_g in
  result_of g 2 = Some RSecret /\ result_of g 3 = Some (RErr eLocked)
  /\ result_of g 5 = Some (RErr eLocked)
  /\ existsb (fun e => match e with ESecret _ => true | _ => false end) (trace g) = true
  /\ auth_timed (trace g) (now (sh g)) = false.
Proof. exact secret_example. Qed.
Print Assumptions C38_secret_timed_example.
