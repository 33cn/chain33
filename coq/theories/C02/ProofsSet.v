(** C02 — the annotated [aset] (with loads, orphanings, prefixes and panics)
    refines C01's pure [set] on the trees the hashes denote, and on a version
    without unresolved children it fails only where [set] fails. *)
From Coq Require Import List ZArith NArith Bool Lia.
From C33 Require Import C01.Keys C01.KeysFacts C01.Model C01.Store C01.Inv C01.ProofsStore
  C02.Model C02.ProofsHash.
Import ListNotations.
Open Scope Z_scope.

(** the pure tree an annotated node stands for *)
Definition den (t : atree) : tree := toh (ahash t).

(** what a node knows about itself agrees with its structure *)
Fixpoint acons (t : atree) : Prop :=
  match t with
  | AMissing _ => True
  | ALeaf a k v =>
      match a with
      | ANew => True
      | AHashed K | APers K => exists v', snd K = HLeaf k v'
      end
  | ANode a key h s l r =>
      acons l /\ acons r /\ key = hleftmost (ahash r) /\
      match a with
      | ANew => True
      | AHashed K | APers K => snd K = HInner h s (ahash l) (ahash r)
      end
  end.

Lemma hleftmost_den : forall t, hleftmost (ahash t) = leftmost (den t).
Proof. intros t. unfold den. symmetry. apply leftmost_toh. Qed.

Lemma acons_node_inv : forall a key h s l r,
  acons (ANode a key h s l r) -> acons l /\ acons r /\ key = hleftmost (ahash r).
Proof. intros a key h s l r (A & B & C & _). auto. Qed.

Lemma den_node : forall a key h s l r,
  acons (ANode a key h s l r) -> den (ANode a key h s l r) = Node key h s (den l) (den r).
Proof.
  intros a key h s l r (Hl & Hr & Hk & Ha). unfold den.
  destruct a as [|K|K]; simpl ahash; [|rewrite Ha..]; simpl; subst key; reflexivity.
Qed.

Lemma den_leaf : forall a k v, acons (ALeaf a k v) -> exists v', den (ALeaf a k v) = Leaf k v'.
Proof.
  intros a k v H. unfold den. destruct a as [|K|K]; simpl in *.
  - exists v. reflexivity.
  - destruct H as [v' H]. rewrite H. exists v'. reflexivity.
  - destruct H as [v' H]. rewrite H. exists v'. reflexivity.
Qed.

Lemma den_new_leaf : forall k v, den (ALeaf ANew k v) = Leaf k v.
Proof. reflexivity. Qed.

Lemma ahash_den : forall t, thash (den t) = ahash t.
Proof. intros t. unfold den. apply thash_toh. Qed.

Lemma hleftmost_ahash_node : forall a key h s l r,
  acons (ANode a key h s l r) -> hleftmost (ahash (ANode a key h s l r)) = hleftmost (ahash l).
Proof. intros a key h s l r C. rewrite hleftmost_den, (den_node _ _ _ _ _ _ C). symmetry. apply hleftmost_den. Qed.

Definition present (t : atree) : Prop := match t with AMissing _ => False | _ => True end.

Definition full (t : atree) : Prop := has_missing t = false.

Lemma full_node : forall a key h s l r, full (ANode a key h s l r) -> full l /\ full r.
Proof. intros a key h s l r H. unfold full in *. simpl in H. apply orb_false_iff in H. exact H. Qed.

Lemma full_mk : forall a key h s l r, full l -> full r -> full (ANode a key h s l r).
Proof. intros a key h s l r A B. unfold full in *. simpl. rewrite A, B. reflexivity. Qed.

Lemma touch_present : forall t lg lg', touch t lg = Some lg' -> present t.
Proof. intros [K|a k v|a key h s l r] lg lg' H; simpl in *; auto. discriminate. Qed.

Lemma full_present : forall t, full t -> present t.
Proof. intros [K|a k v|a key h s l r] H; simpl; auto. discriminate. Qed.

Lemma height_den : forall t, acons t -> present t -> height (den t) = aheight t /\ size (den t) = asize t.
Proof.
  intros [K|a k v|a key h s l r] C P; simpl in P; [tauto| |].
  - destruct (den_leaf _ _ _ C) as [v' E]. rewrite E. simpl. auto.
  - rewrite (den_node _ _ _ _ _ _ C). simpl. auto.
Qed.

Lemma rotate_right_leftmost : forall x y, rotate_right x = Some y -> leftmost y = leftmost x.
Proof.
  intros [k v|k h s [lk lv|lk lh ls ll lr] r] y H; simpl in H; try discriminate.
  inversion H; subst. reflexivity.
Qed.

Lemma rotate_left_leftmost : forall x y, rotate_left x = Some y -> leftmost y = leftmost x.
Proof.
  intros [k v|k h s l [rk rv|rk rh rs rl rr]] y H; simpl in H; try discriminate.
  inversion H; subst. reflexivity.
Qed.

Lemma balance_leftmost : forall x y, balance x = Some y -> leftmost y = leftmost x.
Proof.
  intros x y Hb. destruct x as [k v|k h s l r]; [discriminate|]. unfold balance in Hb.
  destruct (height l - height r >? 1).
  - destruct (calc_balance l) as [bl|]; [|discriminate].
    destruct (bl >=? 0).
    + apply rotate_right_leftmost in Hb. exact Hb.
    + destruct (rotate_left l) as [l'|] eqn:RL; [|discriminate].
      apply rotate_right_leftmost in Hb. apply rotate_left_leftmost in RL.
      rewrite Hb. simpl. exact RL.
  - destruct (height l - height r <? -1).
    + destruct (calc_balance r) as [br|]; [|discriminate].
      destruct (br <=? 0).
      * apply rotate_left_leftmost in Hb. exact Hb.
      * destruct (rotate_right r) as [r'|] eqn:RR; [|discriminate].
        apply rotate_left_leftmost in Hb. rewrite Hb. reflexivity.
    + inversion Hb; subst. reflexivity.
Qed.

(** the node case of [set] and of [aset] once the child has been updated *)
Definition set_up (upd : bool) (k : bytes) (h s : Z) (l r : tree) : option (tree * bool) :=
  if upd then Some (Node k h s l r, true)
  else match balance (calc_hs (Node k h s l r)) with
       | None => None
       | Some t' => Some (t', false)
       end.

Definition aset_up (upd : bool) (k : bytes) (h s : Z) (l r : atree) (lg : log)
  : option (atree * bool * log) :=
  if upd then Some (ANode ANew k h s l r, true, lg)
  else match acalc k l r lg with
       | None => None
       | Some (n, lg3) =>
           match abalance n lg3 with
           | None => None
           | Some (t', lg4) => Some (t', false, lg4)
           end
       end.

(** the two double rotations of [balance] and of [abalance] *)
Definition rot_lr (k : bytes) (h s : Z) (l r : tree) : option tree :=
  match rotate_left l with None => None | Some l' => rotate_right (Node k h s l' r) end.

Definition rot_rl (k : bytes) (h s : Z) (l r : tree) : option tree :=
  match rotate_right r with None => None | Some r' => rotate_left (Node k h s l r') end.

Definition arot_lr (key : bytes) (l r : atree) (lg : log) : option (atree * log) :=
  match l with
  | ANode _ lk _ _ ll lr =>
      match arot_left lk ll lr (orphan l lg) with
      | None => None
      | Some (l', lg4) => arot_right key l' r lg4
      end
  | _ => None
  end.

Definition arot_rl (key : bytes) (l r : atree) (lg : log) : option (atree * log) :=
  match r with
  | ANode _ rk _ _ rl rr =>
      match arot_right rk rl rr (orphan r lg) with
      | None => None
      | Some (r', lg4) => arot_left key l r' lg4
      end
  | _ => None
  end.

Lemma set_node : forall nk h s l r k v,
  set (Node nk h s l r) k v =
  if blt k nk
  then match set l k v with None => None | Some (l', upd) => set_up upd nk h s l' r end
  else match set r k v with None => None | Some (r', upd) => set_up upd nk h s l r' end.
Proof. reflexivity. Qed.

Lemma aset_node : forall a nk h s l r k v lg,
  aset (ANode a nk h s l r) k v lg =
  let lg0 := orphan (ANode a nk h s l r) lg in
  if blt k nk
  then match touch l lg0 with
       | None => None
       | Some lg1 => match aset l k v lg1 with
                     | None => None
                     | Some (l', upd, lg2) => aset_up upd nk h s l' r lg2
                     end
       end
  else match touch r lg0 with
       | None => None
       | Some lg1 => match aset r k v lg1 with
                     | None => None
                     | Some (r', upd, lg2) => aset_up upd nk h s l r' lg2
                     end
       end.
Proof. reflexivity. Qed.

Lemma set_up_leftmost : forall upd k h s l r t' u,
  set_up upd k h s l r = Some (t', u) -> leftmost t' = leftmost l.
Proof.
  intros [|] k h s l r t' u H; unfold set_up in H.
  - injection H as <- <-. reflexivity.
  - destruct (balance _) as [b|] eqn:B; [|discriminate]. injection H as <- <-.
    exact (balance_leftmost _ _ B).
Qed.

Lemma set_leftmost : forall t k v t' u,
  set t k v = Some (t', u) -> blt k (leftmost t) = false -> leftmost t' = leftmost t.
Proof.
  induction t as [lk lv|nk h s l IHl r IHr]; intros k v t' u H B.
  - cbn [set] in H. cbn [leftmost] in B. unfold blt in B.
    destruct (bcmp k lk) eqn:E; try discriminate B; injection H as <- <-; [|reflexivity].
    apply bcmp_eq in E. subst. reflexivity.
  - rewrite set_node in H. destruct (blt k nk).
    + destruct (set l k v) as [[l' upd]|] eqn:S; [|discriminate].
      rewrite (set_up_leftmost _ _ _ _ _ _ _ _ H). exact (IHl _ _ _ _ S B).
    + destruct (set r k v) as [[r' upd]|]; [|discriminate].
      exact (set_up_leftmost _ _ _ _ _ _ _ _ H).
Qed.

Lemma Some_inj : forall (A : Type) (x y : A), Some x = Some y -> x = y.
Proof. intros A x y H. inversion H. reflexivity. Qed.

Definition is_new (t : atree) : Prop :=
  match t with ALeaf ANew _ _ | ANode ANew _ _ _ _ _ => True | _ => False end.

Definition oall (P : atree -> Prop) (o : option atree) : Prop :=
  match o with None => True | Some t => P t end.

Definition den_o (o : option atree) : otree := option_map den o.

(** [Q] stands for a property of all nodes of a version that excludes unresolved
    children and that a new node over [Q] children has: [full] here, "every
    persisted node is stored" in ProofsClosed. *)
Section Spec.
  Variable Q : atree -> Prop.
  Hypothesis Q_present : forall t, Q t -> present t.
  Hypothesis Q_kids : forall a key h s l r, Q (ANode a key h s l r) -> Q l /\ Q r.
  Hypothesis Q_node : forall key h s l r, Q l -> Q r -> Q (ANode ANew key h s l r).
  Hypothesis Q_leaf : forall k v, Q (ALeaf ANew k v).

  (** the annotated computation [x] gives what the pure [y] gives, in a new node;
      where the nodes it started from had [Q] (that is [F]), so has its result,
      and it fails only if [y] fails *)
  Definition refines (F : Prop) (x : option (atree * log)) (y : option tree) : Prop :=
    match x with
    | Some (t', _) => y = Some (den t') /\ acons t' /\ is_new t' /\ (F -> Q t')
    | None => F -> y = None
    end.

  Lemma refines_impl : forall (F F' : Prop) x y, (F' -> F) -> refines F x y -> refines F' x y.
  Proof. intros F F' [[t' lg]|] y W; simpl; [intros (A & B & C & D); repeat split|]; auto. Qed.

  (** the same for the operations that also say whether a key was overwritten *)
  Definition refines_u (F : Prop) (x : option (atree * bool * log)) (y : option (tree * bool)) : Prop :=
    match x with
    | Some (t', u, _) => y = Some (den t', u) /\ acons t' /\ is_new t' /\ (F -> Q t')
    | None => F -> y = None
    end.

  Lemma refines_u_impl : forall (F F' : Prop) x y, (F' -> F) -> refines_u F x y -> refines_u F' x y.
  Proof. intros F F' [[[t' u] lg]|] y W; simpl; [intros (A & B & C & D); repeat split|]; auto. Qed.

  Lemma refines_u_some : forall (F : Prop) t' lg y u,
    refines F (Some (t', lg)) (Some y) -> refines_u F (Some (t', u, lg)) (Some (y, u)).
  Proof. intros F t' lg y u (E & R). apply Some_inj in E. subst y. split; [reflexivity|exact R]. Qed.

  Lemma new_node_spec : forall (F : Prop) key h s l r lg,
    acons l -> acons r -> key = hleftmost (ahash r) -> (F -> Q l /\ Q r) ->
    refines F (Some (ANode ANew key h s l r, lg)) (Some (Node key h s (den l) (den r))).
  Proof.
    intros F key h s l r lg Cl Cr Hk W.
    assert (C : acons (ANode ANew key h s l r)) by (simpl; auto).
    split; [rewrite (den_node _ _ _ _ _ _ C); reflexivity|]. split; [exact C|]. split; [exact I|].
    intros X. destruct (W X). apply Q_node; assumption.
  Qed.

  Lemma touch_none : forall t lg, touch t lg = None -> ~ Q t.
  Proof.
    intros t lg H F. apply Q_present in F. destruct t as [K|[|K|K] k v|[|K|K] key h s l r]; try discriminate H.
    exact F.
  Qed.

  Lemma acalc_spec : forall key l r lg h0 s0,
    acons l -> acons r -> key = hleftmost (ahash r) ->
    refines (Q l /\ Q r) (acalc key l r lg) (Some (calc_hs (Node key h0 s0 (den l) (den r)))).
  Proof.
    intros key l r lg h0 s0 Cl Cr Hk. unfold acalc.
    destruct (touch l lg) as [lg1|] eqn:T1; [|intros [Fl _]; destruct (touch_none _ _ T1 Fl)].
    destruct (touch r lg1) as [lg2|] eqn:T2; [|intros [_ Fr]; destruct (touch_none _ _ T2 Fr)].
    apply touch_present in T1, T2. cbn [calc_hs].
    destruct (height_den l Cl T1) as [-> ->]. destruct (height_den r Cr T2) as [-> ->].
    apply new_node_spec; auto.
  Qed.

  Lemma arot_right_spec : forall key l r lg h s,
    acons l -> acons r -> key = hleftmost (ahash r) ->
    refines (Q l /\ Q r) (arot_right key l r lg) (rotate_right (Node key h s (den l) (den r))).
  Proof.
    intros key l r lg h s Cl Cr Hk. unfold arot_right.
    destruct (touch l lg) as [lg1|] eqn:T1; [|intros [Fl _]; destruct (touch_none _ _ T1 Fl)].
    destruct l as [K|la lk lv|la lk lh ls ll lr]; [discriminate T1| |].
    - intros _. destruct (den_leaf _ _ _ Cl) as [v' ->]. reflexivity.
    - destruct (acons_node_inv _ _ _ _ _ _ Cl) as (Cll & Clr & Hlk).
      rewrite (den_node _ _ _ _ _ _ Cl). cbn [rotate_right].
      pose proof (acalc_spec key lr r (orphan (ANode la lk lh ls ll lr) lg1) h s Clr Cr Hk) as A1.
      destruct (acalc key lr r _) as [[n' lg3]|];
        [|intros [Fl Fr]; destruct (Q_kids _ _ _ _ _ _ Fl); discriminate A1; auto].
      destruct A1 as (D1 & C1 & _ & F1). apply Some_inj in D1.
      assert (Hlk' : lk = hleftmost (ahash n')).
      { rewrite hleftmost_den, <- D1. cbn [calc_hs leftmost]. rewrite <- hleftmost_den. exact Hlk. }
      rewrite D1. eapply refines_impl; [|exact (acalc_spec lk ll n' lg3 lh ls Cll C1 Hlk')].
      intros [Fl Fr]. destruct (Q_kids _ _ _ _ _ _ Fl). auto.
  Qed.

  Lemma arot_left_spec : forall key l r lg h s,
    acons l -> acons r -> key = hleftmost (ahash r) ->
    refines (Q l /\ Q r) (arot_left key l r lg) (rotate_left (Node key h s (den l) (den r))).
  Proof.
    intros key l r lg h s Cl Cr Hk. unfold arot_left.
    destruct (touch r lg) as [lg1|] eqn:T1; [|intros [_ Fr]; destruct (touch_none _ _ T1 Fr)].
    destruct r as [K|ra rk rv|ra rk rh rs rl rr]; [discriminate T1| |].
    - intros _. destruct (den_leaf _ _ _ Cr) as [v' ->]. reflexivity.
    - destruct (acons_node_inv _ _ _ _ _ _ Cr) as (Crl & Crr & Hrk).
      rewrite (den_node _ _ _ _ _ _ Cr). cbn [rotate_left].
      assert (Hk1 : key = hleftmost (ahash rl)) by (rewrite Hk; apply hleftmost_ahash_node; exact Cr).
      pose proof (acalc_spec key l rl (orphan (ANode ra rk rh rs rl rr) lg1) h s Cl Crl Hk1) as A1.
      destruct (acalc key l rl _) as [[n' lg3]|];
        [|intros [Fl Fr]; destruct (Q_kids _ _ _ _ _ _ Fr); discriminate A1; auto].
      destruct A1 as (D1 & C1 & _ & F1). apply Some_inj in D1.
      rewrite D1. eapply refines_impl; [|exact (acalc_spec rk n' rr lg3 rh rs C1 Crr Hrk)].
      intros [Fl Fr]. destruct (Q_kids _ _ _ _ _ _ Fr). auto.
  Qed.

  Lemma arot_lr_spec : forall key l r lg h s,
    acons l -> acons r -> key = hleftmost (ahash r) ->
    refines (Q l /\ Q r) (arot_lr key l r lg) (rot_lr key h s (den l) (den r)).
  Proof.
    intros key l r lg h s Cl Cr Hk. unfold arot_lr, rot_lr.
    destruct l as [K|la lk lv|la lk lh ls ll lr].
    - intros [F _]. destruct (Q_present _ F).
    - intros _. destruct (den_leaf _ _ _ Cl) as [v' ->]. reflexivity.
    - destruct (acons_node_inv _ _ _ _ _ _ Cl) as (Cll & Clr & Hlk). rewrite (den_node _ _ _ _ _ _ Cl).
      pose proof (arot_left_spec lk ll lr (orphan (ANode la lk lh ls ll lr) lg) lh ls Cll Clr Hlk) as RL.
      destruct (arot_left lk ll lr _) as [[l' lg4]|].
      + destruct RL as (-> & C1 & _ & F1). eapply refines_impl; [|apply arot_right_spec; assumption].
        intros [Fl Fr]. split; [apply Q_kids, F1 in Fl|]; assumption.
      + intros [Fl _]. rewrite RL; [reflexivity|exact (Q_kids _ _ _ _ _ _ Fl)].
  Qed.

  Lemma arot_rl_spec : forall key l r lg h s,
    acons l -> acons r -> key = hleftmost (ahash r) ->
    refines (Q l /\ Q r) (arot_rl key l r lg) (rot_rl key h s (den l) (den r)).
  Proof.
    intros key l r lg h s Cl Cr Hk. unfold arot_rl, rot_rl.
    destruct r as [K|ra rk rv|ra rk rh rs rl rr].
    - intros [_ F]. destruct (Q_present _ F).
    - intros _. destruct (den_leaf _ _ _ Cr) as [v' ->]. reflexivity.
    - destruct (acons_node_inv _ _ _ _ _ _ Cr) as (Crl & Crr & Hrk). rewrite (den_node _ _ _ _ _ _ Cr).
      pose proof (arot_right_spec rk rl rr (orphan (ANode ra rk rh rs rl rr) lg) rh rs Crl Crr Hrk) as RR.
      destruct (arot_right rk rl rr _) as [[r' lg4]|].
      + destruct RR as (RR & C1 & _ & F1). rewrite RR.
        (* the rotation keeps the leftmost leaf of the right child, which is the node's key *)
        assert (Hk' : key = hleftmost (ahash r')).
        { rewrite hleftmost_den, (rotate_right_leftmost _ _ RR), <- (den_node _ _ _ _ _ _ Cr), <- hleftmost_den.
          exact Hk. }
        eapply refines_impl; [|apply arot_left_spec; assumption].
        intros [Fl Fr]. split; [|apply Q_kids, F1 in Fr]; assumption.
      + intros [_ Fr]. rewrite RR; [reflexivity|exact (Q_kids _ _ _ _ _ _ Fr)].
  Qed.

  Lemma abal_of_spec : forall t lg, acons t ->
    match abal_of t lg with
    | Some (b, _) => calc_balance (den t) = Some b
    | None => Q t -> calc_balance (den t) = None
    end.
  Proof.
    intros [K|a k v|a key h s l r] lg C; cbn [abal_of].
    - intros F. destruct (Q_present _ F).
    - intros _. destruct (den_leaf _ _ _ C) as [v' ->]. reflexivity.
    - destruct (acons_node_inv _ _ _ _ _ _ C) as (Cl & Cr & _).
      destruct (touch l lg) as [lg1|] eqn:T1; [|intros F; destruct (touch_none _ _ T1 (proj1 (Q_kids _ _ _ _ _ _ F)))].
      destruct (touch r lg1) as [lg2|] eqn:T2; [|intros F; destruct (touch_none _ _ T2 (proj2 (Q_kids _ _ _ _ _ _ F)))].
      apply touch_present in T1, T2. rewrite (den_node _ _ _ _ _ _ C). simpl.
      destruct (height_den l Cl T1) as [-> _]. destruct (height_den r Cr T2) as [-> _]. reflexivity.
  Qed.

  Lemma abalance_spec : forall t lg, acons t -> refines (Q t) (abalance t lg) (balance (den t)).
  Proof.
    intros [K|a k v|a key h s l r] lg C; cbn [abalance].
    - intros F. destruct (Q_present _ F).
    - intros _. destruct (den_leaf _ _ _ C) as [v' ->]. reflexivity.
    - destruct (acons_node_inv _ _ _ _ _ _ C) as (Cl & Cr & Hk).
      destruct (touch l lg) as [lg1|] eqn:T1; [|intros F; destruct (touch_none _ _ T1 (proj1 (Q_kids _ _ _ _ _ _ F)))].
      destruct (touch r lg1) as [lg2|] eqn:T2; [|intros F; destruct (touch_none _ _ T2 (proj2 (Q_kids _ _ _ _ _ _ F)))].
      apply touch_present in T1, T2. rewrite (den_node _ _ _ _ _ _ C). unfold balance.
      destruct (height_den l Cl T1) as [-> _]. destruct (height_den r Cr T2) as [-> _].
      destruct (aheight l - aheight r >? 1); [|destruct (aheight l - aheight r <? -1)].
      + pose proof (abal_of_spec l lg2 Cl) as BL.
        destruct (abal_of l lg2) as [[bl lg3]|];
          [rewrite BL|intros F; rewrite (BL (proj1 (Q_kids _ _ _ _ _ _ F))); reflexivity].
        destruct (bl >=? 0).
        * eapply refines_impl; [apply Q_kids|apply arot_right_spec; assumption].
        * eapply refines_impl; [apply Q_kids|apply arot_lr_spec; assumption].
      + pose proof (abal_of_spec r lg2 Cr) as BR.
        destruct (abal_of r lg2) as [[br lg3]|];
          [rewrite BR|intros F; rewrite (BR (proj2 (Q_kids _ _ _ _ _ _ F))); reflexivity].
        destruct (br <=? 0).
        * eapply refines_impl; [apply Q_kids|apply arot_left_spec; assumption].
        * eapply refines_impl; [apply Q_kids|apply arot_rl_spec; assumption].
      + apply new_node_spec; auto. apply Q_kids.
  Qed.

  Lemma aset_up_spec : forall upd k h s l r lg,
    acons l -> acons r -> k = hleftmost (ahash r) ->
    refines_u (Q l /\ Q r) (aset_up upd k h s l r lg) (set_up upd k h s (den l) (den r)).
  Proof.
    intros [|] k h s l r lg Cl Cr Hk; unfold aset_up, set_up.
    - apply refines_u_some, new_node_spec; auto.
    - unfold refines_u. pose proof (acalc_spec k l r lg h s Cl Cr Hk) as A.
      destruct (acalc k l r lg) as [[n lg3]|]; [|intros F; discriminate (A F)].
      destruct A as (Dn & Cn & _ & Fn). apply Some_inj in Dn. rewrite Dn.
      pose proof (abalance_spec n lg3 Cn) as B.
      destruct (abalance n lg3) as [[t' lg4]|].
      + destruct B as (-> & CB & NB & FB). repeat split; auto.
      + intros F. rewrite (B (Fn F)). reflexivity.
  Qed.

  Lemma aset_leaf_spec : forall a lk lv k v lg, acons (ALeaf a lk lv) ->
    refines_u (Q (ALeaf a lk lv)) (aset (ALeaf a lk lv) k v lg) (set (den (ALeaf a lk lv)) k v).
  Proof.
    intros a lk lv k v lg C. cbn [aset]. destruct (den_leaf _ _ _ C) as [v' E]. rewrite E. cbn [set].
    assert (HL : lk = hleftmost (ahash (ALeaf a lk lv))) by (rewrite hleftmost_den, E; reflexivity).
    destruct (bcmp k lk).
    - split; [reflexivity|]. split; [exact I|]. split; [exact I|]. intros _. apply Q_leaf.
    - rewrite <- E. apply refines_u_some, new_node_spec; auto. exact I.
    - rewrite <- E. apply refines_u_some, new_node_spec; auto. exact I.
  Qed.

  Lemma aset_spec : forall t k v lg, acons t -> refines_u (Q t) (aset t k v lg) (set (den t) k v).
  Proof.
    induction t as [K|a lk lv|a nk h s l IHl r IHr]; intros k v lg C.
    - intros F. destruct (Q_present _ F).
    - apply aset_leaf_spec. exact C.
    - unfold refines_u. rewrite aset_node, (den_node _ _ _ _ _ _ C), set_node. cbv zeta.
      destruct (acons_node_inv _ _ _ _ _ _ C) as (Cl & Cr & Hk).
      destruct (blt k nk) eqn:B.
      + destruct (touch l _) as [lg1|] eqn:T; [|intros F; destruct (touch_none _ _ T (proj1 (Q_kids _ _ _ _ _ _ F)))].
        specialize (IHl k v lg1 Cl).
        destruct (aset l k v lg1) as [[[l' upd] lg2]|];
          [|intros F; rewrite (IHl (proj1 (Q_kids _ _ _ _ _ _ F))); reflexivity].
        destruct IHl as (-> & Cl' & _ & Fl').
        eapply refines_u_impl; [|exact (aset_up_spec upd nk h s l' r lg2 Cl' Cr Hk)].
        intros F. destruct (Q_kids _ _ _ _ _ _ F). auto.
      + destruct (touch r _) as [lg1|] eqn:T; [|intros F; destruct (touch_none _ _ T (proj2 (Q_kids _ _ _ _ _ _ F)))].
        specialize (IHr k v lg1 Cr).
        destruct (aset r k v lg1) as [[[r' upd] lg2]|];
          [|intros F; rewrite (IHr (proj2 (Q_kids _ _ _ _ _ _ F))); reflexivity].
        destruct IHr as (S & Cr' & _ & Fr'). rewrite S.
        (* the write is not left of the right child's leftmost leaf, which therefore stays the node's key *)
        assert (Hk' : nk = hleftmost (ahash r')).
        { rewrite hleftmost_den, (set_leftmost _ _ _ _ _ S); rewrite <- hleftmost_den, <- Hk; auto. }
        eapply refines_u_impl; [|exact (aset_up_spec upd nk h s l r' lg2 Cl Cr' Hk')].
        intros F. destruct (Q_kids _ _ _ _ _ _ F). auto.
  Qed.

  (** the batch of writes ([None] = the empty tree); the root of the result is new
      unless nothing was written *)
  Lemma aset_all_spec : forall kvs o lg, oall acons o ->
    match aset_all o kvs lg with
    | Some (o', _) =>
        t_set_all (den_o o) kvs = Some (den_o o') /\ oall acons o' /\ (oall Q o -> oall Q o') /\
        (o' = o \/ match o' with Some t' => is_new t' | None => False end)
    | None => oall Q o -> t_set_all (den_o o) kvs = None
    end.
  Proof.
    induction kvs as [|[k v] kvs IH]; intros o lg C; simpl.
    - auto.
    - destruct o as [t|]; simpl.
      + pose proof (aset_spec t k v lg C) as S.
        destruct (aset t k v lg) as [[[t' u] lg1]|]; [|intros F; rewrite (S F); reflexivity].
        destruct S as (-> & C' & N' & F'). specialize (IH (Some t') lg1 C').
        destruct (aset_all (Some t') kvs lg1) as [[o' lg']|]; [|intros F; exact (IH (F' F))].
        destruct IH as (T & C'' & F'' & W). split; [exact T|]. split; [exact C''|].
        split; [intros F; exact (F'' (F' F))|]. right. destruct W as [->|W]; assumption.
      + specialize (IH (Some (ALeaf ANew k v)) lg I).
        destruct (aset_all (Some (ALeaf ANew k v)) kvs lg) as [[o' lg']|]; [|intros _; exact (IH (Q_leaf k v))].
        destruct IH as (T & C'' & F'' & W). split; [exact T|]. split; [exact C''|].
        split; [intros _; exact (F'' (Q_leaf k v))|]. right. destruct W as [->|W]; [exact I|exact W].
  Qed.
End Spec.

Lemma aset_sim : forall t k v lg t' u lg',
  acons t -> aset t k v lg = Some (t', u, lg') ->
  set (den t) k v = Some (den t', u) /\ acons t'.
Proof.
  intros t k v lg t' u lg' C H.
  pose proof (aset_spec full full_present full_node (full_mk ANew) (fun _ _ => eq_refl) t k v lg C) as S.
  rewrite H in S. destruct S as (A & B & _). auto.
Qed.

Lemma aset_all_sim : forall kvs o lg o' lg',
  oall acons o -> aset_all o kvs lg = Some (o', lg') ->
  t_set_all (den_o o) kvs = Some (den_o o') /\ oall acons o'.
Proof.
  intros kvs o lg o' lg' C H.
  pose proof (aset_all_spec full full_present full_node (full_mk ANew) (fun _ _ => eq_refl) kvs o lg C) as S.
  rewrite H in S. destruct S as (A & B & _). auto.
Qed.
