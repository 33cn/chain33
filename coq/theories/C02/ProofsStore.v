(** C02 — soundness of the database, the caches and the pending trees is an
    invariant of every store operation, under every configuration; and whenever
    an update succeeds its root is the root of C01's pure tree. *)
From Coq Require Import List ZArith NArith Bool Lia.
From C33 Require Import C01.Keys C01.KeysFacts C01.Model C01.Store C01.Inv C01.ProofsStore
  C02.Model C02.ProofsHash C02.ProofsSet.
Import ListNotations.
Open Scope Z_scope.

(** a record is the record its key's hash determines (the leaf value may have
    been dropped: EnableMVCC) *)
Definition rec_ok (K : nk) (r : nrec) : Prop :=
  match r with
  | NLeaf k v => exists v', snd K = HLeaf k v'
  | NInner key h s lk rk => snd K = HInner h s (snd lk) (snd rk) /\ key = hleftmost (snd rk)
  end.

Definition map_ok (m : kvmap) : Prop := forall K r, m_get m K = Some r -> rec_ok K r.

Definition pend_ok (p : pending) : Prop :=
  forall r t bh, p_get p r = Some (Some (t, bh)) -> acons t.

(** [cache_sound]: the two caches; [store_sound]: everything a load can return *)
Definition cache_sound (s : store) : Prop := map_ok (s_lru s) /\ map_ok (s_mem s).

Definition store_sound (s : store) : Prop :=
  map_ok (s_db s) /\ cache_sound s /\ pend_ok (s_pend s).

(** Association lists with deletion by [filter]: [m_get] / [m_del] and [p_get] / [p_del]
    are [aget] / [adel] at [nk_eqb] and [root_eqb] (convertible: the same fixpoint). *)
Section Assoc.
  Variables (K V : Type) (eqb : K -> K -> bool).
  Hypothesis eqb_eq : forall a b, eqb a b = true -> a = b.

  Fixpoint aget (m : list (K * V)) (k : K) : option V :=
    match m with
    | [] => None
    | (k', v) :: tl => if eqb k k' then Some v else aget tl k
    end.

  Definition adel (m : list (K * V)) (k : K) : list (K * V) :=
    filter (fun b => negb (eqb k (fst b))) m.

  Lemma aget_del_same : forall m k, aget (adel m k) k = None.
  Proof.
    induction m as [|[k0 v0] m IH]; intros k; simpl; [reflexivity|].
    destruct (eqb k k0) eqn:E; simpl; [|rewrite E]; apply IH.
  Qed.

  Lemma aget_del : forall m k k' v, aget (adel m k) k' = Some v -> aget m k' = Some v.
  Proof.
    induction m as [|[k0 v0] m IH]; intros k k' v H; simpl in *; [discriminate|].
    destruct (eqb k k0) eqn:E; simpl in H.
    - destruct (eqb k' k0) eqn:E'; [|eauto].
      apply eqb_eq in E, E'. subst. rewrite aget_del_same in H. discriminate.
    - destruct (eqb k' k0); eauto.
  Qed.
End Assoc.

Lemma m_get_del : forall m K K' r, m_get (m_del m K) K' = Some r -> m_get m K' = Some r.
Proof. exact (aget_del nk nrec nk_eqb nk_eqb_eq). Qed.

Lemma p_get_del : forall p r r' x, p_get (p_del p r) r' = Some x -> p_get p r' = Some x.
Proof. exact (aget_del root _ root_eqb root_eqb_eq). Qed.

(** every binding satisfies [R]: [map_ok] is [map_all rec_ok], [pend_ok] is
    [pend_all (fun _ => acons)] *)
Definition map_all (R : nk -> nrec -> Prop) (m : kvmap) : Prop :=
  forall K r, m_get m K = Some r -> R K r.

Lemma map_all_nil : forall R, map_all R [].
Proof. intros R K r H. discriminate. Qed.

Lemma map_all_put : forall R m K r, map_all R m -> R K r -> map_all R (m_put m K r).
Proof.
  intros R m K r M H K' r' G. unfold m_put in G. simpl in G.
  destruct (nk_eqb K' K) eqn:E; [|exact (M _ _ G)].
  apply nk_eqb_eq in E. inversion G; subst. exact H.
Qed.

Lemma map_all_del : forall R m K, map_all R m -> map_all R (m_del m K).
Proof. intros R m K M K' r H. exact (M _ _ (m_get_del _ _ _ _ H)). Qed.

Lemma map_all_impl : forall (R R' : nk -> nrec -> Prop) m,
  (forall K r, R K r -> R' K r) -> map_all R m -> map_all R' m.
Proof. intros R R' m W M K r H. exact (W _ _ (M _ _ H)). Qed.

Definition pend_all (R : root -> atree -> Prop) (p : pending) : Prop :=
  forall r t bh, p_get p r = Some (Some (t, bh)) -> R r t.

Lemma pend_all_del : forall R p r, pend_all R p -> pend_all R (p_del p r).
Proof. intros R p r P r' t bh H. exact (P _ _ _ (p_get_del _ _ _ _ H)). Qed.

Lemma pend_all_put : forall R p r x,
  pend_all R p -> (forall t bh, x = Some (t, bh) -> R r t) -> pend_all R (p_put p r x).
Proof.
  intros R p r x P X r' t bh H. unfold p_put in H. simpl in H.
  destruct (root_eqb r' r) eqn:E; [|exact (pend_all_del _ _ _ P _ _ _ H)].
  apply root_eqb_eq in E. inversion H; subst. exact (X _ _ eq_refl).
Qed.

Lemma pend_all_impl : forall (R R' : root -> atree -> Prop) p,
  (forall r t, R r t -> R' r t) -> pend_all R p -> pend_all R' p.
Proof. intros R R' p W P r t bh H. exact (W _ _ (P _ _ _ H)). Qed.

Lemma map_ok_toggle : forall m K r, map_ok m -> rec_ok K r -> map_ok (m_toggle m K r).
Proof.
  intros m K r M R. unfold m_toggle. destruct (m_has m K); [apply map_all_del|apply map_all_put]; auto.
Qed.

Lemma lookup_in_ok : forall mt lru mem db K r,
  map_ok lru -> map_ok mem -> map_ok db -> lookup_in mt lru mem db K = Some r -> rec_ok K r.
Proof.
  intros mt lru mem db K r L M D H. unfold lookup_in in H.
  destruct (m_get lru K) eqn:E1; [inversion H; subst; auto|].
  destruct mt; [|auto].
  destruct (m_get mem K) eqn:E2; [inversion H; subst|]; auto.
Qed.

Lemma lookup_ok : forall c s K r, store_sound s -> lookup c s K = Some r -> rec_ok K r.
Proof.
  intros c s K r (D & (L & M) & _) H. unfold lookup in H. exact (lookup_in_ok _ _ _ _ _ _ L M D H).
Qed.

Lemma p_get_put_same : forall p r x, p_get (p_put p r x) r = Some x.
Proof. intros p r x. unfold p_put. simpl. rewrite root_eqb_refl. reflexivity. Qed.

Lemma ahash_mat : forall lk fuel K, ahash (mat lk fuel K) = snd K.
Proof.
  intros lk fuel K. destruct fuel as [|f]; simpl; [reflexivity|].
  destruct (lk K) as [[k v|key h s l r]|]; reflexivity.
Qed.

Lemma acons_mat : forall lk, (forall K r, lk K = Some r -> rec_ok K r) ->
  forall fuel K, acons (mat lk fuel K).
Proof.
  intros lk OK. induction fuel as [|f IH]; intros K; simpl; [exact I|].
  destruct (lk K) as [[k v|key h s l r]|] eqn:E; simpl; auto.
  - apply OK in E. exact E.
  - apply OK in E. destruct E as [E1 E2]. rewrite !ahash_mat. auto.
Qed.

Lemma mat_root_ok : forall lk K t, (forall K r, lk K = Some r -> rec_ok K r) ->
  mat_root lk K = Some t -> acons t /\ ahash t = snd K.
Proof.
  intros lk K t OK H. unfold mat_root in H. destruct (lk K) as [rc|] eqn:E; [|discriminate].
  apply Some_inj in H. subst t. split; [apply acons_mat; exact OK|apply ahash_mat].
Qed.

Lemma run_log_inv : forall (I : cache_state -> Prop) c db,
  (forall st e, I st -> I (run_ev c db st e)) ->
  forall lg st, I st -> I (run_log c db lg st).
Proof.
  intros I c db Step lg. unfold run_log. induction (rev lg) as [|e l IH]; intros st H; simpl; auto.
Qed.

Lemma run_ev_ok : forall c db st e,
  map_ok db -> map_ok (fst (fst st)) /\ map_ok (snd (fst st)) ->
  map_ok (fst (fst (run_ev c db st e))) /\ map_ok (snd (fst (run_ev c db st e))).
Proof.
  intros c db [[lru mem] obs] e D [L M]. simpl in L, M. destruct e as [K|K]; cbn [run_ev].
  - destruct (m_has lru K); [exact (conj L M)|].
    destruct (c_memtree c && m_has mem K); [exact (conj L M)|].
    destruct (m_get db K) as [r|] eqn:E; [|exact (conj L M)].
    apply D in E. cbn [fst snd]. split.
    + destruct (nrec_height r >? 2); [apply map_all_put|]; auto.
    + destruct (c_memtree c && (c_memval c || negb (nrec_height r =? 0))); [apply map_all_put|]; auto.
  - split; [apply map_all_del|]; auto.
Qed.

Lemma run_log_ok : forall c db lg lru mem obs lru' mem' obs',
  map_ok db -> map_ok lru -> map_ok mem ->
  run_log c db lg (lru, mem, obs) = (lru', mem', obs') -> map_ok lru' /\ map_ok mem'.
Proof.
  intros c db lg lru mem obs lru' mem' obs' D L M H.
  pose proof (run_log_inv _ c db (fun st e => run_ev_ok c db st e D) lg (lru, mem, obs) (conj L M)) as X.
  rewrite H in X. exact X.
Qed.

Lemma snd_akey : forall t, snd (akey t) = ahash t.
Proof. intros [K|[|K|K] k v|[|K|K] key h s l r]; reflexivity. Qed.

Lemma ahash_assign : forall pfx bh rh t, ahash (assign pfx bh rh t) = ahash t.
Proof.
  intros pfx bh rh. induction t as [K|a k v|a key h s l IHl r IHr]; simpl; auto.
  - destruct a; reflexivity.
  - destruct a; simpl; auto. rewrite !snd_akey, IHl, IHr. reflexivity.
Qed.

Lemma acons_assign : forall pfx bh rh t, acons t -> acons (assign pfx bh rh t).
Proof.
  intros pfx bh rh. induction t as [K|a k v|a key h s l IHl r IHr]; intros C; simpl; auto.
  - destruct a; simpl; auto. exists v. reflexivity.
  - destruct C as (Cl & Cr & Hk & Ha). destruct a; simpl; auto.
    rewrite !snd_akey, !ahash_assign. auto.
Qed.

(** the records written by Tree.Hash and by save *)
Lemma inner_rec_ok : forall K key h s l r,
  acons l -> acons r -> key = hleftmost (ahash r) -> snd K = HInner h s (ahash l) (ahash r) ->
  rec_ok K (NInner key h s (akey l) (akey r)).
Proof. intros. simpl. rewrite !snd_akey. auto. Qed.

Lemma new_recs_ok : forall mv t K r, acons t -> In (K, r) (new_recs mv t) -> rec_ok K r.
Proof.
  intros mv. induction t as [K0|a k v|a key h s l IHl r IHr]; intros K rc C H; simpl in H.
  - destruct H.
  - destruct a as [|K1|K1]; try destruct H. destruct mv; [|destruct H].
    destruct H as [H|[]]. inversion H; subst. simpl. exact C.
  - destruct C as (Cl & Cr & Hk & Ha).
    destruct a as [|K1|K1]; try destruct H.
    + inversion H; subst. apply inner_rec_ok; auto.
    + apply in_app_or in H. destruct H; eauto.
Qed.

Lemma mem_hash_update_ok : forall news mem obs,
  map_ok mem -> (forall K r, In (K, r) news -> rec_ok K r) -> map_ok (mem_hash_update mem obs news).
Proof.
  intros news mem obs M N. unfold mem_hash_update.
  assert (M1 : map_ok (fold_left m_del obs mem)).
  { clear N. revert mem M. induction obs as [|K obs IH]; intros mem M; simpl; auto.
    apply IH. apply map_all_del. exact M. }
  revert M1. generalize (fold_left m_del obs mem). clear M.
  induction news as [|[K r] news IH]; intros m M1; simpl; auto.
  apply IH.
  - intros K' r' H. apply N. right. exact H.
  - apply map_ok_toggle; auto. apply N. left. reflexivity.
Qed.

Lemma asave_ok : forall mvcc t db lru,
  acons t -> map_ok db -> map_ok lru ->
  map_ok (fst (asave mvcc t (db, lru))) /\ map_ok (snd (asave mvcc t (db, lru))).
Proof.
  intros mvcc. induction t as [K0|a k v|a key h s l IHl r IHr]; intros db lru C D L; simpl; auto.
  - destruct a as [|K|K]; simpl; auto. split; [|exact L].
    apply map_all_put; auto.
  - destruct C as (Cl & Cr & Hk & Ha). destruct a as [|K|K]; simpl; auto.
    destruct (IHl db lru Cl D L) as [D1 L1]. destruct (asave mvcc l (db, lru)) as [db1 lru1].
    destruct (IHr db1 lru1 Cr D1 L1) as [D2 L2]. destruct (asave mvcc r (db1, lru1)) as [db2 lru2].
    simpl in *. assert (R : rec_ok K (NInner key h s (akey l) (akey r))) by (apply inner_rec_ok; auto).
    split; [apply map_all_put; auto|]. destruct (h >? 2); [apply map_all_put|]; auto.
Qed.

(** what is written to the database does not depend on the ARC cache *)
Lemma asave_fst : forall mvcc t db l1 l2,
  fst (asave mvcc t (db, l1)) = fst (asave mvcc t (db, l2)).
Proof.
  intros mvcc. induction t as [K0|a k v|a key h s l IHl r IHr]; intros db l1 l2; simpl; auto.
  - destruct a; reflexivity.
  - destruct a as [|K|K]; simpl; auto.
    pose proof (IHl db l1 l2) as H1.
    destruct (asave mvcc l (db, l1)) as [d1 x1]. destruct (asave mvcc l (db, l2)) as [d1' x1'].
    simpl in H1. subst d1'. pose proof (IHr d1 x1 x1') as H2.
    destruct (asave mvcc r (d1, x1)) as [d2 x2]. destruct (asave mvcc r (d1, x1')) as [d2' x2'].
    simpl in H2. subst d2'. reflexivity.
Qed.

Lemma do_save_inv : forall c s t bh s',
  do_save c s t bh = Some s' ->
  exists lru1 mem1 maxh,
    (lru1 = s_lru s /\ mem1 = s_mem s \/
     c_prune c = true /\ exists lg obs, run_log c (s_db s) lg (s_lru s, s_mem s, []) = (lru1, mem1, obs)) /\
    s' = mk_store (fst (asave (c_mvcc c) t (s_db s, lru1))) (snd (asave (c_mvcc c) t (s_db s, lru1)))
                  mem1 (s_pend s) (if c_prune c then (bh, ahash t) :: s_idx s else s_idx s) maxh.
Proof.
  intros c s t bh s' H. unfold do_save in H.
  destruct (if c_prune c then _ else _) as [[[lru1 mem1] maxh]|] eqn:PRE; [|discriminate].
  exists lru1, mem1, maxh. split.
  - clear H. destruct (c_prune c); [|left; injection PRE as <- <- _; auto].
    destruct (bh >? s_maxh s); [left; injection PRE as <- <- _; auto|].
    destruct (del_leaf_count _ _ _ _) as [lg|]; [|discriminate].
    right. split; [reflexivity|]. exists lg.
    destruct (run_log c (s_db s) lg (s_lru s, s_mem s, [])) as [[l1 m1] o1].
    exists o1. injection PRE as <- <- _. reflexivity.
  - destruct (asave (c_mvcc c) t (s_db s, lru1)) as [db2 lru2]. injection H as <-. reflexivity.
Qed.

Lemma do_save_sound : forall c s t bh s',
  store_sound s -> acons t -> do_save c s t bh = Some s' -> store_sound s'.
Proof.
  intros c s t bh s' (D & (L & M) & P) C H.
  destruct (do_save_inv _ _ _ _ _ H) as (lru1 & mem1 & maxh & PRE & ->).
  assert (LM : map_ok lru1 /\ map_ok mem1).
  { destruct PRE as [[-> ->]|(_ & lg & obs & R)]; [auto|exact (run_log_ok _ _ _ _ _ _ _ _ _ D L M R)]. }
  destruct LM as [L1 M1]. destruct (asave_ok (c_mvcc c) t (s_db s) lru1 C D L1) as [D2 L2].
  repeat split; assumption.
Qed.

Lemma do_save_db : forall c s t bh s',
  do_save c s t bh = Some s' ->
  s_db s' = fst (asave (c_mvcc c) t (s_db s, [])) /\
  s_idx s' = (if c_prune c then (bh, ahash t) :: s_idx s else s_idx s) /\ s_pend s' = s_pend s.
Proof.
  intros c s t bh s' H. destruct (do_save_inv _ _ _ _ _ H) as (lru1 & mem1 & maxh & _ & ->).
  split; [apply asave_fst|split; reflexivity].
Qed.

(** Save cannot fail unless it runs the prune bookkeeping that loads other versions *)
Lemma do_save_total : forall c s t bh,
  c_prune c = false \/ bh >? s_maxh s = true -> exists s', do_save c s t bh = Some s'.
Proof.
  intros c s t bh Q. unfold do_save.
  destruct (c_prune c); [destruct Q as [Q|Q]; [discriminate|rewrite Q]|];
    destruct (asave (c_mvcc c) t (s_db s, s_lru s)) as [d l]; eauto.
Qed.

Lemma load_at_ok : forall c s r o lg,
  store_sound s -> load_at c s r = Some (o, lg) -> oall acons o /\ aroot o = r.
Proof.
  intros c s r o lg S H. unfold load_at in H. destruct r as [h|].
  - destruct (mat_root (lookup c s) (None, h)) as [t|] eqn:E; [|discriminate].
    inversion H; subst. destruct (mat_root_ok _ _ _ (fun K r => lookup_ok c s K r S) E) as [C A].
    simpl. rewrite A. auto.
  - inversion H; subst. simpl. auto.
Qed.

Lemma den_o_root : forall o, oall acons o -> den_o o = root_tree (aroot o).
Proof. intros [t|] C; reflexivity. Qed.

Lemma tree_root_den_o : forall o, tree_root (den_o o) = aroot o.
Proof. intros [t|]; simpl; [rewrite ahash_den|]; reflexivity. Qed.

Lemma prepare_inv : forall c s r bh kvs o lru1 mem1 obs,
  prepare c s r bh kvs = Ok (o, lru1, mem1, obs) ->
  exists o0 lg0 o1 lg,
    load_at c s r = Some (o0, lg0) /\ aset_all o0 kvs lg0 = Some (o1, lg) /\
    run_log c (s_db s) lg (s_lru s, s_mem s, []) = (lru1, mem1, obs) /\
    o = option_map (fun t => assign (c_prefix c) bh (aheight t) t) o1.
Proof.
  intros c s r bh kvs o lru1 mem1 obs H. unfold prepare in H.
  destruct (load_at c s r) as [[o0 lg0]|]; [|discriminate].
  destruct (aset_all o0 kvs lg0) as [[o1 lg]|] eqn:AS; [|discriminate].
  exists o0, lg0, o1, lg. split; [reflexivity|]. split; [exact AS|].
  destruct (run_log c (s_db s) lg (s_lru s, s_mem s, [])) as [[l1 m1] ob1].
  injection H as <- <- <- <-. split; [reflexivity|]. destruct o1; reflexivity.
Qed.

Lemma prepare_ok : forall c s r bh kvs o lru1 mem1 obs,
  store_sound s -> prepare c s r bh kvs = Ok (o, lru1, mem1, obs) ->
  oall acons o /\ map_ok lru1 /\ map_ok mem1 /\
  exists o', t_set_all (root_tree r) kvs = Some o' /\ aroot o = tree_root o'.
Proof.
  intros c s r bh kvs o lru1 mem1 obs S H.
  destruct (prepare_inv _ _ _ _ _ _ _ _ _ H) as (o0 & lg0 & o1 & lg & LD & AS & RL & ->).
  destruct (load_at_ok _ _ _ _ _ S LD) as [C0 R0].
  destruct (aset_all_sim _ _ _ _ _ C0 AS) as [T C1].
  destruct S as (D & (L & M) & P).
  destruct (run_log_ok _ _ _ _ _ _ _ _ _ D L M RL) as [L1 M1].
  split; [|split; [exact L1|split; [exact M1|]]].
  - destruct o1 as [t|]; simpl; auto. apply acons_assign. exact C1.
  - exists (den_o o1). rewrite <- R0. rewrite <- (den_o_root _ C0). split; [exact T|].
    rewrite tree_root_den_o. destruct o1 as [t|]; simpl; [rewrite ahash_assign|]; reflexivity.
Qed.

Lemma st_set_inv : forall c s r bh kvs r' s',
  st_set c s r bh kvs = Ok (r', s') ->
  exists o lru1 mem1 obs,
    prepare c s r bh kvs = Ok (o, lru1, mem1, obs) /\ r' = aroot o /\
    match o with
    | None => s' = with_caches s lru1 mem1
    | Some t => do_save c (with_caches s lru1 mem1) t bh = Some s'
    end.
Proof.
  intros c s r bh kvs r' s' H. unfold st_set in H.
  destruct (prepare c s r bh kvs) as [[[[o lru1] mem1] obs]| | |]; try discriminate.
  exists o, lru1, mem1, obs. split; [reflexivity|].
  destruct o as [t|]; [destruct (do_save _ _ t bh); [|discriminate]|]; inversion H; auto.
Qed.

Lemma st_memset_inv : forall c s r bh kvs r' s',
  kvs <> [] -> st_memset c s r bh kvs = Ok (r', s') ->
  exists o lru1 mem1 obs,
    prepare c s r bh kvs = Ok (o, lru1, mem1, obs) /\ r' = aroot o /\
    match o with
    | None => s' = with_caches s lru1 mem1
    | Some t =>
        s' = with_pend (with_caches s lru1 (if c_memtree c
                                            then mem_hash_update mem1 obs (new_recs (c_memval c) t)
                                            else mem1))
                       (p_put (s_pend s) (Some (ahash t)) (Some (t, bh)))
    end.
Proof.
  intros c s r bh kvs r' s' NE H. unfold st_memset in H. destruct kvs as [|kv kvs]; [congruence|].
  destruct (prepare c s r bh (kv :: kvs)) as [[[[o lru1] mem1] obs]| | |]; try discriminate.
  exists o, lru1, mem1, obs. split; [reflexivity|]. destruct o as [t|]; inversion H; auto.
Qed.

Lemma st_commit_inv : forall c s r r' s',
  st_commit c s r = Ok (r', s') ->
  r' = r /\
  exists x, p_get (s_pend s) r = Some x /\
    match x with
    | None => s' = with_pend s (p_del (s_pend s) r)
    | Some (t, bh) => exists s1, do_save c s t bh = Some s1 /\ s' = with_pend s1 (p_del (s_pend s) r)
    end.
Proof.
  intros c s r r' s' H. unfold st_commit in H.
  destruct (p_get (s_pend s) r) as [[[t bh]|]|]; [| |discriminate].
  - destruct (do_save c s t bh) as [s1|] eqn:SV; [|discriminate]. inversion H. split; [reflexivity|].
    exists (Some (t, bh)). split; [reflexivity|]. exists s1. split; [exact SV|reflexivity].
  - inversion H. split; [reflexivity|]. exists None. split; reflexivity.
Qed.

Lemma with_caches_sound : forall s lru mem,
  store_sound s -> map_ok lru -> map_ok mem -> store_sound (with_caches s lru mem).
Proof. intros s lru mem (D & _ & P) L M. repeat split; auto. Qed.

Lemma with_pend_sound : forall s p, store_sound s -> pend_ok p -> store_sound (with_pend s p).
Proof. intros s p (D & LM & _) P. repeat split; auto; apply LM. Qed.

Lemma st_set_ok : forall c s r bh kvs r' s',
  store_sound s -> st_set c s r bh kvs = Ok (r', s') ->
  store_sound s' /\
  exists o', t_set_all (root_tree r) kvs = Some o' /\ r' = tree_root o'.
Proof.
  intros c s r bh kvs r' s' S H.
  destruct (st_set_inv _ _ _ _ _ _ _ H) as (o & lru1 & mem1 & obs & PR & -> & E).
  destruct (prepare_ok _ _ _ _ _ _ _ _ _ S PR) as (C & L1 & M1 & T).
  split; [|exact T].
  pose proof (with_caches_sound s lru1 mem1 S L1 M1) as S1.
  destruct o as [t|]; [exact (do_save_sound _ _ _ _ _ S1 C E)|subst s'; exact S1].
Qed.

Lemma st_memset_ok : forall c s r bh kvs r' s',
  store_sound s -> st_memset c s r bh kvs = Ok (r', s') ->
  store_sound s' /\ exists o', t_set_all (root_tree r) kvs = Some o' /\ r' = tree_root o'.
Proof.
  intros c s r bh kvs r' s' S H. destruct kvs as [|kv kvs].
  - injection H as <- <-. split.
    + apply with_pend_sound; [exact S|]. apply pend_all_put; [apply S|discriminate].
    + exists (root_tree r). split; [reflexivity|]. symmetry. apply tree_root_root_tree.
  - assert (NE : kv :: kvs <> []) by discriminate.
    destruct (st_memset_inv _ _ _ _ _ _ _ NE H) as (o & lru1 & mem1 & obs & PR & -> & E).
    destruct (prepare_ok _ _ _ _ _ _ _ _ _ S PR) as (C & L1 & M1 & T).
    split; [|exact T]. destruct o as [t|]; subst s'; [|apply with_caches_sound; assumption].
    apply with_pend_sound.
    + apply with_caches_sound; [exact S|exact L1|]. destruct (c_memtree c); [|exact M1].
      apply mem_hash_update_ok; [exact M1|]. intros K rc. apply new_recs_ok. exact C.
    + apply pend_all_put; [apply S|]. intros t' bh' E. inversion E; subst. exact C.
Qed.

Lemma st_commit_ok : forall c s r r' s',
  store_sound s -> st_commit c s r = Ok (r', s') -> store_sound s' /\ r' = r.
Proof.
  intros c s r r' s' S H. destruct (st_commit_inv _ _ _ _ _ H) as (-> & x & PG & E).
  split; [|reflexivity]. assert (PD : pend_ok (p_del (s_pend s) r)) by apply pend_all_del, S.
  destruct x as [[t bh]|]; [destruct E as (s1 & SV & ->)|subst s'];
    (apply with_pend_sound; [|exact PD]); [|exact S].
  refine (do_save_sound _ _ _ _ _ S _ SV). destruct S as (_ & _ & P). exact (P _ _ _ PG).
Qed.

Lemma st_rollback_ok : forall c s r r' s',
  store_sound s -> st_rollback c s r = Ok (r', s') -> store_sound s' /\ r' = r.
Proof.
  intros c s r r' s' S H. unfold st_rollback in H.
  destruct (p_get (s_pend s) r) as [x|]; [|discriminate].
  inversion H; subst. split; [|reflexivity].
  apply with_pend_sound; [exact S|]. apply pend_all_del, S.
Qed.

Lemma st_probe_ok : forall c s r o s',
  store_sound s -> st_probe c s r = Ok (o, s') -> store_sound s' /\ aroot o = r.
Proof.
  intros c s r o s' S H. unfold st_probe in H.
  destruct (load_at c s r) as [[[t|] lg0]|] eqn:LD; try discriminate;
    destruct (load_at_ok _ _ _ _ _ S LD) as [_ R0].
  - destruct (has_missing t); [discriminate|].
    destruct (run_log c (s_db s) (visits t []) (s_lru s, s_mem s, [])) as [[l1 m1] ob1] eqn:RL.
    injection H as <- <-. split; [|exact R0]. destruct S as (D & (L & M) & P).
    destruct (run_log_ok _ _ _ _ _ _ _ _ _ D L M RL) as [L1 M1]. repeat split; assumption.
  - injection H as <- <-. auto.
Qed.

Lemma empty_sound : store_sound empty_store.
Proof.
  repeat split; try apply map_all_nil. intros r t bh H. discriminate.
Qed.
