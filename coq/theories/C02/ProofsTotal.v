(** C02 — the only way an update can fail: a node below the prior root cannot be
    resolved.  If the version materialises completely (and is a good tree), the
    annotated algorithm runs through, under every configuration. *)
From Coq Require Import List ZArith NArith Bool Lia.
From C33 Require Import C01.Keys C01.KeysFacts C01.Model C01.Store C01.Spec C01.Inv C01.Proofs C01.ProofsStore
  C02.Model C02.ProofsHash C02.ProofsSet C02.ProofsStore C02.ProofsTop.
Import ListNotations.
Open Scope Z_scope.

Lemma aset_all_total : forall kvs o lg,
  oall acons o -> oall full o -> o_good (den_o o) ->
  exists o' lg', aset_all o kvs lg = Some (o', lg').
Proof.
  intros kvs o lg C F G.
  pose proof (aset_all_spec full full_present full_node (full_mk ANew) (fun _ _ => eq_refl) kvs o lg C) as S.
  destruct (aset_all o kvs lg) as [[o' lg']|]; [eauto|].
  destruct (t_set_all_inv kvs (den_o o) G) as (o' & T & _). rewrite (S F) in T. discriminate.
Qed.

(** the guard: the version below [r] materialises completely *)
Definition resolvable (c : cfg) (s : store) (r : root) : bool :=
  match load_at c s r with
  | Some (Some t, _) => negb (has_missing t)
  | Some (None, _) => true
  | None => false
  end.

(** Save does not run the prune bookkeeping that loads other versions *)
Definition save_quiet (c : cfg) (s : store) (bh : Z) : bool :=
  negb (c_prune c) || (bh >? s_maxh s).

Lemma do_save_quiet : forall c s t bh lru mem,
  save_quiet c s bh = true -> exists s', do_save c (with_caches s lru mem) t bh = Some s'.
Proof.
  intros c s t bh lru mem Q. apply do_save_total. apply orb_true_iff in Q.
  destruct Q as [Q|Q]; [left; apply negb_true_iff, Q|right; exact Q].
Qed.

Lemma prepare_total : forall c s r bh kvs,
  store_sound s -> o_good (root_tree r) -> resolvable c s r = true ->
  exists x, prepare c s r bh kvs = Ok x.
Proof.
  intros c s r bh kvs S G R. unfold prepare. unfold resolvable in R.
  destruct (load_at c s r) as [[o lg0]|] eqn:LD; [|discriminate].
  destruct (load_at_ok _ _ _ _ _ S LD) as [C0 R0].
  assert (F : oall full o) by (destruct o as [t|]; [apply negb_true_iff, R|exact I]).
  assert (G' : o_good (den_o o)). { rewrite (den_o_root _ C0), R0. exact G. }
  destruct (aset_all_total kvs o lg0 C0 F G') as (o' & lg & ->).
  destruct (run_log c (s_db s) lg (s_lru s, s_mem s, [])) as [[l1 m1] ob1]. eauto.
Qed.

Theorem update_total_partial : forall pending c s r bh kvs,
  store_sound s -> o_good (root_tree r) ->
  resolvable c s r = true -> save_quiet c s bh = true ->
  exists r' s', st_update pending c s r bh kvs = Ok (r', s').
Proof.
  intros pending c s r bh kvs S G R Q.
  destruct (prepare_total c s r bh kvs S G R) as ([[[o lru1] mem1] obs] & PR).
  destruct pending; simpl.
  - unfold st_memset. destruct kvs as [|kv kvs]; [eauto|].
    rewrite PR. destruct o as [t|]; eauto.
  - unfold st_set. rewrite PR. destruct o as [t|]; [|eauto].
    destruct (do_save_quiet c s t bh lru1 mem1 Q) as [s' ->]. eauto.
Qed.
