(** C02 — every symbolic hash denotes exactly one keyed tree. *)
From Coq Require Import List ZArith NArith Bool Lia.
From C33 Require Import C01.Keys C01.KeysFacts C01.Model C01.Store C01.Inv C01.ProofsStore C02.Model.
Import ListNotations.
Open Scope Z_scope.

(** the leftmost leaf key below a hash *)
Fixpoint hleftmost (h : hash) : bytes :=
  match h with
  | HLeaf k _ => k
  | HInner _ _ l _ => hleftmost l
  end.

(** the tree a hash denotes: the inner key, which is not hashed, is the
    smallest key of the right sub-tree *)
Fixpoint toh (h : hash) : tree :=
  match h with
  | HLeaf k v => Leaf k v
  | HInner ht s l r => Node (hleftmost r) ht s (toh l) (toh r)
  end.

Lemma thash_toh : forall h, thash (toh h) = h.
Proof. induction h as [k v|ht s l IHl r IHr]; simpl; congruence. Qed.

Lemma leftmost_toh : forall h, leftmost (toh h) = hleftmost h.
Proof. induction h as [k v|ht s l IHl r IHr]; simpl; auto. Qed.

Lemma keyed_toh : forall h, keyed (toh h).
Proof.
  induction h as [k v|ht s l IHl r IHr]; simpl; auto.
  repeat split; auto. symmetry. apply leftmost_toh.
Qed.

Lemma toh_thash : forall t, keyed t -> toh (thash t) = t.
Proof.
  intros t K. apply thash_inj; auto using keyed_toh. apply thash_toh.
Qed.

Lemma hleftmost_thash : forall t, hleftmost (thash t) = leftmost t.
Proof. induction t as [k v|k h s l IHl r IHr]; simpl; auto. Qed.

Definition root_tree (r : root) : otree := option_map toh r.

Lemma tree_root_root_tree : forall r, tree_root (root_tree r) = r.
Proof. intros [h|]; simpl; [rewrite thash_toh|]; reflexivity. Qed.

Lemma nk_eqb_eq : forall a b, nk_eqb a b = true -> a = b.
Proof.
  intros [pa ha] [pb hb] H. unfold nk_eqb in H. simpl in H.
  apply andb_true_iff in H as [H1 H2]. apply hash_eqb_eq in H2. subst hb.
  destruct pa as [x|], pb as [y|]; simpl in H1; try discriminate; auto.
  apply Z.eqb_eq in H1. subst. reflexivity.
Qed.

Lemma nk_eqb_refl : forall a, nk_eqb a a = true.
Proof.
  intros [[x|] h]; unfold nk_eqb; simpl; rewrite hash_eqb_refl; [rewrite Z.eqb_refl|]; reflexivity.
Qed.

Lemma root_eqb_refl : forall r, root_eqb r r = true.
Proof. intros [h|]; simpl; [apply hash_eqb_refl|reflexivity]. Qed.

Lemma root_eqb_eq : forall a b, root_eqb a b = true -> a = b.
Proof.
  intros [a|] [b|] H; simpl in H; try discriminate; auto.
  apply hash_eqb_eq in H. congruence.
Qed.
