(** C02 — property theorems only. *)
From Coq Require Import List ZArith NArith Bool.
From C33 Require Import Lib.Harness C01.Keys C01.Model C01.Store C01.Inv
  C02.Model C02.ProofsHash C02.ProofsSet C02.ProofsStore C02.ProofsTop C02.ProofsTotal C02.ProofsClosed.
Import ListNotations.
Open Scope Z_scope.

(** Every symbolic hash is the root of exactly one keyed tree ([toh]); this is
    what "the content of the prior root" means below. *)
Theorem C02_hash_denotes_tree : forall h, thash (toh h) = h /\ keyed (toh h).
Proof. intros h. split; [apply thash_toh|apply keyed_toh]. Qed.
Print Assumptions C02_hash_denotes_tree.

(** The annotated Go algorithm (loads, orphanings, prefixed keys, cached
    hashes, elided values, panics on unresolvable children) computes, whenever
    it does not panic, exactly C01's pure [set] on the denoted trees. *)
Theorem C02_set_refines_pure : forall t k v lg t' u lg',
  acons t -> aset t k v lg = Some (t', u, lg') ->
  set (den t) k v = Some (den t', u) /\ acons t'.
Proof. exact aset_sim. Qed.
Print Assumptions C02_set_refines_pure.

(** Full strength: the root an update returns is a function of the prior root
    and the ordered writes only — it is the root of C01's [t_set_all] applied to the
    tree the prior root denotes — after every history, under every configuration
    (prune included: since chain33 7d7bddb the root objects that DelLeafCountKV
    leaves in the ARC cache own their hash; former known finding 3). *)
Definition C02_root_deterministic_full : Prop := root_deterministic_full.

Theorem C02_root_deterministic : C02_root_deterministic_full.
Proof. exact root_deterministic. Qed.
Print Assumptions C02_root_deterministic.

(** The same for every sound state (any configuration, block height, database,
    caches, pending trees), reachable or not, with no guard. *)
Theorem C02_root_deterministic_state : forall pending c s r bh kvs r' s',
  store_sound s ->
  st_update pending c s r bh kvs = Ok (r', s') ->
  exists o', t_set_all (root_tree r) kvs = Some o' /\ r' = tree_root o'.
Proof. exact root_deterministic_state. Qed.
Print Assumptions C02_root_deterministic_state.

(** Hence: same prior root, same writes => same new root, across configurations,
    heights, stores, and Set versus MemSet. *)
Theorem C02_root_cfg_independent : forall p1 p2 c1 c2 s1 s2 r bh1 bh2 kvs r1 r2 s1' s2',
  store_sound s1 -> store_sound s2 ->
  st_update p1 c1 s1 r bh1 kvs = Ok (r1, s1') ->
  st_update p2 c2 s2 r bh2 kvs = Ok (r2, s2') ->
  r1 = r2.
Proof. exact root_cfg_independent. Qed.
Print Assumptions C02_root_cfg_independent.

(** Soundness of everything a load can return (database, ARC cache, memTree,
    pending trees) is an invariant of every store operation under every
    configuration — including pending trees that are rolled back. *)
Theorem C02_store_sound_invariant : forall c s, store_sound s ->
  (forall r bh kvs r' s', st_set c s r bh kvs = Ok (r', s') -> store_sound s') /\
  (forall r bh kvs r' s', st_memset c s r bh kvs = Ok (r', s') -> store_sound s') /\
  (forall r r' s', st_commit c s r = Ok (r', s') -> store_sound s') /\
  (forall r r' s', st_rollback c s r = Ok (r', s') -> store_sound s') /\
  (forall r o s', st_probe c s r = Ok (o, s') -> store_sound s').
Proof.
  intros c s S. split; [|split; [|split; [|split]]].
  - intros r bh kvs r' s' H. apply (st_set_ok _ _ _ _ _ _ _ S H).
  - intros r bh kvs r' s' H. apply (st_memset_ok _ _ _ _ _ _ _ S H).
  - intros r r' s' H. apply (st_commit_ok _ _ _ _ _ S H).
  - intros r r' s' H. apply (st_rollback_ok _ _ _ _ _ S H).
  - intros r o s' H. apply (st_probe_ok _ _ _ _ _ S H).
Qed.
Print Assumptions C02_store_sound_invariant.

Theorem C02_cache_sound_invariant : forall c s, store_sound s ->
  (forall r bh kvs r' s', st_set c s r bh kvs = Ok (r', s') -> cache_sound s') /\
  (forall r bh kvs r' s', st_memset c s r bh kvs = Ok (r', s') -> cache_sound s') /\
  (forall r r' s', st_commit c s r = Ok (r', s') -> cache_sound s') /\
  (forall r r' s', st_rollback c s r = Ok (r', s') -> cache_sound s') /\
  (forall r o s', st_probe c s r = Ok (o, s') -> cache_sound s').
Proof.
  intros c s S. destruct (C02_store_sound_invariant c s S) as (A & B & C & D & E).
  split; [|split; [|split; [|split]]].
  - intros r bh kvs r' s' H. apply (A _ _ _ _ _ H).
  - intros r bh kvs r' s' H. apply (B _ _ _ _ _ H).
  - intros r r' s' H. apply (C _ _ _ H).
  - intros r r' s' H. apply (D _ _ _ H).
  - intros r o s' H. apply (E _ _ _ H).
Qed.
Print Assumptions C02_cache_sound_invariant.

Theorem C02_history_sound : forall c ops, store_sound (fst (exec c empty_store [None] ops)).
Proof. intros c ops. apply exec_sound. apply empty_sound. Qed.
Print Assumptions C02_history_sound.

(** MemSet then Commit = Set: same root (Commit answers with MemSet's root),
    same database nodes, same root index; without prune neither can fail if the
    other succeeded. *)
Theorem C02_memset_commit_eq_set : forall c s r bh kvs r1 s1,
  kvs <> [] -> st_memset c s r bh kvs = Ok (r1, s1) ->
  (forall r2 s2, st_commit c s1 r1 = Ok (r2, s2) -> r2 = r1) /\
  (forall r' s' s2, st_set c s r bh kvs = Ok (r', s') -> st_commit c s1 r1 = Ok (r1, s2) ->
                    r' = r1 /\ s_db s2 = s_db s' /\ s_idx s2 = s_idx s') /\
  (forall r' s', st_set c s r bh kvs = Ok (r', s') -> r' = r1) /\
  (c_prune c = false ->
   exists s2 s', st_commit c s1 r1 = Ok (r1, s2) /\ st_set c s r bh kvs = Ok (r1, s')).
Proof. exact memset_commit_eq_set. Qed.
Print Assumptions C02_memset_commit_eq_set.

(** The empty update: MemSet answers with the parent's root without loading it,
    and Commit of that answer changes nothing but the table of pending trees. *)
Theorem C02_memset_empty : forall c s r,
  exists s1, st_memset c s r 0 [] = Ok (r, s1) /\ s_db s1 = s_db s /\
  exists s2, st_commit c s1 r = Ok (r, s2) /\ s_db s2 = s_db s.
Proof.
  intros c s r. eexists. split; [reflexivity|]. split; [reflexivity|].
  unfold st_commit. simpl. rewrite root_eqb_refl. eexists. split; reflexivity.
Qed.
Print Assumptions C02_memset_empty.

(** Full strength also demands that the update succeeds; the model (like the
    Go code) panics under prefix + memTree after a rolled-back rewrite. *)
Definition C02_update_total_full : Prop := update_total_full.

Theorem C02_update_total_refuted : ~ C02_update_total_full.
Proof. exact update_total_refuted. Qed.
Print Assumptions C02_update_total_refuted.

(** The partial statement: the only way an update fails is an unresolvable node
    below the prior root.  [resolvable] and [save_quiet] are booleans. *)
Theorem C02_update_total_partial : forall pending c s r bh kvs,
  store_sound s -> o_good (root_tree r) ->
  resolvable c s r = true -> save_quiet c s bh = true ->
  exists r' s', st_update pending c s r bh kvs = Ok (r', s').
Proof. exact update_total_partial. Qed.
Print Assumptions C02_update_total_partial.

(** Without memTree and without prune the guard of the previous theorem holds
    along every history whose updates build on the empty root or on roots the
    history committed ([wf_exec]): there, every update succeeds. *)
Theorem C02_update_total_nomem : forall c, c_memtree c = false -> c_prune c = false ->
  forall ops r pending bh kvs,
    wf_exec c empty_store [None] ops ->
    In r (snd (exec' c empty_store [None] ops)) ->
    exists r' s', st_update pending c (fst (exec' c empty_store [None] ops)) r bh kvs = Ok (r', s').
Proof. exact update_total_nomem. Qed.
Print Assumptions C02_update_total_nomem.

(** Non-vacuity. *)
From Coq Require Strings.String.
Import Coq.Strings.String.StringSyntax.
Local Open Scope string_scope.

Definition ex_kvs1 := [(kb "k3", kb "v"); (kb "k1", kb "v"); (kb "k5", kb "v"); (kb "k2", kb "w");
                       (kb "k4", kb "v"); (kb "k6", kb "v"); (kb "k0", kb "v")].
Definition ex_c1 := mk_cfg false false false 0 false false 0.
Definition ex_c2 := new_cfg (mk_cfg false true true 100 true false 0).

Definition ex_root (c : cfg) : root :=
  match st_set c empty_store None 7 ex_kvs1 with Ok (r, _) => r | _ => None end.

Definition ex_state (c : cfg) : store :=
  fst (exec c empty_store [None]
         [SSet None 7 ex_kvs1; SMemSet (ex_root c) 9 [(kb "k2", kb "x")];
          SMemSet (ex_root c) 8 [(kb "k9", kb "y"); (kb "k1", kb "z")]; SRollback (ex_root c)]).

(* a sound, non-trivial state under the prune+prefix+mvcc+memTree configuration:
   7 leaves + 6 inner nodes in the database, a filled memTree, two pending trees *)
Example C02_ex_state_sound :
  store_sound (ex_state ex_c2) /\
  (length (s_db (ex_state ex_c2)), length (s_pend (ex_state ex_c2)),
   Nat.ltb 0 (length (s_mem (ex_state ex_c2)))) = (13%nat, 2%nat, true).
Proof.
  (* the state gets a name so that checking the evaluation computes it once *)
  split; [apply C02_history_sound|]. set (s := ex_state ex_c2). vm_compute. reflexivity.
Qed.

(* the same update, direct under the plain configuration and pending under the
   other one, at different block heights, after different histories: same root *)
Example C02_ex_same_root :
  match st_update false ex_c1 (ex_state ex_c1) (ex_root ex_c1) 11 [(kb "k7", kb "q"); (kb "k2", kb "r")],
        st_update true ex_c2 (ex_state ex_c2) (ex_root ex_c2) 12 [(kb "k7", kb "q"); (kb "k2", kb "r")] with
  | Ok (Some r1, _), Ok (Some r2, _) => hash_eqb r1 r2 = true /\ root_eqb (ex_root ex_c1) (ex_root ex_c2) = true
  | _, _ => False
  end.
Proof. set (r1 := ex_root ex_c1). set (r2 := ex_root ex_c2). vm_compute. split; reflexivity. Qed.

(* prefixed keys really occur: the database keys of ex_c2 carry block heights *)
Example C02_ex_prefixed_keys :
  existsb (fun b => match fst (fst b) with Some 7 => true | _ => false end) (s_db (ex_state ex_c2)) = true /\
  existsb (fun b => match fst (fst b) with Some _ => true | None => false end) (s_db (ex_state ex_c1)) = false.
Proof. vm_compute. split; reflexivity. Qed.

(* the guards of the partial theorems hold in that non-trivial state *)
Example C02_ex_guards :
  resolvable ex_c2 (ex_state ex_c2) (ex_root ex_c2) = true /\
  save_quiet ex_c2 (ex_state ex_c2) 10 = true.
Proof. set (s := ex_state ex_c2). vm_compute. split; reflexivity. Qed.

(* the history of former known finding 3 (prune; three saves at one block height, so that the
   third one's DelLeafCountKV loads the first two roots from the database and caches the
   height-3 root objects; then a Set with no writes on the first root): the root comes back,
   and the cached root record is really there *)
Definition al_cfg : cfg := new_cfg (mk_cfg false false true 0 false false 0).
Definition al_r1 : root :=
  match st_set al_cfg empty_store None 2 ex_kvs1 with Ok (r, _) => r | _ => None end.
Definition al_ops : list sop :=
  [ SSet None 2 ex_kvs1; SSet al_r1 2 [(kb "k1", kb "x")]; SSet al_r1 2 [(kb "k2", kb "y")] ].
Example C02_ex_empty_set_after_prune_bookkeeping :
  let s := fst (exec al_cfg empty_store [None] al_ops) in
  match al_r1, st_set al_cfg s al_r1 1 [] with
  | Some h, Ok (Some h', _) => hash_eqb h h' = true /\ m_has (s_lru s) (None, h) = true
  | _, _ => False
  end.
Proof. vm_compute. split; reflexivity. Qed.

(* a well-formed history with a fork, a rolled-back pending update and a commit
   (prefix + mvcc configuration, no memTree, no prune) *)
Definition ex_c3 := mk_cfg true true false 0 false false 0.
Definition ex_ops3 : list sop :=
  [SSet None 7 ex_kvs1; SMemSet (ex_root ex_c3) 9 [(kb "k2", kb "x")]; SRollback (ex_root ex_c3);
   SSet (ex_root ex_c3) 7 [(kb "k9", kb "y")]; SSet (ex_root ex_c3) 7 [(kb "k8", kb "y")]].
Example C02_ex_wf : wf_exec ex_c3 empty_store [None] ex_ops3 /\
  length (snd (exec' ex_c3 empty_store [None] ex_ops3)) = 4%nat.
Proof. split; [apply wf_execb_sound|]; vm_compute; reflexivity. Qed.
