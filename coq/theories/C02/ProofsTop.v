(** C02 — the top-level statements: the root of an update is C01's pure root
    (hence independent of configuration, block height, caches, pending trees
    and of Set versus MemSet+Commit); histories; the failing configuration. *)
From Coq Require Import List ZArith NArith Bool Lia.
From C33 Require Import Lib.Harness C01.Keys C01.KeysFacts C01.Model C01.Store C01.Inv C01.ProofsStore
  C02.Model C02.ProofsHash C02.ProofsSet C02.ProofsStore.
Import ListNotations.
Open Scope Z_scope.

(** an update, directly or as a pending tree *)
Definition st_update (pending : bool) (c : cfg) (s : store) (r : root) (bh : Z)
  (kvs : list (bytes * bytes)) : res (root * store) :=
  if pending then st_memset c s r bh kvs else st_set c s r bh kvs.

Theorem root_deterministic_state : forall pending c s r bh kvs r' s',
  store_sound s ->
  st_update pending c s r bh kvs = Ok (r', s') ->
  exists o', t_set_all (root_tree r) kvs = Some o' /\ r' = tree_root o'.
Proof.
  intros [|] c s r bh kvs r' s' S H; simpl in H.
  - apply (st_memset_ok _ _ _ _ _ _ _ S H).
  - apply (st_set_ok _ _ _ _ _ _ _ S H).
Qed.

Theorem root_cfg_independent : forall p1 p2 c1 c2 s1 s2 r bh1 bh2 kvs r1 r2 s1' s2',
  store_sound s1 -> store_sound s2 ->
  st_update p1 c1 s1 r bh1 kvs = Ok (r1, s1') ->
  st_update p2 c2 s2 r bh2 kvs = Ok (r2, s2') ->
  r1 = r2.
Proof.
  intros p1 p2 c1 c2 s1 s2 r bh1 bh2 kvs r1 r2 s1' s2' S1 S2 H1 H2.
  destruct (root_deterministic_state _ _ _ _ _ _ _ _ S1 H1) as (t1 & T1 & E1).
  destruct (root_deterministic_state _ _ _ _ _ _ _ _ S2 H2) as (t2 & T2 & E2).
  congruence.
Qed.

Lemma aset_all_some : forall kvs o lg o' lg',
  kvs <> [] \/ o <> None -> aset_all o kvs lg = Some (o', lg') -> o' <> None.
Proof.
  induction kvs as [|[k v] kvs IH]; intros o lg o' lg' NE H; simpl in H.
  - inversion H; subst. destruct NE; congruence.
  - destruct o as [t|]; [destruct (aset t k v lg) as [[[t' u] lg1]|]; [|discriminate]|];
      (eapply IH; [|exact H]; right; discriminate).
Qed.

Lemma prepare_some : forall c s r bh kvs o lru1 mem1 obs,
  kvs <> [] -> prepare c s r bh kvs = Ok (o, lru1, mem1, obs) -> o <> None.
Proof.
  intros c s r bh kvs o lru1 mem1 obs NE H.
  destruct (prepare_inv _ _ _ _ _ _ _ _ _ H) as (o0 & lg0 & o1 & lg & _ & AS & _ & ->).
  pose proof (aset_all_some _ _ _ _ _ (or_introl NE) AS). destruct o1; [discriminate|congruence].
Qed.

Theorem memset_commit_eq_set : forall c s r bh kvs r1 s1,
  kvs <> [] -> st_memset c s r bh kvs = Ok (r1, s1) ->
  (forall r2 s2, st_commit c s1 r1 = Ok (r2, s2) -> r2 = r1) /\
  (forall r' s' s2, st_set c s r bh kvs = Ok (r', s') -> st_commit c s1 r1 = Ok (r1, s2) ->
                    r' = r1 /\ s_db s2 = s_db s' /\ s_idx s2 = s_idx s') /\
  (forall r' s', st_set c s r bh kvs = Ok (r', s') -> r' = r1) /\
  (c_prune c = false ->
   exists s2 s', st_commit c s1 r1 = Ok (r1, s2) /\ st_set c s r bh kvs = Ok (r1, s')).
Proof.
  intros c s r bh kvs r1 s1 NE H.
  destruct (st_memset_inv _ _ _ _ _ _ _ NE H) as (o & lru1 & mem1 & obs & PR & -> & E).
  pose proof (prepare_some _ _ _ _ _ _ _ _ _ NE PR) as NN. destruct o as [t|]; [|congruence].
  (* the pending tree is the one Set would save, in a store with the same database and root index *)
  assert (PG : p_get (s_pend s1) (Some (ahash t)) = Some (Some (t, bh))) by (subst s1; apply p_get_put_same).
  assert (DB : s_db s1 = s_db s /\ s_idx s1 = s_idx s) by (subst s1; split; reflexivity).
  clear E H. simpl aroot.
  assert (SET : forall r' s', st_set c s r bh kvs = Ok (r', s') ->
                  r' = Some (ahash t) /\ do_save c (with_caches s lru1 mem1) t bh = Some s').
  { intros r' s' E. destruct (st_set_inv _ _ _ _ _ _ _ E) as (o & l & m & ob & PR' & -> & SV).
    rewrite PR in PR'. injection PR' as <- <- <- <-. auto. }
  split; [|split; [|split]].
  - intros r2 s2 E. apply (st_commit_inv _ _ _ _ _ E).
  - intros r' s' s2 E1 E2. destruct (SET _ _ E1) as [-> SA]. split; [reflexivity|].
    destruct (st_commit_inv _ _ _ _ _ E2) as (_ & x & PG' & SB). rewrite PG in PG'. inversion PG'; subst x.
    destruct SB as (sb & SB & ->).
    destruct (do_save_db _ _ _ _ _ SA) as (-> & -> & _). destruct (do_save_db _ _ _ _ _ SB) as (DS & IS & _).
    destruct DB as [DB IB]. simpl. rewrite DS, IS, DB, IB. auto.
  - intros r' s' E. apply (SET _ _ E).
  - intros NP.
    destruct (do_save_total c s1 t bh (or_introl NP)) as [sb SB].
    destruct (do_save_total c (with_caches s lru1 mem1) t bh (or_introl NP)) as [sa SA].
    unfold st_commit, st_set. rewrite PG, PR, SB, SA. eexists. eexists. split; reflexivity.
Qed.

Inductive sop :=
| SSet (r : root) (bh : Z) (kvs : list (bytes * bytes))
| SMemSet (r : root) (bh : Z) (kvs : list (bytes * bytes))
| SCommit (r : root)
| SRollback (r : root)
| SProbe (r : root).

(** the store after an operation (unchanged if it fails) and the root it
    committed, if any *)
Definition apply_sop (c : cfg) (s : store) (o : sop) : store * option root :=
  match o with
  | SSet r bh kvs => match st_set c s r bh kvs with Ok (r', s') => (s', Some r') | _ => (s, None) end
  | SMemSet r bh kvs => match st_memset c s r bh kvs with Ok (_, s') => (s', None) | _ => (s, None) end
  | SCommit r => match st_commit c s r with Ok (r', s') => (s', Some r') | _ => (s, None) end
  | SRollback r => match st_rollback c s r with Ok (_, s') => (s', None) | _ => (s, None) end
  | SProbe r => match st_probe c s r with Ok (_, s') => (s', None) | _ => (s, None) end
  end.

Fixpoint exec (c : cfg) (s : store) (committed : list root) (ops : list sop)
  : store * list root :=
  match ops with
  | [] => (s, committed)
  | o :: tl =>
      let '(s', cr) := apply_sop c s o in
      exec c s' (match cr with Some r => r :: committed | None => committed end) tl
  end.

Lemma apply_sop_sound : forall c s o, store_sound s -> store_sound (fst (apply_sop c s o)).
Proof.
  intros c s o S. destruct o as [r bh kvs|r bh kvs|r|r|r]; simpl.
  - destruct (st_set c s r bh kvs) as [[r' s']| | |] eqn:H; simpl; auto. apply (st_set_ok _ _ _ _ _ _ _ S H).
  - destruct (st_memset c s r bh kvs) as [[r' s']| | |] eqn:H; simpl; auto. apply (st_memset_ok _ _ _ _ _ _ _ S H).
  - destruct (st_commit c s r) as [[r' s']| | |] eqn:H; simpl; auto. apply (st_commit_ok _ _ _ _ _ S H).
  - destruct (st_rollback c s r) as [[r' s']| | |] eqn:H; simpl; auto. apply (st_rollback_ok _ _ _ _ _ S H).
  - destruct (st_probe c s r) as [[r' s']| | |] eqn:H; simpl; auto. apply (st_probe_ok _ _ _ _ _ S H).
Qed.

Theorem exec_sound : forall c ops s cm, store_sound s -> store_sound (fst (exec c s cm ops)).
Proof.
  intros c. induction ops as [|o ops IH]; intros s cm S; simpl; [exact S|].
  pose proof (apply_sop_sound c s o S) as S'.
  destruct (apply_sop c s o) as [s' cr]. simpl in S'. apply IH. exact S'.
Qed.

(** Full strength 1: the root of every successful update is the pure root. *)
Definition root_deterministic_full : Prop :=
  forall pending c ops r bh kvs r' s',
    let s := fst (exec c empty_store [None] ops) in
    st_update pending c s r bh kvs = Ok (r', s') ->
    exists o', t_set_all (root_tree r) kvs = Some o' /\ r' = tree_root o'.

Theorem root_deterministic : root_deterministic_full.
Proof.
  intros pending c ops r bh kvs r' s' s H.
  apply (root_deterministic_state pending c s r bh kvs r' s'); [|exact H].
  apply exec_sound. apply empty_sound.
Qed.

(** Full strength 2: after any history, an update of the empty root or of a root
    that the history committed succeeds, under every configuration. *)
Definition update_total_full : Prop :=
  forall c ops r pending bh kvs,
    let '(s, committed) := exec c empty_store [None] ops in
    In r committed ->
    exists r' s', st_update pending c s r bh kvs = Ok (r', s').

From Coq Require Strings.String.
Import Coq.Strings.String.StringSyntax.
Local Open Scope string_scope.
Definition kb (s : String.string) : bytes := bs s.

(** ... 2 fails with prefix + memTree after a rolled-back rewrite. *)
Definition kf_cfg : cfg := mk_cfg true false false 0 true false 0.

Definition kf_kvs : list (bytes * bytes) := [(kb "c", kb "0"); (kb "a", kb "0")].

Definition kf_r0 : root :=
  match st_set kf_cfg empty_store None 1 kf_kvs with Ok (r, _) => r | _ => None end.

(* the rewrite ends in the content it started from, so its pending tree has the root [kf_r0] *)
Definition kf_ops : list sop :=
  [ SSet None 1 kf_kvs; SMemSet kf_r0 3 ((kb "c", kb "1") :: kf_kvs); SRollback kf_r0 ].

Theorem update_total_refuted : ~ update_total_full.
Proof.
  intros F.
  specialize (F kf_cfg kf_ops kf_r0 false 1 [(kb "g", kb "1")]).
  vm_compute in F.
  destruct F as (r' & s' & E); [left; reflexivity|discriminate].
Qed.
