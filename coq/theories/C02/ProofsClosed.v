(** C02 — without memTree and without prune, every version a history commits
    stays completely resolvable: the database is closed under child keys, the ARC
    cache only holds records whose children are in the database, and pending trees
    only refer to stored nodes.  Part 1: trees. *)
From Coq Require Import List ZArith NArith Bool Lia.
From C33 Require Import C01.Keys C01.KeysFacts C01.Model C01.Store C01.Spec C01.Inv C01.Proofs C01.ProofsStore
  C02.Model C02.ProofsHash C02.ProofsSet C02.ProofsStore C02.ProofsTop C02.ProofsTotal.
Import ListNotations.
Open Scope Z_scope.

Definition ann_ok (P : nk -> Prop) (a : ann) : Prop :=
  match a with APers K => P K | ANew => True | AHashed _ => False end.

(** a tree under construction: no unresolved child, no node of another pending
    tree, and every persisted node satisfies [P] *)
Fixpoint pers_all (P : nk -> Prop) (t : atree) : Prop :=
  match t with
  | AMissing _ => False
  | ALeaf a _ _ => ann_ok P a
  | ANode a _ _ _ l r => ann_ok P a /\ pers_all P l /\ pers_all P r
  end.

Lemma pers_all_full : forall P t, pers_all P t -> full t.
Proof.
  intros P. induction t as [K|a k v|a key h s l IHl r IHr]; intros H; simpl in H.
  - destruct H.
  - reflexivity.
  - destruct H as (_ & Hl & Hr). apply full_mk; auto.
Qed.

Lemma pers_all_weaken : forall (P Q : nk -> Prop) t, (forall K, P K -> Q K) -> pers_all P t -> pers_all Q t.
Proof.
  intros P Q. induction t as [K|a k v|a key h s l IHl r IHr]; intros W H; simpl in *; auto.
  - destruct a; simpl in *; auto.
  - destruct H as (A & Hl & Hr). repeat split; auto. destruct a; simpl in *; auto.
Qed.

Lemma pers_present : forall P t, pers_all P t -> present t.
Proof. intros P [K|a k v|a key h s l r] H; simpl in *; auto. Qed.

Lemma pers_node_inv : forall P a key h s l r, pers_all P (ANode a key h s l r) -> pers_all P l /\ pers_all P r.
Proof. intros P a key h s l r (_ & A & B). auto. Qed.

(** the root of a version: new, or loaded under an unprefixed key *)
Definition root_plain (t : atree) : Prop :=
  is_new t \/ match t with ALeaf (APers K) _ _ | ANode (APers K) _ _ _ _ _ => fst K = None | _ => False end.

Lemma aset_all_pers : forall P kvs o lg o' lg',
  oall acons o -> oall (pers_all P) o -> oall root_plain o ->
  aset_all o kvs lg = Some (o', lg') -> oall (pers_all P) o' /\ oall root_plain o'.
Proof.
  intros P kvs o lg o' lg' C H R E.
  pose proof (aset_all_spec (pers_all P) (pers_present P) (pers_node_inv P)
                (fun _ _ _ _ _ Hl Hr => conj I (conj Hl Hr)) (fun _ _ => I) kvs o lg C) as S.
  rewrite E in S. destruct S as (_ & _ & F & W). split; [exact (F H)|].
  destruct W as [->|N]; [exact R|]. destruct o'; [left; exact N|exact I].
Qed.

(** ---- Part 2: the store ---- *)
Definition bound (m : kvmap) (K : nk) : Prop := m_has m K = true.

Definition kids_in (db : kvmap) (r : nrec) : Prop :=
  match r with NLeaf _ _ => True | NInner _ _ _ lk rk => bound db lk /\ bound db rk end.

Definition hgood (h : hash) : Prop := ordered (toh h) /\ sized (toh h).

Definition db_closed (db : kvmap) : Prop := map_all (fun K r => kids_in db r /\ hgood (snd K)) db.

Definition lru_closed (db lru : kvmap) : Prop :=
  forall K r, m_get lru K = Some r -> kids_in db r /\ hgood (snd K) /\ bound db K.

Lemma hgood_inner : forall h s a b, hgood (HInner h s a b) -> hgood a /\ hgood b.
Proof.
  intros h s a b [O S]. simpl in O, S. destruct O as (Oa & Ob & _). destruct S as (Sa & Sb & _).
  split; split; auto.
Qed.

Lemma hgood_leaf : forall k v, hgood (HLeaf k v).
Proof. intros k v. split; exact I. Qed.

Lemma m_has_put : forall m K r K', m_has (m_put m K r) K' = nk_eqb K' K || m_has m K'.
Proof. intros m K r K'. unfold m_has, m_put. simpl. destruct (nk_eqb K' K); reflexivity. Qed.

Lemma bound_put : forall m K r K', bound m K' -> bound (m_put m K r) K'.
Proof. intros m K r K' B. unfold bound in *. rewrite m_has_put, B. apply orb_true_r. Qed.

Lemma bound_put_same : forall m K r, bound (m_put m K r) K.
Proof. intros m K r. unfold bound. rewrite m_has_put, nk_eqb_refl. reflexivity. Qed.

Lemma bound_get : forall m K, bound m K -> exists r, m_get m K = Some r.
Proof. intros m K B. unfold bound, m_has in B. destruct (m_get m K) as [r|]; [eauto|discriminate]. Qed.

Lemma get_bound : forall m K r, m_get m K = Some r -> bound m K.
Proof. intros m K r H. unfold bound, m_has. rewrite H. reflexivity. Qed.

Lemma m_get_del_sub : forall m K K' r, m_get (m_del m K) K' = Some r -> m_get m K' = Some r.
Proof. exact m_get_del. Qed.

Lemma kids_in_mono : forall db db' r, (forall K, bound db K -> bound db' K) -> kids_in db r -> kids_in db' r.
Proof. intros db db' [k v|key h s lk rk] M H; simpl in *; auto. destruct H; auto. Qed.

Lemma lru_closed_mono : forall db db' lru,
  (forall K, bound db K -> bound db' K) -> lru_closed db lru -> lru_closed db' lru.
Proof.
  intros db db' lru M. apply map_all_impl. intros K r (A & B & C). split; [exact (kids_in_mono _ _ _ M A)|auto].
Qed.

Lemma db_closed_put : forall db K rc,
  db_closed db -> kids_in db rc -> hgood (snd K) -> db_closed (m_put db K rc).
Proof.
  intros db K rc D KI G.
  assert (M : forall K0, bound db K0 -> bound (m_put db K rc) K0) by (intros; apply bound_put; assumption).
  apply map_all_put; [|split; [exact (kids_in_mono _ _ _ M KI)|exact G]].
  revert D. apply map_all_impl. intros K' r' [A B]. split; [exact (kids_in_mono _ _ _ M A)|exact B].
Qed.

(** the tree Node.Hash hands to save *)
Fixpoint hashed_ok (db : kvmap) (t : atree) : Prop :=
  match t with
  | AMissing _ => False
  | ALeaf a _ _ => match a with ANew => False | AHashed _ => True | APers K => bound db K end
  | ANode a _ _ _ l r =>
      match a with
      | ANew => False
      | AHashed _ => hashed_ok db l /\ hashed_ok db r
      | APers K => bound db K
      end
  end.

Lemma assign_hashed_ok : forall db pfx bh rh t, pers_all (bound db) t -> hashed_ok db (assign pfx bh rh t).
Proof.
  intros db pfx bh rh. induction t as [K|a k v|a key h s l IHl r IHr]; intros H; simpl in *; auto.
  - destruct a; simpl in *; auto.
  - destruct H as (A & Hl & Hr). destruct a; simpl in *; auto. destruct A.
Qed.

Lemma hashed_ok_mono : forall db db' t, (forall K, bound db K -> bound db' K) -> hashed_ok db t -> hashed_ok db' t.
Proof.
  intros db db'. induction t as [K|a k v|a key h s l IHl r IHr]; intros M H; simpl in *; auto.
  - destruct a; auto.
  - destruct a; auto. destruct H; auto.
Qed.

Lemma hgood_ahash_kids : forall a key h s l r,
  acons (ANode a key h s l r) -> hgood (ahash (ANode a key h s l r)) -> hgood (ahash l) /\ hgood (ahash r).
Proof.
  intros a key h s l r (Cl & Cr & Hk & Ha) G. destruct a as [|K|K]; simpl in G; [|rewrite Ha in G..];
    eapply hgood_inner; eauto.
Qed.

Lemma akey_bound_pers : forall db t, hashed_ok db t -> (match t with ALeaf (APers _) _ _ | ANode (APers _) _ _ _ _ _ => True | _ => False end) -> bound db (akey t).
Proof. intros db [K|[|K|K] k v|[|K|K] key h s l r] H X; simpl in *; tauto. Qed.

Lemma asave_closed : forall mvcc t db lru,
  db_closed db -> lru_closed db lru -> hashed_ok db t -> acons t -> hgood (ahash t) ->
  let dl := asave mvcc t (db, lru) in
  db_closed (fst dl) /\ lru_closed (fst dl) (snd dl) /\
  (forall K, bound db K -> bound (fst dl) K) /\ bound (fst dl) (akey t).
Proof.
  intros mvcc. induction t as [K0|a k v|a key h s l IHl r IHr]; intros db lru D L H C G; simpl in H.
  - destruct H.
  - destruct a as [|K|K]; [destruct H| |]; simpl; [|auto].
    simpl in G.
    assert (M : forall K0, bound db K0 -> bound (m_put db K (NLeaf k (if mvcc then [] else v))) K0)
      by (intros; apply bound_put; assumption).
    split; [apply db_closed_put; [exact D|exact I|exact G]|].
    split; [exact (lru_closed_mono _ _ _ M L)|]. split; [exact M|apply bound_put_same].
  - destruct a as [|K|K]; [destruct H| |]; cbn [asave]; [|simpl; auto].
    destruct H as [Hl Hr].
    destruct (acons_node_inv _ _ _ _ _ _ C) as (Cl & Cr & Hk).
    destruct (hgood_ahash_kids _ _ _ _ _ _ C G) as [Gl Gr]. simpl in G.
    specialize (IHl db lru D L Hl Cl Gl). cbv zeta in IHl.
    destruct (asave mvcc l (db, lru)) as [db1 lru1]. simpl in IHl. destruct IHl as (D1 & L1 & M1 & B1).
    specialize (IHr db1 lru1 D1 L1 (hashed_ok_mono _ _ _ M1 Hr) Cr Gr). cbv zeta in IHr.
    destruct (asave mvcc r (db1, lru1)) as [db2 lru2]. simpl in IHr. destruct IHr as (D2 & L2 & M2 & B2).
    simpl. set (rc := NInner key h s (akey l) (akey r)).
    (* both children are stored by now *)
    assert (KI : kids_in db2 rc) by (split; auto).
    assert (M : forall K0, bound db2 K0 -> bound (m_put db2 K rc) K0) by (intros; apply bound_put; assumption).
    assert (LL : lru_closed (m_put db2 K rc) lru2) by exact (lru_closed_mono _ _ _ M L2).
    split; [apply db_closed_put; assumption|]. split; [|split; [auto|apply bound_put_same]].
    destruct (h >? 2); [|exact LL].
    apply map_all_put; [exact LL|]. split; [exact (kids_in_mono _ _ _ M KI)|]. split; [exact G|apply bound_put_same].
Qed.

Lemma run_ev_closed : forall c db mem st e,
  c_memtree c = false -> db_closed db ->
  lru_closed db (fst (fst st)) /\ snd (fst st) = mem ->
  lru_closed db (fst (fst (run_ev c db st e))) /\ snd (fst (run_ev c db st e)) = mem.
Proof.
  intros c db mem0 [[lru mem] obs] e NM D [L M]. simpl in L, M.
  destruct e as [K|K]; cbn [run_ev]; rewrite NM; simpl.
  - destruct (m_has lru K); [simpl; auto|].
    destruct (m_get db K) as [r|] eqn:E; [|simpl; auto]. simpl. split; [|exact M].
    destruct (nrec_height r >? 2); [|exact L]. destruct (D _ _ E) as [A B].
    apply map_all_put; [exact L|]. split; [exact A|]. split; [exact B|exact (get_bound _ _ _ E)].
  - split; [|exact M]. apply map_all_del. exact L.
Qed.

Lemma run_log_closed : forall c db lg lru mem obs lru' mem' obs',
  c_memtree c = false -> db_closed db -> lru_closed db lru ->
  run_log c db lg (lru, mem, obs) = (lru', mem', obs') -> lru_closed db lru' /\ mem' = mem.
Proof.
  intros c db lg lru mem obs lru' mem' obs' NM D L H.
  pose proof (run_log_inv _ c db (fun st e => run_ev_closed c db mem st e NM D) lg (lru, mem, obs)
                (conj L eq_refl)) as X.
  rewrite H in X. exact X.
Qed.

(** materialisation of a bound, good key is complete *)
Lemma mat_pers : forall lk db,
  (forall K r, lk K = Some r -> rec_ok K r /\ kids_in db r /\ hgood (snd K)) ->
  (forall K, bound db K -> lk K <> None) ->
  forall fuel K, bound db K -> hgood (snd K) -> (Z.to_nat (height (toh (snd K))) < fuel)%nat ->
  pers_all (bound db) (mat lk fuel K).
Proof.
  intros lk db F1 F2. induction fuel as [|f IH]; intros K B G LT; [lia|].
  simpl. destruct (lk K) as [rc|] eqn:E; [|exfalso; exact (F2 K B E)].
  destruct (F1 _ _ E) as (RO & KI & _).
  destruct rc as [k v|key h s lkk rkk]; simpl; [exact B|].
  destruct RO as [EH EK]. destruct KI as [Bl Br].
  rewrite EH in G, LT. destruct (hgood_inner _ _ _ _ G) as [Gl Gr].
  destruct G as [_ SZ]. simpl in SZ. destruct SZ as (Sl & Sr & Hh & _). simpl in LT.
  pose proof (sized_height_nonneg _ Sl). pose proof (sized_height_nonneg _ Sr).
  split; [exact B|]. split; apply IH; auto; lia.
Qed.

(** ---- Part 3: the invariant ---- *)
Definition root_ok (db : kvmap) (r : root) : Prop :=
  match r with None => True | Some h => bound db (None, h) end.

Definition tree_ready (db : kvmap) (t : atree) : Prop :=
  hashed_ok db t /\ acons t /\ hgood (ahash t) /\ akey t = (None, ahash t).

Definition pend_closed (db : kvmap) (p : pending) : Prop :=
  pend_all (fun r t => tree_ready db t /\ r = Some (ahash t)) p.

Definition closed (s : store) : Prop :=
  store_sound s /\ db_closed (s_db s) /\ lru_closed (s_db s) (s_lru s) /\ pend_closed (s_db s) (s_pend s).

Lemma closed_empty : closed empty_store.
Proof.
  split; [apply empty_sound|]. split; [intros K r H; discriminate|].
  split; [intros K r H; discriminate|]. intros r t bh H. discriminate.
Qed.

Lemma root_ok_mono : forall db db' r, (forall K, bound db K -> bound db' K) -> root_ok db r -> root_ok db' r.
Proof. intros db db' [h|] M R; simpl in *; auto. Qed.

Lemma pend_closed_mono : forall db db' p,
  (forall K, bound db K -> bound db' K) -> pend_closed db p -> pend_closed db' p.
Proof.
  intros db db' p M. apply pend_all_impl. intros r t [(A & B) E].
  split; [|exact E]. split; [exact (hashed_ok_mono _ _ _ M A)|exact B].
Qed.

Lemma closed_with_caches : forall s lru mem,
  closed s -> map_ok lru -> map_ok mem -> lru_closed (s_db s) lru -> closed (with_caches s lru mem).
Proof. intros s lru mem (S & D & _ & P) L M LC. split; [apply with_caches_sound|]; auto. Qed.

Lemma closed_with_pend : forall s p, closed s -> pend_closed (s_db s) p -> closed (with_pend s p).
Proof.
  intros s p (S & D & L & _) P. split; [|auto]. apply with_pend_sound; [exact S|].
  intros r t bh H. apply (P _ _ _ H).
Qed.

Lemma assign_root_key : forall pfx bh t,
  root_plain t -> akey (assign pfx bh (aheight t) t) = (None, ahash t).
Proof.
  intros pfx bh [K|a k v|a key h s l r] [N|P]; simpl in *; try tauto.
  - destruct a; try tauto. simpl. unfold mkpfx. simpl. rewrite andb_false_r. reflexivity.
  - destruct a as [|K|K]; try tauto. simpl. destruct K as [p hh]. simpl in *. subst. reflexivity.
  - destruct a; try tauto. simpl. unfold mkpfx. rewrite Z.eqb_refl. simpl. rewrite andb_false_r.
    rewrite !snd_akey, !ahash_assign. reflexivity.
  - destruct a as [|K|K]; try tauto. simpl. destruct K as [p hh]. simpl in *. subst. reflexivity.
Qed.

Section NoMem.
  Variable c : cfg.
  Hypothesis NM : c_memtree c = false.
  Hypothesis NP : c_prune c = false.

  Lemma lookup_nomem : forall s K, lookup c s K =
    match m_get (s_lru s) K with Some r => Some r | None => m_get (s_db s) K end.
  Proof. intros s K. unfold lookup, lookup_in. rewrite NM. destruct (m_get (s_lru s) K); reflexivity. Qed.

  Lemma lookup_facts : forall s, closed s ->
    (forall K r, lookup c s K = Some r -> rec_ok K r /\ kids_in (s_db s) r /\ hgood (snd K)) /\
    (forall K, bound (s_db s) K -> lookup c s K <> None).
  Proof.
    intros s (S & D & L & P). split.
    - intros K r H. split; [eapply lookup_ok; eauto|]. rewrite lookup_nomem in H.
      destruct (m_get (s_lru s) K) as [r0|] eqn:E.
      + inversion H; subst. destruct (L _ _ E) as (A & B & _). auto.
      + apply D. exact H.
    - intros K B. rewrite lookup_nomem. destruct (m_get (s_lru s) K); [discriminate|].
      destruct (bound_get _ _ B) as [r ->]. discriminate.
  Qed.

  Lemma root_ok_good : forall s r, closed s -> root_ok (s_db s) r -> o_good (root_tree r).
  Proof.
    intros s [h|] (S & D & _) R; simpl in *; [|exact I].
    destruct (bound_get _ _ R) as [rc E]. destruct (D _ _ E) as [_ G]. exact G.
  Qed.

  Lemma load_at_pers : forall s r, closed s -> root_ok (s_db s) r ->
    exists o lg, load_at c s r = Some (o, lg) /\ oall (pers_all (bound (s_db s))) o /\ oall root_plain o.
  Proof.
    intros s [h|] CL R; unfold load_at; [|exists None, []; repeat split].
    destruct (lookup_facts s CL) as [F1 F2]. simpl in R. unfold mat_root.
    destruct (lookup c s (None, h)) as [rc|] eqn:E; [|destruct (F2 _ R E)].
    eexists. eexists. split; [reflexivity|]. destruct (F1 _ _ E) as (RO & _ & G). split.
    - apply (mat_pers (lookup c s) (s_db s) F1 F2); [exact R|exact G|].
      destruct rc as [k v|key hh ss lk rk]; simpl in RO |- *;
        [destruct RO as [v' ->]|destruct RO as [-> _]]; simpl; lia.
    - right. simpl. rewrite E. destruct rc; reflexivity.
  Qed.

  Lemma prepare_closed : forall s r bh kvs o lru1 mem1 obs,
    closed s -> root_ok (s_db s) r -> prepare c s r bh kvs = Ok (o, lru1, mem1, obs) ->
    closed (with_caches s lru1 mem1) /\
    match o with Some t => tree_ready (s_db s) t | None => True end.
  Proof.
    intros s r bh kvs o lru1 mem1 obs CL R H.
    pose proof CL as (S & D & L & P).
    destruct (prepare_ok _ _ _ _ _ _ _ _ _ S H) as (C & L1 & M1 & o' & T & RT).
    destruct (prepare_inv _ _ _ _ _ _ _ _ _ H) as (o0 & lg0 & o1 & lg & LD & AS & RL & ->).
    split; [apply closed_with_caches; auto; exact (proj1 (run_log_closed _ _ _ _ _ _ _ _ _ NM D L RL))|].
    destruct (load_at_pers _ _ CL R) as (o0' & lg0' & LD' & PA0 & RP0). rewrite LD in LD'. inversion LD'; subst o0' lg0'.
    destruct (aset_all_pers _ _ _ _ _ _ (proj1 (load_at_ok _ _ _ _ _ S LD)) PA0 RP0 AS) as [PA RP].
    destruct o1 as [t|]; [|exact I]. simpl in C, PA, RP.
    split; [apply assign_hashed_ok; exact PA|]. split; [exact C|]. split.
    - (* the new root denotes a good tree *)
      destruct (t_set_all_inv kvs (root_tree r) (root_ok_good s r CL R)) as (o'' & T' & G & _).
      rewrite T in T'. inversion T'; subst o''. simpl in RT.
      destruct o' as [t''|]; [|discriminate]. simpl in RT. inversion RT as [E].
      destruct G as [GO GS]. unfold hgood. rewrite E. rewrite (toh_thash _ (ordered_keyed _ GO)). auto.
    - rewrite ahash_assign. apply assign_root_key. exact RP.
  Qed.

  Lemma do_save_closed : forall s t bh s',
    closed s -> tree_ready (s_db s) t -> do_save c s t bh = Some s' ->
    closed s' /\ (forall K, bound (s_db s) K -> bound (s_db s') K) /\ bound (s_db s') (None, ahash t) /\
    s_pend s' = s_pend s.
  Proof.
    intros s t bh s' CL (H1 & H2 & H3 & H4) H. pose proof CL as (S & D & L & P).
    pose proof (do_save_sound _ _ _ _ _ S H2 H) as SS.
    destruct (do_save_inv _ _ _ _ _ H) as (lru1 & mem1 & maxh & [[-> ->]|[E _]] & ->); [|congruence].
    pose proof (asave_closed (c_mvcc c) t (s_db s) (s_lru s) D L H1 H2 H3) as X. cbv zeta in X.
    destruct X as (D2 & L2 & M2 & B2). rewrite H4 in B2. simpl.
    split; [|auto]. split; [exact SS|]. split; [exact D2|]. split; [exact L2|].
    exact (pend_closed_mono _ _ _ M2 P).
  Qed.

  (** every operation keeps the invariant; Set and Commit of a real tree return a stored root *)
  Lemma st_set_closed : forall s r bh kvs r' s',
    closed s -> root_ok (s_db s) r -> st_set c s r bh kvs = Ok (r', s') ->
    closed s' /\ root_ok (s_db s') r' /\ (forall K, bound (s_db s) K -> bound (s_db s') K).
  Proof.
    intros s r bh kvs r' s' CL R H.
    destruct (st_set_inv _ _ _ _ _ _ _ H) as (o & lru1 & mem1 & obs & PR & -> & E).
    destruct (prepare_closed _ _ _ _ _ _ _ _ CL R PR) as (CL1 & TR).
    destruct o as [t|]; [|subst s'; split; [exact CL1|split; [exact I|auto]]].
    destruct (do_save_closed _ _ _ _ CL1 TR E) as (CL' & M & B & _). auto.
  Qed.

  Lemma st_memset_closed : forall s r bh kvs r' s',
    closed s -> root_ok (s_db s) r -> st_memset c s r bh kvs = Ok (r', s') ->
    closed s' /\ s_db s' = s_db s.
  Proof.
    intros s r bh kvs r' s' CL R H. destruct kvs as [|kv kvs].
    - injection H as <- <-. split; [|reflexivity]. apply closed_with_pend; [exact CL|].
      apply pend_all_put; [apply CL|discriminate].
    - assert (NE : kv :: kvs <> []) by discriminate.
      destruct (st_memset_inv _ _ _ _ _ _ _ NE H) as (o & lru1 & mem1 & obs & PR & -> & E).
      destruct (prepare_closed _ _ _ _ _ _ _ _ CL R PR) as (CL1 & TR).
      destruct o as [t|]; subst s'; [|split; [exact CL1|reflexivity]].
      rewrite NM. split; [|reflexivity]. apply closed_with_pend; [exact CL1|].
      apply pend_all_put; [apply CL|]. intros t' bh' X. inversion X; subst. auto.
  Qed.

  Lemma st_commit_closed : forall s r r' s',
    closed s -> st_commit c s r = Ok (r', s') ->
    closed s' /\ (forall K, bound (s_db s) K -> bound (s_db s') K) /\
    (forall t bh, p_get (s_pend s) r = Some (Some (t, bh)) -> root_ok (s_db s') r').
  Proof.
    intros s r r' s' CL H. destruct (st_commit_inv _ _ _ _ _ H) as (-> & x & PG & E).
    destruct x as [[t bh]|].
    - destruct E as (s1 & SV & ->). destruct (proj2 (proj2 (proj2 CL)) _ _ _ PG) as [TR ->].
      destruct (do_save_closed _ _ _ _ CL TR SV) as (CL1 & M & B & PE).
      split; [|split; [exact M|intros; exact B]].
      apply closed_with_pend; [exact CL1|]. rewrite <- PE. apply pend_all_del, CL1.
    - subst s'. split; [|split; [auto|intros t bh X; rewrite PG in X; discriminate]].
      apply closed_with_pend; [exact CL|]. apply pend_all_del, CL.
  Qed.

  Lemma st_rollback_closed : forall s r r' s',
    closed s -> st_rollback c s r = Ok (r', s') -> closed s' /\ s_db s' = s_db s.
  Proof.
    intros s r r' s' CL H. unfold st_rollback in H. destruct (p_get (s_pend s) r); [|discriminate].
    injection H as <- <-. split; [|reflexivity].
    apply closed_with_pend; [exact CL|]. apply pend_all_del, CL.
  Qed.

  Lemma st_probe_closed : forall s r o s',
    closed s -> st_probe c s r = Ok (o, s') -> closed s' /\ s_db s' = s_db s.
  Proof.
    intros s r o s' CL H. pose proof CL as (S & D & L & P).
    destruct (st_probe_ok _ _ _ _ _ S H) as [(_ & (L1 & M1) & _) _].
    unfold st_probe in H. destruct (load_at c s r) as [[[t|] lg]|]; try discriminate.
    - destruct (has_missing t); [discriminate|].
      destruct (run_log c (s_db s) (visits t []) (s_lru s, s_mem s, [])) as [[l1 m1] o1] eqn:RL.
      injection H as <- <-. split; [|reflexivity]. apply closed_with_caches; auto.
      exact (proj1 (run_log_closed _ _ _ _ _ _ _ _ _ NM D L RL)).
    - injection H as <- <-. split; [exact CL|reflexivity].
  Qed.

  (** histories whose updates only build on the empty root or on roots that the
      history committed (Set, or Commit of a real pending tree) *)
  Fixpoint wf_exec (s : store) (committed : list root) (ops : list sop) : Prop :=
    match ops with
    | [] => True
    | o :: tl =>
        match o with
        | SSet r _ _ | SMemSet r _ _ => In r committed
        | _ => True
        end /\
        let '(s', cr) := apply_sop c s o in
        let cr' := match o with
                   | SCommit r => match p_get (s_pend s) r with Some (Some _) => cr | _ => None end
                   | _ => cr
                   end in
        wf_exec s' (match cr' with Some r => r :: committed | None => committed end) tl
    end.

  Fixpoint exec' (s : store) (committed : list root) (ops : list sop) : store * list root :=
    match ops with
    | [] => (s, committed)
    | o :: tl =>
        let '(s', cr) := apply_sop c s o in
        let cr' := match o with
                   | SCommit r => match p_get (s_pend s) r with Some (Some _) => cr | _ => None end
                   | _ => cr
                   end in
        exec' s' (match cr' with Some r => r :: committed | None => committed end) tl
    end.

  (** [wf_exec] decided *)
  Fixpoint wf_execb (s : store) (committed : list root) (ops : list sop) : bool :=
    match ops with
    | [] => true
    | o :: tl =>
        match o with
        | SSet r _ _ | SMemSet r _ _ => existsb (root_eqb r) committed
        | _ => true
        end &&
        let '(s', cr) := apply_sop c s o in
        let cr' := match o with
                   | SCommit r => match p_get (s_pend s) r with Some (Some _) => cr | _ => None end
                   | _ => cr
                   end in
        wf_execb s' (match cr' with Some r => r :: committed | None => committed end) tl
    end.

  Lemma wf_execb_sound : forall ops s cm, wf_execb s cm ops = true -> wf_exec s cm ops.
  Proof.
    induction ops as [|o ops IH]; intros s cm H; simpl in *; [exact I|].
    apply andb_true_iff in H. destruct H as [H1 H2]. split.
    - destruct o; try exact I; apply existsb_exists in H1; destruct H1 as (x & IN & E);
        apply root_eqb_eq in E; subst x; exact IN.
    - destruct (apply_sop c s o) as [s' cr]. apply IH. exact H2.
  Qed.

  Definition inv (s : store) (committed : list root) : Prop :=
    closed s /\ forall r, In r committed -> root_ok (s_db s) r.

  Lemma inv_mono : forall s s' cm, inv s cm -> closed s' ->
    (forall K, bound (s_db s) K -> bound (s_db s') K) -> inv s' cm.
  Proof. intros s s' cm (_ & CM) CL M. split; [exact CL|]. intros r IN. exact (root_ok_mono _ _ _ M (CM _ IN)). Qed.

  Lemma inv_cons : forall s cm r, inv s cm -> root_ok (s_db s) r -> inv s (r :: cm).
  Proof. intros s cm r (CL & CM) R. split; [exact CL|]. intros r0 [<-|IN]; auto. Qed.

  Lemma step_inv : forall s cm o,
    inv s cm ->
    match o with SSet r _ _ | SMemSet r _ _ => In r cm | _ => True end ->
    let '(s', cr) := apply_sop c s o in
    let cr' := match o with
               | SCommit r => match p_get (s_pend s) r with Some (Some _) => cr | _ => None end
               | _ => cr
               end in
    inv s' (match cr' with Some r => r :: cm | None => cm end).
  Proof.
    intros s cm o I W. pose proof I as (CL & CM).
    assert (SAME : forall s', closed s' -> s_db s' = s_db s -> inv s' cm)
      by (intros s' CL' E; apply (inv_mono s); [exact I|exact CL'|rewrite E; auto]).
    destruct o as [r bh kvs|r bh kvs|r|r|r]; simpl.
    - destruct (st_set c s r bh kvs) as [[r' s']| | |] eqn:H; try exact I.
      destruct (st_set_closed _ _ _ _ _ _ CL (CM _ W) H) as (CL' & R' & M).
      apply inv_cons; [exact (inv_mono _ _ _ I CL' M)|exact R'].
    - destruct (st_memset c s r bh kvs) as [[r' s']| | |] eqn:H; try exact I.
      destruct (st_memset_closed _ _ _ _ _ _ CL (CM _ W) H). auto.
    - destruct (st_commit c s r) as [[r' s']| | |] eqn:H;
        [|destruct (p_get (s_pend s) r) as [[x|]|]; exact I..].
      destruct (st_commit_closed _ _ _ _ CL H) as (CL' & M & RO).
      pose proof (inv_mono _ _ _ I CL' M) as I'.
      destruct (p_get (s_pend s) r) as [[[t bh]|]|]; [|exact I'..].
      apply inv_cons; [exact I'|exact (RO _ _ eq_refl)].
    - destruct (st_rollback c s r) as [[r' s']| | |] eqn:H; try exact I.
      destruct (st_rollback_closed _ _ _ _ CL H). auto.
    - destruct (st_probe c s r) as [[o' s']| | |] eqn:H; try exact I.
      destruct (st_probe_closed _ _ _ _ CL H). auto.
  Qed.

  Lemma exec'_inv : forall ops s cm,
    inv s cm -> wf_exec s cm ops -> inv (fst (exec' s cm ops)) (snd (exec' s cm ops)).
  Proof.
    induction ops as [|o ops IH]; intros s cm I W; simpl; [exact I|].
    simpl in W. destruct W as [W1 W2].
    pose proof (step_inv s cm o I W1) as ST.
    destruct (apply_sop c s o) as [s' cr]. apply IH; auto.
  Qed.

  (** The totality theorem for configurations without memTree and without prune:
      after every well-formed history, every update of a committed root succeeds. *)
  Theorem update_total_nomem : forall ops r pending bh kvs,
    wf_exec empty_store [None] ops ->
    In r (snd (exec' empty_store [None] ops)) ->
    exists r' s', st_update pending c (fst (exec' empty_store [None] ops)) r bh kvs = Ok (r', s').
  Proof.
    intros ops r pending bh kvs W IN.
    assert (I0 : inv empty_store [None]) by (apply inv_cons; [split; [apply closed_empty|intros r0 []]|exact I]).
    destruct (exec'_inv ops empty_store [None] I0 W) as (CL & CM).
    set (s := fst (exec' empty_store [None] ops)) in *.
    pose proof (CM _ IN) as R.
    apply update_total_partial.
    - apply CL.
    - eapply root_ok_good; eauto.
    - unfold resolvable. destruct (load_at_pers _ _ CL R) as (o & lg & -> & PA & _).
      destruct o as [t|]; [|reflexivity]. apply negb_true_iff. exact (pers_all_full _ _ PA).
    - unfold save_quiet. rewrite NP. reflexivity.
  Qed.
End NoMem.
