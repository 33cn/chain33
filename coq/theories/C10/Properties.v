(** C10 — Indexed tables keep rows and indexes consistent: theorems. *)
From Coq Require Import List Bool ZArith.
From C33 Require Import Lib.OMap.
From C33 Require Import C10.Model C10.Spec C10.ProofsRefuted C10.ProofsInv.
From C33 Require Import C10.Join C10.JoinSpec C10.ProofsJoinRefuted C10.ProofsJoin.

Theorem C10_table_refines_map_refuted : ~ C10_table_refines_map_full.
Proof. intro H. exact (w_del_add_disagrees (proj1 (H w_del_add))). Qed.
Print Assumptions C10_table_refines_map_refuted.

Theorem C10_refuted_del_add :
  ~ (forall ops, keys_ok ops = true -> errs_agree ops).
Proof. intro H. exact (w_del_add_disagrees (H w_del_add eq_refl)). Qed.
Print Assumptions C10_refuted_del_add.

Theorem C10_refuted_del_replace :
  ~ (forall ops, keys_ok ops = true -> forallb (fun o => negb (is_update o)) ops = true ->
       errs_agree ops -> saved_agrees ops).
Proof.
  intro H. destruct w_del_replace_unsaved as [A U]. exact (U (H w_del_replace eq_refl eq_refl A)).
Qed.
Print Assumptions C10_refuted_del_replace.

(** (finding C10-3 repaired) a history without Replace and without the "-"
    byte in indexed fields whose calls all answered like the map — in particular
    any Update of a saved row that changes indexed fields followed by Del —
    leaves exactly the map's rows and index entries at the next Save *)
Theorem C10_update_del_fixed :
  forall ops, keys_ok ops = true -> forallb (fun o => negb (is_replace o)) ops = true ->
    errs_agree ops -> saved_agrees ops.
Proof. exact update_del_fixed. Qed.
Print Assumptions C10_update_del_fixed.

Theorem C10_refuted_sep_collision :
  ~ (forall ops, forallb is_add_or_save ops = true -> errs_agree ops -> saved_agrees ops).
Proof. intro H. destruct w_sep_unsaved as [A U]. exact (U (H w_sep eq_refl A)). Qed.
Print Assumptions C10_refuted_sep_collision.

(** under the guard (per primary key: nothing after the Del of a saved row
    until the next Save; index values without the separator byte) every call answers
    like the map and a Save leaves exactly the map's rows and index entries *)
Theorem C10_table_refines_map_partial :
  forall ops, safe_words ops = true -> errs_agree ops /\ saved_agrees ops.
Proof. exact table_refines_map_partial. Qed.
Print Assumptions C10_table_refines_map_partial.

Theorem C10_every_save_partial :
  forall ops1 ops2, safe_words (ops1 ++ OSave :: ops2) = true ->
    errs_agree ops1 /\ saved_agrees ops1.
Proof. exact every_save_partial. Qed.
Print Assumptions C10_every_save_partial.

(** a full listing (no start key, no count) by primary key or by an index
    after the save of a guarded history returns exactly the present rows whose
    key / indexed field has the prefix (as a set), ErrNotFound iff none *)
Theorem C10_queries_partial :
  forall ops q,
  safe_words ops = true ->
  (forall p d, get p (snd (s_run nil ops)) = Some d -> p <> nil) ->
  (match q_idx q with QPrimary => True | QIdx _ => sepfree (q_prefix q) = true end) ->
  q_start q = nil -> (q_count q <= 0)%Z ->
  exists rs,
    list_index (kv (snd (run init (ops ++ OSave :: nil)))) q =
      ((match rs with nil => ENotFound | _ => EOk end), rs) /\
    forall p d, In (p, d) rs <-> (get p (snd (s_run nil ops)) = Some d /\ q_match q p d = true).
Proof. exact queries_partial. Qed.
Print Assumptions C10_queries_partial.

(** * JoinTable (join.go): left table, right table and the join table's index
    records against two maps and their relational join.  [jrefines c] = every
    history inside the guard with clauses [c] answers like the maps and a final
    join.Save leaves exactly the maps' records and the join's index records.
    Dropping any one clause of the guard allows a counterexample (each is an
    open finding reproduced on the Go code by the harness). *)

(** finding 5: the foreign-key lookup is a prefix scan *)
Theorem C10_join_refuted_prefix_scan : ~ jrefines (mkCl true true true false).
Proof. exact jrefuted_prefix. Qed.
Print Assumptions C10_join_refuted_prefix_scan.

(** finding 6: left Del in the window in which its right row is added / changes status *)
Theorem C10_join_refuted_del_right_change : ~ jrefines (mkCl true true false true).
Proof. exact jrefuted_del. Qed.
Print Assumptions C10_join_refuted_del_right_change.

(** finding 7: the foreign key of a stored left row changes *)
Theorem C10_join_refuted_fk_change : ~ jrefines (mkCl false true true true).
Proof. exact jrefuted_fk. Qed.
Print Assumptions C10_join_refuted_fk_change.

(** finding 8: a pending left row without right row makes join.Save fail *)
Theorem C10_join_refuted_dangling : ~ jrefines (mkCl true false true true).
Proof. exact jrefuted_dangling. Qed.
Print Assumptions C10_join_refuted_dangling.

(** inside the full guard (JoinSpec.save_safe at every join.Save: foreign key of a
    stored left row unchanged, looked-up right row exists, no left Del in the
    window in which its right row is added / changes status, no effective right
    key a proper prefix of a stored foreign key; plus the plain-table guard for
    the left and the right table and separator-free non-empty primary keys):
    every call answers like the two maps, and after the final join.Save the
    left and right stores hold exactly the maps' records and the join table's
    index records are exactly those of the relational join *)
Theorem C10_join_refines_map_partial : jrefines all_clauses.
Proof. exact join_refines_map_partial. Qed.
Print Assumptions C10_join_refines_map_partial.

Theorem C10_join_every_save_partial :
  forall ops1 ops2, jsafe (ops1 ++ JSave :: ops2) = true ->
    jerrs_agree (ops1 ++ JSave :: nil) /\ jsaved_agrees ops1.
Proof. exact join_every_save_partial. Qed.
Print Assumptions C10_join_every_save_partial.
