(** C10 — refutations of the full statement (witnesses by computation) and
    non-vacuity examples for the guard. *)
From Coq Require Import List NArith ZArith Bool String.
From C33 Require Import Lib.Bytes Lib.OMap Lib.Harness C10.Model C10.Spec.
Import ListNotations.
Open Scope string_scope.

Definition k1 := bs "k1".
Definition k2 := bs "k2".
Definition w_r1 := mkRow k1 (bs "a") (bs "x") 1.
Definition w_r1b := mkRow k1 (bs "b") (bs "x") 1.
Definition w_r2 := mkRow k2 (bs "a") (bs "y") 2.

Definition w_del_add : list op := [OAdd w_r1; OSave; ODel k1; OAdd w_r1].
Definition w_del_replace : list op := [OAdd w_r1; OSave; ODel k1; OReplace w_r1].
Definition w_update_del : list op := [OAdd w_r1; OSave; OUpdate k1 w_r1b; ODel k1].
Definition w_sep : list op :=
  [OAdd (mkRow k1 (bs "a-b") (bs "y") 2); OAdd (mkRow (bs "b-k1") (bs "a") (bs "x") 1)].

(** 1. Del of a saved row, then Add of the same key before the next save:
    ErrDupPrimaryKey although the map says the key is absent. *)
Lemma w_del_add_disagrees : ~ errs_agree w_del_add.
Proof. unfold errs_agree. vm_compute. discriminate. Qed.

(** 2. Del, Replace, Save (no Update involved): every call answers like the
    map, but the row and its index entries are gone after the save. *)
Lemma w_del_replace_unsaved : errs_agree w_del_replace /\ ~ saved_agrees w_del_replace.
Proof. split; [reflexivity|]. unfold saved_agrees. vm_compute. discriminate. Qed.

(** 3. (repaired in table.go Del) Update that changes an indexed field, then
    Del, then Save: the Del row now carries the saved data, so the saved row's
    index entries are removed.  The history is inside the guard and meets the
    hypotheses of [update_del_fixed]; the store is empty after the save. *)
Example update_del_witness_ok :
  safe_words w_update_del = true /\ keys_ok w_update_del = true /\
  forallb (fun o => negb (is_replace o)) w_update_del = true /\
  fst (run init w_update_del) = fst (s_run [] w_update_del) /\
  kv (snd (run init (w_update_del ++ [OSave]))) = [].
Proof. vm_compute. repeat split; reflexivity. Qed.

(** 4. Only Adds: two rows whose (index value, primary key) pairs are glued to
    the same index key by the "-" separator share one index entry. *)
Lemma w_sep_unsaved : errs_agree w_sep /\ ~ saved_agrees w_sep.
Proof. split; [reflexivity|]. unfold saved_agrees. vm_compute. discriminate. Qed.

Example guard_rejects_witnesses :
  map safe_words [w_del_add; w_del_replace; w_sep] = [false; false; false].
Proof. vm_compute. reflexivity. Qed.

(** the guard accepts non-trivial histories: several operations per key between
    saves (Add.Update.Del.Add, Update.Update, Replace chains, Add.Del, an
    Update that changes an indexed field followed by a Replace, a Del of a
    saved row whose pending update changed an indexed field), three saves. *)
Definition w_safe : list op :=
  [OAdd w_r1; OUpdate k1 w_r1b; ODel k1; OAdd w_r1; OAdd w_r2; OAdd w_r2; OSave;
   OUpdate k1 w_r1b; OUpdate k1 w_r1; OReplace w_r2; OReplace (mkRow k2 (bs "b") (bs "") 7); OSave;
   OUpdate k2 (mkRow k2 (bs "a") (bs "z") 9); ODel k2; ODelRow w_r1; ODel (bs "zz"); OUpdate k2 w_r1; OSave].

Example guard_nontrivial :
  safe_words w_safe = true /\
  fst (s_run [] w_safe) =
    [EOk; EOk; EOk; EOk; EOk; EDup; EOk; EOk; EOk; EOk; EOk; EOk; EOk; EOk; EOk; ENotFound; EInvalid; EOk] /\
  List.length (kv (snd (run init (firstn 12 w_safe)))) = 6%nat.
Proof. vm_compute. repeat split; reflexivity. Qed.

(** the hypotheses of the query theorem are met by a history that leaves rows:
    listing index To under prefix "b" after the second save of [w_safe] *)
Example query_nontrivial :
  safe_words (firstn 11 w_safe) = true /\
  list_index (kv (snd (run init (firstn 11 w_safe ++ [OSave])))) (mkQ (QIdx ITo) (bs "b") [] 0 true)
  = (EOk, [(k2, mkRow k2 (bs "b") (bs "") 7)]) /\
  list_index (kv (snd (run init (firstn 11 w_safe ++ [OSave])))) (mkQ QPrimary (bs "k") [] 0 false)
  = (EOk, [(k2, mkRow k2 (bs "b") (bs "") 7); (k1, w_r1)]).
Proof. vm_compute. repeat split; reflexivity. Qed.
