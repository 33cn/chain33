(** C10 — JoinTable: each clause of the guard is needed (refutation witnesses
    by computation; the harness reproduces each on the Go code), and
    non-vacuity examples for the guard. *)
From Coq Require Import List NArith ZArith Bool String.
From C33 Require Import Lib.Bytes Lib.OMap Lib.Harness C10.Model C10.Spec C10.Join C10.JoinSpec.
Import ListNotations.
Open Scope string_scope.

Definition b_h1 := bs "h1". Definition b_h2 := bs "h2". Definition b_a := bs "a". Definition b_2 := bs "2".
Definition lrow (pk gid addr : string) : rowdata := mkRow (bs pk) (bs gid) (bs addr) 0.
Definition grow (k st : string) : rowdata := mkRow (bs k) (bs st) (bs "t") 0.

(** 5. foreign-key lookup by prefix scan: a status change of right key "g1"
    also rewrites the join records of the left row of "g10" *)
Definition wj_prefix : list jop :=
  [JR (OAdd (grow "g1" "1")); JR (OAdd (grow "g10" "5"));
   JL (OAdd (lrow "h1" "g1" "a")); JL (OAdd (lrow "h2" "g10" "b")); JSave;
   JR (OUpdate (bs "g1") (grow "g1" "2"))].

(** 6. a left row is deleted in the window in which its right row changes
    status: the join records of the deleted row come back *)
Definition wj_del : list jop :=
  [JR (OAdd (grow "g1" "1")); JL (OAdd (lrow "h1" "g1" "a")); JL (OAdd (lrow "h2" "g1" "b")); JSave;
   JL (ODel b_h1); JR (OUpdate (bs "g1") (grow "g1" "2"))].

(** 7. the foreign key of a stored left row changes (addr unchanged): ignored *)
Definition wj_fk : list jop :=
  [JR (OAdd (grow "g1" "1")); JR (OAdd (grow "g2" "5")); JL (OAdd (lrow "h1" "g1" "a")); JSave;
   JL (OUpdate b_h1 (lrow "h1" "g2" "a"))].

(** 8. a pending left row without right row: join.Save fails, nothing is written *)
Definition wj_dangling : list jop :=
  [JR (OAdd (grow "g1" "1")); JL (OAdd (lrow "h1" "g1" "a")); JSave;
   JL (OAdd (lrow "h2" "zz" "a"))].

(** the guard accepts non-trivial histories: a right status change with a pending
    left row of another right key, a left addr change together with a right
    status change, a right Del with its left rows, re-Add with a left Del of the
    other key, several operations per key *)
Definition wj_safe : list jop :=
  [JR (OAdd (grow "g1" "1")); JR (OAdd (grow "g2" "5")); JL (OAdd (lrow "h1" "g1" "a")); JSave;
   JR (OUpdate (bs "g1") (grow "g1" "2")); JL (OAdd (lrow "h2" "g2" "b")); JL (OUpdate b_h2 (lrow "h2" "g2" "c")); JSave;
   JL (OUpdate b_h1 (lrow "h1" "g1" "b")); JR (OUpdate (bs "g1") (grow "g1" "1")); JR (ODel (bs "g2")); JSave;
   JR (OAdd (grow "g2" "7")); JL (ODel b_h1); JL (OAdd (lrow "h3" "g2" "")); JL (ODel (bs "h3")); JSave].

Close Scope string_scope.

Example jguard_rejects_witnesses :
  map jsafe [wj_prefix ++ [JSave]; wj_del ++ [JSave]; wj_fk ++ [JSave]; wj_dangling ++ [JSave]]
  = [false; false; false; false].
Proof. vm_compute. reflexivity. Qed.

(** what the stores hold after the witnesses (as the harness observes on the Go code) *)
Example wj_prefix_observed :
  fst (jrun jinit wj_prefix) = fst (js_run [] [] wj_prefix) /\
  get (jikey JSt (joinkey [] b_2) b_h2) (jkv (snd (jrun jinit (wj_prefix ++ [JSave])))) = Some (VPrim b_h2).
Proof. vm_compute. repeat split; reflexivity. Qed.

Example wj_del_observed :
  get (jikey JAddrSt (joinkey b_a b_2) b_h1) (jkv (snd (jrun jinit (wj_del ++ [JSave])))) = Some (VPrim b_h1) /\
  get b_h1 (fst (snd (js_run [] [] wj_del))) = None.
Proof. vm_compute. repeat split; reflexivity. Qed.

Example wj_dangling_observed :
  fst (jrun jinit (wj_dangling ++ [JSave])) = [EOk; EOk; EOk; EOk; ENotFound].
Proof. vm_compute. reflexivity. Qed.

(** each refutation: the witness is inside the guard without its clause, and
    one record (or the answer of join.Save) differs from the relational join *)
Lemma jrefuted_prefix : ~ jrefines (mkCl true true true false).
Proof.
  intro H. destruct (H wj_prefix eq_refl) as [_ S]. destruct S as (_ & _ & E).
  destruct wj_prefix_observed as [_ O]. rewrite E in O. vm_compute in O. discriminate.
Qed.

Lemma jrefuted_del : ~ jrefines (mkCl true true false true).
Proof.
  intro H. destruct (H wj_del eq_refl) as [_ S]. destruct S as (_ & _ & E).
  destruct wj_del_observed as [O _]. rewrite E in O. vm_compute in O. discriminate.
Qed.

Lemma jrefuted_fk : ~ jrefines (mkCl false true true true).
Proof.
  intro H. destruct (H wj_fk eq_refl) as [_ S]. destruct S as (_ & _ & E).
  apply (f_equal (get (jikey JSt (joinkey [] (bs "5"%string)) b_h1))) in E. vm_compute in E. discriminate.
Qed.

Lemma jrefuted_dangling : ~ jrefines (mkCl true false true true).
Proof.
  intro H. destruct (H wj_dangling eq_refl) as [A _]. unfold jerrs_agree in A.
  rewrite wj_dangling_observed in A. vm_compute in A. discriminate.
Qed.

Example jguard_nontrivial :
  jsafe wj_safe = true /\
  fst (jrun jinit wj_safe) = fst (js_run [] [] wj_safe) /\
  List.length (jkv (snd (jrun jinit (firstn 8 wj_safe)))) = 4%nat /\
  List.length (jkv (snd (jrun jinit (firstn 12 wj_safe)))) = 2%nat /\
  jkv (snd (jrun jinit wj_safe)) = jenc (fst (snd (js_run [] [] wj_safe))) (snd (snd (js_run [] [] wj_safe))) /\
  List.length (jkv (snd (jrun jinit wj_safe))) = 2%nat.
Proof.
  (* the run of the tables and the run of the maps occur three times each: evaluate them once *)
  set (r := jrun jinit wj_safe). vm_compute in r.
  set (t := js_run [] [] wj_safe). vm_compute in t.
  vm_compute. repeat split; reflexivity.
Qed.
