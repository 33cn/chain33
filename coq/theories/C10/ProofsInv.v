(** C10 — the plain table against the abstract map.  Under the invariant
    [inv] a cache operation changes cache, rowmap and map at one primary key
    ([inv_at_key]).  A row's Save writes move the key's data entry and its
    record under each index ([lw_wr_dkey], [lw_wr_ikey]), so the batch turns
    [encode m0] into [encode m] ([save_correct]).  Full listings (no start
    key, no count) over [encode m] return the matching rows. *)
From Coq Require Import List NArith ZArith Bool Lia.
From C33 Require Import Lib.Bytes Lib.OMap C10.Model C10.Spec.
Import ListNotations.

Lemma sepfree_cons x v : sepfree (x :: v) = true <-> x <> sepc /\ sepfree v = true.
Proof.
  unfold sepfree; simpl. rewrite andb_true_iff, negb_true_iff, N.eqb_neq. tauto.
Qed.

Lemma sepfree_split v v' p p' :
  sepfree v = true -> sepfree v' = true ->
  v ++ sepc :: p = v' ++ sepc :: p' -> v = v' /\ p = p'.
Proof.
  revert v'. induction v as [|x v IH]; intros [|y v'] S S' E; simpl in E.
  - inversion E; auto.
  - inversion E; subst. apply sepfree_cons in S'. destruct S' as [N _]. congruence.
  - inversion E; subst. apply sepfree_cons in S. destruct S as [N _]. congruence.
  - inversion E; subst. apply sepfree_cons in S. apply sepfree_cons in S'.
    destruct (IH v' (proj2 S) (proj2 S') H1) as [-> ->]. auto.
Qed.

Lemma dkey_inj p p' : dkey p = dkey p' -> p = p'.
Proof. unfold dkey. apply app_inv_head. Qed.

Lemma dkey_ikey p i v p' : dkey p <> ikey i v p'.
Proof. destruct i; discriminate. Qed.

Lemma beqb_dkey_ikey p i v q : beqb (dkey p) (ikey i v q) = false.
Proof. apply beqb_neq. apply dkey_ikey. Qed.
Lemma beqb_ikey_dkey p i v q : beqb (ikey i v q) (dkey p) = false.
Proof. apply beqb_neq. intro H. symmetry in H. eapply dkey_ikey; eauto. Qed.

Lemma ikey_inj i v p i' v' p' :
  sepfree v = true -> sepfree v' = true ->
  ikey i v p = ikey i' v' p' -> i = i' /\ v = v' /\ p = p'.
Proof.
  intros S S' E. destruct i, i'; try discriminate; injection E as E;
    apply (sepfree_split _ _ _ _ S S') in E; tauto.
Qed.

Definition idx_eqb (a b : idx) : bool :=
  match a, b with ITo, ITo | INote, INote => true | _, _ => false end.

Lemma beqb_ikey i v i' v' p :
  sepfree v = true -> sepfree v' = true ->
  beqb (ikey i v p) (ikey i' v' p) = idx_eqb i i' && beqb v v'.
Proof.
  intros S S'. destruct (idx_eqb i i' && beqb v v') eqn:E.
  - apply andb_true_iff in E. destruct E as [E1 E2]. apply beqb_eq in E2. subst.
    destruct i, i'; try discriminate; apply beqb_refl.
  - apply beqb_neq. intro H. apply ikey_inj in H; auto. destruct H as [-> [-> _]].
    rewrite beqb_refl in E. destruct i'; discriminate.
Qed.

(** the last write to [k] in a batch *)
Fixpoint lw (k : bytes) (ws : list kvw) : option (option kvval) :=
  match ws with
  | [] => None
  | w :: tl =>
      match lw k tl with
      | Some x => Some x
      | None => if beqb k (fst w) then Some (snd w) else None
      end
  end.

Lemma lw_app k a b :
  lw k (a ++ b) = match lw k b with Some x => Some x | None => lw k a end.
Proof.
  induction a as [|w a IH]; simpl.
  - destruct (lw k b); reflexivity.
  - rewrite IH. destruct (lw k b); reflexivity.
Qed.

Lemma lw_none k ws : (forall w, In w ws -> fst w <> k) -> lw k ws = None.
Proof.
  induction ws as [|w ws IH]; simpl; auto. intro H.
  rewrite IH by auto. destruct (beqb k (fst w)) eqn:E; auto.
  apply beqb_eq in E. exfalso. apply (H w); auto.
Qed.

Lemma lw_some_in k ws x : lw k ws = Some x -> exists w, In w ws /\ fst w = k.
Proof.
  revert x; induction ws as [|w ws IH]; simpl; intro x; [discriminate|].
  destruct (lw k ws).
  - intros _. destruct (IH _ eq_refl) as [w' [? ?]]. eauto.
  - destruct (beqb k (fst w)) eqn:B; [|discriminate]. apply beqb_eq in B. eauto.
Qed.

Lemma apply_kv_sorted m w : sorted m -> sorted (apply_kv m w).
Proof. intro S. unfold apply_kv. destruct (snd w); [apply put_sorted|apply del_sorted]; auto. Qed.

Lemma fold_apply_sorted ws m : sorted m -> sorted (fold_left apply_kv ws m).
Proof. revert m; induction ws; simpl; auto. intros. apply IHws, apply_kv_sorted; auto. Qed.

Lemma get_apply_kv k m w : sorted m ->
  get k (apply_kv m w) = if beqb k (fst w) then snd w else get k m.
Proof.
  intro S. unfold apply_kv. destruct (snd w).
  - apply get_put.
  - apply get_del; auto.
Qed.

Lemma get_fold_apply k ws m : sorted m ->
  get k (fold_left apply_kv ws m) = match lw k ws with Some x => x | None => get k m end.
Proof.
  revert m; induction ws as [|w ws IH]; simpl; auto. intros m S.
  rewrite IH by (apply apply_kv_sorted; auto).
  destruct (lw k ws); auto. rewrite get_apply_kv by auto.
  destruct (beqb k (fst w)); auto.
Qed.

Lemma fold_apply_owned (own : bytes -> Prop) ws E0 E1 :
  sorted E0 -> sorted E1 ->
  (forall w, In w ws -> own (fst w)) ->
  (forall k v, get k E0 = Some v -> own k) -> (forall k v, get k E1 = Some v -> own k) ->
  (forall k, own k -> match lw k ws with Some x => x | None => get k E0 end = get k E1) ->
  fold_left apply_kv ws E0 = E1.
Proof.
  intros S0 S1 OW O0 O1 H. apply sorted_ext; auto using fold_apply_sorted.
  intro k. rewrite get_fold_apply by auto.
  destruct (lw k ws) as [x|] eqn:LW.
  - destruct (lw_some_in _ _ _ LW) as [w [Iw Ek]]. rewrite <- H, LW; auto. rewrite <- Ek. auto.
  - destruct (get k E0) as [v0|] eqn:G0.
    + rewrite <- H, LW, G0; eauto.
    + destruct (get k E1) as [v1|] eqn:G1; auto. rewrite <- G1, <- H, LW; eauto.
Qed.

Lemma lw_flat_map_filter {A} (g : A -> list kvw) (own : A -> bool) k l :
  (forall r w, In r l -> own r = false -> In w (g r) -> fst w <> k) ->
  lw k (flat_map g l) = lw k (flat_map g (filter own l)).
Proof.
  induction l as [|r l IH]; intro H; simpl; auto.
  rewrite lw_app, IH by (intros; eapply H; simpl; eauto). destruct (own r) eqn:O; simpl.
  - rewrite lw_app. auto.
  - rewrite (lw_none k (g r)) by (intros w Iw; eapply H; simpl; eauto).
    destruct (lw k (flat_map g (filter own l))); auto.
Qed.

Definition wr {A} (f : A -> option (list kvw)) (r : A) : list kvw :=
  match f r with Some w => w | None => [] end.

(** Under an index a table holds at most one record [x] of a primary key: at
    the index value of the key's row.  The index writes that Save issues for a
    pending row move it. *)
Section IndexRecord.
Variable x : kvval.

Definition at_pos (s : option bytes) (v : bytes) : option kvval :=
  match s with Some a => if beqb v a then Some x else None | None => None end.

(** the last write at value [v] among the index writes of a row of type [ty]
    with index value [nv] and, for an Update, old index value [ov] *)
Definition ieff (ty : rty) (nv : bytes) (ov : option bytes) (v : bytes) : option (option kvval) :=
  match ty with
  | TNone => None
  | TAdd => if beqb v nv then Some (Some x) else None
  | TDel => if beqb v nv then Some None else None
  | TUpdate =>
      match ov with
      | None => None
      | Some o =>
          if beqb nv o then None
          else if beqb v nv then Some (Some x)
          else if beqb v o then Some None else None
      end
  end.

Definition moves (e : bytes -> option (option kvval)) (s s' : option bytes) : Prop :=
  forall v, match e v with Some y => y | None => at_pos s v end = at_pos s' v.

Lemma moves_skip s : moves (fun _ => None) s s.
Proof. intro v. reflexivity. Qed.

Lemma moves_then e1 e2 s s' s'' : moves e1 s s' -> moves e2 s' s'' ->
  moves (fun v => match e2 v with Some y => Some y | None => e1 v end) s s''.
Proof. intros A B v. rewrite <- B, <- A. destruct (e2 v); auto. Qed.

Lemma moves_add nv ov s : s = None \/ s = Some nv -> moves (ieff TAdd nv ov) s (Some nv).
Proof. intros [->| ->] v; simpl; destruct (beqb v nv); auto. Qed.

Lemma moves_del nv ov s : s = None \/ s = Some nv -> moves (ieff TDel nv ov) s None.
Proof. intros [->| ->] v; simpl; destruct (beqb v nv); auto. Qed.

Lemma moves_upd nv o s : s = Some o \/ s = Some nv -> moves (ieff TUpdate nv (Some o)) s (Some nv).
Proof.
  intros H v. simpl. destruct (beqb nv o) eqn:B.
  - apply beqb_eq in B. destruct H as [->| ->]; rewrite ?B; auto.
  - destruct (beqb v nv) eqn:B1; auto.
    destruct H as [->| ->]; simpl; rewrite ?B1; destruct (beqb v o); auto.
Qed.

Lemma moves_upd_none nv o :
  moves (ieff TUpdate nv (Some o)) None (if beqb nv o then None else Some nv).
Proof.
  intro v. simpl. destruct (beqb nv o); auto. simpl. destruct (beqb v nv); auto. destruct (beqb v o); auto.
Qed.
End IndexRecord.

Definition some_w (e : bytes * kvval) : kvw := (fst e, Some (snd e)).

Lemma of_list_as_fold (l : list (bytes * kvval)) m :
  fold_left (fun m e => put (fst e) (snd e) m) l m =
  fold_left apply_kv (map some_w l) m.
Proof. revert m; induction l; simpl; auto. Qed.

Lemma lw_map_some k l x :
  lw k (map some_w l) = Some x ->
  exists v, x = Some v /\ In (k, v) l.
Proof.
  induction l as [|e l IH]; simpl; [discriminate|].
  destruct (lw k (map some_w l)) eqn:E.
  - intro H; inversion H; subst. destruct (IH eq_refl) as [v [? ?]]. eauto.
  - destruct (beqb k (fst e)) eqn:B; [|discriminate]. intro H; inversion H; subst.
    apply beqb_eq in B. subst. exists (snd e). split; auto. left. destruct e; auto.
Qed.

Lemma lw_map_none k l :
  lw k (map some_w l) = None ->
  forall v, ~ In (k, v) l.
Proof.
  induction l as [|e l IH]; simpl; auto.
  destruct (lw k (map some_w l)) eqn:E; [discriminate|].
  destruct (beqb k (fst e)) eqn:B; [discriminate|]. intros _ v [H|H].
  - subst e. simpl in B. rewrite beqb_refl in B. discriminate.
  - eapply IH; eauto.
Qed.

Lemma get_of_list (l : list (bytes * kvval)) k v :
  (forall v', In (k, v) l -> In (k, v') l -> v = v') ->
  (get k (of_list l) = Some v <-> In (k, v) l).
Proof.
  intro F. unfold of_list. rewrite of_list_as_fold, get_fold_apply by exact I. simpl.
  destruct (lw k (map some_w l)) eqn:E.
  - apply lw_map_some in E. destruct E as [v0 [-> I0]]. split.
    + intro H; inversion H; subst; auto.
    + intro H. f_equal. symmetry. auto.
  - split; [discriminate|]. intro H. exfalso. eapply lw_map_none; eauto.
Qed.

Definition rows_ok (m : tbl) : Prop :=
  forall p d, get p m = Some d -> r_pk d = p /\ data_ok d = true.

Lemma data_ok_idx d i : data_ok d = true -> sepfree (idx_val d i) = true.
Proof. unfold data_ok. rewrite andb_true_iff. destruct i; simpl; tauto. Qed.

Lemma in_row_entries k v p d :
  In (k, v) (row_entries p d) <->
  (k = dkey p /\ v = VRow p d) \/ exists i, k = ikey i (idx_val d i) p /\ v = VPrim p.
Proof.
  unfold row_entries, all_idx. simpl. split.
  - intros [H|[H|[H|[]]]]; inversion H; subst.
    + left; auto.
    + right. exists ITo. auto.
    + right. exists INote. auto.
  - intros [[-> ->]|[i [-> ->]]]; auto. destruct i; auto.
Qed.

Lemma encode_sorted m : sorted (encode m).
Proof. apply of_list_sorted. Qed.

Lemma get_encode m k v : sorted m -> rows_ok m ->
  (get k (encode m) = Some v <-> exists p d, get p m = Some d /\ In (k, v) (row_entries p d)).
Proof.
  intros S OK.
  assert (M : forall v, In (k, v) (flat_map (fun e => row_entries (fst e) (snd e)) (elements m)) <->
              exists p d, get p m = Some d /\ In (k, v) (row_entries p d)).
  { intro x. rewrite in_flat_map. split.
    - intros [[p d] [I H]]. exists p, d. split; auto. apply get_In; auto.
    - intros [p [d [G H]]]. exists (p, d). split; auto. apply get_In in G; auto. }
  rewrite <- M. apply get_of_list. (* two entries with the same key are the same entry *)
  intros v' H H'. apply M in H, H'.
  destruct H as [p [d [G H]]], H' as [p' [d' [G' H']]].
  apply in_row_entries in H. apply in_row_entries in H'.
  destruct H as [[-> ->]|[i [-> ->]]], H' as [[E ->]|[i' [E ->]]].
  - apply dkey_inj in E. subst. congruence.
  - exfalso. eapply dkey_ikey; eauto.
  - exfalso. eapply dkey_ikey; eauto.
  - apply ikey_inj in E; try (apply data_ok_idx; eapply OK; eauto).
    destruct E as [_ [_ ->]]. auto.
Qed.

Lemma get_encode_dkey m p : sorted m -> rows_ok m ->
  get (dkey p) (encode m) = match get p m with Some d => Some (VRow p d) | None => None end.
Proof.
  intros S OK. destruct (get p m) as [d|] eqn:G.
  - apply get_encode; auto. exists p, d. split; auto. apply in_row_entries. auto.
  - destruct (get (dkey p) (encode m)) as [v|] eqn:E; auto. exfalso.
    apply get_encode in E; auto. destruct E as [p' [d' [G' H]]]. apply in_row_entries in H.
    destruct H as [[E _]|[i [E _]]].
    + apply dkey_inj in E. congruence.
    + eapply dkey_ikey; eauto.
Qed.

Lemma get_encode_ikey m i v p : sorted m -> rows_ok m -> sepfree v = true ->
  get (ikey i v p) (encode m) = at_pos (VPrim p) (option_map (fun d => idx_val d i) (get p m)) v.
Proof.
  intros S OK SV.
  assert (A : forall x, get (ikey i v p) (encode m) = Some x ->
              exists d, get p m = Some d /\ v = idx_val d i /\ x = VPrim p).
  { intros x E. apply get_encode in E; auto.
    destruct E as [p' [d' [G' H]]]. apply in_row_entries in H.
    destruct H as [[E _]|[i' [E ->]]].
    - exfalso. symmetry in E. eapply dkey_ikey; eauto.
    - apply ikey_inj in E; auto.
      + destruct E as [-> [-> ->]]. eauto.
      + apply data_ok_idx. apply (OK _ _ G'). }
  destruct (get p m) as [d|] eqn:G; simpl.
  - destruct (beqb v (idx_val d i)) eqn:B.
    + apply beqb_eq in B. subst v. apply get_encode; auto.
      exists p, d. split; auto. apply in_row_entries. eauto.
    + destruct (get (ikey i v p) (encode m)) as [x|] eqn:E; auto.
      destruct (A x eq_refl) as [d' [G' [-> _]]]. inversion G'; subst.
      rewrite beqb_refl in B. discriminate.
  - destruct (get (ikey i v p) (encode m)) as [x|] eqn:E; auto.
    destruct (A x eq_refl) as [d' [G' _]]. discriminate.
Qed.

Definition owned (p k : bytes) : Prop :=
  k = dkey p \/ exists i v, sepfree v = true /\ k = ikey i v p.

Lemma own_d p : owned p (dkey p).
Proof. left; auto. Qed.
Lemma own_i p i v : sepfree v = true -> owned p (ikey i v p).
Proof. right; eauto. Qed.

Lemma owned_inj p p' k : owned p k -> owned p' k -> p = p'.
Proof.
  intros [->|[i [v [S ->]]]] [E|[i' [v' [S' E]]]].
  - apply dkey_inj in E; auto.
  - exfalso. eapply dkey_ikey; eauto.
  - exfalso. symmetry in E. eapply dkey_ikey; eauto.
  - apply ikey_inj in E; auto. tauto.
Qed.

Lemma encode_key_owned m k v : sorted m -> rows_ok m ->
  get k (encode m) = Some v -> exists p, owned p k.
Proof.
  intros S OK E. apply get_encode in E; auto.
  destruct E as [p [d [G H]]]. apply in_row_entries in H. exists p.
  destruct H as [[-> _]|[i [-> _]]]; [apply own_d|apply own_i]. apply data_ok_idx, (OK _ _ G).
Qed.

Definition upd (p : bytes) (o : option rowdata) (m : tbl) : tbl :=
  match o with Some d => put p d m | None => del p m end.

Lemma upd_sorted p o m : sorted m -> sorted (upd p o m).
Proof. destruct o; [apply put_sorted|apply del_sorted]. Qed.

Lemma get_upd p o m q : sorted m -> get q (upd p o m) = if beqb q p then o else get q m.
Proof. intro S. destruct o; [apply get_put|apply get_del; auto]. Qed.

Lemma rows_ok_upd p o m : sorted m -> rows_ok m ->
  (forall d, o = Some d -> r_pk d = p /\ data_ok d = true) -> rows_ok (upd p o m).
Proof.
  intros S OK H q d G. rewrite get_upd in G by auto. destruct (beqb q p) eqn:B; [|auto].
  apply beqb_eq in B. subst q. auto.
Qed.

Definition is_tnone (t : rty) : bool := match t with TNone => true | _ => false end.
Definition live (p : bytes) (r : crow) : bool := beqb (c_pk r) p && negb (is_tnone (c_ty r)).
Definition lives (p : bytes) (rws : list crow) : list crow := filter (live p) rws.

Definition crow_ok (r : crow) : Prop :=
  data_ok (c_data r) = true /\
  (forall d0, c_old r = Some d0 -> data_ok d0 = true) /\
  (c_ty r = TUpdate -> c_old r <> None).

(** the type of the cached row of a key whose saved row is [o0] *)
Definition pending_ty (o0 : option rowdata) : rty :=
  match o0 with Some _ => TUpdate | None => TAdd end.

(** status of one primary key: [ri] = its rowmap entry, [o0] = row at the last
    save, [o] = row in the abstract map now.  Either nothing is pending, or the
    rowmap points to the one live row (an Add or an Update of the saved row,
    with the saved data as old value), or the one live row is a Del that
    carries the saved data. *)
Inductive kinv (rws : list crow) (ri : option nat) (o0 o : option rowdata) (p : bytes) : Prop :=
| k_none : ri = None -> lives p rws = [] -> o = o0 -> kinv rws ri o0 o p
| k_cached i r :
    ri = Some i -> nth_error rws i = Some r -> c_pk r = p -> lives p rws = [r] ->
    c_ty r = pending_ty o0 -> c_old r = o0 -> o = Some (c_data r) -> kinv rws ri o0 o p
| k_del r :
    ri = None -> lives p rws = [r] -> c_pk r = p -> c_ty r = TDel ->
    o0 = Some (c_data r) -> o = None -> kinv rws ri o0 o p.

Record inv (st : state) (m0 m : tbl) : Prop := mkInv {
  i_kv : kv st = encode m0;
  i_s0 : sorted m0;
  i_s : sorted m;
  i_srm : sorted (rmap st);
  i_ok0 : rows_ok m0;
  i_ok : rows_ok m;
  i_rows : Forall crow_ok (rows st);
  i_keys : forall p, kinv (rows st) (get p (rmap st)) (get p m0) (get p m) p }.

Lemma inv_saved m : sorted m -> rows_ok m -> inv (mkSt (encode m) [] []) m m.
Proof. intros S OK. constructor; simpl; auto. intro p. apply k_none; auto. Qed.

Lemma inv_init : inv init [] [].
Proof. apply (inv_saved []); [exact I|]. intros p d H. discriminate. Qed.

Lemma inv_row_ok st m0 m i r : inv st m0 m -> nth_error (rows st) i = Some r -> crow_ok r.
Proof.
  intros I N. eapply Forall_forall; [apply (i_rows _ _ _ I)|]. eapply nth_error_In; eauto.
Qed.

Lemma set_nth_length {A} i (x : A) l : length (set_nth i x l) = length l.
Proof. revert i; induction l; destruct i; simpl; auto. Qed.

Lemma nth_set_nth_same {A} i (x y : A) l : nth_error l i = Some y -> nth_error (set_nth i x l) i = Some x.
Proof. revert i; induction l; destruct i; simpl; try discriminate; auto. Qed.

Lemma nth_set_nth_other {A} i j (x : A) l : i <> j -> nth_error (set_nth i x l) j = nth_error l j.
Proof.
  revert i j; induction l; destruct i, j; simpl; auto; try congruence.
Qed.

Lemma Forall_set_nth {A} (P : A -> Prop) i x l : Forall P l -> P x -> Forall P (set_nth i x l).
Proof.
  revert i; induction l; destruct i; simpl; intros F Px; auto; inversion F; subst; constructor; auto.
Qed.

Lemma lives_app p a b : lives p (a ++ b) = lives p a ++ lives p b.
Proof. apply filter_app. Qed.

Lemma live_other p r : c_pk r <> p -> live p r = false.
Proof. unfold live. intro H. apply beqb_neq in H. rewrite H. auto. Qed.

Lemma live_tnone p r : live p (set_ty TNone r) = false.
Proof. unfold live. simpl. apply andb_false_r. Qed.

Lemma live_of_lives p r rws : lives p rws = [r] -> live p r = true.
Proof.
  intro L. assert (I : In r (lives p rws)) by (rewrite L; left; auto).
  apply filter_In in I. tauto.
Qed.

Lemma lives_set_nth_other p i r r' rws :
  nth_error rws i = Some r -> c_pk r <> p -> c_pk r' <> p ->
  lives p (set_nth i r' rws) = lives p rws.
Proof.
  revert i; induction rws as [|h tl IH]; destruct i; simpl; try discriminate; intros E N N'.
  - inversion E; subst. rewrite !live_other; auto.
  - rewrite (IH i); auto.
Qed.

Lemma lives_set_nth_same p i r r' rws :
  nth_error rws i = Some r -> lives p rws = [r] ->
  lives p (set_nth i r' rws) = if live p r' then [r'] else [].
Proof.
  intros E L. pose proof (live_of_lives _ _ _ L) as Lr. revert i E L.
  induction rws as [|h tl IH]; destruct i; simpl; try discriminate; intros E L.
  - inversion E; subst. rewrite Lr in L. inversion L as [L']. fold (lives p tl) in *. rewrite L'.
    destruct (live p r'); auto.
  - fold (lives p tl) in *.
    assert (I : In r (lives p tl)).
    { apply filter_In. split; auto. eapply nth_error_In; eauto. }
    destruct (live p h) eqn:Lh.
    + inversion L as [[Eh L']]. rewrite L' in I. destruct I.
    + rewrite (IH i); auto.
Qed.

Definition frame (p : bytes) (rws rws' : list crow) : Prop :=
  forall q ri o0 o, q <> p -> kinv rws ri o0 o q -> kinv rws' ri o0 o q.

Lemma frame_of p rws rws' :
  (forall q, q <> p -> lives q rws' = lives q rws) ->
  (forall i r, nth_error rws i = Some r -> c_pk r <> p -> nth_error rws' i = Some r) ->
  frame p rws rws'.
Proof.
  intros L N q ri o0 o Q K. destruct K as [R Lv O | i r R E P Lv T Old O | r R Lv P T O0 O].
  - apply k_none; auto. rewrite L; auto.
  - eapply k_cached; eauto; [apply N; auto; congruence | rewrite L; auto].
  - eapply k_del; eauto. rewrite L; auto.
Qed.

Lemma frame_app p rws r' : c_pk r' = p -> frame p rws (rws ++ [r']).
Proof.
  intro P. apply frame_of.
  - intros q Q. rewrite lives_app. simpl. rewrite live_other by congruence. apply app_nil_r.
  - intros i r E _. rewrite nth_error_app1; auto. apply nth_error_Some. congruence.
Qed.

Lemma frame_set p rws i r r' :
  nth_error rws i = Some r -> c_pk r = p -> c_pk r' = p -> frame p rws (set_nth i r' rws).
Proof.
  intros E P P'. apply frame_of.
  - intros q Q. eapply lives_set_nth_other; eauto; congruence.
  - intros j rj Ej N. rewrite nth_set_nth_other; auto. intros ->. congruence.
Qed.

Lemma frame_trans p a b c : frame p a b -> frame p b c -> frame p a c.
Proof. intros F G q ri o0 o Q K. auto. Qed.

(** the shape all cache operations share: the store is left alone; rows,
    rowmap and abstract map change at one primary key only *)
Lemma inv_at_key st m0 m p rws' rm' o' :
  inv st m0 m -> frame p (rows st) rws' -> Forall crow_ok rws' ->
  sorted rm' -> (forall q, q <> p -> get q rm' = get q (rmap st)) ->
  (forall d, o' = Some d -> r_pk d = p /\ data_ok d = true) ->
  kinv rws' (get p rm') (get p m0) o' p ->
  inv (mkSt (kv st) rws' rm') m0 (upd p o' m).
Proof.
  intros I F C S R D K. pose proof (i_s _ _ _ I) as Sm.
  constructor; simpl; auto using upd_sorted, rows_ok_upd; try apply I.
  - apply rows_ok_upd; auto. apply I.
  - intro q. rewrite get_upd by auto. destruct (beqb q p) eqn:B.
    + apply beqb_eq in B. subst q. exact K.
    + apply beqb_neq in B. rewrite R by auto. apply F; auto. apply I.
Qed.

Lemma inv_append st m0 m p r' :
  inv st m0 m -> c_pk r' = p -> r_pk (c_data r') = p -> crow_ok r' -> lives p (rows st) = [] ->
  c_ty r' = pending_ty (get p m0) -> c_old r' = get p m0 ->
  inv (add_row_cache st r') m0 (put p (c_data r') m).
Proof.
  intros I P PK CR L T Old.
  assert (LV : live p r' = true).
  { unfold live. rewrite P, beqb_refl, T. destruct (get p m0); auto. }
  replace (add_row_cache st r') with (mkSt (kv st) (rows st ++ [r']) (put p (length (rows st)) (rmap st)))
    by (unfold add_row_cache; rewrite T, P; destruct (get p m0); reflexivity).
  apply (inv_at_key st m0 m p _ _ (Some (c_data r'))); auto.
  - apply frame_app; auto.
  - apply Forall_app. split; [apply I|auto].
  - apply put_sorted, I.
  - intros. apply get_put_other; auto.
  - intros d [= <-]. split; auto. apply (proj1 CR).
  - rewrite get_put_same. eapply k_cached; eauto.
    + rewrite nth_error_app2, Nat.sub_diag; auto.
    + rewrite lives_app, L. simpl. rewrite LV. auto.
Qed.

Lemma inv_set_data st m0 m p i r d :
  inv st m0 m -> get p (rmap st) = Some i -> nth_error (rows st) i = Some r -> c_pk r = p ->
  lives p (rows st) = [r] -> c_ty r = pending_ty (get p m0) -> c_old r = get p m0 ->
  data_ok d = true -> r_pk d = p ->
  inv (mkSt (kv st) (set_nth i (set_data d r) (rows st)) (rmap st)) m0 (put p d m).
Proof.
  intros I R N P L T Old D PK. destruct (inv_row_ok _ _ _ _ _ I N) as [_ CR].
  apply (inv_at_key st m0 m p _ _ (Some d)); auto; try apply I.
  - eapply frame_set; eauto.
  - apply Forall_set_nth; [apply I|]. split; auto.
  - intros d' [= <-]. auto.
  - rewrite R. apply (k_cached _ _ _ _ _ i (set_data d r)); auto.
    + eapply nth_set_nth_same; eauto.
    + rewrite (lives_set_nth_same p i r _ _ N L). change (live p (set_data d r)) with (live p r).
      rewrite (live_of_lives _ _ _ L). auto.
Qed.

Lemma crow_ok_tnone r : crow_ok r -> crow_ok (set_ty TNone r).
Proof. intros [A [B _]]. split; [|split]; auto. discriminate. Qed.

Lemma crow_ok_del_copy r : crow_ok r -> crow_ok (del_copy r).
Proof.
  intros [A [B C]]. unfold crow_ok, del_copy. cbn [c_data c_old c_ty].
  split; [|split]; auto; try discriminate.
  destruct (c_old r) as [d0|]; auto.
Qed.

Lemma inv_uncache st m0 m p i r :
  inv st m0 m -> nth_error (rows st) i = Some r -> c_pk r = p -> lives p (rows st) = [r] ->
  get p m0 = None ->
  inv (mkSt (kv st) (set_nth i (set_ty TNone r) (rows st)) (del p (rmap st))) m0 (del p m).
Proof.
  intros I N P L O0.
  apply (inv_at_key st m0 m p _ _ None); auto; try discriminate.
  - eapply frame_set; eauto.
  - apply Forall_set_nth; [apply I|]. eapply crow_ok_tnone, inv_row_ok; eauto.
  - apply del_sorted, I.
  - intros. apply get_del_other; auto.
  - rewrite get_del_same by apply I. apply k_none; auto.
    rewrite (lives_set_nth_same p i r _ _ N L), live_tnone. auto.
Qed.

Lemma inv_del_updated st m0 m p i r d0 :
  inv st m0 m -> nth_error (rows st) i = Some r -> c_pk r = p -> lives p (rows st) = [r] ->
  c_old r = Some d0 -> get p m0 = Some d0 ->
  inv (add_row_cache (mkSt (kv st) (set_nth i (set_ty TNone r) (rows st)) (del p (rmap st)))
         (del_copy r)) m0 (del p m).
Proof.
  intros I N P L Old O0. pose proof (inv_row_ok _ _ _ _ _ I N) as CR.
  unfold add_row_cache. cbn [kv rows rmap del_copy c_ty c_pk]. rewrite P.
  apply (inv_at_key st m0 m p _ _ None); auto; try discriminate.
  - eapply frame_trans; [apply (frame_set p _ i r (set_ty TNone r)); auto | apply frame_app; auto].
  - apply Forall_app. split; [apply Forall_set_nth; [apply I|apply crow_ok_tnone; auto]|].
    constructor; auto. apply crow_ok_del_copy; auto.
  - apply del_sorted, del_sorted, I.
  - intros. rewrite !get_del_other; auto.
  - rewrite get_del_same by apply del_sorted, I. apply (k_del _ _ _ _ _ (del_copy r)); cbn [del_copy c_data c_pk c_ty]; auto.
    + rewrite lives_app, (lives_set_nth_same p i r _ _ N L), live_tnone.
      cbn [lives filter app]. unfold live. cbn [del_copy c_pk c_ty]. rewrite P, beqb_refl. auto.
    + rewrite Old. auto.
Qed.

Lemma inv_del_saved st m0 m p r' :
  inv st m0 m -> lives p (rows st) = [] -> c_pk r' = p -> c_ty r' = TDel -> crow_ok r' ->
  get p m0 = Some (c_data r') ->
  inv (add_row_cache st r') m0 (del p m).
Proof.
  intros I L P T CR O0. unfold add_row_cache. rewrite T, P.
  apply (inv_at_key st m0 m p _ _ None); auto; try discriminate.
  - apply frame_app; auto.
  - apply Forall_app. split; [apply I|auto].
  - apply del_sorted, I.
  - intros. apply get_del_other; auto.
  - rewrite get_del_same by apply I. apply (k_del _ _ _ _ _ r'); auto.
    rewrite lives_app, L. simpl. unfold live. rewrite P, beqb_refl, T. auto.
Qed.

Lemma get_data_encode m0 p : sorted m0 -> rows_ok m0 ->
  get_data (encode m0) p =
  match get p m0 with
  | Some d0 => (EOk, Some (mkC TNone p d0 None))
  | None => (ENotFound, None)
  end.
Proof.
  intros S OK. unfold get_data. rewrite get_encode_dkey by auto. destruct (get p m0); auto.
Qed.

Lemma find_row_cached st p i r :
  get p (rmap st) = Some i -> nth_error (rows st) i = Some r -> find_row st p = (EOk, Some r, Some i).
Proof. intros R N. unfold find_row. rewrite R, N. auto. Qed.

Lemma find_row_stored st m0 m p : inv st m0 m -> get p (rmap st) = None ->
  find_row st p = match get p m0 with
                  | Some d0 => (EOk, Some (mkC TNone p d0 None), None)
                  | None => (ENotFound, None, None)
                  end.
Proof.
  intros I R. unfold find_row. rewrite R, (i_kv _ _ _ I), get_data_encode by apply I.
  destruct (get p m0); auto.
Qed.

Lemma rowdata_eqb_eq a b : rowdata_eqb a b = true -> a = b.
Proof.
  unfold rowdata_eqb. rewrite !andb_true_iff. intros [[[A B] C] D].
  apply beqb_eq in A, B, C. apply Z.eqb_eq in D. destruct a, b; simpl in *; congruence.
Qed.

Lemma upd_idx_owned r old i w :
  data_ok (c_data r) = true -> data_ok old = true ->
  In w (upd_idx r old i) -> owned (c_pk r) (fst w).
Proof.
  intros D D0. unfold upd_idx. destruct (beqb _ _); simpl; [tauto|].
  intros [<-|[<-|[]]]; simpl; apply own_i; apply data_ok_idx; auto.
Qed.

Lemma save_row_owned r w : crow_ok r -> In w (wr save_row r) -> owned (c_pk r) (fst w).
Proof.
  intros [D [D0 _]]. unfold wr, save_row. destruct (c_ty r).
  - intros [].
  - unfold add_row, all_idx. simpl.
    intros [<-|[<-|[<-|[]]]]; simpl;
      [apply own_d | apply own_i; exact (data_ok_idx _ ITo D) | apply own_i; exact (data_ok_idx _ INote D)].
  - unfold update_row. destruct (c_old r) as [old|] eqn:O; [|intros []].
    destruct (rowdata_eqb _ _); [intros []|].
    intros [<-|I]; [apply own_d|]. apply in_flat_map in I. destruct I as [i [_ I]].
    exact (upd_idx_owned r old i w D (D0 _ eq_refl) I).
  - unfold del_row, all_idx. simpl.
    intros [<-|[<-|[<-|[]]]]; simpl;
      [apply own_d | apply own_i; exact (data_ok_idx _ ITo D) | apply own_i; exact (data_ok_idx _ INote D)].
Qed.

Lemma save_row_some r : crow_ok r -> save_row r <> None.
Proof.
  intros [_ [_ U]]. unfold save_row. destruct (c_ty r) eqn:T; try discriminate.
  unfold update_row. destruct (c_old r); [|exfalso; apply U; auto].
  destruct (rowdata_eqb _ _); discriminate.
Qed.

Lemma save_rows_flat rws :
  Forall (fun r => save_row r <> None) rws -> save_rows rws = Some (flat_map (wr save_row) rws).
Proof.
  intro F. induction F as [|r tl Hr F IH]; simpl; auto.
  rewrite IH. unfold wr. destruct (save_row r); [auto|congruence].
Qed.

Lemma lw_wr_dkey r :
  lw (dkey (c_pk r)) (wr save_row r) =
  match c_ty r, c_old r with
  | TNone, _ | TUpdate, None => None
  | TAdd, _ => Some (Some (VRow (c_pk r) (c_data r)))
  | TDel, _ => Some None
  | TUpdate, Some old =>
      if rowdata_eqb (c_data r) old then None else Some (Some (VRow (c_pk r) (c_data r)))
  end.
Proof.
  unfold wr, save_row. destruct (c_ty r); try (destruct (c_old r); reflexivity).
  - unfold add_row, all_idx. cbn [lw map fst snd]. rewrite !beqb_dkey_ikey, beqb_refl. destruct (c_old r); auto.
  - unfold update_row. destruct (c_old r) as [old|]; auto. destruct (rowdata_eqb (c_data r) old); auto.
    unfold all_idx, upd_idx. cbn [flat_map].
    destruct (beqb (idx_val (c_data r) ITo) (idx_val old ITo)),
             (beqb (idx_val (c_data r) INote) (idx_val old INote));
      cbn [lw app fst snd]; rewrite ?beqb_dkey_ikey, beqb_refl; auto.
  - unfold del_row, all_idx. cbn [lw map fst snd]. rewrite !beqb_dkey_ikey, beqb_refl. destruct (c_old r); auto.
Qed.

Lemma lw_wr_ikey r i v :
  crow_ok r -> sepfree v = true ->
  lw (ikey i v (c_pk r)) (wr save_row r) =
  ieff (VPrim (c_pk r)) (c_ty r) (idx_val (c_data r) i) (option_map (fun o => idx_val o i) (c_old r)) v.
Proof.
  intros [D [D0 _]] S. pose proof (fun j => data_ok_idx _ j D) as Sd.
  unfold wr, save_row, ieff. destruct (c_ty r); auto.
  - unfold add_row, all_idx. cbn [lw map fst snd]. rewrite beqb_ikey_dkey, !beqb_ikey by auto.
    destruct i; cbn [idx_eqb andb]; destruct (beqb v _); auto.
  - unfold update_row. destruct (c_old r) as [old|]; auto. cbn [option_map].
    pose proof (fun j => data_ok_idx _ j (D0 old eq_refl)) as So.
    destruct (rowdata_eqb (c_data r) old) eqn:Q.
    + apply rowdata_eqb_eq in Q. rewrite Q, beqb_refl. auto.
    + (* only index [i]'s writes reach a key of index [i] *)
      change (?w :: ?l) with ([w] ++ l). rewrite lw_app.
      rewrite (lw_flat_map_filter (upd_idx r old) (idx_eqb i)).
      2:{ intros j w _ E Iw Ek. unfold upd_idx in Iw. destruct (beqb _ _); [destruct Iw|].
          destruct Iw as [<-|[<-|[]]]; apply ikey_inj in Ek; auto; destruct Ek as [-> _];
            destruct i; discriminate. }
      replace (filter (idx_eqb i) all_idx) with [i] by (destruct i; reflexivity).
      cbn [flat_map]. rewrite app_nil_r. unfold upd_idx.
      destruct (beqb (idx_val (c_data r) i) (idx_val old i)); cbn [lw fst snd];
        rewrite ?beqb_ikey_dkey; auto. rewrite !beqb_ikey by auto.
      replace (idx_eqb i i) with true by (destruct i; reflexivity). cbn [andb].
      destruct (beqb v (idx_val (c_data r) i)); auto. destruct (beqb v (idx_val old i)); auto.
  - unfold del_row, all_idx. cbn [lw map fst snd]. rewrite beqb_ikey_dkey, !beqb_ikey by auto.
    destruct i; cbn [idx_eqb andb]; destruct (beqb v _); auto.
Qed.

Lemma owned_key_saved st m0 m p k :
  inv st m0 m -> owned p k ->
  match lw k (flat_map (wr save_row) (rows st)) with Some x => x | None => get k (encode m0) end
  = get k (encode m).
Proof.
  intros I O.
  pose proof (i_s0 _ _ _ I) as S0. pose proof (i_s _ _ _ I) as S.
  pose proof (i_ok0 _ _ _ I) as OK0. pose proof (i_ok _ _ _ I) as OK.
  (* the last write to a key of [p] is decided by the live row of [p], if any *)
  rewrite (lw_flat_map_filter (wr save_row) (live p)).
  2:{ intros r w Ir Lr Iw Ek. unfold live in Lr. apply andb_false_iff in Lr. destruct Lr as [Lr|Lr].
      - apply beqb_neq in Lr. apply Lr. eapply owned_inj; [|exact O]. rewrite <- Ek.
        apply save_row_owned; auto. eapply Forall_forall; [apply (i_rows _ _ _ I)|auto].
      - unfold wr, save_row in Iw. destruct (c_ty r); try discriminate. destruct Iw. }
  fold (lives p (rows st)).
  destruct (i_keys _ _ _ I p) as [R Lv Om | i r R N P Lv T Old Om | r R Lv P T O0 Om];
    rewrite Lv; cbn [flat_map lw]; rewrite ?app_nil_r.
  - destruct O as [->|[ix [v [Sv ->]]]].
    + rewrite !get_encode_dkey, Om by auto. auto.
    + rewrite !get_encode_ikey, Om by auto. auto.
  - pose proof (inv_row_ok _ _ _ _ _ I N) as CR. subst p.
    destruct O as [->|[ix [v [Sv ->]]]].
    + rewrite lw_wr_dkey, T, Old, !get_encode_dkey, Om by auto.
      destruct (get (c_pk r) m0) as [d0|]; cbn [pending_ty]; auto.
      destruct (rowdata_eqb (c_data r) d0) eqn:Q; auto. apply rowdata_eqb_eq in Q. rewrite Q. auto.
    + rewrite lw_wr_ikey, T, Old, !get_encode_ikey, Om by auto.
      destruct (get (c_pk r) m0); [apply moves_upd|apply moves_add]; auto.
  - assert (CR : crow_ok r).
    { eapply Forall_forall; [apply (i_rows _ _ _ I)|].
      assert (X : In r (lives p (rows st))) by (rewrite Lv; left; auto). apply filter_In in X. tauto. }
    subst p. destruct O as [->|[ix [v [Sv ->]]]].
    + rewrite lw_wr_dkey, T, !get_encode_dkey, Om by auto. destruct (c_old r); auto.
    + rewrite lw_wr_ikey, T, !get_encode_ikey, Om, O0 by auto. apply moves_del. auto.
Qed.

Lemma save_correct st m0 m : inv st m0 m -> m_save st = (EOk, mkSt (encode m) [] []).
Proof.
  intro I. unfold m_save. rewrite save_rows_flat.
  2:{ eapply Forall_impl; [|apply (i_rows _ _ _ I)]. apply save_row_some. }
  f_equal. f_equal. rewrite (i_kv _ _ _ I).
  apply (fold_apply_owned (fun k => exists p, owned p k)); try apply encode_sorted.
  - intros w Iw. apply in_flat_map in Iw. destruct Iw as [r [Ir Iw]]. exists (c_pk r).
    apply save_row_owned; auto. eapply Forall_forall; [apply (i_rows _ _ _ I)|auto].
  - intros k v. apply encode_key_owned; apply I.
  - intros k v. apply encode_key_owned; apply I.
  - intros k [p O]. eapply owned_key_saved; eauto.
Qed.

Lemma save_step st m0 m : inv st m0 m -> m_save st = (EOk, mkSt (encode m) [] []) /\ inv (mkSt (encode m) [] []) m m.
Proof. intro I. split; [eapply save_correct; eauto|apply inv_saved; apply I]. Qed.

Lemma take_count_all c l : (c <= 0)%Z -> take_count c l = l.
Proof.
  revert c; induction l as [|e l IH]; intros c H; simpl; auto.
  destruct (Z.eqb_spec c 1); [lia|]. rewrite IH by lia. auto.
Qed.

Lemma is_prefix_app_same a x y : is_prefix (a ++ x) (a ++ y) = is_prefix x y.
Proof. induction a; simpl; auto. rewrite N.eqb_refl. auto. Qed.

Lemma is_prefix_sepfree x v p :
  sepfree x = true -> sepfree v = true -> is_prefix x (v ++ sepc :: p) = is_prefix x v.
Proof.
  revert v; induction x as [|a x IH]; intros v Sx Sv; auto.
  apply sepfree_cons in Sx. destruct Sx as [Na Sx]. destruct v as [|b v]; simpl.
  - apply N.eqb_neq in Na. rewrite Na. auto.
  - apply sepfree_cons in Sv. destruct Sv as [_ Sv]. rewrite IH; auto.
Qed.

Lemma prefix_idx_dkey i x p : is_prefix (iprefix i ++ x) (dkey p) = false.
Proof. destruct i; reflexivity. Qed.

Lemma prefix_data_ikey x i v p : is_prefix (dataprefix ++ x) (ikey i v p) = false.
Proof. destruct i; reflexivity. Qed.

Lemma prefix_idx_ikey i x i' v p :
  is_prefix (iprefix i ++ x) (ikey i' v p) = idx_eqb i i' && is_prefix x (v ++ sepc :: p).
Proof.
  destruct i, i'; try reflexivity; unfold ikey; rewrite is_prefix_app_same; reflexivity.
Qed.

Lemma prefix_data_dkey x p : is_prefix (dataprefix ++ x) (dkey p) = is_prefix x p.
Proof. unfold dkey. apply is_prefix_app_same. Qed.

Lemma list_kv_full_In pre c asc (E : omap kvval) v : (c <= 0)%Z ->
  In v (list_kv pre [] c asc E) <->
  exists k, In (k, v) E /\ is_prefix pre k = true /\ is_deleted v = false.
Proof.
  intro C. unfold list_kv. rewrite take_count_all by auto. rewrite in_map_iff. split.
  - intros [[k v'] [<- I]]. apply filter_In in I. destruct I as [I ND]. simpl in *.
    assert (I' : In (k, v') (filter_keys (is_prefix pre) E)).
    { destruct asc; auto. apply in_rev; auto. }
    apply filter_keys_In in I'. destruct I' as [I' P]. exists k.
    apply negb_true_iff in ND. auto.
  - intros [k [I [P ND]]]. exists (k, v). split; auto. apply filter_In. split.
    + assert (I' : In (k, v) (filter_keys (is_prefix pre) E)) by (apply filter_keys_In; auto).
      destruct asc; auto. apply in_rev in I'; auto.
    + simpl. rewrite ND. auto.
Qed.

Section Listing.
Variable m : tbl.
Hypothesis (S : sorted m) (OK : rows_ok m).
Hypothesis NE : forall p d, get p m = Some d -> p <> [].

Lemma In_encode k v :
  In (k, v) (encode m) <-> exists p d, get p m = Some d /\ In (k, v) (row_entries p d).
Proof. rewrite <- (get_In k v (encode m) (encode_sorted m)). apply get_encode; auto. Qed.

Lemma rows_of_values_spec vs :
  (forall v, In v vs -> exists p d, v = VRow p d) ->
  exists rs, rows_of_values vs = (EOk, rs) /\
    forall p d, In (p, d) rs <-> In (VRow p d) vs.
Proof.
  induction vs as [|v vs IH]; intro H; simpl.
  - exists []. split; auto. intros; simpl; tauto.
  - destruct (H v (or_introl eq_refl)) as [p [d ->]].
    destruct IH as [rs [E Q]]; [intros; apply H; right; auto|]. rewrite E.
    exists ((p, d) :: rs). split; auto. intros p' d'. simpl. rewrite Q. split.
    + intros [X|X]; [inversion X; auto|auto].
    + intros [X|X]; [inversion X; auto|auto].
Qed.

Lemma rows_by_primary_spec vs :
  (forall v, In v vs -> exists p d, v = VPrim p /\ get p m = Some d) ->
  exists rs, rows_by_primary (encode m) vs = (EOk, rs) /\
    forall p d, In (p, d) rs <-> (In (VPrim p) vs /\ get p m = Some d).
Proof.
  induction vs as [|v vs IH]; intro H; simpl.
  - exists []. split; auto. intros; simpl; tauto.
  - destruct (H v (or_introl eq_refl)) as [p [d [-> G]]].
    destruct IH as [rs [E Q]]; [intros; apply H; right; auto|].
    unfold get_data. rewrite get_encode_dkey, G by auto. rewrite E. simpl.
    exists ((p, d) :: rs). split; auto. intros p' d'. simpl. rewrite Q. split.
    + intros [X|[X Y]]; [inversion X; subst; auto|auto].
    + intros [[X|X] Y]; [inversion X; subst; left; congruence|auto].
Qed.

Lemma listed_data x c asc v : (c <= 0)%Z ->
  In v (list_kv (dataprefix ++ x) [] c asc (encode m)) <->
  exists p d, v = VRow p d /\ get p m = Some d /\ is_prefix x p = true.
Proof.
  intro C. rewrite list_kv_full_In by auto. split.
  - intros [k [I [P _]]]. apply In_encode in I. destruct I as [p [d [G I]]].
    apply in_row_entries in I. destruct I as [[-> ->]|[i [-> _]]].
    + rewrite prefix_data_dkey in P. eauto.
    + rewrite prefix_data_ikey in P. discriminate.
  - intros [p [d [-> [G P]]]]. exists (dkey p). rewrite prefix_data_dkey. split; auto.
    apply In_encode. exists p, d. split; auto. apply in_row_entries. auto.
Qed.

Lemma listed_idx i x c asc v : sepfree x = true -> (c <= 0)%Z ->
  In v (list_kv (iprefix i ++ x) [] c asc (encode m)) <->
  exists p d, v = VPrim p /\ get p m = Some d /\ is_prefix x (idx_val d i) = true.
Proof.
  intros Sx C. rewrite list_kv_full_In by auto. split.
  - intros [k [I [P _]]]. apply In_encode in I. destruct I as [p [d [G I]]].
    apply in_row_entries in I. destruct I as [[-> _]|[i' [-> ->]]].
    + rewrite prefix_idx_dkey in P. discriminate.
    + rewrite prefix_idx_ikey in P. apply andb_true_iff in P. destruct P as [P1 P2].
      assert (i = i') by (destruct i, i'; auto; discriminate). subst i'.
      rewrite is_prefix_sepfree in P2; auto; [eauto|]. apply data_ok_idx, (OK _ _ G).
  - intros [p [d [-> [G P]]]]. exists (ikey i (idx_val d i) p). split; [|split].
    + apply In_encode. exists p, d. split; auto. apply in_row_entries. eauto.
    + rewrite prefix_idx_ikey. rewrite is_prefix_sepfree; auto.
      * rewrite P. destruct i; auto.
      * apply data_ok_idx, (OK _ _ G).
    + pose proof (NE _ _ G). destruct p; [congruence|auto].
Qed.

Theorem list_index_full q :
  (match q_idx q with QPrimary => True | QIdx _ => sepfree (q_prefix q) = true end) ->
  q_start q = [] -> (q_count q <= 0)%Z ->
  exists rs,
    list_index (encode m) q = ((match rs with [] => ENotFound | _ => EOk end), rs) /\
    forall p d, In (p, d) rs <-> (get p m = Some d /\ q_match q p d = true).
Proof.
  intros SP ST C. unfold list_index, q_match. rewrite ST. cbn [is_nil negb andb].
  destruct (q_idx q) as [|i].
  - destruct (rows_of_values_spec (list_kv (dataprefix ++ q_prefix q) [] (q_count q) (q_asc q) (encode m)))
      as [rs [E Q]].
    { intros v I. apply listed_data in I; auto. destruct I as [p [d [-> _]]]. eauto. }
    rewrite E. exists rs. split; [destruct rs; auto|].
    intros p d. rewrite Q, listed_data by auto. split.
    + intros [p' [d' [X [G P]]]]. inversion X; subst. auto.
    + intros [G P]. eauto.
  - destruct (rows_by_primary_spec (list_kv (iprefix i ++ q_prefix q) [] (q_count q) (q_asc q) (encode m)))
      as [rs [E Q]].
    { intros v I. apply listed_idx in I; auto. destruct I as [p [d [-> [G _]]]]. eauto. }
    rewrite E. exists rs. split; [destruct rs; auto|].
    intros p d. rewrite Q, listed_idx by auto. split.
    + intros [[p' [d' [X [G' P]]]] G]. inversion X; subst. split; auto. congruence.
    + intros [G P]. split; eauto.
Qed.
End Listing.

Definition step_refines (st : state) (m0 m : tbl) (o : op) : Prop :=
  exists st', step st o = (fst (s_step m o), st') /\
    inv st' (if is_save o then snd (s_step m o) else m0) (snd (s_step m o)).

Lemma crow_ok_new p d o0 :
  data_ok d = true -> (forall d0, o0 = Some d0 -> data_ok d0 = true) -> crow_ok (mkC (pending_ty o0) p d o0).
Proof. intros D D0. split; [|split]; simpl; auto. destruct o0; discriminate. Qed.

(** the row a key without pending row gets from Add / Replace / Update *)
Lemma inv_new_row st m0 m d :
  inv st m0 m -> data_ok d = true -> lives (r_pk d) (rows st) = [] ->
  inv (add_row_cache st (mkC (pending_ty (get (r_pk d) m0)) (r_pk d) d (get (r_pk d) m0))) m0 (put (r_pk d) d m).
Proof.
  intros I D L. apply (inv_append st m0 m (r_pk d) (mkC _ (r_pk d) d _)); auto.
  apply crow_ok_new; auto. intros d0 O0. apply (i_ok0 _ _ _ I _ _ O0).
Qed.

Lemma step_add st m0 m d :
  inv st m0 m -> data_ok d = true -> deleted_saved m0 m (r_pk d) = false ->
  step_refines st m0 m (OAdd d).
Proof.
  intros I D ND. unfold step_refines, deleted_saved in *. simpl. unfold m_add, mem.
  destruct (i_keys _ _ _ I (r_pk d)) as [R L O | i r R N P L T Old O | r R L P T O0 O].
  - rewrite (find_row_stored _ _ _ _ I R), O. pose proof (inv_new_row _ _ _ d I D L) as X.
    destruct (get (r_pk d) m0); simpl; eauto.
  - rewrite (find_row_cached _ _ _ _ R N), O. simpl. eauto.
  - rewrite O0, O in ND. discriminate.
Qed.

Lemma step_replace st m0 m d :
  inv st m0 m -> data_ok d = true -> deleted_saved m0 m (r_pk d) = false ->
  step_refines st m0 m (OReplace d).
Proof.
  intros I D ND. unfold step_refines, deleted_saved in *. simpl. unfold m_replace.
  destruct (i_keys _ _ _ I (r_pk d)) as [R L O | i r R N P L T Old O | r R L P T O0 O].
  - rewrite (find_row_stored _ _ _ _ I R). pose proof (inv_new_row _ _ _ d I D L) as X.
    destruct (get (r_pk d) m0); simpl; eauto.
  - rewrite (find_row_cached _ _ _ _ R N). simpl. eexists; split; [reflexivity|].
    eapply inv_set_data; eauto.
  - rewrite O0, O in ND. discriminate.
Qed.

Lemma step_update st m0 m pk d :
  inv st m0 m -> op_safe m0 m (OUpdate pk d) = true -> step_refines st m0 m (OUpdate pk d).
Proof.
  intros I G. unfold step_refines. simpl in *. unfold m_update, mem.
  destruct (beqb (r_pk d) pk) eqn:B; simpl; [|eauto].
  apply beqb_eq in B. subst pk. apply andb_true_iff in G. destruct G as [D ND].
  apply negb_true_iff in ND. unfold deleted_saved in ND.
  destruct (i_keys _ _ _ I (r_pk d)) as [R L O | i r R N P L T Old O | r R L P T O0 O].
  - rewrite (find_row_stored _ _ _ _ I R), O. pose proof (inv_new_row _ _ _ d I D L) as X.
    destruct (get (r_pk d) m0); simpl; eauto.
  - rewrite (find_row_cached _ _ _ _ R N), O. simpl. eexists; split; [reflexivity|].
    eapply inv_set_data; eauto.
  - rewrite O0, O in ND. discriminate.
Qed.

Lemma step_del st m0 m p :
  inv st m0 m -> del_safe m0 m p = true ->
  exists st', m_del st p = (fst (s_step m (ODel p)), st') /\ inv st' m0 (snd (s_step m (ODel p))).
Proof.
  intros I ND. unfold del_safe, deleted_saved in ND. apply negb_true_iff in ND. simpl. unfold m_del, mem.
  destruct (i_keys _ _ _ I p) as [R L O | i r R N P L T Old O | r R L P T O0 O].
  - rewrite (find_row_stored _ _ _ _ I R), O.
    destruct (get p m0) as [d0|] eqn:O0; simpl; eauto.
    eexists; split; [reflexivity|]. apply inv_del_saved; auto.
    split; [|split]; simpl; try discriminate. apply (i_ok0 _ _ _ I _ _ O0).
  - rewrite (find_row_cached _ _ _ _ R N), O, P, T. simpl.
    destruct (get p m0) as [d0|] eqn:O0; simpl; eexists; (split; [reflexivity|]).
    + eapply inv_del_updated; eauto.
    + eapply inv_uncache; eauto.
  - rewrite O0, O in ND. discriminate.
Qed.

Lemma step_ok st m0 m o :
  inv st m0 m -> op_safe m0 m o = true -> step_refines st m0 m o.
Proof.
  intros I G. destruct o; simpl in G.
  - apply andb_true_iff in G. destruct G as [D ND]. apply negb_true_iff in ND. apply step_add; auto.
  - apply andb_true_iff in G. destruct G as [D ND]. apply negb_true_iff in ND. apply step_replace; auto.
  - apply step_update; auto.
  - apply step_del; auto.
  - apply (step_del st m0 m (r_pk d)); auto.
  - exists (mkSt (encode m) [] []). exact (save_step _ _ _ I).
Qed.

Definition op_row (o : op) : option rowdata :=
  match o with OAdd d | OReplace d | OUpdate _ d => Some d | _ => None end.

Lemma s_step_get m o p x : sorted m ->
  get p (snd (s_step m o)) = Some x -> get p m = Some x \/ (p = r_pk x /\ op_row o = Some x).
Proof.
  intros S. destruct o as [d|d|pk d|pk|d|]; simpl; auto.
  - destruct (mem (r_pk d) m); simpl; auto. rewrite get_put.
    destruct (beqb p (r_pk d)) eqn:B; auto. intros [= <-]. apply beqb_eq in B. auto.
  - rewrite get_put. destruct (beqb p (r_pk d)) eqn:B; auto. intros [= <-]. apply beqb_eq in B. auto.
  - destruct (negb (beqb (r_pk d) pk)) eqn:NB; simpl; auto. destruct (mem pk m); simpl; auto.
    rewrite get_put. destruct (beqb p pk) eqn:B; auto. intros [= <-].
    apply negb_false_iff in NB. apply beqb_eq in NB, B. right. split; congruence.
  - destruct (mem pk m); simpl; auto. rewrite get_del by auto. destruct (beqb p pk); [discriminate|auto].
  - destruct (mem (r_pk d) m); simpl; auto. rewrite get_del by auto.
    destruct (beqb p (r_pk d)); [discriminate|auto].
Qed.

Lemma run_refines ops : forall st m0 m,
  inv st m0 m -> safe_from m0 m ops = true ->
  fst (run st ops) = fst (s_run m ops) /\
  exists m0', inv (snd (run st ops)) m0' (snd (s_run m ops)).
Proof.
  induction ops as [|o tl IH]; intros st m0 m I G; simpl.
  - split; auto. eauto.
  - simpl in G. apply andb_true_iff in G. destruct G as [G1 G2].
    destruct (step_ok _ _ _ _ I G1) as [st1 [E I1]]. rewrite E.
    destruct (s_step m o) as [e m1]. simpl in *.
    destruct (IH st1 _ m1 I1 G2) as [A B].
    destruct (run st1 tl) as [es st2]. destruct (s_run m1 tl) as [es' m2]. simpl in *.
    split; [congruence|auto].
Qed.

Lemma run_app st a b : snd (run st (a ++ b)) = snd (run (snd (run st a)) b).
Proof.
  revert st; induction a as [|o a IH]; intro st; simpl; auto.
  destruct (step st o) as [e st1]. specialize (IH st1).
  destruct (run st1 (a ++ b)) as [es st2]. destruct (run st1 a) as [es' st3]. simpl in *. auto.
Qed.

Lemma safe_from_app a : forall m0 m b, safe_from m0 m (a ++ b) = true -> safe_from m0 m a = true.
Proof.
  induction a as [|o a IH]; intros m0 m b H; simpl in *; auto.
  apply andb_true_iff in H. destruct H as [H1 H2]. rewrite H1. simpl. eapply IH; eauto.
Qed.

Theorem table_refines_map_partial ops :
  safe_words ops = true -> errs_agree ops /\ saved_agrees ops.
Proof.
  intro G. destruct (run_refines ops init [] [] inv_init G) as [A [m0' I]].
  split; [exact A|]. unfold saved_agrees. rewrite run_app. simpl.
  rewrite (save_correct _ _ _ I). reflexivity.
Qed.

Theorem every_save_partial ops1 ops2 :
  safe_words (ops1 ++ OSave :: ops2) = true ->
  errs_agree ops1 /\ saved_agrees ops1.
Proof.
  intro G. apply table_refines_map_partial. unfold safe_words in *. eapply safe_from_app; eauto.
Qed.

Theorem queries_partial ops q :
  safe_words ops = true ->
  (forall p d, get p (snd (s_run [] ops)) = Some d -> p <> []) ->
  (match q_idx q with QPrimary => True | QIdx _ => sepfree (q_prefix q) = true end) ->
  q_start q = [] -> (q_count q <= 0)%Z ->
  exists rs,
    list_index (kv (snd (run init (ops ++ [OSave])))) q =
      ((match rs with [] => ENotFound | _ => EOk end), rs) /\
    forall p d, In (p, d) rs <-> (get p (snd (s_run [] ops)) = Some d /\ q_match q p d = true).
Proof.
  intros G NE SP ST C.
  destruct (table_refines_map_partial ops G) as [_ K]. unfold saved_agrees in K. rewrite K.
  destruct (run_refines ops init [] [] inv_init G) as [_ [m0' I]].
  apply list_index_full; auto; apply I.
Qed.

(** Without the guard: if every call of a Replace-free history answered like
    the map, the history is inside the guard — the first operation outside it
    would be an Add/Update/Del on a key whose saved row was deleted in this
    window, and there table.go answers differently from the map (finding 1).
    So for such histories a Save leaves exactly the map's rows and index
    entries, whatever a pending Update changed before a Del. *)
Definition no_replace (ops : list op) : bool := forallb (fun o => negb (is_replace o)) ops.

Lemma find_row_deleted st m0 m p :
  inv st m0 m -> deleted_saved m0 m p = true ->
  exists d0, find_row st p = (EOk, Some (mkC TNone p d0 None), None) /\ get p m = None.
Proof.
  intros I DS. unfold deleted_saved in DS.
  destruct (get p m0) as [d0|] eqn:G0; [|discriminate].
  destruct (get p m) as [d|] eqn:G; [discriminate|]. exists d0. split; auto.
  destruct (i_keys _ _ _ I p) as [R _ _ | i r _ _ _ _ _ _ O | r R _ _ _ _ _]; [| congruence |];
    rewrite (find_row_stored _ _ _ _ I R), G0; auto.
Qed.

Lemma run_cons_fst st o tl :
  fst (run st (o :: tl)) = fst (step st o) :: fst (run (snd (step st o)) tl).
Proof. simpl. destruct (step st o) as [e st1]. simpl. destruct (run st1 tl). auto. Qed.

Lemma s_run_cons_fst m o tl :
  fst (s_run m (o :: tl)) = fst (s_step m o) :: fst (s_run (snd (s_step m o)) tl).
Proof. simpl. destruct (s_step m o) as [e m1]. simpl. destruct (s_run m1 tl). auto. Qed.

Lemma agree_op_safe st m0 m o :
  inv st m0 m -> op_keys_ok o = true -> is_replace o = false ->
  fst (step st o) = fst (s_step m o) -> op_safe m0 m o = true.
Proof.
  intros I K NR A. destruct o as [d|d|pk d|pk|d|]; simpl in K, NR; try discriminate; cbn [op_safe].
  - rewrite K. destruct (deleted_saved m0 m (r_pk d)) eqn:DS; auto. exfalso.
    destruct (find_row_deleted _ _ _ _ I DS) as [d0 [F G]].
    simpl in A. unfold m_add, mem in A. rewrite F, G in A. discriminate.
  - destruct (beqb (r_pk d) pk) eqn:B; auto. rewrite K.
    destruct (deleted_saved m0 m pk) eqn:DS; auto. exfalso.
    destruct (find_row_deleted _ _ _ _ I DS) as [d0 [F G]].
    simpl in A. unfold m_update, mem in A. rewrite B, F, G in A. discriminate.
  - unfold del_safe. destruct (deleted_saved m0 m pk) eqn:DS; auto. exfalso.
    destruct (find_row_deleted _ _ _ _ I DS) as [d0 [F G]].
    simpl in A. unfold m_del, mem in A. rewrite F, G in A. discriminate.
  - unfold del_safe. destruct (deleted_saved m0 m (r_pk d)) eqn:DS; auto. exfalso.
    destruct (find_row_deleted _ _ _ _ I DS) as [d0 [F G]].
    simpl in A. unfold m_del, mem in A. rewrite F, G in A. discriminate.
  - reflexivity.
Qed.

Lemma agree_safe ops : forall st m0 m,
  inv st m0 m -> keys_ok ops = true -> no_replace ops = true ->
  fst (run st ops) = fst (s_run m ops) -> safe_from m0 m ops = true.
Proof.
  induction ops as [|o tl IH]; intros st m0 m I K NR A; [reflexivity|].
  unfold keys_ok, no_replace in K, NR. cbn [forallb] in K, NR.
  apply andb_true_iff in K, NR. destruct K as [K1 K2], NR as [NR1 NR2].
  apply negb_true_iff in NR1.
  rewrite run_cons_fst, s_run_cons_fst in A. inversion A as [[A1 A2]].
  pose proof (agree_op_safe _ _ _ _ I K1 NR1 A1) as G1.
  cbn [safe_from]. rewrite G1. cbn [andb].
  destruct (step_ok _ _ _ _ I G1) as [st1 [E I1]]. rewrite E in A2. cbn [snd] in A2.
  apply (IH st1 _ _ I1 K2 NR2 A2).
Qed.

Theorem update_del_fixed ops :
  keys_ok ops = true -> forallb (fun o => negb (is_replace o)) ops = true ->
  errs_agree ops -> saved_agrees ops.
Proof.
  intros K NR A. apply table_refines_map_partial.
  exact (agree_safe ops init [] [] inv_init K NR A).
Qed.
