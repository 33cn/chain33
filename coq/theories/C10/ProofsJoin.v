(** C10 — JoinTable against two maps and their relational join.  Under one
    join index the join table holds at most one record of a left key: at the
    join key of the left row and its right row.  The join rows that saveLeft
    and saveRight build for the key move it ([join_moves]). *)
From Coq Require Import List NArith ZArith Bool Lia.
From C33 Require Import Lib.Bytes Lib.OMap C10.Model C10.Spec C10.ProofsInv C10.Join C10.JoinSpec.
Import ListNotations.

Lemma sepfree_rev a : sepfree (rev a) = sepfree a.
Proof.
  unfold sepfree. induction a as [|x a IH]; simpl; auto.
  rewrite forallb_app, IH. simpl. rewrite andb_true_r. apply andb_comm.
Qed.

(** splitting at the LAST separator: the primary key has none *)
Lemma last_sep_split v v' p p' :
  sepfree p = true -> sepfree p' = true ->
  v ++ sepc :: p = v' ++ sepc :: p' -> v = v' /\ p = p'.
Proof.
  intros S S' E. apply (f_equal (@rev N)) in E.
  rewrite !rev_app_distr in E. simpl in E. rewrite <- !app_assoc in E. simpl in E.
  apply sepfree_split in E; try (rewrite sepfree_rev; assumption).
  destruct E as [E1 E2]. split.
  - apply (f_equal (@rev N)) in E2. rewrite !rev_involutive in E2. exact E2.
  - apply (f_equal (@rev N)) in E1. rewrite !rev_involutive in E1. exact E1.
Qed.

Lemma jpre_inj i i' x y : jpre i ++ x = jpre i' ++ y -> i = i' /\ x = y.
Proof.
  destruct i, i'; intro H; try discriminate; apply app_inv_head in H; auto.
Qed.

Lemma jikey_inj i v p i' v' p' :
  sepfree p = true -> sepfree p' = true ->
  jikey i v p = jikey i' v' p' -> i = i' /\ v = v' /\ p = p'.
Proof.
  intros S S' E. unfold jikey in E. apply jpre_inj in E. destruct E as [-> E]. simpl in E.
  apply last_sep_split in E; [|assumption|assumption]. destruct E as [-> ->]. auto.
Qed.

Definition jidx_eqb (a b : jidx) : bool :=
  match a, b with JAddrSt, JAddrSt | JSt, JSt => true | _, _ => false end.

Lemma beqb_jikey i v i' v' p : sepfree p = true ->
  beqb (jikey i v p) (jikey i' v' p) = jidx_eqb i i' && beqb v v'.
Proof.
  intro S. destruct (beqb (jikey i v p) (jikey i' v' p)) eqn:B.
  - apply beqb_eq in B. apply jikey_inj in B; auto. destruct B as [-> [-> _]].
    rewrite beqb_refl. destruct i'; auto.
  - symmetry. apply not_true_iff_false. intro H. apply andb_true_iff in H. destruct H as [H1 H2].
    apply beqb_eq in H2. subst v'.
    assert (E : i = i') by (destruct i, i'; simpl in H1; congruence). subst i'.
    rewrite beqb_refl in B. discriminate.
Qed.

Definition jwr : jrow -> list kvw := wr j_save_row.

Lemma jwr_owned r w : In w (jwr r) -> exists i v, fst w = jikey i v (j_pk r).
Proof.
  unfold jwr, wr, j_save_row. destruct (j_ty r).
  - intros [].
  - unfold j_add_row. intro I. apply in_map_iff in I. destruct I as [i [<- _]]. simpl. eauto.
  - unfold j_update_row. destruct (j_old r) as [old|]; [|intros []].
    destruct (rowdata_eqb (j_l r) (fst old) && rowdata_eqb (j_r r) (snd old)); [intros []|].
    intro I. apply in_flat_map in I. destruct I as [i [_ I]]. unfold j_upd_idx in I.
    destruct (beqb _ _); [destruct I|].
    destruct I as [<-|[<-|[]]]; simpl; eauto.
  - unfold j_del_row. intro I. apply in_map_iff in I. destruct I as [i [<- _]]. simpl. eauto.
Qed.

Definition for_pk (p : bytes) (rws : list jrow) : list jrow := filter (fun r => beqb (j_pk r) p) rws.

Lemma lw_for_pk p i v rws :
  sepfree p = true -> Forall (fun r => sepfree (j_pk r) = true) rws ->
  lw (jikey i v p) (flat_map jwr rws) = lw (jikey i v p) (flat_map jwr (for_pk p rws)).
Proof.
  intros S F. apply lw_flat_map_filter. intros r w Ir B Iw E. apply beqb_neq in B. apply B.
  destruct (jwr_owned _ _ Iw) as [i' [v' E']]. rewrite E' in E.
  apply jikey_inj in E; [tauto| |auto]. rewrite Forall_forall in F. auto.
Qed.

(** a non-empty list of copies of [x]: what a description by membership
    ([JR_mem]) says of a list *)
Definition copies (x : jrow) (l : list jrow) : Prop := l <> [] /\ forall y, In y l -> y = x.

Lemma copies_one x : copies x [x].
Proof. split; [discriminate|]. intros y [<-|[]]. auto. Qed.

Lemma copies_of_mem ox l : (forall y, In y l <-> ox = Some y) ->
  match ox with Some x => copies x l | None => l = [] end.
Proof.
  intro H. destruct ox as [x|].
  - split; [|intros y Hy; apply H in Hy; congruence]. intro X.
    assert (Y : In x l) by (apply H; auto). rewrite X in Y. destruct Y.
  - destruct l as [|y tl]; auto.
    assert (X : None = Some y) by (apply H; left; auto). discriminate.
Qed.

Lemma lw_copies k x l : copies x l -> lw k (flat_map jwr l) = lw k (jwr x).
Proof.
  intros [NE H]. induction l as [|y tl IH]; [congruence|]. simpl.
  rewrite (H y) by (simpl; auto). rewrite lw_app.
  destruct tl as [|z tl'].
  - simpl. auto.
  - rewrite IH; [|discriminate|intros; apply H; simpl; auto].
    destruct (lw k (jwr x)); auto.
Qed.

Lemma j_save_rows_flat rws :
  Forall (fun r => j_save_row r <> None) rws -> j_save_rows rws = Some (flat_map jwr rws).
Proof.
  intro F. induction F as [|r tl Hr F IH]; simpl; auto.
  rewrite IH. unfold jwr, wr. destruct (j_save_row r); [auto|congruence].
Qed.

Definition pks_ok (m : tbl) : Prop := forall p d, get p m = Some d -> pk_ok p = true.

Lemma pk_ok_sepfree p : pk_ok p = true -> sepfree p = true.
Proof. unfold pk_ok. intro H. apply andb_true_iff in H. tauto. Qed.

Definition jall (L R : tbl) : list (bytes * kvval) := flat_map jentries (join_rows L R).

Lemma in_join_rows L R p l r : sorted L ->
  In (p, l, r) (join_rows L R) <-> get p L = Some l /\ get (l_gid l) R = Some r.
Proof.
  intro S. unfold join_rows. rewrite in_flat_map. split.
  - intros [[p' l'] [I H]]. simpl in H. apply get_In in I; auto.
    destruct (get (l_gid l') R) as [r'|] eqn:G; [|destruct H].
    destruct H as [H|[]]. inversion H; subst. auto.
  - intros [G1 G2]. exists (p, l). split; [apply get_In; auto|]. simpl. rewrite G2. left; auto.
Qed.

Lemma in_jall L R k x : sorted L ->
  In (k, x) (jall L R) <->
  exists p l r i, get p L = Some l /\ get (l_gid l) R = Some r /\ k = jikey i (jval l r i) p /\ x = VPrim p.
Proof.
  intro S. unfold jall. rewrite in_flat_map. split.
  - intros [[[p l] r] [I H]]. apply in_join_rows in I; auto. destruct I as [G1 G2].
    unfold jentries in H. apply in_map_iff in H. destruct H as [i [H _]]. inversion H; subst.
    exists p, l, r, i. auto.
  - intros [p [l [r [i [G1 [G2 [-> ->]]]]]]]. exists (p, l, r). split; [apply in_join_rows; auto|].
    unfold jentries. apply in_map_iff. exists i. split; auto. destruct i; simpl; auto.
Qed.

Lemma jenc_sorted L R : sorted (jenc L R).
Proof. apply of_list_sorted. Qed.

Lemma get_jenc_iff L R k x : sorted L -> pks_ok L ->
  (get k (jenc L R) = Some x <-> In (k, x) (jall L R)).
Proof.
  intros S OK. apply get_of_list. intros x' H H'.
  apply in_jall in H; auto. apply in_jall in H'; auto.
  destruct H as [p [l [r [i [G1 [G2 [E ->]]]]]]], H' as [p' [l' [r' [i' [G1' [G2' [E' ->]]]]]]].
  rewrite E in E'. apply jikey_inj in E'; try (apply pk_ok_sepfree; eapply OK; eauto).
  destruct E' as [_ [_ ->]]. auto.
Qed.

(** where the record of a left key sits under join index [i], given the left
    row and its right row *)
Definition jpos (i : jidx) (ol or : option rowdata) : option bytes :=
  match ol, or with Some l, Some r => Some (jval l r i) | _, _ => None end.

Definition right_of (R : tbl) (ol : option rowdata) : option rowdata :=
  match ol with Some l => get (l_gid l) R | None => None end.

Lemma get_jenc L R i v p : sorted L -> pks_ok L -> sepfree p = true ->
  get (jikey i v p) (jenc L R) = at_pos (VPrim p) (jpos i (get p L) (right_of R (get p L))) v.
Proof.
  intros S OK Sp. destruct (get (jikey i v p) (jenc L R)) as [x|] eqn:G.
  - apply get_jenc_iff in G; auto. apply in_jall in G; auto.
    destruct G as [p' [l [r [i' [G1 [G2 [E ->]]]]]]].
    apply jikey_inj in E; auto; [|apply pk_ok_sepfree; eapply OK; eauto].
    destruct E as [-> [-> ->]]. rewrite G1. simpl. rewrite G2. simpl. rewrite beqb_refl. auto.
  - unfold right_of. destruct (get p L) as [l|] eqn:G1; auto. simpl.
    destruct (get (l_gid l) R) as [r|] eqn:G2; auto. simpl.
    destruct (beqb v (jval l r i)) eqn:B; auto. apply beqb_eq in B. subst v.
    assert (H : In (jikey i (jval l r i) p, VPrim p) (jall L R)).
    { apply in_jall; auto. exists p, l, r, i. auto. }
    apply get_jenc_iff in H; auto. congruence.
Qed.

Definition jowned (k : bytes) : Prop := exists i v p, k = jikey i v p /\ sepfree p = true.

Lemma jenc_key_owned L R k x : sorted L -> pks_ok L -> get k (jenc L R) = Some x -> jowned k.
Proof.
  intros S OK G. apply get_jenc_iff in G; auto. apply in_jall in G; auto.
  destruct G as [p [l [r [i [G1 [G2 [E ->]]]]]]]. exists i, (jval l r i), p. split; auto.
  apply pk_ok_sepfree. eapply OK; eauto.
Qed.

Definition jeff (r : jrow) (i : jidx) : bytes -> option (option kvval) :=
  ieff (VPrim (j_pk r)) (j_ty r) (jval (j_l r) (j_r r) i)
       (option_map (fun o => jval (fst o) (snd o) i) (j_old r)).

Lemma lw_jwr r i v : sepfree (j_pk r) = true ->
  lw (jikey i v (j_pk r)) (jwr r) = jeff r i v.
Proof.
  intro S. unfold jwr, wr, j_save_row, jeff, ieff. destruct (j_ty r); auto.
  - unfold j_add_row, all_jidx. cbn [map lw fst snd]. rewrite !beqb_jikey by auto.
    destruct i; cbn [jidx_eqb andb]; destruct (beqb v _); auto.
  - unfold j_update_row. destruct (j_old r) as [old|]; auto. cbn [option_map].
    destruct (rowdata_eqb (j_l r) (fst old) && rowdata_eqb (j_r r) (snd old)) eqn:Q.
    + apply andb_true_iff in Q. destruct Q as [Q1 Q2].
      apply rowdata_eqb_eq in Q1. apply rowdata_eqb_eq in Q2. rewrite Q1, Q2, beqb_refl. auto.
    + (* only index [i]'s writes reach a key of index [i] *)
      rewrite (lw_flat_map_filter (j_upd_idx r old) (jidx_eqb i)).
      2:{ intros j w _ E Iw Ek. unfold j_upd_idx in Iw. destruct (beqb _ _); [destruct Iw|].
          destruct Iw as [<-|[<-|[]]]; apply jikey_inj in Ek; auto; destruct Ek as [-> _];
            destruct i; discriminate. }
      replace (filter (jidx_eqb i) all_jidx) with [i] by (destruct i; reflexivity).
      cbn [flat_map]. rewrite app_nil_r. unfold j_upd_idx.
      destruct (beqb (jval (j_l r) (j_r r) i) (jval (fst old) (snd old) i)); auto.
      cbn [lw fst snd]. rewrite !beqb_jikey by auto.
      replace (jidx_eqb i i) with true by (destruct i; reflexivity). cbn [andb].
      destruct (beqb v (jval (j_l r) (j_r r) i)); auto.
  - unfold j_del_row, all_jidx. cbn [map lw fst snd]. rewrite !beqb_jikey by auto.
    destruct i; cbn [jidx_eqb andb]; destruct (beqb v _); auto.
Qed.

(** the present row [a1] of a key, else the saved one [a0] (an arbitrary row if there is neither) *)
Definition cur (a0 a1 : option rowdata) : rowdata :=
  match a1, a0 with Some x, _ => x | None, Some y => y | None, None => mkRow [] [] [] 0 end.

Section Records.
Variables (p : bytes) (i : jidx).

Lemma jval_ext l l' r r' : l_addr l = l_addr l' -> g_st r = g_st r' -> jval l r i = jval l' r' i.
Proof. intros A B. destruct i; simpl; rewrite ?A, B; auto. Qed.

Definition eff (jr : option jrow) : bytes -> option (option kvval) :=
  match jr with Some r => jeff r i | None => fun _ => None end.

(** The join rows of [p] in terms of the four rows involved.
    [l0], [l1]: the left row at the last Save and now; [r0], [r1]: the right
    row of its foreign key.  saveLeft pairs the left row with the present right
    row (the saved one if it is being deleted), saveRight the right row with
    the present left row; an Update row carries the saved pair as old value. *)
Definition ljrow (l0 l1 r0 r1 : option rowdata) : option jrow :=
  match l0, l1 with
  | None, Some d1 => Some (mkJ TAdd p d1 (cur r0 r1) None)
  | Some d0, None => Some (mkJ TDel p d0 (cur r0 r1) None)
  | Some d0, Some d1 =>
      if beqb (l_addr d1) (l_addr d0) then None
      else Some (mkJ TUpdate p d1 (cur r0 r1) (Some (d0, cur r1 r0)))
  | None, None => None
  end.

Definition rjrow (r0 r1 l0 l1 : option rowdata) : option jrow :=
  match r0, r1 with
  | None, Some d1 => Some (mkJ TAdd p (cur l0 l1) d1 None)
  | Some d0, None => Some (mkJ TDel p (cur l0 l1) d0 None)
  | Some d0, Some d1 =>
      if beqb (g_st d1) (g_st d0) then None
      else Some (mkJ TUpdate p (cur l0 l1) d1 (Some (cur l1 l0, d0)))
  | None, None => None
  end.

Lemma ljrow_pk l0 l1 r0 r1 x : ljrow l0 l1 r0 r1 = Some x -> j_pk x = p.
Proof. destruct l0, l1; simpl; try destruct (beqb _ _); intros [= <-]; auto. Qed.

Lemma rjrow_pk r0 r1 l0 l1 x : rjrow r0 r1 l0 l1 = Some x -> j_pk x = p.
Proof. destruct r0, r1; simpl; try destruct (beqb _ _); intros [= <-]; auto. Qed.

(** [right_effective] on the two right rows *)
Definition reff (r0 r1 : option rowdata) : bool :=
  match r0, r1 with
  | None, None => false
  | Some a, Some b => negb (beqb (g_st a) (g_st b))
  | _, _ => true
  end.

(** inside the guard (clauses ref and del) the left row's join row, then the
    right row's, take the record from the saved pair's place to the present pair's *)
Lemma join_moves l0 l1 r0 r1 :
  l0 <> None \/ l1 <> None ->
  (needs_right l0 l1 <> None -> r0 <> None \/ r1 <> None) ->
  (l0 <> None -> l1 = None -> r1 <> None -> reff r0 r1 = false) ->
  exists s, moves (VPrim p) (eff (ljrow l0 l1 r0 r1)) (jpos i l0 r0) s /\
            moves (VPrim p) (eff (rjrow r0 r1 l0 l1)) s (jpos i l1 r1).
Proof.
  intros K Ref Del.
  destruct l0 as [a0|], l1 as [a1|]; [| | |destruct K; congruence];
    destruct r0 as [b0|], r1 as [b1|]; cbn [ljrow rjrow cur jpos];
    try destruct (beqb (l_addr a1) (l_addr a0)) eqn:A;
    try destruct (beqb (g_st b1) (g_st b0)) eqn:B;
    cbn [eff].
  (* both rows at the last Save and now *)
  - exists (Some (jval a0 b0 i)). split; [apply moves_skip|].
    rewrite (jval_ext a1 a0 b1 b0) by (apply beqb_eq; auto). apply moves_skip.
  - exists (Some (jval a0 b0 i)). split; [apply moves_skip|apply moves_upd; auto].
  - exists (Some (jval a1 b1 i)). split; [apply moves_upd; auto|apply moves_skip].
  - exists (Some (jval a1 b1 i)). split; apply moves_upd; auto.
  (* right row deleted *)
  - exists (Some (jval a0 b0 i)). split; [apply moves_skip|]. apply moves_del. right. f_equal.
    apply jval_ext; auto. symmetry. apply beqb_eq; auto.
  - exists (Some (jval a1 b0 i)). split; [apply moves_upd; auto|apply moves_del; auto].
  (* right row added *)
  - exists None. split; [apply moves_skip|apply moves_add; auto].
  - exists (if beqb (jval a1 b1 i) (jval a0 b1 i) then None else Some (jval a1 b1 i)).
    split; [apply moves_upd_none|]. apply moves_add.
    destruct (beqb (jval a1 b1 i) (jval a0 b1 i)); auto.
  (* no right row: clause ref asks for one if addr changed *)
  - exists None. split; apply moves_skip.
  - exfalso. destruct Ref as [X|X]; try congruence. simpl. rewrite beqb_sym, A. discriminate.
  (* left row deleted: clause del keeps the right row's status *)
  - exists None. split; [|apply moves_skip]. apply moves_del. right. f_equal.
    apply jval_ext; auto. symmetry. apply beqb_eq; auto.
  - exfalso. assert (X : reff (Some b0) (Some b1) = false) by (apply Del; congruence).
    simpl in X. rewrite beqb_sym, B in X. discriminate.
  - exists None. split; apply moves_del; auto.
  - exfalso. assert (X : reff None (Some b1) = false) by (apply Del; congruence). discriminate.
  - exfalso. destruct Ref as [X|X]; try congruence. discriminate.
  (* left row added *)
  - exists (Some (jval a1 b1 i)). split; [apply moves_add; auto|apply moves_skip].
  - exists (Some (jval a1 b1 i)). split; [apply moves_add; auto|apply moves_upd; auto].
  - exists (Some (jval a1 b0 i)). split; [apply moves_add; auto|apply moves_del; auto].
  - exists (Some (jval a1 b1 i)). split; apply moves_add; auto.
  - exfalso. destruct Ref as [X|X]; try congruence. discriminate.
Qed.
End Records.

Lemma jrow_saves ty pk l r old : j_save_row (mkJ ty pk l r (if is_tupd ty then Some old else None)) <> None.
Proof.
  unfold j_save_row, j_update_row. destruct ty; simpl; try discriminate.
  destruct (rowdata_eqb _ _ && rowdata_eqb _ _); discriminate.
Qed.

Definition left_jrow (r : crow) (rc ro : rowdata) : jrow :=
  mkJ (c_ty r) (c_pk r) (c_data r) rc (if is_tupd (c_ty r) then Some (old_or_data r, ro) else None).

Definition left_skipped (r : crow) : bool := is_tupd (c_ty r) && negb (left_modified r).

Lemma save_left_spec rs R0 R r :
  inv rs R0 R ->
  let g := l_gid (c_data r) in
  (left_skipped r = false -> get g R0 <> None \/ get g R <> None) ->
  save_left rs r =
    (EOk, if left_skipped r then []
          else [left_jrow r (cur (get g R0) (get g R)) (cur (get g R) (get g R0))]).
Proof.
  intros I g K. unfold save_left. fold (left_skipped r). fold g.
  destruct (left_skipped r); auto. specialize (K eq_refl).
  destruct (i_keys _ _ _ I g) as [Rm Lv O | n rr Rm N P Lv T Old O | rr Rm Lv P T O0 O].
  - rewrite (find_row_stored _ _ _ _ I Rm), O. destruct (get g R0) as [d0|]; [reflexivity|].
    rewrite O in K. destruct K; congruence.
  - rewrite (find_row_cached _ _ _ _ Rm N), O. unfold left_jrow, old_or_data. rewrite T, Old.
    destruct (get g R0); reflexivity.
  - rewrite (find_row_stored _ _ _ _ I Rm), O0, O. reflexivity.
Qed.

Lemma save_left_row rs r jr : In jr (snd (save_left rs r)) -> j_pk jr = c_pk r /\ j_save_row jr <> None.
Proof.
  unfold save_left. destruct (is_tupd (c_ty r) && negb (left_modified r)); [intros []|].
  destruct (find_row rs (l_gid (c_data r))) as [[e o] pos].
  destruct e; simpl; try tauto; destruct o; simpl; try tauto.
  intros [<-|[]]. split; [reflexivity|apply jrow_saves].
Qed.

Definition stored_row (pr : bytes * rowdata) : crow := mkC TNone (fst pr) (snd pr) None.

Lemma fk_scan_spec ls L0 L k :
  inv ls L0 L -> pks_ok L0 -> sepfree k = true ->
  exists rs, fk_scan ls k = (EOk, map stored_row rs) /\
    forall p d, In (p, d) rs <-> (get p L0 = Some d /\ is_prefix k (l_gid d) = true).
Proof.
  intros I PK Sk. unfold fk_scan. rewrite (i_kv _ _ _ I).
  destruct (list_index_full L0 (i_s0 _ _ _ I) (i_ok0 _ _ _ I)) with (q := mkQ (QIdx ITo) k [] 0 false)
    as [rs [E Q]]; simpl; auto; try lia.
  - intros p d G Ep. subst p. apply PK in G. discriminate.
  - rewrite E. exists rs. split; [destruct rs; auto|]. exact Q.
Qed.

Definition rj (rr one : crow) : jrow :=
  mkJ (c_ty rr) (c_pk one) (c_data one) (c_data rr)
      (if is_tupd (c_ty rr)
       then Some (if is_tupd (c_ty one) then old_or_data one else c_data one, old_or_data rr)
       else None).

Definition right_skipped (rr : crow) : bool := is_tupd (c_ty rr) && negb (right_modified rr).

Section LeftCache.
Variables (ls : state) (L0 L : tbl).
Hypothesis I : inv ls L0 L.

(** the row object saveRight works on for left key [p]: the cached one, else the stored row *)
Definition one_at (p : bytes) : crow :=
  match cached_row ls p with Some cr => cr | None => mkC TNone p (cur (get p L0) None) None end.

Lemma one_at_spec p :
  c_pk (one_at p) = p /\ c_data (one_at p) = cur (get p L0) (get p L) /\
  (if is_tupd (c_ty (one_at p)) then old_or_data (one_at p) else c_data (one_at p))
  = cur (get p L) (get p L0).
Proof.
  unfold one_at, cached_row.
  destruct (i_keys _ _ _ I p) as [Rm Lv O | n r Rm N P Lv T Old O | r Rm Lv P T O0 O]; rewrite Rm.
  - rewrite O. destruct (get p L0); auto.
  - rewrite N, O. unfold old_or_data. rewrite T, Old. destruct (get p L0); auto.
  - rewrite O0, O. auto.
Qed.

Definition right_jrow (rr : crow) (p : bytes) : jrow :=
  mkJ (c_ty rr) p (cur (get p L0) (get p L)) (c_data rr)
      (if is_tupd (c_ty rr) then Some (cur (get p L) (get p L0), old_or_data rr) else None).

Lemma rj_one_at rr p : rj rr (one_at p) = right_jrow rr p.
Proof. destruct (one_at_spec p) as [A [B C]]. unfold rj. rewrite C, A, B. reflexivity. Qed.

(** left key [p] is among the rows saveRight works on for right key [k]: its
    stored foreign key has the PREFIX [k], or its cached foreign key is [k] *)
Definition reached (k p : bytes) : Prop :=
  (exists l0, get p L0 = Some l0 /\ is_prefix k (l_gid l0) = true) \/
  (exists cr, cached_row ls p = Some cr /\ l_gid (c_data cr) = k).

Lemma cached_row_pk p cr : cached_row ls p = Some cr -> c_pk cr = p.
Proof.
  unfold cached_row.
  destruct (i_keys _ _ _ I p) as [Rm _ _ | n r Rm N P _ _ _ _ | r Rm _ _ _ _ _]; rewrite Rm;
    congruence.
Qed.

Lemma cached_rows_spec cr :
  In cr (flat_map (fun e => match nth_error (rows ls) (snd e) with Some cr => [cr] | None => [] end)
                  (elements (rmap ls))) <->
  cached_row ls (c_pk cr) = Some cr.
Proof.
  rewrite in_flat_map. unfold cached_row, elements. split.
  - intros [[q n] [Hq H]]. simpl in H. apply get_In in Hq; [|apply I].
    destruct (nth_error (rows ls) n) as [cr'|] eqn:N; [|destruct H]. destruct H as [->|[]].
    assert (C : cached_row ls q = Some cr) by (unfold cached_row; rewrite Hq; auto).
    rewrite (cached_row_pk _ _ C), Hq. auto.
  - destruct (get (c_pk cr) (rmap ls)) as [n|] eqn:G; [|discriminate]. intro N.
    exists (c_pk cr, n). split; [apply get_In; auto; apply I|]. simpl. rewrite N. left; auto.
Qed.

Lemma merge_cache_mem k rs p one :
  (forall q d, In (q, d) rs <-> (get q L0 = Some d /\ is_prefix k (l_gid d) = true)) ->
  (In one (merge_cache ls (map stored_row rs) k) /\ c_pk one = p <-> one = one_at p /\ reached k p).
Proof.
  intro Q.
  assert (S : forall d, get p L0 = Some d ->
            match cached_row ls p with Some cr => cr | None => stored_row (p, d) end = one_at p).
  { intros d G. unfold one_at, stored_row. rewrite G. reflexivity. }
  unfold merge_cache. rewrite in_app_iff, in_map_iff, filter_In, cached_rows_spec. split.
  - intros [[[sr [E H]]|[C F]] Pk].
    + apply in_map_iff in H. destruct H as [[q d] [<- H]]. simpl in E. apply Q in H. destruct H as [G Pf].
      assert (q = p).
      { destruct (cached_row ls q) as [cr|] eqn:C; subst one; auto.
        rewrite <- Pk. symmetry. apply cached_row_pk. auto. }
      subst q. rewrite (S d G) in E. split; [auto|left; eauto].
    + rewrite Pk in C. apply andb_true_iff in F. destruct F as [_ F]. apply beqb_eq in F.
      split; [unfold one_at; rewrite C; auto|right; eauto].
  - intros [-> Rch]. split; [|apply one_at_spec].
    destruct (existsb (fun r => beqb (c_pk r) p) (map stored_row rs)) eqn:EX.
    + left. apply existsb_exists in EX. destruct EX as [sr [Hin B]]. apply beqb_eq in B.
      exists sr. split; auto. apply in_map_iff in Hin. destruct Hin as [[q d] [<- Hin]].
      simpl in B. subst q. apply S. apply Q in Hin. tauto.
    + destruct Rch as [[l0 [G Pf]]|[cr [C Gk]]].
      * assert (X : existsb (fun r => beqb (c_pk r) p) (map stored_row rs) = true); [|congruence].
        apply existsb_exists. exists (stored_row (p, l0)). split; [|apply beqb_refl].
        apply in_map. apply Q. auto.
      * right. unfold one_at. rewrite C, (cached_row_pk _ _ C), C, EX, Gk, beqb_refl. auto.
Qed.

Lemma save_right_fst rr : pks_ok L0 -> sepfree (c_pk rr) = true -> fst (save_right ls rr) = EOk.
Proof.
  intros PL0 Sk. unfold save_right. destruct (is_tupd (c_ty rr) && negb (right_modified rr)); auto.
  destruct (fk_scan_spec _ _ _ _ I PL0 Sk) as [rs [-> _]]. auto.
Qed.

Lemma save_right_spec rr jr : pks_ok L0 -> sepfree (c_pk rr) = true ->
  (In jr (snd (save_right ls rr)) <->
   right_skipped rr = false /\ reached (c_pk rr) (j_pk jr) /\ jr = right_jrow rr (j_pk jr)).
Proof.
  intros PL0 Sk. unfold save_right. fold (right_skipped rr). fold (rj rr).
  destruct (right_skipped rr).
  - simpl. split; [tauto|]. intros [X _]. discriminate.
  - destruct (fk_scan_spec _ _ _ _ I PL0 Sk) as [rs [-> Q]]. cbn [snd].
    rewrite in_map_iff. split.
    + intros [one [<- H]]. cbn [rj j_pk].
      assert (M : one = one_at (c_pk one) /\ reached (c_pk rr) (c_pk one))
        by (apply (merge_cache_mem _ rs); auto).
      destruct M as [E Rch]. rewrite <- rj_one_at, <- E. auto.
    + intros [_ [Rch ->]]. exists (one_at (j_pk jr)). split; [apply rj_one_at|].
      apply (merge_cache_mem _ rs (j_pk jr)); auto.
Qed.
End LeftCache.

Lemma save_each_flat f rws : forall acc,
  (forall r, In r rws -> is_tnone (c_ty r) = false -> fst (f r) = EOk) ->
  save_each f rws acc =
    (EOk, acc ++ flat_map (fun r => if is_tnone (c_ty r) then [] else snd (f r)) rws).
Proof.
  induction rws as [|r tl IH]; intros acc H; simpl.
  - rewrite app_nil_r. auto.
  - assert (Htl : forall r0, In r0 tl -> is_tnone (c_ty r0) = false -> fst (f r0) = EOk)
      by (intros; apply H; simpl; auto).
    destruct (is_tnone (c_ty r)) eqn:T.
    + destruct (c_ty r); try discriminate. apply IH; auto.
    + assert (E : fst (f r) = EOk) by (apply H; simpl; auto).
      destruct (f r) as [e js]. simpl in E. subst e.
      destruct (c_ty r); try discriminate; rewrite IH by auto; rewrite app_assoc; auto.
Qed.

Lemma live_row_known s m0 m r :
  inv s m0 m -> In r (rows s) -> is_tnone (c_ty r) = false ->
  In r (lives (c_pk r) (rows s)) /\ (get (c_pk r) m0 <> None \/ get (c_pk r) m <> None).
Proof.
  intros I Hin NN.
  assert (Lv : In r (lives (c_pk r) (rows s))).
  { apply filter_In. split; auto. unfold live. rewrite beqb_refl, NN. auto. }
  split; auto.
  destruct (i_keys _ _ _ I (c_pk r)) as [_ L0 _ | n r' _ _ _ L0 _ _ O | r' _ L0 _ _ O0 _];
    rewrite L0 in Lv; [destruct Lv|right|left]; congruence.
Qed.

Lemma pks_ok_sepfree m0 m p : pks_ok m0 -> pks_ok m ->
  get p m0 <> None \/ get p m <> None -> sepfree p = true.
Proof.
  intros P0 P [K|K]; [destruct (get p m0) eqn:E|destruct (get p m) eqn:E]; try congruence;
    apply pk_ok_sepfree; eauto.
Qed.

Lemma key_known k (m : tbl) : get k m <> None -> In k (keys m).
Proof.
  intro H. destruct (in_dec bytes_eq_dec k (keys m)) as [I|N]; auto. apply get_None_notin in N. contradiction.
Qed.

Lemma filter_const {A} (f : A -> bool) b l :
  (forall x, In x l -> f x = b) -> filter f l = if b then l else [].
Proof.
  induction l as [|x l IH]; simpl; intro H; [destruct b; auto|].
  rewrite (H x (or_introl eq_refl)), IH by (intros; apply H; right; assumption). destruct b; auto.
Qed.

Section Key.
Variables (st : jstate) (L0 R0 L R : tbl).
Hypothesis IL : inv (lst st) L0 L.
Hypothesis IR : inv (rst st) R0 R.
Hypothesis PL0 : pks_ok L0.
Hypothesis PL : pks_ok L.
Hypothesis PR0 : pks_ok R0.
Hypothesis PR : pks_ok R.
Hypothesis G : save_safe all_clauses L0 R0 L R = true.

Definition hL (r : crow) : list jrow :=
  if is_tnone (c_ty r) then [] else snd (save_left (rst st) r).
Definition hR (rr : crow) : list jrow :=
  if is_tnone (c_ty rr) then [] else snd (save_right (lst st) rr).
Definition JL : list jrow := flat_map hL (rows (lst st)).
Definition JR : list jrow := flat_map hR (rows (rst st)).

Definition gid_of (p : bytes) : bytes := l_gid (cur (get p L0) (get p L)).

Definition known (p : bytes) : Prop := get p L0 <> None \/ get p L <> None.

Lemma guard_at p : known p ->
  (forall l0 l1, get p L0 = Some l0 -> get p L = Some l1 -> l_gid l0 = l_gid l1) /\
  (needs_right (get p L0) (get p L) <> None ->
     get (gid_of p) R0 <> None \/ get (gid_of p) R <> None) /\
  (get p L0 <> None -> get p L = None -> get (gid_of p) R <> None ->
     right_effective R0 R (gid_of p) = false) /\
  (forall l0 k, get p L0 = Some l0 -> (get k R0 <> None \/ get k R <> None) ->
     right_effective R0 R k = true -> is_prefix k (l_gid l0) = true -> k = l_gid l0).
Proof.
  intro K.
  assert (H : left_key_safe all_clauses L0 R0 L R p = true).
  { unfold save_safe in G. rewrite forallb_forall in G. apply G. apply in_or_app.
    destruct K as [K|K]; [left|right]; apply key_known; auto. }
  unfold left_key_safe, all_clauses in H. cbn [cl_fk cl_ref cl_del cl_pre negb orb] in H.
  apply andb_true_iff in H. destruct H as [H H4]. apply andb_true_iff in H. destruct H as [H H3].
  apply andb_true_iff in H. destruct H as [H1 H2]. unfold gid_of.
  split; [|split; [|split]].
  - intros l0 l1 E0 E1. rewrite E0, E1 in H1. apply beqb_eq. exact H1.
  - intros N. destruct (needs_right (get p L0) (get p L)) as [g|] eqn:E; [|congruence].
    assert (g = l_gid (cur (get p L0) (get p L))).
    { unfold needs_right in E. destruct (get p L0) as [a|], (get p L) as [b|]; simpl; try congruence.
      destruct (beqb (l_addr a) (l_addr b)); congruence. }
    subst g. unfold mem in H2. destruct (get _ R0); [left; discriminate|].
    destruct (get _ R); [right; discriminate|discriminate].
  - intros N0 E1 NR. rewrite E1 in *. destruct (get p L0) as [l0|]; [|congruence]. simpl in *.
    destruct (get (l_gid l0) R); [|congruence]. apply negb_true_iff in H3. exact H3.
  - intros l0 k E0 Kk Ef Pf. rewrite E0 in H4. rewrite forallb_forall in H4.
    assert (Ik : In k (keys R0 ++ keys R)).
    { apply in_or_app. destruct Kk as [Kk|Kk]; [left|right]; apply key_known; auto. }
    specialize (H4 k Ik). rewrite Ef, Pf in H4. simpl in H4. apply beqb_eq. exact H4.
Qed.

Lemma left_ref r : In r (rows (lst st)) -> is_tnone (c_ty r) = false -> left_skipped r = false ->
  get (l_gid (c_data r)) R0 <> None \/ get (l_gid (c_data r)) R <> None.
Proof.
  intros Ir NN SK. destruct (live_row_known _ _ _ _ IL Ir NN) as [Lv K].
  destruct (guard_at _ K) as [_ [C2 _]]. unfold gid_of in C2.
  unfold left_skipped, left_modified in SK.
  destruct (i_keys _ _ _ IL (c_pk r)) as [_ Lv0 _ | n r' _ _ _ Lv0 T Old O | r' _ Lv0 _ _ O0 O];
    rewrite Lv0 in Lv; [destruct Lv| |]; destruct Lv as [->|[]]; rewrite O in C2.
  - apply C2. rewrite T, Old in SK. destruct (get (c_pk r) L0) as [d0|]; simpl in *; [|discriminate].
    rewrite negb_involutive in SK. rewrite beqb_sym, SK. discriminate.
  - rewrite O0 in C2. apply C2. discriminate.
Qed.

Lemma save_left_ok r :
  In r (rows (lst st)) -> is_tnone (c_ty r) = false -> fst (save_left (rst st) r) = EOk.
Proof.
  intros Ir NN. rewrite (save_left_spec _ _ _ r IR); auto. apply left_ref; auto.
Qed.

Lemma for_pk_JL p : for_pk p JL = flat_map hL (lives p (rows (lst st))).
Proof.
  unfold JL. induction (rows (lst st)) as [|r tl IH]; simpl; auto.
  unfold for_pk in *. rewrite filter_app, IH, (filter_const _ (beqb (c_pk r) p)).
  - unfold live. fold (hL r). unfold hL at 1. destruct (beqb (c_pk r) p), (is_tnone (c_ty r)) eqn:T; simpl; auto.
    unfold hL at 2. rewrite T. auto.
  - unfold hL. destruct (is_tnone (c_ty r)); [intros _ []|].
    intros jr H. rewrite (proj1 (save_left_row _ _ _ H)). auto.
Qed.

Lemma Jl_spec p : known p ->
  match ljrow p (get p L0) (get p L) (get (gid_of p) R0) (get (gid_of p) R) with
  | Some x => copies x (for_pk p JL)
  | None => for_pk p JL = []
  end.
Proof.
  intro K. rewrite for_pk_JL. unfold gid_of.
  destruct (i_keys _ _ _ IL p) as [Rm Lv O | n r Rm N P Lv T Old O | r Rm Lv P T O0 O];
    rewrite Lv, O; cbn [flat_map]; rewrite ?app_nil_r.
  - destruct (get p L0); cbn [ljrow]; rewrite ?beqb_refl; auto.
  - assert (Ir : In r (rows (lst st))) by (eapply nth_error_In; eauto).
    assert (NN : is_tnone (c_ty r) = false) by (rewrite T; destruct (get p L0); auto).
    unfold hL. rewrite NN, (save_left_spec _ _ _ r IR) by (apply left_ref; auto). cbn [snd].
    unfold left_skipped, left_modified, left_jrow, old_or_data. rewrite T, Old, P.
    destruct (get p L0) as [d0|]; cbn [ljrow pending_ty is_tupd andb cur].
    + rewrite negb_involutive. destruct (beqb (l_addr (c_data r)) (l_addr d0)); auto using copies_one.
    + apply copies_one.
  - assert (Ir : In r (rows (lst st))).
    { assert (X : In r (lives p (rows (lst st)))) by (rewrite Lv; left; auto). apply filter_In in X. tauto. }
    assert (NN : is_tnone (c_ty r) = false) by (rewrite T; auto).
    assert (SK : left_skipped r = false) by (unfold left_skipped; rewrite T; auto).
    unfold hL. rewrite NN, (save_left_spec _ _ _ r IR), SK by (apply left_ref; auto). cbn [snd].
    unfold left_jrow. rewrite T, P, O0. cbn [ljrow is_tupd cur]. apply copies_one.
Qed.

Lemma right_key_sepfree rr :
  In rr (rows (rst st)) -> is_tnone (c_ty rr) = false -> sepfree (c_pk rr) = true.
Proof.
  intros Ir NN. destruct (live_row_known _ _ _ _ IR Ir NN) as [_ K].
  exact (pks_ok_sepfree _ _ _ PR0 PR K).
Qed.

Lemma save_right_ok rr :
  In rr (rows (rst st)) -> is_tnone (c_ty rr) = false -> fst (save_right (lst st) rr) = EOk.
Proof.
  intros Ir NN. apply (save_right_fst _ _ _ IL); auto. apply right_key_sepfree; auto.
Qed.

Lemma reached_known k p : reached (lst st) L0 k p -> known p.
Proof.
  intros [[l0 [E _]]|[cr [C _]]]; [left; congruence|right]. unfold cached_row in C.
  destruct (i_keys _ _ _ IL p) as [Rm _ _ | n r Rm _ _ _ _ _ O | r Rm _ _ _ _ _];
    rewrite Rm in C; congruence.
Qed.

Lemma reached_gid p : known p -> reached (lst st) L0 (gid_of p) p.
Proof.
  intro K. unfold gid_of, reached, cached_row.
  destruct (i_keys _ _ _ IL p) as [Rm Lv O | n r Rm N P Lv T Old O | r Rm Lv P T O0 O]; rewrite O.
  - destruct (get p L0) as [l0|] eqn:E0.
    + left. exists l0. split; auto. apply is_prefix_refl.
    + unfold known in K. rewrite O in K. destruct K; congruence.
  - right. exists r. rewrite Rm. auto.
  - left. rewrite O0. exists (c_data r). split; auto. apply is_prefix_refl.
Qed.

(** the join rows of a right row reach [p] only if the row's key is [p]'s
    foreign key (clauses pre and fk) *)
Lemma reached_is_gid rr p :
  In rr (rows (rst st)) -> is_tnone (c_ty rr) = false -> right_skipped rr = false ->
  reached (lst st) L0 (c_pk rr) p -> c_pk rr = gid_of p.
Proof.
  intros Ir NN SK Rch. destruct (live_row_known _ _ _ _ IR Ir NN) as [Lv Kr].
  assert (Ef : right_effective R0 R (c_pk rr) = true).
  { unfold right_effective, right_skipped, right_modified in *.
    destruct (i_keys _ _ _ IR (c_pk rr)) as [_ Lv0 _ | n r _ _ _ Lv0 T Old O | r _ Lv0 _ _ O0 O];
      rewrite Lv0 in Lv; [destruct Lv| |]; destruct Lv as [->|[]]; rewrite O.
    - rewrite T, Old in SK. destruct (get (c_pk rr) R0); auto. simpl in SK.
      rewrite negb_involutive in SK. rewrite beqb_sym, SK. auto.
    - rewrite O0. auto. }
  destruct (guard_at p (reached_known _ _ Rch)) as [C1 [_ [_ C4]]]. unfold gid_of.
  destruct Rch as [[l0 [E Pf]]|[cr [C Gk]]].
  - rewrite (C4 l0 (c_pk rr) E Kr Ef Pf), E. destruct (get p L) as [l1|] eqn:E1; simpl; auto.
  - unfold cached_row in C.
    destruct (i_keys _ _ _ IL p) as [Rm _ _ | n r Rm N _ _ _ _ O | r Rm _ _ _ _ _];
      rewrite Rm in C; try discriminate. rewrite O. simpl. congruence.
Qed.

Lemma JR_mem p jr :
  In jr (for_pk p JR) <->
  known p /\ exists rr, In rr (lives (gid_of p) (rows (rst st))) /\ right_skipped rr = false /\
                        jr = right_jrow L0 L rr p.
Proof.
  unfold for_pk, JR. rewrite filter_In, in_flat_map. split.
  - intros [[rr [Ir H]] Pk]. apply beqb_eq in Pk. unfold hR in H.
    destruct (is_tnone (c_ty rr)) eqn:NN; [destruct H|].
    apply (save_right_spec _ _ _ IL rr jr PL0 (right_key_sepfree rr Ir NN)) in H.
    rewrite Pk in H. destruct H as [SK [Rch ->]]. split; [exact (reached_known _ _ Rch)|].
    exists rr. split; auto. apply filter_In. split; auto. unfold live.
    rewrite (reached_is_gid rr p Ir NN SK Rch), beqb_refl, NN. auto.
  - intros [K [rr [Lv [SK ->]]]]. apply filter_In in Lv. destruct Lv as [Ir Lv].
    unfold live in Lv. apply andb_true_iff in Lv. destruct Lv as [Pk NN].
    apply beqb_eq in Pk. apply negb_true_iff in NN. split; [|apply beqb_refl].
    exists rr. split; auto. unfold hR. rewrite NN.
    apply (save_right_spec _ _ _ IL rr _ PL0 (right_key_sepfree rr Ir NN)). cbn [right_jrow j_pk].
    rewrite Pk. auto using reached_gid.
Qed.

Lemma Jr_spec p : known p ->
  match rjrow p (get (gid_of p) R0) (get (gid_of p) R) (get p L0) (get p L) with
  | Some x => copies x (for_pk p JR)
  | None => for_pk p JR = []
  end.
Proof.
  intro K. apply copies_of_mem. intro jr. rewrite (JR_mem p jr).
  assert (X : forall A : Prop, known p /\ A <-> A) by tauto. rewrite X. clear X.
  unfold right_skipped, right_modified, right_jrow, old_or_data.
  destruct (i_keys _ _ _ IR (gid_of p)) as [_ Lv O | n rr _ _ _ Lv T Old O | rr _ Lv _ T O0 O];
    rewrite Lv, O.
  - split; [intros [rr [[] _]]|]. destruct (get (gid_of p) R0); simpl; rewrite ?beqb_refl; discriminate.
  - destruct (get (gid_of p) R0) as [d0|]; cbn [rjrow pending_ty] in *; split.
    + intros [rr' [[<-|[]] [SK ->]]]. rewrite T, Old in *. cbn [is_tupd andb] in *.
      rewrite negb_involutive in SK. rewrite SK. reflexivity.
    + intro H. exists rr. rewrite T, Old. cbn [is_tupd andb]. rewrite negb_involutive.
      destruct (beqb (g_st (c_data rr)) (g_st d0)); [discriminate|]. injection H as <-. simpl; auto.
    + intros [rr' [[<-|[]] [SK ->]]]. rewrite T. reflexivity.
    + intros [= <-]. exists rr. rewrite T. simpl; auto.
  - rewrite O0. cbn [rjrow]. split.
    + intros [rr' [[<-|[]] [SK ->]]]. rewrite T. reflexivity.
    + intros [= <-]. exists rr. rewrite T. simpl; auto.
Qed.

Definition W : list kvw := flat_map jwr (JL ++ JR).

Lemma J_rows jr : In jr (JL ++ JR) -> sepfree (j_pk jr) = true /\ j_save_row jr <> None.
Proof.
  intro H. apply in_app_or in H. destruct H as [H|H].
  - apply in_flat_map in H. destruct H as [r [Ir H]]. unfold hL in H.
    destruct (is_tnone (c_ty r)) eqn:NN; [destruct H|]. apply save_left_row in H. destruct H as [-> H].
    destruct (live_row_known _ _ _ _ IL Ir NN) as [_ K]. split; auto. exact (pks_ok_sepfree _ _ _ PL0 PL K).
  - assert (H' : In jr (for_pk (j_pk jr) JR)) by (apply filter_In; split; auto; apply beqb_refl).
    apply JR_mem in H'. destruct H' as [K [rr [_ [_ E]]]]. split; [exact (pks_ok_sepfree _ _ _ PL0 PL K)|].
    rewrite E. apply jrow_saves.
Qed.

Lemma lw_copies_of p i v ox l : sepfree p = true ->
  (forall x, ox = Some x -> j_pk x = p) ->
  match ox with Some x => copies x l | None => l = [] end ->
  lw (jikey i v p) (flat_map jwr l) = eff i ox v.
Proof.
  intros Sp Pk H. destruct ox as [x|]; [|subst l; reflexivity].
  rewrite (lw_copies _ x) by auto. rewrite <- (Pk x eq_refl) in *. apply lw_jwr. auto.
Qed.

Lemma key_saved p i v :
  sepfree p = true ->
  match lw (jikey i v p) W with
  | Some x => x
  | None => at_pos (VPrim p) (jpos i (get p L0) (right_of R0 (get p L0))) v
  end = at_pos (VPrim p) (jpos i (get p L) (right_of R (get p L))) v.
Proof.
  intro Sp. unfold W. rewrite lw_for_pk by (auto; apply Forall_forall; intros; apply J_rows; auto).
  unfold for_pk. rewrite filter_app, flat_map_app, lw_app. fold (for_pk p JL) (for_pk p JR).
  assert (D : known p \/ (get p L0 = None /\ get p L = None)).
  { unfold known. destruct (get p L0); [left; left; discriminate|].
    destruct (get p L); [left; right; discriminate|auto]. }
  destruct D as [K|[E0 E1]].
  - rewrite (lw_copies_of p i v _ _ Sp (ljrow_pk p _ _ _ _) (Jl_spec p K)).
    rewrite (lw_copies_of p i v _ _ Sp (rjrow_pk p _ _ _ _) (Jr_spec p K)).
    destruct (guard_at p K) as [C1 [C2 [C3 _]]].
    replace (jpos i (get p L0) (right_of R0 (get p L0))) with (jpos i (get p L0) (get (gid_of p) R0)).
    replace (jpos i (get p L) (right_of R (get p L))) with (jpos i (get p L) (get (gid_of p) R)).
    + destruct (join_moves p i _ _ _ _ K C2 C3) as [s [A B]]. exact (moves_then _ _ _ _ _ _ A B v).
    + unfold gid_of. destruct (get p L); reflexivity.
    + unfold gid_of. destruct (get p L0) as [a|] eqn:E0; [|reflexivity].
      destruct (get p L) as [b|] eqn:E1; simpl; [rewrite (C1 a b)|]; auto.
  - (* a left key unknown to both maps: nothing is written *)
    assert (A : for_pk p JL = []).
    { rewrite for_pk_JL.
      destruct (i_keys _ _ _ IL p) as [_ Lv _ | n r _ _ _ _ _ _ O | r _ _ _ _ O0 _];
        [rewrite Lv; auto|congruence|congruence]. }
    assert (B : for_pk p JR = []).
    { destruct (for_pk p JR) as [|jr tl] eqn:X; auto. exfalso.
      assert (H : In jr (for_pk p JR)) by (rewrite X; left; auto).
      apply JR_mem in H. destruct H as [[K|K] _]; congruence. }
    rewrite A, B, E0, E1. reflexivity.
Qed.
End Key.

Record jinv (st : jstate) (L0 R0 L R : tbl) : Prop := mkJI {
  ji_l : inv (lst st) L0 L;
  ji_r : inv (rst st) R0 R;
  ji_kv : jkv st = jenc L0 R0;
  ji_rows : jrows st = [];
  ji_pl0 : pks_ok L0;
  ji_pl : pks_ok L;
  ji_pr0 : pks_ok R0;
  ji_pr : pks_ok R }.

Lemma jinv_init : jinv jinit [] [] [] [].
Proof.
  constructor; simpl; auto; try apply inv_init; intros p d H; discriminate.
Qed.

Lemma j_save_correct st L0 R0 L R :
  jinv st L0 R0 L R -> save_safe all_clauses L0 R0 L R = true ->
  exists st', j_save st = (EOk, st') /\ jinv st' L R L R.
Proof.
  intros [IL IR KV RW PL0 PL PR0 PR] G.
  destruct (save_step _ _ _ IL) as [SL IL']. destruct (save_step _ _ _ IR) as [SR IR'].
  unfold j_save. rewrite RW.
  rewrite (save_each_flat (save_left (rst st))) by (apply (save_left_ok st L0 R0 L R IL IR G)).
  rewrite (save_each_flat (save_right (lst st)))
    by (apply (save_right_ok st L0 R0 L R IL IR PL0 PR0 PR)).
  cbn [app]. fold (hL st) (hR st) (JL st) (JR st).
  pose proof (J_rows st L0 R0 L R IL IR PL0 PL PR0 PR G) as JW.
  rewrite j_save_rows_flat by (apply Forall_forall; intros; apply JW; auto).
  rewrite SL, SR. eexists. split; [reflexivity|].
  constructor; cbn [lst rst jkv jrows]; auto. rewrite KV.
  apply (fold_apply_owned jowned); try apply jenc_sorted.
  - intros w Iw. apply in_flat_map in Iw. destruct Iw as [jr [Ij Iw]].
    destruct (jwr_owned _ _ Iw) as [i [v E]]. exists i, v, (j_pk jr). split; auto. apply JW; auto.
  - intros k x. apply jenc_key_owned; auto; apply IL.
  - intros k x. apply jenc_key_owned; auto; apply IL.
  - intros k [i [v [p [-> Sp]]]]. rewrite !get_jenc; auto; try apply IL.
    apply (key_saved st L0 R0 L R IL IR PL0 PL PR0 PR G p i v Sp).
Qed.

Lemma pks_ok_step m o :
  sorted m -> pks_ok m -> op_rows_ok o = true -> pks_ok (snd (s_step m o)).
Proof.
  intros S OK RO p x H. destruct (s_step_get _ _ _ _ S H) as [H'|[-> E]]; [eapply OK; eauto|].
  assert (JR : jrow_ok x = true) by (destruct o; inversion E; subst; exact RO).
  unfold jrow_ok in JR. apply andb_true_iff in JR. destruct JR as [JR _].
  apply andb_true_iff in JR. tauto.
Qed.

Lemma table_step s m0 m o :
  inv s m0 m -> pks_ok m -> op_safe m0 m o && negb (is_save o) && op_rows_ok o = true ->
  exists s', step s o = (fst (s_step m o), s') /\ inv s' m0 (snd (s_step m o)) /\
             pks_ok (snd (s_step m o)).
Proof.
  intros I P G. apply andb_true_iff in G. destruct G as [G RO].
  apply andb_true_iff in G. destruct G as [G NS]. apply negb_true_iff in NS.
  destruct (step_ok _ _ _ _ I G) as [s' [E I']]. rewrite NS in I'. exists s'. split; [|split]; auto.
  apply pks_ok_step; auto. apply I.
Qed.

Definition jstep_refines (st : jstate) (L0 R0 L R : tbl) (o : jop) : Prop :=
  exists st', jstep st o = (fst (js_step L R o), st') /\
    let LR := snd (js_step L R o) in
    if is_jsave o then jinv st' (fst LR) (snd LR) (fst LR) (snd LR)
    else jinv st' L0 R0 (fst LR) (snd LR).

Lemma jstep_ok st L0 R0 L R o :
  jinv st L0 R0 L R -> jop_safe all_clauses L0 R0 L R o = true -> jstep_refines st L0 R0 L R o.
Proof.
  intros J G. unfold jstep_refines. destruct o as [o|o|]; simpl in G.
  - destruct (table_step _ _ _ _ (ji_l _ _ _ _ _ J) (ji_pl _ _ _ _ _ J) G) as [s' [E [I' P']]].
    simpl. rewrite E. destruct (s_step L o) as [e L1]. eexists. split; [reflexivity|].
    constructor; simpl; auto; apply J.
  - destruct (table_step _ _ _ _ (ji_r _ _ _ _ _ J) (ji_pr _ _ _ _ _ J) G) as [s' [E [I' P']]].
    simpl. rewrite E. destruct (s_step R o) as [e R1]. eexists. split; [reflexivity|].
    constructor; simpl; auto; apply J.
  - destruct (j_save_correct st L0 R0 L R J G) as [st' [E J']]. simpl. rewrite E. eauto.
Qed.

Lemma jrun_refines a : forall b st L0 R0 L R,
  jinv st L0 R0 L R -> jsafe_from all_clauses L0 R0 L R (a ++ b) = true ->
  fst (jrun st a) = fst (js_run L R a) /\
  exists L0' R0',
    jinv (snd (jrun st a)) L0' R0' (fst (snd (js_run L R a))) (snd (snd (js_run L R a))) /\
    jsafe_from all_clauses L0' R0' (fst (snd (js_run L R a))) (snd (snd (js_run L R a))) b = true.
Proof.
  induction a as [|o tl IH]; intros b st L0 R0 L R J G.
  - simpl. split; auto. exists L0, R0. auto.
  - cbn [app jsafe_from] in G. apply andb_true_iff in G. destruct G as [G1 G2].
    destruct (jstep_ok _ _ _ _ _ _ J G1) as [st1 [E J1]].
    cbn [jrun js_run]. rewrite E.
    destruct (js_step L R o) as [e [L1 R1]] eqn:SS. cbn [fst snd] in *.
    destruct (is_jsave o); destruct (IH b st1 _ _ L1 R1 J1 G2) as [A B];
      destruct (jrun st1 tl) as [es st2]; destruct (js_run L1 R1 tl) as [es' LR2]; cbn [fst snd] in *;
      (split; [congruence|auto]).
Qed.

Lemma jrun_app st a b :
  jrun st (a ++ b) =
  (fst (jrun st a) ++ fst (jrun (snd (jrun st a)) b), snd (jrun (snd (jrun st a)) b)).
Proof.
  revert st; induction a as [|o a IH]; intro st; simpl.
  - destruct (jrun st b); auto.
  - destruct (jstep st o) as [e st1]. rewrite IH. destruct (jrun st1 a) as [es' st3]. auto.
Qed.

Lemma js_run_app_fst L R a b :
  fst (js_run L R (a ++ b)) =
  fst (js_run L R a) ++ fst (js_run (fst (snd (js_run L R a))) (snd (snd (js_run L R a))) b).
Proof.
  revert L R; induction a as [|o a IH]; intros L R; simpl.
  - destruct (js_run L R b) as [es [L2 R2]]; auto.
  - destruct (js_step L R o) as [e [L1 R1]]. specialize (IH L1 R1).
    destruct (js_run L1 R1 (a ++ b)) as [es x]. destruct (js_run L1 R1 a) as [es' [L3 R3]]. simpl in *. congruence.
Qed.

Lemma jsafe_from_app c a : forall L0 R0 L R b,
  jsafe_from c L0 R0 L R (a ++ b) = true -> jsafe_from c L0 R0 L R a = true.
Proof.
  induction a as [|o a IH]; intros L0 R0 L R b H; simpl in *; auto.
  apply andb_true_iff in H. destruct H as [H1 H2]. rewrite H1. simpl.
  destruct (snd (js_step L R o)) as [L1 R1]. destruct (is_jsave o); eapply IH; eauto.
Qed.

Theorem join_refines_map_partial ops :
  jsafe (ops ++ [JSave]) = true -> jerrs_agree (ops ++ [JSave]) /\ jsaved_agrees ops.
Proof.
  intro G. destruct (jrun_refines ops [JSave] jinit [] [] [] [] jinv_init G) as [A [L0' [R0' [J G2]]]].
  cbn [jsafe_from jop_safe] in G2. apply andb_true_iff in G2. destruct G2 as [Gs _].
  destruct (j_save_correct _ _ _ _ _ J Gs) as [st' [E J']].
  unfold jerrs_agree, jsaved_agrees. rewrite jrun_app, js_run_app_fst. simpl. rewrite E. cbn [fst snd].
  split; [f_equal; exact A|]. split; [|split].
  - apply (i_kv _ _ _ (ji_l _ _ _ _ _ J')).
  - apply (i_kv _ _ _ (ji_r _ _ _ _ _ J')).
  - apply (ji_kv _ _ _ _ _ J').
Qed.

Theorem join_every_save_partial ops1 ops2 :
  jsafe (ops1 ++ JSave :: ops2) = true -> jerrs_agree (ops1 ++ [JSave]) /\ jsaved_agrees ops1.
Proof.
  intro G. apply join_refines_map_partial. unfold jsafe, jsafe_with in *.
  apply (jsafe_from_app _ (ops1 ++ [JSave]) _ _ _ _ ops2). rewrite <- app_assoc. exact G.
Qed.
