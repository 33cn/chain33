(** Ordered maps with byte-string keys: association lists strictly sorted by
    [bcmp].  The spec of every key/value backend and the state of higher
    models.  Stdlib only, axiom-free.  [V] is implicit everywhere. *)
From Coq Require Import List NArith Bool Lia.
From C33 Require Import Lib.Bytes.
Import ListNotations.

Definition omap (V : Type) : Type := list (list N * V).

Section OMap.
Context {V : Type}.
Notation key := (list N).
Notation omap := (list (key * V)).

(** [lb_all k m]: [k] is strictly below every key of [m]. *)
Definition lb_all (k : key) (m : omap) : Prop :=
  Forall (fun e => bcmp k (fst e) = Lt) m.

Fixpoint sorted (m : omap) : Prop :=
  match m with
  | [] => True
  | e :: tl => lb_all (fst e) tl /\ sorted tl
  end.

(** Boolean version (adjacent keys strictly increasing). *)
Fixpoint sortedb (m : omap) : bool :=
  match m with
  | [] => true
  | e :: tl =>
      match tl with
      | [] => true
      | e' :: _ => bltb (fst e) (fst e') && sortedb tl
      end
  end.

Definition empty : omap := [].
Definition elements (m : omap) : list (key * V) := m.
Definition keys (m : omap) : list key := map fst m.

Fixpoint get (k : key) (m : omap) : option V :=
  match m with
  | [] => None
  | (k', v) :: tl => if beqb k k' then Some v else get k tl
  end.

Definition mem (k : key) (m : omap) : bool :=
  match get k m with Some _ => true | None => false end.

Fixpoint put (k : key) (v : V) (m : omap) : omap :=
  match m with
  | [] => [(k, v)]
  | (k', v') :: tl =>
      match bcmp k k' with
      | Eq => (k, v) :: tl
      | Lt => (k, v) :: (k', v') :: tl
      | Gt => (k', v') :: put k v tl
      end
  end.

Fixpoint del (k : key) (m : omap) : omap :=
  match m with
  | [] => []
  | (k', v') :: tl =>
      match bcmp k k' with
      | Eq => tl
      | Lt => (k', v') :: tl
      | Gt => (k', v') :: del k tl
      end
  end.

Definition of_list (l : list (key * V)) : omap :=
  fold_left (fun m e => put (fst e) (snd e) m) l [].

Definition filter_keys (f : key -> bool) (m : omap) : omap :=
  filter (fun e => f (fst e)) m.

(** [lo <= k < hi]; [None] = unbounded on that side. *)
Definition in_range (lo hi : option key) (k : key) : bool :=
  (match lo with None => true | Some l => bleb l k end) &&
  (match hi with None => true | Some h => bltb k h end).

Definition range_filter (lo hi : option key) (m : omap) : omap :=
  filter_keys (in_range lo hi) m.

Definition first (m : omap) : option (key * V) := hd_error m.

Fixpoint last (m : omap) : option (key * V) :=
  match m with
  | [] => None
  | [e] => Some e
  | _ :: tl => last tl
  end.

(** first entry with key >= k / > k; last entry with key <= k / < k *)
Definition seek_ge (k : key) (m : omap) : option (key * V) := first (filter_keys (fun k' => bleb k k') m).
Definition seek_gt (k : key) (m : omap) : option (key * V) := first (filter_keys (fun k' => bltb k k') m).
Definition seek_le (k : key) (m : omap) : option (key * V) := last (filter_keys (fun k' => bleb k' k) m).
Definition seek_lt (k : key) (m : omap) : option (key * V) := last (filter_keys (fun k' => bltb k' k) m).
Definition last_le := seek_le.

(** * sortedness *)
Lemma lb_all_In k m e : lb_all k m -> In e m -> bcmp k (fst e) = Lt.
Proof. unfold lb_all. rewrite Forall_forall. auto. Qed.

Lemma lb_all_trans k k' m : bcmp k k' = Lt -> lb_all k' m -> lb_all k m.
Proof.
  unfold lb_all. rewrite !Forall_forall. intros H F e He.
  eapply bcmp_lt_trans; eauto.
Qed.

Lemma lb_all_le_trans k k' m : bcmp k k' <> Gt -> lb_all k' m -> lb_all k m.
Proof.
  unfold lb_all. rewrite !Forall_forall. intros H F e He.
  eapply bcmp_le_lt_trans; eauto.
Qed.

Lemma sorted_cons e m : sorted (e :: m) <-> lb_all (fst e) m /\ sorted m.
Proof. reflexivity. Qed.

Lemma sorted_tail e m : sorted (e :: m) -> sorted m.
Proof. intros [_ H]. exact H. Qed.

Lemma sortedb_iff m : sortedb m = true <-> sorted m.
Proof.
  induction m as [|e tl IH]; [simpl; tauto|].
  destruct tl as [|e' tl'].
  - simpl. split; auto. intros _. split; [constructor|exact I].
  - change (sortedb (e :: e' :: tl')) with (bltb (fst e) (fst e') && sortedb (e' :: tl')).
    rewrite andb_true_iff, IH, bltb_lt. rewrite (sorted_cons e).
    split.
    + intros [H1 H2]. split; [|exact H2]. constructor; [exact H1|].
      destruct H2 as [H2 _]. eapply lb_all_trans; eauto.
    + intros [H1 H2]. split; [|exact H2]. inversion H1; auto.
Qed.

Lemma sorted_filter (f : key * V -> bool) m : sorted m -> sorted (filter f m).
Proof.
  induction m as [|e tl IH]; [auto|]. intros [H1 H2]. simpl.
  destruct (f e); [|auto]. split; [|auto].
  unfold lb_all in *. rewrite Forall_forall in *. intros x Hx.
  apply filter_In in Hx as [Hx _]. auto.
Qed.

Lemma sorted_app a b :
  sorted (a ++ b) <->
  sorted a /\ sorted b /\ (forall x y, In x a -> In y b -> bcmp (fst x) (fst y) = Lt).
Proof.
  induction a as [|e a IH]; simpl.
  - split; [intro H; repeat split; auto; intros x y []| tauto].
  - unfold lb_all. rewrite Forall_app, IH, !Forall_forall. split.
    + intros [[H1 H2] [H3 [H4 H5]]]. repeat split; auto.
      intros x y [<-|Hx] Hy; auto.
    + intros [[H1 H2] [H3 H4]]. repeat split; auto.
Qed.

Lemma sorted_NoDup_keys m : sorted m -> NoDup (keys m).
Proof.
  induction m as [|e tl IH]; simpl; [constructor|]. intros [H1 H2].
  constructor; [|auto]. intro Hin. apply in_map_iff in Hin as [e' [E He']].
  pose proof (lb_all_In _ _ _ H1 He') as L. rewrite E, bcmp_refl in L. discriminate.
Qed.

Lemma sorted_NoDup m : sorted m -> NoDup m.
Proof. intro H. apply sorted_NoDup_keys in H. eapply NoDup_map_inv; eauto. Qed.

(** * get *)
Lemma get_lb_none k m : lb_all k m -> get k m = None.
Proof.
  induction m as [|[k' v] tl IH]; [reflexivity|]. intro H. inversion H; subst. simpl in *.
  unfold beqb. rewrite H2. auto.
Qed.

Lemma get_In k v m : sorted m -> (get k m = Some v <-> In (k, v) m).
Proof.
  induction m as [|[k' v'] tl IH]; simpl; [split; [discriminate|tauto]|].
  intros [H1 H2]. simpl in H1. destruct (beqb k k') eqn:E.
  - apply beqb_eq in E. subst k'. split.
    + intro H. inversion H. auto.
    + intros [H|H]; [inversion H; auto|].
      pose proof (lb_all_In _ _ _ H1 H) as L. simpl in L. rewrite bcmp_refl in L. discriminate.
  - rewrite (IH H2). split; [auto|]. intros [H|H]; [|exact H].
    inversion H; subst. rewrite beqb_refl in E. discriminate.
Qed.

Lemma get_Some_In k v m : get k m = Some v -> In (k, v) m.
Proof.
  induction m as [|[k' v'] tl IH]; simpl; [discriminate|].
  destruct (beqb k k') eqn:E; [|auto].
  apply beqb_eq in E. subst. intro H. inversion H. auto.
Qed.

Lemma get_None_notin k m : get k m = None <-> ~ In k (keys m).
Proof.
  induction m as [|[k' v'] tl IH]; simpl; [tauto|].
  destruct (beqb k k') eqn:E.
  - apply beqb_eq in E. subst. split; [discriminate|]. intro H. exfalso. auto.
  - apply beqb_neq in E. rewrite IH. split; [intros H [H1|H1]; auto | tauto].
Qed.

Lemma mem_In k m : mem k m = true <-> In k (keys m).
Proof.
  unfold mem. destruct (get k m) eqn:E.
  - split; auto. intros _. apply get_Some_In in E. apply in_map_iff. exists (k, v). auto.
  - apply get_None_notin in E. split; [discriminate|tauto].
Qed.

(** * put *)
Lemma In_put e k v m : In e (put k v m) -> e = (k, v) \/ In e m.
Proof.
  induction m as [|[k' v'] tl IH]; simpl; [intuition auto|].
  destruct (bcmp k k'); simpl; intuition auto.
Qed.

Lemma lb_all_put x k v m : bcmp x k = Lt -> lb_all x m -> lb_all x (put k v m).
Proof.
  unfold lb_all. rewrite !Forall_forall. intros H F e He.
  apply In_put in He as [->|He]; auto.
Qed.

Lemma put_sorted k v m : sorted m -> sorted (put k v m).
Proof.
  induction m as [|[k' v'] tl IH]; simpl; [intros _; split; [constructor|exact I]|].
  intros [H1 H2]. simpl in H1. destruct (bcmp k k') eqn:E; simpl.
  - apply bcmp_eq in E. subst. auto.
  - split; [|auto]. constructor; [exact E|]. eapply lb_all_trans; eauto.
  - split; [|auto]. apply lb_all_put; [|exact H1]. apply bcmp_gt_lt. exact E.
Qed.

Lemma get_put_same k v m : get k (put k v m) = Some v.
Proof.
  induction m as [|[k' v'] tl IH]; simpl; [rewrite beqb_refl; reflexivity|].
  destruct (bcmp k k') eqn:E; simpl; try (rewrite beqb_refl; reflexivity).
  unfold beqb at 1. rewrite E. exact IH.
Qed.

Lemma get_put_other k k2 v m : k2 <> k -> get k2 (put k v m) = get k2 m.
Proof.
  intro N. apply beqb_neq in N.
  induction m as [|[k' v'] tl IH]; simpl; [rewrite N; reflexivity|].
  destruct (bcmp k k') eqn:E; simpl.
  - apply bcmp_eq in E. subst. rewrite N. reflexivity.
  - rewrite N. reflexivity.
  - rewrite IH. reflexivity.
Qed.

Lemma get_put k k2 v m : get k2 (put k v m) = if beqb k2 k then Some v else get k2 m.
Proof.
  destruct (beqb k2 k) eqn:E.
  - apply beqb_eq in E. subst. apply get_put_same.
  - apply beqb_neq in E. apply get_put_other. exact E.
Qed.

(** * del *)
Lemma In_del e k m : In e (del k m) -> In e m.
Proof.
  induction m as [|[k' v'] tl IH]; simpl; [tauto|].
  destruct (bcmp k k'); simpl; intuition.
Qed.

Lemma del_sorted k m : sorted m -> sorted (del k m).
Proof.
  induction m as [|[k' v'] tl IH]; simpl; [auto|].
  intros [H1 H2]. simpl in H1. destruct (bcmp k k') eqn:E; simpl; auto.
  split; [|auto]. unfold lb_all in *. rewrite Forall_forall in *.
  intros e He. apply In_del in He. auto.
Qed.

Lemma get_del_same k m : sorted m -> get k (del k m) = None.
Proof.
  induction m as [|[k' v'] tl IH]; simpl; [auto|].
  intros [H1 H2]. simpl in H1. destruct (bcmp k k') eqn:E; simpl.
  - apply bcmp_eq in E. subst. apply get_lb_none. exact H1.
  - unfold beqb at 1. rewrite E. apply get_lb_none. eapply lb_all_trans; eauto.
  - unfold beqb at 1. rewrite E. auto.
Qed.

Lemma get_del_other k k2 m : k2 <> k -> get k2 (del k m) = get k2 m.
Proof.
  intro N. apply beqb_neq in N.
  induction m as [|[k' v'] tl IH]; simpl; [reflexivity|].
  destruct (bcmp k k') eqn:E; simpl; auto.
  - apply bcmp_eq in E. subst. rewrite N. reflexivity.
  - rewrite IH. reflexivity.
Qed.

Lemma get_del k k2 m : sorted m -> get k2 (del k m) = if beqb k2 k then None else get k2 m.
Proof.
  intro S. destruct (beqb k2 k) eqn:E.
  - apply beqb_eq in E. subst. apply get_del_same. exact S.
  - apply beqb_neq in E. apply get_del_other. exact E.
Qed.

Lemma of_list_sorted l : sorted (of_list l).
Proof.
  unfold of_list. assert (G : forall m, sorted m ->
    sorted (fold_left (fun m e => put (fst e) (snd e) m) l m)).
  { induction l as [|e l IH]; simpl; auto. intros m S. apply IH, put_sorted, S. }
  apply G. exact I.
Qed.

(** * extensionality *)
Lemma sorted_ext m1 m2 :
  sorted m1 -> sorted m2 -> (forall k, get k m1 = get k m2) -> m1 = m2.
Proof.
  revert m2; induction m1 as [|[k1 v1] t1 IH]; intros [|[k2 v2] t2] S1 S2 H; auto.
  - specialize (H k2). simpl in H. rewrite beqb_refl in H. discriminate.
  - specialize (H k1). simpl in H. rewrite beqb_refl in H. discriminate.
  - destruct S1 as [L1 S1], S2 as [L2 S2]. simpl in L1, L2.
    destruct (bcmp k1 k2) eqn:E.
    + apply bcmp_eq in E. subst k2.
      pose proof (H k1) as Hk. simpl in Hk. rewrite beqb_refl in Hk. inversion Hk; subst v2.
      f_equal. apply IH; auto. intro k. destruct (beqb k k1) eqn:Ek.
      * apply beqb_eq in Ek. subst. rewrite !get_lb_none; auto.
      * specialize (H k). simpl in H. rewrite Ek in H. exact H.
    + exfalso. specialize (H k1). simpl in H. rewrite beqb_refl in H.
      unfold beqb in H. rewrite E in H.
      rewrite get_lb_none in H; [discriminate|]. eapply lb_all_trans; eauto.
    + exfalso. apply bcmp_gt_lt in E. specialize (H k2). simpl in H. rewrite beqb_refl in H.
      unfold beqb in H. rewrite E in H.
      rewrite get_lb_none in H; [discriminate|]. eapply lb_all_trans; eauto.
Qed.

Lemma sorted_ext_In m1 m2 :
  sorted m1 -> sorted m2 -> (forall e, In e m1 <-> In e m2) -> m1 = m2.
Proof.
  intros S1 S2 H. apply sorted_ext; auto. intro k.
  destruct (get k m1) as [v|] eqn:E1.
  - apply (get_In k v m1 S1), H, (get_In k v m2 S2) in E1. auto.
  - destruct (get k m2) as [v|] eqn:E2; [|reflexivity].
    apply (get_In k v m2 S2), H, (get_In k v m1 S1) in E2. congruence.
Qed.

(** * first / last / seek *)
Lemma first_In m e : first m = Some e -> In e m.
Proof. destruct m; simpl; [discriminate|]. intro H. inversion H. auto. Qed.

Lemma first_least m e : sorted m -> first m = Some e ->
  forall e', In e' m -> bleb (fst e) (fst e') = true.
Proof.
  destruct m as [|e0 tl]; simpl; [discriminate|]. intros [H1 _] H. inversion H; subst.
  intros e' [<-|Hin]; [apply bleb_refl|].
  apply bltb_bleb, bltb_lt. eapply lb_all_In; eauto.
Qed.

Lemma first_None m : first m = None <-> m = [].
Proof. destruct m; simpl; split; congruence. Qed.

Lemma last_app_one m e : last (m ++ [e]) = Some e.
Proof.
  induction m as [|x m IH]; [reflexivity|]. simpl app.
  destruct (m ++ [e]) eqn:E; [destruct m; discriminate|]. exact IH.
Qed.

Lemma last_cons x y m : last (x :: y :: m) = last (y :: m).
Proof. reflexivity. Qed.

Lemma last_In m e : last m = Some e -> In e m.
Proof.
  induction m as [|x m IH]; [discriminate|]. destruct m as [|y m].
  - simpl. intro H. inversion H. auto.
  - rewrite last_cons. intro H. right. auto.
Qed.

Lemma last_None m : last m = None <-> m = [].
Proof.
  induction m as [|x m IH]; [tauto|]. destruct m as [|y m].
  - simpl. split; discriminate.
  - rewrite last_cons, IH. split; discriminate.
Qed.

Lemma last_greatest m e : sorted m -> last m = Some e ->
  forall e', In e' m -> bleb (fst e') (fst e) = true.
Proof.
  induction m as [|x m IH]; [discriminate|]. destruct m as [|y m].
  - simpl. intros _ H. inversion H; subst. intros e' [<-|[]]. apply bleb_refl.
  - rewrite last_cons. intros [H1 H2] H e' [<-|Hin]; [|auto].
    apply bltb_bleb, bltb_lt. eapply lb_all_In; [exact H1|]. apply last_In. exact H.
Qed.

Lemma last_rev m : last m = hd_error (rev m).
Proof.
  destruct (rev m) as [|e r] eqn:E.
  - apply (f_equal (@rev _)) in E. rewrite rev_involutive in E. subst. reflexivity.
  - apply (f_equal (@rev _)) in E. rewrite rev_involutive in E. subst. simpl.
    apply last_app_one.
Qed.

Lemma filter_keys_In f m e : In e (filter_keys f m) <-> In e m /\ f (fst e) = true.
Proof. unfold filter_keys. apply filter_In. Qed.

Lemma filter_keys_sorted f m : sorted m -> sorted (filter_keys f m).
Proof. apply sorted_filter. Qed.

Lemma range_filter_In lo hi m e :
  In e (range_filter lo hi m) <-> In e m /\ in_range lo hi (fst e) = true.
Proof. apply filter_keys_In. Qed.

Lemma range_filter_sorted lo hi m : sorted m -> sorted (range_filter lo hi m).
Proof. apply filter_keys_sorted. Qed.

(** All four seeks are the first or the last entry of a key filter. *)
Lemma first_filter_spec f m e : sorted m -> first (filter_keys f m) = Some e ->
  In e m /\ f (fst e) = true /\
  (forall e', In e' m -> f (fst e') = true -> bleb (fst e) (fst e') = true).
Proof.
  intros S H.
  pose proof (first_In _ _ H) as Hin. apply filter_keys_In in Hin as [Hin Hf].
  repeat split; auto. intros e' Hin' Hf'.
  eapply first_least; [apply filter_keys_sorted; exact S | exact H |].
  apply filter_keys_In. auto.
Qed.

Lemma last_filter_spec f m e : sorted m -> last (filter_keys f m) = Some e ->
  In e m /\ f (fst e) = true /\
  (forall e', In e' m -> f (fst e') = true -> bleb (fst e') (fst e) = true).
Proof.
  intros S H.
  pose proof (last_In _ _ H) as Hin. apply filter_keys_In in Hin as [Hin Hf].
  repeat split; auto. intros e' Hin' Hf'.
  eapply last_greatest; [apply filter_keys_sorted; exact S | exact H |].
  apply filter_keys_In. auto.
Qed.

Lemma filter_keys_nil f m : filter_keys f m = [] -> forall e, In e m -> f (fst e) = false.
Proof.
  intros H e Hin. destruct (f (fst e)) eqn:E; [|reflexivity].
  assert (Hf : In e (filter_keys f m)) by (apply filter_keys_In; auto).
  rewrite H in Hf. destruct Hf.
Qed.

(** [seek_ge] returns the least key >= k *)
Lemma seek_ge_spec k m e : sorted m -> seek_ge k m = Some e ->
  In e m /\ bleb k (fst e) = true /\
  (forall e', In e' m -> bleb k (fst e') = true -> bleb (fst e) (fst e') = true).
Proof. apply first_filter_spec. Qed.

Lemma seek_ge_none k m : seek_ge k m = None ->
  forall e, In e m -> bltb (fst e) k = true.
Proof.
  unfold seek_ge. rewrite first_None. intros H e Hin.
  rewrite bltb_nbleb, (filter_keys_nil _ _ H e Hin). reflexivity.
Qed.

Lemma seek_gt_spec k m e : sorted m -> seek_gt k m = Some e ->
  In e m /\ bltb k (fst e) = true /\
  (forall e', In e' m -> bltb k (fst e') = true -> bleb (fst e) (fst e') = true).
Proof. apply first_filter_spec. Qed.

Lemma seek_gt_none k m : seek_gt k m = None ->
  forall e, In e m -> bleb (fst e) k = true.
Proof.
  unfold seek_gt. rewrite first_None. intros H e Hin.
  rewrite bleb_nbltb, (filter_keys_nil _ _ H e Hin). reflexivity.
Qed.

(** [seek_le] returns the greatest key <= k *)
Lemma seek_le_spec k m e : sorted m -> seek_le k m = Some e ->
  In e m /\ bleb (fst e) k = true /\
  (forall e', In e' m -> bleb (fst e') k = true -> bleb (fst e') (fst e) = true).
Proof. apply (last_filter_spec (fun k' => bleb k' k)). Qed.

Lemma seek_le_none k m : seek_le k m = None ->
  forall e, In e m -> bltb k (fst e) = true.
Proof.
  unfold seek_le. rewrite last_None. intros H e Hin.
  rewrite bltb_nbleb, (filter_keys_nil _ _ H e Hin). reflexivity.
Qed.

Lemma seek_lt_spec k m e : sorted m -> seek_lt k m = Some e ->
  In e m /\ bltb (fst e) k = true /\
  (forall e', In e' m -> bltb (fst e') k = true -> bleb (fst e') (fst e) = true).
Proof. apply (last_filter_spec (fun k' => bltb k' k)). Qed.

Lemma seek_lt_none k m : seek_lt k m = None ->
  forall e, In e m -> bleb k (fst e) = true.
Proof.
  unfold seek_lt. rewrite last_None. intros H e Hin.
  rewrite bleb_nbltb, (filter_keys_nil _ _ H e Hin). reflexivity.
Qed.

End OMap.

Arguments empty {V}.
