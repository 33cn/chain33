(** Shared glue for the correspondence check (no proofs needed by it).

    A property's [Check.v] defines a type [case] (one input or operation
    history together with the observables the Go implementation returned on
    it) and a function [check_case : case -> verdict].  The harness writes a
    file of cases; one [vm_compute] evaluates [bad_cases] over it and the
    Python driver parses the printed list. *)
From Coq Require Import List NArith ZArith String Ascii Bool.
Import ListNotations.

(** verdict = (impl agrees with model, impl satisfies spec, known-finding code).
    The code is [0] unless the first impl/spec divergence of the case matches
    the narrow signature of a finding listed in KNOWN_FINDINGS.json (field
    "code"); it is only looked at when the spec flag is [false]. *)
Definition verdict : Type := (bool * bool * N)%type.

Definition ok_verdict : verdict := (true, true, 0%N).
Definition mk_verdict (m s : bool) : verdict := (m, s, 0%N).

Definition verdict_ok (v : verdict) : bool :=
  match v with (m, s, _) => andb m s end.

Fixpoint bad_cases {A : Type} (chk : A -> verdict) (cs : list (N * A))
  : list (N * verdict) :=
  match cs with
  | [] => []
  | (i, c) :: tl =>
      let v := chk c in
      if verdict_ok v then bad_cases chk tl else (i, v) :: bad_cases chk tl
  end.

(** Hex strings to byte lists ([list N], every element < 256). *)
Definition hexval (c : ascii) : N :=
  let n := N_of_ascii c in
  if (48 <=? n)%N && (n <=? 57)%N then n - 48
  else if (97 <=? n)%N && (n <=? 102)%N then n - 87
  else if (65 <=? n)%N && (n <=? 70)%N then n - 55
  else 0.

Fixpoint hx (s : string) : list N :=
  match s with
  | String a (String b tl) => (16 * hexval a + hexval b)%N :: hx tl
  | _ => []
  end.

(** Big integers from hex strings (decimal number notations of several hundred
    digits are interpreted very slowly by Coq; strings are not). *)
Fixpoint zx_aux (s : string) (acc : N) : N :=
  match s with
  | EmptyString => acc
  | String a tl => zx_aux tl (16 * acc + hexval a)%N
  end.
Definition nx (s : string) : N := zx_aux s 0%N.
Definition zx (s : string) : Z := Z.of_N (nx s).
Definition zxn (s : string) : Z := Z.opp (Z.of_N (nx s)).

(** ASCII text to byte list. *)
Fixpoint bs (s : string) : list N :=
  match s with
  | EmptyString => []
  | String a tl => N_of_ascii a :: bs tl
  end.

Fixpoint list_eqb {A} (eqb : A -> A -> bool) (a b : list A) : bool :=
  match a, b with
  | [], [] => true
  | x :: a', y :: b' => eqb x y && list_eqb eqb a' b'
  | _, _ => false
  end.

Definition bytes_eqb : list N -> list N -> bool := list_eqb N.eqb.

Definition option_eqb {A} (eqb : A -> A -> bool) (a b : option A) : bool :=
  match a, b with
  | None, None => true
  | Some x, Some y => eqb x y
  | _, _ => false
  end.

Lemma list_eqb_spec {A} (eqb : A -> A -> bool) :
  (forall x y, eqb x y = true <-> x = y) ->
  forall a b, list_eqb eqb a b = true <-> a = b.
Proof.
  intros H a; induction a as [|x a IH]; intros [|y b]; simpl; split; intro E;
    try reflexivity; try discriminate.
  - apply andb_true_iff in E as [E1 E2]. apply H in E1. apply IH in E2. congruence.
  - inversion E; subst. apply andb_true_iff. split; [apply H|apply IH]; reflexivity.
Qed.

Lemma bytes_eqb_eq a b : bytes_eqb a b = true <-> a = b.
Proof. apply list_eqb_spec. intros x y. apply N.eqb_eq. Qed.

Lemma bytes_eqb_refl a : bytes_eqb a a = true.
Proof. apply bytes_eqb_eq. reflexivity. Qed.

Lemma bytes_eqb_neq a b : bytes_eqb a b = false <-> a <> b.
Proof. rewrite <- bytes_eqb_eq. destruct (bytes_eqb a b); split; congruence. Qed.

