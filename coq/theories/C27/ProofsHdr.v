(** C27 — headers with an empty field (the complete ProcessBlock, [vdeliver0])
    and the signature stage of util.PreExecBlock against the receiver's
    mempool ([sig_stage], [verr_at]). *)
From Coq Require Import List ZArith NArith Bool Lia.
From C33 Require Import C27.Model C27.Proofs C27.Proofs2.
Import ListNotations.
Open Scope Z_scope.

Definition C27_no_panic_full : Prop :=
  forall (verr : N -> N -> N) (fin : Z) (s : vstate) (i : item),
    snd (snd (vdeliver0 verr fin s i)) <> VPanic.

(** witness (finding 5): the node holds the genesis block 0 and block 1; a
    block of height 2 with an empty ParentHash arrives *)
Definition hp_root : block := mkB 0 zero_par 0 1.
Definition hp_hist : list item := [mkI (mkB 1 0 1 1) 0 PBcast].
Definition hp_item : item := mkI (mkB 2 empty_par 2 1) 0 PBcast.

Lemma fold_left_ext_in : forall (A B : Type) (f f' : A -> B -> A) (l : list B),
  (forall a b, In b l -> f a b = f' a b) -> forall a, fold_left f l a = fold_left f' l a.
Proof.
  intros A B f f' l. induction l as [|b l IH]; intros H a; simpl; [reflexivity|].
  rewrite (H a b (or_introl eq_refl)). apply IH. intros a' b' Hb. apply H. right. exact Hb.
Qed.

(** the guard: the ParentHash is not empty *)
Definition names_parent (i : item) : bool := negb (N.eqb (bpar (iblk i)) empty_par).

Section Hdr.
Variable verr : N -> N -> N.

Lemma no_panic_partial : forall fin s i,
  names_parent i = true -> snd (snd (vdeliver0 verr fin s i)) <> VPanic.
Proof.
  intros fin s i Hn. unfold names_parent in Hn. apply negb_true_iff in Hn.
  unfold vdeliver0. rewrite Hn. cbn [andb].
  destruct (in_vidx _ _); [simpl; discriminate|].
  destruct (N.eqb (bpar (iblk i)) zero_par).
  - destruct (bht (iblk i) =? 0); simpl; discriminate.
  - destruct (bht (iblk i) =? 0).
    + destruct (_ && _); simpl; discriminate.
    + apply no_panic.
Qed.

Lemma vdeliver0_plain : forall fin s i,
  plain_hdr i = true -> vdeliver0 verr fin s i = vdeliver verr fin s i.
Proof.
  intros fin s i Hp. unfold plain_hdr in Hp.
  apply andb_true_iff in Hp as [Hp H0]. apply andb_true_iff in Hp as [He Hz].
  apply negb_true_iff in He, Hz, H0.
  unfold vdeliver0. rewrite He, Hz, H0. cbn [andb].
  destruct (in_vidx (bid (iblk i)) (vidx s)) eqn:E; [|reflexivity].
  unfold vdeliver. rewrite E. reflexivity.
Qed.

Lemma vrun0_plain : forall fin g hist,
  forallb plain_hdr hist = true -> vrun0 verr fin g hist = vrun verr fin g hist.
Proof.
  intros fin g hist H. apply fold_left_ext_in. intros s i Hi.
  rewrite forallb_forall in H. exact (f_equal fst (vdeliver0_plain fin s i (H i Hi))).
Qed.

(** the second hypothesis: no index node has the empty hash, block hashes are
    32 bytes long *)
Lemma odd_header_chain_unchanged : forall fin s i,
  plain_hdr i = false ->
  in_vidx empty_par (vidx s) = false ->
  vmain (vstep0 verr fin s i) = vmain s.
Proof.
  intros fin s i Hp Hne. unfold vstep0, vdeliver0.
  destruct (in_vidx (bid (iblk i)) (vidx s)); [reflexivity|].
  set (s1 := if in_vorph _ _ then _ else s).
  assert (E1 : vmain s1 = vmain s) by (unfold s1; destruct (in_vorph _ _); reflexivity).
  destruct (_ && _ && _); [reflexivity|].
  destruct (N.eqb (bpar (iblk i)) zero_par) eqn:Ez.
  - destruct (bht (iblk i) =? 0); exact E1.
  - destruct (bht (iblk i) =? 0) eqn:E0.
    + destruct (_ && _); [reflexivity | exact E1].
    + (* what is left of [plain_hdr i = false]: the parent is the empty hash *)
      unfold plain_hdr in Hp. rewrite Ez, E0, andb_true_r, andb_true_r in Hp.
      apply negb_false_iff, N.eqb_eq in Hp.
      apply orphan_chain_unchanged. rewrite Hp. exact Hne.
Qed.

End Hdr.

Definition C27_sig_pool_full : Prop :=
  forall (pool : list N) (v : sigview), sig_stage pool v = sig_valid v.

(** the guard: the transactions of the block that the mempool holds carry
    signatures that verify *)
Definition pooled_ok (pool : list N) (v : sigview) : bool :=
  forallb (fun t => snd t || negb (memN (fst t) pool)) (sv_txs v).

Lemma forallb_filter_rest : forall (A : Type) (p q : A -> bool) (l : list A),
  forallb (fun t => q t || p t) l = true -> forallb q (filter p l) = forallb q l.
Proof.
  induction l as [|t l IH]; intros H; [reflexivity|].
  simpl in H. apply andb_true_iff in H as [Ht Hl]. simpl.
  destruct (p t); simpl; rewrite (IH Hl); [reflexivity|].
  rewrite orb_false_r in Ht. rewrite Ht. reflexivity.
Qed.

Lemma sig_pool_partial : forall pool v,
  pooled_ok pool v = true -> sig_stage pool v = sig_valid v.
Proof.
  intros pool v H. unfold sig_stage, sig_valid, unverified.
  rewrite (forallb_filter_rest _ (fun t => negb (memN (fst t) pool)) snd (sv_txs v) H). reflexivity.
Qed.

Lemma block_signature_any_pool : forall pool v,
  sv_bsig v = false -> sig_stage pool v = false.
Proof. intros pool v H. unfold sig_stage. rewrite H. reflexivity. Qed.

Lemma tx_signature_unpooled : forall pool v t,
  In t (sv_txs v) -> snd t = false -> memN (fst t) pool = false -> sig_stage pool v = false.
Proof.
  intros pool v t Hin Hs Hm. unfold sig_stage, unverified.
  destruct (sv_bsig v); [|reflexivity]. cbn [andb].
  destruct (forallb snd _) eqn:E; [|reflexivity].
  rewrite forallb_forall in E. specialize (E t).
  rewrite E in Hs; [discriminate|]. apply filter_In. split; [exact Hin|]. rewrite Hm. reflexivity.
Qed.

Lemma sig_stage_nil : forall v, sig_stage [] v = sig_valid v.
Proof. intros v. apply sig_pool_partial. unfold pooled_ok. apply forallb_forall. intros t _. simpl. apply orb_true_r. Qed.

(** the model is extensional in the oracle *)
Section Ext.
Variables v1 v2 : N -> N -> N.
Hypothesis Hext : forall h b, v1 h b = v2 h b.

Lemma connect_block_ext : forall s h body, connect_block v1 s h body = connect_block v2 s h body.
Proof. intros. unfold connect_block. rewrite Hext. reflexivity. Qed.

Lemma attach_ext : forall p s, attach v1 s p = attach v2 s p.
Proof.
  induction p as [|[h body] tl IH]; intros s; [reflexivity|].
  simpl. rewrite connect_block_ext. destruct (connect_block v2 s h body) as [s' e].
  destruct e; try reflexivity. apply IH.
Qed.

Lemma vconnect_best_ext : forall fin s b td body,
  vconnect_best v1 fin s b td body = vconnect_best v2 fin s b td body.
Proof.
  intros. unfold vconnect_best. rewrite connect_block_ext.
  destruct (N.eqb _ _); [reflexivity|].
  destruct (find_vnode _ _); [|reflexivity].
  destruct (_ || _); [reflexivity|].
  destruct (vbranch _ _ _ _); [reflexivity | reflexivity |].
  destruct (load_all _ _); [|reflexivity]. rewrite attach_ext. reflexivity.
Qed.

Lemma vaccept_ext : forall fin s i, vaccept v1 fin s i = vaccept v2 fin s i.
Proof.
  intros. unfold vaccept. destruct (find_vnode _ _); [|reflexivity].
  destruct (negb _); [reflexivity|]. apply vconnect_best_ext.
Qed.

Lemma vporph_ext : forall fuel fin q s, vporph v1 fuel fin q s = vporph v2 fuel fin q s.
Proof.
  induction fuel as [|f IH]; intros; [reflexivity|]. destruct q as [|p q']; [reflexivity|].
  rewrite !vporph_step. destruct (first_vchild _ _) as [c|]; [|apply IH].
  rewrite vaccept_ext. destruct (vaccept v2 fin _ c) as [[s1 m] e]. destruct (stops e); [reflexivity | apply IH].
Qed.

Lemma vdeliver_ext : forall fin s i, vdeliver v1 fin s i = vdeliver v2 fin s i.
Proof.
  intros. rewrite !vdeliver_cases, vaccept_ext.
  destruct (in_vidx _ _); [reflexivity|]. destruct (in_vidx _ _); [|reflexivity].
  destruct (vaccept v2 fin _ i) as [[s2 ism] e]. rewrite vporph_ext. reflexivity.
Qed.

Lemma vdeliver0_ext : forall fin s i, vdeliver0 v1 fin s i = vdeliver0 v2 fin s i.
Proof. intros. unfold vdeliver0. rewrite vdeliver_ext. reflexivity. Qed.

Lemma vrun_ext : forall fin g hist, vrun v1 fin g hist = vrun v2 fin g hist.
Proof.
  intros fin g hist. apply fold_left_ext_in. intros s i _. exact (f_equal fst (vdeliver_ext fin s i)).
Qed.

Lemma vrun0_ext : forall fin g hist, vrun0 v1 fin g hist = vrun0 v2 fin g hist.
Proof.
  intros fin g hist. apply fold_left_ext_in. intros s i _. exact (f_equal fst (vdeliver0_ext fin s i)).
Qed.
End Ext.

Lemma validity_independent_of_pool :
  forall (view : N -> N -> sigview) (after : N -> N -> N) (pool : list N),
    (forall h b, pooled_ok pool (view h b) = true) ->
    (forall h b, verr_at view after pool h b = verr_at view after [] h b)
    /\ (forall fin g hist,
          vrun0 (verr_at view after pool) fin g hist = vrun0 (verr_at view after []) fin g hist
          /\ vrun (verr_at view after pool) fin g hist = vrun (verr_at view after []) fin g hist).
Proof.
  intros view after pool Hg.
  assert (E : forall h b, verr_at view after pool h b = verr_at view after [] h b).
  { intros h b. unfold verr_at. rewrite (sig_pool_partial pool _ (Hg h b)), sig_stage_nil. reflexivity. }
  split; [exact E|]. intros fin g hist. split; [apply vrun0_ext | apply vrun_ext]; exact E.
Qed.

Lemma block_signature_class_any_pool :
  forall (view : N -> N -> sigview) (after : N -> N -> N) (pool : list N) (h b : N),
    sv_bsig (view h b) = false -> verr_at view after pool h b = 1%N.
Proof. intros. unfold verr_at. rewrite block_signature_any_pool by assumption. reflexivity. Qed.
