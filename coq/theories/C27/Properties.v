(** C27 — Invalid blocks are rejected without side effects or poisoning. *)
From Coq Require Import List ZArith NArith Bool.
From C33 Require Import C27.Model C27.Proofs C27.ProofsRefute C27.Proofs2 C27.Proofs3 C27.Proofs4 C27.ProofsExamples C27.ProofsHdr.
Import ListNotations.
Open Scope Z_scope.

Theorem C27_main_only_valid :
  forall (verr : N -> N -> N) (g : block) (fin : Z) (hist : list item) (h : N),
    In h (vmain (vrun verr fin g hist)) ->
    h = bid g \/ exists b, served (vrun verr fin g hist) h = Some b /\ verr h b = 0%N.
Proof. intros verr g fin hist. exact (inv_main verr g _ _ (Inv_vrun verr g fin hist)). Qed.
Print Assumptions C27_main_only_valid.

Theorem C27_served_was_delivered :
  forall (verr : N -> N -> N) (g : block) (fin : Z) (hist : list item) (h b : N),
    served (vrun verr fin g hist) h = Some b ->
    h = bid g \/ exists j, In j hist /\ ihash j = h /\ ibody j = b.
Proof.
  intros verr g fin hist h b H. apply sget_in in H.
  destruct (inv_store verr g _ _ (Inv_vrun verr g fin hist) h b H) as [E|[j [Hj E]]]; [left; exact E|].
  right. exists j. split; [apply in_rev; exact Hj | exact E].
Qed.
Print Assumptions C27_served_was_delivered.

Theorem C27_rejected_no_effect_refuted : ~ C27_rejected_no_effect_full.
Proof.
  intro H.
  specialize (H w_verr 0 w_root (w_trunk ++ [w_side12]) w_bad13 eq_refl).
  vm_compute in H. discriminate H.
Qed.
Print Assumptions C27_rejected_no_effect_refuted.

Theorem C27_rejected_no_effect_partial :
  forall (verr : N -> N -> N) (fin : Z) (s : vstate) (i : item),
    valid_item verr i = false ->
    no_reorg_guard fin s i = true ->
    vmain (vstep verr fin s i) = vmain s.
Proof. exact rejected_no_effect_partial. Qed.
Print Assumptions C27_rejected_no_effect_partial.

Theorem C27_rejected_no_effect_nonvacuous :
  valid_item w_verr e_light13 = false
  /\ no_reorg_guard 0 e_state e_light13 = true
  /\ in_vidx (bpar (iblk e_light13)) (vidx e_state) = true
  /\ in_vidx (ihash e_light13) (vidx (vstep w_verr 0 e_state e_light13)) = true
  /\ vtip e_state = 13%N
  /\ no_reorg_guard 0 e_state w_bad13 = false.
Proof. vm_compute. repeat split; reflexivity. Qed.
Print Assumptions C27_rejected_no_effect_nonvacuous.

Theorem C27_no_poison_refuted : ~ C27_no_poison_full.
Proof.
  intro H.
  specialize (H p_verr 0 p_root [mkI p_b1 1 PBcast] (mkI p_b1 0 PSync) eq_refl).
  assert (E : ihash (mkI p_b1 0 PSync) <> bid p_root) by (vm_compute; discriminate).
  specialize (H E eq_refl eq_refl). vm_compute in H. destruct H as [H _]. apply H. reflexivity.
Qed.
Print Assumptions C27_no_poison_refuted.

Theorem C27_no_poison_partial :
  forall (verr : N -> N -> N) (fin : Z) (g : block) (hist : list item) (i : item),
    ihash i <> bid g ->
    height_fits (vrun verr fin g hist) i = true ->
    existsb (fun j => N.eqb (ihash j) (ihash i)) hist = false ->
    let r := vdeliver verr fin (vrun verr fin g hist) i in
    snd (snd r) <> VExist /\ served (fst r) (ihash i) = Some (ibody i).
Proof. exact no_poison_partial. Qed.
Print Assumptions C27_no_poison_partial.

Theorem C27_no_poison_nonvacuous :
  ihash f_item <> bid p_root
  /\ height_fits (vrun f_verr 0 p_root f_hist) f_item = true
  /\ existsb (fun j => N.eqb (ihash j) (ihash f_item)) f_hist = false
  /\ valid_item f_verr f_item = true
  /\ vtip (vstep f_verr 0 (vrun f_verr 0 p_root f_hist) f_item) = 2%N.
Proof. vm_compute. repeat split; try reflexivity. discriminate. Qed.
Print Assumptions C27_no_poison_nonvacuous.

(** "Rejected blocks are as if they had never arrived" still fails at full
    strength, through the reorganisation that is not rolled back and through
    poisoning (findings 2 and 1) ... *)
Theorem C27_rejected_invisible_refuted : ~ C27_rejected_invisible_full.
Proof.
  intro H. specialize (H w_verr 0 w_root (w_trunk ++ [w_side12; w_bad13])). vm_compute in H. discriminate H.
Qed.
Print Assumptions C27_rejected_invisible_refuted.

(** ... and holds for every history whose rejected deliveries are below the
    reorganisation margin, share their hash with no valid delivery and are
    nobody's parent: on any path, before or after their parents, in any
    position of the orphan pool (ProcessOrphans drops a refused orphan and
    goes on with its siblings). *)
Theorem C27_rejected_invisible_partial :
  forall (verr : N -> N -> N) (fin : Z) (g : block) (hist : list item),
    quiet_rejects verr fin g hist = true ->
    vmain (vrun verr fin g hist) = vmain (vrun verr fin g (filter (valid_item verr) hist))
    /\ vtip (vrun verr fin g hist) = vtip (vrun verr fin g (filter (valid_item verr) hist)).
Proof. exact rejected_invisible_partial. Qed.
Print Assumptions C27_rejected_invisible_partial.

Theorem C27_rejected_invisible_nonvacuous :
  quiet_rejects q_verr 0 o_root q_hist = true
  /\ length (filter (fun j => negb (valid_item q_verr j)) q_hist) = 2%nat
  /\ vmain (vrun q_verr 0 o_root q_hist) = [5; 2; 1; 0]%N
  /\ vorph (vrun q_verr 0 o_root q_hist) = []
  /\ quiet_rejects w_verr 0 w_root (w_trunk ++ [w_side12; w_bad13]) = false.
Proof. vm_compute. repeat split. Qed.
Print Assumptions C27_rejected_invisible_nonvacuous.

(** the history that the unrepaired ProcessOrphans got wrong: block 3 (fails a
    check) and block 2 wait for block 1, 3 in front; block 1 is answered
    without error and 2 becomes the tip *)
Theorem C27_orphan_siblings_connected :
  vmain (vrun o_verr 0 o_root o_hist) = [2; 1; 0]%N
  /\ vmain (vrun o_verr 0 o_root (filter (valid_item o_verr) o_hist)) = [2; 1; 0]%N
  /\ vorph (vrun o_verr 0 o_root o_hist) = []
  /\ snd (vdeliver o_verr 0 (vrun o_verr 0 o_root (firstn 2 o_hist)) (mkI (mkB 1 0 1 1) 0 PBcast)) = (true, false, VNone).
Proof. vm_compute. repeat split. Qed.
Print Assumptions C27_orphan_siblings_connected.

(** "ProcessBlock never panics" fails at full strength: a block with an empty
    ParentHash makes blockExists read the header table with the empty prefix,
    and blocktable.go getHeaderByIndex panics as soon as the table has two
    rows (finding 5) ... *)
Theorem C27_no_panic_refuted : ~ C27_no_panic_full.
Proof.
  intro H.
  apply (H (fun _ _ => 0%N) 0 (vrun0 (fun _ _ => 0%N) 0 hp_root hp_hist) hp_item).
  vm_compute. reflexivity.
Qed.
Print Assumptions C27_no_panic_refuted.

(** ... and holds from any state for every block that names a parent - the
    all-zero hash and Height 0 included (the nil-fork guard in connectBestChain:
    a block whose parent links no longer lead to the best chain is refused). *)
Theorem C27_no_panic_partial :
  forall (verr : N -> N -> N) (fin : Z) (s : vstate) (i : item),
    names_parent i = true ->
    snd (snd (vdeliver0 verr fin s i)) <> VPanic.
Proof. exact no_panic_partial. Qed.
Print Assumptions C27_no_panic_partial.

Theorem C27_no_panic_nonvacuous :
  names_parent (mkI (mkB 2 1 2 1) 0 PBcast) = true
  /\ names_parent (mkI (mkB 2 zero_par 0 1) 0 PBcast) = true
  /\ names_parent hp_item = false
  /\ snd (vdeliver0 (fun _ _ => 0%N) 0 (vrun0 (fun _ _ => 0%N) 0 hp_root hp_hist) (mkI (mkB 2 1 2 1) 0 PBcast))
     = (true, false, VNone)
  /\ snd (vdeliver0 (fun _ _ => 0%N) 0 (vrun0 (fun _ _ => 0%N) 0 hp_root hp_hist) (mkI (mkB 2 zero_par 0 1) 0 PBcast))
     = (false, false, VTd)
  /\ snd (vdeliver0 (fun _ _ => 0%N) 0 (vinit hp_root) hp_item) = (false, true, VNone).
Proof. vm_compute. repeat split. Qed.
Print Assumptions C27_no_panic_nonvacuous.

(** The complete model of ProcessBlock ([vdeliver0]: empty / all-zero
    ParentHash, Height 0) is [vdeliver] - the function the history theorems
    above speak about - on every header with a named non-zero parent and a
    height above 0 ... *)
Theorem C27_plain_header_same :
  forall (verr : N -> N -> N) (fin : Z),
    (forall s i, plain_hdr i = true -> vdeliver0 verr fin s i = vdeliver verr fin s i)
    /\ (forall g hist, forallb plain_hdr hist = true -> vrun0 verr fin g hist = vrun verr fin g hist).
Proof. intros verr fin. split; [apply vdeliver0_plain | apply vrun0_plain]. Qed.
Print Assumptions C27_plain_header_same.

(** ... and a block with any other header leaves the best chain where it was
    (no index node has the empty hash). *)
Theorem C27_odd_header_chain_unchanged :
  forall (verr : N -> N -> N) (fin : Z) (s : vstate) (i : item),
    plain_hdr i = false ->
    in_vidx empty_par (vidx s) = false ->
    vmain (vstep0 verr fin s i) = vmain s.
Proof. exact odd_header_chain_unchanged. Qed.
Print Assumptions C27_odd_header_chain_unchanged.

(** the history that used to panic: the descendant 24 of the block deleted
    from the index is refused, the tip stays *)
Theorem C27_nil_fork_refused :
  snd (vdeliver n_verr 0 (vrun n_verr 0 w_root n_hist) (mkI (mkB 24 22 15 1) 0 PBcast)) = (false, false, VParent)
  /\ vtip (vstep n_verr 0 (vrun n_verr 0 w_root n_hist) (mkI (mkB 24 22 15 1) 0 PBcast)) = 23%N.
Proof. vm_compute. split; reflexivity. Qed.
Print Assumptions C27_nil_fork_refused.

(** With only valid deliveries and heights that are consistent along the
    parent links the model makes exactly the moves of C25's chain-selection
    model (to which C25_converges, which assumes such heights, applies). *)
Theorem C27_valid_refines_C25 :
  forall (verr : N -> N -> N) (g : block),
    verr (bid g) 0%N = 0%N ->
    forall (fin : Z) (hist : list item),
      (forall i, In i hist -> verr (ihash i) (ibody i) = 0%N) ->
      hconsb (g :: map iblk hist) = true ->
      vmain (vrun verr fin g hist) = main (run fin g (map iblk hist))
      /\ vtip (vrun verr fin g hist) = tip (run fin g (map iblk hist)).
Proof. exact valid_refines_C25. Qed.
Print Assumptions C27_valid_refines_C25.

Theorem C27_valid_refines_nonvacuous :
  hconsb (o_root :: map iblk o_hist) = true
  /\ vmain (vrun (fun _ _ => 0%N) 0 o_root o_hist) = [3; 1; 0]%N
  /\ hconsb (o_root :: map iblk [mkI (mkB 1 0 1 1) 0 PBcast; mkI (mkB 2 1 3 1) 0 PBcast]) = false.
Proof. vm_compute. repeat split. Qed.
Print Assumptions C27_valid_refines_nonvacuous.

(** ---- the signature stage of util.PreExecBlock and the receiver's mempool ---- *)

(** "The stage accepts exactly the blocks whose signatures all verify" fails at
    full strength: a transaction whose hash the mempool holds is not verified
    (finding 6) ... *)
Theorem C27_sig_pool_refuted : ~ C27_sig_pool_full.
Proof.
  (* transaction 1 carries a signature that does not verify; the mempool holds a transaction with the same hash *)
  intro H. specialize (H [1%N] (mkSV true [(0%N, true); (1%N, false); (2%N, true)])).
  vm_compute in H. discriminate H.
Qed.
Print Assumptions C27_sig_pool_refuted.

(** ... holds for every mempool when the pooled transactions of the block
    carry signatures that verify ... *)
Theorem C27_sig_pool_partial :
  forall (pool : list N) (v : sigview),
    pooled_ok pool v = true -> sig_stage pool v = sig_valid v.
Proof. exact sig_pool_partial. Qed.
Print Assumptions C27_sig_pool_partial.

(** ... and, unguarded: a block signature that does not verify is refused
    whatever the mempool holds - all of the block's transactions, some, none,
    or the block has none - and so is a transaction signature that does not
    verify unless that transaction's hash is pooled. *)
Theorem C27_block_signature_any_pool :
  (forall (pool : list N) (v : sigview), sv_bsig v = false -> sig_stage pool v = false)
  /\ (forall (pool : list N) (v : sigview) (t : N * bool),
        In t (sv_txs v) -> snd t = false -> memN (fst t) pool = false -> sig_stage pool v = false).
Proof. split; [exact block_signature_any_pool | exact tx_signature_unpooled]. Qed.
Print Assumptions C27_block_signature_any_pool.

Theorem C27_sig_pool_nonvacuous :
  pooled_ok [0; 2; 9]%N (mkSV false [(0, true); (1, true); (2, true)]%N) = true
  /\ sig_stage [0; 1; 2]%N (mkSV false [(0, true); (1, true); (2, true)]%N) = false
  /\ pooled_ok [0; 2]%N (mkSV true [(0, true); (1, false); (2, true)]%N) = true
  /\ sig_stage [0; 2]%N (mkSV true [(0, true); (1, false); (2, true)]%N) = false
  /\ sig_stage [0; 1; 2]%N (mkSV true [(0, true); (1, true); (2, true)]%N) = true
  /\ pooled_ok [1]%N (mkSV true [(0, true); (1, false); (2, true)]%N) = false.
Proof. vm_compute. repeat split. Qed.
Print Assumptions C27_sig_pool_nonvacuous.

(** The validity oracle of the histories, split into the signature stage
    ([view]: what the stage looks at) and the class [after] of the first
    failing later check, at a receiver whose mempool holds [pool]: as long as
    the pooled transactions of the blocks carry good signatures the class of
    every (hash, body) pair - and with it every run of the model - is the one
    at a receiver with an empty mempool, which is what the harness computes;
    a block signature that does not verify gives class 1 at every receiver. *)
Theorem C27_validity_independent_of_pool :
  forall (view : N -> N -> sigview) (after : N -> N -> N) (pool : list N),
    ((forall h b, pooled_ok pool (view h b) = true) ->
     (forall h b, verr_at view after pool h b = verr_at view after [] h b)
     /\ (forall fin g hist,
           vrun0 (verr_at view after pool) fin g hist = vrun0 (verr_at view after []) fin g hist
           /\ vrun (verr_at view after pool) fin g hist = vrun (verr_at view after []) fin g hist))
    /\ (forall h b, sv_bsig (view h b) = false -> verr_at view after pool h b = 1%N).
Proof.
  intros view after pool. split.
  - apply validity_independent_of_pool.
  - intros h b. apply block_signature_class_any_pool.
Qed.
Print Assumptions C27_validity_independent_of_pool.
