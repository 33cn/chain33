(** C27 — the full-strength statements that the faithful model violates, with
    their witnesses (each is reproduced on the Go node by hC27). *)
From Coq Require Import List ZArith NArith Bool.
From C33 Require Import C27.Model.
Import ListNotations.
Open Scope Z_scope.

(** deliveries whose body passes every check (the height is [height_fits]) *)
Definition valid_item (verr : N -> N -> N) (i : item) : bool := N.eqb (verr (ihash i) (ibody i)) 0.

Definition same_delivery (i j : item) : bool :=
  N.eqb (ihash i) (ihash j) && N.eqb (ibody i) (ibody j).

(** ---- 1. a rejected block leaves the best chain unchanged ---- *)
Definition C27_rejected_no_effect_full : Prop :=
  forall verr fin g hist i,
    valid_item verr i = false ->
    vmain (vstep verr fin (vrun verr fin g hist) i) = vmain (vrun verr fin g hist).

(** witness: trunk 1..13 on the root 0, side block 20 on 11, then the block 21
    on 20 that claims enough work to win and fails its state-root check.  The
    reorganisation detaches 13 and 12, attaches 20, fails at 21 — and stays. *)
Definition w_root : block := mkB 0 999 0 1.
Definition w_trunk : list item :=
  map (fun k => mkI (mkB (N.of_nat k) (N.of_nat (k - 1)) (Z.of_nat k) 1) 0 PBcast) (seq 1 13).
Definition w_side12 : item := mkI (mkB 20 11 12 1) 0 PBcast.
Definition w_bad13 : item := mkI (mkB 21 20 13 5) 0 PSync.
Definition w_verr (h b : N) : N := if N.eqb h 21 then 5%N else 0%N.

(** ---- 2. a block with the same header and another body does not poison ---- *)
(** delivering a valid block whose parent is indexed with the consecutive
    height, and which was not delivered before, is not answered "exists", and
    afterwards its body is served under its hash *)
Definition height_fits (s : vstate) (i : item) : bool :=
  match find_vnode (bpar (iblk i)) (vidx s) with
  | Some p => bht (iblk i) =? bht (vblk p) + 1
  | None => false
  end.

Definition C27_no_poison_full : Prop :=
  forall verr fin g hist i,
    valid_item verr i = true ->
    ihash i <> bid g ->
    height_fits (vrun verr fin g hist) i = true ->
    existsb (same_delivery i) hist = false ->
    let r := vdeliver verr fin (vrun verr fin g hist) i in
    snd (snd r) <> VExist /\ served (fst r) (ihash i) = Some (ibody i).

(** witness: block 1 on the root arrives with body 1 (fails its transaction-root
    check), then with its own body 0 *)
Definition p_root : block := mkB 0 999 0 1.
Definition p_b1 : block := mkB 1 0 1 1.
Definition p_verr (h b : N) : N := if N.eqb h 1 && N.eqb b 1 then 4%N else 0%N.

(** the served half fails as well, even on the download path (where the index
    node is deleted and the genuine block is accepted later as a side block) *)
Lemma poison_served_witness :
  served (vrun p_verr 0 p_root [mkI p_b1 1 PBcast]) 1 = Some 1%N.
Proof. reflexivity. Qed.

(** ---- 3. rejected blocks are as if they had never arrived ---- *)
Definition C27_rejected_invisible_full : Prop :=
  forall verr fin g hist,
    vmain (vrun verr fin g hist) = vmain (vrun verr fin g (filter (valid_item verr) hist)).

(** witness: the history of 1 — without the rejected block 21 the chain stays
    on the trunk (tip 13), with it the chain ends on 20.  A second witness is
    the poisoning history of 2. *)

Lemma rejected_invisible_refuted_by_poison :
  vmain (vrun p_verr 0 p_root [mkI p_b1 1 PBcast; mkI p_b1 0 PSync])
  <> vmain (vrun p_verr 0 p_root (filter (valid_item p_verr) [mkI p_b1 1 PBcast; mkI p_b1 0 PSync])).
Proof. vm_compute. discriminate. Qed.

(** the children 3 (invalid) and 2 (valid) of block 1 wait in the orphan pool;
    when 1 arrives ProcessOrphans drops 3 and connects 2 *)
Definition o_root : block := mkB 0 999 0 1.
Definition o_hist : list item :=
  [mkI (mkB 3 1 2 1) 0 PBcast; mkI (mkB 2 1 2 1) 0 PBcast; mkI (mkB 1 0 1 1) 0 PBcast].
Definition o_verr (h b : N) : N := if N.eqb h 3 then 5%N else 0%N.

(** ---- 4. ProcessBlock does not panic: holds since the nil-fork guard in
    connectBestChain (proved in Proofs2).  The history that used to panic: as
    in 1, but the failing block 21 came by the download path as a side block
    (body 1), its child 22 started the reorganisation (21 fails, is deleted
    from the index, its parent pointer cleared), a heavy sibling 23 of the old
    tip takes the chain back, and then 24, a child of 22, arrives: it is now
    refused with "parent block does not exist" ---- *)
Definition n_hist : list item :=
  w_trunk ++ [w_side12; mkI (mkB 21 20 13 1) 1 PDown; mkI (mkB 22 21 14 1) 0 PBcast;
              mkI (mkB 23 12 13 9) 0 PBcast].
Definition n_verr (h b : N) : N := if N.eqb h 21 && N.eqb b 1 then 1%N else 0%N.
