(** C27 — when every delivered block is valid and the heights are consistent
    along the parent links, the model of this property makes exactly the moves
    of C25's chain-selection model (so C25's convergence theorem speaks about
    it): the additions of C27 — body table, error marks, deletion from the
    index — are inert without invalid blocks.  (Heights: C25's model of
    ProcessOrphans stops at an orphan with a wrong height, the repaired code
    and this model go on; with consistent heights neither ever refuses one.) *)
From Coq Require Import List ZArith NArith Bool Lia.
From C33 Require Import C27.Model C27.Proofs.
Import ListNotations.
Open Scope Z_scope.

(** C25's state is this model's without bodies and marks *)
Definition nproj (n : vnode) : node := mkN (vblk n) (vtd n).

Lemma find_proj : forall h ix, find_node h (map nproj ix) = option_map nproj (find_vnode h ix).
Proof.
  intros h ix. induction ix as [|a ix IH]; simpl; [reflexivity|].
  unfold vid. destruct (N.eqb (bid (vblk a)) h); [reflexivity | exact IH].
Qed.

Lemma in_idx_proj : forall h ix, in_idx h (map nproj ix) = in_vidx h ix.
Proof. intros. unfold in_idx, in_vidx. rewrite find_proj. destruct (find_vnode h ix); reflexivity. Qed.

Lemma in_orph_proj : forall h o, in_orph h (map iblk o) = in_vorph h o.
Proof. intros h o. unfold in_orph, in_vorph. induction o as [|a o IH]; simpl; [reflexivity|]. rewrite IH. reflexivity. Qed.

Lemma remove_orph_proj : forall h o, remove_orph h (map iblk o) = map iblk (remove_vorph h o).
Proof.
  intros h o. unfold remove_orph, remove_vorph. induction o as [|a o IH]; simpl; [reflexivity|].
  unfold ihash at 1. destruct (negb (N.eqb (bid (iblk a)) h)); simpl; rewrite IH; reflexivity.
Qed.

Lemma first_child_proj : forall p o, first_child p (map iblk o) = option_map iblk (first_vchild p o).
Proof.
  intros p o. unfold first_child, first_vchild. induction o as [|a o IH]; simpl; [reflexivity|].
  destruct (N.eqb (bpar (iblk a)) p); [reflexivity | exact IH].
Qed.

Lemma in_vidx_cons : forall h n ix, in_vidx h (n :: ix) = N.eqb (vid n) h || in_vidx h ix.
Proof. intros. unfold in_vidx. rewrite find_vnode_cons. destruct (N.eqb (vid n) h); reflexivity. Qed.

Lemma in_vidx_in : forall n ix, In n ix -> in_vidx (vid n) ix = true.
Proof.
  intros n ix H. unfold in_vidx, find_vnode. destruct (find (fun m => N.eqb (vid m) (vid n)) ix) eqn:F; [reflexivity|].
  exfalso. pose proof (find_none _ _ F n H) as E. simpl in E. rewrite N.eqb_refl in E. discriminate.
Qed.

(** heights consistent along parent links (boolean, over a list of blocks) *)
Definition hconsb (BL : list block) : bool :=
  forallb (fun a => forallb (fun b => negb (N.eqb (bpar a) (bid b)) || (bht a =? bht b + 1)) BL) BL.

Lemma hconsb_spec : forall BL, hconsb BL = true ->
  forall a b, In a BL -> In b BL -> bpar a = bid b -> bht a = bht b + 1.
Proof.
  intros BL H a b Ha Hb E. unfold hconsb in H. rewrite forallb_forall in H. specialize (H a Ha).
  rewrite forallb_forall in H. specialize (H b Hb). rewrite E, N.eqb_refl in H. simpl in H.
  apply Z.eqb_eq in H. exact H.
Qed.

Section Refine.
Variable verr : N -> N -> N.
Variable g : block.
Hypothesis Hroot : verr (bid g) 0 = 0%N.
Variable BL : list block.
Hypothesis HgBL : In g BL.
Hypothesis Hcons : forall a b, In a BL -> In b BL -> bpar a = bid b -> bht a = bht b + 1.

Definition ivalid (i : item) : Prop := verr (ihash i) (ibody i) = 0%N.

(** what a run over valid blocks of [BL] keeps up: every node is linked to the
    root and no link is cut, so the walk to the fork point always ends on the
    best chain; every body in the table passed the checks and every node has
    one, so a reorganisation neither fails to load nor to execute *)
Record Good (vs : vstate) : Prop := mkGood {
  g_nocut  : forall n, In n (vidx vs) -> vcut n = false;
  g_closed : forall n, In n (vidx vs) -> vid n = bid g \/ in_vidx (bpar (vblk n)) (vidx vs) = true;
  g_root   : vmain vs <> [] /\ last (vmain vs) 0%N = bid g;
  g_main   : forall h, In h (vmain vs) -> in_vidx h (vidx vs) = true;
  g_store  : forall h b, In (h, b) (vstore vs) -> verr h b = 0%N;
  g_has    : forall n, In n (vidx vs) -> sget (vid n) (vstore vs) <> None;
  g_blk    : forall n, In n (vidx vs) -> In (vblk n) BL;
  g_orph   : forall o, In o (vorph vs) -> ivalid o /\ In (iblk o) BL
}.

Record Sim (vs : vstate) (s : state) : Prop := mkSim {
  sim_idx  : idx s = map nproj (vidx vs);
  sim_orph : orph s = map iblk (vorph vs);
  sim_main : main s = vmain vs
}.

(** the answers of an acceptance in a world of valid blocks *)
Inductive erel : verrc -> errc -> Prop :=
| er_none : erel VNone ENone | er_fuel : erel VFuel EFuel.
Local Hint Constructors erel : core.

Lemma sim_tip : forall vs s, Sim vs s -> tip s = vtip vs.
Proof. intros vs s [_ _ M]. unfold tip, vtip. rewrite M. reflexivity. Qed.

Lemma good_root_main : forall vs, Good vs -> In (bid g) (vmain vs).
Proof.
  intros vs HG. destruct (g_root vs HG) as [A B]. rewrite <- B.
  destruct (@exists_last _ (vmain vs) A) as [l [a E]]. rewrite E, last_last. apply in_or_app. right. left. reflexivity.
Qed.

Lemma good_tip_indexed : forall vs, Good vs -> exists t, find_vnode (vtip vs) (vidx vs) = Some t.
Proof.
  intros vs HG. pose proof (g_root vs HG) as [R1 _]. pose proof (g_main vs HG) as M.
  unfold vtip. destruct (vmain vs) as [|x l]; [contradiction|]. simpl.
  specialize (M x (or_introl eq_refl)). unfold in_vidx in M.
  destruct (find_vnode x (vidx vs)) as [t|]; [exists t; reflexivity | discriminate].
Qed.

Lemma branch_sim : forall vs, Good vs ->
  forall fuel h, in_vidx h (vidx vs) = true ->
  match branch fuel (map nproj (vidx vs)) (vmain vs) h with
  | Some (p, fk) => vbranch fuel (vidx vs) (vmain vs) h = BFork p fk /\ In fk (vmain vs)
                    /\ (forall x, In x p -> in_vidx x (vidx vs) = true)
  | None => vbranch fuel (vidx vs) (vmain vs) h = BFuel
  end.
Proof.
  intros vs HG fuel. induction fuel as [|f IH]; intros h Hin; simpl; [reflexivity|].
  destruct (memN h (vmain vs)) eqn:M.
  - split; [reflexivity|]. split; [apply memN_in; exact M | intros x []].
  - rewrite find_proj. unfold in_vidx in Hin. destruct (find_vnode h (vidx vs)) as [n|] eqn:F; [|discriminate].
    simpl option_map. cbv iota. simpl nblk.
    destruct (find_vnode_some _ _ _ F) as [Hn Hv].
    rewrite (g_nocut vs HG n Hn).
    assert (Hp : in_vidx (bpar (vblk n)) (vidx vs) = true).
    { destruct (g_closed vs HG n Hn) as [E|E]; [|exact E]. exfalso.
      (* the root is on the best chain, and [h] is not *)
      assert (memN h (vmain vs) = true); [|congruence].
      apply existsb_exists. exists (bid g). split; [exact (good_root_main vs HG) | apply N.eqb_eq; congruence]. }
    specialize (IH (bpar (vblk n)) Hp).
    destruct (branch f (map nproj (vidx vs)) (vmain vs) (bpar (vblk n))) as [[p fk]|].
    + destruct IH as [A [B C]]. rewrite A. split; [reflexivity|]. split; [exact B|].
      intros x [Hx|Hx]; [subst x; rewrite <- Hv; apply in_vidx_in; exact Hn | apply C; exact Hx].
    + rewrite IH. reflexivity.
Qed.

Lemma load_all_ok : forall st p, (forall h, In h p -> sget h st <> None) -> load_all st p <> None.
Proof.
  intros st p. induction p as [|h p IH]; intros H; simpl; [discriminate|].
  destruct (sget h st) as [b|] eqn:E; [|exfalso; apply (H h (or_introl eq_refl)); exact E].
  destruct (load_all st p); [discriminate | apply IH; intros; apply H; right; assumption].
Qed.

Lemma Good_attached : forall vs lp mn,
  Good vs -> mn <> [] /\ last mn 0%N = bid g -> (forall h, In h mn -> in_vidx h (vidx vs) = true) ->
  (forall h b, In (h, b) lp -> verr h b = 0%N) ->
  Good (mkV (vidx vs) (vorph vs) mn (lp ++ vstore vs)).
Proof.
  intros vs lp mn [A B C D E F G1 G2] Hr Hm Hlp. constructor; simpl; auto.
  - intros h b Hx. apply in_app_or in Hx. destruct Hx as [Hx|Hx]; [apply Hlp; exact Hx | apply E; exact Hx].
  - intros n Hn. exact (grows_sget _ _ _ (ex_intro _ lp eq_refl) (F n Hn)).
Qed.

Lemma vconnect_best_sim : forall fin vs s b td body,
  Good vs -> Sim vs s -> verr (bid b) body = 0%N -> in_vidx (bid b) (vidx vs) = true ->
  let r1 := vconnect_best verr fin vs b td body in
  let r2 := connect_best fin s b td in
  Good (fst (fst r1)) /\ Sim (fst (fst r1)) (fst (fst r2))
  /\ snd (fst r1) = snd (fst r2) /\ erel (snd r1) (snd r2)
  /\ vidx (fst (fst r1)) = vidx vs.
Proof.
  intros fin vs s b td body HG HS Hv Hin. cbv zeta.
  unfold vconnect_best, connect_best. rewrite (sim_tip vs s HS).
  pose proof HS as [SA SB SC]. pose proof (g_root vs HG) as [GC1 GC2].
  destruct (N.eqb (bpar b) (vtip vs)).
  - unfold connect_block. rewrite Hv. simpl. split; [|split; [|auto]].
    + apply (Good_attached vs [(bid b, body)] (bid b :: vmain vs) HG).
      * split; [discriminate|]. rewrite last_cons_ne by exact GC1. exact GC2.
      * intros h [H|H]; [subst h; exact Hin | apply (g_main vs HG); exact H].
      * intros h x [H|[]]. inversion H; subst. exact Hv.
    + constructor; simpl; [exact SA | exact SB | rewrite SC; reflexivity].
  - rewrite SA, find_proj. destruct (good_tip_indexed vs HG) as [t Ft]. rewrite Ft. simpl option_map. cbv iota.
    simpl ntd. rewrite SC.
    pose proof (branch_sim vs HG (S (Z.to_nat (bht b))) (bid b) Hin) as HB.
    destruct ((td <=? vtd t) || (bht b <? fin + margin)).
    + (* the walk does not end in nil, whatever else it does *)
      destruct (branch _ _ _ _) as [[p fk]|]; [destruct HB as [HB _]|]; rewrite HB; simpl; auto.
    + destruct (branch (S (Z.to_nat (bht b))) (map nproj (vidx vs)) (vmain vs) (bid b)) as [[p fk]|].
      2:{ rewrite HB. simpl. auto. }
      destruct HB as [HB [Hfk Hp]]. rewrite HB.
      destruct (load_all (vstore vs) (rev p)) as [lp|] eqn:L.
      2:{ exfalso. revert L. apply load_all_ok. intros h Hh. apply in_rev in Hh. specialize (Hp h Hh).
          unfold in_vidx in Hp. destruct (find_vnode h (vidx vs)) as [n|] eqn:F; [|discriminate].
          destruct (find_vnode_some _ _ _ F) as [Hn E]. rewrite <- E. apply (g_has vs HG); exact Hn. }
      assert (Hlp : forall h x, In (h, x) lp -> verr h x = 0%N).
      { intros h x Hx. apply (g_store vs HG). apply sget_in. exact (load_all_in _ _ _ L h x Hx). }
      rewrite attach_valid by exact Hlp. simpl.
      rewrite (load_all_fst _ _ _ L), rev_involutive.
      destruct (drop_until_last fk (vmain vs) 0%N Hfk) as [D1 D2].
      split; [|split; [constructor; simpl; auto | auto]].
      apply (Good_attached vs (rev lp) (p ++ drop_until fk (vmain vs)) HG).
      * split; [intro E; apply app_eq_nil in E; destruct E as [_ E]; contradiction|].
        rewrite last_app_ne by exact D1. rewrite D2. exact GC2.
      * intros h Hh. apply in_app_or in Hh.
        destruct Hh as [Hh|Hh]; [apply Hp; exact Hh | apply (g_main vs HG); exact (drop_until_in _ _ _ Hh)].
      * intros h x Hx. apply Hlp, in_rev. exact Hx.
Qed.

Lemma vaccept_sim : forall fin vs s i,
  Good vs -> Sim vs s -> ivalid i -> In (iblk i) BL -> in_vidx (bpar (iblk i)) (vidx vs) = true ->
  let r1 := vaccept verr fin vs i in
  let r2 := accept fin s (iblk i) in
  Good (fst (fst r1)) /\ Sim (fst (fst r1)) (fst (fst r2))
  /\ snd (fst r1) = snd (fst r2) /\ erel (snd r1) (snd r2)
  /\ exists nd, vidx (fst (fst r1)) = nd :: vidx vs /\ vid nd = ihash i.
Proof.
  intros fin vs s i HG HS Hv HiB Hpar. cbv zeta. unfold vaccept, accept.
  pose proof HS as [SA SB SC]. rewrite SA, find_proj.
  unfold in_vidx in Hpar.
  destruct (find_vnode (bpar (iblk i)) (vidx vs)) as [p|] eqn:Fp; [|discriminate].
  simpl option_map. cbv iota. simpl nblk. simpl ntd.
  destruct (find_vnode_some _ _ _ Fp) as [Hp Hpv].
  assert (Hh : bht (iblk i) = bht (vblk p) + 1).
  { apply Hcons; [exact HiB | apply (g_blk vs HG); exact Hp | symmetry; exact Hpv]. }
  rewrite Hh, Z.eqb_refl. simpl negb. cbv iota.
  set (nd := mkVN (iblk i) (vtd p + bdiff (iblk i)) false (is_down (ipath i)) false).
  set (vs1 := mkV (nd :: vidx vs) (vorph vs) (vmain vs) (maybe_store (bid (iblk i)) (ibody i) (vstore vs))).
  set (s1 := mkS (mkN (iblk i) (vtd p + bdiff (iblk i)) :: map nproj (vidx vs)) (orph s) (main s) (evs s)).
  destruct (vconnect_best_sim fin vs1 s1 (iblk i) (vtd p + bdiff (iblk i)) (ibody i)) as [R1 [R2 [RM [R3 R4]]]].
  - destruct HG as [GA GB GC GM GE GF GK GO]. constructor; simpl; auto.
    + intros n [Hn|Hn]; [subst n; reflexivity | apply GA; exact Hn].
    + intros n Hn. rewrite in_vidx_cons. destruct Hn as [Hn|Hn].
      * subst n. right. simpl. unfold in_vidx. rewrite Fp. apply orb_true_r.
      * destruct (GB n Hn) as [E|E]; [left; exact E | right; rewrite E; apply orb_true_r].
    + intros h Hh'. rewrite in_vidx_cons, (GM h Hh'). apply orb_true_r.
    + intros h b Hin. apply maybe_store_in in Hin. destruct Hin as [Hin|Hin]; [inversion Hin; subst; exact Hv | apply GE; exact Hin].
    + intros n [Hn|Hn]; [subst n; apply maybe_store_some|].
      exact (grows_sget _ _ _ (maybe_store_grows _ _ _) (GF n Hn)).
    + intros n [Hn|Hn]; [subst n; exact HiB | apply GK; exact Hn].
  - constructor; simpl; auto.
  - exact Hv.
  - simpl. rewrite in_vidx_cons. unfold vid at 1. simpl. rewrite N.eqb_refl. reflexivity.
  - split; [exact R1|]. split; [exact R2|]. split; [exact RM|]. split; [exact R3|]. exists nd. split; [exact R4 | reflexivity].
Qed.

Lemma Good_set_orph : forall vs o,
  Good vs -> (forall x, In x o -> ivalid x /\ In (iblk x) BL) -> Good (mkV (vidx vs) o (vmain vs) (vstore vs)).
Proof. intros vs o [A B C D E F G1 G2] H. constructor; simpl; auto. Qed.

Lemma sim_unorph : forall vs s h,
  Good vs -> Sim vs s ->
  Good (unorph h vs) /\ Sim (unorph h vs) (mkS (idx s) (remove_orph h (orph s)) (main s) (evs s)).
Proof.
  intros vs s h HG [SA SB SC]. split.
  - apply Good_set_orph; [exact HG|]. intros x Hx. apply (g_orph vs HG). exact (remove_vorph_in _ _ _ Hx).
  - constructor; simpl; auto. rewrite SB. apply remove_orph_proj.
Qed.

Lemma vporph_sim : forall fuel fin q vs s,
  Good vs -> Sim vs s -> (forall p, In p q -> in_vidx p (vidx vs) = true) ->
  let r1 := vporph verr fuel fin q vs in
  let r2 := porph fuel fin q s in
  Good (fst r1) /\ Sim (fst r1) (fst r2) /\ erel (snd r1) (snd r2).
Proof.
  induction fuel as [|f IH]; intros fin q vs s HG HS Hq; cbv zeta; [simpl; auto|].
  destruct q as [|p q']; [simpl; auto|].
  rewrite vporph_step. cbn [porph]. rewrite (sim_orph vs s HS), first_child_proj.
  destruct (first_vchild p (vorph vs)) as [c|] eqn:F; simpl option_map; cbv iota.
  2:{ apply IH; [exact HG | exact HS | intros x Hx; apply Hq; right; exact Hx]. }
  apply find_some in F. destruct F as [Hc Hcp]. apply N.eqb_eq in Hcp.
  destruct (g_orph vs HG c Hc) as [Vc Bc].
  destruct (sim_unorph vs s (ihash c) HG HS) as [G0 S0]. rewrite (sim_orph vs s HS) in S0.
  destruct (vaccept_sim fin _ _ c G0 S0 Vc Bc) as [G1 [S1 [_ [E1 [nd [I1 I2]]]]]].
  { simpl. rewrite Hcp. apply Hq. left. reflexivity. }
  destruct (vaccept verr fin (unorph (ihash c) vs) c) as [[vs1 m1] e1].
  destruct (accept fin _ (iblk c)) as [[s1 m2] e2].
  cbn [fst snd] in G1, S1, E1, I1. destruct E1; simpl; [|auto].
  (* accepted: it joins the queue, and is indexed now *)
  apply IH; [exact G1 | exact S1 |].
  intros x Hx. rewrite I1, in_vidx_cons, I2. cbn [unorph vidx].
  change (In x ((p :: q') ++ [ihash c])) in Hx. apply in_app_or in Hx.
  destruct Hx as [Hx|[Hx|[]]]; [rewrite (Hq x Hx); apply orb_true_r | subst x; rewrite N.eqb_refl; reflexivity].
Qed.

Lemma vdeliver_sim : forall fin vs s i,
  Good vs -> Sim vs s -> ivalid i -> In (iblk i) BL ->
  Good (fst (vdeliver verr fin vs i)) /\ Sim (fst (vdeliver verr fin vs i)) (fst (deliver fin s (iblk i))).
Proof.
  intros fin vs s i HG HS Hv HiB. rewrite vdeliver_cases. unfold deliver.
  pose proof HS as [SA SB SC]. rewrite SA, SB, !in_idx_proj, in_orph_proj. fold (ihash i).
  destruct (in_vidx (ihash i) (vidx vs)); [simpl; auto|].
  destruct (sim_unorph vs s (ihash i) HG HS) as [G1 S1]. rewrite SA, SB in S1.
  destruct (in_vidx (bpar (iblk i)) (vidx vs)) eqn:Hpar.
  - (* the parent is indexed: C25's state is [s] with the block taken out of the pool, if it was there *)
    rewrite andb_false_r.
    assert (S1' : Sim (unorph (ihash i) vs)
                    (if in_vorph (ihash i) (vorph vs)
                     then mkS (map nproj (vidx vs)) (remove_orph (ihash i) (map iblk (vorph vs))) (main s) (evs s)
                     else s)).
    { destruct (in_vorph (ihash i) (vorph vs)) eqn:K; [exact S1|].
      constructor; simpl; auto. rewrite (remove_vorph_unknown _ _ K). exact SB. }
    clear S1. revert S1'. generalize (if in_vorph (ihash i) (vorph vs)
      then mkS (map nproj (vidx vs)) (remove_orph (ihash i) (map iblk (vorph vs))) (main s) (evs s) else s).
    intros s1 S1. rewrite (sim_idx _ _ S1), in_idx_proj. cbn [unorph vidx]. rewrite Hpar. cbn [negb].
    destruct (vaccept_sim fin _ s1 i G1 S1 Hv HiB Hpar) as [G2 [S2 [_ [E2 [nd [I1 I2]]]]]].
    destruct (vaccept verr fin (unorph (ihash i) vs) i) as [[vs2 m1] e1].
    destruct (accept fin s1 (iblk i)) as [[s2 m2] e2].
    cbn [fst snd] in G2, S2, E2, I1. destruct E2; simpl; auto.
    assert (Ef : vporph_fuel vs2 = porph_fuel s2).
    { unfold vporph_fuel, porph_fuel. rewrite (sim_orph _ _ S2), map_length. reflexivity. }
    rewrite Ef.
    destruct (vporph_sim (porph_fuel s2) fin [ihash i] vs2 s2 G2 S2) as [G3 [S3 E3]].
    { intros x [Hx|[]]. subst x. rewrite I1, in_vidx_cons, I2, N.eqb_refl. reflexivity. }
    destruct (vporph verr (porph_fuel s2) fin [ihash i] vs2) as [vs3 e3].
    destruct (porph (porph_fuel s2) fin [ihash i] s2) as [s3 e4].
    cbn [fst snd] in G3, S3, E3. destruct E3; simpl; auto.
  - rewrite andb_true_r. destruct (in_vorph (ihash i) (vorph vs)); [simpl; auto|].
    rewrite SA, in_idx_proj, Hpar. simpl. split.
    + apply Good_set_orph; [exact HG|]. intros x Hx. apply in_app_or in Hx.
      destruct Hx as [Hx|[Hx|[]]]; [apply (g_orph vs HG); exact Hx | subst x; split; [exact Hv | exact HiB]].
    + constructor; simpl; auto. rewrite SB, map_app. reflexivity.
Qed.

Lemma Good_init : Good (vinit g) /\ Sim (vinit g) (init g).
Proof.
  split.
  - constructor; simpl.
    + intros n [H|[]]; subst; reflexivity.
    + intros n [H|[]]; subst; left; reflexivity.
    + split; [discriminate | reflexivity].
    + intros h [H|[]]. subst h. unfold in_vidx, find_vnode. simpl. unfold vid. simpl. rewrite N.eqb_refl. reflexivity.
    + intros h b [H|[]]. inversion H; subst. exact Hroot.
    + intros n [H|[]]; subst. unfold vid. simpl. rewrite sget_cons, N.eqb_refl. discriminate.
    + intros n [H|[]]; subst. simpl. exact HgBL.
    + intros o [].
  - constructor; reflexivity.
Qed.

Lemma valid_refines_gen : forall fin hist vs s,
  Good vs -> Sim vs s -> (forall i, In i hist -> ivalid i /\ In (iblk i) BL) ->
  Sim (fold_left (vstep verr fin) hist vs) (fold_left (step fin) (map iblk hist) s).
Proof.
  intros fin hist. induction hist as [|i hist IH]; intros vs s HG HS Hv; simpl; [exact HS|].
  destruct (Hv i (or_introl eq_refl)) as [V1 V2].
  destruct (vdeliver_sim fin vs s i HG HS V1 V2) as [G1 S1].
  apply IH; [exact G1 | exact S1 | intros; apply Hv; right; assumption].
Qed.

Lemma valid_refines_sect : forall fin hist,
  (forall i, In i hist -> ivalid i /\ In (iblk i) BL) ->
  vmain (vrun verr fin g hist) = main (run fin g (map iblk hist))
  /\ vtip (vrun verr fin g hist) = tip (run fin g (map iblk hist)).
Proof.
  intros fin hist Hv. destruct Good_init as [G0 S0].
  pose proof (valid_refines_gen fin hist (vinit g) (init g) G0 S0 Hv) as HS.
  split; [symmetry; apply HS | symmetry; apply sim_tip; exact HS].
Qed.

End Refine.

Lemma valid_refines_C25 : forall (verr : N -> N -> N) (g : block),
  verr (bid g) 0%N = 0%N ->
  forall (fin : Z) (hist : list item),
    (forall i, In i hist -> verr (ihash i) (ibody i) = 0%N) ->
    hconsb (g :: map iblk hist) = true ->
    vmain (vrun verr fin g hist) = main (run fin g (map iblk hist))
    /\ vtip (vrun verr fin g hist) = tip (run fin g (map iblk hist)).
Proof.
  intros verr g Hroot fin hist Hv Hc.
  apply (valid_refines_sect verr g Hroot (g :: map iblk hist) (or_introl eq_refl) (hconsb_spec _ Hc)).
  intros i Hi. split; [apply Hv; exact Hi | right; apply in_map; exact Hi].
Qed.
