(** C27 — states and histories inside the hypotheses of the partial theorems
    (that they are is shown in Properties.v). *)
From Coq Require Import List ZArith NArith Bool.
From C33 Require Import C27.Model C27.ProofsRefute.
Import ListNotations.
Open Scope Z_scope.

(** after the trunk 1..13 and the side block 20 (on 11): the block 21 on 20 with
    the work of an ordinary block fails its state-root check.  It is indexed as a
    side block (its parent is there, it is not heavier than the tip), the guard
    holds, nothing moves — while the heavy version of [ProofsRefute] does move the tip. *)
Definition e_state : vstate := vrun w_verr 0 w_root (w_trunk ++ [w_side12]).
Definition e_light13 : item := mkI (mkB 21 20 13 1) 0 PSync.

(** a fresh valid block on an indexed parent: the hypotheses of the no-poison
    theorem hold after a history that contains a rejected block with another hash *)
Definition f_hist : list item := [mkI (mkB 1 0 1 1) 0 PBcast; mkI (mkB 5 1 2 1) 0 PDown].
Definition f_verr (h b : N) : N := if N.eqb h 5 then 4%N else 0%N.
Definition f_item : item := mkI (mkB 2 1 2 1) 0 PSync.

(** inside the guard of [rejected_invisible_partial]: after [o_hist], block 4
    on 2 arrives on the download path, fails and is deleted from the index, and
    its valid sibling 5 is connected.  The history that refutes
    [C27_rejected_no_effect_full] (a rejected block high and heavy enough to
    start a reorganisation) is outside the guard. *)
Definition q_hist : list item := o_hist ++ [mkI (mkB 4 2 3 1) 0 PDown; mkI (mkB 5 2 3 1) 0 PSync].
Definition q_verr (h b : N) : N := if N.eqb h 3 || N.eqb h 4 then 5%N else 0%N.
