(** C27 — "rejected blocks are as if they had never arrived", for histories
    whose rejected blocks stay clear of the findings that are still open:
    every delivery that fails a validity check
      - is below the reorganisation margin (it cannot start a reorganisation:
        finding 2),
      - has a hash under which no valid delivery arrives (no poisoning:
        finding 1),
      - is nobody's parent (no block is indexed or attached through it:
        findings 1 and 2).
    Such blocks may arrive on any path, before or after their parents, wait in
    the orphan pool in front of valid blocks, be executed and fail, or stay
    unexecuted side blocks.  The run over the whole history and the run over
    the valid deliveries only are related step by step ([Rel]); in particular
    the best chains are equal.  The proof needs the repaired ProcessOrphans:
    a refused orphan no longer keeps its siblings in the pool. *)
From Coq Require Import List ZArith NArith Bool Lia.
From C33 Require Import C27.Model C27.Proofs C27.ProofsRefute C27.Proofs2.
Import ListNotations.
Open Scope Z_scope.

Definition bad_hash (verr : N -> N -> N) (U : list item) (h : N) : bool :=
  existsb (fun j => N.eqb (ihash j) h && negb (valid_item verr j)) U.

Definition quiet_rejects (verr : N -> N -> N) (fin : Z) (g : block) (U : list item) : bool :=
  N.eqb (verr (bid g) 0%N) 0%N &&
  forallb (fun j =>
    valid_item verr j ||
    ((bht (iblk j) <? fin + margin)
     && negb (N.eqb (ihash j) (bid g))
     && negb (N.eqb (bpar g) (ihash j))
     && forallb (fun k => negb (N.eqb (ihash k) (ihash j)) || negb (valid_item verr k)) U
     && forallb (fun k => negb (N.eqb (bpar (iblk k)) (ihash j))) U)) U.

Lemma filter_filter_absorb : forall (A : Type) (P Q : A -> bool) l,
  (forall x, In x l -> P x = true -> Q x = true) -> filter P (filter Q l) = filter P l.
Proof.
  intros A P Q l. induction l as [|a l IH]; intros H; simpl; [reflexivity|].
  destruct (Q a) eqn:Qa; simpl.
  - destruct (P a); [f_equal|]; apply IH; intros; apply H; auto; right; assumption.
  - destruct (P a) eqn:Pa.
    + rewrite (H a (or_introl eq_refl) Pa) in Qa. discriminate.
    + apply IH. intros; apply H; auto; right; assumption.
Qed.

Lemma filter_comm : forall (A : Type) (P Q : A -> bool) l, filter P (filter Q l) = filter Q (filter P l).
Proof.
  intros A P Q l. induction l as [|a l IH]; simpl; [reflexivity|].
  destruct (Q a) eqn:Qa; destruct (P a) eqn:Pa; simpl; rewrite ?Qa, ?Pa, IH; reflexivity.
Qed.

(** [f] only touches what [Q] drops *)
Lemma filter_map_fixed : forall (A : Type) (Q : A -> bool) (f : A -> A) l,
  (forall x, In x l -> if Q x then f x = x else Q (f x) = false) -> filter Q (map f l) = filter Q l.
Proof.
  intros A Q f l. induction l as [|a l IH]; intros H; simpl; [reflexivity|].
  pose proof (H a (or_introl eq_refl)) as Ha. rewrite IH by (intros; apply H; right; assumption).
  destruct (Q a) eqn:Qa; [rewrite Ha, Qa | rewrite Ha]; reflexivity.
Qed.

Lemma filter_length_lt : forall (A : Type) (f : A -> bool) l x,
  In x l -> f x = false -> (length (filter f l) < length l)%nat.
Proof.
  intros A f l x. induction l as [|a l IH]; intros Hin Hf; [destruct Hin|].
  assert (Hle : forall l', (length (filter f l') <= length l')%nat).
  { induction l' as [|b l' IHl]; simpl; [lia|]. destruct (f b); simpl; lia. }
  simpl. destruct Hin as [E|Hin].
  - subst a. rewrite Hf. specialize (Hle l). lia.
  - specialize (IH Hin Hf). destruct (f a); simpl; lia.
Qed.

(** fuel of ProcessOrphans: each round shortens the queue or the pool *)
Definition need (q : list N) (s : vstate) : nat := 2 * length (vorph s) + length q + 1.

Lemma need_requeue : forall e q s c s1,
  In c (vorph s) -> vorph s1 = remove_vorph (ihash c) (vorph s) ->
  (need (requeue e q (ihash c)) s1 < need q s)%nat.
Proof.
  intros e q s c s1 Hc E. unfold need, requeue. rewrite E.
  assert (length (remove_vorph (ihash c) (vorph s)) < length (vorph s))%nat.
  { apply (filter_length_lt _ _ _ c Hc). rewrite N.eqb_refl. reflexivity. }
  destruct (is_none e); [rewrite app_length; simpl|]; lia.
Qed.

Section Invisible.
Variable verr : N -> N -> N.
Variable fin : Z.
Variable g : block.
Variable U : list item.
Hypothesis HQ : quiet_rejects verr fin g U = true.

Let bad := bad_hash verr U.
Definition nbn (n : vnode) : bool := negb (bad (vid n)).
Definition nbi (i : item) : bool := negb (bad (ihash i)).
Definition nbh (h : N) : bool := negb (bad h).

Lemma q_root_valid : verr (bid g) 0%N = 0%N.
Proof. unfold quiet_rejects in HQ. apply andb_prop in HQ. destruct HQ as [A _]. apply N.eqb_eq. exact A. Qed.

Lemma q_item : forall j, In j U -> valid_item verr j = false ->
  (bht (iblk j) <? fin + margin) = true
  /\ N.eqb (ihash j) (bid g) = false
  /\ N.eqb (bpar g) (ihash j) = false
  /\ (forall k, In k U -> ihash k = ihash j -> valid_item verr k = false)
  /\ (forall k, In k U -> N.eqb (bpar (iblk k)) (ihash j) = false).
Proof.
  intros j Hj Hv. unfold quiet_rejects in HQ. apply andb_prop in HQ. destruct HQ as [_ A].
  rewrite forallb_forall in A. specialize (A j Hj). rewrite Hv in A. simpl in A.
  apply andb_prop in A. destruct A as [A A5]. apply andb_prop in A. destruct A as [A A4].
  apply andb_prop in A. destruct A as [A A3]. apply andb_prop in A. destruct A as [A1 A2].
  split; [exact A1|]. split; [apply negb_true_iff; exact A2|]. split; [apply negb_true_iff; exact A3|]. split.
  - intros k Hk E. rewrite forallb_forall in A4. specialize (A4 k Hk). rewrite E, N.eqb_refl in A4. simpl in A4.
    apply negb_true_iff. exact A4.
  - intros k Hk. rewrite forallb_forall in A5. specialize (A5 k Hk). apply negb_true_iff. exact A5.
Qed.

Lemma bad_intro : forall j, In j U -> valid_item verr j = false -> bad (ihash j) = true.
Proof.
  intros j Hj Hv. unfold bad, bad_hash. apply existsb_exists. exists j. split; [exact Hj|].
  rewrite N.eqb_refl, Hv. reflexivity.
Qed.

Lemma bad_inv : forall h, bad h = true ->
  N.eqb h (bid g) = false
  /\ N.eqb (bpar g) h = false
  /\ (forall k, In k U -> ihash k = h -> valid_item verr k = false)
  /\ (forall k, In k U -> N.eqb (bpar (iblk k)) h = false).
Proof.
  intros h H. unfold bad, bad_hash in H. apply existsb_exists in H. destruct H as [j [Hj E]].
  apply andb_prop in E. destruct E as [E1 E2]. apply N.eqb_eq in E1. apply negb_true_iff in E2. subst h.
  exact (proj2 (q_item j Hj E2)).
Qed.

Lemma valid_nb : forall j, In j U -> valid_item verr j = true -> bad (ihash j) = false.
Proof.
  intros j Hj Hv. destruct (bad (ihash j)) eqn:E; [|reflexivity].
  destruct (bad_inv _ E) as [_ [_ [A _]]]. rewrite (A j Hj eq_refl) in Hv. discriminate.
Qed.

Lemma bad_item : forall j, In j U -> bad (ihash j) = true -> valid_item verr j = false.
Proof.
  intros j Hj Hb. destruct (valid_item verr j) eqn:E; [|reflexivity]. rewrite (valid_nb j Hj E) in Hb. discriminate.
Qed.

Lemma par_nb : forall k, In k U -> bad (bpar (iblk k)) = false.
Proof.
  intros k Hk. destruct (bad (bpar (iblk k))) eqn:E; [|reflexivity].
  destruct (bad_inv _ E) as [_ [_ [_ A]]]. specialize (A k Hk). rewrite N.eqb_refl in A. discriminate.
Qed.

Lemma root_nb : bad (bid g) = false.
Proof.
  destruct (bad (bid g)) eqn:E; [|reflexivity].
  destruct (bad_inv _ E) as [A _]. rewrite N.eqb_refl in A. discriminate.
Qed.

Lemma rootpar_nb : bad (bpar g) = false.
Proof.
  destruct (bad (bpar g)) eqn:E; [|reflexivity].
  destruct (bad_inv _ E) as [_ [A _]]. rewrite N.eqb_refl in A. discriminate.
Qed.

Lemma bad_ne : forall h k, bad h = false -> bad k = true -> N.eqb k h = false.
Proof. intros h k A B. destruct (N.eqb k h) eqn:E; [|reflexivity]. apply N.eqb_eq in E. subst. congruence. Qed.

Lemma nbh_cons : forall p q, filter nbh (p :: q) = if bad p then filter nbh q else p :: filter nbh q.
Proof. intros p q. cbn [filter]. unfold nbh at 1. destruct (bad p); reflexivity. Qed.

Lemma nbh_requeue : forall e q h,
  filter nbh (requeue e q h) = if bad h then filter nbh q else requeue e (filter nbh q) h.
Proof.
  intros e q h. unfold requeue. destruct (is_none e); [|destruct (bad h); reflexivity].
  rewrite filter_app, nbh_cons. destruct (bad h); [apply app_nil_r | reflexivity].
Qed.

Lemma find_vnode_nb : forall h ix, bad h = false -> find_vnode h (filter nbn ix) = find_vnode h ix.
Proof. intros h ix H. apply find_vnode_filter. intros n E. unfold nbn. rewrite E, H. reflexivity. Qed.

Lemma in_vidx_nb : forall h ix, bad h = false -> in_vidx h (filter nbn ix) = in_vidx h ix.
Proof. intros. unfold in_vidx. rewrite find_vnode_nb by assumption. reflexivity. Qed.

Lemma in_vorph_nb : forall h o, bad h = false -> in_vorph h (filter nbi o) = in_vorph h o.
Proof.
  intros h o H. unfold in_vorph. induction o as [|a o IH]; simpl; [reflexivity|].
  destruct (nbi a) eqn:E; simpl; rewrite IH; [reflexivity|].
  unfold nbi in E. apply negb_false_iff in E. rewrite (bad_ne h (ihash a) H E). reflexivity.
Qed.

Lemma remove_vorph_bad : forall h o, bad h = true -> filter nbi (remove_vorph h o) = filter nbi o.
Proof.
  intros h o H. apply filter_filter_absorb. intros x _ Hx.
  apply negb_true_iff in Hx. cbv beta. rewrite N.eqb_sym, (bad_ne _ _ Hx H). reflexivity.
Qed.

Lemma vbranch_nb : forall ix mn, (forall n, In n ix -> bad (bpar (vblk n)) = false) ->
  forall fuel h, bad h = false ->
  vbranch fuel (filter nbn ix) mn h = vbranch fuel ix mn h
  /\ (forall p fk, vbranch fuel ix mn h = BFork p fk -> In fk mn /\ forall x, In x p -> bad x = false).
Proof.
  intros ix mn Hpar fuel. induction fuel as [|f IH]; intros h Hh; simpl.
  { split; [reflexivity | intros; discriminate]. }
  destruct (memN h mn) eqn:M.
  { split; [reflexivity|]. intros p fk E. inversion E; subst. split; [apply memN_in; exact M | intros x []]. }
  rewrite find_vnode_nb by exact Hh.
  destruct (find_vnode h ix) as [n|] eqn:F; [|split; [reflexivity | intros; discriminate]].
  destruct (find_vnode_some _ _ _ F) as [Hn _].
  destruct (vcut n); [split; [reflexivity | intros; discriminate]|].
  destruct (IH (bpar (vblk n)) (Hpar n Hn)) as [E P]. rewrite E.
  destruct (vbranch f ix mn (bpar (vblk n))) as [| |p fk]; try (split; [reflexivity | intros; discriminate]).
  split; [reflexivity|]. intros p0 fk0 E0. inversion E0; subst. destruct (P p fk0 eq_refl) as [P1 P2].
  split; [exact P1|]. intros x [Hx|Hx]; [subst; exact Hh | exact (P2 x Hx)].
Qed.

(** the run with ([F]) and the run without ([V]) the rejected blocks *)
Record Rel (F V : vstate) : Prop := mkRel {
  r_main  : vmain F = vmain V;
  r_idx   : filter nbn (vidx F) = vidx V;
  r_orph  : filter nbi (vorph F) = vorph V;
  r_store : forall h, bad h = false -> sget h (vstore F) = sget h (vstore V)
}.

(** what the first run keeps up: nothing hangs on a rejected block, and what
    the second run can see of the block table passed the checks (so that a
    reorganisation never fails half-way) *)
Record GoodF (F : vstate) : Prop := mkGF {
  f_parnb  : forall n, In n (vidx F) -> bad (bpar (vblk n)) = false;
  f_orphU  : forall o, In o (vorph F) -> In o U;
  f_main   : vmain F <> [];
  f_mainnb : forall h, In h (vmain F) -> bad h = false;
  f_store  : forall h b, In (h, b) (vstore F) -> bad h = false -> verr h b = 0%N
}.

Lemma tip_nb : forall F, GoodF F -> bad (vtip F) = false.
Proof.
  intros F GF. pose proof (f_main F GF) as A. apply (f_mainnb F GF). unfold vtip.
  destruct (vmain F); [contradiction | left; reflexivity].
Qed.

Lemma GoodF_set_orph : forall F o, GoodF F -> (forall x, In x o -> In x U) ->
  GoodF (mkV (vidx F) o (vmain F) (vstore F)).
Proof. intros F o [A B C D E] H. constructor; simpl; auto. Qed.

Lemma GoodF_unorph : forall F h, GoodF F -> GoodF (unorph h F).
Proof.
  intros F h GF. apply GoodF_set_orph; [exact GF|].
  intros x Hx. apply (f_orphU F GF). exact (remove_vorph_in _ _ _ Hx).
Qed.

Lemma GoodF_orphaned : forall F i, GoodF F -> In i U ->
  GoodF (mkV (vidx F) (vorph F ++ [i]) (vmain F) (vstore F)).
Proof.
  intros F i GF Hi. apply GoodF_set_orph; [exact GF|]. intros x Hx. apply in_app_or in Hx.
  destruct Hx as [Hx|[Hx|[]]]; [apply (f_orphU F GF); exact Hx | subst; exact Hi].
Qed.

(** the node and the body of a delivery of [U] may join; if its hash is not
    that of a rejected block the body passed the checks *)
Lemma GoodF_indexed : forall F i td,
  GoodF F -> In i U ->
  GoodF (mkV (mkVN (iblk i) td false (is_down (ipath i)) false :: vidx F) (vorph F) (vmain F)
             (maybe_store (bid (iblk i)) (ibody i) (vstore F))).
Proof.
  intros F i td [GP GO GN GM GS] Hi. constructor; simpl; auto.
  - intros n [Hn|Hn]; [subst n; exact (par_nb i Hi) | apply GP; exact Hn].
  - intros h b Hin Hh. apply maybe_store_in in Hin. destruct Hin as [Hin|Hin]; [|apply GS; assumption].
    inversion Hin; subst. destruct (valid_item verr i) eqn:Vi; [apply N.eqb_eq; exact Vi|].
    pose proof (bad_intro i Hi Vi) as Hb. unfold ihash in Hb. congruence.
Qed.

Lemma Rel_unorph : forall F V h, Rel F V -> Rel (unorph h F) (unorph h V).
Proof.
  intros F V h [A B C D]. constructor; simpl; auto. rewrite <- C. apply filter_comm.
Qed.

Lemma Rel_unorph_bad : forall F V h, bad h = true -> Rel F V -> Rel (unorph h F) V.
Proof.
  intros F V h Hb [A B C D]. constructor; simpl; auto. rewrite remove_vorph_bad by exact Hb. exact C.
Qed.

Lemma load_all_rel : forall stF stV p,
  (forall h, bad h = false -> sget h stF = sget h stV) ->
  (forall x, In x p -> bad x = false) -> load_all stF p = load_all stV p.
Proof.
  intros stF stV p RS. induction p as [|h p IH]; intros Hp; simpl; [reflexivity|].
  rewrite (RS h (Hp h (or_introl eq_refl))). rewrite IH; [reflexivity|]. intros; apply Hp; right; assumption.
Qed.

Lemma store_app_rel : forall stF stV l,
  (forall h, bad h = false -> sget h stF = sget h stV) ->
  forall h, bad h = false -> sget h (l ++ stF) = sget h (l ++ stV).
Proof.
  intros stF stV l RS h Hh. induction l as [|[k b] l IH]; simpl; [apply RS; exact Hh|].
  rewrite !sget_cons. destruct (N.eqb k h); [reflexivity | exact IH].
Qed.

Lemma maybe_store_rel : forall stF stV k b,
  (forall h, bad h = false -> sget h stF = sget h stV) -> bad k = false ->
  forall h, bad h = false -> sget h (maybe_store k b stF) = sget h (maybe_store k b stV).
Proof.
  intros stF stV k b RS Hk h Hh. unfold maybe_store. rewrite <- (RS k Hk).
  destruct (sget k stF); [apply RS; exact Hh|]. rewrite !sget_cons. destruct (N.eqb k h); [reflexivity | apply RS; exact Hh].
Qed.

(** a valid block: both runs make the same move *)
Lemma attached_rel : forall F V lp mn,
  GoodF F -> Rel F V -> mn <> [] -> (forall h, In h mn -> bad h = false) ->
  (forall h x, In (h, x) lp -> verr h x = 0%N) ->
  GoodF (mkV (vidx F) (vorph F) mn (lp ++ vstore F))
  /\ Rel (mkV (vidx F) (vorph F) mn (lp ++ vstore F)) (mkV (vidx V) (vorph V) mn (lp ++ vstore V)).
Proof.
  intros F V lp mn [GP GO GN GM GS] [RM RI RO RS] Hne Hnb Hlp. split; constructor; simpl; auto.
  - intros h x Hx Hh. apply in_app_or in Hx. destruct Hx as [Hx|Hx]; [apply Hlp; exact Hx | apply GS; assumption].
  - apply store_app_rel. exact RS.
Qed.

Lemma vconnect_best_valid_rel : forall F V b td body,
  GoodF F -> Rel F V -> verr (bid b) body = 0%N -> bad (bid b) = false ->
  let rF := vconnect_best verr fin F b td body in
  let rV := vconnect_best verr fin V b td body in
  GoodF (fst (fst rF)) /\ Rel (fst (fst rF)) (fst (fst rV))
  /\ snd (fst rF) = snd (fst rV) /\ snd rF = snd rV.
Proof.
  intros F V b td body GF RL Hv Hb. cbv zeta.
  pose proof GF as [GP GO GN GM GS]. pose proof RL as [RM RI RO RS].
  unfold vconnect_best. unfold vtip. rewrite <- RM. fold (vtip F).
  destruct (N.eqb (bpar b) (vtip F)).
  - unfold connect_block. rewrite Hv. cbn [N.eqb fst snd].
    destruct (attached_rel F V [(bid b, body)] (bid b :: vmain F) GF RL) as [G1 R1].
    + discriminate.
    + intros h [H|H]; [subst h; exact Hb | apply GM; exact H].
    + intros h x [H|[]]. inversion H; subst. exact Hv.
    + rewrite <- RM. exact (conj G1 (conj R1 (conj eq_refl eq_refl))).
  - rewrite <- RI. rewrite (find_vnode_nb _ _ (tip_nb F GF)).
    destruct (find_vnode (vtip F) (vidx F)) as [t|]; [|simpl; auto].
    destruct (vbranch_nb (vidx F) (vmain F) GP (S (Z.to_nat (bht b))) (bid b) Hb) as [EB PB].
    rewrite EB.
    destruct ((td <=? vtd t) || (bht b <? fin + margin)).
    + destruct (vbranch _ (vidx F) _ _); simpl; auto.
    + destruct (vbranch (S (Z.to_nat (bht b))) (vidx F) (vmain F) (bid b)) as [| |p fk]; simpl; auto.
      destruct (PB p fk eq_refl) as [Hfk Hp].
      rewrite <- (load_all_rel (vstore F) (vstore V) (rev p) RS) by (intros x Hx; apply Hp, in_rev; exact Hx).
      destruct (load_all (vstore F) (rev p)) as [lp|] eqn:L; [|simpl; auto].
      pose proof (load_all_fst _ _ _ L) as L2.
      (* what is loaded from the table under the hashes of the branch passed the checks *)
      assert (Hlp : forall h x, In (h, x) lp -> verr h x = 0%N).
      { intros h x Hx. apply GS.
        - apply sget_in. exact (load_all_in _ _ _ L h x Hx).
        - apply Hp, in_rev. rewrite <- L2. exact (in_map fst _ _ Hx). }
      rewrite !attach_valid by exact Hlp. cbn [fst snd vidx vorph vmain vstore]. rewrite RI.
      destruct (attached_rel F V (rev lp) (rev (map fst lp) ++ drop_until fk (vmain F)) GF RL) as [G1 R1].
      * intro E. apply app_eq_nil in E. destruct E as [_ E]. exact (proj1 (drop_until_last fk _ 0%N Hfk) E).
      * intros h Hh. apply in_app_or in Hh. destruct Hh as [Hh|Hh].
        -- apply Hp. rewrite L2, rev_involutive in Hh. exact Hh.
        -- apply GM. exact (drop_until_in _ _ _ Hh).
      * intros h x Hx. apply Hlp, in_rev. exact Hx.
      * exact (conj G1 (conj R1 (conj eq_refl eq_refl))).
Qed.

Lemma vaccept_valid_rel : forall F V i,
  GoodF F -> Rel F V -> In i U -> valid_item verr i = true ->
  let rF := vaccept verr fin F i in
  let rV := vaccept verr fin V i in
  GoodF (fst (fst rF)) /\ Rel (fst (fst rF)) (fst (fst rV))
  /\ snd (fst rF) = snd (fst rV) /\ snd rF = snd rV.
Proof.
  intros F V i GF RL Hi Hv. cbv zeta.
  pose proof (valid_nb i Hi Hv) as Hnb. pose proof (par_nb i Hi) as Hpnb. unfold ihash in Hnb.
  unfold vaccept. rewrite <- (r_idx F V RL), (find_vnode_nb _ _ Hpnb).
  destruct (find_vnode (bpar (iblk i)) (vidx F)) as [p|]; [|simpl; auto].
  destruct (negb (bht (iblk i) =? bht (vblk p) + 1)); [simpl; auto|].
  apply vconnect_best_valid_rel; [apply GoodF_indexed; assumption | | apply N.eqb_eq; exact Hv | exact Hnb].
  destruct RL as [RM RI RO RS]. constructor; simpl; auto.
  - unfold nbn at 1, vid at 1. cbn [vblk]. rewrite Hnb. reflexivity.
  - apply maybe_store_rel; assumption.
Qed.

(** a rejected block: only the first run moves, and only where the second does
    not look.  handleErrBlk cuts nothing: the block has no child in the index *)
Lemma fail_vnode_bad : forall k F,
  GoodF F -> bad k = true ->
  GoodF (mkV (fail_vnode k (vidx F)) (vorph F) (vmain F) (vstore F))
  /\ filter nbn (fail_vnode k (vidx F)) = filter nbn (vidx F).
Proof.
  intros k F GF Hk. pose proof GF as [GP GO GN GM GS]. split.
  - constructor; simpl; auto.
    intros n Hn. apply fail_vnode_from in Hn. destruct Hn as [m [Hm E]]. rewrite <- E. apply GP; exact Hm.
  - unfold fail_vnode. destruct (find_vnode k (vidx F)) as [x|]; [|reflexivity].
    destruct (vdl x).
    + rewrite filter_map_fixed.
      * apply filter_filter_absorb. intros n _ Hn. apply negb_true_iff in Hn.
        cbv beta. rewrite N.eqb_sym, (bad_ne _ _ Hn Hk). reflexivity.
      * intros n Hn. apply filter_In in Hn. destruct Hn as [Hn _]. cbv beta.
        rewrite (N.eqb_sym (bpar (vblk n))), (bad_ne _ _ (GP n Hn) Hk). destruct (nbn n); reflexivity.
    + apply filter_map_fixed. intros n _. destruct (N.eqb (vid n) k) eqn:E.
      * apply N.eqb_eq in E. unfold nbn. rewrite mark_err_vid, E, Hk. reflexivity.
      * destruct (nbn n); reflexivity.
Qed.

Lemma vaccept_bad_rel : forall F V i,
  GoodF F -> Rel F V -> In i U -> valid_item verr i = false ->
  let rF := vaccept verr fin F i in
  GoodF (fst (fst rF)) /\ Rel (fst (fst rF)) V /\ stops (snd rF) = false.
Proof.
  intros F V i GF RL Hi Hv. cbv zeta.
  pose proof (bad_intro i Hi Hv) as Hb. unfold ihash in Hb.
  destruct (q_item i Hi Hv) as [Hlow _].
  unfold vaccept.
  destruct (find_vnode (bpar (iblk i)) (vidx F)) as [p|]; [|simpl; auto].
  destruct (negb (bht (iblk i) =? bht (vblk p) + 1)); [simpl; auto|].
  match goal with |- context [vconnect_best verr fin ?S ?B ?TD ?BODY] =>
    set (F1 := S); pose proof (vconnect_best_rejected verr fin F1 B TD BODY Hv) as R end.
  assert (G1 : GoodF F1) by (apply GoodF_indexed; assumption).
  assert (R1 : Rel F1 V).
  { destruct RL as [RM RI RO RS]. constructor; simpl; auto.
    - unfold nbn at 1, vid at 1. cbn [vblk]. rewrite Hb. exact RI.
    - intros h Hh. rewrite sget_maybe_store_other; [apply RS; exact Hh | apply bad_ne; assumption]. }
  clearbody F1.
  destruct (N.eqb (bpar (iblk i)) (vtip F1)).
  - (* on the tip: executed, fails, its node is marked or deleted *)
    rewrite R by discriminate. cbn [fst snd].
    destruct (fail_vnode_bad (bid (iblk i)) F1 G1 Hb) as [G2 E2].
    split; [exact G2 | split; [|reflexivity]].
    destruct R1 as [A B C D]. constructor; simpl; auto. rewrite E2. exact B.
  - destruct R as [e [R He]]; [intros _ t _; rewrite Hlow; apply orb_true_r|].
    rewrite R. cbn [fst snd]. auto.
Qed.

Lemma vaccept_need : forall q s c, In c (vorph s) ->
  let r := vaccept verr fin (unorph (ihash c) s) c in
  (need (requeue (snd r) q (ihash c)) (fst (fst r)) < need q s)%nat.
Proof.
  intros q s c Hc r. destruct (vaccept_frame verr fin (unorph (ihash c) s) c) as [O _].
  exact (need_requeue (snd r) q s c (fst (fst r)) Hc O).
Qed.

Lemma no_child_of_bad : forall F p, GoodF F -> bad p = true -> first_vchild p (vorph F) = None.
Proof.
  intros F p GF Hp. unfold first_vchild. destruct (find _ (vorph F)) as [c|] eqn:E; [|reflexivity].
  apply find_some in E. destruct E as [Hc E]. apply N.eqb_eq in E.
  pose proof (par_nb c (f_orphU F GF c Hc)) as A. rewrite E in A. congruence.
Qed.

(** the second run's queue is the first run's without the rejected blocks;
    each run has the fuel it needs *)
Lemma vporph_rel : forall fF qF F fV V,
  GoodF F -> Rel F V -> (need qF F <= fF)%nat -> (need (filter nbh qF) V <= fV)%nat ->
  let rF := vporph verr fF fin qF F in
  let rV := vporph verr fV fin (filter nbh qF) V in
  GoodF (fst rF) /\ Rel (fst rF) (fst rV) /\ snd rF = snd rV.
Proof.
  induction fF as [|f IH]; intros qF F fV V GF RL HnF HnV; cbv zeta; [unfold need in HnF; lia|].
  destruct fV as [|fv]; [unfold need in HnV; lia|].
  destruct qF as [|p q']; [simpl; auto|].
  assert (HnF' : (need q' F <= f)%nat) by (unfold need in *; simpl in HnF; lia).
  rewrite vporph_step. pose proof (nbh_cons p q') as Ep.
  destruct (bad p) eqn:Bp.
  { (* a rejected block in the queue: nobody waits for it *)
    rewrite (no_child_of_bad F p GF Bp), Ep. apply IH; auto. rewrite <- Ep. exact HnV. }
  destruct (first_vchild p (vorph F)) as [c|] eqn:Fc.
  2:{ rewrite Ep, vporph_step, <- (r_orph F V RL). unfold first_vchild. rewrite find_filter_none by exact Fc.
      apply IH; auto. rewrite Ep in HnV. unfold need in *. simpl in HnV. lia. }
  assert (Hc : In c (vorph F)) by (apply find_some in Fc; tauto).
  pose proof (f_orphU F GF c Hc) as HcU.
  pose proof (GoodF_unorph F (ihash c) GF) as G0.
  pose proof (vaccept_need (p :: q') F c Hc) as N1. pose proof nbh_requeue as Eq.
  destruct (valid_item verr c) eqn:Vc.
  - (* a valid orphan: the second run finds the same one *)
    pose proof (valid_nb c HcU Vc) as Cnb.
    rewrite Ep, vporph_step, <- Ep.
    assert (FcV : first_vchild p (vorph V) = Some c).
    { rewrite <- (r_orph F V RL). apply find_filter_some; [exact Fc|]. unfold nbi. rewrite Cnb. reflexivity. }
    rewrite FcV.
    assert (HcV : In c (vorph V)) by (apply find_some in FcV; tauto).
    pose proof (vaccept_need (filter nbh (p :: q')) V c HcV) as N2.
    destruct (vaccept_valid_rel _ _ c G0 (Rel_unorph F V (ihash c) RL) HcU Vc) as [G1 [R1 [_ E1]]].
    destruct (vaccept verr fin (unorph (ihash c) F) c) as [[F1 m1] e].
    destruct (vaccept verr fin (unorph (ihash c) V) c) as [[V1 m2] e2].
    cbn [fst snd] in G1, R1, E1, N1, N2. subst e2.
    destruct (stops e); [auto|].
    specialize (Eq e (p :: q') (ihash c)). rewrite Cnb in Eq.
    rewrite <- Eq. apply IH; auto; [|rewrite Eq]; lia.
  - (* a rejected orphan: dropped by the first run, unknown to the second *)
    pose proof (bad_intro c HcU Vc) as Cb.
    destruct (vaccept_bad_rel _ V c G0 (Rel_unorph_bad F V (ihash c) Cb RL) HcU Vc) as [G1 [R1 E1]].
    destruct (vaccept verr fin (unorph (ihash c) F) c) as [[F1 m1] e].
    cbn [fst snd] in G1, R1, E1, N1. rewrite E1.
    specialize (Eq e (p :: q') (ihash c)). rewrite Cb in Eq.
    rewrite <- Eq. apply IH; auto; [lia | rewrite Eq; exact HnV].
Qed.

Lemma vdeliver_valid_rel : forall F V i,
  GoodF F -> Rel F V -> In i U -> valid_item verr i = true ->
  GoodF (fst (vdeliver verr fin F i)) /\ Rel (fst (vdeliver verr fin F i)) (fst (vdeliver verr fin V i))
  /\ snd (vdeliver verr fin F i) = snd (vdeliver verr fin V i).
Proof.
  intros F V i GF RL Hi Hv.
  pose proof (valid_nb i Hi Hv) as Hnb. pose proof (par_nb i Hi) as Hpnb.
  rewrite !vdeliver_cases.
  rewrite <- (r_idx F V RL), <- (r_orph F V RL), !in_vidx_nb, in_vorph_nb by assumption.
  destruct (in_vidx (ihash i) (vidx F)); [auto|].
  destruct (in_vidx (bpar (iblk i)) (vidx F)).
  - destruct (vaccept_valid_rel _ _ i (GoodF_unorph F (ihash i) GF) (Rel_unorph F V (ihash i) RL) Hi Hv)
      as [G2 [R2 [M2 E2]]].
    destruct (vaccept verr fin (unorph (ihash i) F) i) as [[F2 m1] e].
    destruct (vaccept verr fin (unorph (ihash i) V) i) as [[V2 m2] e2].
    cbn [fst snd] in G2, R2, M2, E2. subst e2 m2.
    destruct (is_none e); [|auto].
    pose proof (vporph_rel (vporph_fuel F2) [ihash i] F2 (vporph_fuel V2) V2 G2 R2) as H.
    cbv zeta in H. rewrite nbh_cons, Hnb in H. cbn [filter] in H. destruct H as [G3 [R3 E3]]; [unfold need, vporph_fuel; simpl; lia ..|].
    destruct (vporph verr (vporph_fuel F2) fin [ihash i] F2) as [F3 e3].
    destruct (vporph verr (vporph_fuel V2) fin [ihash i] V2) as [V3 e4].
    cbn [fst snd] in G3, R3, E3. subst e4. auto.
  - destruct (in_vorph (ihash i) (vorph F)); [auto|]. cbn [fst snd]. split; [|split; [|reflexivity]].
    + apply GoodF_orphaned; assumption.
    + destruct RL as [A B C D]. constructor; simpl; auto.
      rewrite filter_app. cbn [filter]. unfold nbi at 2. rewrite Hnb. reflexivity.
Qed.

Lemma vdeliver_bad_rel : forall F V i,
  GoodF F -> Rel F V -> In i U -> valid_item verr i = false ->
  GoodF (fst (vdeliver verr fin F i)) /\ Rel (fst (vdeliver verr fin F i)) V.
Proof.
  intros F V i GF RL Hi Hv.
  pose proof (bad_intro i Hi Hv) as Hb.
  rewrite vdeliver_cases.
  destruct (in_vidx (ihash i) (vidx F)); [auto|].
  destruct (in_vidx (bpar (iblk i)) (vidx F)).
  - destruct (vaccept_bad_rel _ V i (GoodF_unorph F (ihash i) GF) (Rel_unorph_bad F V (ihash i) Hb RL) Hi Hv)
      as [G2 [R2 _]].
    destruct (vaccept verr fin (unorph (ihash i) F) i) as [[F2 m1] e]. cbn [fst] in G2, R2.
    destruct (is_none e); [|auto].
    (* ProcessOrphans for the rejected block: the second run has nothing to do *)
    pose proof (vporph_rel (vporph_fuel F2) [ihash i] F2 (S (2 * length (vorph V))) V G2 R2) as H.
    cbv zeta in H. rewrite nbh_cons, Hb in H. destruct H as [G3 [R3 _]]; [unfold need, vporph_fuel; simpl; lia ..|].
    cbn [filter vporph fst] in R3.
    destruct (vporph verr (vporph_fuel F2) fin [ihash i] F2) as [F3 e3]. auto.
  - destruct (in_vorph (ihash i) (vorph F)); [auto|]. cbn [fst]. split.
    + apply GoodF_orphaned; assumption.
    + destruct RL as [A B C D]. constructor; simpl; auto.
      rewrite filter_app. cbn [filter]. unfold nbi at 2. rewrite Hb. rewrite app_nil_r. exact C.
Qed.

Lemma vrun_rel : forall l, incl l U -> forall F V,
  GoodF F -> Rel F V ->
  Rel (fold_left (vstep verr fin) l F) (fold_left (vstep verr fin) (filter (valid_item verr) l) V).
Proof.
  induction l as [|i l IH]; intros Hl F V GF RL; simpl; [exact RL|].
  assert (Hi : In i U) by (apply Hl; left; reflexivity).
  assert (Hl' : incl l U) by (intros x Hx; apply Hl; right; exact Hx).
  destruct (valid_item verr i) eqn:Vi; simpl.
  - destruct (vdeliver_valid_rel F V i GF RL Hi Vi) as [G1 [R1 _]]. apply IH; assumption.
  - destruct (vdeliver_bad_rel F V i GF RL Hi Vi) as [G1 R1]. apply IH; assumption.
Qed.

Lemma init_rel : GoodF (vinit g) /\ Rel (vinit g) (vinit g).
Proof.
  split.
  - constructor; simpl.
    + intros n [H|[]]; subst; simpl. exact rootpar_nb.
    + intros o [].
    + discriminate.
    + intros h [H|[]]; subst. exact root_nb.
    + intros h b [H|[]] _. inversion H; subst. exact q_root_valid.
  - constructor; simpl; auto. unfold nbn. unfold vid. simpl. rewrite root_nb. reflexivity.
Qed.

End Invisible.

Lemma rejected_invisible_partial : forall (verr : N -> N -> N) (fin : Z) (g : block) (hist : list item),
  quiet_rejects verr fin g hist = true ->
  vmain (vrun verr fin g hist) = vmain (vrun verr fin g (filter (valid_item verr) hist))
  /\ vtip (vrun verr fin g hist) = vtip (vrun verr fin g (filter (valid_item verr) hist)).
Proof.
  intros verr fin g hist HQ.
  destruct (init_rel verr fin g hist HQ) as [G0 R0].
  pose proof (vrun_rel verr fin g hist HQ hist (incl_refl hist) (vinit g) (vinit g) G0 R0) as R.
  unfold vrun, vtip. rewrite (r_main _ _ _ _ R). split; reflexivity.
Qed.
