(** C27 — the operations of the block-acceptance model one by one (lookups,
    what an acceptance leaves alone, ProcessBlock by cases), and the invariant
    of all delivery histories: the best chain only holds blocks whose stored
    body passed the checks; everything in the index, the orphan pool and the
    block table comes from a delivery. *)
From Coq Require Import List ZArith NArith Bool Lia.
From C33 Require Import C27.Model.
Import ListNotations.
Open Scope Z_scope.

Lemma sget_cons : forall h k b st, sget h ((k, b) :: st) = if N.eqb k h then Some b else sget h st.
Proof. intros. unfold sget. simpl. destruct (N.eqb k h); reflexivity. Qed.

Lemma sget_in : forall h b st, sget h st = Some b -> In (h, b) st.
Proof.
  intros h b st H. unfold sget in H.
  destruct (find (fun e => N.eqb (fst e) h) st) as [[h' b']|] eqn:F; [|discriminate].
  inversion H; subst. apply find_some in F. destruct F as [Hin He]. simpl in He.
  apply N.eqb_eq in He. subst. exact Hin.
Qed.

(** the block table only ever gains bindings, in front *)
Definition grows (st st' : list (N * N)) : Prop := exists l, st' = l ++ st.

Lemma grows_refl : forall st, grows st st.
Proof. intros st. exists []. reflexivity. Qed.

Lemma grows_trans : forall st st' st'', grows st st' -> grows st' st'' -> grows st st''.
Proof. intros st st' st'' [l E] [l' E']. exists (l' ++ l). rewrite E', E. apply app_assoc. Qed.

Lemma grows_sget : forall k st st', grows st st' -> sget k st <> None -> sget k st' <> None.
Proof.
  intros k st st' [l E] H. subst st'. induction l as [|[h b] l IH]; simpl; [exact H|].
  rewrite sget_cons. destruct (N.eqb h k); [discriminate | exact IH].
Qed.

Lemma maybe_store_grows : forall h b st, grows st (maybe_store h b st).
Proof. intros. unfold maybe_store. destruct (sget h st); [exists [] | exists [(h, b)]]; reflexivity. Qed.

Lemma maybe_store_keep : forall h b st k x, sget k st = Some x -> sget k (maybe_store h b st) = Some x.
Proof.
  intros h b st k x H. unfold maybe_store. destruct (sget h st) eqn:E; [exact H|].
  rewrite sget_cons. destruct (N.eqb h k) eqn:Ek; [apply N.eqb_eq in Ek; congruence | exact H].
Qed.

Lemma maybe_store_in : forall h b st e, In e (maybe_store h b st) -> e = (h, b) \/ In e st.
Proof.
  intros h b st e H. unfold maybe_store in H. destruct (sget h st); [right; exact H|].
  destruct H as [H|H]; [left; symmetry; exact H | right; exact H].
Qed.

Lemma maybe_store_has : forall h b st, sget h st = None -> sget h (maybe_store h b st) = Some b.
Proof. intros h b st H. unfold maybe_store. rewrite H, sget_cons, N.eqb_refl. reflexivity. Qed.

Lemma maybe_store_some : forall h b st, sget h (maybe_store h b st) <> None.
Proof.
  intros h b st. destruct (sget h st) eqn:E.
  - rewrite (maybe_store_keep _ _ _ _ _ E). discriminate.
  - rewrite (maybe_store_has _ _ _ E). discriminate.
Qed.

Lemma sget_maybe_store_other : forall h k b st, N.eqb k h = false -> sget h (maybe_store k b st) = sget h st.
Proof.
  intros h k b st E. unfold maybe_store. destruct (sget k st); [reflexivity|]. rewrite sget_cons, E. reflexivity.
Qed.

Lemma find_vnode_cons : forall h n ix,
  find_vnode h (n :: ix) = if N.eqb (vid n) h then Some n else find_vnode h ix.
Proof. reflexivity. Qed.

Lemma find_vnode_some : forall h ix n, find_vnode h ix = Some n -> In n ix /\ vid n = h.
Proof. intros h ix n H. apply find_some in H. destruct H as [A B]. apply N.eqb_eq in B. auto. Qed.

Lemma find_vnode_filter : forall (Q : vnode -> bool) h ix,
  (forall n, vid n = h -> Q n = true) -> find_vnode h (filter Q ix) = find_vnode h ix.
Proof.
  intros Q h ix HQ. unfold find_vnode. induction ix as [|a ix IH]; simpl; [reflexivity|].
  destruct (N.eqb (vid a) h) eqn:E.
  - apply N.eqb_eq in E. rewrite (HQ a E). simpl. rewrite (proj2 (N.eqb_eq _ _) E). reflexivity.
  - destruct (Q a); simpl; [rewrite E|]; exact IH.
Qed.

Lemma drop_until_in : forall fk l h, In h (drop_until fk l) -> In h l.
Proof.
  intros fk l. induction l as [|x l IH]; intros h H; simpl in *; [exact H|].
  destruct (N.eqb x fk); [exact H | right; apply IH; exact H].
Qed.

Lemma find_filter_some : forall (A : Type) (P Q : A -> bool) l c,
  find P l = Some c -> Q c = true -> find P (filter Q l) = Some c.
Proof.
  intros A P Q l c. induction l as [|a l IH]; intros H Hq; simpl in *; [discriminate|].
  destruct (P a) eqn:Pa.
  - inversion H; subst. rewrite Hq. simpl. rewrite Pa. reflexivity.
  - destruct (Q a); simpl; [rewrite Pa|]; apply IH; assumption.
Qed.

Lemma find_filter_none : forall (A : Type) (P Q : A -> bool) l,
  find P l = None -> find P (filter Q l) = None.
Proof.
  intros A P Q l. induction l as [|a l IH]; intros H; simpl in *; [reflexivity|].
  destruct (P a) eqn:Pa; [discriminate|].
  destruct (Q a); simpl; [rewrite Pa|]; apply IH; exact H.
Qed.

Lemma memN_in : forall h l, memN h l = true -> In h l.
Proof.
  intros h l H. unfold memN in H. apply existsb_exists in H. destruct H as [x [Hx E]]. apply N.eqb_eq in E. subst. exact Hx.
Qed.

Lemma last_cons_ne : forall (x : N) l d, l <> [] -> last (x :: l) d = last l d.
Proof. intros x l d H. destruct l; [contradiction | reflexivity]. Qed.

Lemma last_app_ne : forall (p l : list N) d, l <> [] -> last (p ++ l) d = last l d.
Proof.
  induction p as [|x p IH]; intros l d H; simpl app; [reflexivity|].
  rewrite last_cons_ne; [apply IH; exact H | destruct p; simpl; [exact H | discriminate]].
Qed.

Lemma drop_until_last : forall fk l d, In fk l -> drop_until fk l <> [] /\ last (drop_until fk l) d = last l d.
Proof.
  intros fk l d. induction l as [|x l IH]; intros H; [destruct H|].
  simpl drop_until. destruct (N.eqb x fk) eqn:E; [split; [discriminate | reflexivity]|].
  destruct H as [H|H]; [subst; rewrite N.eqb_refl in E; discriminate|].
  destruct (IH H) as [A B]. split; [exact A|]. rewrite B. symmetry. apply last_cons_ne. intro; subst; destruct H.
Qed.

Lemma mark_err_vid : forall n, vid (mark_err n) = vid n. Proof. reflexivity. Qed.
Lemma mark_cut_vid : forall n, vid (mark_cut n) = vid n. Proof. reflexivity. Qed.

Lemma fail_vnode_from : forall h ix n, In n (fail_vnode h ix) -> exists m, In m ix /\ vblk m = vblk n.
Proof.
  intros h ix n H. unfold fail_vnode in H. destruct (find_vnode h ix) as [x|]; [|exists n; auto].
  destruct (vdl x).
  - apply in_map_iff in H. destruct H as [m [Hm Hin]]. apply filter_In in Hin. destruct Hin as [Hin _].
    exists m. split; [exact Hin|]. destruct (N.eqb (bpar (vblk m)) h); subst; reflexivity.
  - apply in_map_iff in H. destruct H as [m [Hm Hin]].
    exists m. split; [exact Hin|]. destruct (N.eqb (vid m) h); subst; reflexivity.
Qed.

Lemma load_all_in : forall st p lp, load_all st p = Some lp -> forall h b, In (h, b) lp -> sget h st = Some b.
Proof.
  intros st p. induction p as [|x p IH]; intros lp H h b Hin; simpl in H.
  - inversion H; subst. destruct Hin.
  - destruct (sget x st) eqn:E; [|discriminate]. destruct (load_all st p) eqn:L; [|discriminate].
    inversion H; subst. destruct Hin as [Hin|Hin]; [inversion Hin; subst; exact E | eapply IH; eauto].
Qed.

Lemma load_all_fst : forall st p lp, load_all st p = Some lp -> map fst lp = p.
Proof.
  intros st p. induction p as [|h p IH]; intros lp H; simpl in H.
  - inversion H. reflexivity.
  - destruct (sget h st) as [b|]; [|discriminate]. destruct (load_all st p) as [r|]; [|discriminate].
    inversion H; subst. simpl. rewrite (IH r eq_refl). reflexivity.
Qed.

Lemma remove_vorph_in : forall h o x, In x (remove_vorph h o) -> In x o.
Proof. intros h o x H. unfold remove_vorph in H. apply filter_In in H. tauto. Qed.

Lemma remove_vorph_unknown : forall h o, in_vorph h o = false -> remove_vorph h o = o.
Proof.
  intros h o. unfold in_vorph, remove_vorph. induction o as [|a o IH]; simpl; [reflexivity|].
  destruct (N.eqb (ihash a) h); [discriminate|]. intros H. rewrite (IH H). reflexivity.
Qed.

(** "exists" is answered before ProcessBlock gets to maybeAcceptBlock, a panic
    only by [vdeliver0]: from maybeAcceptBlock on the answers are others *)
Definition inner (e : verrc) : Prop := e <> VExist /\ e <> VPanic.

Definition frame (s s' : vstate) (e : verrc) : Prop :=
  vorph s' = vorph s /\ grows (vstore s) (vstore s') /\ inner e.

Lemma frame_refl : forall s e, inner e -> frame s s e.
Proof. intros s e H. split; [reflexivity | split; [apply grows_refl | exact H]]. Qed.

Lemma frame_trans : forall s s' s'' e e', frame s s' e -> frame s' s'' e' -> frame s s'' e'.
Proof.
  intros s s' s'' e e' [O [G _]] [O' [G' C]].
  split; [congruence | split; [exact (grows_trans _ _ _ G G') | exact C]].
Qed.

(** the answers at which ProcessOrphans gives up *)
Definition stops (e : verrc) : bool := match e with VPanic | VFuel => true | _ => false end.

(** the block taken out of the orphan pool: [vdeliver] does it to a known
    orphan whose parent has arrived, [vporph] to the orphan it turns to *)
Definition unorph (h : N) (s : vstate) : vstate :=
  mkV (vidx s) (remove_vorph h (vorph s)) (vmain s) (vstore s).

(** the queue of [vporph] once the orphan [h] has been answered [e]: an
    accepted orphan is asked for its own children later *)
Definition requeue (e : verrc) (q : list N) (h : N) : list N := if is_none e then q ++ [h] else q.

Section Ops.
Variable verr : N -> N -> N.

Lemma connect_block_frame : forall s h b,
  frame s (fst (connect_block verr s h b)) (snd (connect_block verr s h b)).
Proof.
  intros. unfold connect_block.
  destruct (N.eqb _ _); (split; [reflexivity | split; [|split; discriminate]]).
  - exists [(h, b)]. reflexivity.
  - apply grows_refl.
Qed.

Lemma attach_frame : forall lp s, frame s (fst (attach verr s lp)) (snd (attach verr s lp)).
Proof.
  induction lp as [|[h b] lp IH]; intros s; simpl; [apply frame_refl; split; discriminate|].
  pose proof (connect_block_frame s h b) as H. destruct (connect_block verr s h b) as [s' e].
  destruct e; try exact H. exact (frame_trans _ _ _ _ _ H (IH s')).
Qed.

Lemma attach_valid : forall lp s,
  (forall h b, In (h, b) lp -> verr h b = 0%N) ->
  attach verr s lp = (mkV (vidx s) (vorph s) (rev (map fst lp) ++ vmain s) (rev lp ++ vstore s), VNone).
Proof.
  induction lp as [|[h b] lp IH]; intros s H; simpl.
  - destruct s; reflexivity.
  - unfold connect_block. rewrite (H h b (or_introl eq_refl)). simpl.
    rewrite IH; [|intros; apply H; right; assumption]. simpl.
    rewrite <- !app_assoc. reflexivity.
Qed.

Lemma vconnect_best_frame : forall fin s b td body,
  frame s (fst (fst (vconnect_best verr fin s b td body))) (snd (vconnect_best verr fin s b td body)).
Proof.
  intros. unfold vconnect_best. destruct (N.eqb _ _).
  - pose proof (connect_block_frame s (bid b) body) as H.
    destruct (connect_block verr s (bid b) body) as [s' e]. destruct e; exact H.
  - destruct (find_vnode _ _); [|apply frame_refl; split; discriminate].
    destruct (_ || _).
    + destruct (vbranch _ _ _ _); apply frame_refl; split; discriminate.
    + destruct (vbranch _ _ _ _); try (apply frame_refl; split; discriminate).
      destruct (load_all _ _) as [lp|]; [|apply frame_refl; split; discriminate].
      (* cutting the best chain back to the fork point touches neither pool nor table *)
      match goal with |- context [attach verr ?S lp] =>
        pose proof (attach_frame lp S) as H; destruct (attach verr S lp) as [s2 e] end.
      destruct e; exact H.
Qed.

Lemma vaccept_frame : forall fin s i,
  frame s (fst (fst (vaccept verr fin s i))) (snd (vaccept verr fin s i)).
Proof.
  intros. unfold vaccept. destruct (find_vnode _ _); [|apply frame_refl; split; discriminate].
  destruct (negb _); [apply frame_refl; split; discriminate|].
  refine (frame_trans _ _ _ VNone _ _ (vconnect_best_frame _ _ _ _ _)).
  split; [reflexivity | split; [apply maybe_store_grows | split; discriminate]].
Qed.

Lemma vporph_step : forall f fin p q s,
  vporph verr (S f) fin (p :: q) s =
  match first_vchild p (vorph s) with
  | None => vporph verr f fin q s
  | Some c =>
      let '(s1, _, e) := vaccept verr fin (unorph (ihash c) s) c in
      if stops e then (s1, e)
      else vporph verr f fin (requeue e (p :: q) (ihash c)) s1
  end.
Proof.
  intros. simpl. destruct (first_vchild p (vorph s)) as [c|]; [|reflexivity].
  unfold unorph. destruct (vaccept verr fin _ c) as [[s1 m] e]. destruct e; reflexivity.
Qed.

(** ProcessOrphans takes blocks out of the pool; the rest of the frame stays *)
Lemma vporph_frame : forall fuel fin q s,
  grows (vstore s) (vstore (fst (vporph verr fuel fin q s))) /\ inner (snd (vporph verr fuel fin q s)).
Proof.
  induction fuel as [|f IH]; intros fin q s; [split; [apply grows_refl | split; discriminate]|].
  destruct q as [|p q']; [split; [apply grows_refl | split; discriminate]|].
  rewrite vporph_step. destruct (first_vchild _ _) as [c|]; [|apply IH].
  pose proof (vaccept_frame fin (unorph (ihash c) s) c) as [_ [G C]].
  destruct (vaccept verr fin _ c) as [[s1 m] e]. cbn [fst snd] in G, C.
  destruct (stops e); [exact (conj G C)|].
  destruct (IH fin (requeue e (p :: q') (ihash c)) s1) as [G' C'].
  exact (conj (grows_trans _ _ _ G G') C').
Qed.

(** ProcessBlock by cases, the known orphan taken out of the pool beforehand *)
Lemma vdeliver_cases : forall fin s i,
  vdeliver verr fin s i =
  if in_vidx (ihash i) (vidx s) then (s, (false, false, VExist))
  else if in_vidx (bpar (iblk i)) (vidx s) then
    let '(s2, ism, e) := vaccept verr fin (unorph (ihash i) s) i in
    if is_none e then
      let '(s3, e3) := vporph verr (vporph_fuel s2) fin [ihash i] s2 in
      (s3, (is_none e3 && ism, false, e3))
    else (s2, (false, false, e))
  else if in_vorph (ihash i) (vorph s) then (s, (false, false, VExist))
  else (mkV (vidx s) (vorph s ++ [i]) (vmain s) (vstore s), (false, true, VNone)).
Proof.
  intros fin s i. unfold vdeliver, ihash.
  destruct (in_vidx (bid (iblk i)) (vidx s)); [reflexivity|].
  assert (E : (if in_vorph (bid (iblk i)) (vorph s) then unorph (bid (iblk i)) s else s) = unorph (bid (iblk i)) s).
  { destruct (in_vorph _ _) eqn:K; [reflexivity|].
    unfold unorph. rewrite (remove_vorph_unknown _ _ K). destruct s; reflexivity. }
  destruct (in_vidx (bpar (iblk i)) (vidx s)) eqn:P.
  - rewrite andb_false_r. cbv zeta. fold (unorph (bid (iblk i)) s). rewrite E. cbn [unorph vidx]. rewrite P.
    cbn [negb]. destruct (vaccept verr fin _ i) as [[s2 ism] e]. destruct e; try reflexivity.
    destruct (vporph verr _ fin _ s2) as [s3 e3]. destruct e3; reflexivity.
  - rewrite andb_true_r. destruct (in_vorph _ _); [reflexivity|]. cbn [vidx]. rewrite P. reflexivity.
Qed.

Variable g : block.

(** an entry that may be written to the block table; [D]: the deliveries so far *)
Definition from_D (D : list item) (h b : N) : Prop :=
  h = bid g \/ exists j, In j D /\ ihash j = h /\ ibody j = b.

Record Inv (D : list item) (s : vstate) : Prop := mkInv {
  inv_main  : forall h, In h (vmain s) ->
                h = bid g \/ exists b, sget h (vstore s) = Some b /\ verr h b = 0%N;
  inv_idx   : forall n, In n (vidx s) -> vid n = bid g \/ exists j, In j D /\ ihash j = vid n;
  inv_orph  : forall o, In o (vorph s) -> In o D;
  inv_store : forall h b, In (h, b) (vstore s) -> from_D D h b
}.

Lemma Inv_weaken : forall D s i, Inv D s -> Inv (i :: D) s.
Proof.
  intros D s i [A B C E]. constructor.
  - exact A.
  - intros n Hn. destruct (B n Hn) as [H|[j [Hj H]]]; [left; exact H | right; exists j; split; [right; exact Hj | exact H]].
  - intros o Ho. right. apply C; exact Ho.
  - intros h b Hin. destruct (E h b Hin) as [H|[j [Hj H]]]; [left; exact H | right; exists j; split; [right; exact Hj | exact H]].
Qed.

Lemma Inv_init : Inv [] (vinit g).
Proof.
  constructor; simpl.
  - intros h [H|[]]. left. symmetry; exact H.
  - intros n [H|[]]. subst. left. reflexivity.
  - intros o [].
  - intros h b [H|[]]. inversion H. left. reflexivity.
Qed.

Lemma Inv_connect_block : forall D s h body,
  Inv D s -> from_D D h body -> Inv D (fst (connect_block verr s h body)).
Proof.
  intros D s h body [A B C E] Hfrom. unfold connect_block.
  destruct (N.eqb (verr h body) 0) eqn:V; simpl.
  - apply N.eqb_eq in V. constructor; simpl; auto.
    + (* the new binding serves the block that has just passed the checks, and hides no other *)
      intros k Hk. rewrite sget_cons. destruct (N.eqb h k) eqn:Ek.
      * apply N.eqb_eq in Ek. subst k. right. exists body. auto.
      * destruct Hk as [Hk|Hk]; [subst k; rewrite N.eqb_refl in Ek; discriminate | exact (A k Hk)].
    + intros k b [Hk|Hk]; [inversion Hk; subst; exact Hfrom | apply E; exact Hk].
  - constructor; simpl; auto.
    intros n Hn. apply fail_vnode_from in Hn. destruct Hn as [m [Hm Hv]]. unfold vid. rewrite <- Hv. apply B; exact Hm.
Qed.

Lemma Inv_attach : forall D lp s,
  Inv D s -> (forall h b, In (h, b) lp -> from_D D h b) -> Inv D (fst (attach verr s lp)).
Proof.
  intros D lp. induction lp as [|[h b] lp IH]; intros s HI Hlp; simpl; [exact HI|].
  pose proof (Inv_connect_block D s h b HI (Hlp h b (or_introl eq_refl))) as H1.
  destruct (connect_block verr s h b) as [s' e] eqn:CB. simpl in H1.
  destruct e; try exact H1.
  apply IH; [exact H1 | intros; apply Hlp; right; assumption].
Qed.

Lemma Inv_set_main : forall D s m,
  Inv D s -> (forall h, In h m -> In h (vmain s)) -> Inv D (mkV (vidx s) (vorph s) m (vstore s)).
Proof.
  intros D s m [A B C E] Hm. constructor; simpl; auto.
Qed.

Lemma Inv_vconnect_best : forall D fin s b td body,
  Inv D s -> from_D D (bid b) body ->
  Inv D (fst (fst (vconnect_best verr fin s b td body))).
Proof.
  intros D fin s b td body HI Hfrom. unfold vconnect_best.
  destruct (N.eqb (bpar b) (vtip s)).
  - pose proof (Inv_connect_block D s (bid b) body HI Hfrom) as H1.
    destruct (connect_block verr s (bid b) body) as [s' e]. simpl in H1. destruct e; exact H1.
  - destruct (find_vnode (vtip s) (vidx s)) as [t|]; [|exact HI].
    destruct ((td <=? vtd t) || (bht b <? fin + margin)).
    + destruct (vbranch _ _ _ _); exact HI.
    + destruct (vbranch _ _ _ _) as [| |p fk]; try exact HI.
      destruct (load_all (vstore s) (rev p)) as [lp|] eqn:L; [|exact HI].
      assert (H1 : Inv D (fst (attach verr (mkV (vidx s) (vorph s) (drop_until fk (vmain s)) (vstore s)) lp))).
      { apply Inv_attach.
        - apply Inv_set_main; [exact HI | intros h; apply drop_until_in].
        - intros h x Hin. apply (inv_store _ _ HI). apply sget_in. exact (load_all_in _ _ _ L h x Hin). }
      destruct (attach verr _ lp) as [s2 e]. simpl in H1. destruct e; exact H1.
Qed.

Lemma Inv_vaccept : forall D fin s i,
  Inv D s -> In i D -> Inv D (fst (fst (vaccept verr fin s i))).
Proof.
  intros D fin s i HI Hi. unfold vaccept.
  destruct (find_vnode (bpar (iblk i)) (vidx s)) as [p|]; [|exact HI].
  destruct (negb (bht (iblk i) =? bht (vblk p) + 1)); [exact HI|].
  assert (Hfrom : from_D D (bid (iblk i)) (ibody i)) by (right; exists i; auto).
  apply Inv_vconnect_best; [|exact Hfrom].
  destruct HI as [A B C E]. constructor; simpl.
  - intros h Hh. destruct (A h Hh) as [H|[b [H1 H2]]]; [left; exact H|].
    right. exists b. split; [apply maybe_store_keep; exact H1 | exact H2].
  - intros n [Hn|Hn]; [subst n; right; exists i; split; [exact Hi | reflexivity] | apply B; exact Hn].
  - exact C.
  - intros h b Hin. apply maybe_store_in in Hin. destruct Hin as [Hin|Hin]; [|apply E; exact Hin].
    inversion Hin; subst. exact Hfrom.
Qed.

Lemma Inv_set_orph : forall D s o,
  Inv D s -> (forall x, In x o -> In x D) -> Inv D (mkV (vidx s) o (vmain s) (vstore s)).
Proof. intros D s o [A B C E] Ho. constructor; simpl; auto. Qed.

Lemma Inv_unorph : forall D s h, Inv D s -> Inv D (unorph h s).
Proof.
  intros D s h HI. apply Inv_set_orph; [exact HI|].
  intros x Hx. apply (inv_orph _ _ HI). exact (remove_vorph_in _ _ _ Hx).
Qed.

Lemma Inv_vporph : forall D fuel fin q s,
  Inv D s -> Inv D (fst (vporph verr fuel fin q s)).
Proof.
  intros D fuel. induction fuel as [|f IH]; intros fin q s HI; [exact HI|].
  destruct q as [|p q']; [exact HI|].
  rewrite vporph_step. destruct (first_vchild p (vorph s)) as [c|] eqn:F; [|apply IH; exact HI].
  assert (Hc : In c D) by (apply find_some in F; apply (inv_orph _ _ HI); tauto).
  pose proof (Inv_vaccept D fin _ c (Inv_unorph D s (ihash c) HI) Hc) as H1.
  destruct (vaccept verr fin _ c) as [[s1 m] e]. cbn [fst] in H1.
  destruct (stops e); [exact H1 | apply IH; exact H1].
Qed.

Lemma Inv_vdeliver : forall D fin s i,
  Inv D s -> Inv (i :: D) (fst (vdeliver verr fin s i)).
Proof.
  intros D fin s i HI0. pose proof (Inv_weaken D s i HI0) as HI. clear HI0.
  rewrite vdeliver_cases.
  destruct (in_vidx (ihash i) (vidx s)); [exact HI|].
  destruct (in_vidx (bpar (iblk i)) (vidx s)).
  - pose proof (Inv_vaccept (i :: D) fin _ i (Inv_unorph _ s (ihash i) HI) (or_introl eq_refl)) as H2.
    destruct (vaccept verr fin _ i) as [[s2 ism] e]. cbn [fst] in H2.
    destruct (is_none e); [|exact H2].
    pose proof (Inv_vporph (i :: D) (vporph_fuel s2) fin [ihash i] s2 H2) as H3.
    destruct (vporph verr (vporph_fuel s2) fin [ihash i] s2) as [s3 e3]. exact H3.
  - destruct (in_vorph (ihash i) (vorph s)); [exact HI|].
    apply Inv_set_orph; [exact HI|]. intros x Hx. apply in_app_or in Hx.
    destruct Hx as [Hx|[Hx|[]]]; [apply (inv_orph _ _ HI); exact Hx | left; exact Hx].
Qed.

Lemma Inv_vrun_gen : forall fin hist D s,
  Inv D s -> Inv (rev hist ++ D) (fold_left (vstep verr fin) hist s).
Proof.
  intros fin hist. induction hist as [|i hist IH]; intros D s HI; simpl; [exact HI|].
  rewrite <- app_assoc. simpl. apply IH. apply Inv_vdeliver. exact HI.
Qed.

Lemma Inv_vrun : forall fin hist, Inv (rev hist) (vrun verr fin g hist).
Proof.
  intros fin hist. pose proof (Inv_vrun_gen fin hist [] (vinit g) Inv_init) as H.
  rewrite app_nil_r in H. exact H.
Qed.

End Ops.
