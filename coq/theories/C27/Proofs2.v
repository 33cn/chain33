(** C27 — the theorems about one delivery: a rejected block that cannot start a
    reorganisation changes nothing of the best chain; a block whose hash was
    not seen before is never answered "exists" and its body is served;
    ProcessBlock does not panic. *)
From Coq Require Import List ZArith NArith Bool Lia.
From C33 Require Import C27.Model C27.Proofs C27.ProofsRefute.
Import ListNotations.
Open Scope Z_scope.

Section Partial.
Variable verr : N -> N -> N.

Definition has_child (h : N) (o : list item) : bool := existsb (fun i => N.eqb (bpar (iblk i)) h) o.

(** the delivered block extends the tip (it is executed at once and fails), or
    it is not heavier than the tip / below the reorganisation margin and no
    orphan waits for it; a block without an indexed parent is covered too *)
Definition no_reorg_guard (fin : Z) (s : vstate) (i : item) : bool :=
  let b := iblk i in
  N.eqb (bpar b) (vtip s)
  || match find_vnode (bpar b) (vidx s) with
     | None => true
     | Some p =>
         negb (N.eqb (bid b) (vtip s))
         && negb (has_child (bid b) (vorph s))
         && match find_vnode (vtip s) (vidx s) with
            | None => true
            | Some t => (vtd p + bdiff b <=? vtd t) || (bht b <? fin + margin)
            end
     end.

Lemma no_child_first : forall h o, has_child h o = false -> first_vchild h o = None.
Proof.
  intros h o. unfold has_child, first_vchild. induction o as [|c o IH]; simpl; [reflexivity|].
  destruct (N.eqb (bpar (iblk c)) h); [discriminate | exact IH].
Qed.

Lemma vporph_no_child : forall fin h s fuel,
  (2 <= fuel)%nat ->
  first_vchild h (vorph s) = None -> vporph verr fuel fin [h] s = (s, VNone).
Proof.
  intros fin h s fuel Hf H. destruct fuel as [|[|f]]; try lia. simpl. rewrite H. reflexivity.
Qed.

(** connectBestChain of a block that fails its checks and cannot start a
    reorganisation: on the tip it is executed, and its node marked or deleted;
    elsewhere nothing happens at all *)
Lemma vconnect_best_rejected : forall fin s b td body,
  N.eqb (verr (bid b) body) 0 = false ->
  (N.eqb (bpar b) (vtip s) = false ->
   forall t, find_vnode (vtip s) (vidx s) = Some t -> (td <=? vtd t) || (bht b <? fin + margin) = true) ->
  if N.eqb (bpar b) (vtip s)
  then vconnect_best verr fin s b td body =
       (mkV (fail_vnode (bid b) (vidx s)) (vorph s) (vmain s) (vstore s), false, VInv (verr (bid b) body))
  else exists e, vconnect_best verr fin s b td body = (s, false, e) /\ stops e = false.
Proof.
  intros fin s b td body Hv Hq. unfold vconnect_best. destruct (N.eqb (bpar b) (vtip s)).
  - unfold connect_block. rewrite Hv. reflexivity.
  - destruct (find_vnode (vtip s) (vidx s)) as [t|]; [|exists VTd; split; reflexivity].
    rewrite (Hq eq_refl t eq_refl).
    destruct (vbranch _ _ _ _); eexists; split; reflexivity.
Qed.

(** a block whose parent is not indexed goes to the orphan pool or is refused *)
Lemma orphan_chain_unchanged : forall fin s i,
  in_vidx (bpar (iblk i)) (vidx s) = false -> vmain (fst (vdeliver verr fin s i)) = vmain s.
Proof.
  intros fin s i H. rewrite vdeliver_cases, H.
  destruct (in_vidx (ihash i) (vidx s)); [reflexivity|]. destruct (in_vorph _ _); reflexivity.
Qed.

Lemma rejected_no_effect_partial : forall fin s i,
  valid_item verr i = false ->
  no_reorg_guard fin s i = true ->
  vmain (vstep verr fin s i) = vmain s.
Proof.
  intros fin s i Hv Hg. unfold vstep.
  destruct (find_vnode (bpar (iblk i)) (vidx s)) as [p|] eqn:Fp.
  2:{ apply orphan_chain_unchanged. unfold in_vidx. rewrite Fp. reflexivity. }
  unfold no_reorg_guard in Hg. cbv zeta in Hg. rewrite Fp in Hg.
  rewrite vdeliver_cases. destruct (in_vidx (ihash i) (vidx s)); [reflexivity|].
  unfold in_vidx at 1. rewrite Fp. unfold vaccept. cbn [unorph vidx]. rewrite Fp.
  destruct (negb (bht (iblk i) =? bht (vblk p) + 1)); [reflexivity|].
  (* the node is indexed, its body stored; the tip is where it was *)
  match goal with |- context [vconnect_best verr fin ?S ?B ?TD ?BODY] =>
    set (s1 := S); pose proof (vconnect_best_rejected fin s1 B TD BODY Hv) as R end.
  change (vtip s1) with (vtip s) in R.
  destruct (N.eqb (bpar (iblk i)) (vtip s)).
  - rewrite R; [reflexivity | discriminate].
  - cbn [orb] in Hg. apply andb_prop in Hg. destruct Hg as [Hg Hg3]. apply andb_prop in Hg. destruct Hg as [Hg1 Hg2].
    apply negb_true_iff in Hg1, Hg2.
    destruct R as [e [R _]].
    { intros _ t Ft. cbn [s1 vidx] in Ft. rewrite find_vnode_cons in Ft. unfold vid at 1 in Ft. cbn [vblk] in Ft.
      rewrite Hg1 in Ft. rewrite Ft in Hg3. exact Hg3. }
    rewrite R. destruct (is_none e); [|reflexivity].
    (* left as a side block: no orphan waits for it *)
    rewrite vporph_no_child; [reflexivity | unfold vporph_fuel; lia|].
    apply find_filter_none, no_child_first. exact Hg2.
Qed.

Lemma vaccept_stored : forall fin s i,
  height_fits s i = true -> served (fst (fst (vaccept verr fin s i))) (ihash i) <> None.
Proof.
  intros fin s i Hfit. unfold height_fits in Hfit. unfold vaccept, served.
  destruct (find_vnode (bpar (iblk i)) (vidx s)) as [p|]; [|discriminate].
  rewrite Hfit. cbn [negb].
  match goal with |- context [vconnect_best verr fin ?S ?B ?TD ?BODY] =>
    destruct (vconnect_best_frame verr fin S B TD BODY) as [_ [G _]] end.
  apply (grows_sget _ _ _ G). apply maybe_store_some.
Qed.

Lemma vdeliver_fresh : forall fin s i,
  in_vidx (ihash i) (vidx s) = false -> height_fits s i = true ->
  snd (snd (vdeliver verr fin s i)) <> VExist /\ served (fst (vdeliver verr fin s i)) (ihash i) <> None.
Proof.
  intros fin s i Hidx Hfit. rewrite vdeliver_cases, Hidx.
  assert (Hpar : in_vidx (bpar (iblk i)) (vidx s) = true).
  { unfold height_fits in Hfit. unfold in_vidx. destruct (find_vnode _ _); [reflexivity | discriminate]. }
  rewrite Hpar.
  pose proof (vaccept_stored fin (unorph (ihash i) s) i Hfit) as St.
  destruct (vaccept_frame verr fin (unorph (ihash i) s) i) as [_ [_ [Ne _]]].
  destruct (vaccept verr fin _ i) as [[s2 ism] e]. cbn [fst snd] in St, Ne.
  destruct (is_none e); [|exact (conj Ne St)].
  destruct (vporph_frame verr (vporph_fuel s2) fin [ihash i] s2) as [G [Ne2 _]].
  destruct (vporph verr _ fin _ s2) as [s3 e3]. exact (conj Ne2 (grows_sget _ _ _ G St)).
Qed.

Lemma no_poison_partial : forall fin g hist i,
  ihash i <> bid g ->
  height_fits (vrun verr fin g hist) i = true ->
  existsb (fun j => N.eqb (ihash j) (ihash i)) hist = false ->
  let r := vdeliver verr fin (vrun verr fin g hist) i in
  snd (snd r) <> VExist /\ served (fst r) (ihash i) = Some (ibody i).
Proof.
  intros fin g hist i Hroot Hfit Hfresh.
  pose proof (Inv_vrun verr g fin hist) as HI.
  set (s := vrun verr fin g hist) in *.
  assert (Hno : forall j, In j (rev hist) -> ihash j <> ihash i).
  { intros j Hj E. apply in_rev in Hj.
    assert (existsb (fun j => N.eqb (ihash j) (ihash i)) hist = true)
      by (apply existsb_exists; exists j; split; [exact Hj | apply N.eqb_eq; exact E]).
    congruence. }
  assert (Hidx : in_vidx (ihash i) (vidx s) = false).
  { unfold in_vidx. destruct (find_vnode (ihash i) (vidx s)) as [n|] eqn:F; [|reflexivity].
    apply find_vnode_some in F. destruct F as [Hn Hv].
    destruct (inv_idx _ _ _ _ HI n Hn) as [E|[j [Hj E]]]; [congruence|].
    exfalso. apply (Hno j Hj). congruence. }
  destruct (vdeliver_fresh fin s i Hidx Hfit) as [A B]. cbv zeta. split; [exact A|].
  (* whatever is served under this hash was delivered under it: only [i] was *)
  pose proof (Inv_vdeliver verr g _ fin s i HI) as HI'. unfold served in *.
  destruct (sget (ihash i) (vstore (fst (vdeliver verr fin s i)))) as [b|] eqn:E; [|contradiction].
  apply sget_in in E. destruct (inv_store _ _ _ _ HI' _ _ E) as [E1|[j [[Hj|Hj] [E1 E2]]]].
  - contradiction.
  - subst j. rewrite E2. reflexivity.
  - exfalso. exact (Hno j Hj E1).
Qed.

Lemma no_panic : forall fin s i, snd (snd (vdeliver verr fin s i)) <> VPanic.
Proof.
  intros fin s i. rewrite vdeliver_cases.
  destruct (in_vidx _ _); [discriminate|]. destruct (in_vidx _ _).
  - destruct (vaccept_frame verr fin (unorph (ihash i) s) i) as [_ [_ [_ Np]]].
    destruct (vaccept verr fin _ i) as [[s2 ism] e]. destruct (is_none e); [|exact Np].
    destruct (vporph_frame verr (vporph_fuel s2) fin [ihash i] s2) as [_ [_ Np2]].
    destruct (vporph verr _ fin _ s2) as [s3 e3]. exact Np2.
  - destruct (in_vorph _ _); discriminate.
Qed.

End Partial.
