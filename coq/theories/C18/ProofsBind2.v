(** C18 — of two different lists with the same expansion the longer one contains two
    equal aligned sibling blocks ([witness]), hence Computation flags it as mutated
    ([binding_mutated]). *)
From Coq Require Import List Arith ZArith NArith Bool Lia Relations.
From C33 Require Import C18.Model C18.Spec C18.ProofsSeq C18.ProofsBind C18.ProofsMulti.
Import ListNotations.
Open Scope nat_scope.

Section Witness.
  Variable T : Type.

  Notation expand := (expand T).
  Notation haspair := (haspair T).

  Lemma app_eq_len : forall (a b c d : list T), length a = length c -> a ++ b = c ++ d -> a = c /\ b = d.
  Proof.
    induction a as [|x a IH]; intros b c d Hl E; destruct c as [|y c]; simpl in *; try lia.
    - auto.
    - injection E as -> E. destruct (IH b c d ltac:(lia) E) as [-> ->]. auto.
  Qed.

  Lemma haspair_app_l : forall A B, haspair A -> haspair (A ++ B).
  Proof.
    intros A B (a & j & Hd & Hle & Heq). exists a, j. split; [exact Hd|].
    split; [rewrite app_length; lia|].
    change (2 ^ S j) with (2 * 2 ^ j) in Hle. rewrite !firstn_skipn_app by lia. exact Heq.
  Qed.

  Lemma haspair_app_r : forall k A B, length A = 2 ^ k -> length B <= 2 ^ k ->
    haspair B -> haspair (A ++ B).
  Proof.
    intros k A B HA HB (a & j & Hd & Hle & Heq).
    assert (Hjk : S j <= k).
    { apply (Nat.pow_le_mono_r_iff 2); [lia|]. lia. }
    exists (2 ^ k + a), j. split; [|split].
    - destruct Hd as [m Hm]. exists (2 ^ (k - S j) + m).
      rewrite Nat.mul_add_distr_r, <- Nat.pow_add_r. replace (k - S j + S j) with k by lia. lia.
    - rewrite app_length. lia.
    - rewrite <- HA. rewrite !skipn_app.
      rewrite !(skipn_all2 A) by lia. cbn [app].
      replace (length A + a - length A) with a by lia.
      replace (length A + a + 2 ^ j - length A) with (a + 2 ^ j) by lia. exact Heq.
  Qed.

  Lemma witness : forall k (l l' : list T), l <> [] ->
    length l <= 2 ^ k -> length l' <= 2 ^ k ->
    expand k l = expand k l' -> length l < length l' -> haspair l'.
  Proof.
    induction k as [|k IH]; intros l l' Hne Hl Hl' He Hlt; apply nonnil_length in Hne.
    - simpl in *. lia.
    - pose proof (pow2_pos k) as Hp. change (2 ^ S k) with (2 * 2 ^ k) in Hl, Hl'.
      destruct (Nat.le_gt_cases (length l') (2 ^ k)) as [Hs'|Hs'].
      + (* both fit into the left half: the two halves of the expansion are copies *)
        rewrite !(expand_self T) in He by lia.
        apply app_eq_len in He; [|rewrite !(expand_length T) by lia; reflexivity].
        apply (IH l l'); try apply nonnil_length; try lia. apply He.
      + destruct (split_at T _ _ Hs') as (A' & B' & -> & HA' & HB'). rewrite app_length in *.
        rewrite (expand_join T) in He by assumption.
        destruct (Nat.le_gt_cases (length l) (2 ^ k)) as [Hs|Hs].
        * (* l fits into the left half, l' does not: expand k l = A' = expand k B' *)
          rewrite (expand_self T) in He by exact Hs.
          apply app_eq_len in He; [|rewrite (expand_length T), HA' by lia; reflexivity].
          destruct He as [E1 E2].
          destruct (Nat.eq_dec (length B') (2 ^ k)) as [Hfull|Hnf].
          -- exists 0, k. split; [exists 0; reflexivity|]. split; [rewrite app_length; simpl; lia|].
             cbn [skipn plus]. rewrite firstn_app_exact by exact HA'.
             rewrite skipn_app_exact by exact HA'. rewrite firstn_all2 by lia.
             rewrite <- (expand_full T k B' Hfull), <- E2, E1. reflexivity.
          -- apply haspair_app_l. apply (IH B' A'); try lia; [apply nonnil_length; lia|].
             rewrite (expand_full T k A' HA'), <- E2, E1. reflexivity.
        * (* both are longer than the left half: same left halves, recurse on the right *)
          destruct (split_at T _ _ Hs) as (A & B & -> & HA & HB). rewrite app_length in *.
          rewrite (expand_join T) in He by assumption.
          apply app_eq_len in He; [|lia]. destruct He as [_ E2].
          apply (haspair_app_r k); [exact HA'|lia|].
          apply (IH B B'); try lia; [apply nonnil_length; lia|exact E2].
  Qed.

  Lemma expand_prefix : forall k (l : list T), l <> [] -> length l <= 2 ^ k ->
    firstn (length l) (expand k l) = l.
  Proof.
    induction k as [|k IH]; intros l Hne Hl; apply nonnil_length in Hne.
    - simpl in *. destruct l as [|x [|y l]]; simpl in *; try lia. reflexivity.
    - pose proof (pow2_pos k) as Hp. change (2 ^ S k) with (2 * 2 ^ k) in Hl.
      destruct (Nat.le_gt_cases (length l) (2 ^ k)) as [Hs|Hs].
      + rewrite (expand_self T), firstn_app, (expand_length T) by lia.
        replace (length l - 2 ^ k) with 0 by lia. rewrite firstn_O, app_nil_r.
        apply IH; [apply nonnil_length|]; assumption.
      + destruct (split_at T _ _ Hs) as (a & b & -> & Ha & Hb). rewrite app_length in *.
        rewrite (expand_join T), firstn_app, firstn_all2 by lia.
        replace (length a + length b - length a) with (length b) by lia.
        rewrite IH; [reflexivity|apply nonnil_length; exact Hb|lia].
  Qed.
End Witness.

Theorem binding_mutated : forall l1 l2 : list h,
  all_leaves l1 -> all_leaves l2 -> l1 <> [] -> l2 <> [] ->
  get_merkle_root h HNil sym_hash2 l1 = get_merkle_root h HNil sym_hash2 l2 ->
  l1 = l2 \/
  (l1 <> l2 /\ dup_tail_related h l1 l2 /\
   (if length l1 <? length l2
    then comp_mutated h HNil sym_hash2 h_eqb l2 = true
    else comp_mutated h HNil sym_hash2 h_eqb l1 = true)).
Proof.
  intros l1 l2 A1 A2 N1 N2 E.
  destruct (binding l1 l2 A1 A2 N1 N2 E) as [Eq|[Ne Hrel]]; [left; exact Eq|right].
  split; [exact Ne|]. split; [exact Hrel|].
  destruct (same_expansion l1 l2 A1 A2 N1 N2 E) as (K & [B1 _] & [B2 _] & Hex).
  destruct (Nat.ltb_spec (length l1) (length l2)) as [Hlt|Hge];
    apply pair_flagged; try exact h_eqb_refl.
  - apply (witness h K l1 l2); assumption.
  - apply (witness h K l2 l1); try assumption; [symmetry; exact Hex|].
    destruct (Nat.eq_dec (length l1) (length l2)) as [El|El]; [exfalso|lia].
    apply Ne. rewrite <- (expand_prefix h K l1 N1 B1), <- (expand_prefix h K l2 N2 B2), Hex, El.
    reflexivity.
Qed.
