(** C18 — the proof-serving path.  types.TransactionSort yields a title-sorted list
    and leaves one unchanged.  On a title-sorted list the scan of
    calcMultiLayerMerkleInfo finds exactly the title groups, the para-tx table
    holds the child chains in order, and getMultiLayerProofs finds the chain that
    covers the queried index; hence the served proofs verify when the stored list is
    title-sorted or the block is from before the fork ([served_verify_partial]), in
    particular for the blocks the producers build ([produced_verify]).  Binding of a
    served proof in the symbolic hash algebra; refutation of the unguarded statement. *)
From Coq Require Import List Arith ZArith NArith Bool Lia Sorted.
From C33 Require Import C18.Model C18.Spec C18.ModelServe C18.ProofsSeq C18.ProofsPar
  C18.ProofsMulti C18.ProofsBind C18.ProofsBind2.
Import ListNotations.
Open Scope nat_scope.

(** the title order through [Z], for [lia]: "main" ([None]) is below every para title *)
Definition tz (t : option N) : Z := match t with None => (-1)%Z | Some x => Z.of_N x end.

Lemma tz_inj : forall a b, tz a = tz b -> a = b.
Proof. intros [a|] [b|]; simpl; intros; try lia; try reflexivity. f_equal. lia. Qed.

Lemma title_eqb_tz : forall a b, title_eqb a b = true <-> tz a = tz b.
Proof.
  intros [a|] [b|]; simpl; rewrite ?N.eqb_eq; split; intro H; try discriminate; try reflexivity; lia.
Qed.

Lemma title_eqb_eq : forall a b, title_eqb a b = true <-> a = b.
Proof.
  intros a b. rewrite title_eqb_tz. split; [apply tz_inj|intros; subst; reflexivity].
Qed.

Lemma title_eqb_refl : forall a, title_eqb a a = true.
Proof. intro a. apply title_eqb_eq. reflexivity. Qed.

Lemma title_eqb_false : forall a b, title_eqb a b = false <-> tz a <> tz b.
Proof.
  intros a b. split.
  - intros H E. apply title_eqb_tz in E. congruence.
  - intro H. destruct (title_eqb a b) eqn:E; [|reflexivity]. apply title_eqb_tz in E. contradiction.
Qed.

Definition tlt (a b : option N) : Prop := title_ltb a b = true.
Definition tle (a b : option N) : Prop := title_leb a b = true.

Lemma title_ltb_tz : forall a b, tlt a b <-> (tz a < tz b)%Z.
Proof.
  unfold tlt.
  intros [a|] [b|]; simpl; rewrite ?N.ltb_lt; split; intro H; try discriminate; try reflexivity; lia.
Qed.

Lemma title_ltb_false : forall a b, title_ltb a b = false <-> (tz b <= tz a)%Z.
Proof.
  intros a b. split.
  - intro H. destruct (Z.lt_ge_cases (tz a) (tz b)) as [L|L]; [|exact L].
    apply title_ltb_tz in L. congruence.
  - intro H. destruct (title_ltb a b) eqn:E; [|reflexivity]. apply title_ltb_tz in E. lia.
Qed.

Lemma title_leb_tz : forall a b, tle a b <-> (tz a <= tz b)%Z.
Proof.
  intros a b. unfold tle, title_leb. rewrite negb_true_iff. apply title_ltb_false.
Qed.

Lemma title_eq_dec : forall a b : option N, {a = b} + {a <> b}.
Proof. decide equality. apply N.eq_dec. Qed.

Lemma tsorted_cons : forall a l, tsorted (a :: l) = true <->
  (match l with [] => True | b :: _ => tle a b end) /\ tsorted l = true.
Proof.
  intros a [|b l]; cbn [tsorted].
  - tauto.
  - rewrite andb_true_iff. unfold tle. tauto.
Qed.

Lemma tsorted_all_ge : forall l a, tsorted (a :: l) = true -> Forall (tle a) l.
Proof.
  induction l as [|b l IH]; intros a H; [constructor|].
  apply tsorted_cons in H. destruct H as [Hab Hl]. constructor; [exact Hab|].
  specialize (IH b Hl). eapply Forall_impl; [|exact IH].
  intros c Hc. rewrite title_leb_tz in *. lia.
Qed.

Lemma tsorted_cons_ge : forall l a, Forall (tle a) l -> tsorted l = true -> tsorted (a :: l) = true.
Proof.
  intros [|b l] a Hf Hs; [reflexivity|]. apply tsorted_cons. split; [|exact Hs].
  exact (Forall_inv Hf).
Qed.

Lemma tinsert_in : forall t l y, In y (tinsert t l) <-> t = y \/ In y l.
Proof.
  intros t l. induction l as [|x l IH]; intro y; cbn [tinsert]; [reflexivity|].
  destruct (title_eqb t x) eqn:E.
  - apply title_eqb_eq in E. subst x. simpl. tauto.
  - destruct (title_ltb t x); simpl; [|rewrite IH]; tauto.
Qed.

Lemma tinsert_sorted : forall t l, StronglySorted tlt l -> StronglySorted tlt (tinsert t l).
Proof.
  intros t l. induction l as [|x l IH]; intro H; cbn [tinsert].
  - repeat constructor.
  - destruct (StronglySorted_inv H) as [Hl Hx].
    destruct (title_eqb t x) eqn:E; [exact H|].
    destruct (title_ltb t x) eqn:L.
    + constructor; [exact H|]. constructor; [exact L|]. apply title_ltb_tz in L.
      eapply Forall_impl; [|exact Hx]. intros c Hc. rewrite title_ltb_tz in *. lia.
    + constructor; [apply IH; exact Hl|].
      apply Forall_forall. intros y Hy. apply tinsert_in in Hy. destruct Hy as [<-|Hy].
      * apply title_ltb_tz. apply title_eqb_false in E. apply title_ltb_false in L. lia.
      * rewrite Forall_forall in Hx. apply Hx. exact Hy.
Qed.

Section Sort.
  Variable T : Type.
  Notation btx := (btx T).
  Notation title_set := (title_set T).
  Notation transaction_sort := (transaction_sort T).

  Definition has (t : option N) (x : btx) : bool := title_eqb t (bt_title x).

  Lemma title_set_sorted : forall l : list btx, StronglySorted tlt (title_set l).
  Proof.
    induction l as [|x l IH]; cbn; [constructor|]. apply tinsert_sorted. exact IH.
  Qed.

  Lemma title_set_in : forall (l : list btx) y, In y (title_set l) <-> In y (map bt_title l).
  Proof.
    induction l as [|x l IH]; intro y; cbn; [tauto|].
    change (fold_right tinsert [] (map bt_title l)) with (title_set l).
    rewrite tinsert_in, IH. tauto.
  Qed.

  Lemma filter_none : forall t (l : list btx),
    Forall (fun x => bt_title x <> t) l -> filter (has t) l = [].
  Proof.
    intros t l H. induction H as [|x l Hx Hl IH]; [reflexivity|]. cbn [filter]. unfold has at 1.
    destruct (title_eqb t (bt_title x)) eqn:E; [|exact IH].
    apply title_eqb_eq in E. congruence.
  Qed.

  Lemma filter_titles : forall t (l : list btx), Forall (fun y => y = t) (map bt_title (filter (has t) l)).
  Proof.
    intros t l. induction l as [|x l IH]; cbn [filter map]; [constructor|].
    unfold has at 1. destruct (title_eqb t (bt_title x)) eqn:E; [|exact IH].
    cbn [map]. constructor; [|exact IH]. apply title_eqb_eq in E. congruence.
  Qed.

  Lemma const_block_sorted : forall t a b, Forall (fun y => y = t) a -> Forall (tle t) b ->
    tsorted b = true -> tsorted (a ++ b) = true.
  Proof.
    intros t a b Ha Hb Hs. induction Ha as [|y a Hy Ha IH]; [exact Hs|].
    subst y. cbn [app]. apply tsorted_cons_ge; [|exact IH].
    apply Forall_app. split; [|exact Hb].
    eapply Forall_impl; [|exact Ha]. intros c ->. apply title_leb_tz. lia.
  Qed.

  Lemma blocks_sorted : forall (l : list btx) ts, StronglySorted tlt ts ->
    tsorted (map bt_title (flat_map (fun t => filter (has t) l) ts)) = true /\
    Forall (fun y => In y ts) (map bt_title (flat_map (fun t => filter (has t) l) ts)).
  Proof.
    intros l ts H. induction H as [|t ts Hts IH Ht]; cbn [flat_map]; [split; [reflexivity|constructor]|].
    destruct IH as [IH1 IH2]. rewrite map_app. split.
    - apply (const_block_sorted t); [apply filter_titles| |exact IH1].
      eapply Forall_impl; [|exact IH2]. intros y Hy. rewrite Forall_forall in Ht.
      specialize (Ht y Hy). rewrite title_leb_tz. rewrite title_ltb_tz in Ht. lia.
    - apply Forall_app. split.
      + eapply Forall_impl; [|apply filter_titles]. intros y ->. left. reflexivity.
      + eapply Forall_impl; [|exact IH2]. intros y Hy. right. exact Hy.
  Qed.

  Theorem sort_is_sorted : forall l : list btx, tsorted (map bt_title (transaction_sort l)) = true.
  Proof. intro l. apply (blocks_sorted l (title_set l)). apply title_set_sorted. Qed.

  Lemma flat_map_skip : forall (x : btx) l ts, ~ In (bt_title x) ts ->
    flat_map (fun t => filter (has t) (x :: l)) ts = flat_map (fun t => filter (has t) l) ts.
  Proof.
    intros x l ts. induction ts as [|t ts IH]; intro H; [reflexivity|]. cbn [flat_map].
    rewrite IH; [|intro K; apply H; right; exact K]. f_equal.
    cbn [filter]. unfold has at 1. destruct (title_eqb t (bt_title x)) eqn:E; [|reflexivity].
    apply title_eqb_eq in E. exfalso. apply H. left. exact E.
  Qed.

  Lemma sorted_head_min : forall t ts, StronglySorted tlt ts -> In t ts -> Forall (tle t) ts ->
    exists ts', ts = t :: ts'.
  Proof.
    intros t ts Hs Hin Hge. destruct ts as [|u ts]; [contradiction|].
    destruct Hin as [->|Hin]; [eexists; reflexivity|]. exfalso.
    apply StronglySorted_inv in Hs. destruct Hs as [_ Hu]. rewrite Forall_forall in Hu. specialize (Hu t Hin).
    apply Forall_inv in Hge. rewrite title_leb_tz in Hge. rewrite title_ltb_tz in Hu. lia.
  Qed.

  Lemma head_not_in_tail : forall t ts, StronglySorted tlt (t :: ts) -> ~ In t ts.
  Proof.
    intros t ts H Hin. apply StronglySorted_inv in H. destruct H as [_ Ht]. rewrite Forall_forall in Ht.
    specialize (Ht t Hin). rewrite title_ltb_tz in Ht. lia.
  Qed.

  Lemma filter_cons_has : forall t (x : btx) l,
    filter (has t) (x :: l) = if title_eqb t (bt_title x) then x :: filter (has t) l else filter (has t) l.
  Proof. reflexivity. Qed.

  Lemma sort_unfold : forall l : list btx,
    transaction_sort l = flat_map (fun t => filter (has t) l) (title_set l).
  Proof. reflexivity. Qed.

  Theorem sorted_sort_id : forall l : list btx,
    tsorted (map bt_title l) = true -> transaction_sort l = l.
  Proof.
    induction l as [|x l IH]; intro Hs; [reflexivity|].
    cbn [map] in Hs. pose proof (tsorted_all_ge _ _ Hs) as Hge.
    apply tsorted_cons in Hs. destruct Hs as [_ Hs]. specialize (IH Hs).
    rewrite sort_unfold in *. cbn [ModelServe.title_set map fold_right].
    change (fold_right tinsert [] (map bt_title l)) with (title_set l).
    assert (Hge' : Forall (tle (bt_title x)) (title_set l)).
    { apply Forall_forall. intros y Hy. apply title_set_in in Hy.
      rewrite Forall_forall in Hge. apply Hge. exact Hy. }
    pose proof (title_set_sorted l) as Hss.
    destruct (in_dec title_eq_dec (bt_title x) (title_set l)) as [Hin|Hnin].
    - (* the title is already among the titles of l: it is the first of them *)
      destruct (sorted_head_min _ (title_set l) Hss Hin Hge') as [ts' Ets].
      rewrite Ets in *. cbn [tinsert]. rewrite title_eqb_refl.
      cbn [flat_map] in *. rewrite filter_cons_has, title_eqb_refl.
      cbn [app]. f_equal.
      rewrite flat_map_skip; [exact IH|]. apply head_not_in_tail. exact Hss.
    - (* the title is new and below all titles of l *)
      assert (Hins : tinsert (bt_title x) (title_set l) = bt_title x :: title_set l).
      { destruct (title_set l) as [|u ts] eqn:Ets; [reflexivity|]. cbn [tinsert].
        destruct (title_eqb (bt_title x) u) eqn:E.
        - apply title_eqb_eq in E. subst u. exfalso. apply Hnin. left. reflexivity.
        - pose proof (Forall_inv Hge') as Htu. rewrite title_leb_tz in Htu.
          apply title_eqb_false in E.
          assert (L : title_ltb (bt_title x) u = true) by (apply title_ltb_tz; lia). rewrite L. reflexivity. }
      rewrite Hins. cbn [flat_map]. rewrite filter_cons_has, title_eqb_refl.
      rewrite filter_none.
      + cbn [app]. f_equal. rewrite flat_map_skip; [exact IH|exact Hnin].
      + apply Forall_forall. intros y Hy E. apply Hnin. apply title_set_in. rewrite <- E.
        apply in_map. exact Hy.
  Qed.
End Sort.

Lemma SS_map : forall (A B : Type) (f : A -> B) (R : B -> B -> Prop) l,
  StronglySorted R (map f l) <-> StronglySorted (fun a b => R (f a) (f b)) l.
Proof.
  intros A B f R l. induction l as [|x l IH]; cbn [map]; split; intro H; try constructor;
    inversion H as [|? ? Hl Hx]; subst.
  - apply IH. exact Hl.
  - rewrite Forall_map in Hx. exact Hx.
  - apply IH. exact Hl.
  - rewrite Forall_map. exact Hx.
Qed.

Lemma SS_app_left : forall (A : Type) (R : A -> A -> Prop) a x b,
  StronglySorted R (a ++ x :: b) -> Forall (fun y => R y x) a.
Proof.
  intros A R a x b. induction a as [|y a IH]; cbn [app]; intro H; [constructor|].
  inversion H as [|? ? Hl Hy]; subst. constructor; [|apply IH; exact Hl].
  rewrite Forall_forall in Hy. apply Hy. apply in_or_app. right. left. reflexivity.
Qed.

Lemma nth_error_slice : forall (A : Type) (l : list A) s n i x,
  s <= i < s + n -> nth_error l i = Some x -> nth_error (firstn n (skipn s l)) (i - s) = Some x.
Proof.
  intros A l s n i x Hi Hx. rewrite nth_error_firstn_lt by lia.
  rewrite nth_error_skipn_add. replace (s + (i - s)) with i by lia. exact Hx.
Qed.

Lemma tlt_trans : forall a b c, tlt a b -> tlt b c -> tlt a c.
Proof. intros a b c. rewrite !title_ltb_tz. lia. Qed.

Section Scan.
  Variable T : Type.
  Variable nilT : T.
  Variable hash2 : T -> T -> T.

  Notation scan := (scan_chains T).
  Notation chains_cover := (chains_cover T nilT hash2).

  (** [first] is the title of the previous transaction *)
  Lemma scan_step : forall title (hh : T) m i first, i <> 0 -> tle first title ->
    (tlt first title /\ scan (@cons (mtx T) (title, hh) m) i first = (title, i) :: scan m (S i) title) \/
    (title = first /\ scan (@cons (mtx T) (title, hh) m) i first = scan m (S i) first).
  Proof.
    intros [tt|] hh m i [f|] Hi Hle;
      rewrite title_leb_tz in Hle; rewrite title_ltb_tz; cbn [scan_chains tz] in *.
    - destruct (N.eqb_spec tt f) as [->|Hne]; cbn [negb]; [right; auto|left].
      split; [lia|reflexivity].
    - left. split; [lia|reflexivity].
    - lia.
    - right. destruct (Nat.eqb_spec i 0); [contradiction|]. auto.
  Qed.

  Lemma scan_titles_incr : forall (m : list (mtx T)) i first,
    tsorted (first :: map fst m) = true -> i <> 0 ->
    Forall (tlt first) (map fst (scan m i first)) /\ StronglySorted tlt (map fst (scan m i first)).
  Proof.
    induction m as [|[title h0] m IH]; intros i first Hs Hi; [split; constructor|].
    cbn [map fst] in Hs. apply tsorted_cons in Hs. destruct Hs as [Hft Hs].
    destruct (scan_step title h0 m i first Hi Hft) as [[Hlt ->]|[-> ->]]; [|apply IH; [exact Hs|lia]].
    destruct (IH (S i) title Hs ltac:(lia)) as [Hf Hss]. cbn [map fst].
    split; constructor; try assumption.
    eapply Forall_impl; [|exact Hf]. intros y. apply tlt_trans, Hlt.
  Qed.

  Lemma scan_top_incr : forall (m : list (mtx T)),
    tsorted (map fst m) = true -> StronglySorted tlt (map fst (scan m 0 None)).
  Proof.
    intros [|[title h0] m] Hs; [constructor|]. rewrite scan_top. cbn [map fst] in *.
    destruct (scan_titles_incr m 1 title Hs ltac:(lia)). constructor; assumption.
  Qed.

  Fixpoint title_at (sc : list (option N * nat)) (p : nat) (dflt : option N) : option N :=
    match sc with
    | [] => dflt
    | (t, s) :: tl => if s <=? p then title_at tl p t else dflt
    end.

  Lemma title_at_above : forall (m : list (mtx T)) i first p d, p <= i ->
    title_at (scan m (S i) first) p d = d.
  Proof.
    intros m i first p d Hp.
    destruct (scan_bounds T m (S i) first) as [Hb _].
    destruct (scan m (S i) first) as [|[t s] tl]; [reflexivity|].
    apply Forall_inv in Hb. cbn [snd title_at] in *.
    destruct (Nat.leb_spec s p); [lia|reflexivity].
  Qed.

  Lemma scan_title_at : forall (m : list (mtx T)) i first,
    tsorted (first :: map fst m) = true -> i <> 0 ->
    forall k t hh, nth_error m k = Some (t, hh) ->
      title_at (scan m i first) (i + k) first = t.
  Proof.
    induction m as [|[title h0] m IH]; intros i first Hs Hi k t hh Hk; [destruct k; discriminate|].
    cbn [map fst] in Hs. apply tsorted_cons in Hs. destruct Hs as [Hft Hs].
    assert (Hrest : title_at (scan m (S i) title) (i + k) title = t).
    { destruct k as [|k]; [injection Hk as <- _; apply title_at_above; lia|].
      replace (i + S k) with (S i + k) by lia. apply (IH (S i) title Hs ltac:(lia) k t hh Hk). }
    destruct (scan_step title h0 m i first Hi Hft) as [[_ ->]|[<- ->]]; [|exact Hrest].
    cbn [title_at]. destruct (Nat.leb_spec i (i + k)); [exact Hrest|lia].
  Qed.

  Lemma scan_top_title_at : forall (m : list (mtx T)) k t hh,
    tsorted (map fst m) = true -> nth_error m k = Some (t, hh) ->
    title_at (scan m 0 None) k None = t.
  Proof.
    intros [|[title h0] m] k t hh Hs Hk; [destruct k; discriminate|]. rewrite scan_top.
    cbn [title_at Nat.leb map fst] in *. destruct k as [|k]; [injection Hk as <- _; apply title_at_above; lia|].
    apply (scan_title_at m 1 title Hs ltac:(lia) k t hh Hk).
  Qed.

  Definition entry_of (c : childchain T) : option N * nat := (cc_title c, cc_start c).

  Lemma fill_entries : forall ncpu (m : list (mtx T)) total cs,
    map entry_of (fill_chains T nilT hash2 ncpu m total cs) = cs.
  Proof.
    intros ncpu m total cs. induction cs as [|[t s] rest IH]; [reflexivity|].
    cbn [fill_chains map]. rewrite IH. reflexivity.
  Qed.

  Lemma single_entries : forall (cs : list (option N * nat)) total (r : T),
    map entry_of (map (fun '(t, s) => mk_child t s total r) cs) = cs.
  Proof. induction cs as [|[t s] cs IH]; intros total r; [reflexivity|]. cbn. rewrite IH. reflexivity. Qed.

  Lemma multi_entries : forall ncpu (m : list (mtx T)) root chains,
    multi_layer_info T nilT hash2 ncpu m = Some (root, chains) ->
    map entry_of chains = scan m 0 None.
  Proof.
    intros ncpu m root chains H. unfold multi_layer_info in H. destruct m as [|x m']; [discriminate|].
    destruct (Nat.leb _ 1).
    - injection H as _ <-. apply single_entries.
    - injection H as _ <-. apply fill_entries.
  Qed.

  Lemma cover_next_le : forall (m : list (mtx T)) chains next,
    chains_cover m next chains -> next <= length m.
  Proof.
    intros m chains. induction chains as [|c tl IH]; intros next H; cbn in H; [lia|].
    destruct H as (Hs & Hc & _ & Hr). specialize (IH _ Hr). lia.
  Qed.

  Lemma cover_starts_ge : forall (m : list (mtx T)) chains next,
    chains_cover m next chains -> Forall (fun c => next <= cc_start c) chains.
  Proof.
    intros m chains. induction chains as [|c tl IH]; intros next H; [constructor|].
    cbn in H. destruct H as (Hs & Hc & _ & Hr). constructor; [lia|].
    eapply Forall_impl; [|apply (IH _ Hr)]. intros c' Hc'. cbn in Hc'. lia.
  Qed.

  Lemma cover_exists : forall (m : list (mtx T)) chains next p,
    chains_cover m next chains -> next <= p < length m ->
    exists ci c, nth_error chains ci = Some c /\ cc_start c <= p < cc_start c + cc_count c.
  Proof.
    intros m chains. induction chains as [|c tl IH]; intros next p H Hp; cbn in H; [lia|].
    destruct H as (Hs & Hc & _ & Hr).
    destruct (Nat.lt_ge_cases p (next + cc_count c)) as [L|L].
    - exists 0, c. split; [reflexivity|lia].
    - destruct (IH _ p Hr ltac:(lia)) as (ci & c' & Hn & Hin). exists (S ci), c'. split; assumption.
  Qed.

  Lemma cover_end_le : forall (m : list (mtx T)) chains next ci c,
    chains_cover m next chains -> nth_error chains ci = Some c ->
    cc_start c + cc_count c <= length m.
  Proof.
    intros m chains. induction chains as [|c0 tl IH]; intros next ci c H Hn; [destruct ci; discriminate|].
    cbn in H. destruct H as (Hs & Hc & _ & Hr). destruct ci as [|ci].
    - injection Hn as <-. pose proof (cover_next_le _ _ _ Hr). lia.
    - eapply IH; eassumption.
  Qed.

  Lemma cover_title_at : forall (m : list (mtx T)) chains next ci c p dflt,
    chains_cover m next chains -> nth_error chains ci = Some c ->
    cc_start c <= p < cc_start c + cc_count c ->
    title_at (map entry_of chains) p dflt = cc_title c.
  Proof.
    intros m chains. induction chains as [|c0 tl IH]; intros next ci c p dflt H Hn Hp;
      [destruct ci; discriminate|].
    cbn in H. destruct H as (Hs & Hc & _ & Hr). cbn [map entry_of title_at]. destruct ci as [|ci].
    - injection Hn as <-. destruct (Nat.leb_spec (cc_start c0) p); [|lia].
      pose proof (cover_starts_ge _ _ _ Hr) as Hge.
      destruct tl as [|c1 tl']; [reflexivity|]. cbn [map entry_of title_at].
      apply Forall_inv in Hge. destruct (Nat.leb_spec (cc_start c1) p); [lia|reflexivity].
    - pose proof (cover_starts_ge _ _ _ Hr) as Hge. rewrite Forall_forall in Hge.
      cbn [nth_error] in Hn. specialize (Hge c (nth_error_In _ _ Hn)).
      destruct (Nat.leb_spec (cc_start c0) p); [|lia].
      eapply IH; eassumption.
  Qed.

  Notation prow := (prow T).
  Definition ltrow (a b : prow) : Prop := tlt (pr_title a) (pr_title b).

  Lemma table_append : forall (r : prow) tb, Forall (fun x => ltrow x r) tb ->
    table_replace T r tb = tb ++ [r].
  Proof.
    intros r tb H. induction H as [|x tb Hx Htb IH]; [reflexivity|]. cbn [table_replace app].
    unfold ltrow in Hx. rewrite title_ltb_tz in Hx.
    assert (E : title_eqb (pr_title r) (pr_title x) = false) by (apply title_eqb_false; lia).
    assert (L : title_ltb (pr_title r) (pr_title x) = false) by (apply title_ltb_false; lia).
    rewrite E, L, IH. reflexivity.
  Qed.

  Lemma table_fold_sorted : forall rows tb, StronglySorted ltrow (tb ++ rows) ->
    fold_left (fun t r => table_replace T r t) rows tb = tb ++ rows.
  Proof.
    induction rows as [|r rows IH]; intros tb H; cbn [fold_left]; [rewrite app_nil_r; reflexivity|].
    rewrite table_append by (eapply SS_app_left; exact H).
    rewrite IH; rewrite <- app_assoc; [reflexivity|exact H].
  Qed.

  Lemma rows_of_titles : forall chains i, map pr_title (rows_of T chains i) = map fst (map entry_of chains).
  Proof. induction chains as [|c tl IH]; intro i; [reflexivity|]. cbn. rewrite IH. reflexivity. Qed.

  Lemma rows_of_hashes : forall chains i, map pr_hash (rows_of T chains i) = map cc_hash chains.
  Proof. induction chains as [|c tl IH]; intro i; [reflexivity|]. cbn. rewrite IH. reflexivity. Qed.

  Lemma rows_of_length : forall chains i, length (rows_of T chains i) = length chains.
  Proof. induction chains as [|c tl IH]; intro i; [reflexivity|]. cbn. rewrite IH. reflexivity. Qed.

  Lemma rows_of_nth : forall chains i ci c, nth_error chains ci = Some c ->
    nth_error (rows_of T chains i) ci =
      Some (mk_prow (cc_title c) (cc_hash c) (cc_start c) (i + ci) (cc_count c)).
  Proof.
    induction chains as [|c0 tl IH]; intros i ci c H; [destruct ci; discriminate|].
    destruct ci as [|ci]; cbn [rows_of nth_error].
    - injection H as <-. rewrite Nat.add_0_r. reflexivity.
    - rewrite (IH (S i) ci c H). replace (S i + ci) with (i + S ci) by lia. reflexivity.
  Qed.

  Lemma find_row_nomatch : forall t (rows : list prow) acc,
    Forall (fun y => title_eqb t (pr_title y) = false) rows -> find_row T t rows acc = acc.
  Proof.
    intros t rows. induction rows as [|x tl IH]; intros acc H; [reflexivity|].
    cbn [find_row]. rewrite (Forall_inv H). apply IH, (Forall_inv_tail H).
  Qed.

  Lemma find_row_nth : forall (rows : list prow) ci r acc,
    StronglySorted ltrow rows -> nth_error rows ci = Some r ->
    find_row T (pr_title r) rows acc = Some r.
  Proof.
    induction rows as [|x tl IH]; intros ci r acc Hs Hn; [destruct ci; discriminate|].
    destruct (StronglySorted_inv Hs) as [Htl Hx]. cbn [find_row]. destruct ci as [|ci].
    - injection Hn as ->. rewrite title_eqb_refl. apply find_row_nomatch.
      eapply Forall_impl; [|exact Hx]. intros y Hy. unfold ltrow in Hy. rewrite title_ltb_tz in Hy. apply title_eqb_false. lia.
    - cbn [nth_error] in Hn. rewrite Forall_forall in Hx. specialize (Hx r (nth_error_In _ _ Hn)).
      unfold ltrow in Hx. rewrite title_ltb_tz in Hx.
      assert (E : title_eqb (pr_title r) (pr_title x) = false) by (apply title_eqb_false; lia).
      rewrite E. eapply IH; eassumption.
  Qed.

  Lemma sorted_rows : forall ncpu (m : list (mtx T)) root chains,
    tsorted (map fst m) = true ->
    multi_layer_info T nilT hash2 ncpu m = Some (root, chains) ->
    save_para_rows T nilT hash2 ncpu m = rows_of T chains 0 /\
    StronglySorted ltrow (rows_of T chains 0).
  Proof.
    intros ncpu m root chains Hs H.
    assert (Hss : StronglySorted ltrow (rows_of T chains 0)).
    { unfold ltrow. apply (SS_map _ _ pr_title tlt). rewrite rows_of_titles.
      rewrite (multi_entries _ _ _ _ H). apply scan_top_incr. exact Hs. }
    split; [|exact Hss]. unfold save_para_rows. rewrite H.
    apply (table_fold_sorted (rows_of T chains 0) []). exact Hss.
  Qed.

  Lemma sorted_covering_chain : forall ncpu (m : list (mtx T)) root chains i t hh,
    tsorted (map fst m) = true ->
    multi_layer_info T nilT hash2 ncpu m = Some (root, chains) ->
    nth_error m i = Some (t, hh) ->
    exists ci c, nth_error chains ci = Some c /\
      cc_start c <= i < cc_start c + cc_count c /\ cc_title c = t.
  Proof.
    intros ncpu m root chains i t hh Hs H Hi.
    destruct (multi_cover T nilT hash2 ncpu m root chains H) as [Hc _].
    assert (Hlt : i < length m) by (apply nth_error_Some; congruence).
    destruct (cover_exists m chains 0 i Hc ltac:(lia)) as (ci & c & Hn & Hin).
    exists ci, c. split; [exact Hn|]. split; [exact Hin|].
    rewrite <- (cover_title_at m chains 0 ci c i None Hc Hn Hin).
    rewrite (multi_entries _ _ _ _ H).
    apply (scan_top_title_at m i t hh Hs Hi).
  Qed.
End Scan.

Definition served_guard {T} (fork : bool) (txs : list (btx T)) : bool :=
  negb fork || tsorted (map bt_title txs).

Section Main.
  Variable T : Type.
  Variable nilT : T.
  Variable hash2 : T -> T -> T.
  Variable eqT : T -> T -> bool.
  Hypothesis eqT_ok : forall x y, eqT x y = true <-> x = y.

  Notation gmr := (get_merkle_root T nilT hash2).
  Notation gmb := (get_merkle_branch T nilT hash2 eqT).
  Notation rfb := (root_from_branch T hash2).
  Notation gmlp := (get_multi_layer_proofs T nilT hash2 eqT).

  Lemma eqT_refl : forall x, eqT x x = true.
  Proof. intro x. apply eqT_ok. reflexivity. Qed.

  Lemma prefork_verifies : forall is_para ncpu (txs : list (btx T)) i x,
    nth_error txs i = Some x ->
    exists root reply,
      block_txhash T nilT hash2 false ncpu txs = Some root /\
      proc_query_tx T nilT hash2 eqT false is_para ncpu txs i = Some reply /\
      verify_reply T hash2 eqT false root (bt_hash x) (bt_full x) reply = true.
  Proof.
    intros is_para ncpu txs i x Hi. unfold proc_query_tx, block_txhash. rewrite Hi.
    destruct txs as [|x0 txs']; [destruct i; discriminate|].
    eexists; eexists. split; [reflexivity|]. split; [reflexivity|].
    unfold verify_reply. cbn [rp_txproofs rp_proofs rp_index]. apply eqT_ok.
    rewrite parallel_eq_sequential.
    apply (branch_verifies T nilT hash2 eqT). apply map_nth_error. exact Hi.
  Qed.

  Lemma single_proof_verifies : forall (m : list (mtx T)) i t ff hh rf,
    nth_error m i = Some (t, ff) ->
    verify_reply T hash2 eqT true (gmr (map snd m)) hh ff
      (mk_reply [] [mk_txproof (gmb (map snd m) (N.of_nat i)) (N.of_nat i) None] rf (N.of_nat i)) = true.
  Proof.
    intros m i t ff hh rf Hi. unfold verify_reply.
    cbn [rp_txproofs tp_root tp_index rp_index tp_proofs]. rewrite N.eqb_refl. cbn [andb].
    apply eqT_ok, (branch_verifies T nilT hash2 eqT).
    change ff with (snd (t, ff)). apply map_nth_error. exact Hi.
  Qed.

  Lemma one_chain_root : forall ncpu (m : list (mtx T)) root c,
    multi_layer_info T nilT hash2 ncpu m = Some (root, [c]) -> root = gmr (map snd m).
  Proof.
    intros ncpu m root c H. destruct (multi_cover T nilT hash2 ncpu m root [c] H) as [Hc <-].
    cbn in Hc. destruct Hc as (Hst & _ & -> & Hall). rewrite Hst in *. cbn [skipn plus] in *.
    rewrite Hall, firstn_all. symmetry. apply root_is_spec_root.
  Qed.

  Lemma gmlp_found : forall rows (m : list (mtx T)) i title hh r,
    nth_error m i = Some (title, hh) -> rows <> [] -> find_row T title rows None = Some r ->
    gmlp false rows m i =
      if Nat.eqb (length rows) 1 && Nat.eqb (pr_start r) 0 && Nat.eqb (pr_index r) 0
      then [mk_txproof (gmb (map snd m) (N.of_nat i)) (N.of_nat i) None]
      else if Nat.ltb i (pr_start r) || Nat.ltb (length m) (pr_start r + pr_count r)
              || Nat.leb (length rows) (pr_index r) then []
      else [mk_txproof (gmb (map snd (firstn (pr_count r) (skipn (pr_start r) m))) (N.of_nat (i - pr_start r)))
                       (N.of_nat (i - pr_start r)) (Some (pr_hash r));
            mk_txproof (gmb (map pr_hash rows) (N.of_nat (pr_index r))) (N.of_nat (pr_index r)) None].
  Proof.
    intros rows m i title hh r Hn Hne Hf. unfold get_multi_layer_proofs. rewrite Hn.
    destruct rows as [|r0 rs]; [contradiction|]. rewrite Hf. reflexivity.
  Qed.

  Lemma multi_some : forall ncpu (m : list (mtx T)), m <> [] ->
    exists root chains, multi_layer_info T nilT hash2 ncpu m = Some (root, chains).
  Proof.
    intros ncpu [|x m] H; [contradiction|]. unfold multi_layer_info.
    destruct (Nat.leb _ 1); eexists; eexists; reflexivity.
  Qed.

  Lemma map_fst_to_mtx : forall txs : list (btx T), map fst (map (to_mtx T) txs) = map bt_title txs.
  Proof. intro txs. rewrite map_map. apply map_ext. intro x. reflexivity. Qed.

  (* the post-fork case on a title-sorted list of (title, full hash): the table row of
     the chain that covers the index is found; one chain gets the single-layer proof,
     several get the proof inside the chain and the proof of the chain's root *)
  Lemma sorted_served_verifies : forall ncpu (m : list (mtx T)) i t ff root chains,
    tsorted (map fst m) = true ->
    multi_layer_info T nilT hash2 ncpu m = Some (root, chains) ->
    nth_error m i = Some (t, ff) ->
    forall hh' rf,
    verify_reply T hash2 eqT true root hh' ff
      (mk_reply [] (gmlp false (save_para_rows T nilT hash2 ncpu m) m i) rf (N.of_nat i)) = true.
  Proof.
    intros ncpu m i t ff root chains Hs H Hi hh' rf.
    destruct (sorted_rows T nilT hash2 ncpu m root chains Hs H) as [Erows Hss].
    destruct (sorted_covering_chain T nilT hash2 ncpu m root chains i t ff Hs H Hi)
      as (ci & c & Hci & Hin & Ht).
    destruct (child_roots_verify T nilT hash2 eqT ncpu m root chains H) as [Hcov Hver].
    pose proof (rows_of_nth T chains 0 ci c Hci) as Hrow. cbn [plus] in Hrow.
    set (r := mk_prow (cc_title c) (cc_hash c) (cc_start c) ci (cc_count c)) in *.
    assert (Hfind : find_row T t (rows_of T chains 0) None = Some r).
    { rewrite <- Ht. change (cc_title c) with (pr_title r). eapply find_row_nth; eassumption. }
    assert (Hne : rows_of T chains 0 <> []).
    { intro E. rewrite E in Hrow. destruct ci; discriminate. }
    rewrite Erows, (gmlp_found _ m i t ff r Hi Hne Hfind).
    rewrite rows_of_length, rows_of_hashes. cbn [pr_start pr_index pr_count pr_hash r].
    destruct chains as [|c1 [|c2 rest]]; [destruct ci; discriminate| |].
    - (* one chain *)
      destruct ci as [|[|ci]]; try discriminate. injection Hci as <-.
      destruct Hcov as (-> & _). rewrite (one_chain_root _ _ _ _ H).
      apply single_proof_verifies with (t := t). exact Hi.
    - (* several chains *)
      pose proof (cover_end_le T nilT hash2 m _ 0 ci c Hcov Hci) as Hend.
      assert (Hcl : ci < length (c1 :: c2 :: rest)) by (apply nth_error_Some; congruence).
      cbn [length] in Hcl.
      assert (Hslice : nth_error (map snd (firstn (cc_count c) (skipn (cc_start c) m))) (i - cc_start c)
                       = Some ff).
      { change ff with (snd (t, ff)). apply map_nth_error. apply nth_error_slice; assumption. }
      destruct (Hver ci c (i - cc_start c) ff Hci Hslice) as [V1 V2].
      cbn [length Nat.eqb andb].
      destruct (Nat.ltb_spec i (cc_start c)); [lia|].
      destruct (Nat.ltb_spec (length m) (cc_start c + cc_count c)); [lia|].
      destruct (Nat.leb_spec (S (S (length rest))) ci); [lia|]. cbn [orb].
      unfold verify_reply. cbn [rp_txproofs tp_root tp_index rp_index tp_proofs].
      rewrite V1, V2, !eqT_refl. reflexivity.
  Qed.

  Theorem served_verify_partial : forall (fork : bool) (ncpu : Z) (txs : list (btx T)) (i : nat) (x : btx T),
    served_guard fork txs = true -> nth_error txs i = Some x ->
    exists root reply,
      block_txhash T nilT hash2 fork ncpu txs = Some root /\
      proc_query_tx T nilT hash2 eqT fork false ncpu txs i = Some reply /\
      verify_reply T hash2 eqT fork root (bt_hash x) (bt_full x) reply = true.
  Proof.
    intros fork ncpu txs i x Hg Hi. destruct fork; [|apply prefork_verifies; exact Hi].
    unfold served_guard in Hg. cbn [negb orb] in Hg.
    unfold proc_query_tx, block_txhash. rewrite Hi, (sorted_sort_id T txs Hg).
    assert (Hmne : map (to_mtx T) txs <> []) by (destruct txs; [destruct i|]; discriminate).
    destruct (multi_some ncpu _ Hmne) as (root & chains & H). rewrite H.
    eexists; eexists. split; [reflexivity|]. split; [reflexivity|].
    apply (sorted_served_verifies ncpu (map (to_mtx T) txs) i (bt_title x) (bt_full x) root chains).
    - rewrite map_fst_to_mtx. exact Hg.
    - exact H.
    - change (bt_title x, bt_full x) with (to_mtx T x). apply map_nth_error. exact Hi.
  Qed.

  (** blocks as the producers build them (util.CreateNewBlock, solo): the list is put
      into TransactionSort order after the fork and kept as it is before *)
  Theorem produced_verify : forall (fork : bool) (ncpu : Z) (raw : list (btx T)) (i : nat) (x : btx T),
    let txs := if fork then transaction_sort T raw else raw in
    nth_error txs i = Some x ->
    exists root reply,
      block_txhash T nilT hash2 fork ncpu txs = Some root /\
      proc_query_tx T nilT hash2 eqT fork false ncpu txs i = Some reply /\
      verify_reply T hash2 eqT fork root (bt_hash x) (bt_full x) reply = true.
  Proof.
    intros fork ncpu raw i x txs Hi. apply served_verify_partial; [|exact Hi].
    unfold served_guard, txs. destruct fork; [|reflexivity]. cbn [negb orb]. apply sort_is_sorted.
  Qed.
End Main.

Notation srfb := (root_from_branch h sym_hash2).

Lemma srfb_nil : forall b i, srfb b HNil i = HNil.
Proof.
  induction b as [|s b IH]; intro i; [reflexivity|]. cbn [root_from_branch].
  destruct (N.odd i); [rewrite sym_hash2_nil_r|cbn [sym_hash2]]; apply IH.
Qed.

Lemma srfb_inj : forall b x y i, srfb b x i = srfb b y i -> srfb b x i <> HNil -> x = y.
Proof.
  induction b as [|s b IH]; intros x y i E Hn; [exact E|]. cbn [root_from_branch] in *.
  assert (Hstep : forall u v, srfb b u (N.div2 i) = srfb b v (N.div2 i) ->
                    srfb b u (N.div2 i) <> HNil -> u = v /\ u <> HNil /\ v <> HNil).
  { intros u v E' Hn'. pose proof (IH _ _ _ E' Hn') as Euv. subst v. split; [reflexivity|].
    assert (u <> HNil) by (intro Z; subst u; rewrite srfb_nil in Hn'; congruence). tauto. }
  destruct (N.odd i).
  - destruct (Hstep _ _ E Hn) as (E1 & N1 & N2).
    destruct (sym_hash2_parts _ _ N1) as [Hs Hx]. destruct (sym_hash2_parts _ _ N2) as [_ Hy].
    apply (sym_hash2_inj s x s y Hs Hx Hs Hy E1).
  - destruct (Hstep _ _ E Hn) as (E1 & N1 & N2).
    destruct (sym_hash2_parts _ _ N1) as [Hx Hs]. destruct (sym_hash2_parts _ _ N2) as [Hy _].
    apply (sym_hash2_inj x s y s Hx Hs Hy Hs E1).
Qed.

Theorem served_binding : forall (fork : bool) (root h1 f1 h2 f2 : h) (r : reply h),
  root <> HNil ->
  verify_reply h sym_hash2 h_eqb fork root h1 f1 r = true ->
  verify_reply h sym_hash2 h_eqb fork root h2 f2 r = true ->
  if fork then f1 = f2 else h1 = h2.
Proof.
  intros fork root h1 f1 h2 f2 r Hr V1 V2. unfold verify_reply in *. destruct fork.
  - destruct (rp_txproofs r) as [|p [|q [|z rest]]]; try discriminate.
    + destruct (tp_root p); [discriminate|].
      apply andb_true_iff in V1, V2. destruct V1 as [_ V1], V2 as [_ V2].
      apply h_eqb_ok in V1, V2. eapply srfb_inj; [rewrite V1, V2; reflexivity|congruence].
    + destruct (tp_root p) as [c|]; [|discriminate].
      apply andb_true_iff in V1, V2. destruct V1 as [V1 W1], V2 as [V2 _].
      apply h_eqb_ok in V1, V2, W1.
      assert (c <> HNil) by (intro Ec; rewrite Ec, srfb_nil in W1; congruence).
      eapply srfb_inj; [rewrite V1, V2; reflexivity|congruence].
  - destruct (rp_txproofs r); [|discriminate].
    apply h_eqb_ok in V1, V2. eapply srfb_inj; [rewrite V1, V2; reflexivity|congruence].
Qed.

Definition nonnil (x : h) : Prop := x <> HNil.

Lemma mroot_nonnil : forall k (l : list h), l <> [] -> Forall nonnil l ->
  mroot h HNil sym_hash2 k l <> HNil.
Proof.
  induction k as [|k IH]; intros l Hne Hf; cbn [mroot].
  - destruct l as [|y l]; [contradiction|]. exact (Forall_inv Hf).
  - destruct (Nat.leb_spec (length l) (2 ^ k)) as [L|L].
    + apply sym_hash2_nonnil; apply IH; assumption.
    + rewrite <- (firstn_skipn (2 ^ k) l) in Hf. apply Forall_app in Hf. destruct Hf as [F1 F2].
      apply sym_hash2_nonnil; apply IH; try assumption.
      * intro E. apply (f_equal (@length h)) in E. rewrite firstn_length in E. cbn in E.
        pose proof (pow2_pos k). lia.
      * intro E. apply (f_equal (@length h)) in E. rewrite skipn_length in E. cbn in E. lia.
Qed.

Lemma root_nonnil : forall l : list h, l <> [] -> Forall nonnil l ->
  get_merkle_root h HNil sym_hash2 l <> HNil.
Proof.
  intros l Hne Hf. rewrite root_is_spec_root. unfold spec_root.
  destruct l as [|y l']; [contradiction|]. apply mroot_nonnil; assumption.
Qed.

Lemma cover_hashes_nonnil : forall (m : list (mtx h)) chains next,
  Forall nonnil (map snd m) -> chains_cover h HNil sym_hash2 m next chains ->
  Forall nonnil (map cc_hash chains).
Proof.
  intros m chains. induction chains as [|c tl IH]; intros next Hf H; [constructor|].
  pose proof (cover_end_le h HNil sym_hash2 m (c :: tl) next 0 c H eq_refl) as Hend.
  cbn in H. destruct H as (Hs & Hc & Hh & Hr). cbn [map]. constructor; [|eapply IH; eassumption].
  unfold nonnil. rewrite Hh, <- root_is_spec_root. apply root_nonnil.
  - intro E. apply (f_equal (@length h)) in E. rewrite map_length, firstn_length, skipn_length in E.
    cbn in E. lia.
  - rewrite <- (firstn_skipn (cc_start c) m), map_app in Hf. apply Forall_app in Hf. destruct Hf as [_ Hf].
    rewrite <- (firstn_skipn (cc_count c) (skipn (cc_start c) m)), map_app in Hf.
    apply Forall_app in Hf. tauto.
Qed.

Lemma multi_root_nonnil : forall ncpu (m : list (mtx h)) root chains,
  Forall nonnil (map snd m) ->
  multi_layer_info h HNil sym_hash2 ncpu m = Some (root, chains) -> root <> HNil.
Proof.
  intros ncpu m root chains Hf H.
  destruct (multi_cover h HNil sym_hash2 ncpu m root chains H) as [Hc Hr].
  pose proof (cover_hashes_nonnil m chains 0 Hf Hc) as Hn.
  destruct chains as [|c1 [|c2 rest]].
  - destruct m; [cbn in H; discriminate H|cbn in Hc; discriminate Hc].
  - subst root. exact (Forall_inv Hn).
  - subst root. apply root_nonnil; [discriminate|exact Hn].
Qed.

Definition leaf_tx (x : btx h) : bool := is_leaf (bt_hash x) && is_leaf (bt_full x).

Lemma leaf_nonnil : forall x : h, is_leaf x = true -> nonnil x.
Proof. intros [| |] H; discriminate. Qed.

Lemma block_root_nonnil : forall fork ncpu (txs : list (btx h)) root,
  forallb leaf_tx txs = true ->
  block_txhash h HNil sym_hash2 fork ncpu txs = Some root -> root <> HNil.
Proof.
  intros fork ncpu txs root Hl H. unfold block_txhash in H.
  rewrite forallb_forall in Hl. destruct fork.
  - destruct (multi_layer_info _ _ _ _ _) as [[r chains]|] eqn:E; [|discriminate].
    injection H as <-. eapply multi_root_nonnil; [|exact E].
    apply Forall_forall. intros y Hy. apply in_map_iff in Hy. destruct Hy as ([t f] & <- & Hy).
    apply in_map_iff in Hy. destruct Hy as (x & Ex & Hx). injection Ex as _ <-.
    unfold transaction_sort in Hx. apply in_flat_map in Hx. destruct Hx as (t' & _ & Hx).
    apply filter_In in Hx. destruct Hx as [Hx _]. specialize (Hl x Hx).
    apply andb_true_iff in Hl. apply leaf_nonnil. tauto.
  - destruct txs as [|x0 txs']; [discriminate|]. injection H as <-.
    rewrite parallel_eq_sequential. apply root_nonnil; [discriminate|].
    apply Forall_forall. intros y Hy. apply (in_map_iff bt_hash (x0 :: txs')) in Hy. destruct Hy as (x & <- & Hx).
    specialize (Hl x Hx). apply andb_true_iff in Hl. apply leaf_nonnil. tauto.
Qed.

Theorem served_block_binding : forall (fork : bool) (ncpu : Z) (txs : list (btx h)) (i : nat)
    (x : btx h) (root : h) (r : reply h) (h' f' : h),
  served_guard fork txs = true -> forallb leaf_tx txs = true ->
  nth_error txs i = Some x ->
  block_txhash h HNil sym_hash2 fork ncpu txs = Some root ->
  proc_query_tx h HNil sym_hash2 h_eqb fork false ncpu txs i = Some r ->
  verify_reply h sym_hash2 h_eqb fork root h' f' r = true ->
  if fork then f' = bt_full x else h' = bt_hash x.
Proof.
  intros fork ncpu txs i x root r h' f' Hg Hl Hi Hroot Hr Hv.
  destruct (served_verify_partial h HNil sym_hash2 h_eqb h_eqb_ok fork ncpu txs i x Hg Hi)
    as (root0 & r0 & E1 & E2 & V).
  rewrite Hroot in E1. injection E1 as <-. rewrite Hr in E2. injection E2 as <-.
  apply (served_binding fork root h' f' (bt_hash x) (bt_full x) r); try assumption.
  eapply block_root_nonnil; eassumption.
Qed.

Definition served_verify_full : Prop :=
  forall (fork : bool) (ncpu : Z) (txs : list (btx h)) (i : nat) (x : btx h),
    nth_error txs i = Some x ->
    exists root reply,
      block_txhash h HNil sym_hash2 fork ncpu txs = Some root /\
      proc_query_tx h HNil sym_hash2 h_eqb fork false ncpu txs i = Some reply /\
      verify_reply h sym_hash2 h_eqb fork root (bt_hash x) (bt_full x) reply = true.

(* a block carrying [para tx; main tx] with TxHash = root of the sorted list *)
Definition witness_txs : list (btx h) :=
  [mk_btx (Some 1%N) (Leaf 1) (Leaf 11); mk_btx None (Leaf 2) (Leaf 12)].

Theorem served_verify_refuted : ~ served_verify_full.
Proof.
  intro H. destruct (H true 1%Z witness_txs 0 _ eq_refl) as (root & reply & Ha & Hb & Hc).
  assert (E1 : block_txhash h HNil sym_hash2 true 1 witness_txs = Some (H2 (Leaf 12) (Leaf 11)))
    by (vm_compute; reflexivity).
  assert (E2 : proc_query_tx h HNil sym_hash2 h_eqb true false 1 witness_txs 0 =
               Some (mk_reply [] [mk_txproof [Leaf 12] 0%N None] (Leaf 11) 0%N))
    by (vm_compute; reflexivity).
  rewrite E1 in Ha. injection Ha as <-. rewrite E2 in Hb. injection Hb as <-.
  vm_compute in Hc. discriminate Hc.
Qed.

Definition ex_txs : list (btx h) :=
  [mk_btx None (Leaf 1) (Leaf 11); mk_btx None (Leaf 2) (Leaf 12); mk_btx None (Leaf 3) (Leaf 13);
   mk_btx (Some 1%N) (Leaf 4) (Leaf 14); mk_btx (Some 1%N) (Leaf 5) (Leaf 15);
   mk_btx (Some 3%N) (Leaf 6) (Leaf 16)].

