(** C18 — binding.  Lists related by the duplicated-tail pattern have the same
    root (any hash function, [related_same_root]); in the symbolic hash algebra
    (leaves are atoms, H2 is injective) equal roots imply that the two lists are
    related by that pattern ([binding]). *)
From Coq Require Import List Arith ZArith NArith Bool Lia Relations.
From C33 Require Import C18.Model C18.Spec C18.ProofsSeq.
Import ListNotations.
Open Scope nat_scope.

Section DupSound.
  Variable T : Type.
  Variable nilT : T.
  Variable hash2 : T -> T -> T.

  Notation red := (red T hash2).
  Notation redk := (redk T hash2).
  Notation get_merkle_root := (get_merkle_root T nilT hash2).

  (* after j levels the repeated block is one element, which the next level
     duplicates anyway *)
  Theorem dup_step_same_root : forall l1 l2, dup_step T l1 l2 ->
    get_merkle_root l1 = get_merkle_root l2.
  Proof.
    intros l1 l2 H. destruct H as [p t j Hp Ht [m Hm]].
    pose proof (pow2_pos j) as Hpos. apply nonnil_length in Hp.
    assert (Hpl : length p = (2 * m) * 2 ^ j) by (rewrite Hm; simpl; lia).
    rewrite <- (root_redk T nilT hash2 j (p ++ t)) by (rewrite app_length; lia).
    rewrite <- (root_redk T nilT hash2 j (p ++ t ++ t)) by (rewrite !app_length; lia).
    rewrite !(redk_app T hash2 j (2 * m) p) by exact Hpl.
    rewrite (redk_app T hash2 j 1 t t) by lia.
    set (X := redk j p). set (tt := redk j t).
    assert (HX : length X = 2 * m) by (apply redk_length; exact Hpl).
    assert (Htt : length tt = 1) by (apply redk_length; lia).
    destruct tt as [|y [|z tt']]; simpl in Htt; try lia.
    rewrite (root_red T nilT hash2 (X ++ [y])) by (rewrite app_length; simpl; lia).
    rewrite (root_red T nilT hash2 (X ++ [y] ++ [y])) by (rewrite !app_length; simpl; lia).
    rewrite !red_app by (exists m; lia). reflexivity.
  Qed.

  Theorem related_same_root : forall l1 l2, dup_tail_related T l1 l2 ->
    get_merkle_root l1 = get_merkle_root l2.
  Proof.
    intros l1 l2 H. induction H as [x y H|x|x y H IH|x y z H1 IH1 H2 IH2].
    - apply dup_step_same_root. exact H.
    - reflexivity.
    - symmetry. exact IH.
    - congruence.
  Qed.

  Lemma expand_self : forall k (b : list T), length b <= 2 ^ k ->
    expand T (S k) b = expand T k b ++ expand T k b.
  Proof. intros k b H. cbn [expand]. apply Nat.leb_le in H. rewrite H. reflexivity. Qed.

  Lemma expand_join : forall k (a b : list T), length a = 2 ^ k -> 0 < length b ->
    expand T (S k) (a ++ b) = a ++ expand T k b.
  Proof.
    intros k a b Ha Hb. cbn [expand].
    destruct (Nat.leb_spec (length (a ++ b)) (2 ^ k)); [rewrite app_length in *; lia|].
    rewrite firstn_app_exact, skipn_app_exact by assumption. reflexivity.
  Qed.

  Lemma expand_length : forall k (B : list T), 0 < length B <= 2 ^ k ->
    length (expand T k B) = 2 ^ k.
  Proof.
    induction k as [|k IH]; intros B Hl.
    - simpl in *. destruct B as [|x [|y B]]; simpl in *; lia.
    - simpl in Hl. destruct (Nat.le_gt_cases (length B) (2 ^ k)) as [Hs|Hs].
      + rewrite expand_self, app_length, IH by lia. simpl. lia.
      + destruct (split_at T _ _ Hs) as (a & b & -> & Ha & Hb). rewrite app_length in Hl.
        rewrite expand_join, app_length, IH by lia. simpl. lia.
  Qed.

  Lemma expand_full : forall k (B : list T), length B = 2 ^ k -> expand T k B = B.
  Proof.
    induction k as [|k IH]; intros B Hl.
    - simpl in *. destruct B as [|x [|y B]]; simpl in *; try lia. reflexivity.
    - pose proof (pow2_pos k). simpl in Hl.
      destruct (split_at T (2 ^ k) B ltac:(lia)) as (a & b & -> & Ha & Hb). rewrite app_length in Hl.
      rewrite expand_join, IH by lia. reflexivity.
  Qed.

  Lemma steps_chain : forall k (B P : list T), 0 < length B <= 2 ^ k ->
    P <> [] -> Nat.divide (2 ^ k) (length P) ->
    clos_refl_trans _ (dup_step T) (P ++ B) (P ++ expand T k B).
  Proof.
    induction k as [|k IH]; intros B P Hl HP Hdiv.
    - simpl in *. destruct B as [|x [|y B]]; simpl in *; try lia. apply rt_refl.
    - simpl in Hl. destruct Hdiv as [m Hm]. simpl in Hm.
      destruct (Nat.le_gt_cases (length B) (2 ^ k)) as [Hs|Hs].
      + rewrite expand_self by exact Hs. eapply rt_trans.
        * apply IH; [lia|exact HP|]. exists (2 * m). lia.
        * apply rt_step. apply (dup_step_intro T P (expand T k B) k); [exact HP| |exists m; simpl; lia].
          apply expand_length. lia.
      + destruct (split_at T _ _ Hs) as (a & b & -> & Ha & Hb). rewrite app_length in Hl.
        rewrite expand_join, !app_assoc by assumption. apply IH.
        * lia.
        * destruct P; [congruence|discriminate].
        * rewrite app_length. exists (2 * m + 1). lia.
  Qed.

  Lemma related_expand : forall k (l : list T), height k (length l) ->
    dup_tail_related T l (expand T k l).
  Proof.
    intros [|k] l [H1 H2]; simpl in H1, H2.
    - destruct l as [|x [|y l]]; simpl in *; try lia. apply rst_refl.
    - destruct (split_at T (2 ^ k) l ltac:(lia)) as (a & b & -> & Ha & Hb). rewrite app_length in H1.
      rewrite expand_join by assumption. apply clos_rt_clos_rst, steps_chain.
      + lia.
      + apply nonnil_length. pose proof (pow2_pos k). lia.
      + exists 1. lia.
  Qed.
End DupSound.

Notation smroot := (mroot h HNil sym_hash2).

Fixpoint ldepth (x : h) : nat :=
  match x with
  | H2 a _ => S (ldepth a)
  | _ => 0
  end.

Definition parts (k : nat) (l : list h) : list h * list h :=
  if length l <=? 2 ^ k then (l, l) else (firstn (2 ^ k) l, skipn (2 ^ k) l).

Lemma all_leaves_firstn : forall n l, all_leaves l -> all_leaves (firstn n l).
Proof.
  unfold all_leaves. induction n as [|n IH]; intros [|x l] H; simpl in *; auto.
  apply andb_true_iff in H as [H1 H2]. rewrite H1, IH by assumption. reflexivity.
Qed.

Lemma all_leaves_skipn : forall n l, all_leaves l -> all_leaves (skipn n l).
Proof.
  unfold all_leaves. induction n as [|n IH]; intros [|x l] H; simpl in *; auto.
  apply andb_true_iff in H as [H1 H2]. apply IH. exact H2.
Qed.

Lemma parts_ok : forall k l, 0 < length l <= 2 ^ S k -> all_leaves l ->
  let '(A, B) := parts k l in
  0 < length A <= 2 ^ k /\ 0 < length B <= 2 ^ k /\ all_leaves A /\ all_leaves B /\
  smroot (S k) l = sym_hash2 (smroot k A) (smroot k B) /\
  expand h (S k) l = expand h k A ++ expand h k B.
Proof.
  intros k l Hl Hal. unfold parts. cbn [mroot expand].
  pose proof (pow2_pos k) as Hp. simpl in Hl.
  destruct (Nat.leb_spec (length l) (2 ^ k)) as [Hs|Hs].
  - repeat split; auto; lia.
  - rewrite firstn_length, skipn_length.
    repeat split; try lia.
    + apply all_leaves_firstn; exact Hal.
    + apply all_leaves_skipn; exact Hal.
    + rewrite (expand_full h k (firstn (2 ^ k) l)) by (rewrite firstn_length; lia). reflexivity.
Qed.

Lemma sym_hash2_H2 : forall a b, a <> HNil -> b <> HNil -> sym_hash2 a b = H2 a b.
Proof. intros [| |] [| |] Ha Hb; try congruence; reflexivity. Qed.

Lemma sym_hash2_inj : forall a b c d, a <> HNil -> b <> HNil -> c <> HNil -> d <> HNil ->
  sym_hash2 a b = sym_hash2 c d -> a = c /\ b = d.
Proof.
  intros a b c d Ha Hb Hc Hd H. rewrite !sym_hash2_H2 in H by assumption. injection H. auto.
Qed.

Lemma sym_hash2_nil_r : forall a, sym_hash2 a HNil = HNil.
Proof. destruct a; reflexivity. Qed.

Lemma sym_hash2_parts : forall a b, sym_hash2 a b <> HNil -> a <> HNil /\ b <> HNil.
Proof. intros a b H. destruct a, b; simpl in H; split; congruence. Qed.

Lemma sym_hash2_nonnil : forall a b, a <> HNil -> b <> HNil -> sym_hash2 a b <> HNil.
Proof. intros a b Ha Hb. rewrite sym_hash2_H2 by assumption. discriminate. Qed.

Lemma h_eqb_refl : forall x, h_eqb x x = true.
Proof.
  induction x as [|n|a IHa b IHb]; simpl; auto.
  - apply N.eqb_refl.
  - rewrite IHa, IHb. reflexivity.
Qed.

Lemma h_eqb_ok : forall a b, h_eqb a b = true <-> a = b.
Proof.
  split; [revert b|intros ->; apply h_eqb_refl].
  induction a as [|n|l IHl r IHr]; intros [|m|l' r'] H; simpl in H; try discriminate; try reflexivity.
  - apply N.eqb_eq in H. subst. reflexivity.
  - apply andb_true_iff in H. destruct H as [H1 H2]. f_equal; auto.
Qed.

Lemma smroot_shape : forall k l, 0 < length l <= 2 ^ k -> all_leaves l ->
  smroot k l <> HNil /\ ldepth (smroot k l) = k.
Proof.
  induction k as [|k IH]; intros l Hl Hal.
  - simpl in Hl. destruct l as [|x [|y l]]; simpl in *; try lia.
    unfold all_leaves in Hal. simpl in Hal. destruct x; simpl in *; try discriminate.
    split; [discriminate|reflexivity].
  - pose proof (parts_ok k l Hl Hal) as H. destruct (parts k l) as [A B].
    destruct H as (HAl & HBl & HAa & HBa & Hr & _).
    destruct (IH A HAl HAa) as [NA DA]. destruct (IH B HBl HBa) as [NB DB].
    rewrite Hr, sym_hash2_H2 by assumption. split; [discriminate|simpl; congruence].
Qed.

Lemma smroot_inj : forall k l1 l2,
  0 < length l1 <= 2 ^ k -> 0 < length l2 <= 2 ^ k ->
  all_leaves l1 -> all_leaves l2 ->
  smroot k l1 = smroot k l2 -> expand h k l1 = expand h k l2.
Proof.
  induction k as [|k IH]; intros l1 l2 L1 L2 A1 A2 E.
  - simpl in *. destruct l1 as [|x [|y l1]]; simpl in *; try lia.
    destruct l2 as [|x' [|y' l2]]; simpl in *; try lia. congruence.
  - pose proof (parts_ok k l1 L1 A1) as H1. destruct (parts k l1) as [P1 Q1].
    pose proof (parts_ok k l2 L2 A2) as H2. destruct (parts k l2) as [P2 Q2].
    destruct H1 as (a3 & a4 & a5 & a6 & R1 & X1).
    destruct H2 as (b3 & b4 & b5 & b6 & R2 & X2).
    rewrite R1, R2 in E.
    apply sym_hash2_inj in E; try (apply smroot_shape; assumption).
    destruct E as [EP EQ].
    rewrite X1, X2. f_equal; apply IH; assumption.
Qed.

Lemma h_eq_dec : forall a b : h, {a = b} + {a <> b}.
Proof. decide equality. apply N.eq_dec. Qed.

(** the depth of the root term gives the common height ([smroot_shape]), injectivity of
    H2 the common padded leaf list ([smroot_inj]) *)
Lemma same_expansion : forall l1 l2 : list h,
  all_leaves l1 -> all_leaves l2 -> l1 <> [] -> l2 <> [] ->
  get_merkle_root h HNil sym_hash2 l1 = get_merkle_root h HNil sym_hash2 l2 ->
  exists K, height K (length l1) /\ height K (length l2) /\ expand h K l1 = expand h K l2.
Proof.
  intros l1 l2 A1 A2 N1 N2 E. apply nonnil_length in N1, N2.
  pose proof (height_log2_up _ N1) as H1. pose proof (height_log2_up _ N2) as H2.
  rewrite (root_mroot_k h HNil sym_hash2 _ _ H1), (root_mroot_k h HNil sym_hash2 _ _ H2) in E.
  assert (HK : Nat.log2_up (length l1) = Nat.log2_up (length l2)).
  { rewrite <- (proj2 (smroot_shape _ l1 (conj N1 (proj1 H1)) A1)), E.
    apply smroot_shape; [split; [exact N2|apply H2]|exact A2]. }
  rewrite <- HK in *. exists (Nat.log2_up (length l1)). split; [exact H1|]. split; [exact H2|].
  apply smroot_inj; try assumption; split; try assumption; [apply H1|apply H2].
Qed.

Theorem binding : forall l1 l2, all_leaves l1 -> all_leaves l2 -> l1 <> [] -> l2 <> [] ->
  get_merkle_root h HNil sym_hash2 l1 = get_merkle_root h HNil sym_hash2 l2 ->
  l1 = l2 \/ (l1 <> l2 /\ dup_tail_related h l1 l2).
Proof.
  intros l1 l2 A1 A2 N1 N2 E.
  destruct (list_eq_dec h_eq_dec l1 l2) as [Eq|Ne]; [left; exact Eq|right].
  split; [exact Ne|].
  destruct (same_expansion l1 l2 A1 A2 N1 N2 E) as (K & H1 & H2 & Hex).
  eapply rst_trans; [apply (related_expand h K l1 H1)|].
  rewrite Hex. apply rst_sym, (related_expand h K l2 H2).
Qed.
