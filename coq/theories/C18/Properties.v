(** C18 — property theorems only.

    All theorems except [C18_binding] hold for an arbitrary hash type [T], nil
    value, two-hash function and equality test (in particular for the real
    double SHA-256); [C18_binding] is stated in the symbolic hash algebra [h]. *)
From Coq Require Import List ZArith NArith Bool.
From C33 Require Import C18.Model C18.Spec C18.ModelServe C18.ProofsServe3 C18.ProofsServe4 C18.Proofs.
Import ListNotations.

Theorem C18_parallel_eq_sequential :
  forall (T : Type) (nilT : T) (hash2 : T -> T -> T) (ncpu : Z) (ls : list T),
    get_merkle_root_par T nilT hash2 ncpu ls = get_merkle_root T nilT hash2 ls.
Proof. exact ProofsPar.parallel_eq_sequential. Qed.
Print Assumptions C18_parallel_eq_sequential.

Theorem C18_root_is_tree_root :
  forall (T : Type) (nilT : T) (hash2 : T -> T -> T) (ls : list T),
    get_merkle_root T nilT hash2 ls = spec_root T nilT hash2 ls.
Proof. exact ProofsSeq.root_is_spec_root. Qed.
Print Assumptions C18_root_is_tree_root.

Theorem C18_computation_root :
  forall (T : Type) (nilT : T) (hash2 : T -> T -> T) (eqT : T -> T -> bool)
         (ls : list T) (flage : Z) (pos : N),
    ls <> [] -> (1 <= flage <= 3)%Z ->
    fst (fst (computation T nilT hash2 eqT ls flage pos)) = get_merkle_root T nilT hash2 ls.
Proof. exact ProofsMulti.computation_root. Qed.
Print Assumptions C18_computation_root.

Theorem C18_branch_is_tree_branch :
  forall (T : Type) (nilT : T) (hash2 : T -> T -> T) (eqT : T -> T -> bool)
         (ls : list T) (i : nat),
    (i < length ls)%nat ->
    get_merkle_branch T nilT hash2 eqT ls (N.of_nat i) = spec_branch T nilT hash2 ls i /\
    get_merkle_root_and_branch T nilT hash2 eqT ls (N.of_nat i) =
      (get_merkle_root T nilT hash2 ls, spec_branch T nilT hash2 ls i).
Proof. exact ProofsMulti.branch_is_tree_branch. Qed.
Print Assumptions C18_branch_is_tree_branch.

Theorem C18_branch_verifies :
  forall (T : Type) (nilT : T) (hash2 : T -> T -> T) (eqT : T -> T -> bool)
         (ls : list T) (i : nat) (x : T),
    nth_error ls i = Some x ->
    root_from_branch T hash2 (get_merkle_branch T nilT hash2 eqT ls (N.of_nat i)) x (N.of_nat i)
      = get_merkle_root T nilT hash2 ls /\
    (let '(r, b) := get_merkle_root_and_branch T nilT hash2 eqT ls (N.of_nat i) in
     root_from_branch T hash2 b x (N.of_nat i) = r /\ r = get_merkle_root_par T nilT hash2 16 ls).
Proof. exact ProofsMulti.branch_verifies. Qed.
Print Assumptions C18_branch_verifies.

Theorem C18_dup_tail_same_root :
  forall (T : Type) (nilT : T) (hash2 : T -> T -> T) (l1 l2 : list T),
    dup_tail_related T l1 l2 ->
    get_merkle_root T nilT hash2 l1 = get_merkle_root T nilT hash2 l2.
Proof. exact ProofsBind.related_same_root. Qed.
Print Assumptions C18_dup_tail_same_root.

Theorem C18_binding :
  forall l1 l2 : list h, all_leaves l1 -> all_leaves l2 -> l1 <> [] -> l2 <> [] ->
    get_merkle_root h HNil sym_hash2 l1 = get_merkle_root h HNil sym_hash2 l2 ->
    l1 = l2 \/
    (l1 <> l2 /\ dup_tail_related h l1 l2 /\
     (if (length l1 <? length l2)%nat
      then comp_mutated h HNil sym_hash2 h_eqb l2 = true
      else comp_mutated h HNil sym_hash2 h_eqb l1 = true)).
Proof. exact ProofsBind2.binding_mutated. Qed.
Print Assumptions C18_binding.

(** [haspair]: two equal aligned sibling blocks somewhere in the list (an aligned duplicated
    tail is one); Computation then reports mutated = true *)
Theorem C18_equal_siblings_flagged :
  forall (T : Type) (nilT : T) (hash2 : T -> T -> T) (eqT : T -> T -> bool),
    (forall x, eqT x x = true) ->
    forall l : list T, haspair T l -> comp_mutated T nilT hash2 eqT l = true.
Proof. exact ProofsMulti.pair_flagged. Qed.
Print Assumptions C18_equal_siblings_flagged.

Theorem C18_child_roots_verify :
  forall (T : Type) (nilT : T) (hash2 : T -> T -> T) (eqT : T -> T -> bool)
         (ncpu : Z) (txs : list (mtx T)) (root : T) (chains : list (childchain T)),
    multi_layer_info T nilT hash2 ncpu txs = Some (root, chains) ->
    (* the child chains partition the list in order, each child hash is the root of its slice *)
    chains_cover T nilT hash2 txs 0 chains /\
    (* every transaction: its branch inside its chain verifies to the chain's hash, and the
       chain's branch among the chain hashes verifies to the block root (for a single chain
       the chain hash is the block root) *)
    forall (ci : nat) (c : childchain T) (j : nat) (x : T),
      nth_error chains ci = Some c ->
      nth_error (map snd (firstn (cc_count c) (skipn (cc_start c) txs))) j = Some x ->
      root_from_branch T hash2
        (get_merkle_branch T nilT hash2 eqT
           (map snd (firstn (cc_count c) (skipn (cc_start c) txs))) (N.of_nat j)) x (N.of_nat j)
        = cc_hash c /\
      (match chains with
       | [_] => cc_hash c = root
       | _ => root_from_branch T hash2
                (get_merkle_branch T nilT hash2 eqT (map cc_hash chains) (N.of_nat ci))
                (cc_hash c) (N.of_nat ci) = root
       end).
Proof. exact ProofsMulti.child_roots_verify. Qed.
Print Assumptions C18_child_roots_verify.

Theorem C18_transaction_sort_sorted :
  forall (T : Type) (l : list (btx T)),
    tsorted (map bt_title (transaction_sort T l)) = true /\
    (tsorted (map bt_title l) = true -> transaction_sort T l = l).
Proof. intros T l. split; [apply ProofsServe3.sort_is_sorted|apply ProofsServe3.sorted_sort_id]. Qed.
Print Assumptions C18_transaction_sort_sorted.

(** full claim: every transaction of every stored block gets a reply that checks against the
    block's TxHash.  The code accepts received blocks whose list is not in TransactionSort order
    (util.ExecBlock compares TxHash with the root of the *sorted* list and keeps the list as
    received), so the claim fails after the fork: finding 1. *)
Definition C18_served_proofs_verify_full : Prop := served_verify_full_claim.

Theorem C18_served_proofs_verify_refuted : ~ C18_served_proofs_verify_full.
Proof. exact served_verify_refuted. Qed.
Print Assumptions C18_served_proofs_verify_refuted.

(** guard [served_guard fork txs] = before the fork, or the stored list is title-sorted:
    for every hash function with a correct equality test, every block and every index the
    served reply (single-layer Proofs before the fork; after it the proof inside the child
    chain with its RootHash + the proof of the child-chain root, or the one single-layer
    TxProof of a one-chain block) checks against the block's TxHash *)
Theorem C18_served_proofs_verify_partial :
  forall (T : Type) (nilT : T) (hash2 : T -> T -> T) (eqT : T -> T -> bool),
    (forall x y, eqT x y = true <-> x = y) ->
    forall (fork : bool) (ncpu : Z) (txs : list (btx T)) (i : nat) (x : btx T),
      served_guard fork txs = true -> nth_error txs i = Some x ->
      exists root reply,
        block_txhash T nilT hash2 fork ncpu txs = Some root /\
        proc_query_tx T nilT hash2 eqT fork false ncpu txs i = Some reply /\
        verify_reply T hash2 eqT fork root (bt_hash x) (bt_full x) reply = true.
Proof. exact served_verify_partial. Qed.
Print Assumptions C18_served_proofs_verify_partial.

(** unguarded for the blocks the producers build (util.CreateNewBlock, solo): any mix of
    main-chain and para-chain transactions in any order, put into TransactionSort order after the fork *)
Theorem C18_served_proofs_verify :
  forall (T : Type) (nilT : T) (hash2 : T -> T -> T) (eqT : T -> T -> bool),
    (forall x y, eqT x y = true <-> x = y) ->
    forall (fork : bool) (ncpu : Z) (raw : list (btx T)) (i : nat) (x : btx T),
      let txs := if fork then transaction_sort T raw else raw in
      nth_error txs i = Some x ->
      exists root reply,
        block_txhash T nilT hash2 fork ncpu txs = Some root /\
        proc_query_tx T nilT hash2 eqT fork false ncpu txs i = Some reply /\
        verify_reply T hash2 eqT fork root (bt_hash x) (bt_full x) reply = true.
Proof. exact produced_verify. Qed.
Print Assumptions C18_served_proofs_verify.

(** para-chain node (blockchain.isParaChain): ProcQueryTxMsg always serves the single-layer
    proof over the full hashes.  Full claim: it checks for every title-sorted block.  Refuted:
    a block with main-chain and para-chain transactions has the multi-layer TxHash (finding 2). *)
Definition C18_served_proofs_verify_para_full : Prop := served_verify_para_full_claim.

Theorem C18_served_proofs_verify_para_refuted : ~ C18_served_proofs_verify_para_full.
Proof. exact served_verify_para_refuted. Qed.
Print Assumptions C18_served_proofs_verify_para_refuted.

(** guard [para_guard fork txs] = before the fork, or all transactions of the block carry the same title *)
Theorem C18_served_proofs_verify_para_partial :
  forall (T : Type) (nilT : T) (hash2 : T -> T -> T) (eqT : T -> T -> bool),
    (forall x y, eqT x y = true <-> x = y) ->
    forall (fork : bool) (ncpu : Z) (txs : list (btx T)) (i : nat) (x : btx T),
      para_guard fork txs = true -> nth_error txs i = Some x ->
      exists root reply,
        block_txhash T nilT hash2 fork ncpu txs = Some root /\
        proc_query_tx T nilT hash2 eqT fork true ncpu txs i = Some reply /\
        verify_reply T hash2 eqT fork root (bt_hash x) (bt_full x) reply = true.
Proof. exact served_verify_para_partial. Qed.
Print Assumptions C18_served_proofs_verify_para_partial.

(** binding (symbolic algebra): whatever reply checks for two transactions against the same
    non-nil TxHash is about the same (full) hash; in particular the reply served for
    transaction i of a block checks for no other hash *)
Theorem C18_served_proof_binding :
  forall (fork : bool) (root h1 f1 h2 f2 : h) (r : reply h),
    root <> HNil ->
    verify_reply h sym_hash2 h_eqb fork root h1 f1 r = true ->
    verify_reply h sym_hash2 h_eqb fork root h2 f2 r = true ->
    if fork then f1 = f2 else h1 = h2.
Proof. exact served_binding. Qed.
Print Assumptions C18_served_proof_binding.

Theorem C18_served_block_binding :
  forall (fork : bool) (ncpu : Z) (txs : list (btx h)) (i : nat) (x : btx h) (root : h)
         (r : reply h) (h' f' : h),
    served_guard fork txs = true -> forallb leaf_tx txs = true ->
    nth_error txs i = Some x ->
    block_txhash h HNil sym_hash2 fork ncpu txs = Some root ->
    proc_query_tx h HNil sym_hash2 h_eqb fork false ncpu txs i = Some r ->
    verify_reply h sym_hash2 h_eqb fork root h' f' r = true ->
    if fork then f' = bt_full x else h' = bt_hash x.
Proof. exact served_block_binding. Qed.
Print Assumptions C18_served_block_binding.

(** the [eqT] hypothesis of the theorems above, for the symbolic algebra *)
Theorem C18_h_eqb_correct : forall a b : h, h_eqb a b = true <-> a = b.
Proof. exact ProofsBind.h_eqb_ok. Qed.
Print Assumptions C18_h_eqb_correct.

(** the second disjunct of [C18_binding] occurs: two different leaf lists with one root, one
    duplicated-tail step apart; only the longer is flagged *)
Example C18_example_duptail :
  let l1 := map Leaf [1; 2; 3; 4; 5; 6]%N in
  let l2 := map Leaf [1; 2; 3; 4; 5; 6; 5; 6]%N in
  all_leaves l1 /\ all_leaves l2 /\ l1 <> l2 /\
  get_merkle_root h HNil sym_hash2 l1 = get_merkle_root h HNil sym_hash2 l2 /\
  dup_step h l1 l2 /\
  comp_mutated h HNil sym_hash2 h_eqb l1 = false /\
  comp_mutated h HNil sym_hash2 h_eqb l2 = true.
Proof.
  cbv zeta. split; [reflexivity|]. split; [reflexivity|]. split; [discriminate|].
  split; [vm_compute; reflexivity|]. split; [|split; vm_compute; reflexivity].
  apply (dup_step_intro h (map Leaf [1; 2; 3; 4]%N) (map Leaf [5; 6]%N) 1).
  - discriminate.
  - reflexivity.
  - exists 1%nat. reflexivity.
Qed.
Print Assumptions C18_example_duptail.

Example C18_example_parallel_and_branch :
  let ls := map Leaf (map N.of_nat (seq 1 300)) in
  get_merkle_root_par h HNil sym_hash2 4 ls = get_merkle_root h HNil sym_hash2 ls /\
  get_merkle_root_par h HNil sym_hash2 4 ls <> HNil /\
  length (get_merkle_branch h HNil sym_hash2 h_eqb ls 298) = 9%nat /\
  root_from_branch h sym_hash2 (get_merkle_branch h HNil sym_hash2 h_eqb ls 298) (Leaf 299) 298
    = get_merkle_root h HNil sym_hash2 ls.
Proof.
  (* from the general theorems: once its length, its leaf at position 298 and the absence
     of nil are known the list is treated as a variable (left transparent it makes
     unification unfold the 300 leaves); the tree height is log2_up 300 *)
  intro ls.
  assert (Hlen : length ls = 300%nat) by (unfold ls; rewrite !map_length; apply seq_length).
  assert (Hx : nth_error ls 298 = Some (Leaf 299)) by reflexivity.
  assert (Hl : Forall nonnil ls).
  { apply Forall_forall. intros x Hin. apply in_map_iff in Hin. destruct Hin as (n & <- & _). discriminate. }
  assert (Hi : (298 < length ls)%nat) by (rewrite Hlen; apply Nat.ltb_lt; reflexivity).
  clearbody ls. change 298%N with (N.of_nat 298).
  split; [apply ProofsPar.parallel_eq_sequential|]. split; [|split].
  - rewrite ProofsPar.parallel_eq_sequential. apply root_nonnil; [|exact Hl].
    intro E. rewrite E in Hlen. discriminate.
  - rewrite (proj1 (ProofsMulti.branch_is_tree_branch h HNil sym_hash2 h_eqb ls 298 Hi)).
    unfold spec_branch. rewrite ProofsSeq.mbranch_length, Hlen. reflexivity.
  - exact (proj1 (ProofsMulti.branch_verifies h HNil sym_hash2 h_eqb ls 298 _ Hx)).
Qed.
Print Assumptions C18_example_parallel_and_branch.

(** main + two para chains, grouped: guard holds, the served reply for index 4 is the proof in
    its chain plus the proof of the chain root; the same transactions stored in reverse order
    fail the guard and the served reply does not check *)
Example C18_example_served :
  served_guard true ex_txs = true /\ forallb leaf_tx ex_txs = true /\
  transaction_sort h (rev ex_txs) <> rev ex_txs /\
  block_txhash h HNil sym_hash2 true 4 ex_txs =
    Some (H2 (H2 (H2 (H2 (Leaf 11) (Leaf 12)) (H2 (Leaf 13) (Leaf 13))) (H2 (Leaf 14) (Leaf 15)))
             (H2 (Leaf 16) (Leaf 16))) /\
  proc_query_tx h HNil sym_hash2 h_eqb true false 4 ex_txs 4 =
    Some (mk_reply [] [mk_txproof [Leaf 14] 1%N (Some (H2 (Leaf 14) (Leaf 15)));
                       mk_txproof [H2 (H2 (Leaf 11) (Leaf 12)) (H2 (Leaf 13) (Leaf 13)); H2 (Leaf 16) (Leaf 16)]
                                  1%N None] (Leaf 15) 4%N) /\
  served_guard true (rev ex_txs) = false /\
  proc_query_tx h HNil sym_hash2 h_eqb true false 4 (rev ex_txs) 0 =
    Some (mk_reply [] [mk_txproof [] 0%N (Some (Leaf 16)); mk_txproof [Leaf 16] 0%N None] (Leaf 16) 0%N) /\
  (forall root r, block_txhash h HNil sym_hash2 true 4 (rev ex_txs) = Some root ->
     proc_query_tx h HNil sym_hash2 h_eqb true false 4 (rev ex_txs) 0 = Some r ->
     verify_reply h sym_hash2 h_eqb true root (Leaf 6) (Leaf 16) r = false).
Proof.
  repeat split; try (vm_compute; reflexivity).
  - vm_compute. discriminate.
  - intros root r Ha Hb. vm_compute in Ha, Hb. injection Ha as <-. injection Hb as <-.
    vm_compute. reflexivity.
Qed.
Print Assumptions C18_example_served.

Example C18_example_para :
  let txs := [mk_btx (Some 4%N) (Leaf 1) (Leaf 11); mk_btx (Some 4%N) (Leaf 2) (Leaf 12);
              mk_btx (Some 4%N) (Leaf 3) (Leaf 13)] in
  para_guard true txs = true /\ para_guard true para_witness_txs = false /\
  served_guard true para_witness_txs = true /\
  block_txhash h HNil sym_hash2 true 1 txs = Some (H2 (H2 (Leaf 11) (Leaf 12)) (H2 (Leaf 13) (Leaf 13))) /\
  proc_query_tx h HNil sym_hash2 h_eqb true true 1 txs 2 =
    Some (mk_reply [] [mk_txproof [Leaf 13; H2 (Leaf 11) (Leaf 12)] 2%N None] (Leaf 13) 2%N).
Proof. repeat split; vm_compute; reflexivity. Qed.
Print Assumptions C18_example_para.
