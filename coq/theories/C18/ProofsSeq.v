(** C18 — the recursive tree of Spec.v ([mroot], [mbranch]): getMerkleRoot computes its
    root ([root_is_spec_root]), and GetMerkleRootFromBranch applied to the tree's branch
    gives the tree's root ([branch_verifies_tree]).  Arbitrary hash function throughout. *)
From Coq Require Import List Arith ZArith NArith Bool Lia.
From C33 Require Import C18.Model C18.Spec.
Import ListNotations.
Open Scope nat_scope.

Lemma pow2_pos : forall k, 0 < 2 ^ k.
Proof. intro k. pose proof (Nat.pow_nonzero 2 k). lia. Qed.

Definition height (k n : nat) : Prop := n <= 2 ^ k < 2 * n.

Lemma height_log2_up : forall n, 0 < n -> height (Nat.log2_up n) n.
Proof.
  intros n Hn. unfold height. destruct (Nat.eq_dec n 1) as [->|Hn1]; [simpl; lia|].
  destruct (Nat.log2_up_spec n ltac:(lia)) as [Ha Hb].
  pose proof (Nat.log2_up_pos n ltac:(lia)).
  destruct (Nat.log2_up n) as [|j]; [lia|]. cbn [Nat.pred] in Ha. simpl in *. lia.
Qed.

Lemma height_unique : forall k n, height k n -> k = Nat.log2_up n.
Proof.
  intros [|k] n [H1 H2]; simpl in *.
  - replace n with 1 by lia. reflexivity.
  - symmetry. apply Nat.log2_up_unique; simpl; lia.
Qed.

Lemma height_pow2 : forall k, height k (2 ^ k).
Proof. intro k. pose proof (pow2_pos k). unfold height. lia. Qed.

Lemma div2_succ_le : forall n, 2 <= n -> Nat.div2 (S n) < n.
Proof.
  intros n Hn. pose proof (Nat.div2_decr (S n) n (le_n _)) as H.
  destruct n as [|[|n]]; try lia. simpl.
  pose proof (Nat.lt_div2 (S n) ltac:(lia)). simpl in *. lia.
Qed.

Lemma div2_succ_bounds : forall n, 2 * Nat.div2 (S n) = n \/ 2 * Nat.div2 (S n) = S n.
Proof.
  intro n. destruct (Nat.Even_or_Odd n) as [[m Hm]|[m Hm]]; subst n.
  - left. replace (S (2 * m)) with (1 + 2 * m) by lia.
    rewrite Nat.div2_succ_double. lia.
  - right. replace (S (2 * m + 1)) with (2 * (S m)) by lia.
    rewrite Nat.div2_double. lia.
Qed.

Section Lists.
  Variable A : Type.

  Lemma list_ind2 (P : list A -> Prop) :
    P [] -> (forall x, P [x]) -> (forall x y l, P l -> P (x :: y :: l)) -> forall l, P l.
  Proof.
    intros H0 H1 H2.
    fix IH 1. intros [|x [|y l]]; [exact H0 | apply H1 | apply H2, IH].
  Qed.

  Lemma nonnil_length : forall l : list A, 0 < length l <-> l <> [].
  Proof. intros [|x l]; simpl; split; try congruence; lia. Qed.

  Lemma firstn_app_exact : forall (a b : list A) n, length a = n -> firstn n (a ++ b) = a.
  Proof.
    intros a b n H. subst n. rewrite firstn_app, Nat.sub_diag, firstn_all. simpl.
    apply app_nil_r.
  Qed.

  Lemma skipn_app_exact : forall (a b : list A) n, length a = n -> skipn n (a ++ b) = b.
  Proof.
    intros a b n H. subst n. rewrite skipn_app, Nat.sub_diag, skipn_all. reflexivity.
  Qed.

  Lemma split_at : forall n (l : list A), n < length l ->
    exists a b, l = a ++ b /\ length a = n /\ 0 < length b.
  Proof.
    intros n l H. exists (firstn n l), (skipn n l).
    rewrite firstn_skipn, firstn_length_le, skipn_length by lia. repeat split; lia.
  Qed.

  Lemma firstn_skipn_app : forall (a b : list A) s w, s + w <= length a ->
    firstn w (skipn s (a ++ b)) = firstn w (skipn s a).
  Proof.
    intros a b s w H. rewrite skipn_app, firstn_app, skipn_length.
    replace (w - (length a - s)) with 0 by lia. rewrite firstn_O. apply app_nil_r.
  Qed.

  Lemma nth_error_skipn_add : forall s (l : list A) j, nth_error (skipn s l) j = nth_error l (s + j).
  Proof.
    induction s as [|s IH]; intros l j; [reflexivity|].
    destruct l as [|x l]; [destruct j; reflexivity|]. cbn [skipn plus nth_error]. apply IH.
  Qed.

  Lemma nth_error_firstn_lt : forall n (l : list A) j, j < n -> nth_error (firstn n l) j = nth_error l j.
  Proof.
    induction n as [|n IH]; intros l j Hj; [lia|].
    destruct l as [|x l]; [destruct j; reflexivity|]. destruct j as [|j]; [reflexivity|].
    cbn [firstn nth_error]. apply IH. lia.
  Qed.
End Lists.

Section Seq.
  Variable T : Type.
  Variable nilT : T.
  Variable hash2 : T -> T -> T.

  Notation red := (red T hash2).
  Notation root_loop := (root_loop T nilT hash2).
  Notation get_merkle_root := (get_merkle_root T nilT hash2).
  Notation mroot := (mroot T nilT hash2).
  Notation mbranch := (mbranch T nilT hash2).
  Notation rfb := (root_from_branch T hash2).

  Lemma red_length : forall l, length (red l) = Nat.div2 (S (length l)).
  Proof.
    induction l as [|x|x y l IH] using list_ind2; simpl in *; auto.
  Qed.

  Lemma red_app : forall a b, Nat.Even (length a) -> red (a ++ b) = red a ++ red b.
  Proof.
    induction a as [|x|x y a IH] using list_ind2; intros b He.
    - reflexivity.
    - destruct He as [m Hm]. simpl in Hm. lia.
    - cbn [app]. cbn [Model.red]. rewrite IH; [reflexivity|].
      destruct He as [m Hm]. simpl in Hm. exists (m - 1). lia.
  Qed.

  Fixpoint redk (k : nat) (l : list T) : list T :=
    match k with
    | O => l
    | S k' => redk k' (red l)
    end.

  Lemma redk_red_comm : forall k l, redk k (red l) = red (redk k l).
  Proof. induction k; intro l; simpl; auto. Qed.

  Lemma redk_S : forall k l, redk (S k) l = red (redk k l).
  Proof. intros. simpl. apply redk_red_comm. Qed.

  Lemma redk_nil : forall k, redk k [] = [].
  Proof. induction k; simpl; auto. Qed.

  Lemma red_length_pow : forall k m l, length l = m * 2 ^ S k -> length (red l) = m * 2 ^ k.
  Proof.
    intros k m l Hl. rewrite red_length, Hl.
    replace (S (m * 2 ^ S k)) with (1 + 2 * (m * 2 ^ k)) by (simpl; lia).
    apply Nat.div2_succ_double.
  Qed.

  Lemma redk_length : forall k m l, length l = m * 2 ^ k -> length (redk k l) = m.
  Proof.
    induction k as [|k IH]; intros m l Hl.
    - simpl in *. lia.
    - cbn [redk]. apply IH, red_length_pow, Hl.
  Qed.

  Lemma redk_app : forall k m a b, length a = m * 2 ^ k -> redk k (a ++ b) = redk k a ++ redk k b.
  Proof.
    induction k as [|k IH]; intros m a b Hl.
    - reflexivity.
    - cbn [redk]. rewrite red_app.
      + apply (IH m), red_length_pow, Hl.
      + exists (m * 2 ^ k). rewrite Hl. simpl. lia.
  Qed.

  Lemma mroot_join : forall lv a b, length a = 2 ^ lv -> 0 < length b ->
    mroot (S lv) (a ++ b) = hash2 (mroot lv a) (mroot lv b).
  Proof.
    intros lv a b Ha Hb. cbn [Spec.mroot].
    destruct (Nat.leb_spec (length (a ++ b)) (2 ^ lv)); [rewrite app_length in *; lia|].
    rewrite firstn_app_exact, skipn_app_exact by assumption. reflexivity.
  Qed.

  Lemma mroot_self : forall lv b, length b <= 2 ^ lv ->
    mroot (S lv) b = hash2 (mroot lv b) (mroot lv b).
  Proof.
    intros lv b Hb. cbn [Spec.mroot]. apply Nat.leb_le in Hb. rewrite Hb. reflexivity.
  Qed.

  Lemma redk_mroot : forall k l, 0 < length l <= 2 ^ k -> redk k l = [mroot k l].
  Proof.
    induction k as [|k IH]; intros l Hl.
    - simpl in *. destruct l as [|x [|y l]]; simpl in *; try lia; reflexivity.
    - rewrite redk_S. simpl in Hl.
      destruct (Nat.leb_spec (length l) (2 ^ k)) as [Hle|Hgt].
      + rewrite mroot_self, IH by lia. reflexivity.
      + rewrite <- (firstn_skipn (2 ^ k) l).
        assert (Hf : length (firstn (2 ^ k) l) = 1 * 2 ^ k) by (rewrite firstn_length; lia).
        rewrite mroot_join, (redk_app k 1 _ _ Hf), !IH by (rewrite ?skipn_length; lia). reflexivity.
  Qed.

  Lemma root_loop_step : forall f x y l,
    root_loop (S f) (x :: y :: l) = root_loop f (red (x :: y :: l)).
  Proof. reflexivity. Qed.

  Lemma root_loop_fuel : forall f1 f2 l, length l <= f1 -> length l <= f2 ->
    root_loop f1 l = root_loop f2 l.
  Proof.
    induction f1 as [|f1 IH]; intros f2 l H1 H2.
    - destruct l; simpl in *; [|lia]. destruct f2; reflexivity.
    - destruct l as [|x [|y l]]; [destruct f2; reflexivity | destruct f2; reflexivity |].
      destruct f2 as [|f2]; [simpl in H2; lia|].
      rewrite !root_loop_step.
      assert (Hr : length (red (x :: y :: l)) < length (x :: y :: l)).
      { rewrite red_length. apply div2_succ_le. simpl. lia. }
      apply IH; lia.
  Qed.

  Lemma root_red : forall l, 2 <= length l -> get_merkle_root l = get_merkle_root (red l).
  Proof.
    intros l Hl. unfold Model.get_merkle_root.
    destruct l as [|x [|y l]]; simpl in Hl; try lia.
    cbn [length]. rewrite root_loop_step.
    apply root_loop_fuel; [|lia].
    pose proof (div2_succ_le (length (x :: y :: l)) ltac:(simpl; lia)) as H.
    rewrite <- red_length in H. simpl in H |- *. lia.
  Qed.

  (** [2 ^ k < 2 * length l]: before each of the [k] reductions two elements are left, so [root_red] applies *)
  Lemma root_redk : forall k l, 2 ^ k < 2 * length l -> get_merkle_root (redk k l) = get_merkle_root l.
  Proof.
    induction k as [|k IH]; intros l Hl; [reflexivity|].
    cbn [redk]. simpl in Hl. pose proof (pow2_pos k).
    rewrite IH, <- root_red; [reflexivity|lia|].
    rewrite red_length. destruct (div2_succ_bounds (length l)); lia.
  Qed.

  Lemma root_single : forall x, get_merkle_root [x] = x.
  Proof. reflexivity. Qed.

  Lemma root_mroot_k : forall k l, height k (length l) -> get_merkle_root l = mroot k l.
  Proof.
    intros k l [Hle Hlt]. rewrite <- (root_redk k l Hlt), redk_mroot by lia. reflexivity.
  Qed.

  Theorem root_is_spec_root : forall l, get_merkle_root l = spec_root T nilT hash2 l.
  Proof.
    intros [|x l]; [reflexivity|]. apply root_mroot_k, height_log2_up. simpl. lia.
  Qed.

  Lemma spec_root_height : forall k l, height k (length l) -> spec_root T nilT hash2 l = mroot k l.
  Proof.
    intros k l H. rewrite (height_unique _ _ H).
    destruct l; [destruct H; simpl in *; lia|reflexivity].
  Qed.

  Lemma spec_branch_height : forall k l i, height k (length l) ->
    spec_branch T nilT hash2 l i = mbranch k l i.
  Proof. intros k l i H. rewrite (height_unique _ _ H). reflexivity. Qed.

  Lemma mroot_extend : forall m j c, length c <= 2 ^ j ->
    mroot (m + j) c = Nat.iter m (fun r => hash2 r r) (mroot j c).
  Proof.
    induction m as [|m IH]; intros j c Hl; [reflexivity|].
    cbn [plus Nat.iter Spec.mroot].
    assert (Hle : length c <= 2 ^ (m + j)).
    { etransitivity; [exact Hl|]. apply Nat.pow_le_mono_r; lia. }
    apply Nat.leb_le in Hle. rewrite Hle. rewrite IH by assumption. reflexivity.
  Qed.

  Lemma mbranch_join_right : forall lv a b i, length a = 2 ^ lv -> 0 < length b -> 2 ^ lv <= i ->
    mbranch (S lv) (a ++ b) i = mbranch lv b (i - 2 ^ lv) ++ [mroot lv a].
  Proof.
    intros lv a b i Ha Hb Hi. cbn [Spec.mbranch].
    destruct (Nat.leb_spec (length (a ++ b)) (2 ^ lv)); [rewrite app_length in *; lia|].
    destruct (Nat.ltb_spec i (2 ^ lv)); [lia|].
    rewrite firstn_app_exact, skipn_app_exact by assumption. reflexivity.
  Qed.

  Lemma mbranch_join_left : forall lv a b i, length a = 2 ^ lv -> 0 < length b -> i < 2 ^ lv ->
    mbranch (S lv) (a ++ b) i = mbranch lv a i ++ [mroot lv b].
  Proof.
    intros lv a b i Ha Hb Hi. cbn [Spec.mbranch].
    destruct (Nat.leb_spec (length (a ++ b)) (2 ^ lv)); [rewrite app_length in *; lia|].
    destruct (Nat.ltb_spec i (2 ^ lv)); [|lia].
    rewrite firstn_app_exact, skipn_app_exact by assumption. reflexivity.
  Qed.

  Lemma mbranch_self : forall lv b i, length b <= 2 ^ lv ->
    mbranch (S lv) b i = mbranch lv b i ++ [mroot lv b].
  Proof.
    intros lv b i Hb. cbn [Spec.mbranch]. apply Nat.leb_le in Hb. rewrite Hb. reflexivity.
  Qed.

  Lemma mbranch_length : forall k l i, length (mbranch k l i) = k.
  Proof.
    induction k as [|k IH]; intros l i; [reflexivity|].
    cbn [Spec.mbranch].
    destruct (length l <=? 2 ^ k); [|destruct (i <? 2 ^ k)];
      rewrite app_length, IH; simpl; lia.
  Qed.

  Lemma rfb_app : forall b s x idx,
    rfb (b ++ [s]) x idx =
    (if N.testbit idx (N.of_nat (length b)) then hash2 s (rfb b x idx) else hash2 (rfb b x idx) s).
  Proof.
    induction b as [|y b IH]; intros s x idx.
    - cbn [app length Model.root_from_branch]. change (N.of_nat 0) with 0%N.
      rewrite N.bit0_odd. reflexivity.
    - cbn [app length Model.root_from_branch]. rewrite IH.
      rewrite Nat2N.inj_succ, N.testbit_succ_r_div2 by apply N.le_0_l. reflexivity.
  Qed.

  Lemma rfb_add_pow : forall b x a m k, length b <= k ->
    rfb b x (a + m * 2 ^ N.of_nat k)%N = rfb b x a.
  Proof.
    induction b as [|y b IH]; intros x a m k Hk; [reflexivity|].
    cbn [length] in Hk. destruct k as [|k]; [lia|].
    cbn [Model.root_from_branch].
    assert (E : (a + m * 2 ^ N.of_nat (S k) = a + 2 * (m * 2 ^ N.of_nat k))%N).
    { rewrite Nat2N.inj_succ, N.pow_succ_r'. lia. }
    rewrite E, N.odd_add_mul_2.
    assert (E2 : N.div2 (a + 2 * (m * 2 ^ N.of_nat k)) = (N.div2 a + m * 2 ^ N.of_nat k)%N).
    { rewrite !N.div2_div. rewrite N.mul_comm, N.div_add by lia. reflexivity. }
    rewrite E2. apply IH. lia.
  Qed.

  Lemma testbit_top : forall i k, i < 2 ^ S k ->
    N.testbit (N.of_nat i) (N.of_nat k) = (2 ^ k <=? i).
  Proof.
    intros i k Hi. rewrite N.testbit_eqb.
    assert (Hp : (2 ^ N.of_nat k = N.of_nat (2 ^ k))%N).
    { rewrite Nat2N.inj_pow. reflexivity. }
    rewrite Hp.
    destruct (Nat.leb_spec (2 ^ k) i) as [H|H].
    - assert (E : (N.of_nat i / N.of_nat (2 ^ k) = 1)%N).
      { symmetry. apply (N.div_unique _ _ 1%N (N.of_nat (i - 2 ^ k))).
        - change (2 ^ S k) with (2 * 2 ^ k) in Hi. lia.
        - lia. }
      rewrite E. reflexivity.
    - rewrite N.div_small by lia. reflexivity.
  Qed.

  Theorem branch_verifies_tree : forall k l i x, nth_error l i = Some x -> length l <= 2 ^ k ->
    rfb (mbranch k l i) x (N.of_nat i) = mroot k l.
  Proof.
    induction k as [|k IH]; intros l i x Hx Hl;
      assert (Hi : i < length l) by (apply nth_error_Some; congruence).
    - simpl in Hl. destruct l as [|y [|z l]]; simpl in *; try lia.
      destruct i; [|lia]. simpl in Hx. congruence.
    - cbn [Spec.mbranch Spec.mroot]. change (2 ^ S k) with (2 * 2 ^ k) in Hl.
      destruct (Nat.leb_spec (length l) (2 ^ k)) as [Hs|Hs];
        [|destruct (Nat.ltb_spec i (2 ^ k)) as [Hlt|Hge]];
        rewrite rfb_app, mbranch_length, testbit_top by (simpl; lia).
      + destruct (Nat.leb_spec (2 ^ k) i); [lia|]. rewrite (IH l i x) by assumption. reflexivity.
      + destruct (Nat.leb_spec (2 ^ k) i); [lia|].
        rewrite (IH _ i x) by (rewrite ?nth_error_firstn_lt, ?firstn_length; auto; lia). reflexivity.
      + destruct (Nat.leb_spec (2 ^ k) i); [|lia].
        replace (N.of_nat i) with (N.of_nat (i - 2 ^ k) + 1 * 2 ^ N.of_nat k)%N.
        2:{ change 2%N with (N.of_nat 2). rewrite <- Nat2N.inj_pow. lia. }
        rewrite rfb_add_pow by (rewrite mbranch_length; lia).
        rewrite (IH _ _ x); [reflexivity| |rewrite skipn_length; lia].
        rewrite nth_error_skipn_add. replace (2 ^ k + (i - 2 ^ k)) with i by lia. exact Hx.
  Qed.
End Seq.
