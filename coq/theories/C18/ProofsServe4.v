(** C18 — the para-chain node (blockchain.isParaChain): ProcQueryTxMsg
    always serves the single-layer proof over the full hashes.  It checks against the
    block's TxHash when all transactions of the block carry the same title; the
    unguarded statement is refuted by a title-sorted block with main-chain and
    para-chain transactions. *)
From Coq Require Import List Arith ZArith NArith Bool Lia Sorted.
From C33 Require Import C18.Model C18.Spec C18.ModelServe C18.ProofsSeq C18.ProofsPar
  C18.ProofsMulti C18.ProofsBind C18.ProofsBind2 C18.ProofsServe3.
Import ListNotations.
Open Scope nat_scope.

Definition same_title {T} (txs : list (btx T)) : bool :=
  match txs with
  | [] => true
  | x :: tl => forallb (fun y => title_eqb (bt_title x) (bt_title y)) tl
  end.

Definition para_guard {T} (fork : bool) (txs : list (btx T)) : bool := negb fork || same_title txs.

Section ParaNode.
  Variable T : Type.
  Variable nilT : T.
  Variable hash2 : T -> T -> T.
  Variable eqT : T -> T -> bool.
  Hypothesis eqT_ok : forall x y, eqT x y = true <-> x = y.

  Lemma scan_same_rest : forall (m : list (mtx T)) i t, i <> 0 ->
    Forall (fun e => fst e = t) m -> scan_chains T m i t = [].
  Proof.
    induction m as [|[title hh] m IH]; intros i t Hi Hf; [reflexivity|].
    apply Forall_cons_iff in Hf. destruct Hf as [<- Hm]. cbn [fst scan_chains].
    destruct title as [x|].
    - rewrite N.eqb_refl. cbn [negb]. apply IH; [lia|exact Hm].
    - destruct (Nat.eqb_spec i 0); [contradiction|]. apply IH; [lia|exact Hm].
  Qed.

  Lemma scan_same_top : forall t hh (m : list (mtx T)),
    Forall (fun e => fst e = t) m -> scan_chains T ((t, hh) :: m) 0 None = [(t, 0)].
  Proof.
    intros t hh m Hf. cbn [scan_chains]. destruct t as [x|].
    - rewrite (scan_same_rest m 1 (Some x)); [reflexivity|lia|exact Hf].
    - cbn [Nat.eqb]. rewrite (scan_same_rest m 1 None); [reflexivity|lia|exact Hf].
  Qed.

  Lemma same_title_forall : forall (x : btx T) tl,
    forallb (fun y => title_eqb (bt_title x) (bt_title y)) tl = true ->
    Forall (fun e : mtx T => fst e = bt_title x) (map (to_mtx T) tl).
  Proof.
    intros x tl H. rewrite forallb_forall in H. apply Forall_forall. intros e He.
    apply in_map_iff in He. destruct He as (y & <- & Hy). specialize (H y Hy).
    apply title_eqb_eq in H. symmetry. exact H.
  Qed.

  Lemma same_title_sorted : forall txs : list (btx T), same_title txs = true ->
    tsorted (map bt_title txs) = true.
  Proof.
    intros [|x tl] H; [reflexivity|]. cbn [same_title] in H. rewrite forallb_forall in H.
    rewrite <- (app_nil_r (map _ _)). apply (const_block_sorted (bt_title x)); [|constructor|reflexivity].
    cbn [map]. constructor; [reflexivity|]. apply Forall_forall. intros t Ht.
    apply in_map_iff in Ht. destruct Ht as (y & <- & Hy). symmetry. apply title_eqb_eq, H, Hy.
  Qed.

  Theorem served_verify_para_partial : forall (fork : bool) (ncpu : Z) (txs : list (btx T)) (i : nat) (x : btx T),
    para_guard fork txs = true -> nth_error txs i = Some x ->
    exists root reply,
      block_txhash T nilT hash2 fork ncpu txs = Some root /\
      proc_query_tx T nilT hash2 eqT fork true ncpu txs i = Some reply /\
      verify_reply T hash2 eqT fork root (bt_hash x) (bt_full x) reply = true.
  Proof.
    intros fork ncpu txs i x Hg Hi. destruct fork; [|apply prefork_verifies; assumption].
    unfold para_guard in Hg. cbn [negb orb] in Hg.
    unfold proc_query_tx, block_txhash. rewrite Hi, (sorted_sort_id T txs (same_title_sorted txs Hg)).
    destruct txs as [|x0 tl]; [destruct i; discriminate|]. cbn [same_title] in Hg.
    (* one title: the scan finds one chain, whose root is the plain root of the full hashes *)
    assert (Esc : scan_chains T (to_mtx T x0 :: map (to_mtx T) tl) 0 None = [(bt_title x0, 0)])
      by exact (scan_same_top (bt_title x0) (bt_full x0) _ (same_title_forall x0 tl Hg)).
    unfold multi_layer_info. cbn [map]. rewrite Esc. cbn [length Nat.leb].
    eexists; eexists. split; [reflexivity|]. split; [reflexivity|].
    unfold single_layer_root, get_multi_layer_proofs. rewrite parallel_eq_sequential.
    apply (single_proof_verifies T nilT hash2 eqT eqT_ok (map (to_mtx T) (x0 :: tl)) i (bt_title x)).
    change (bt_title x, bt_full x) with (to_mtx T x). apply map_nth_error. exact Hi.
  Qed.
End ParaNode.

Definition served_verify_para_full : Prop :=
  forall (fork : bool) (ncpu : Z) (txs : list (btx h)) (i : nat) (x : btx h),
    tsorted (map bt_title txs) = true -> nth_error txs i = Some x ->
    exists root reply,
      block_txhash h HNil sym_hash2 fork ncpu txs = Some root /\
      proc_query_tx h HNil sym_hash2 h_eqb fork true ncpu txs i = Some reply /\
      verify_reply h sym_hash2 h_eqb fork root (bt_hash x) (bt_full x) reply = true.

(* main, main, para: TxHash = H(H(f1,f2), f3); the served single-layer proof gives H(H(f1,f2), H(f3,f3)) *)
Definition para_witness_txs : list (btx h) :=
  [mk_btx None (Leaf 1) (Leaf 11); mk_btx None (Leaf 2) (Leaf 12); mk_btx (Some 4%N) (Leaf 3) (Leaf 13)].

Theorem served_verify_para_refuted : ~ served_verify_para_full.
Proof.
  intro H. destruct (H true 1%Z para_witness_txs 2 _ eq_refl eq_refl) as (root & reply & Ha & Hb & Hc).
  assert (E1 : block_txhash h HNil sym_hash2 true 1 para_witness_txs =
               Some (H2 (H2 (Leaf 11) (Leaf 12)) (Leaf 13))) by (vm_compute; reflexivity).
  assert (E2 : proc_query_tx h HNil sym_hash2 h_eqb true true 1 para_witness_txs 2 =
               Some (mk_reply [] [mk_txproof [Leaf 13; H2 (Leaf 11) (Leaf 12)] 2%N None] (Leaf 13) 2%N))
    by (vm_compute; reflexivity).
  rewrite E1 in Ha. injection Ha as <-. rewrite E2 in Hb. injection Hb as <-.
  vm_compute in Hc. discriminate Hc.
Qed.

