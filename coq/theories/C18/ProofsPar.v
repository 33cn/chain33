(** C18 — GetMerkleRoot (chunked, padded, any worker count) equals getMerkleRoot
    ([parallel_eq_sequential]), for an arbitrary hash function. *)
From Coq Require Import List Arith ZArith NArith Bool Lia.
From C33 Require Import C18.Model C18.Spec C18.ProofsSeq.
Import ListNotations.
Open Scope nat_scope.

Lemma log2_loop_step : forall p level, p <> xH ->
  log2_loop (xI p) level = log2_loop p (level + 1)%Z /\
  log2_loop (xO p) level = log2_loop p (level + 1)%Z.
Proof. intros [q|q|] level Hp; [split; reflexivity|split; reflexivity|congruence]. Qed.

Lemma log2_loop_spec : forall p level, (2 <= Zpos p)%Z ->
  log2_loop p level = (level + Zpos (Pos.size p) - 2)%Z.
Proof.
  induction p as [p IH|p IH|]; intros level Hp; [| |lia].
  - destruct (Pos.eq_dec p 1) as [E|E]; [subst; cbn; lia|].
    rewrite (proj1 (log2_loop_step p level E)).
    rewrite IH by lia. cbn [Pos.size]. rewrite !Pos2Z.inj_succ. lia.
  - destruct (Pos.eq_dec p 1) as [E|E]; [subst; cbn; lia|].
    rewrite (proj2 (log2_loop_step p level E)).
    rewrite IH by lia. cbn [Pos.size]. rewrite !Pos2Z.inj_succ. lia.
Qed.

(** not at 1: the coded log2 gives 1 there ([log2_small]), [Z.log2] gives 0 *)
Lemma log2_Zlog2 : forall d, (2 <= d)%Z -> log2 d = Z.log2 d.
Proof.
  intros [|p|p] Hd; try lia. unfold log2. rewrite log2_loop_spec by exact Hd.
  destruct p; cbn [Z.log2 Pos.size]; rewrite ?Pos2Z.inj_succ; lia.
Qed.

Lemma log2_small : forall d, (d <= 1)%Z -> (log2 d = 0 \/ log2 d = 1)%Z.
Proof.
  intros d Hd. destruct d as [|p|p]; try (left; reflexivity).
  assert (p = 1%positive) by lia. subst. right. reflexivity.
Qed.

Lemma Z_iter_nat : forall A (f : A -> A) n x, Z.iter n f x = Nat.iter (Z.to_nat n) f x.
Proof.
  intros A f n x. destruct n as [|p|p]; try reflexivity.
  cbn [Z.iter Z.to_nat]. apply Pos2Nat.inj_iter.
Qed.

Lemma pow2_spec : forall s, (1 <= s)%Z -> pow2 s = (2 ^ s)%Z.
Proof.
  intros [|p|p] Hs; try lia.
  apply (Pos.iter_swap_gen _ _ (fun z => z) (fun z => z * 2)%Z (Z.mul 2)). intro z. apply Z.mul_comm.
Qed.

Lemma par_step_spec : forall n ncpu, (80 < n)%Z -> (2 <= ncpu)%Z ->
  exists k, 1 <= k <= 8 /\ par_step n ncpu = Z.of_nat (2 ^ k) /\ (Z.of_nat (2 ^ k) <= n)%Z.
Proof.
  intros n ncpu Hn Hc.
  assert (exists s, 1 <= s <= 8 /\ par_step n ncpu = 2 ^ s /\ 2 ^ s <= n)%Z as (s & Hs & E & Hle).
  { unfold par_step. set (d := (n / ncpu)%Z).
    assert (Hd : (d < n)%Z) by (apply Z.div_lt; lia).
    destruct (Z_lt_le_dec d 2) as [Hsm|Hbig].
    - exists 1%Z. destruct (log2_small d ltac:(lia)) as [E|E]; rewrite E; cbn; lia.
    - rewrite log2_Zlog2 by exact Hbig.
      pose proof (Z.log2_pos d ltac:(lia)) as HL1. destruct (Z.log2_spec d ltac:(lia)) as [HL2 _].
      set (L := Z.log2 d) in *. destruct (Z.ltb_spec L 1); [lia|]. rewrite pow2_spec by lia.
      destruct (Z.ltb_spec 256 (2 ^ L)%Z) as [Hcap|Hcap].
      + exists 8%Z. change (2 ^ 8)%Z with 256%Z. lia.
      + exists L. change 256%Z with (2 ^ 8)%Z in Hcap. apply Z.pow_le_mono_r_iff in Hcap; lia. }
  exists (Z.to_nat s). rewrite Nat2Z.inj_pow, Z2Nat.id by lia. change (Z.of_nat 2) with 2%Z. lia.
Qed.

Lemma log2_pow2 : forall k, 1 <= k -> log2 (Z.of_nat (2 ^ k)) = Z.of_nat k.
Proof.
  intros k Hk. rewrite Nat2Z.inj_pow. change (Z.of_nat 2) with 2%Z.
  rewrite log2_Zlog2; [apply Z.log2_pow2; lia|].
  change 2%Z with (2 ^ 1)%Z at 1. apply Z.pow_le_mono_r; lia.
Qed.

Lemma log2_up_half : forall n, 2 <= n -> Nat.log2_up n = S (Nat.log2_up (Nat.div2 (S n))).
Proof.
  intros n Hn. set (m := Nat.div2 (S n)).
  destruct (div2_succ_bounds n) as [E|E]; fold m in E.
  - rewrite <- E. apply Nat.log2_up_double. lia.
  - replace n with (2 * (m - 1) + 1) by lia. rewrite Nat.log2_up_succ_double by lia.
    rewrite (Nat.log2_up_eqn m) by lia. replace (Nat.pred m) with (m - 1) by lia. reflexivity.
Qed.

(** the body of calcLevel's loop *)
Lemma round_up_half : forall m,
  ((if Z.odd (Z.of_nat m) then Z.of_nat m + 1 else Z.of_nat m) / 2)%Z = Z.of_nat (Nat.div2 (S m)).
Proof.
  intro m. rewrite Nat.div2_div, Nat2Z.inj_div, Nat2Z.inj_succ. change (Z.of_nat 2) with 2%Z.
  pose proof (Zmod_odd (Z.of_nat m)) as Ho.
  destruct (Z.odd (Z.of_nat m)); Z.div_mod_to_equations; lia.
Qed.

Lemma calc_level_loop_spec : forall fuel m level, 1 <= m <= fuel ->
  calc_level_loop fuel (Z.of_nat m) level = (level + Z.of_nat (Nat.log2_up m))%Z.
Proof.
  induction fuel as [|fuel IH]; intros m level Hm; [lia|].
  cbn [calc_level_loop].
  destruct (Z.leb_spec (Z.of_nat m) 1) as [H1|H1].
  - replace m with 1 by lia. rewrite Z.add_0_r. reflexivity.
  - pose proof (div2_succ_le m ltac:(lia)). pose proof (div2_succ_bounds m).
    rewrite round_up_half, IH, (log2_up_half m) by lia. lia.
Qed.

Lemma calc_level_spec : forall n, 2 <= n ->
  calc_level (Z.of_nat n) = Z.of_nat (Nat.log2_up n).
Proof.
  intros n Hn. unfold calc_level.
  destruct (Z.eqb_spec (Z.of_nat n) 1); [lia|].
  rewrite Nat2Z.id. apply calc_level_loop_spec. lia.
Qed.

Lemma skipn_add : forall A a b (l : list A), skipn (a + b) l = skipn b (skipn a l).
Proof.
  induction a as [|a IH]; intros b l; [reflexivity|].
  destruct l as [|x l]; [simpl; rewrite skipn_nil; reflexivity|].
  simpl. apply IH.
Qed.

(** [cnt] is the number of chunks as GetMerkleRoot computes it *)
Lemma chunk_count : forall n s : nat, 0 < s ->
  let cnt := Z.to_nat (if (Z.of_nat n mod Z.of_nat s =? 0)%Z then (Z.of_nat n / Z.of_nat s)%Z
                       else (Z.of_nat n / Z.of_nat s + 1)%Z) in
  n <= cnt * s < n + s.
Proof.
  intros n s Hs.
  pose proof (Z.div_mod (Z.of_nat n) (Z.of_nat s) ltac:(lia)) as Hdm.
  pose proof (Z.mod_pos_bound (Z.of_nat n) (Z.of_nat s) ltac:(lia)) as Hmb.
  assert (0 <= Z.of_nat n / Z.of_nat s)%Z by (apply Z.div_pos; lia).
  destruct (Z.eqb_spec (Z.of_nat n mod Z.of_nat s) 0); lia.
Qed.

Section Par.
  Variable T : Type.
  Variable nilT : T.
  Variable hash2 : T -> T -> T.

  Notation get_merkle_root := (get_merkle_root T nilT hash2).
  Notation get_merkle_root_pad := (get_merkle_root_pad T nilT hash2).
  Notation get_merkle_root_par := (get_merkle_root_par T nilT hash2).
  Notation mroot := (mroot T nilT hash2).
  Notation redk := (redk T hash2).

  (** getMerkleRootPad: the tree over the chunk at its own height [j] (1 for a single
      element, which is hashed with itself first), then [k - j] self-hashes *)
  Lemma root_pad_mroot : forall k c, 1 <= k -> 0 < length c <= 2 ^ k ->
    get_merkle_root_pad c (Z.of_nat (2 ^ k)) = mroot k c.
  Proof.
    intros k c Hk Hl. unfold Model.get_merkle_root_pad.
    rewrite log2_pow2, Z_iter_nat by assumption.
    assert (exists j, j <= k /\ length c <= 2 ^ j /\
              calc_level (Z.of_nat (length c)) = Z.of_nat j /\
              match c with [x] => hash2 x x | _ => get_merkle_root c end = mroot j c)
      as (j & Hj & Hlj & -> & ->).
    { destruct c as [|x [|y c]]; [simpl in Hl; lia|exists 1; repeat split; simpl; lia|].
      set (cc := x :: y :: c) in *.
      assert (H2 : 2 <= length cc) by (simpl; lia).
      destruct (height_log2_up (length cc) ltac:(lia)) as [Hb Hh].
      exists (Nat.log2_up (length cc)). split; [apply Nat.log2_up_le_pow2; lia|]. split; [exact Hb|].
      split; [apply calc_level_spec; exact H2|apply root_mroot_k; split; assumption]. }
    replace (Z.to_nat (Z.of_nat k - Z.of_nat j)) with (k - j) by lia.
    replace k with ((k - j) + j) at 2 by lia.
    symmetry. apply mroot_extend; assumption.
  Qed.

  (* [chunk_of_0] and [chunk_of_S] are stated over all section variables: C13 applies
     them to a nil value and a hash function *)
  Lemma chunk_of_0 : forall (l : list T) s, chunk_of T l s 0 = firstn s l.
  Proof using T nilT hash2.
    intros l s. unfold chunk_of. cbn [Nat.mul skipn Nat.add]. rewrite Nat.add_0_r, Nat.sub_0_r.
    destruct (Nat.le_ge_cases s (length l)) as [H|H].
    - rewrite Nat.min_l by assumption. reflexivity.
    - rewrite Nat.min_r by assumption. rewrite !firstn_all2 by lia. reflexivity.
  Qed.

  Lemma chunk_of_S : forall (l : list T) s i, s <= length l ->
    chunk_of T l s (S i) = chunk_of T (skipn s l) s i.
  Proof using T nilT hash2.
    intros l s i Hs. unfold chunk_of. rewrite skipn_length, <- skipn_add. f_equal.
    change (S i * s) with (s + i * s). change ((S i + 1) * s) with (s + (i + 1) * s).
    destruct (Nat.le_exists_sub _ _ Hs) as (d & -> & _).
    rewrite Nat.add_sub, (Nat.add_comm d s), Nat.add_min_distr_l.
    rewrite Nat.sub_add_distr, (Nat.add_comm s), Nat.add_sub. reflexivity.
  Qed.

  Lemma chunks_redk : forall k (g : list T -> T),
    (forall c, 0 < length c <= 2 ^ k -> g c = mroot k c) ->
    forall cnt l, length l <= cnt * 2 ^ k < length l + 2 ^ k ->
    map (fun i => g (chunk_of T l (2 ^ k) i)) (seq 0 cnt) = redk k l.
  Proof.
    intros k g Hg. pose proof (pow2_pos k) as Hp.
    induction cnt as [|cnt IH]; intros l Hl.
    - destruct l; [|simpl in Hl; lia]. rewrite redk_nil. reflexivity.
    - cbn [seq map]. rewrite <- seq_shift, map_map, chunk_of_0.
      destruct (Nat.le_gt_cases (2 ^ k) (length l)) as [Hfull|Hpart].
      + rewrite (map_ext _ (fun i => g (chunk_of T (skipn (2 ^ k) l) (2 ^ k) i)))
          by (intro i; rewrite chunk_of_S by assumption; reflexivity).
        assert (Hfl : length (firstn (2 ^ k) l) = 1 * 2 ^ k) by (rewrite firstn_length; lia).
        rewrite IH, Hg by (rewrite ?skipn_length; lia).
        change (?x :: ?r) with ([x] ++ r).
        rewrite <- (redk_mroot T nilT hash2 k (firstn (2 ^ k) l)) by lia.
        rewrite <- (redk_app T hash2 k 1 _ _ Hfl), firstn_skipn. reflexivity.
      + replace cnt with 0 by nia. cbn [seq map].
        rewrite firstn_all2, Hg, (redk_mroot T nilT hash2) by lia. reflexivity.
  Qed.

  Theorem parallel_eq_sequential : forall ncpu (l : list T),
    get_merkle_root_par ncpu l = get_merkle_root l.
  Proof.
    intros ncpu l. unfold Model.get_merkle_root_par.
    destruct ((Z.of_nat (length l) <=? 80)%Z || (ncpu <=? 1)%Z) eqn:Hseq; [reflexivity|].
    apply orb_false_iff in Hseq as [Hn Hc].
    apply Z.leb_gt in Hn. apply Z.leb_gt in Hc.
    destruct (par_step_spec _ ncpu Hn ltac:(lia)) as (k & Hk & Hstep & Hle).
    rewrite Hstep, Nat2Z.id. apply Nat2Z.inj_le in Hle.
    (* the chunk roots are [redk k l], [k] rounds of the sequential loop; [root_redk] peels them off *)
    rewrite (chunks_redk k (child_root T nilT hash2 (Z.of_nat (2 ^ k)))).
    - apply root_redk. lia.
    - intros c Hl. unfold child_root. rewrite Nat2Z.id.
      destruct (Nat.eqb_spec (length c) (2 ^ k)) as [E|E].
      + apply root_mroot_k. rewrite E. apply height_pow2.
      + apply root_pad_mroot; [lia|exact Hl].
    - apply chunk_count, pow2_pos.
  Qed.
End Par.
