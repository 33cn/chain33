(** C18 — the two refuted full claims under the names Properties.v states them with. *)
From C33 Require Import C18.ProofsServe3 C18.ProofsServe4.

Definition served_verify_full_claim := served_verify_full.
Definition served_verify_para_full_claim := served_verify_para_full.
