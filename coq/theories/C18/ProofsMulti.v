(** C18 — the constant-space algorithm (Computation), the API
    functions built on it, and the multi-layer (child chain) root.

    Invariant of the main loop: the binary representation of [count] describes a
    decomposition of the processed prefix into aligned perfect blocks, one per set
    bit, whose tree roots sit in [inner]; [matchlevel]/[branch] describe the path of
    the requested position inside the block that contains it; [mutated] is set when
    two equal sibling blocks are merged.  The closing loops pad the ragged right
    edge with self-hashes.  Result ([computation_spec]): root = tree root,
    branch = tree branch. *)
From Coq Require Import List Arith ZArith NArith Bool Lia Sorted.
From C33 Require Import C18.Model C18.Spec C18.ProofsSeq C18.ProofsPar.
Import ListNotations.
Open Scope nat_scope.

Lemma size_nat_sd : forall m, N.size_nat (N.succ_double m) = S (N.size_nat m).
Proof. destruct m; reflexivity. Qed.

Lemma size_nat_double : forall m, m <> 0%N -> N.size_nat (N.double m) = S (N.size_nat m).
Proof. destruct m; [congruence|reflexivity]. Qed.

Lemma size_nat_mono : forall a b, (a <= b)%N -> N.size_nat a <= N.size_nat b.
Proof.
  intros [|p] [|q] H; simpl; try lia.
  destruct (Pos.eq_dec p q) as [E|E]; [subst; lia|].
  apply Pos.size_nat_monotone. lia.
Qed.

Lemma testbit_mul_pow2 : forall a lv, N.testbit (a * 2 ^ N.of_nat lv) (N.of_nat lv) = N.odd a.
Proof.
  intros a lv. rewrite <- (N.add_0_l (N.of_nat lv)) at 2.
  rewrite N.mul_pow2_bits_add. apply N.bit0_odd.
Qed.

Lemma pow2_S_N : forall lv, (2 ^ N.of_nat (S lv) = 2 * 2 ^ N.of_nat lv)%N.
Proof. intro lv. rewrite Nat2N.inj_succ, N.pow_succ_r'. reflexivity. Qed.

Lemma odd_succ_double : forall n, N.odd (N.succ_double n) = true.
Proof. destruct n; reflexivity. Qed.

Lemma odd_double : forall n, N.odd (N.double n) = false.
Proof. destruct n; reflexivity. Qed.

Lemma double_plus1 : forall n, (N.double n + 1 = N.succ_double n)%N.
Proof. intros [|p]; reflexivity. Qed.

Lemma sd_plus1 : forall n, (N.succ_double n + 1 = N.double (n + 1))%N.
Proof. intros [|p]; [reflexivity|]. simpl. rewrite Pos.add_1_r. reflexivity. Qed.

Lemma sd_carry : forall n lv,
  ((N.succ_double n + 1) * 2 ^ N.of_nat lv = (n + 1) * 2 ^ N.of_nat (S lv))%N.
Proof. intros n lv. rewrite pow2_S_N, N.succ_double_spec. lia. Qed.

Lemma divide_testbit_false : forall m L, Nat.divide (2 ^ S L) m ->
  N.testbit (N.of_nat m) (N.of_nat L) = false.
Proof.
  intros m L [k Hk]. subst m.
  replace (N.of_nat (k * 2 ^ S L)) with ((2 * N.of_nat k) * 2 ^ N.of_nat L)%N.
  - rewrite testbit_mul_pow2. rewrite <- N.double_spec. apply odd_double.
  - rewrite Nat2N.inj_mul, Nat2N.inj_pow. change (N.of_nat 2) with 2%N.
    rewrite Nat2N.inj_succ, N.pow_succ_r'. lia.
Qed.

Lemma divide_pow_le : forall a b m, a <= b -> Nat.divide (2 ^ b) m -> Nat.divide (2 ^ a) m.
Proof.
  intros a b m Hab [k Hk]. exists (k * 2 ^ (b - a)).
  rewrite Hk. replace b with ((b - a) + a) at 1 by lia. rewrite Nat.pow_add_r. lia.
Qed.

Section Comp.
  Variable T : Type.
  Variable nilT : T.
  Variable hash2 : T -> T -> T.
  Variable eqT : T -> T -> bool.
  Variable wantb : bool.
  Variable posN : N.

  Notation mroot := (mroot T nilT hash2).
  Notation mbranch := (mbranch T nilT hash2).
  Notation get_slot := (get_slot T nilT).
  Notation set_slot := (set_slot T nilT).
  Notation merge_loop := (merge_loop T nilT hash2 eqT).
  Notation close_inner := (close_inner T nilT hash2).
  Notation close_outer := (close_outer T nilT hash2).
  Notation leaf_step := (leaf_step T nilT hash2 eqT wantb posN).

  Definition pos : nat := N.to_nat posN.

  Definition inr (a w : nat) : Prop := wantb = true /\ a <= pos < a + w.

  Definition outside (n : nat) : Prop := wantb = false \/ n <= pos.

  Lemma outside_not_inr : forall n a w, outside n -> a + w <= n -> ~ inr a w.
  Proof. intros n a w [Ho|Ho] Hle [Hw Hr]; [congruence|lia]. Qed.

  Lemma outside_le : forall n m, outside n -> m <= n -> outside m.
  Proof. intros n m [Ho|Ho] Hle; [left; exact Ho|right; lia]. Qed.

  Lemma inr_right : forall a s b, inr (a + s) b ->
    inr a (s + b) /\ s <= pos - a /\ pos - a - s = pos - (a + s).
  Proof. intros a s b [Hw Hr]. repeat split; try assumption; lia. Qed.

  Lemma inr_left : forall a s b, inr a s -> inr a (s + b) /\ pos - a < s.
  Proof. intros a s b [Hw Hr]. repeat split; try assumption; lia. Qed.

  Lemma inr_split : forall a s b, inr a (s + b) -> inr a s \/ inr (a + s) b.
  Proof.
    intros a s b [Hw Hr]. destruct (Nat.lt_ge_cases pos (a + s)); [left|right]; (split; [exact Hw|lia]).
  Qed.

  (** the invariant of the file head: [dec q lv p inner ml br] for the bits of [q] from
      level [lv] up, [blk] for one set bit; [ml], [br] are matchlevel and branch *)

  Definition blk (lv : nat) (p' B inner : list T) (ml : option nat) (br : list T) : Prop :=
    length B = 2 ^ lv /\ get_slot inner lv = mroot lv B /\
    (ml = Some lv <-> inr (length p') (2 ^ lv)) /\
    (ml = Some lv -> br = mbranch lv B (pos - length p')).

  Fixpoint decp (q : positive) (lv : nat) (p inner : list T) (ml : option nat) (br : list T) : Prop :=
    match q with
    | xH => blk lv [] p inner ml br /\ (forall m, lv < m -> ml <> Some m)
    | xO q' => ml <> Some lv /\ decp q' (S lv) p inner ml br
    | xI q' => exists p' B, p = p' ++ B /\ blk lv p' B inner ml br /\ decp q' (S lv) p' inner ml br
    end.

  Definition dec (q : N) (lv : nat) (p inner : list T) (ml : option nat) (br : list T) : Prop :=
    match q with
    | N0 => p = [] /\ (forall m, lv <= m -> ml <> Some m)
    | Npos q => decp q lv p inner ml br
    end.

  Lemma dec_sd : forall q lv p inner ml br,
    dec (N.succ_double q) lv p inner ml br <->
    exists p' B, p = p' ++ B /\ blk lv p' B inner ml br /\ dec q (S lv) p' inner ml br.
  Proof.
    intros [|q] lv p inner ml br; [|reflexivity].
    cbn [N.succ_double dec decp]. split.
    - intros [Hb Hm]. exists [], p. split; [reflexivity|]. split; [exact Hb|].
      split; [reflexivity|]. intros m Hle. apply Hm. lia.
    - intros (p' & B & Hp & Hb & Hp' & Hm). subst p'. simpl in Hp. subst B.
      split; [exact Hb|]. intros m Hlt. apply Hm. lia.
  Qed.

  Lemma dec_d : forall q lv p inner ml br,
    dec (N.double q) lv p inner ml br <->
    (ml <> Some lv /\ dec q (S lv) p inner ml br).
  Proof.
    intros [|q] lv p inner ml br; [|reflexivity].
    cbn [N.double dec]. split.
    - intros [Hp Hm]. split; [apply Hm; lia|]. split; [exact Hp|]. intros m Hle. apply Hm. lia.
    - intros (H0 & Hp & Hm). split; [exact Hp|]. intros m Hle.
      destruct (Nat.eq_dec m lv) as [E|E]; [subst; exact H0|apply Hm; lia].
  Qed.

  Lemma get_set_same : forall inner lv v, get_slot (set_slot inner lv v) lv = v.
  Proof.
    intros inner lv. revert inner. induction lv as [|lv IH]; intros [|x inner] v; simpl; auto.
  Qed.

  Lemma get_set_other : forall inner lv j v, j <> lv -> get_slot (set_slot inner lv v) j = get_slot inner j.
  Proof.
    intros inner lv. revert inner. induction lv as [|lv IH]; intros [|x inner] j v Hj.
    - destruct j as [|j]; [congruence|]. simpl. destruct j; reflexivity.
    - destruct j as [|j]; [congruence|]. reflexivity.
    - destruct j as [|j]; [reflexivity|]. simpl.
      change (nth j (set_slot [] lv v) nilT) with (get_slot (set_slot [] lv v) j).
      rewrite IH by lia. unfold Model.get_slot. destruct j; reflexivity.
    - destruct j as [|j]; [reflexivity|]. simpl. apply IH. lia.
  Qed.

  Lemma blk_ext : forall lv p' B inner inner' ml br,
    get_slot inner' lv = get_slot inner lv ->
    blk lv p' B inner ml br -> blk lv p' B inner' ml br.
  Proof.
    intros lv p' B inner inner' ml br Hs (H1 & H2 & H3 & H4).
    split; [exact H1|]. split; [rewrite Hs; exact H2|]. split; [exact H3|exact H4].
  Qed.

  Lemma decp_ext : forall q lv p inner inner' ml br,
    (forall j, lv <= j -> get_slot inner' j = get_slot inner j) ->
    decp q lv p inner ml br -> decp q lv p inner' ml br.
  Proof.
    induction q as [q IH|q IH|]; intros lv p inner inner' ml br Hs; cbn [decp].
    - intros (p' & B & Hp & Hb & Hd). exists p', B. split; [exact Hp|].
      split; [eapply blk_ext; [apply Hs; lia|exact Hb]|].
      eapply IH; [|exact Hd]. intros j Hj. apply Hs. lia.
    - intros [H0 Hd]. split; [exact H0|]. eapply IH; [|exact Hd]. intros j Hj. apply Hs. lia.
    - intros [Hb Hm]. split; [|exact Hm].
      eapply blk_ext; [apply Hs; lia|exact Hb].
  Qed.

  Lemma dec_ext : forall q lv p inner inner' ml br,
    (forall j, lv <= j -> get_slot inner' j = get_slot inner j) ->
    dec q lv p inner ml br -> dec q lv p inner' ml br.
  Proof. intros [|q]; [auto|apply decp_ext]. Qed.

  Lemma blk_ml_out : forall lv p' B inner ml br n,
    blk lv p' B inner ml br -> outside n -> length p' + 2 ^ lv <= n -> ml <> Some lv.
  Proof.
    intros lv p' B inner ml br n (_ & _ & Hml & _) Ho Hle Hc.
    exact (outside_not_inr _ _ _ Ho Hle (proj1 Hml Hc)).
  Qed.

  Lemma blk_reset : forall lv p' B inner inner' ml ml' br br' n,
    blk lv p' B inner ml br -> outside n -> length p' + 2 ^ lv <= n ->
    ml' <> Some lv -> get_slot inner' lv = get_slot inner lv ->
    blk lv p' B inner' ml' br'.
  Proof.
    intros lv p' B inner inner' ml ml' br br' n (HB & Hsl & _ & _) Ho Hle Hm Hs.
    split; [exact HB|]. split; [rewrite Hs; exact Hsl|]. split; [split|]; intro Hc.
    - destruct (Hm Hc).
    - destruct (outside_not_inr _ _ _ Ho Hle Hc).
    - destruct (Hm Hc).
  Qed.

  Lemma decp_ml_out : forall q lv p inner ml br,
    decp q lv p inner ml br -> outside (length p) -> forall m, lv <= m -> ml <> Some m.
  Proof.
    induction q as [q IH|q IH|]; intros lv p inner ml br; cbn [decp].
    - intros (p' & B & -> & Hb & Hd) Ho m Hm. rewrite app_length, (proj1 Hb) in Ho.
      destruct (Nat.eq_dec m lv) as [->|E]; [exact (blk_ml_out _ _ _ _ _ _ _ Hb Ho (le_n _))|].
      eapply IH; [exact Hd|apply (outside_le _ _ Ho); lia|lia].
    - intros [H0 Hd] Ho m Hm.
      destruct (Nat.eq_dec m lv) as [->|E]; [exact H0|].
      eapply IH; [exact Hd|exact Ho|lia].
    - intros [Hb Hm'] Ho m Hm. rewrite (proj1 Hb) in Ho.
      destruct (Nat.eq_dec m lv) as [->|E]; [exact (blk_ml_out _ _ _ _ _ _ _ Hb Ho (le_n _))|apply Hm'; lia].
  Qed.

  Lemma dec_ml_out : forall q lv p inner ml br,
    dec q lv p inner ml br -> outside (length p) -> forall m, lv <= m -> ml <> Some m.
  Proof.
    intros [|q] lv p inner ml br; [|apply decp_ml_out].
    intros [_ Hm] _. exact Hm.
  Qed.

  Lemma dec_outside_none : forall q p inner ml br,
    dec q 0 p inner ml br -> outside (length p) -> ml = None.
  Proof.
    intros q p inner [m|] br Hd Ho; [|reflexivity].
    destruct (dec_ml_out _ _ _ _ _ _ Hd Ho m (Nat.le_0_l m) eq_refl).
  Qed.

  Lemma decp_reset : forall q lv p inner inner' ml ml' br br',
    decp q lv p inner ml br -> outside (length p) ->
    (forall m, lv <= m -> ml' <> Some m) ->
    (forall j, lv <= j -> get_slot inner' j = get_slot inner j) ->
    decp q lv p inner' ml' br'.
  Proof.
    induction q as [q IH|q IH|]; intros lv p inner inner' ml ml' br br'; cbn [decp].
    - intros (p' & B & -> & Hb & Hd) Ho Hm Hs. rewrite app_length, (proj1 Hb) in Ho.
      exists p', B. split; [reflexivity|]. split.
      + apply (blk_reset _ _ _ _ _ _ _ _ _ _ Hb Ho (le_n _)); [apply Hm|apply Hs]; lia.
      + eapply IH; [exact Hd|apply (outside_le _ _ Ho); lia| |]; intros; [apply Hm|apply Hs]; lia.
    - intros [H0 Hd] Ho Hm Hs. split; [apply Hm; lia|].
      eapply IH; [exact Hd|exact Ho| |]; intros; [apply Hm|apply Hs]; lia.
    - intros [Hb Hm'] Ho Hm Hs. rewrite (proj1 Hb) in Ho. split; [|intros m Hlt; apply Hm; lia].
      apply (blk_reset _ _ _ _ _ _ _ _ _ _ Hb Ho (le_n _)); [apply Hm|apply Hs]; lia.
  Qed.

  Lemma dec_reset : forall q lv p inner inner' ml ml' br br',
    dec q lv p inner ml br -> outside (length p) ->
    (forall m, lv <= m -> ml' <> Some m) ->
    (forall j, lv <= j -> get_slot inner' j = get_slot inner j) ->
    dec q lv p inner' ml' br'.
  Proof.
    intros [|q] lv p inner inner' ml ml' br br'; [|apply decp_reset].
    intros [Hp _] _ Hm _. split; [exact Hp|exact Hm].
  Qed.

  Lemma dec_rebranch : forall q lv p inner ml br br',
    dec q lv p inner ml br -> outside (length p) -> dec q lv p inner ml br'.
  Proof.
    intros q lv p inner ml br br' Hd Ho.
    eapply dec_reset; [exact Hd|exact Ho| |reflexivity].
    eapply dec_ml_out; eassumption.
  Qed.

  (** the running block [B] (root [h]) of a merging loop at level [lv], placed after
      [p]: full in the main loop, possibly short while closing *)
  Definition run (lv : nat) (p B : list T) (h : T) (matchh : bool) (br : list T) : Prop :=
    0 < length B <= 2 ^ lv /\ h = mroot lv B /\
    (matchh = true <-> inr (length p) (length B)) /\
    (matchh = true -> br = mbranch lv B (pos - length p)).

  Lemma opt_nat_eqb_iff : forall ml lv, opt_nat_eqb ml lv = true <-> ml = Some lv.
  Proof.
    intros [m|] lv; simpl; [|split; congruence].
    rewrite Nat.eqb_eq. split; congruence.
  Qed.

  Lemma branch_step_spec : forall lv p' B0 B inner ml h br matchh br2 m2,
    blk lv p' B0 inner ml br -> run lv (p' ++ B0) B h matchh br ->
    branch_step T wantb matchh ml lv (get_slot inner lv) h br = (br2, m2) ->
    run (S lv) p' (B0 ++ B) (hash2 (get_slot inner lv) h) m2 br2 /\
    (matchh = true -> m2 = true) /\ (m2 = false -> br2 = br /\ ml <> Some lv).
  Proof.
    intros lv p' B0 B inner ml h br matchh br2 m2 (HB0 & Hsl & Hml & Hbr) (HB & Hh & Hm & Hmb).
    rewrite app_length, HB0 in Hm, Hmb. unfold run. rewrite app_length, HB0.
    assert (Hroot : hash2 (get_slot inner lv) h = mroot (S lv) (B0 ++ B))
      by (rewrite Hsl, Hh; symmetry; apply mroot_join; [exact HB0|lia]).
    assert (Hlen : 0 < 2 ^ lv + length B <= 2 ^ S lv) by (simpl; lia).
    unfold branch_step. destruct matchh; [|destruct (opt_nat_eqb ml lv) eqn:Eml].
    - (* the position lies in B: the sibling is the stored root *)
      destruct (inr_right _ _ _ (proj1 Hm eq_refl)) as (Hin & Hge & Hsub).
      rewrite (proj1 Hin). intros [= <- <-].
      split; [|split; [reflexivity|discriminate]].
      split; [exact Hlen|]. split; [exact Hroot|]. split; [split; [intros _; exact Hin|reflexivity]|].
      intros _. rewrite Hsl, (Hmb eq_refl), <- Hsub. symmetry. apply mbranch_join_right; [exact HB0|lia|exact Hge].
    - (* the position lies in B0: the sibling is the running hash *)
      apply opt_nat_eqb_iff in Eml. destruct (inr_left _ _ (length B) (proj1 Hml Eml)) as (Hin & Hlt).
      rewrite (proj1 Hin). intros [= <- <-].
      split; [|split; [reflexivity|discriminate]].
      split; [exact Hlen|]. split; [exact Hroot|]. split; [split; [intros _; exact Hin|reflexivity]|].
      intros _. rewrite Hh, (Hbr Eml). symmetry. apply mbranch_join_left; [exact HB0|lia|exact Hlt].
    - assert (Hne : ml <> Some lv) by (rewrite <- opt_nat_eqb_iff; congruence).
      intro E. assert (br2 = br /\ m2 = false) as [-> ->] by (destruct wantb; injection E; auto).
      split; [|split; [discriminate|auto]].
      split; [exact Hlen|]. split; [exact Hroot|]. split; [|discriminate].
      split; [discriminate|]. intros Hin.
      destruct (inr_split _ _ _ Hin) as [H1|H2]; [destruct (Hne (proj2 Hml H1))|discriminate (proj2 Hm H2)].
  Qed.

  (** the lowest stored block is consumed; the loop goes on one level higher with the joined block *)
  Lemma carry : forall n lv p B inner ml h matchh br br2 m2,
    dec (N.succ_double n) lv p inner ml br -> run lv p B h matchh br ->
    branch_step T wantb matchh ml lv (get_slot inner lv) h br = (br2, m2) ->
    exists p' B0, p = p' ++ B0 /\ length B0 = 2 ^ lv /\ get_slot inner lv = mroot lv B0 /\
      dec n (S lv) p' inner ml br2 /\
      run (S lv) p' (B0 ++ B) (hash2 (get_slot inner lv) h) m2 br2 /\
      (matchh = true -> m2 = true) /\ (m2 = false -> ml <> Some lv).
  Proof.
    intros n lv p B inner ml h matchh br br2 m2 Hd Hr Ebs.
    apply dec_sd in Hd. destruct Hd as (p' & B0 & -> & Hblk & Hd).
    destruct (branch_step_spec _ _ _ _ _ _ _ _ _ _ _ Hblk Hr Ebs) as (Hr2 & C3 & C4).
    exists p', B0. split; [reflexivity|]. split; [apply Hblk|]. split; [apply Hblk|].
    split; [|split; [exact Hr2|split; [exact C3|intro E; apply (C4 E)]]].
    destruct m2.
    - eapply dec_rebranch; [exact Hd|].
      destruct Hr2 as (_ & _ & Hin & _). destruct (proj1 Hin eq_refl) as [_ Hr']. right. lia.
    - destruct (C4 eq_refl) as [-> _]. exact Hd.
  Qed.

  Lemma branch_step_idle : forall lv il h br, branch_step T wantb false None lv il h br = (br, false).
  Proof. intros. unfold branch_step. destruct wantb; reflexivity. Qed.

  Lemma merge_loop_exit : forall fuel count lv inner ml h matchh br mut,
    N.testbit count (N.of_nat lv) = true ->
    merge_loop fuel count lv wantb inner ml h matchh br mut = (lv, h, matchh, br, mut).
  Proof. intros [|f] count lv inner ml h matchh br mut H; cbn [Model.merge_loop]; rewrite H; reflexivity. Qed.

  Lemma merge_loop_step : forall f count lv inner ml h matchh br mut,
    N.testbit count (N.of_nat lv) = false ->
    merge_loop (S f) count lv wantb inner ml h matchh br mut =
    (let il := get_slot inner lv in
     let '(br', matchh') := branch_step T wantb matchh ml lv il h br in
     merge_loop f count (S lv) wantb inner ml (hash2 il h) matchh' br'
                (if eqT il h then true else mut)).
  Proof. intros f count lv inner ml h matchh br mut H. cbn [Model.merge_loop]. rewrite H. reflexivity. Qed.

  Lemma merge_loop_idle : forall fuel count lv inner h br mut,
    exists l' h' mut', merge_loop fuel count lv wantb inner None h false br mut = (l', h', false, br, mut').
  Proof.
    induction fuel as [|f IH]; intros count lv inner h br mut;
      cbn [Model.merge_loop]; destruct (N.testbit count (N.of_nat lv)); try (do 3 eexists; reflexivity).
    rewrite branch_step_idle. apply IH.
  Qed.

  Definition tailpair (j : nat) (l : list T) : Prop :=
    2 ^ S j <= length l /\
    firstn (2 ^ j) (skipn (length l - 2 ^ S j) l) = skipn (length l - 2 ^ j) l.

  Lemma tailpair_last : forall lv p B0 B, length B0 = 2 ^ lv -> length B = 2 ^ lv ->
    tailpair lv ((p ++ B0) ++ B) -> B0 = B.
  Proof.
    intros lv p B0 B H0 HB [_ E]. rewrite !app_length, H0, HB in E.
    rewrite <- app_assoc, skipn_app_exact, firstn_app_exact in E by (simpl; lia).
    rewrite app_assoc, skipn_app_exact in E by (rewrite app_length; lia). exact E.
  Qed.

  (** the block [B] (root [h], level [lv], full) is added to the decomposition [q] of [p]
      (levels >= lv); the lower bits of the old count are all ones, so the new count
      is (q+1) * 2^lv and the loop stops at its lowest set bit. *)
  Definition merged (q : N) (lv : nat) (p B inner : list T) (ml : option nat) (matchh : bool) (mut : bool)
             (res : nat * T * bool * list T * bool) : Prop :=
    let '(level', h', matchh', br', mut') := res in
    lv <= level' /\ N.testbit ((q + 1) * 2 ^ N.of_nat lv) (N.of_nat level') = true /\
    dec (q + 1) lv (p ++ B) (set_slot inner level' h') (if matchh' then Some level' else ml) br' /\
    (matchh = true -> matchh' = true) /\
    (mut = true -> mut' = true) /\
    ((forall x, eqT x x = true) -> forall j, lv <= j < level' -> tailpair j (p ++ B) -> mut' = true).

  (* bit [lv] of the old count is 0: the loop stops at once *)
  Lemma merge_stop : forall n lv fuel p B inner ml h matchh br mut,
    dec (N.double n) lv p inner ml br -> run lv p B h matchh br -> length B = 2 ^ lv ->
    merged (N.double n) lv p B inner ml matchh mut
      (merge_loop fuel ((N.double n + 1) * 2 ^ N.of_nat lv) lv wantb inner ml h matchh br mut).
  Proof.
    intros n lv fuel p B inner ml h matchh br mut Hd (_ & Hh & Hm & Hmb) HB.
    assert (Ht : N.testbit ((N.double n + 1) * 2 ^ N.of_nat lv) (N.of_nat lv) = true)
      by (rewrite testbit_mul_pow2, double_plus1; apply odd_succ_double).
    rewrite merge_loop_exit by exact Ht. rewrite HB in Hm.
    apply dec_d in Hd. destruct Hd as [Hml Hd].
    split; [lia|]. split; [exact Ht|]. split; [|split; [auto|split; [auto|intros _ j Hj; lia]]].
    rewrite double_plus1. apply dec_sd. exists p, B. split; [reflexivity|]. split.
    - split; [exact HB|]. split; [rewrite get_set_same; exact Hh|].
      destruct matchh; [split; [tauto|auto]|].
      split; [split; [contradiction|]|contradiction]. intro Hc. apply Hm in Hc. discriminate.
    - destruct matchh.
      + eapply dec_reset; [exact Hd| | |].
        * destruct (proj1 Hm eq_refl) as [_ Hr]. right. lia.
        * intros m Hle [= ->]. lia.
        * intros j Hj. apply get_set_other. lia.
      + eapply dec_ext; [|exact Hd]. intros j Hj. apply get_set_other. lia.
  Qed.

  Lemma merge_spec : forall q lv fuel p B inner ml h matchh br mut,
    dec q lv p inner ml br -> run lv p B h matchh br -> length B = 2 ^ lv ->
    N.size_nat (q + 1) <= fuel ->
    merged q lv p B inner ml matchh mut
      (merge_loop fuel ((q + 1) * 2 ^ N.of_nat lv) lv wantb inner ml h matchh br mut).
  Proof.
    induction q as [|n _|n IH] using N.binary_ind;
      intros lv fuel p B inner ml h matchh br mut Hd Hr HB Hf.
    - apply (merge_stop 0); assumption.
    - apply merge_stop; assumption.
    - (* merge with the block stored at level lv and carry *)
      rewrite sd_plus1 in Hf. rewrite size_nat_double in Hf by lia.
      destruct fuel as [|f]; [lia|].
      rewrite merge_loop_step by (rewrite testbit_mul_pow2, sd_plus1; apply odd_double).
      cbv zeta.
      destruct (branch_step T wantb matchh ml lv (get_slot inner lv) h br) as [br2 m2] eqn:Ebs.
      destruct (carry _ _ _ _ _ _ _ _ _ _ _ Hd Hr Ebs) as (p' & B0 & -> & HB0 & Hsl & Hd2 & Hr2 & C3 & C4).
      specialize (IH (S lv) f p' (B0 ++ B) inner ml _ m2 br2
                     (if eqT (get_slot inner lv) h then true else mut) Hd2 Hr2
                     ltac:(rewrite app_length, HB0, HB; simpl; lia) ltac:(lia)).
      rewrite sd_carry. unfold merged in *.
      destruct (merge_loop _ _ _ _ _ _ _ _ _ _) as [[[[level' h'] matchh'] br'] mut'].
      destruct IH as (E2 & E3 & E4 & E5 & E6 & E7).
      split; [lia|]. split; [rewrite sd_carry; exact E3|]. split; [|split; [auto|split]].
      + rewrite sd_plus1. apply dec_d. rewrite <- app_assoc. split; [|exact E4].
        destruct matchh'; [intros [= ->]; lia|]. apply C4.
        destruct m2; [discriminate (E5 eq_refl)|reflexivity].
      + intros ->. apply E6. destruct (eqT _ _); reflexivity.
      + intros Hrefl j Hj Htp. destruct (Nat.eq_dec j lv) as [->|Ej].
        * apply E6. rewrite (tailpair_last _ _ _ _ HB0 HB Htp) in Hsl.
          destruct Hr as (_ & -> & _). rewrite Hsl, Hrefl. reflexivity.
        * apply (E7 Hrefl j); [lia|]. rewrite app_assoc. exact Htp.
  Qed.

  Definition Inv (st : cstate T) (p : list T) : Prop :=
    cs_count st = N.of_nat (length p) /\
    dec (cs_count st) 0 p (cs_inner st) (cs_matchlevel st) (cs_branch st) /\
    (outside (length p) -> cs_branch st = []) /\
    ((forall x, eqT x x = true) -> haspair T p -> cs_mutated st = true).

  Lemma haspair_nil : ~ haspair T [].
  Proof. intros (a & j & _ & Hle & _). pose proof (pow2_pos (S j)). cbn [length] in Hle. lia. Qed.

  Lemma haspair_snoc : forall p x, haspair T (p ++ [x]) ->
    haspair T p \/ exists j, tailpair j (p ++ [x]) /\ Nat.divide (2 ^ S j) (length p + 1).
  Proof.
    intros p x (a & j & Hdiv & Hle & Heq).
    rewrite app_length in Hle. cbn [length] in Hle. change (2 ^ S j) with (2 * 2 ^ j) in *.
    destruct (Nat.le_gt_cases (a + 2 * 2 ^ j) (length p)) as [Hin|Hend].
    - left. exists a, j. split; [exact Hdiv|]. split; [exact Hin|].
      rewrite !firstn_skipn_app in Heq by lia. exact Heq.
    - right. exists j. assert (Hlen : length p + 1 = a + 2 * 2 ^ j) by lia. split.
      + unfold tailpair. rewrite app_length. cbn [length]. change (2 ^ S j) with (2 * 2 ^ j).
        split; [lia|].
        replace (length p + 1 - 2 * 2 ^ j) with a by lia.
        replace (length p + 1 - 2 ^ j) with (a + 2 ^ j) by lia.
        rewrite Heq. apply firstn_all2. rewrite skipn_length, app_length. cbn [length]. lia.
      + rewrite Hlen. destruct Hdiv as [k Hk]. exists (k + 1). change (2 ^ S j) with (2 * 2 ^ j). lia.
  Qed.

  Lemma leaf_step_inv : forall st p x, Inv st p -> Inv (leaf_step st x) (p ++ [x]).
  Proof.
    intros st p x (Hc & Hd & Hb & Hmu). unfold Model.leaf_step.
    set (matchh := wantb && (cs_count st =? posN)%N).
    assert (Hr : run 0 p [x] x matchh (cs_branch st)).
    { split; [simpl; lia|]. split; [reflexivity|].
      assert (Hm : matchh = true <-> inr (length p) 1).
      { unfold matchh, inr, pos. rewrite andb_true_iff, N.eqb_eq, Hc. split; intros [Hw E]; (split; [exact Hw|lia]). }
      split; [exact Hm|]. intro E. apply Hm in E. destruct E as [_ E]. apply Hb. right. lia. }
    pose proof (merge_spec (cs_count st) 0 (N.size_nat (cs_count st + 1)) p [x] (cs_inner st)
                  (cs_matchlevel st) x matchh (cs_branch st) (cs_mutated st) Hd Hr eq_refl (le_n _)) as Hms.
    unfold merged in Hms. change (2 ^ N.of_nat 0)%N with 1%N in Hms. rewrite N.mul_1_r in Hms.
    destruct (merge_loop _ _ _ _ _ _ _ _ _ _) as [[[[level' h'] matchh'] br'] mut'] eqn:E.
    destruct Hms as (_ & E3 & E4 & _ & E6 & E7).
    unfold Inv. cbn [cs_count cs_inner cs_matchlevel cs_branch cs_mutated].
    rewrite app_length. cbn [length].
    split; [lia|]. split; [exact E4|]. split.
    - intro Ho.
      assert (Ho' : outside (length p)) by (apply (outside_le _ _ Ho); lia).
      pose proof (dec_outside_none _ _ _ _ _ Hd Ho') as Hml.
      assert (Hmf : matchh = false).
      { destruct matchh; [|reflexivity]. destruct Hr as (_ & _ & Hm & _).
        destruct (proj1 Hm eq_refl) as [Hw Hp]. cbn [length] in Hp. destruct Ho; [congruence|lia]. }
      rewrite Hml, Hmf in E. destruct (merge_loop_idle (N.size_nat (cs_count st + 1)) (cs_count st + 1) 0
                  (cs_inner st) x (cs_branch st) (cs_mutated st)) as (l0 & h0 & mu0 & Ei).
      rewrite Ei in E. injection E as _ _ _ <- _. apply Hb, Ho'.
    - intros Hrefl Hp. destruct (haspair_snoc p x Hp) as [Hin|(j & Htp & Hdiv)].
      + apply E6, Hmu; assumption.
      + apply (E7 Hrefl j); [|exact Htp]. split; [lia|].
        destruct (Nat.lt_ge_cases j level') as [H|H]; [exact H|exfalso].
        apply (divide_pow_le (S level') (S j)) in Hdiv; [|lia].
        apply divide_testbit_false in Hdiv.
        rewrite Hc in E3. replace (N.of_nat (length p) + 1)%N with (N.of_nat (length p + 1)) in E3 by lia.
        congruence.
  Qed.

  Lemma fold_inv : forall l st p, Inv st p -> Inv (fold_left leaf_step l st) (p ++ l).
  Proof.
    induction l as [|x l IH]; intros st p Hi.
    - rewrite app_nil_r. exact Hi.
    - cbn [fold_left]. replace (p ++ x :: l) with ((p ++ [x]) ++ l) by (rewrite <- app_assoc; reflexivity).
      apply IH. apply leaf_step_inv. exact Hi.
  Qed.

  Lemma init_inv : Inv (mk_cstate T [] 0%N None [] false) [].
  Proof.
    unfold Inv. cbn. split; [reflexivity|]. split; [|split; [reflexivity|]].
    - split; [reflexivity|]. intros m _. discriminate.
    - intros _ Hp. destruct (haspair_nil Hp).
  Qed.

  Lemma lowbit_exit : forall fuel count lv,
    N.testbit count (N.of_nat lv) = true -> lowbit_loop fuel count lv = lv.
  Proof. intros [|f] count lv H; cbn [Model.lowbit_loop]; rewrite H; reflexivity. Qed.

  Lemma lowbit_spec : forall q lv fuel p inner ml br,
    q <> 0%N -> N.size_nat q <= fuel -> dec q lv p inner ml br ->
    exists L n, lowbit_loop fuel (q * 2 ^ N.of_nat lv) lv = L /\
      (q * 2 ^ N.of_nat lv = N.succ_double n * 2 ^ N.of_nat L)%N /\
      dec (N.succ_double n) L p inner ml br /\ N.size_nat (N.succ_double n) <= fuel.
  Proof.
    induction q as [|n IH|n IH] using N.binary_ind; intros lv fuel p inner ml br Hq Hf Hd.
    - congruence.
    - assert (Hn : n <> 0%N) by (intro E; subst; apply Hq; reflexivity).
      rewrite size_nat_double in Hf by assumption.
      destruct fuel as [|f]; [lia|].
      cbn [Model.lowbit_loop]. rewrite testbit_mul_pow2, odd_double.
      apply dec_d in Hd. destruct Hd as [_ Hd].
      assert (E : (N.double n * 2 ^ N.of_nat lv = n * 2 ^ N.of_nat (S lv))%N).
      { rewrite pow2_S_N, N.double_spec. lia. }
      rewrite E.
      destruct (IH (S lv) f p inner ml br Hn ltac:(lia) Hd) as (L & n' & E1 & E2 & E3 & E4).
      exists L, n'. split; [exact E1|]. split; [exact E2|]. split; [exact E3|lia].
    - exists lv, n. split; [|split; [reflexivity|split; [exact Hd|exact Hf]]].
      apply lowbit_exit. rewrite testbit_mul_pow2. apply odd_succ_double.
  Qed.

  Lemma close_inner_exit : forall fuel count lv inner ml h matchh br,
    N.testbit count (N.of_nat lv) = true ->
    close_inner fuel count lv wantb inner ml h matchh br = (lv, h, matchh, br).
  Proof. intros [|f] count lv inner ml h matchh br H; cbn [Model.close_inner]; rewrite H; reflexivity. Qed.

  Lemma close_inner_step : forall f count lv inner ml h matchh br,
    N.testbit count (N.of_nat lv) = false ->
    close_inner (S f) count lv wantb inner ml h matchh br =
    (let il := get_slot inner lv in
     let '(br', matchh') := branch_step T wantb matchh ml lv il h br in
     close_inner f count (S lv) wantb inner ml (hash2 il h) matchh' br').
  Proof. intros f count lv inner ml h matchh br H. cbn [Model.close_inner]. rewrite H. reflexivity. Qed.

  Lemma close_inner_idle : forall fuel count lv inner h br,
    exists l' h', close_inner fuel count lv wantb inner None h false br = (l', h', false, br).
  Proof.
    induction fuel as [|f IH]; intros count lv inner h br;
      cbn [Model.close_inner]; destruct (N.testbit count (N.of_nat lv)); try (eexists; eexists; reflexivity).
    rewrite branch_step_idle. apply IH.
  Qed.

  Lemma close_outer_idle : forall fuel count lv inner h br,
    snd (close_outer fuel count lv wantb inner None h false br) = br.
  Proof.
    induction fuel as [|f IH]; intros count lv inner h br;
      cbn [Model.close_outer]; destruct (count =? 2 ^ N.of_nat lv)%N; try reflexivity.
    rewrite andb_false_r.
    destruct (close_inner_idle (N.size_nat (count + 2 ^ N.of_nat lv)) (count + 2 ^ N.of_nat lv) (S lv)
                inner (hash2 h h) br) as (l' & h' & ->).
    apply IH.
  Qed.

  Definition closed (all : list T) (res : T * list T) : Prop :=
    fst res = spec_root T nilT hash2 all /\
    (inr 0 (length all) -> snd res = spec_branch T nilT hash2 all pos).

  Lemma closed_base : forall L B h matchh br,
    run L [] B h matchh br -> 2 ^ L < 2 * length B -> closed ([] ++ B) (h, br).
  Proof.
    intros L B h matchh br (HB & Hh & Hm & Hmb) Hlow.
    assert (Hht : height L (length B)) by (split; lia).
    split; cbn [app fst snd length] in *.
    - rewrite (spec_root_height T nilT hash2 L) by exact Hht. exact Hh.
    - intro Hi. rewrite (spec_branch_height T nilT hash2 L) by exact Hht.
      rewrite (Hmb (proj2 Hm Hi)), Nat.sub_0_r. reflexivity.
  Qed.

  Lemma self_step : forall L p B h matchh br,
    run L p B h matchh br ->
    run (S L) p B (hash2 h h) matchh (if wantb && matchh then br ++ [h] else br).
  Proof.
    intros L p B h matchh br (HB & Hh & Hm & Hmb).
    split; [simpl; lia|]. split; [rewrite Hh; symmetry; apply mroot_self; lia|]. split; [exact Hm|].
    intro E. destruct (proj1 Hm E) as [-> _]. rewrite E. cbn [andb].
    rewrite mbranch_self, (Hmb E), Hh by lia. reflexivity.
  Qed.

  (** the state at the head of the inner closing loop: [n] describes the stored blocks
      above level [Lc], the count has been rounded up to (n+1) * 2^Lc *)
  Definition inner_ok (n : N) : Prop :=
    forall Lc fi fo p B inner ml h matchh br,
      dec n Lc p inner ml br -> run Lc p B h matchh br ->
      (n = 0%N -> 2 ^ Lc < 2 * length B) ->
      N.size_nat n <= fi -> N.size_nat n <= fo ->
      closed (p ++ B)
        (let '(L2, h2, m2, b2) :=
           close_inner fi ((n + 1) * 2 ^ N.of_nat Lc) Lc wantb inner ml h matchh br in
         close_outer fo ((n + 1) * 2 ^ N.of_nat Lc) L2 wantb inner ml h2 m2 b2).

  (** the same at the head of the outer closing loop *)
  Definition outer_ok (n : N) : Prop :=
    forall L fo p B inner ml h matchh br,
      dec n (S L) p inner ml br -> run L p B h matchh br ->
      (n = 0%N -> 2 ^ L < 2 * length B) ->
      N.size_nat (N.succ_double n) <= fo ->
      closed (p ++ B)
        (close_outer fo (N.succ_double n * 2 ^ N.of_nat L) L wantb inner ml h matchh br).

  Lemma outer_from_inner : forall n, inner_ok n -> outer_ok n.
  Proof.
    intros n Hin L fo p B inner ml h matchh br Hd Hr Hlow Hf.
    destruct (N.eq_dec n 0) as [E0|E0].
    - subst n. destruct Hd as [-> _]. change (N.succ_double 0) with 1%N. rewrite N.mul_1_l.
      destruct fo as [|f]; cbn [Model.close_outer]; rewrite N.eqb_refl;
        eapply closed_base; eauto.
    - rewrite size_nat_sd in Hf. destruct fo as [|f]; [lia|].
      cbn [Model.close_outer].
      assert (Hp2 : (0 < 2 ^ N.of_nat L)%N) by (apply N.neq_0_lt_0, N.pow_nonzero; lia).
      assert (Hne : (N.succ_double n * 2 ^ N.of_nat L =? 2 ^ N.of_nat L)%N = false).
      { apply N.eqb_neq. rewrite N.succ_double_spec. nia. }
      assert (Hcnt : (N.succ_double n * 2 ^ N.of_nat L + 2 ^ N.of_nat L = (n + 1) * 2 ^ N.of_nat (S L))%N).
      { rewrite pow2_S_N, N.succ_double_spec. lia. }
      rewrite Hne, Hcnt.
      apply Hin; [|apply self_step, Hr|congruence| |lia].
      + destruct matchh; [|rewrite andb_false_r; exact Hd].
        eapply dec_rebranch; [exact Hd|].
        destruct Hr as (_ & _ & Hm & _). destruct (proj1 Hm eq_refl) as [_ Hp]. right. lia.
      + apply size_nat_mono. rewrite pow2_S_N. nia.
  Qed.

  Lemma inner_all : forall n, inner_ok n.
  Proof.
    induction n as [|n IH|n IH] using N.binary_ind;
      intros Lc fi fo p B inner ml h matchh br Hd Hr Hlow Hfi Hfo.
    - (* no stored block left *)
      destruct Hd as [-> _]. change (0 + 1)%N with 1%N. rewrite N.mul_1_l.
      rewrite close_inner_exit by (rewrite <- (N.mul_1_l (2 ^ _)), testbit_mul_pow2; reflexivity).
      destruct fo as [|f]; cbn [Model.close_outer]; rewrite N.eqb_refl;
        eapply closed_base; eauto.
    - (* bit Lc of the count is set: back to the outer loop *)
      destruct (N.eq_dec n 0) as [E0|E0]; [subst n; apply IH; assumption|].
      rewrite close_inner_exit by (rewrite testbit_mul_pow2, double_plus1; apply odd_succ_double).
      rewrite double_plus1. apply dec_d in Hd.
      apply (outer_from_inner n IH); [apply Hd|exact Hr|congruence|].
      rewrite size_nat_sd. rewrite size_nat_double in Hfo by assumption. exact Hfo.
    - (* merge with the block stored at level Lc *)
      rewrite size_nat_sd in Hfi, Hfo. destruct fi as [|f]; [lia|].
      rewrite close_inner_step by (rewrite testbit_mul_pow2, sd_plus1; apply odd_double).
      cbv zeta.
      destruct (branch_step T wantb matchh ml Lc (get_slot inner Lc) h br) as [br2 m2] eqn:Ebs.
      destruct (carry _ _ _ _ _ _ _ _ _ _ _ Hd Hr Ebs) as (p' & B0 & -> & HB0 & _ & Hd2 & Hr2 & _).
      rewrite sd_carry, <- app_assoc.
      apply IH; [exact Hd2|exact Hr2| |lia|lia].
      intros _. destruct Hr as (HB & _). rewrite app_length, HB0. simpl. lia.
  Qed.

  Theorem closing_spec : forall leaves st,
    leaves <> [] -> Inv st leaves ->
    let count := cs_count st in
    let level := lowbit_loop (N.size_nat count) count 0 in
    closed leaves
      (close_outer (N.size_nat count) count level wantb (cs_inner st) (cs_matchlevel st)
         (get_slot (cs_inner st) level) (opt_nat_eqb (cs_matchlevel st) level) (cs_branch st)).
  Proof.
    intros leaves st Hne (Hc & Hd & _). cbv zeta.
    assert (Hq : cs_count st <> 0%N).
    { rewrite Hc. destruct leaves; [congruence|simpl; lia]. }
    destruct (lowbit_spec (cs_count st) 0 (N.size_nat (cs_count st)) leaves (cs_inner st)
                (cs_matchlevel st) (cs_branch st) Hq (le_n _) Hd) as (L & n & E1 & E2 & E3 & E4).
    change (2 ^ N.of_nat 0)%N with 1%N in E1, E2. rewrite N.mul_1_r in E1, E2.
    rewrite E1. rewrite E2 in E4 |- *.
    apply dec_sd in E3. destruct E3 as (p' & B & -> & (HB & Hsl & Hml & Hbr) & Hd').
    pose proof (pow2_pos L).
    apply (outer_from_inner n (inner_all n)); [exact Hd'| |lia|exact E4].
    split; [lia|]. split; [exact Hsl|]. rewrite opt_nat_eqb_iff, HB. split; assumption.
  Qed.
End Comp.

Section Final.
  Variable T : Type.
  Variable nilT : T.
  Variable hash2 : T -> T -> T.
  Variable eqT : T -> T -> bool.

  Notation computation := (computation T nilT hash2 eqT).

  (** Computation: the tree root, the tree branch of the position if it is wanted and
      inside the list, and mutated = true if two equal aligned sibling blocks occur
      (the byte comparison only has to be reflexive) *)
  Theorem computation_spec : forall leaves flage posN,
    leaves <> [] -> (1 <= flage <= 3)%Z ->
    let wantb := Z.testbit flage 1 in
    exists mut,
      computation leaves flage posN =
      (spec_root T nilT hash2 leaves, mut,
       if wantb && (posN <? N.of_nat (length leaves))%N
       then spec_branch T nilT hash2 leaves (N.to_nat posN) else []) /\
      ((forall x, eqT x x = true) -> haspair T leaves -> mut = true).
  Proof.
    intros leaves flage posN Hne Hfl wantb.
    unfold Model.computation.
    destruct leaves as [|x0 l0] eqn:El; [congruence|]. rewrite <- El in *.
    destruct ((flage <? 1)%Z || (3 <? flage)%Z) eqn:Efl; [lia|].
    fold wantb.
    set (st := fold_left (leaf_step T nilT hash2 eqT wantb posN) leaves (mk_cstate T [] 0%N None [] false)).
    assert (Hinv : Inv T nilT hash2 eqT wantb posN st leaves).
    { unfold st. apply (fold_inv T nilT hash2 eqT wantb posN leaves _ []). apply init_inv. }
    pose proof (closing_spec T nilT hash2 eqT wantb posN leaves st Hne Hinv) as [K1 K2].
    destruct Hinv as (_ & Hd & Hb & Hmu). cbv zeta in K1, K2.
    exists (cs_mutated st). split; [|exact Hmu].
    destruct (wantb && (posN <? N.of_nat (length leaves))%N) eqn:Ein.
    - apply andb_true_iff in Ein. destruct Ein as [Ew Ep]. apply N.ltb_lt in Ep.
      destruct (close_outer T nilT hash2 _ _ _ _ _ _ _ _ _) as [root branch]. cbn [fst snd] in *.
      rewrite K1, K2; [reflexivity|]. split; [exact Ew|]. unfold pos. lia.
    - assert (Ho : outside wantb posN (length leaves)).
      { apply andb_false_iff in Ein. destruct Ein as [Ew|Ep]; [left; exact Ew|right].
        apply N.ltb_ge in Ep. unfold pos. lia. }
      rewrite (dec_outside_none _ _ _ _ _ _ _ _ _ _ Hd Ho) in *. cbn [opt_nat_eqb] in *.
      destruct (close_outer T nilT hash2 _ _ _ _ _ _ _ _ _) as [root branch] eqn:Eco.
      apply (f_equal snd) in Eco. rewrite close_outer_idle in Eco. cbn [fst snd] in *.
      rewrite K1, <- Eco, (Hb Ho). reflexivity.
  Qed.

  Theorem pair_flagged : (forall x, eqT x x = true) ->
    forall l, haspair T l -> comp_mutated T nilT hash2 eqT l = true.
  Proof.
    intros Hrefl l Hp. unfold comp_mutated.
    assert (Hne : l <> []) by (intros ->; exact (haspair_nil T Hp)).
    destruct (computation_spec l 1 0%N Hne ltac:(lia)) as (mut & E & Hm).
    rewrite E. exact (Hm Hrefl Hp).
  Qed.
End Final.

Section Api.
  Variable T : Type.
  Variable nilT : T.
  Variable hash2 : T -> T -> T.
  Variable eqT : T -> T -> bool.

  Notation get_merkle_root := (get_merkle_root T nilT hash2).
  Notation computation := (computation T nilT hash2 eqT).
  Notation get_merkle_branch := (get_merkle_branch T nilT hash2 eqT).
  Notation get_merkle_root_and_branch := (get_merkle_root_and_branch T nilT hash2 eqT).
  Notation spec_root := (spec_root T nilT hash2).
  Notation spec_branch := (spec_branch T nilT hash2).
  Notation rfb := (root_from_branch T hash2).

  Theorem computation_root : forall (ls : list T) (flage : Z) (pos : N),
    ls <> [] -> (1 <= flage <= 3)%Z ->
    fst (fst (computation ls flage pos)) = get_merkle_root ls.
  Proof.
    intros ls flage pos Hne Hfl.
    destruct (computation_spec T nilT hash2 eqT ls flage pos Hne Hfl) as (mut & E & _).
    rewrite E. cbn [fst]. symmetry. apply root_is_spec_root.
  Qed.

  Theorem branch_is_tree_branch : forall (ls : list T) (i : nat),
    i < length ls ->
    get_merkle_branch ls (N.of_nat i) = spec_branch ls i /\
    get_merkle_root_and_branch ls (N.of_nat i) = (get_merkle_root ls, spec_branch ls i).
  Proof.
    intros ls i Hi.
    assert (Hne : ls <> []) by (intro E; subst; simpl in Hi; lia).
    assert (Hlt : (N.of_nat i <? N.of_nat (length ls))%N = true) by (apply N.ltb_lt; lia).
    split.
    - unfold Model.get_merkle_branch.
      destruct (computation_spec T nilT hash2 eqT ls 2 (N.of_nat i) Hne ltac:(lia)) as (mut & E & _).
      rewrite E. cbn [snd]. change (Z.testbit 2 1) with true. rewrite Hlt, Nat2N.id. reflexivity.
    - unfold Model.get_merkle_root_and_branch.
      destruct (computation_spec T nilT hash2 eqT ls 3 (N.of_nat i) Hne ltac:(lia)) as (mut & E & _).
      rewrite E. change (Z.testbit 3 1) with true. rewrite Hlt, Nat2N.id.
      rewrite <- root_is_spec_root. reflexivity.
  Qed.

  Lemma tree_branch_verifies : forall (ls : list T) (i : nat) (x : T),
    nth_error ls i = Some x ->
    rfb (spec_branch ls i) x (N.of_nat i) = get_merkle_root ls.
  Proof.
    intros ls i x Hx.
    assert (Hi : i < length ls) by (apply nth_error_Some; congruence).
    pose proof (height_log2_up (length ls) ltac:(lia)) as Hh.
    rewrite (root_mroot_k T nilT hash2 _ _ Hh), (spec_branch_height T nilT hash2 _ _ _ Hh).
    apply branch_verifies_tree; [exact Hx|apply Hh].
  Qed.

  Theorem branch_verifies : forall (ls : list T) (i : nat) (x : T),
    nth_error ls i = Some x ->
    rfb (get_merkle_branch ls (N.of_nat i)) x (N.of_nat i) = get_merkle_root ls /\
    (let '(r, b) := get_merkle_root_and_branch ls (N.of_nat i) in
     rfb b x (N.of_nat i) = r /\ r = get_merkle_root_par T nilT hash2 16 ls).
  Proof.
    intros ls i x Hx.
    assert (Hi : i < length ls) by (apply nth_error_Some; congruence).
    destruct (branch_is_tree_branch ls i Hi) as [E1 E2].
    rewrite E1, E2. split; [apply tree_branch_verifies; exact Hx|].
    split; [apply tree_branch_verifies; exact Hx|].
    symmetry. apply parallel_eq_sequential.
  Qed.
End Api.

Section Multi.
  Variable T : Type.
  Variable nilT : T.
  Variable hash2 : T -> T -> T.
  Variable eqT : T -> T -> bool.

  Notation get_merkle_root := (get_merkle_root T nilT hash2).
  Notation get_merkle_branch := (get_merkle_branch T nilT hash2 eqT).
  Notation rfb := (root_from_branch T hash2).
  Notation chains_cover := (chains_cover T nilT hash2).
  Notation spec_root := (spec_root T nilT hash2).

  Lemma scan_top : forall title (hh : T) m,
    scan_chains T (@cons (mtx T) (title, hh) m) 0 None = (title, 0) :: scan_chains T m 1 title.
  Proof. intros [tt|] hh m; reflexivity. Qed.

  Lemma scan_cons : forall (x : mtx T) txs i first, exists f',
    scan_chains T (x :: txs) i first = scan_chains T txs (S i) f' \/
    exists t, scan_chains T (x :: txs) i first = (t, i) :: scan_chains T txs (S i) f'.
  Proof.
    intros [[t|] hh] txs i first; cbn [scan_chains].
    - destruct (match first with Some f => negb (t =? f)%N | None => true end);
        [exists (Some t); right; exists (Some t)|exists first; left]; reflexivity.
    - destruct (Nat.eqb_spec i 0) as [->|]; exists first; [right; exists None|left]; reflexivity.
  Qed.

  Lemma scan_bounds : forall (txs : list (mtx T)) i first,
    Forall (fun ts => i <= snd ts < i + length txs) (scan_chains T txs i first) /\
    StronglySorted (fun a b => snd a < snd b) (scan_chains T txs i first).
  Proof.
    induction txs as [|x txs IH]; intros i first; [split; constructor|].
    destruct (scan_cons x txs i first) as (f' & [->|(t & ->)]); destruct (IH (S i) f') as [Hb Hs].
    - split; [|exact Hs]. eapply Forall_impl; [|exact Hb]. intros [ta sa] Ha. simpl in *. lia.
    - split; constructor; try assumption; [simpl; lia| |];
        (eapply Forall_impl; [|exact Hb]; intros [ta sa] Ha; simpl in *; lia).
  Qed.

  Lemma fill_cover : forall ncpu (txs : list (mtx T)) cs next,
    (match cs with [] => next = length txs | (_, s) :: _ => s = next end) ->
    Forall (fun ts => snd ts < length txs) cs ->
    StronglySorted (fun a b : option N * nat => snd a < snd b) cs ->
    chains_cover txs next (fill_chains T nilT hash2 ncpu txs (length txs) cs).
  Proof.
    intros ncpu txs cs. induction cs as [|[t s] rest IH]; intros next Hh Hb Hs.
    - exact Hh.
    - subst s. cbn [fill_chains Spec.chains_cover cc_start cc_count cc_hash].
      apply Forall_cons_iff in Hb. destruct Hb as [Hb1 Hb2].
      apply StronglySorted_inv in Hs. destruct Hs as [Hs1 Hs2]. simpl in Hb1.
      set (e := match rest with [] => length txs | (_, s2) :: _ => s2 end).
      assert (He : next < e <= length txs).
      { unfold e. destruct rest as [|[t2 s2] r2]; [lia|].
        apply Forall_inv in Hs2, Hb2. simpl in *. lia. }
      split; [reflexivity|]. split; [lia|]. split.
      + unfold single_layer_root. rewrite parallel_eq_sequential. apply root_is_spec_root.
      + apply IH; [|exact Hb2|exact Hs1].
        unfold e. destruct rest as [|[t2 s2] r2]; lia.
  Qed.

  Lemma fill_length : forall ncpu (txs : list (mtx T)) total cs,
    length (fill_chains T nilT hash2 ncpu txs total cs) = length cs.
  Proof. intros ncpu txs total cs. induction cs as [|[t s] rest IH]; simpl; auto. Qed.

  Lemma slice_all : forall (l : list (mtx T)), firstn (length l) (skipn 0 l) = l.
  Proof. intro l. rewrite skipn_O. apply firstn_all. Qed.

  Lemma multi_cover : forall ncpu (txs : list (mtx T)) root chains,
    multi_layer_info T nilT hash2 ncpu txs = Some (root, chains) ->
    chains_cover txs 0 chains /\
    (match chains with
     | [c] => cc_hash c = root
     | _ => root = get_merkle_root (map cc_hash chains)
     end).
  Proof.
    intros ncpu txs root chains H. unfold multi_layer_info in H.
    destruct txs as [|tx txs']; [discriminate|].
    assert (exists t0 rest, scan_chains T (tx :: txs') 0 None = (t0, 0) :: rest) as (t0 & rest & Esc)
      by (destruct tx; eexists; eexists; apply scan_top).
    set (txs := tx :: txs') in *.
    destruct (scan_bounds txs 0 None) as [Hb Hs]. rewrite Esc in *.
    assert (Hb' : Forall (fun ts : option N * nat => snd ts < length txs) ((t0, 0) :: rest)).
    { eapply Forall_impl; [|exact Hb]. intros [ta sa] Ha. unfold mtx in *. simpl in *. lia. }
    destruct (Nat.leb_spec (length ((t0, 0) :: rest)) 1) as [H1|H1].
    - destruct rest; [|simpl in H1; lia].
      injection H as <- <-. cbn [map Spec.chains_cover cc_start cc_count cc_hash].
      split; [|reflexivity].
      split; [reflexivity|]. split; [unfold txs; simpl; lia|]. split; [|simpl; lia].
      unfold single_layer_root. rewrite parallel_eq_sequential, root_is_spec_root.
      f_equal. f_equal. symmetry. exact (slice_all txs).
    - set (fc := fill_chains _ _ _ _ _ _ _) in H.
      assert (Hl : length fc = length ((t0, 0) :: rest)) by apply fill_length.
      assert (Hcov : chains_cover txs 0 fc).
      { exact (fill_cover ncpu txs ((t0, 0) :: rest) 0 eq_refl Hb' Hs). }
      clearbody fc. injection H as Hroot Hchains. subst root chains.
      split; [exact Hcov|].
      destruct fc as [|c1 [|c2 r]].
      + simpl in Hl. lia.
      + simpl in Hl, H1. lia.
      + apply parallel_eq_sequential.
  Qed.

  Lemma cover_nth : forall (txs : list (mtx T)) chains next ci c,
    chains_cover txs next chains -> nth_error chains ci = Some c ->
    cc_hash c = spec_root (map snd (firstn (cc_count c) (skipn (cc_start c) txs))).
  Proof.
    intros txs chains. induction chains as [|c0 tl IH]; intros next ci c Hc Hn.
    - destruct ci; discriminate.
    - destruct Hc as (_ & _ & Hh & Hrest). destruct ci as [|ci].
      + injection Hn as <-. exact Hh.
      + eapply IH; eassumption.
  Qed.

  Theorem child_roots_verify : forall (ncpu : Z) (txs : list (mtx T)) (root : T) (chains : list (childchain T)),
    multi_layer_info T nilT hash2 ncpu txs = Some (root, chains) ->
    chains_cover txs 0 chains /\
    forall (ci : nat) (c : childchain T) (j : nat) (x : T),
      nth_error chains ci = Some c ->
      nth_error (map snd (firstn (cc_count c) (skipn (cc_start c) txs))) j = Some x ->
      rfb (get_merkle_branch (map snd (firstn (cc_count c) (skipn (cc_start c) txs))) (N.of_nat j))
          x (N.of_nat j) = cc_hash c /\
      (match chains with
       | [_] => cc_hash c = root
       | _ => rfb (get_merkle_branch (map cc_hash chains) (N.of_nat ci)) (cc_hash c) (N.of_nat ci) = root
       end).
  Proof.
    intros ncpu txs root chains H.
    destruct (multi_cover ncpu txs root chains H) as [Hc Hr].
    split; [exact Hc|]. intros ci c j x Hci Hj. split.
    - rewrite (cover_nth txs chains 0 ci c Hc Hci), <- root_is_spec_root.
      apply (branch_verifies T nilT hash2 eqT). exact Hj.
    - destruct chains as [|c1 [|c2 r]].
      + destruct ci; discriminate.
      + destruct ci as [|ci]; [|destruct ci; discriminate]. injection Hci as Hci. subst c1. exact Hr.
      + rewrite Hr. apply (branch_verifies T nilT hash2 eqT).
        apply map_nth_error. exact Hci.
  Qed.
End Multi.
