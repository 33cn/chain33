(** C21 — the invariant over events and histories; block clause; the
    short-hash index: an index entry stays with the transaction that owns it
    while that one is pooled, a transaction pushed while none of the pooled
    ones has its short hash is indexed; hence every pooled transaction is found
    along a history on which the short hash stays injective on the pool; the
    full clause is refuted (a transaction pushed while another one with its
    short hash is pooled is never indexed). *)
From Coq Require Import List ZArith NArith Bool Lia.
From C33 Require Import C21.Model C21.Spec C21.ProofsLm C21.ProofsInv.
Import ListNotations.
Open Scope Z_scope.

Lemma init_consistent sh c : 1 <= c_peracc c -> consistent sh c init.
Proof.
  intros Hp. constructor; cbn.
  - constructor.
  - constructor.
  - lia.
  - constructor.
  - intros a. reflexivity.
  - intros a. cbn. lia.
  - exists []. reflexivity.
  - lia.
  - reflexivity.
  - reflexivity.
  - constructor.
  - intros k t [].
Qed.

Lemma remove_txs_consistent sh c hs st :
  consistent sh c st -> consistent sh c (remove_txs sh hs st).
Proof. apply (fold_left_preserves (consistent sh c)). intros s h. apply cache_remove_consistent. Qed.

Lemma set_hdr_consistent sh c h b st : consistent sh c st -> consistent sh c (set_hdr h b st).
Proof.
  intros [Kk Knd Kcap Kand Kacc Kper Klast Kll Kb Kf Ksn Kss]. constructor; assumption.
Qed.

Lemma remove_expired_consistent sh c now st :
  consistent sh c st -> consistent sh c (remove_expired sh c now st).
Proof. apply remove_txs_consistent. Qed.

Lemma del_block_consistent sh c now ts st :
  1 <= c_peracc c -> consistent sh c st -> consistent sh c (del_block sh c now ts st).
Proof.
  intros Hp. apply (fold_left_preserves (consistent sh c)). intros s t K.
  destruct (check_expire_valid now s t); [apply cache_push_consistent|]; assumption.
Qed.

(** eventAddBlock sets the header or not, then removes the block's and the
    expired transactions; its test "pool not empty" only saves work.  [P]: what
    is known of the state and does not depend on the header. *)
Lemma step_add_block (P : state -> Prop) sh c st now h b hs :
  P st -> P (set_hdr h b st) ->
  exists st1, P st1
    /\ fst (step sh c st (EAddBlock now h b hs)) = remove_expired sh c now (remove_txs sh hs st1).
Proof.
  intros P0 P1. cbn [step]. set (st1 := if _ || _ then set_hdr h b st else st). exists st1. split.
  - unfold st1. destruct (_ || _); assumption.
  - destruct (0 <? lm_size (s_q st1)) eqn:Z; cbn [fst]; [reflexivity|].
    assert (E : s_q st1 = []).
    { apply Z.ltb_ge in Z. unfold lm_size in Z. destruct (s_q st1); [reflexivity|cbn [length] in Z; lia]. }
    assert (R : forall l, remove_txs sh l st1 = st1).
    { intros l. apply (fold_left_preserves (fun s => s = st1)); [|reflexivity].
      intros s x ->. apply cache_remove_none. rewrite E. reflexivity. }
    unfold remove_expired, remove_expired_tx. rewrite !R. reflexivity.
Qed.

Lemma step_consistent sh c st e :
  1 <= c_peracc c -> consistent sh c st -> consistent sh c (fst (step sh c st e)).
Proof.
  intros Hp K. destruct e as [now t|hs|now|now h b hs|now h b ts].
  - apply cache_push_consistent; assumption.
  - apply remove_txs_consistent. exact K.
  - apply remove_expired_consistent. exact K.
  - destruct (step_add_block (consistent sh c) sh c st now h b hs K (set_hdr_consistent _ _ h b _ K)) as (st1 & K1 & ->).
    apply remove_expired_consistent, remove_txs_consistent, K1.
  - apply del_block_consistent; [exact Hp|]. apply set_hdr_consistent. exact K.
Qed.

Lemma run_consistent sh c es : forall st,
  1 <= c_peracc c -> consistent sh c st ->
  consistent sh c (run sh c st es) /\ Forall (consistent sh c) (run_states sh c st es).
Proof.
  unfold run. induction es as [|e tl IH]; intros st Hp K; cbn [fold_left run_states].
  - split; [exact K|constructor].
  - pose proof (step_consistent sh c st e Hp K) as K1. destruct (IH _ Hp K1).
    split; [|constructor]; assumption.
Qed.

Lemma qtx_remove_txs sh c hs : forall st,
  consistent sh c st ->
  qtx (remove_txs sh hs st) = filter (fun p => negb (mem_n (fst p) hs)) (qtx st).
Proof.
  unfold remove_txs. induction hs as [|h tl IH]; intros st K; cbn [fold_left].
  - unfold mem_n. cbn [existsb negb]. induction (qtx st) as [|p l IHl]; cbn [filter]; congruence.
  - rewrite IH by (apply cache_remove_consistent; exact K).
    rewrite (qtx_remove sh h st (k_nodup _ _ _ K)), filter_filter. apply filter_ext. intros p.
    unfold neqk, mem_n. cbn [existsb]. rewrite negb_orb. reflexivity.
Qed.

Lemma remove_txs_subset sh c hs st k :
  consistent sh c st -> In k (keys (s_q (remove_txs sh hs st))) -> In k (keys (s_q st)).
Proof. intros K. rewrite <- !qtx_keys, (qtx_remove_txs sh c hs st K). apply keys_filter_in. Qed.

Lemma remove_txs_gone sh c hs st h :
  consistent sh c st -> In h hs -> ~ In h (keys (s_q (remove_txs sh hs st))).
Proof.
  intros K Hin. rewrite <- qtx_keys, (qtx_remove_txs sh c hs st K). intros H.
  apply in_map_iff in H as (p & <- & Hp). apply filter_In in Hp as [_ Hp].
  apply negb_true_iff, mem_n_false in Hp. contradiction.
Qed.

Lemma block_txs_gone sh c st now height bt hs h :
  consistent sh c st -> In h hs ->
  ~ In h (keys (s_q (fst (step sh c st (EAddBlock now height bt hs))))).
Proof.
  intros K Hin H.
  destruct (step_add_block (consistent sh c) sh c st now height bt hs K (set_hdr_consistent _ _ height bt _ K)) as (st1 & K1 & E).
  rewrite E in H.
  apply (remove_txs_subset sh c) in H; [|apply remove_txs_consistent; exact K1].
  exact (remove_txs_gone sh c hs st1 h K1 Hin H).
Qed.

Definition sh_inj_pool (sh : N -> N) (st : state) : bool := nodup_b (map sh (keys (s_q st))).
Definition sh_agrees (sh : N -> N) (st : state) : Prop :=
  forall h t, In (h, t) (qtx st) -> lm_get (sh h) (s_sh st) = Some t.
Definition sh_owner (sh : N -> N) (st : state) (h : N) (t : tx) : Prop :=
  In (h, t) (qtx st) /\ lm_get (sh h) (s_sh st) = Some t.
Definition sh_covers (sh : N -> N) (st : state) : Prop :=
  forall h t, In (h, t) (qtx st) -> lm_get (sh h) (s_sh st) <> None.

Lemma sh_agrees_covers sh st : sh_agrees sh st -> sh_covers sh st.
Proof. intros A h t Hin. rewrite (A h t Hin). discriminate. Qed.

Lemma inj_nodup sh st : sh_inj_pool sh st = true <-> NoDup (map sh (keys (s_q st))).
Proof. apply nodup_b_iff. Qed.

Lemma owner_hash sh c st h t : consistent sh c st -> In (h, t) (qtx st) -> h = t_h t.
Proof.
  intros K Hin. pose proof (k_keys _ _ _ K) as Kk. rewrite Forall_forall in Kk. exact (Kk _ Hin).
Qed.

Lemma cache_remove_owner sh c h0 st h t :
  consistent sh c st -> sh_owner sh st h t ->
  In h (keys (s_q (cache_remove sh h0 st))) -> sh_owner sh (cache_remove sh h0 st) h t.
Proof.
  intros K [Hin Hg] Hp. pose proof (qtx_remove sh h0 st (k_nodup _ _ _ K)) as HT.
  rewrite <- qtx_keys, HT in Hp. apply keys_filter_neqk in Hp. split.
  - rewrite HT. apply filter_In. split; [exact Hin|].
    unfold neqk. cbn [fst]. apply negb_true_iff, N.eqb_neq. exact Hp.
  - destruct (lm_get h0 (s_q st)) as [it|] eqn:G; [|rewrite cache_remove_none by exact G; exact Hg].
    rewrite (cache_remove_eq sh h0 st it G). cbn [s_sh].
    apply sh_remove_get_other; [apply (k_sh_nodup _ _ _ K)|exact Hg|].
    rewrite <- (owner_hash sh c st h t K Hin). exact Hp.
Qed.

Lemma remove_txs_owner sh c hs : forall st h t,
  consistent sh c st -> sh_owner sh st h t ->
  In h (keys (s_q (remove_txs sh hs st))) -> sh_owner sh (remove_txs sh hs st) h t.
Proof.
  induction hs as [|h0 tl IH]; intros st h t K O Hp; [exact O|].
  unfold remove_txs in *. cbn [fold_left] in *. fold (remove_txs sh tl (cache_remove sh h0 st)) in *.
  assert (K1 : consistent sh c (cache_remove sh h0 st)) by (apply cache_remove_consistent; exact K).
  apply IH; [exact K1| |exact Hp].
  apply (cache_remove_owner sh c); [exact K|exact O|].
  apply (remove_txs_subset sh c tl); assumption.
Qed.

Lemma sh_push_get_kept sh c t0 h0 (s : lm tx) k t :
  lm_get k s = Some t -> lm_get k (sh_push sh c t0 h0 s) = Some t.
Proof.
  intros G. unfold sh_push. destruct (lm_exist (sh h0) s) eqn:Hex; [exact G|].
  destruct (c_shmax c <=? lm_size s); [exact G|].
  apply lm_exist_false in Hex. rewrite (lm_push_fresh _ _ _ Hex), lm_get_app, G. reflexivity.
Qed.

Lemma cache_push_owner sh c now t0 st h t :
  1 <= c_peracc c -> consistent sh c st -> sh_owner sh st h t ->
  sh_owner sh (fst (cache_push sh c now t0 st)) h t.
Proof.
  intros Hp K [Hin Hg].
  destruct (cache_push_spec sh c now t0 st Hp K) as [[_ ->]|(_ & _ & _ & acc' & -> & _)]; [split; assumption|].
  split.
  - unfold qtx. cbn [s_q]. rewrite map_app. apply in_or_app. left. exact Hin.
  - cbn [s_sh]. apply sh_push_get_kept. exact Hg.
Qed.

Lemma del_block_owner sh c now ts : forall st h t,
  1 <= c_peracc c -> consistent sh c st -> sh_owner sh st h t ->
  sh_owner sh (del_block sh c now ts st) h t.
Proof.
  unfold del_block. induction ts as [|t0 tl IH]; intros st h t Hp K O; [exact O|].
  cbn [fold_left]. destruct (check_expire_valid now st t0); [|apply IH; assumption].
  apply IH; [exact Hp|apply cache_push_consistent; assumption|apply cache_push_owner; assumption].
Qed.

Lemma set_hdr_owner sh x y st h t : sh_owner sh st h t -> sh_owner sh (set_hdr x y st) h t.
Proof. intros O. exact O. Qed.

Lemma step_owner sh c st e h t :
  1 <= c_peracc c -> consistent sh c st -> sh_owner sh st h t ->
  In h (keys (s_q (fst (step sh c st e)))) -> sh_owner sh (fst (step sh c st e)) h t.
Proof.
  intros Hp K O. destruct e as [now t0|hs|now|now x y hs|now x y ts].
  - intros _. apply cache_push_owner; assumption.
  - apply (remove_txs_owner sh c); assumption.
  - apply (remove_txs_owner sh c); assumption.
  - destruct (step_add_block (fun s => consistent sh c s /\ sh_owner sh s h t) sh c st now x y hs
                (conj K O) (conj (set_hdr_consistent _ _ x y _ K) O)) as (st1 & [K1 O1] & ->).
    intros Hin.
    assert (K2 : consistent sh c (remove_txs sh hs st1)) by (apply remove_txs_consistent; exact K1).
    apply (remove_txs_owner sh c); [exact K2| |exact Hin].
    apply (remove_txs_owner sh c); [exact K1|exact O1|].
    exact (remove_txs_subset sh c _ _ h K2 Hin).
  - intros _. apply del_block_owner; [exact Hp|apply set_hdr_consistent; exact K|exact O].
Qed.

(** the guard: pooled after every event, that is, never removed *)
Lemma run_owner sh c es : forall st h t,
  1 <= c_peracc c -> consistent sh c st -> sh_owner sh st h t ->
  forallb (fun s => mem_n h (keys (s_q s))) (run_states sh c st es) = true ->
  sh_owner sh (run sh c st es) h t.
Proof.
  unfold run. induction es as [|e tl IH]; intros st h t Hp K O G; [exact O|].
  cbn [run_states forallb] in G. apply andb_true_iff in G as [G1 G2]. apply mem_n_in in G1.
  cbn [fold_left]. apply IH; [exact Hp|apply step_consistent; assumption| |exact G2].
  apply step_owner; assumption.
Qed.

Lemma nodup_map_comp {A} (f : A -> N) (g : N -> N) (l : list A) :
  NoDup (map (fun x => g (f x)) l) -> NoDup (map f l).
Proof. rewrite <- (map_map f g). apply NoDup_map_inv. Qed.

Lemma sh_size_le sh c st : consistent sh c st -> lm_size (s_sh st) <= lm_size (s_q st).
Proof.
  intros K. pose proof (k_sh_nodup _ _ _ K) as ND. pose proof (k_sh_sub _ _ _ K) as Sub.
  assert (E : keys (s_sh st) = map (fun p => sh (t_h (snd p))) (s_sh st)).
  { unfold keys. apply map_ext_in. intros [k t] Hin. cbn [fst snd]. apply (Sub k t Hin). }
  rewrite E in ND. apply (nodup_map_comp (fun p : N * tx => t_h (snd p)) sh) in ND.
  assert (I : incl (map (fun p : N * tx => t_h (snd p)) (s_sh st)) (keys (qtx st))).
  { intros x Hx. apply in_map_iff in Hx as [[k t] [Ex Hin]]. cbn [snd] in Ex. subst x.
    destruct (Sub k t Hin) as [_ H2]. eapply in_keys; eauto. }
  pose proof (NoDup_incl_length ND I) as L. rewrite map_length in L.
  rewrite qtx_keys in L. unfold keys in L. rewrite map_length in L. unfold lm_size. lia.
Qed.

Lemma cache_push_fresh_owner sh c now t st :
  1 <= c_peracc c -> c_qcap c <= c_shmax c -> consistent sh c st ->
  snd (cache_push sh c now t st) = E_OK ->
  mem_n (sh (t_h t)) (map sh (keys (s_q st))) = false ->
  sh_owner sh (fst (cache_push sh c now t st)) (t_h t) t.
Proof.
  intros Hp Hsm K Ok Hf.
  destruct (cache_push_spec sh c now t st Hp K) as [[Hne _]|(_ & Hh & Hlt & acc' & -> & _)]; [contradiction|].
  assert (Hn : ~ In (sh (t_h t)) (keys (s_sh st))).
  { intros X. unfold keys in X. apply in_map_iff in X as [[k t'] [Ek Hin]]. cbn [fst] in Ek. subst k.
    destruct (k_sh_sub _ _ _ K _ _ Hin) as [E1 E2]. apply mem_n_false in Hf. apply Hf.
    rewrite E1. apply in_map. rewrite <- qtx_keys. eapply in_keys; eauto. }
  split.
  - unfold qtx. cbn [s_q]. rewrite map_app. apply in_or_app. right. left. reflexivity.
  - cbn [s_sh]. unfold sh_push.
    assert (Hex : lm_exist (sh (t_h t)) (s_sh st) = false) by (apply lm_exist_false; exact Hn).
    (* the index has room: it is no larger than the pool, which had room *)
    rewrite Hex. pose proof (sh_size_le sh c st K) as Sz.
    destruct (c_shmax c <=? lm_size (s_sh st)) eqn:Z; [apply Z.leb_le in Z; lia|].
    rewrite (lm_push_fresh _ _ _ Hn), lm_get_app.
    apply lm_get_none_iff in Hn. rewrite Hn. cbn [lm_get]. rewrite N.eqb_refl. reflexivity.
Qed.

(** every pooled transaction is found while [sh] stays injective on the pool:
    each one was pushed without a pooled collision and has kept its entry since *)
Lemma remove_txs_agrees sh c hs st :
  consistent sh c st -> sh_agrees sh st -> sh_agrees sh (remove_txs sh hs st).
Proof.
  intros K A h t Hin.
  assert (Hin0 : In (h, t) (qtx st)).
  { rewrite (qtx_remove_txs sh c hs st K) in Hin. apply filter_In in Hin. tauto. }
  apply (remove_txs_owner sh c hs st h t K (conj Hin0 (A h t Hin0))).
  rewrite <- qtx_keys. eapply in_keys. exact Hin.
Qed.

Lemma cache_push_inj_back sh c now t st :
  1 <= c_peracc c -> consistent sh c st ->
  sh_inj_pool sh (fst (cache_push sh c now t st)) = true -> sh_inj_pool sh st = true.
Proof.
  intros Hp K I.
  destruct (cache_push_spec sh c now t st Hp K) as [[_ E]|(_ & _ & _ & acc' & E & _)]; rewrite E in I; [exact I|].
  apply inj_nodup in I. apply inj_nodup. cbn [s_q] in I.
  rewrite keys_app, map_app in I. eapply nodup_app_l; eauto.
Qed.

Lemma cache_push_agrees sh c now t st :
  1 <= c_peracc c -> c_qcap c <= c_shmax c -> consistent sh c st -> sh_agrees sh st ->
  sh_inj_pool sh (fst (cache_push sh c now t st)) = true ->
  sh_agrees sh (fst (cache_push sh c now t st)).
Proof.
  intros Hp Hsm K A I h t' Hin.
  destruct (cache_push_spec sh c now t st Hp K) as [[_ E]|(Ok & _ & _ & acc' & E & _)].
  - rewrite E in Hin |- *. exact (A h t' Hin).
  - assert (Hold : In (h, t') (qtx st) \/ (h, t') = (t_h t, t)).
    { rewrite E in Hin. unfold qtx in Hin. cbn [s_q] in Hin. rewrite map_app in Hin.
      apply in_app_or in Hin as [Hin|[Hin|[]]]; [left; exact Hin|right; symmetry; exact Hin]. }
    destruct Hold as [Hin0|Enew].
    + apply (cache_push_owner sh c now t st h t' Hp K (conj Hin0 (A h t' Hin0))).
    + inversion Enew; subst h t'. apply (cache_push_fresh_owner sh c now t st Hp Hsm K Ok).
      apply mem_n_false. rewrite E in I. apply inj_nodup in I. cbn [s_q] in I.
      rewrite keys_app, map_app in I. apply NoDup_remove_2 in I. rewrite app_nil_r in I. exact I.
Qed.

Lemma del_block_inj_back sh c now ts : forall st,
  1 <= c_peracc c -> consistent sh c st ->
  sh_inj_pool sh (del_block sh c now ts st) = true -> sh_inj_pool sh st = true.
Proof.
  unfold del_block. induction ts as [|t tl IH]; intros st Hp K I; [exact I|].
  cbn [fold_left] in I. destruct (check_expire_valid now st t).
  - apply IH in I; [|exact Hp|apply cache_push_consistent; assumption].
    eapply cache_push_inj_back; eauto.
  - apply IH in I; auto.
Qed.

Lemma del_block_agrees sh c now ts : forall st,
  1 <= c_peracc c -> c_qcap c <= c_shmax c -> consistent sh c st -> sh_agrees sh st ->
  sh_inj_pool sh (del_block sh c now ts st) = true ->
  sh_agrees sh (del_block sh c now ts st).
Proof.
  induction ts as [|t tl IH]; intros st Hp Hsm K A I; [exact A|].
  unfold del_block in *. cbn [fold_left] in *.
  destruct (check_expire_valid now st t); [|apply IH; assumption].
  assert (K1 : consistent sh c (fst (cache_push sh c now t st))) by (apply cache_push_consistent; assumption).
  apply IH; auto. apply cache_push_agrees; auto.
  apply (del_block_inj_back sh c now tl); auto.
Qed.

Lemma step_agrees sh c st e :
  1 <= c_peracc c -> c_qcap c <= c_shmax c -> consistent sh c st -> sh_agrees sh st ->
  sh_inj_pool sh (fst (step sh c st e)) = true ->
  sh_agrees sh (fst (step sh c st e)).
Proof.
  intros Hp Hsm K A. destruct e as [now t|hs|now|now h b hs|now h b ts].
  - apply cache_push_agrees; assumption.
  - intros _. apply (remove_txs_agrees sh c); assumption.
  - intros _. apply (remove_txs_agrees sh c); assumption.
  - intros _.
    destruct (step_add_block (fun s => consistent sh c s /\ sh_agrees sh s) sh c st now h b hs
                (conj K A) (conj (set_hdr_consistent _ _ h b _ K) A)) as (st1 & [K1 A1] & ->).
    apply (remove_txs_agrees sh c); [apply remove_txs_consistent; exact K1|].
    apply (remove_txs_agrees sh c); assumption.
  - apply del_block_agrees; auto. apply set_hdr_consistent. exact K.
Qed.

Lemma run_states_agrees sh c es : forall st,
  1 <= c_peracc c -> c_qcap c <= c_shmax c -> consistent sh c st -> sh_agrees sh st ->
  forallb (sh_inj_pool sh) (run_states sh c st es) = true ->
  Forall (fun s => consistent sh c s /\ sh_agrees sh s) (run_states sh c st es).
Proof.
  induction es as [|e tl IH]; intros st Hp Hsm K A G; cbn [run_states] in *; [constructor|].
  cbn [forallb] in G. apply andb_true_iff in G as [G1 G2].
  assert (K1 : consistent sh c (fst (step sh c st e))) by (apply step_consistent; assumption).
  assert (A1 : sh_agrees sh (fst (step sh c st e))) by (apply step_agrees; assumption).
  constructor; [split; assumption|]. apply IH; assumption.
Qed.

(** injectivity on the final pool alone is not enough *)
Definition shash_full_claim : Prop :=
  forall (sh : N -> N) (c : config) (es : list event),
    1 <= c_peracc c -> c_qcap c <= c_shmax c ->
    sh_inj_pool sh (run sh c init es) = true ->
    sh_agrees sh (run sh c init es).

Definition wA : tx := mkTx 1 0 1000 98 [0].
Definition wB : tx := mkTx 2 1 1000 98 [0].
Definition wcfg : config := mkCfg 4 4 4 4 600.
Definition wsh : N -> N := fun _ => 0%N.
(** push A, push B (same short hash: B is not indexed), remove A: B is pooled
    alone, yet its short-hash lookup is empty *)
Definition wevents : list event := [EPush 0 wA; EPush 0 wB; ERemove [1%N]].

(** run from the state after push A: push B (same short hash), remove B.  Before chain33 a576c70
    the removal of B deleted A's entry; A keeps it
    (C21_owner_kept_under_collision), so the hypotheses of
    C21_shash_first_come_found hold along a colliding history *)
Definition wevents_old : list event := [EPush 0 wB; ERemove [2%N]].

(** non-vacuity: a history along which the short hash stays injective *)
Definition xid : N -> N := fun h => h.
Definition xcfg : config := mkCfg 3 2 2 3 100.
Definition x1 : tx := mkTx 1 0 1000 98 [0].
Definition x2 : tx := mkTx 2 0 2000 99 [5].
Definition x3 : tx := mkTx 3 1 3000 100 [0].
Definition x4 : tx := mkTx 4 0 500 90 [0].
Definition xevents : list event :=
  [EPush 10 x1; EPush 11 x2; EPush 12 x4; EPush 13 x3; ERemove [1%N]; EPush 14 x4;
   EAddBlock 20 6 1000 [3%N]; EDelBlock 30 5 900 [x3; x1]; EExpire 100].
