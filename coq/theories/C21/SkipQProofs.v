(** C21 — the bookkeeping invariant for the pool behind a score-ordered queue.

    The invariant of the arrival-ordered pool ([consistent], C21.ProofsInv) is
    reused verbatim: the price pool [st] is viewed as the state
    [as_state st G] of the arrival-ordered model, where the ghost list [G] holds
    the pooled transactions in arrival order and is a permutation of the Walk.
    As long as no Push evicts, every operation of the price pool is the
    corresponding operation of the arrival-ordered pool on that view. *)
From Coq Require Import List ZArith NArith Bool Lia Permutation Sorted.
From C33 Require Import C21.Model C21.Spec C21.ProofsLm C21.ProofsInv C21.ProofsMain.
From C33 Require Import C21.SkipQModel C21.SkipQProofsQ.
Import ListNotations.
Open Scope Z_scope.

Definition conv (txof : N -> tx) (it : Q.item) : item := mkItem (txof (Q.ihash it)) (enter_of it).

Definition as_state (st : pstate) (G : lm item) : state :=
  mkSt G (Q.qbytes (p_q st)) (p_acc st) (p_last st) (p_sh st) (p_fee st) (p_hdr st).

Record glink (txof : N -> tx) (l : list Q.item) (G : lm item) : Prop := mkGl {
  gl_nodup : NoDup (keys G);
  gl_get : forall h, lm_get h G = option_map (conv txof) (QS.spec_get h l)
}.

Lemma glink_keys txof l G h : glink txof l G -> (In h (keys G) <-> In h (QP.hashes l)).
Proof.
  intros [_ Hg]. specialize (Hg h). split; intros H.
  - destruct (QS.spec_get h l) eqn:E.
    + apply spec_get_some in E as [Hi Hh]. subst. unfold QP.hashes. now apply in_map.
    + cbn in Hg. apply lm_get_none_iff in Hg. contradiction.
  - destruct (lm_get h G) eqn:E.
    + apply lm_get_in in E. eapply in_keys; eauto.
    + destruct (QS.spec_get h l) eqn:E2; [discriminate|]. apply spec_get_none_iff in E2. contradiction.
Qed.

Lemma glink_size txof l G : NoDup (QP.hashes l) -> glink txof l G -> lm_size G = QS.spec_size l.
Proof.
  intros ND HG. unfold lm_size, QS.spec_size. f_equal.
  assert (E : length (keys G) = length (QP.hashes l)).
  { apply Nat.le_antisymm; apply NoDup_incl_length; try assumption; try apply (gl_nodup _ _ _ HG);
      intros x Hx; apply (glink_keys txof l G x HG); exact Hx. }
  unfold keys, QP.hashes in E. rewrite !map_length in E. exact E.
Qed.

Lemma glink_perm txof l G : NoDup (QP.hashes l) -> glink txof l G -> Permutation (keys G) (QP.hashes l).
Proof.
  intros ND HG. apply NoDup_Permutation; [apply (gl_nodup _ _ _ HG)|exact ND|].
  intros x. apply (glink_keys txof l G x HG).
Qed.

Lemma glink_tx txof l G h it : glink txof l G -> In (h, it) G -> i_tx it = txof h.
Proof.
  intros [ND Hg] Hi. apply (lm_in_get _ _ _ ND) in Hi. rewrite Hg in Hi.
  destruct (QS.spec_get h l) as [x|] eqn:E; [|discriminate].
  apply spec_get_some in E as [_ Hh]. inversion Hi. unfold conv. cbn. now rewrite Hh.
Qed.

Lemma glink_remove txof l G h : glink txof l G -> glink txof (QS.spec_remove_list h l) (lm_remove h G).
Proof.
  intros [ND Hg]. rewrite (lm_remove_filter _ _ ND). constructor; [apply keys_filter_nodup; exact ND|].
  intros h'. rewrite spec_get_remove. destruct (N.eqb_spec h' h) as [E|E].
  - subst. apply lm_get_filter_neqk_same.
  - rewrite lm_get_filter_neqk_other by exact E. apply Hg.
Qed.

Lemma glink_insert txof l G it :
  glink txof l G -> ~ In (Q.ihash it) (QP.hashes l) ->
  glink txof (QS.spec_insert it l) (G ++ [(Q.ihash it, conv txof it)]).
Proof.
  intros HG Hnin. pose proof HG as [ND Hg].
  assert (HninG : ~ In (Q.ihash it) (keys G)) by (intro Hx; apply Hnin, (glink_keys txof l G _ HG), Hx).
  constructor; [rewrite keys_app; apply nodup_snoc; assumption|].
  intros h'. rewrite lm_get_app, spec_get_insert, Hg by exact Hnin.
  destruct (N.eqb_spec h' (Q.ihash it)) as [->|E].
  - rewrite (proj2 (spec_get_none_iff _ _) Hnin). cbn [option_map lm_get]. rewrite N.eqb_refl. reflexivity.
  - destruct (QS.spec_get h' l); cbn [option_map lm_get]; [reflexivity|].
    rewrite (proj2 (N.eqb_neq _ _) E). reflexivity.
Qed.

Lemma conv_mk_item sc txof t now : txof (t_h t) = t -> conv txof (mk_item sc t now) = mkItem t now.
Proof. intros Et. unfold conv, mk_item, enter_of. cbn. rewrite Et, Z.opp_involutive. reflexivity. Qed.

Lemma set_q_id st : set_q (p_q st) st = st.
Proof. destruct st; reflexivity. Qed.

Lemma cev_hdr now s1 s2 t : s_hdr s1 = s_hdr s2 -> check_expire_valid now s1 t = check_expire_valid now s2 t.
Proof. intros E. unfold check_expire_valid, hdr_height, hdr_time. rewrite E. reflexivity. Qed.

Lemma psim_remove sc sh txof c st l G h :
  qlink sc txof c st l -> glink txof l G ->
  exists l' G', qlink sc txof c (pcache_remove sh txof h st) l' /\ glink txof l' G'
    /\ as_state (pcache_remove sh txof h st) G' = cache_remove sh h (as_state st G).
Proof.
  intros HQ HG. pose proof HQ as [HR HI]. pose proof HG as [ND Hg].
  pose proof (qlink_remove sc sh txof c h st l HQ) as HQ1.
  exists (QS.spec_remove_list h l), (lm_remove h G). split; [exact HQ1|]. split; [apply glink_remove, HG|].
  destruct HQ1 as [HR' _]. revert HR'. unfold pcache_remove, Q.q_get.
    rewrite (QR.map_ok_get _ _ h (QR.R_map _ _ _ HR)).
    destruct (QS.spec_get h l) as [it|] eqn:Gt; intros HR'.
    + pose proof (spec_get_some _ _ _ Gt) as [Hin Hh]. cbn [p_q] in HR'.
      assert (Eb : Q.qbytes (fst (Q.q_remove h (p_q st))) = Q.qbytes (p_q st) - t_size (txof (Q.ihash it))).
      { rewrite (QR.R_bytes _ _ _ HR'), (QR.R_bytes _ _ _ HR). rewrite <- Hh.
        rewrite QR.spec_bytes_remove; [|apply (QR.R_nodup _ _ _ HR)|exact Hin].
        rewrite Forall_forall in HI. destruct (HI _ Hin) as [Es _]. rewrite Es. reflexivity. }
      assert (GG : lm_get h G = Some (conv txof it)) by (rewrite Hg, Gt; reflexivity).
      unfold cache_remove, as_state. cbn [s_q s_bytes s_acc s_last s_sh s_fee s_hdr].
      rewrite GG. unfold q_remove. rewrite GG. cbn [conv i_tx p_q p_acc p_last p_sh p_fee p_hdr].
      rewrite Eb. reflexivity.
    + assert (GG : lm_get h G = None) by (rewrite Hg, Gt; reflexivity).
      rewrite cache_remove_none by exact GG. rewrite (lm_remove_filter _ _ ND), filter_neqk_notin; [reflexivity|].
      apply lm_get_none_iff. exact GG.
Qed.

Lemma psim_push sc sh txof c now t st l G :
  qlink sc txof c st l -> glink txof l G -> txof (t_h t) = t ->
  pev (pcache_push sc sh c now t st) = [] ->
  exists l' G', qlink sc txof c (pst (pcache_push sc sh c now t st)) l' /\ glink txof l' G'
    /\ as_state (pst (pcache_push sc sh c now t st)) G' = fst (cache_push sh c now t (as_state st G)).
Proof.
  intros HQ HG Et. pose proof HQ as [HR HI].
  pose proof (glink_size txof l G (QR.R_nodup _ _ _ HR) HG) as Hsz.
  pose proof (fun h => glink_keys txof l G h HG) as Hk.
  unfold pcache_push, pst, pev.
  destruct (acc_can_push c t (p_acc st)) eqn:Hcan; cbn [negb].
  2:{ intros _. exists l, G. rewrite cache_push_refused by (left; exact Hcan). auto. }
  pose proof (qpush_cases _ _ _ (mk_item sc t now) HR) as Hc.
  destruct (Q.q_push (mk_item sc t now) (p_q st)) as [q' e] eqn:EP. cbn [fst snd] in Hc.
  change (Q.ihash (mk_item sc t now)) with (t_h t) in Hc.
  destruct Hc as [(He & Eu & Hrej & Hev)|[(He & Hroom & Hnin & HR' & Hev)|(He & _ & _ & rest & worst & _ & _ & _ & Hev)]].
  - (* refused by the queue: the arrival-ordered pool refuses too *)
    intros _. subst q'. replace (err_ok e) with false by (destruct e; [congruence|reflexivity..]).
    cbn [negb fst]. rewrite set_q_id. exists l, G. rewrite cache_push_refused; [auto|]. right.
    destruct Hrej as [Hin|Hfull]; [left; apply Hk, Hin|right; cbn [as_state s_q]; lia].
  - (* room: both append *)
    intros _. subst e. cbn [err_ok negb].
    exists (QS.spec_insert (mk_item sc t now) l), (G ++ [(t_h t, mkItem t now)]).
    pose proof (glink_insert txof l G (mk_item sc t now) HG Hnin) as HG'.
    rewrite (conv_mk_item sc txof t now Et) in HG'.
    pose proof (forall_insert _ _ _ (mk_item_ok sc txof t now Et) HI) as HI'.
    assert (Eb : Q.qbytes q' = Q.qbytes (p_q st) + t_size t).
    { rewrite (QR.R_bytes _ _ _ HR'), (QR.R_bytes _ _ _ HR), QP.spec_insert_bytes. reflexivity. }
    unfold cache_push. change (s_acc (as_state st G)) with (p_acc st). rewrite Hcan. cbn [negb].
    change (s_q (as_state st G)) with G. change (s_bytes (as_state st G)) with (Q.qbytes (p_q st)).
    rewrite (q_push_accepted c (mkItem t now) G) by (first [intro Hx; apply Hnin, Hk, Hx | lia]).
    cbn [N.eqb E_OK negb i_tx]. destruct (acc_push c t (t_h t) (p_acc st)) as [e2 acc'].
    destruct (negb (N.eqb e2 E_OK)); cbn [fst]; (split; [constructor; [exact HR'|exact HI']|]); (split; [exact HG'|]);
      unfold as_state; cbn [p_q p_acc p_last p_sh p_fee p_hdr s_last s_sh s_fee s_hdr]; rewrite Eb; reflexivity.
  - (* eviction: excluded *)
    subst e. cbn [err_ok negb]. destruct (acc_push c t (t_h t) (p_acc st)) as [e2 acc'].
    destruct (negb (N.eqb e2 E_OK)); cbn [snd]; rewrite Hev; discriminate.
Qed.

Definition pinv (sc : tx -> Z -> Z) (txof : N -> tx) (sh : N -> N) (c : config) (st : pstate) : Prop :=
  exists l G, qlink sc txof c st l /\ glink txof l G /\ consistent sh c (as_state st G).

Lemma pinv_init sc txof sh c : 1 <= c_peracc c -> pinv sc txof sh c (pinit c).
Proof.
  intros Hp. exists [], []. split; [apply qlink_init|]. split.
  - constructor; [constructor|]. intros h. reflexivity.
  - change (as_state (pinit c) []) with init. apply init_consistent. exact Hp.
Qed.

Lemma pinv_remove sc txof sh c h st : pinv sc txof sh c st -> pinv sc txof sh c (pcache_remove sh txof h st).
Proof.
  intros (l & G & HQ & HG & K).
  destruct (psim_remove sc sh txof c st l G h HQ HG) as (l' & G' & HQ' & HG' & E).
  exists l', G'. split; [exact HQ'|]. split; [exact HG'|]. rewrite E. apply cache_remove_consistent. exact K.
Qed.

Lemma pinv_push sc txof sh c now t st :
  1 <= c_peracc c -> txof (t_h t) = t -> pinv sc txof sh c st ->
  pev (pcache_push sc sh c now t st) = [] -> pinv sc txof sh c (pst (pcache_push sc sh c now t st)).
Proof.
  intros Hp Et (l & G & HQ & HG & K) Hev.
  destruct (psim_push sc sh txof c now t st l G HQ HG Et Hev) as (l' & G' & HQ' & HG' & E).
  exists l', G'. split; [exact HQ'|]. split; [exact HG'|]. rewrite E. apply cache_push_consistent; assumption.
Qed.

Lemma pinv_set_hdr sc txof sh c h b st : pinv sc txof sh c st -> pinv sc txof sh c (pset_hdr h b st).
Proof.
  intros (l & G & HQ & HG & K). exists l, G. split; [eapply qlink_q; [|exact HQ]; reflexivity|].
  split; [exact HG|]. change (as_state (pset_hdr h b st) G) with (set_hdr h b (as_state st G)).
  apply set_hdr_consistent. exact K.
Qed.

Lemma pinv_all sc txof sh c es :
  1 <= c_peracc c -> hash_table_ok txof ->
  forallb no_evict (pevictions sc sh txof c (pinit c) es) = true ->
  pinv sc txof sh c (prun sc sh txof c (pinit c) es)
  /\ Forall (pinv sc txof sh c) (prun_states sc sh txof c (pinit c) es).
Proof.
  intros Hp Ht Hev. apply (prun_preserves sc sh txof c (pinv sc txof sh c) (fun ev => ev = [])).
  - intros a b. apply app_eq_nil.
  - intros now h st K E. apply pinv_push; [exact Hp|rewrite Ht; reflexivity|exact K|exact E].
  - intros h st. apply pinv_remove.
  - intros h b st. apply pinv_set_hdr.
  - apply pinv_init. exact Hp.
  - apply Forall_forall. intros ev Hin. rewrite forallb_forall in Hev. specialize (Hev ev Hin).
    destruct ev; [reflexivity|discriminate].
Qed.

Definition arrival_of (txof : N -> tx) (st : pstate) (G : lm item) : Prop :=
  Permutation (keys G) (map Q.ihash (pwalk st))
  /\ Forall (fun p => i_tx (snd p) = txof (fst p)) G.

Definition pconsistent (txof : N -> tx) (sh : N -> N) (c : config) (st : pstate) : Prop :=
  exists G, arrival_of txof st G /\ consistent sh c (as_state st G).

Lemma qlink_walk sc txof c st l : qlink sc txof c st l -> pwalk st = l.
Proof. intros [HR _]. unfold pwalk. rewrite QH.walk0_contents. apply (QR.R_cont _ _ _ HR). Qed.

Lemma pinv_pconsistent sc txof sh c st : pinv sc txof sh c st -> pconsistent txof sh c st.
Proof.
  intros (l & G & HQ & HG & K). exists G. split; [|exact K]. split.
  - rewrite (qlink_walk _ _ _ _ _ HQ). apply (glink_perm txof l G); [|exact HG].
    apply (QR.R_nodup _ _ _ (ql_R _ _ _ _ _ HQ)).
  - apply Forall_forall. intros [h it] Hi. cbn [fst snd]. eapply glink_tx; eauto.
Qed.
