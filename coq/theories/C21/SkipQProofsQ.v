(** C21 — the queue side of the score-ordered pool: what C24's simulation
    relation [R] (skiplist.Queue refines a sorted list) gives for the pool model,
    for every history (evictions included). *)
From Coq Require Import List ZArith NArith Bool Lia Permutation Sorted.
From C33 Require Import C21.Model C21.Spec C21.ProofsLm C21.SkipQModel.
From C33 Require C24.Spec C24.ProofsSpec C24.ProofsSim C24.Proofs.
Import ListNotations.
Open Scope Z_scope.

Module QS := C33.C24.Spec.
Module QP := C33.C24.ProofsSpec.
Module QR := C33.C24.ProofsSim.
Module QH := C33.C24.Proofs.

Lemma spec_get_some h l it : QS.spec_get h l = Some it -> In it l /\ Q.ihash it = h.
Proof.
  unfold QS.spec_get. intros H. apply find_some in H as [Hi Hh].
  apply QP.has_hash_true in Hh. auto.
Qed.

Lemma spec_get_none_iff h l : QS.spec_get h l = None <-> ~ In h (QP.hashes l).
Proof.
  unfold QS.spec_get. split.
  - intros H Hi. unfold QP.hashes in Hi. apply in_map_iff in Hi as (x & Hx & Hi).
    pose proof (find_none _ _ H _ Hi) as Hf. apply QP.has_hash_true in Hx. congruence.
  - intros H. destruct (find (QS.has_hash h) l) as [x|] eqn:E; [|reflexivity].
    exfalso. apply find_some in E as [Hi Hh]. apply QP.has_hash_true in Hh.
    apply H. unfold QP.hashes. apply in_map_iff. exists x. auto.
Qed.

Lemma spec_get_in l it : NoDup (QP.hashes l) -> In it l -> QS.spec_get (Q.ihash it) l = Some it.
Proof.
  intros ND Hi. destruct (QS.spec_get (Q.ihash it) l) as [x|] eqn:E.
  - apply spec_get_some in E as [Hx Hh]. f_equal. eapply QP.hash_inj; eauto.
  - apply spec_get_none_iff in E. exfalso. apply E. unfold QP.hashes. now apply in_map.
Qed.

Lemma spec_get_remove h h' l :
  QS.spec_get h' (QS.spec_remove_list h l) = if N.eqb h' h then None else QS.spec_get h' l.
Proof.
  unfold QS.spec_get, QS.spec_remove_list.
  induction l as [|x l IH]; simpl.
  - now destruct (N.eqb h' h).
  - unfold QS.has_hash in *.
    destruct (N.eqb_spec (Q.ihash x) h) as [E|E]; simpl.
    + rewrite IH. destruct (N.eqb_spec h' h) as [E2|E2]; [reflexivity|].
      destruct (N.eqb_spec (Q.ihash x) h'); [congruence|reflexivity].
    + destruct (N.eqb_spec (Q.ihash x) h') as [E2|E2].
      * destruct (N.eqb_spec h' h); [congruence|reflexivity].
      * exact IH.
Qed.

Lemma spec_get_insert it l h' :
  ~ In (Q.ihash it) (QP.hashes l) ->
  QS.spec_get h' (QS.spec_insert it l) = if N.eqb h' (Q.ihash it) then Some it else QS.spec_get h' l.
Proof.
  unfold QS.spec_get. induction l as [|x l IH]; intros Hn; simpl.
  - unfold QS.has_hash. rewrite N.eqb_sym. reflexivity.
  - assert (Hx : Q.ihash x <> Q.ihash it) by (intro E; apply Hn; left; exact E).
    assert (Hn' : ~ In (Q.ihash it) (QP.hashes l)) by (intro E; apply Hn; right; exact E).
    specialize (IH Hn'). unfold QS.has_hash in *.
    destruct (Q.iscore x >=? Q.iscore it); simpl.
    + destruct (N.eqb_spec (Q.ihash x) h') as [E|E].
      * destruct (N.eqb_spec h' (Q.ihash it)); [congruence|reflexivity].
      * exact IH.
    + rewrite (N.eqb_sym (Q.ihash it) h').
      destruct (N.eqb h' (Q.ihash it)); reflexivity.
Qed.

Lemma spec_push_refused cap it l :
  snd (QS.spec_push cap it l) <> Q.ENone -> In (Q.ihash it) (QP.hashes l) \/ cap <= QS.spec_size l.
Proof.
  unfold QS.spec_push. destruct (QS.spec_exist (Q.ihash it) l) eqn:EX; [left; apply QP.spec_exist_in, EX|].
  destruct (QS.spec_size l <? cap) eqn:EF; [cbn [snd]; congruence|]. right. apply Z.ltb_ge, EF.
Qed.

Lemma spec_push_fresh cap it l :
  snd (QS.spec_push cap it l) = Q.ENone -> ~ In (Q.ihash it) (QP.hashes l).
Proof.
  unfold QS.spec_push. destruct (QS.spec_exist (Q.ihash it) l) eqn:EX; [discriminate|].
  intros _. apply QP.spec_exist_false, EX.
Qed.

Lemma qpush_cases cap q l it :
  QR.R cap q l ->
  (snd (Q.q_push it q) <> Q.ENone /\ fst (Q.q_push it q) = q
   /\ (In (Q.ihash it) (QP.hashes l) \/ cap <= QS.spec_size l)
   /\ evicted_of q (snd (Q.q_push it q)) = [])
  \/ (snd (Q.q_push it q) = Q.ENone /\ QS.spec_size l < cap /\ ~ In (Q.ihash it) (QP.hashes l)
      /\ QR.R cap (fst (Q.q_push it q)) (QS.spec_insert it l)
      /\ evicted_of q (snd (Q.q_push it q)) = [])
  \/ (snd (Q.q_push it q) = Q.ENone /\ cap <= QS.spec_size l /\ ~ In (Q.ihash it) (QP.hashes l)
      /\ exists rest worst, l = rest ++ [worst] /\ QS.ranks_higher it worst = true
         /\ QR.R cap (fst (Q.q_push it q)) (QS.spec_insert it rest)
         /\ evicted_of q (snd (Q.q_push it q)) = [Q.ihash worst]).
Proof.
  intros H. destruct (QR.sim_push cap q l it H) as [HR HE].
  pose proof (spec_push_refused cap it l) as Href. pose proof (spec_push_fresh cap it l) as Hn.
  unfold evicted_of. rewrite (QR.R_size _ _ _ H), (QR.R_cap _ _ _ H), (QR.R_last _ _ _ H), HE.
  destruct (QS.spec_push cap it l) as [l' e] eqn:EP. cbn [fst snd] in *.
  assert (De : e = Q.ENone \/ e <> Q.ENone) by (destruct e; [left; reflexivity|right; discriminate..]).
  destruct De as [->|Ne].
  - (* accepted: C24's rule says which way *)
    specialize (Hn eq_refl). cbn [err_ok andb]. right.
    destruct (QH.spec_push_rule cap it l l' EP) as [(Hlt & ->)|(Hge & rest & worst & El & Hb & ->)].
    + left. rewrite Z.geb_leb, (proj2 (Z.leb_gt _ _) Hlt). auto.
    + right. split; [reflexivity|]. split; [exact Hge|]. split; [exact Hn|]. exists rest, worst.
      rewrite Z.geb_leb, (proj2 (Z.leb_le _ _) Hge). unfold QS.spec_last.
      rewrite El at 2. rewrite QP.last_opt_snoc. auto.
  - left. split; [exact Ne|]. split; [apply (QH.reject_unchanged_R cap q l it H); rewrite HE; exact Ne|].
    split; [exact (Href Ne)|]. destruct e; [contradiction|reflexivity..].
Qed.

Definition item_ok (sc : tx -> Z -> Z) (txof : N -> tx) (it : Q.item) : Prop :=
  Q.isize it = t_size (txof (Q.ihash it)) /\ Q.iscore it = sc (txof (Q.ihash it)) (enter_of it).

Record qlink (sc : tx -> Z -> Z) (txof : N -> tx) (c : config) (st : pstate) (l : list Q.item) : Prop := mkQl {
  ql_R : QR.R (c_qcap c) (p_q st) l;
  ql_items : Forall (item_ok sc txof) l
}.

Definition hash_table_ok (txof : N -> tx) : Prop := forall h, t_h (txof h) = h.

Lemma mk_item_ok sc txof t now : txof (t_h t) = t -> item_ok sc txof (mk_item sc t now).
Proof.
  intros E. unfold item_ok, mk_item, enter_of. cbn. rewrite E, Z.opp_involutive. auto.
Qed.

Lemma qlink_q sc txof c st st' l : p_q st' = p_q st -> qlink sc txof c st l -> qlink sc txof c st' l.
Proof. intros E [HR HI]. constructor; [rewrite E; exact HR|exact HI]. Qed.

Lemma qlink_init sc txof c : qlink sc txof c (pinit c) [].
Proof. constructor; [apply QR.R_new|constructor]. Qed.

Lemma forall_insert (P : Q.item -> Prop) it l : P it -> Forall P l -> Forall P (QS.spec_insert it l).
Proof.
  intros Hi Hl. apply Forall_forall. intros x Hx. apply QP.spec_insert_in in Hx as [->|Hx]; [exact Hi|].
  rewrite Forall_forall in Hl. auto.
Qed.

Lemma pcache_push_q sc sh c now t st :
  p_q (pst (pcache_push sc sh c now t st)) =
    if acc_can_push c t (p_acc st) then fst (Q.q_push (mk_item sc t now) (p_q st)) else p_q st.
Proof.
  unfold pcache_push, pst. destruct (acc_can_push c t (p_acc st)); cbn [negb]; [|reflexivity].
  destruct (Q.q_push (mk_item sc t now) (p_q st)) as [q' e]. cbn [fst snd].
  destruct (err_ok e); cbn [negb]; [|reflexivity].
  destruct (acc_push c t (t_h t) (p_acc st)) as [e2 acc']. destruct (negb (N.eqb e2 E_OK)); reflexivity.
Qed.

Lemma qlink_push sc sh txof c now t st l :
  qlink sc txof c st l -> txof (t_h t) = t ->
  exists l', qlink sc txof c (pst (pcache_push sc sh c now t st)) l'.
Proof.
  intros [HR HI] Et. pose proof (pcache_push_q sc sh c now t st) as Eq.
  destruct (acc_can_push c t (p_acc st)).
  2:{ exists l. constructor; [rewrite Eq; exact HR|exact HI]. }
  destruct (qpush_cases _ _ _ (mk_item sc t now) HR)
    as [(_ & Eu & _)|[(_ & _ & _ & HR' & _)|(_ & _ & _ & rest & worst & El & _ & HR' & _)]].
  - exists l. constructor; [rewrite Eq, Eu; exact HR|exact HI].
  - exists (QS.spec_insert (mk_item sc t now) l).
    constructor; [rewrite Eq; exact HR'|]. apply forall_insert; [apply mk_item_ok; exact Et|exact HI].
  - exists (QS.spec_insert (mk_item sc t now) rest).
    constructor; [rewrite Eq; exact HR'|]. apply forall_insert; [apply mk_item_ok; exact Et|].
    rewrite El in HI. apply Forall_app in HI. tauto.
Qed.

Lemma qlink_remove sc sh txof c h st l :
  qlink sc txof c st l -> qlink sc txof c (pcache_remove sh txof h st) (QS.spec_remove_list h l).
Proof.
  intros [HR HI]. unfold pcache_remove, Q.q_get. rewrite (QR.map_ok_get _ _ h (QR.R_map _ _ _ HR)).
  destruct (QS.spec_get h l) as [it|] eqn:G.
  - destruct (QR.sim_remove _ _ _ h HR) as [HR' _]. unfold QS.spec_remove in HR'.
    rewrite (proj2 (QP.spec_exist_in h l)) in HR'
      by (apply spec_get_some in G as [Hi <-]; apply in_map; exact Hi).
    constructor; [exact HR'|apply forall_filter, HI].
  - apply spec_get_none_iff in G.
    replace (QS.spec_remove_list h l) with l by (symmetry; apply (filter_key_notin Q.ihash h l G)).
    constructor; assumption.
Qed.

Lemma hashes_remove_list h l x : In x (QP.hashes (QS.spec_remove_list h l)) -> In x (QP.hashes l) /\ x <> h.
Proof.
  unfold QP.hashes, QS.spec_remove_list. rewrite in_map_iff. intros (y & <- & Hy).
  apply filter_In in Hy as [Hy Hh]. split; [apply in_map; exact Hy|]. intros E.
  rewrite (proj2 (QP.has_hash_true _ _) E) in Hh. discriminate.
Qed.

Lemma qlink_remove_txs sc sh txof c hs : forall st l,
  qlink sc txof c st l ->
  exists l', qlink sc txof c (premove_txs sh txof hs st) l'
    /\ (forall x, In x (QP.hashes l') -> In x (QP.hashes l) /\ ~ In x hs).
Proof.
  unfold premove_txs. induction hs as [|h tl IH]; intros st l H; cbn [fold_left].
  - exists l. split; [exact H|]. intros x Hx. split; [exact Hx|intros []].
  - destruct (IH _ _ (qlink_remove sc sh txof c h st l H)) as (l2 & H2 & S2). exists l2. split; [exact H2|].
    intros x Hx. apply S2 in Hx as [Hx Hn]. apply hashes_remove_list in Hx as [Hx Hne].
    split; [exact Hx|]. intros [E|E]; [congruence|contradiction].
Qed.

Lemma qlink_remove_expired sc sh txof c now st l :
  qlink sc txof c st l ->
  exists l', qlink sc txof c (premove_expired sh txof c now st) l'
    /\ (forall x, In x (QP.hashes l') -> In x (QP.hashes l)).
Proof.
  intros H. unfold premove_expired.
  destruct (qlink_remove_txs sc sh txof c
              (pexpired_hashes txof c now (hdr_height (hdr_state st) + 1) (hdr_time (hdr_state st)) (p_q st))
              st l H) as (l' & H' & S).
  exists l'. split; [exact H'|]. intros x Hx. apply S in Hx. tauto.
Qed.

Definition del_f (sc : tx -> Z -> Z) (sh : N -> N) (txof : N -> tx) (c : config) (now : Z) :=
  fun (a : pstate * list N) (h : N) =>
    let t := txof h in
    if check_expire_valid now (hdr_state (fst a)) t
    then match pcache_push sc sh c now t (fst a) with (s', _, ev) => (s', snd a ++ ev) end
    else a.

Lemma pdel_block_unfold sc sh txof c now hs st :
  pdel_block sc sh txof c now hs st = fold_left (del_f sc sh txof c now) hs (st, []).
Proof. reflexivity. Qed.

Lemma del_f_fst sc sh txof c now a h :
  fst (del_f sc sh txof c now a h) =
    if check_expire_valid now (hdr_state (fst a)) (txof h)
    then pst (pcache_push sc sh c now (txof h) (fst a)) else fst a.
Proof.
  unfold del_f, pst. destruct (check_expire_valid now (hdr_state (fst a)) (txof h)); [|reflexivity].
  destruct (pcache_push sc sh c now (txof h) (fst a)) as [[s' e] ev]. reflexivity.
Qed.

Lemma del_f_snd sc sh txof c now a h :
  snd (del_f sc sh txof c now a h) =
    snd a ++ (if check_expire_valid now (hdr_state (fst a)) (txof h)
              then pev (pcache_push sc sh c now (txof h) (fst a)) else []).
Proof.
  unfold del_f, pev. destruct (check_expire_valid now (hdr_state (fst a)) (txof h)).
  - destruct (pcache_push sc sh c now (txof h) (fst a)) as [[s' e] ev]. reflexivity.
  - now rewrite app_nil_r.
Qed.

(** what Push, Remove and setting the header keep, every event and history keeps.
    [E] is what is demanded of the hashes a Push evicts (nothing, or that there are none). *)
Section Step.
  Variables (sc : tx -> Z -> Z) (sh : N -> N) (txof : N -> tx) (c : config).
  Variables (P : pstate -> Prop) (E : list N -> Prop).
  Hypothesis E_app : forall a b, E (a ++ b) -> E a /\ E b.
  Hypothesis P_push : forall now h st,
    P st -> E (pev (pcache_push sc sh c now (txof h) st)) -> P (pst (pcache_push sc sh c now (txof h) st)).
  Hypothesis P_remove : forall h st, P st -> P (pcache_remove sh txof h st).
  Hypothesis P_hdr : forall h b st, P st -> P (pset_hdr h b st).

  Lemma premove_txs_preserves hs st : P st -> P (premove_txs sh txof hs st).
  Proof. apply (fold_left_preserves P). intros s h. apply P_remove. Qed.

  Lemma pdel_block_preserves now hs : forall a,
    exists evs, snd (fold_left (del_f sc sh txof c now) hs a) = snd a ++ evs
      /\ (P (fst a) -> E evs -> P (fst (fold_left (del_f sc sh txof c now) hs a))).
  Proof.
    induction hs as [|h tl IH]; intros a; cbn [fold_left].
    - exists []. split; [now rewrite app_nil_r|auto].
    - destruct (IH (del_f sc sh txof c now a h)) as (evs & E1 & H1).
      rewrite del_f_snd, <- app_assoc in E1. eexists. split; [exact E1|].
      intros K Hev. apply E_app in Hev as [Hev1 Hev2]. apply H1; [|exact Hev2].
      rewrite del_f_fst. destruct (check_expire_valid now (hdr_state (fst a)) (txof h)); [|exact K].
      apply P_push; assumption.
  Qed.

  Lemma pstep_preserves st e :
    P st -> E (pev (pstep sc sh txof c st e)) -> P (pst (pstep sc sh txof c st e)).
  Proof.
    intros K. destruct e as [now h|hs|now|now hh b hs|now hh b hs]; cbn [pstep].
    - apply P_push. exact K.
    - intros _. apply premove_txs_preserves. exact K.
    - intros _. apply premove_txs_preserves. exact K.
    - intros _. set (st1 := if _ || _ then pset_hdr hh b st else st).
      assert (K1 : P st1) by (unfold st1; destruct (_ || _); [apply P_hdr|]; exact K).
      destruct (0 <? Q.q_size (p_q st1)); [|exact K1].
      apply premove_txs_preserves, premove_txs_preserves, K1.
    - rewrite pdel_block_unfold.
      destruct (pdel_block_preserves now hs (pset_hdr hh b st, [])) as (evs & E1 & H1).
      destruct (fold_left _ hs _) as [s' ev]. cbn [fst snd pst pev] in *. subst ev.
      apply H1. apply P_hdr, K.
  Qed.

  Lemma prun_preserves es : forall st,
    P st -> Forall E (pevictions sc sh txof c st es) ->
    P (prun sc sh txof c st es) /\ Forall P (prun_states sc sh txof c st es).
  Proof.
    unfold prun. induction es as [|e tl IH]; intros st K Hev; cbn [fold_left prun_states pevictions] in *.
    - split; [exact K|constructor].
    - inversion Hev as [|? ? H1 H2]; subst. pose proof (pstep_preserves st e K H1) as K1.
      destruct (IH _ K1 H2). split; [|constructor]; assumption.
  Qed.
End Step.

Lemma qlink_all sc sh txof c es :
  hash_table_ok txof ->
  (exists l, qlink sc txof c (prun sc sh txof c (pinit c) es) l)
  /\ Forall (fun s => exists l, qlink sc txof c s l) (prun_states sc sh txof c (pinit c) es).
Proof.
  intros Ht. apply (prun_preserves sc sh txof c (fun s => exists l, qlink sc txof c s l) (fun _ => True)).
  - auto.
  - intros now h st (l & H) _.
    apply (qlink_push sc sh txof c now (txof h) st l H). rewrite Ht. reflexivity.
  - intros h st (l & H). eexists. apply qlink_remove, H.
  - intros h b st (l & H). exists l. eapply qlink_q; [|exact H]. reflexivity.
  - exists []. apply qlink_init.
  - apply Forall_forall. auto.
Qed.
