(** C21 — the bookkeeping invariant and its preservation by Push and Remove. *)
From Coq Require Import List ZArith NArith Bool Lia.
From C33 Require Import C21.Model C21.Spec C21.ProofsLm.
Import ListNotations.
Open Scope Z_scope.

Definition from_b (a : N) (p : N * tx) : bool := N.eqb (t_from (snd p)) a.
Definition sizef (p : N * tx) : Z := t_size (snd p).
Definition feef (p : N * tx) : Z := t_fee (snd p).
Definition acc_get (a : N) (acc : lm (lm tx)) : lm tx :=
  match lm_get a acc with Some l => l | None => [] end.

(** The invariant.  [qtx st] is the pool's content in arrival order (hash,
    transaction).  The per-sender index and the latest list are exact views
    (filter / suffix); the short-hash index is a sub-view that is never stale:
    keys are unique and every entry names a pooled transaction with that short
    hash ([k_sh_nodup], [k_sh_sub]).  What it covers is stated in ProofsMain.v:
    [sh_owner] is kept while its transaction is pooled, and [sh_agrees] holds along
    a history on which the short hash stays injective on the pool. *)
Record consistent (sh : N -> N) (c : config) (st : state) : Prop := mkConsistent {
  k_keys : Forall (fun p => fst p = t_h (snd p)) (qtx st);
  k_nodup : NoDup (keys (qtx st));                       (* no two transactions with one hash *)
  k_cap : lm_size (s_q st) <= Z.max 0 (c_qcap c);        (* capacity *)
  k_acc_nodup : NoDup (keys (s_acc st));
  k_acc : forall a, acc_get a (s_acc st) = filter (from_b a) (qtx st);  (* per-sender index *)
  k_peracc : forall a, lm_size (acc_get a (s_acc st)) <= c_peracc c;    (* per-sender limit *)
  k_last : exists p, qtx st = p ++ s_last st;            (* latest list: the most recent arrivals *)
  k_last_len : lm_size (s_last st) <= Z.max 1 (c_lastmax c);
  k_bytes : s_bytes st = sum_z (map sizef (qtx st));
  k_fee : s_fee st = sum_z (map feef (qtx st));
  k_sh_nodup : NoDup (keys (s_sh st));
  k_sh_sub : forall k t, In (k, t) (s_sh st) -> k = sh (t_h t) /\ In (t_h t, t) (qtx st)
}.

Lemma qtx_keys st : keys (qtx st) = keys (s_q st).
Proof. unfold qtx. apply keys_map_snd. Qed.

Lemma qtx_in st h it : In (h, it) (s_q st) -> In (h, i_tx it) (qtx st).
Proof.
  intros H. unfold qtx. apply in_map_iff. exists (h, it). split; [reflexivity|exact H].
Qed.

Lemma sum_z_snoc l x : sum_z (l ++ [x]) = sum_z l + x.
Proof. unfold sum_z. induction l as [|y l IH]; simpl in *; lia. Qed.

Lemma sum_remove_key {A} (key : A -> N) (f : A -> Z) x l :
  NoDup (map key l) -> In x l ->
  sum_z (map f (filter (fun y => negb (N.eqb (key y) (key x))) l)) = sum_z (map f l) - f x.
Proof.
  unfold sum_z. induction l as [|y tl IH]; intros ND H; [destruct H|].
  inversion ND as [|? ? Hn ND']; subst. cbn [map filter]. destruct H as [->|H].
  - rewrite N.eqb_refl. cbn [negb]. rewrite filter_key_notin by exact Hn. simpl. lia.
  - destruct (N.eqb_spec (key y) (key x)) as [E|E].
    + exfalso. apply Hn. rewrite E. apply in_map. exact H.
    + simpl. rewrite IH by assumption. lia.
Qed.

Lemma sum_filter_neqk (f : N * tx -> Z) h t (l : lm tx) :
  NoDup (keys l) -> In (h, t) l ->
  sum_z (map f (filter (neqk h) l)) = sum_z (map f l) - f (h, t).
Proof. apply (sum_remove_key fst f (h, t)). Qed.

Lemma length_zero_nil {A} (l : list A) : Z.of_nat (length l) = 0 -> l = [].
Proof. destruct l; simpl; [reflexivity|lia]. Qed.

Lemma q_push_cases c it q b :
  let h := t_h (i_tx it) in
  (exists e, e <> E_OK /\ (In h (keys q) \/ c_qcap c <= lm_size q) /\ q_push c it q b = (e, q, b))
  \/ (~ In h (keys q) /\ lm_size q < c_qcap c
      /\ q_push c it q b = (E_OK, q ++ [(h, it)], b + t_size (i_tx it))).
Proof.
  intros h. unfold q_push. fold h. destruct (lm_exist h q) eqn:E1.
  - left. exists E_TXEXIST. apply lm_exist_true in E1. split; [discriminate|auto].
  - apply lm_exist_false in E1. destruct (c_qcap c <=? lm_size q) eqn:E2.
    + left. exists E_MEMFULL. apply Z.leb_le in E2. split; [discriminate|auto].
    + right. apply Z.leb_gt in E2. rewrite (lm_push_fresh _ _ _ E1). auto.
Qed.

Lemma q_push_accepted c it q b :
  ~ In (t_h (i_tx it)) (keys q) -> lm_size q < c_qcap c ->
  q_push c it q b = (E_OK, q ++ [(t_h (i_tx it), it)], b + t_size (i_tx it)).
Proof.
  intros Hn Hlt. unfold q_push.
  rewrite (proj2 (lm_exist_false _ _) Hn), (proj2 (Z.leb_gt _ _) Hlt), (lm_push_fresh _ _ _ Hn). reflexivity.
Qed.

Lemma cache_push_refused sh c now t st :
  acc_can_push c t (s_acc st) = false \/ In (t_h t) (keys (s_q st)) \/ c_qcap c <= lm_size (s_q st) ->
  fst (cache_push sh c now t st) = st.
Proof.
  intros H. unfold cache_push. destruct (acc_can_push c t (s_acc st)); [cbn [negb]|reflexivity].
  destruct (q_push_cases c (mkItem t now) (s_q st) (s_bytes st)) as [(e & He & _ & ->)|(Hn & Hlt & _)].
  - rewrite (proj2 (N.eqb_neq _ _) He). reflexivity.
  - exfalso. cbn [i_tx] in Hn. destruct H as [H|[H|H]]; [discriminate|contradiction|lia].
Qed.

Lemma acc_remove_spec t h acc a' :
  NoDup (keys acc) ->
  NoDup (keys (acc_get (t_from t) acc)) ->
  acc_get (t_from t) acc <> [] ->
  acc_get a' (acc_remove t h acc) =
    if N.eqb a' (t_from t) then filter (neqk h) (acc_get (t_from t) acc) else acc_get a' acc.
Proof.
  intros ND NDl Hne. unfold acc_remove, acc_get in *.
  destruct (lm_get (t_from t) acc) as [l|] eqn:G; [|congruence].
  rewrite (lm_remove_filter h l NDl).
  assert (Hin : In (t_from t) (keys acc)) by (apply lm_get_in in G; eapply in_keys; eauto).
  destruct (Z.eqb_spec (lm_size (filter (neqk h) l)) 0) as [Z|Z].
  - rewrite (lm_remove_filter _ acc ND).
    destruct (N.eqb_spec a' (t_from t)) as [E|E].
    + subst. rewrite lm_get_filter_neqk_same. symmetry. apply length_zero_nil, Z.
    + rewrite lm_get_filter_neqk_other by exact E. reflexivity.
  - destruct (N.eqb_spec a' (t_from t)) as [E|E].
    + subst. rewrite lm_get_set_same by exact Hin. reflexivity.
    + rewrite lm_get_set_other by exact E. reflexivity.
Qed.

Lemma acc_remove_nodup t h acc : NoDup (keys acc) -> NoDup (keys (acc_remove t h acc)).
Proof.
  intros ND. unfold acc_remove. destruct (lm_get (t_from t) acc) as [l|]; [|exact ND].
  destruct (lm_size (lm_remove h l) =? 0).
  - rewrite (lm_remove_filter _ acc ND). apply keys_filter_nodup. exact ND.
  - rewrite keys_lm_set. exact ND.
Qed.

Lemma acc_push_spec c t h acc :
  1 <= c_peracc c ->
  acc_can_push c t acc = true ->
  NoDup (keys acc) ->
  ~ In h (keys (acc_get (t_from t) acc)) ->
  exists acc',
    acc_push c t h acc = (E_OK, acc') /\ NoDup (keys acc')
    /\ lm_size (acc_get (t_from t) acc) < c_peracc c
    /\ forall a', acc_get a' acc' =
         if N.eqb a' (t_from t) then acc_get (t_from t) acc ++ [(h, t)] else acc_get a' acc.
Proof.
  intros Hp Hcan ND Hh. unfold acc_push. set (a := t_from t) in *.
  (* the sender's list exists after the first step, empty if it was created *)
  set (acc1 := if lm_exist a acc then acc else lm_push a [] acc).
  assert (H1 : NoDup (keys acc1) /\ lm_get a acc1 = Some (acc_get a acc)
               /\ forall a', a' <> a -> lm_get a' acc1 = lm_get a' acc).
  { unfold acc1, acc_get. destruct (lm_get a acc) as [l|] eqn:G.
    - rewrite (proj2 (lm_exist_true a acc)) by (apply lm_get_in, in_keys in G; exact G). auto.
    - apply lm_get_none_iff in G. rewrite (proj2 (lm_exist_false a acc) G), (lm_push_fresh _ _ _ G).
      split; [rewrite keys_app; apply nodup_snoc; assumption|].
      split; [|intros a' E]; rewrite lm_get_app.
      + rewrite (proj2 (lm_get_none_iff a acc) G). cbn [lm_get]. rewrite N.eqb_refl. reflexivity.
      + destruct (lm_get a' acc); [reflexivity|]. cbn [lm_get].
        destruct (N.eqb_spec a' a); [contradiction|reflexivity]. }
  destruct H1 as (ND1 & G1 & O1). rewrite G1.
  assert (Hlt : lm_size (acc_get a acc) < c_peracc c).
  { unfold acc_can_push, acc_get in *. fold a in Hcan.
    destruct (lm_get a acc); [apply Z.ltb_lt; exact Hcan|cbn; lia]. }
  destruct (c_peracc c <=? lm_size (acc_get a acc)) eqn:Z; [apply Z.leb_le in Z; lia|].
  eexists. split; [reflexivity|]. split; [rewrite keys_lm_set; exact ND1|]. split; [exact Hlt|].
  intros a'. unfold acc_get at 1. destruct (N.eqb_spec a' a) as [->|E].
  - rewrite lm_get_set_same by (apply lm_get_in, in_keys in G1; exact G1).
    rewrite lm_push_fresh by exact Hh. reflexivity.
  - rewrite lm_get_set_other, (O1 a' E) by exact E. reflexivity.
Qed.

Lemma last_push_spec c t h (last T : lm tx) :
  (exists p, T = p ++ last) -> Forall (fun p => fst p = t_h (snd p)) T -> ~ In h (keys T) ->
  lm_size last <= Z.max 1 (c_lastmax c) ->
  (exists p', T ++ [(h, t)] = p' ++ last_push c t h last)
  /\ lm_size (last_push c t h last) <= Z.max 1 (c_lastmax c).
Proof.
  intros [p HT] HF Hh Hlen. unfold last_push.
  destruct last as [|[k v] tl].
  - destruct (c_lastmax c <=? _); cbn; (split; [exists T; reflexivity|lia]).
  - assert (Hk : k = t_h v).
    { rewrite Forall_forall in HF. apply (HF (k, v)). rewrite HT. apply in_or_app. right. left. reflexivity. }
    assert (Hsub : forall x, In x (keys ((k, v) :: tl)) -> In x (keys T)).
    { intros x Hx. rewrite HT, keys_app. apply in_or_app. right. exact Hx. }
    destruct (c_lastmax c <=? lm_size ((k, v) :: tl)) eqn:Z.
    + cbn [lm_top lm_remove]. rewrite <- Hk, N.eqb_refl.
      rewrite lm_push_fresh.
      2:{ intros Hx. apply Hh. apply Hsub. right. exact Hx. }
      split.
      * exists (p ++ [(k, v)]). rewrite HT. rewrite <- !app_assoc. reflexivity.
      * unfold lm_size in *. rewrite app_length. cbn [length] in *. lia.
    + rewrite lm_push_fresh.
      2:{ intros Hx. apply Hh. apply Hsub. exact Hx. }
      apply Z.leb_gt in Z. split.
      * exists p. rewrite HT. rewrite <- app_assoc. reflexivity.
      * unfold lm_size in *. rewrite app_length. cbn [length] in *. lia.
Qed.

(** SHashTxCache.Remove: only the owner's removal deletes the entry *)
Lemma sh_remove_in sh h (s : lm tx) k t' :
  NoDup (keys s) -> In (k, t') (sh_remove sh h s) ->
  In (k, t') s /\ ~ (k = sh h /\ t_h t' = h).
Proof.
  intros ND H. unfold sh_remove in H.
  destruct (lm_get (sh h) s) as [t|] eqn:G.
  - destruct (N.eqb_spec (t_h t) h) as [E|E].
    + rewrite (lm_remove_filter _ _ ND) in H. apply filter_In in H as [H Hk].
      split; [exact H|]. intros [E1 _]. unfold neqk in Hk. cbn [fst] in Hk.
      subst k. rewrite N.eqb_refl in Hk. discriminate.
    + split; [exact H|]. intros [E1 E2]. subst k.
      apply (lm_in_get _ _ _ ND) in H. congruence.
  - split; [exact H|]. intros [E1 _]. subst k.
    apply (lm_in_get _ _ _ ND) in H. congruence.
Qed.

Lemma sh_remove_nodup sh h (s : lm tx) : NoDup (keys s) -> NoDup (keys (sh_remove sh h s)).
Proof.
  intros ND. unfold sh_remove. destruct (lm_get (sh h) s) as [t|]; [|exact ND].
  destruct (N.eqb (t_h t) h); [|exact ND].
  rewrite (lm_remove_filter _ _ ND). apply keys_filter_nodup. exact ND.
Qed.

Lemma sh_remove_get_other sh h (s : lm tx) k t :
  NoDup (keys s) -> lm_get k s = Some t -> t_h t <> h -> lm_get k (sh_remove sh h s) = Some t.
Proof.
  intros ND G Hne. unfold sh_remove.
  destruct (lm_get (sh h) s) as [t0|] eqn:G0; [|exact G].
  destruct (N.eqb_spec (t_h t0) h) as [E|E]; [|exact G].
  rewrite (lm_remove_filter _ _ ND). rewrite lm_get_filter_neqk_other; [exact G|].
  intros Ek. subst k. rewrite G in G0. inversion G0; subst. contradiction.
Qed.

Lemma cache_remove_eq sh h st it :
  lm_get h (s_q st) = Some it ->
  cache_remove sh h st =
    mkSt (lm_remove h (s_q st)) (s_bytes st - t_size (i_tx it))
         (acc_remove (i_tx it) h (s_acc st)) (lm_remove h (s_last st))
         (sh_remove sh h (s_sh st)) (s_fee st - t_fee (i_tx it)) (s_hdr st).
Proof.
  intros G. unfold cache_remove, q_remove. rewrite G. reflexivity.
Qed.

Lemma cache_remove_none sh h st : lm_get h (s_q st) = None -> cache_remove sh h st = st.
Proof. intros G. unfold cache_remove. rewrite G. reflexivity. Qed.

Lemma qtx_remove sh h st :
  NoDup (keys (qtx st)) -> qtx (cache_remove sh h st) = filter (neqk h) (qtx st).
Proof.
  intros ND. destruct (lm_get h (s_q st)) as [it|] eqn:G.
  - rewrite (cache_remove_eq sh h st it G). unfold qtx. cbn [s_q].
    rewrite lm_remove_filter by (rewrite <- qtx_keys; exact ND).
    exact (map_filter_fst i_tx (fun k => negb (N.eqb k h)) (s_q st)).
  - rewrite cache_remove_none, filter_neqk_notin; [reflexivity| |exact G].
    rewrite qtx_keys. apply lm_get_none_iff. exact G.
Qed.

Lemma filter_from_neqk a h t (T : lm tx) :
  NoDup (keys T) -> In (h, t) T -> t_from t <> a ->
  filter (from_b a) (filter (neqk h) T) = filter (from_b a) T.
Proof.
  intros ND Hin Hne. rewrite filter_filter. apply filter_ext_in. intros [k v] Hk.
  unfold neqk, from_b. cbn [fst snd]. destruct (N.eqb_spec k h) as [->|E]; [|reflexivity].
  rewrite (nodup_keys_inj h v t T ND Hk Hin). symmetry. apply N.eqb_neq. exact Hne.
Qed.

Lemma cache_remove_consistent sh c st h :
  consistent sh c st -> consistent sh c (cache_remove sh h st).
Proof.
  intros K. destruct (lm_get h (s_q st)) as [it|] eqn:G.
  2:{ rewrite cache_remove_none by exact G. exact K. }
  destruct K as [Kk Knd Kcap Kand Kacc Kper Klast Kll Kb Kf Ksn Kss].
  pose proof (qtx_remove sh h st Knd) as HT. rewrite (cache_remove_eq sh h st it G) in *.
  assert (Hin : In (h, i_tx it) (qtx st)) by (apply qtx_in; apply lm_get_in; exact G).
  set (t := i_tx it) in *.
  destruct Klast as [p Hp].
  assert (NDlast : NoDup (keys (s_last st))).
  { rewrite Hp, keys_app in Knd. eapply nodup_app_r; eauto. }
  assert (Hal : acc_get (t_from t) (s_acc st) = filter (from_b (t_from t)) (qtx st)) by apply Kacc.
  assert (Hne : acc_get (t_from t) (s_acc st) <> []).
  { rewrite Hal. intros E. assert (X : In (h, t) (filter (from_b (t_from t)) (qtx st))).
    { apply filter_In. split; [exact Hin|]. unfold from_b. cbn [snd]. apply N.eqb_refl. }
    rewrite E in X. destruct X. }
  assert (NDl : NoDup (keys (acc_get (t_from t) (s_acc st)))).
  { rewrite Hal. apply keys_filter_nodup. exact Knd. }
  pose proof (acc_remove_spec t h (s_acc st)) as Hacc. specialize (fun a => Hacc a Kand NDl Hne).
  constructor; rewrite ?HT; cbn [s_q s_bytes s_acc s_last s_sh s_fee].
  - apply forall_filter, Kk.
  - apply keys_filter_nodup. exact Knd.
  - rewrite lm_remove_filter by (rewrite <- qtx_keys; exact Knd).
    unfold lm_size in *. pose proof (filter_length_le (neqk h) (s_q st)). lia.
  - apply acc_remove_nodup. exact Kand.
  - intros a. rewrite Hacc. destruct (N.eqb_spec a (t_from t)) as [E|E].
    + subst a. rewrite Hal. apply filter_filter_comm.
    + rewrite Kacc. symmetry. apply (filter_from_neqk a h t); auto.
  - intros a. rewrite Hacc. destruct (N.eqb a (t_from t)); [|apply Kper].
    pose proof (Kper (t_from t)) as X. unfold lm_size in *.
    pose proof (filter_length_le (neqk h) (acc_get (t_from t) (s_acc st))). lia.
  - rewrite (lm_remove_filter h _ NDlast). exists (filter (neqk h) p). rewrite Hp. apply filter_app.
  - rewrite (lm_remove_filter h _ NDlast). unfold lm_size in *.
    pose proof (filter_length_le (neqk h) (s_last st)). lia.
  - rewrite (sum_filter_neqk sizef h t _ Knd Hin), Kb. reflexivity.
  - rewrite (sum_filter_neqk feef h t _ Knd Hin), Kf. reflexivity.
  - apply sh_remove_nodup. exact Ksn.
  - intros k t' Hx. apply (sh_remove_in sh h _ k t' Ksn) in Hx as [Hx Hk]. destruct (Kss k t' Hx) as [E1 E2].
    split; [exact E1|]. apply filter_In. split; [exact E2|].
    unfold neqk. cbn [fst]. destruct (N.eqb_spec (t_h t') h) as [E|E]; [|reflexivity].
    exfalso. apply Hk. split; [|exact E]. rewrite E1, E. reflexivity.
Qed.

Lemma acc_get_pooled sh c st a h :
  consistent sh c st -> In h (keys (acc_get a (s_acc st))) -> In h (keys (s_q st)).
Proof. intros K. rewrite (k_acc _ _ _ K), <- qtx_keys. apply keys_filter_in. Qed.

Lemma pooled_acc_get sh c st h it :
  consistent sh c st -> In (h, it) (s_q st) -> In (h, i_tx it) (acc_get (t_from (i_tx it)) (s_acc st)).
Proof.
  intros K H. rewrite (k_acc _ _ _ K). apply filter_In. split; [apply qtx_in, H|]. apply N.eqb_refl.
Qed.

Lemma acc_push_keeps sh c st t a p :
  1 <= c_peracc c -> consistent sh c st ->
  acc_can_push c t (s_acc st) = true -> ~ In (t_h t) (keys (s_q st)) ->
  In p (acc_get a (s_acc st)) -> In p (acc_get a (snd (acc_push c t (t_h t) (s_acc st)))).
Proof.
  intros Hp K Hcan Hh Hi.
  destruct (acc_push_spec c t (t_h t) (s_acc st) Hp Hcan (k_acc_nodup _ _ _ K)) as (acc' & -> & _ & _ & Hget).
  { intros X. apply Hh, (acc_get_pooled sh c st _ _ K X). }
  cbn [snd]. rewrite Hget. destruct (N.eqb_spec a (t_from t)) as [<-|_]; [apply in_or_app; left|]; exact Hi.
Qed.

Lemma cache_push_spec sh c now t st :
  1 <= c_peracc c -> consistent sh c st ->
  (snd (cache_push sh c now t st) <> E_OK /\ fst (cache_push sh c now t st) = st)
  \/ (snd (cache_push sh c now t st) = E_OK
      /\ ~ In (t_h t) (keys (s_q st)) /\ lm_size (s_q st) < c_qcap c
      /\ exists acc',
         fst (cache_push sh c now t st) =
           mkSt (s_q st ++ [(t_h t, mkItem t now)]) (s_bytes st + t_size t) acc'
                (last_push c t (t_h t) (s_last st)) (sh_push sh c t (t_h t) (s_sh st))
                (s_fee st + t_fee t) (s_hdr st)
         /\ NoDup (keys acc')
         /\ lm_size (acc_get (t_from t) (s_acc st)) < c_peracc c
         /\ forall a', acc_get a' acc' =
               if N.eqb a' (t_from t) then acc_get (t_from t) (s_acc st) ++ [(t_h t, t)]
               else acc_get a' (s_acc st)).
Proof.
  intros Hp K. unfold cache_push.
  destruct (acc_can_push c t (s_acc st)) eqn:Hcan; cbn [negb]; [|left; split; [discriminate|reflexivity]].
  destruct (q_push_cases c (mkItem t now) (s_q st) (s_bytes st)) as [(e & He & _ & ->)|(Hh & Hcap & ->)]; cbn [i_tx].
  { rewrite (proj2 (N.eqb_neq _ _) He). left. split; [exact He|reflexivity]. }
  cbn [i_tx] in Hh.
  change (N.eqb E_OK E_OK) with true. cbn [negb].
  assert (Hhl : ~ In (t_h t) (keys (acc_get (t_from t) (s_acc st)))).
  { intros X. apply Hh, (acc_get_pooled sh c st _ _ K X). }
  destruct (acc_push_spec c t (t_h t) (s_acc st) Hp Hcan (k_acc_nodup _ _ _ K) Hhl) as [acc' [Ea [NDa [Hlt Hget]]]].
  rewrite Ea. change (N.eqb E_OK E_OK) with true. cbn [negb fst snd]. right.
  split; [reflexivity|]. split; [exact Hh|]. split; [exact Hcap|]. exists acc'. auto.
Qed.

Lemma cache_push_consistent sh c now t st :
  1 <= c_peracc c ->
  consistent sh c st -> consistent sh c (fst (cache_push sh c now t st)).
Proof.
  intros Hp K.
  destruct (cache_push_spec sh c now t st Hp K) as [[_ ->]|(_ & Hh & Hcap & acc' & -> & NDa & Hlt & Hget)];
    [exact K|].
  destruct K as [Kk Knd Kcap Kand Kacc Kper Klast Kll Kb Kf Ksn Kss].
  assert (HhT : ~ In (t_h t) (keys (qtx st))) by (rewrite qtx_keys; exact Hh).
  assert (HT : qtx (mkSt (s_q st ++ [(t_h t, mkItem t now)]) (s_bytes st + t_size t) acc'
                         (last_push c t (t_h t) (s_last st)) (sh_push sh c t (t_h t) (s_sh st))
                         (s_fee st + t_fee t) (s_hdr st)) = qtx st ++ [(t_h t, t)]).
  { unfold qtx. cbn [s_q]. rewrite map_app. reflexivity. }
  destruct (last_push_spec c t (t_h t) (s_last st) (qtx st) Klast Kk HhT Kll) as [Hl1 Hl2].
  constructor; rewrite ?HT; cbn [s_q s_bytes s_acc s_last s_sh s_fee].
  - apply Forall_app. split; [exact Kk|]. constructor; [reflexivity|constructor].
  - rewrite keys_app. apply nodup_snoc; assumption.
  - unfold lm_size in *. rewrite app_length. cbn [length]. lia.
  - exact NDa.
  - intros a. rewrite Hget, filter_app. cbn [filter]. unfold from_b at 2. cbn [snd].
    rewrite (N.eqb_sym (t_from t) a).
    destruct (N.eqb_spec a (t_from t)) as [E|E].
    + subst a. rewrite Kacc. reflexivity.
    + rewrite app_nil_r. apply Kacc.
  - intros a. rewrite Hget. destruct (N.eqb a (t_from t)); [|apply Kper].
    unfold lm_size in *. rewrite app_length. cbn [length]. lia.
  - exact Hl1.
  - exact Hl2.
  - rewrite map_app. cbn [map]. rewrite sum_z_snoc, Kb. reflexivity.
  - rewrite map_app. cbn [map]. rewrite sum_z_snoc, Kf. reflexivity.
  - unfold sh_push. destruct (lm_exist (sh (t_h t)) (s_sh st)) eqn:Hes; [exact Ksn|].
    destruct (c_shmax c <=? lm_size (s_sh st)); [exact Ksn|].
    apply lm_exist_false in Hes. rewrite (lm_push_fresh _ _ _ Hes).
    rewrite keys_app. apply nodup_snoc; assumption.
  - intros k t' Hx.
    assert (Hold : In (k, t') (s_sh st) -> k = sh (t_h t') /\ In (t_h t', t') (qtx st ++ [(t_h t, t)])).
    { intros Hy. destruct (Kss k t' Hy) as [E1 E2]. split; [exact E1|]. apply in_or_app. left. exact E2. }
    unfold sh_push in Hx. destruct (lm_exist (sh (t_h t)) (s_sh st)) eqn:Hes; [auto|].
    destruct (c_shmax c <=? lm_size (s_sh st)); [auto|].
    apply lm_exist_false in Hes. rewrite (lm_push_fresh _ _ _ Hes) in Hx.
    apply in_app_or in Hx as [Hx|Hx]; [auto|].
    destruct Hx as [Hx|[]]. inversion Hx; subst. split; [reflexivity|].
    apply in_or_app. right. left. reflexivity.
Qed.
