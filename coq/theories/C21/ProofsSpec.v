(** C21 — the executable oracle of Spec.v accepts the observation of every
    model state that satisfies the invariant (so the oracle that judges the Go
    implementation's outputs is the executable image of the proved invariant). *)
From Coq Require Import List ZArith NArith Bool Lia.
From C33 Require Import C21.Model C21.Spec C21.ProofsLm C21.ProofsInv C21.ProofsMain.
Import ListNotations.
Open Scope Z_scope.

Definition keyed (T : lm tx) : Prop := Forall (fun p => fst p = t_h (snd p)) T.
Definition table_ok (txs : list tx) (T : lm tx) : Prop :=
  forall h t, In (h, t) T -> find_tx txs h = Some t.

Lemma list_n_eqb_refl l : list_n_eqb l l = true.
Proof. induction l as [|x tl IH]; cbn; [reflexivity|]. rewrite N.eqb_refl. exact IH. Qed.

Lemma hashes_keys (T : lm tx) : keyed T -> map (fun p => t_h (snd p)) T = keys T.
Proof.
  unfold keyed, keys. intros H. apply map_ext_in. intros p Hp.
  rewrite Forall_forall in H. symmetry. apply H. exact Hp.
Qed.

Lemma walk_keys sh c st : consistent sh c st ->
  map (fun p => t_h (i_tx (snd p))) (s_q st) = keys (qtx st).
Proof.
  intros K. rewrite <- (hashes_keys (qtx st)) by apply (k_keys _ _ _ K).
  unfold qtx. rewrite map_map. reflexivity.
Qed.

Lemma zip3_map {A B C} (f : A -> B) (g : A -> C) l :
  zip3 l (map f l) (map g l) = Some (map (fun a => (a, f a, g a)) l).
Proof. induction l as [|x tl IH]; cbn; [reflexivity|]. rewrite IH. reflexivity. Qed.

Lemma filter_walk txs a (T : lm tx) :
  keyed T -> table_ok txs T ->
  keys (filter (from_b a) T)
  = filter (fun h => match sender_of txs h with Some a' => N.eqb a' a | None => false end) (keys T).
Proof.
  induction T as [|[k v] tl IH]; intros HK HT; [reflexivity|].
  inversion HK as [|x xs Hk HK']; subst. cbn [fst snd] in Hk.
  assert (E : sender_of txs k = Some (t_from v)).
  { unfold sender_of. rewrite (HT k v) by (left; reflexivity). reflexivity. }
  assert (IH' : keys (filter (from_b a) tl)
                = filter (fun h => match sender_of txs h with Some a' => N.eqb a' a | None => false end) (keys tl)).
  { apply IH; [exact HK'|]. intros h t Hin. apply HT. right. exact Hin. }
  cbn [filter keys map fst]. rewrite E. unfold from_b at 1. cbn [snd].
  destruct (N.eqb (t_from v) a); cbn [keys map fst]; fold (keys tl); rewrite <- IH'; reflexivity.
Qed.

Lemma table_map (f : tx -> Z) (g : list tx -> N -> Z) txs (T : lm tx) :
  (forall h t, find_tx txs h = Some t -> g txs h = f t) ->
  table_ok txs T -> map (fun p => f (snd p)) T = map (g txs) (keys T).
Proof.
  intros Hg HT. unfold keys. rewrite map_map. apply map_ext_in. intros [h t] Hin.
  cbn [fst snd]. symmetry. apply Hg. apply HT. exact Hin.
Qed.

Lemma suffix_b_app (a s : list N) : suffix_b s (a ++ s) = true.
Proof.
  unfold suffix_b. rewrite app_length. apply andb_true_iff. split.
  - apply Nat.leb_le. lia.
  - replace (length a + length s - length s)%nat with (length a) by lia.
    rewrite skipn_app, skipn_all, Nat.sub_diag. cbn. apply list_n_eqb_refl.
Qed.

Local Opaque suffix_b.

Section Oracle.
  Variables (sh : N -> N) (c : config) (txs : list tx) (senders hashes : list N) (err : N) (st : state).
  Hypothesis K : consistent sh c st.
  Hypothesis Hcap : 0 <= c_qcap c.
  Hypothesis Htab : table_ok txs (qtx st).
  Hypothesis Hsnd : forall h t, In (h, t) (qtx st) -> In (t_from t) senders.

  Let o := observe sh senders hashes err st.

  Lemma o_walk_keys : o_walk o = keys (qtx st).
  Proof. unfold o. cbn [observe o_walk]. apply (walk_keys sh c). exact K. Qed.

  Lemma oracle_base : spec_base sh c txs senders hashes o = true.
  Proof.
    pose proof (k_keys _ _ _ K) as Kk. pose proof (k_nodup _ _ _ K) as Knd.
    unfold spec_base. rewrite o_walk_keys.
    repeat (apply andb_true_iff; split).
    - apply nodup_b_iff. exact Knd.
    - apply Z.eqb_eq. unfold o, zlen, lm_size, keys, qtx. cbn [observe o_size]. rewrite !map_length. reflexivity.
    - apply Z.leb_le. unfold o. cbn [observe o_size]. pose proof (k_cap _ _ _ K). lia.
    - apply forallb_forall. intros h Hh. unfold keys in Hh. apply in_map_iff in Hh as [[h' t] [E Hin]].
      cbn [fst] in E. subst h'. unfold sender_of. rewrite (Htab h t Hin). cbn [option_map].
      apply mem_n_in. eapply Hsnd; eauto.
    - unfold o. cbn [observe o_count o_acctx]. rewrite zip3_map.
      apply forallb_forall. intros x Hx. apply in_map_iff in Hx as [a [E _]]. subst x.
      unfold acc_list. fold (acc_get a (s_acc st)).
      repeat (apply andb_true_iff; split).
      + apply Z.eqb_eq. unfold zlen, lm_size. rewrite map_length. reflexivity.
      + apply Z.leb_le. apply (k_peracc _ _ _ K).
      + rewrite (k_acc _ _ _ K).
        rewrite (hashes_keys (filter (from_b a) (qtx st))) by (apply forall_filter; exact Kk).
        rewrite (filter_walk txs a (qtx st) Kk Htab). apply list_n_eqb_refl.
    - unfold o. cbn [observe o_last]. destruct (k_last _ _ _ K) as [p Hp].
      assert (Kl : keyed (s_last st)) by (unfold keyed in Kk; rewrite Hp in Kk; apply Forall_app in Kk; tauto).
      rewrite (hashes_keys _ Kl). rewrite Hp, keys_app. apply suffix_b_app.
    - apply Z.leb_le. unfold o. cbn [observe o_last]. unfold zlen. rewrite map_length.
      apply (k_last_len _ _ _ K).
    - apply Z.eqb_eq. unfold o. cbn [observe o_fee]. rewrite (k_fee _ _ _ K). f_equal.
      apply (table_map t_fee fee_of); [|exact Htab].
      intros h t E. unfold fee_of. rewrite E. reflexivity.
    - apply Z.eqb_eq. unfold o. cbn [observe o_bytes]. rewrite (k_bytes _ _ _ K). f_equal.
      apply (table_map t_size size_of); [|exact Htab].
      intros h t E. unfold size_of. rewrite E. reflexivity.
    - unfold o. cbn [observe o_short o_present]. rewrite zip3_map.
      apply forallb_forall. intros x Hx. apply in_map_iff in Hx as [h [E _]]. subst x.
      apply andb_true_iff. split.
      + destruct (lm_get h (s_q st)) as [it|] eqn:G.
        * assert (Hin : In (h, i_tx it) (qtx st)) by (apply qtx_in; apply lm_get_in; exact G).
          assert (E : t_h (i_tx it) = h).
          { symmetry. exact (owner_hash sh c st h _ K Hin). }
          rewrite E, N.eqb_refl.
          replace (mem_n h (keys (qtx st))) with true; [reflexivity|].
          symmetry. apply mem_n_in. eapply in_keys; eauto.
        * replace (mem_n h (keys (qtx st))) with false; [reflexivity|].
          symmetry. apply mem_n_false. rewrite qtx_keys. apply lm_get_none_iff. exact G.
      + destruct (lm_get (sh h) (s_sh st)) as [t'|] eqn:G; cbn [option_map]; [|reflexivity].
        apply lm_get_in in G. destruct (k_sh_sub _ _ _ K _ _ G) as [E1 E2].
        apply andb_true_iff. split.
        * apply mem_n_in. eapply in_keys; eauto.
        * apply N.eqb_eq. congruence.
  Qed.

  Lemma oracle_short : sh_covers sh st -> spec_short hashes o = true.
  Proof.
    intros A.
    unfold spec_short, short_failures.
    assert (X : filter (short_fail (o_walk o)) (combine hashes (o_short o)) = []).
    { rewrite o_walk_keys. unfold o. cbn [observe o_short].
      induction hashes as [|h tl IH]; [reflexivity|].
      cbn [map combine filter]. rewrite IH.
      replace (short_fail (keys (qtx st)) (h, option_map t_h (lm_get (sh h) (s_sh st)))) with false; [reflexivity|].
      symmetry. unfold short_fail.
      destruct (mem_n h (keys (qtx st))) eqn:M; [|reflexivity]. cbn [andb].
      apply mem_n_in in M. unfold keys in M. apply in_map_iff in M as [[h' t] [E Hin]].
      cbn [fst] in E. subst h'. pose proof (A h t Hin) as Hne.
      destruct (lm_get (sh h) (s_sh st)); [reflexivity|congruence]. }
    rewrite X. reflexivity.
  Qed.

  Lemma oracle_short_self h t :
    sh_covers sh st -> In (h, t) (qtx st) ->
    (forall h', In h' (keys (qtx st)) -> sh h' = sh h -> h' = h) ->
    lm_get (sh h) (s_sh st) = Some t.
  Proof.
    intros A Hin Hu. pose proof (A h t Hin) as Hne.
    destruct (lm_get (sh h) (s_sh st)) as [t'|] eqn:G; [|congruence].
    apply lm_get_in in G. destruct (k_sh_sub _ _ _ K _ _ G) as [E1 E2].
    assert (E : t_h t' = h) by (apply Hu; [eapply in_keys; eauto|congruence]).
    rewrite E in E2. f_equal. eapply nodup_keys_inj; [apply (k_nodup _ _ _ K)|exact E2|exact Hin].
  Qed.
End Oracle.
