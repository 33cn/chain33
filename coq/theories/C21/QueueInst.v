(** C21 — instances of the QueueCache contract.
    - SimpleQueue satisfies it and is arrival-ordered, and Model.v's pool is the
      generic pool over it ([of_state_run]); so the invariant of Model.v's pool
      also follows from the generic theorem (C21_consistent_via_contract).
    - /repo's common/skiplist.Queue (C24.Model), wrapped as a QueueCache, does NOT
      satisfy it under any representation invariant: a successful Push can remove
      another item. *)
From Coq Require Import List ZArith NArith Bool Lia Permutation.
From C33 Require Import C21.Model C21.Spec C21.ProofsLm C21.ProofsInv C21.ProofsMain.
From C33 Require Import C21.QueueModel C21.QueueProofs C21.SkipQModel.
Import ListNotations.
Open Scope Z_scope.

Definition simple_ok (c : config) (qb : lm item * Z) : Prop :=
  NoDup (keys (fst qb)) /\ hkeyed (fst qb)
  /\ snd qb = sum_z (map isz (map snd (fst qb)))
  /\ lm_size (fst qb) <= Z.max 0 (c_qcap c).

Lemma keyed_of_id q : hkeyed q -> keyed_of (map snd q) = q.
Proof.
  unfold hkeyed, keyed_of. induction 1 as [|[k it] q Hk _ IH]; cbn; [reflexivity|].
  cbn in Hk. rewrite IH, Hk. reflexivity.
Qed.

Lemma keyed_hashes q : hkeyed q -> map ihash (map snd q) = keys q.
Proof.
  unfold hkeyed. induction 1 as [|[k it] q Hk _ IH]; cbn; [reflexivity|]. cbn in Hk. rewrite IH, Hk. reflexivity.
Qed.

Lemma keyed_get_find q h : hkeyed q -> lm_get h q = find (hashb h) (map snd q).
Proof.
  unfold hkeyed. induction 1 as [|[k it] q Hk _ IH]; cbn; [reflexivity|]. cbn in Hk. subst k.
  unfold hashb at 1. rewrite (N.eqb_sym h). destruct (N.eqb (ihash it) h); [reflexivity|exact IH].
Qed.

Lemma simple_contract c : contract c (simple_ops c) (simple_ok c).
Proof.
  constructor.
  - split; [|reflexivity]. unfold simple_ok. cbn [simple_ops qo_new fst snd].
    split; [constructor|]. split; [constructor|]. split; [reflexivity|]. unfold lm_size. cbn [length]. lia.
  - intros [q b] (ND & HK & _ & _). cbn. rewrite (keyed_hashes q HK). exact ND.
  - intros [q b] h (_ & HK & _ & _). cbn. apply keyed_get_find. exact HK.
  - intros [q b] _. cbn. unfold lm_size. now rewrite map_length.
  - intros [q b] (_ & _ & Eb & _). cbn in *. exact Eb.
  - intros [q b] (_ & _ & _ & Hc). cbn in *. exact Hc.
  - intros [q b] it _. cbn [simple_ops qo_push fst snd].
    destruct (q_push_cases c it q b) as [(e & He & _ & E)|(_ & _ & E)]; rewrite E; cbn [fst snd]; [reflexivity|].
    intros H. exfalso. apply H. reflexivity.
  - intros [q b] it (ND & HK & Eb & Hc). cbn [simple_ops qo_push qo_walk fst snd] in *.
    destruct (q_push_cases c it q b) as [(e & He & _ & E)|(Ex & Hsz & E)]; rewrite E; cbn [fst snd].
    + intros H. contradiction.
    + intros _. split; [|split].
      * unfold simple_ok. cbn [fst snd]. split; [rewrite keys_app; apply nodup_snoc; assumption|].
        split; [unfold hkeyed in *; apply Forall_app; split; [exact HK|constructor; [reflexivity|constructor]]|].
        split.
        -- rewrite !map_app. cbn [map snd]. rewrite sum_z_snoc, Eb. reflexivity.
        -- unfold lm_size in *. rewrite app_length. cbn [length]. lia.
      * rewrite (keyed_hashes q HK). exact Ex.
      * rewrite map_app. cbn [map snd]. eapply perm_trans; [apply Permutation_app_comm|]. apply Permutation_refl.
  - intros [q b] h (ND & HK & Eb & Hc). cbn [simple_ops qo_remove qo_walk fst snd] in *.
    unfold q_remove. destruct (lm_get h q) as [it|] eqn:G; cbn [fst snd].
    + rewrite (lm_remove_filter _ _ ND). split.
      * unfold simple_ok. cbn [fst snd]. split; [apply keys_filter_nodup; exact ND|].
        split; [apply forall_filter, HK|].
        split.
        -- rewrite (keyed_filter_snd h q HK), Eb. rewrite (keyed_get_find q h HK) in G.
           apply find_some in G as [Hi Hh]. apply N.eqb_eq in Hh. subst h.
           symmetry. apply (sum_remove_key ihash isz it); [rewrite (keyed_hashes q HK); exact ND|exact Hi].
        -- unfold lm_size in *. pose proof (filter_length_le (neqk h) q). lia.
      * rewrite (keyed_filter_snd h q HK). apply Permutation_refl.
    + split; [unfold simple_ok; cbn [fst snd]; auto|].
      assert (Hn : ~ In h (keys q)) by (apply lm_get_none_iff; exact G).
      rewrite <- (keyed_filter_snd h q HK), (filter_neqk_notin _ _ Hn). apply Permutation_refl.
Qed.

Lemma simple_arrival c : arrival_ordered (simple_ops c) (simple_ok c).
Proof.
  split.
  - intros [q b] it (ND & HK & _ & _). cbn [simple_ops qo_push qo_walk fst snd].
    destruct (q_push_cases c it q b) as [(e & He & _ & E)|(_ & _ & E)]; rewrite E; cbn [fst snd].
    + intros H. contradiction.
    + intros _. apply map_app.
  - intros [q b] h (ND & HK & _ & _). cbn [simple_ops qo_remove qo_walk fst snd].
    unfold q_remove. destruct (lm_get h q) as [it|] eqn:G; cbn [fst].
    + rewrite (lm_remove_filter _ _ ND). apply keyed_filter_snd. exact HK.
    + assert (Hn : ~ In h (keys q)) by (apply lm_get_none_iff; exact G).
      rewrite <- (keyed_filter_snd h q HK), (filter_neqk_notin _ _ Hn). reflexivity.
Qed.

Definition of_state (st : state) : @gstate (lm item * Z) :=
  mkGs (s_q st, s_bytes st) (s_acc st) (s_last st) (s_sh st) (s_fee st) (s_hdr st).

Lemma of_state_push c sh now t st :
  gcache_push (simple_ops c) sh c now t (of_state st)
  = (of_state (fst (cache_push sh c now t st)), snd (cache_push sh c now t st)).
Proof.
  unfold gcache_push, cache_push. cbn [of_state g_acc g_q simple_ops qo_push fst snd].
  destruct (acc_can_push c t (s_acc st)); cbn [negb]; [|reflexivity].
  destruct (q_push_cases c (mkItem t now) (s_q st) (s_bytes st)) as [(e & He & _ & E)|(_ & _ & E)];
    rewrite E; cbn [fst snd].
  - apply N.eqb_neq in He. rewrite He. cbn [negb fst snd]. destruct st; reflexivity.
  - cbn [N.eqb E_OK negb i_tx]. destruct (acc_push c t (t_h t) (s_acc st)) as [e2 acc'].
    destruct (negb (N.eqb e2 E_OK)); reflexivity.
Qed.

Lemma of_state_remove c sh h st :
  gcache_remove (simple_ops c) sh h (of_state st) = of_state (cache_remove sh h st).
Proof.
  unfold gcache_remove, cache_remove. cbn [of_state g_acc g_q g_last g_sh g_fee g_hdr simple_ops qo_get qo_remove fst snd].
  destruct (lm_get h (s_q st)) as [it|] eqn:G; [|reflexivity].
  unfold q_remove. rewrite G. reflexivity.
Qed.

Lemma of_state_remove_txs c sh hs st :
  gremove_txs (simple_ops c) sh hs (of_state st) = of_state (remove_txs sh hs st).
Proof. apply fold_left_commute. intros s h. apply of_state_remove. Qed.

Lemma map_filter_snd {A B} (f : B -> bool) (g : B -> N) (l : list (A * B)) :
  map g (filter f (map snd l)) = map (fun p => g (snd p)) (filter (fun p => f (snd p)) l).
Proof. induction l as [|[a b] l IH]; cbn; [reflexivity|]. destruct (f b); cbn; rewrite IH; reflexivity. Qed.

Lemma of_state_expired c sh now st :
  gremove_expired (simple_ops c) sh c now (of_state st) = of_state (remove_expired sh c now st).
Proof.
  unfold gremove_expired, remove_expired, remove_expired_tx, gexpired_hashes, expired_hashes.
  cbn [of_state g_q simple_ops qo_walk fst]. rewrite map_filter_snd. apply of_state_remove_txs.
Qed.

Lemma of_state_del c sh now ts st :
  gdel_block (simple_ops c) sh c now ts (of_state st) = of_state (del_block sh c now ts st).
Proof.
  apply fold_left_commute. intros s t.
  change (check_expire_valid now (ghdr_state (of_state s)) t) with (check_expire_valid now s t).
  destruct (check_expire_valid now s t); [|reflexivity]. rewrite of_state_push. reflexivity.
Qed.

Lemma of_state_step c sh st e :
  fst (gstep (simple_ops c) sh c (of_state st) e) = of_state (fst (step sh c st e)).
Proof.
  destruct e as [now t|hs|now|now h b hs|now h b ts]; cbn [gstep step].
  - rewrite of_state_push. reflexivity.
  - cbn [fst]. apply of_state_remove_txs.
  - cbn [fst]. apply of_state_expired.
  - change (mem_height (ghdr_state (of_state st))) with (mem_height st).
    set (b1 := (mem_height st <? h) || ((h =? 0) && (mem_height st =? 0))).
    assert (E : (if b1 then gset_hdr h b (of_state st) else of_state st)
                = of_state (if b1 then set_hdr h b st else st)) by (destruct b1; reflexivity).
    rewrite E. set (st1 := if b1 then set_hdr h b st else st).
    cbn [of_state g_q simple_ops qo_size fst].
    destruct (0 <? lm_size (s_q st1)); cbn [fst]; [|reflexivity].
    rewrite of_state_remove_txs. apply of_state_expired.
  - cbn [fst]. change (gset_hdr h b (of_state st)) with (of_state (set_hdr h b st)). apply of_state_del.
Qed.

Lemma of_state_run c sh es : forall st,
  grun (simple_ops c) sh c (of_state st) es = of_state (run sh c st es).
Proof. apply fold_left_commute. intros s e. apply of_state_step. Qed.

Lemma gas_state_of_state c st :
  hkeyed (s_q st) ->
  gas_state (simple_ops c) (of_state st) (keyed_of (qo_walk (simple_ops c) (g_q (of_state st)))) = st.
Proof.
  intros HK. unfold gas_state, of_state. cbn [g_q g_acc g_last g_sh g_fee g_hdr simple_ops qo_walk qo_bytes fst snd].
  rewrite (keyed_of_id _ HK). destruct st; reflexivity.
Qed.

Definition sconv (txof : N -> tx) (it : Q.item) : item := mkItem (txof (Q.ihash it)) (enter_of it).

Definition skip_ops (sc : tx -> Z -> Z) (txof : N -> tx) (cap : Z) : qops Q.queue :=
  mkQops Q.queue (Q.newq cap)
    (fun it q => match Q.q_push (mk_item sc (i_tx it) (i_enter it)) q with (q', e) => (q', qerr e) end)
    (fun h q => fst (Q.q_remove h q))
    (fun h q => option_map (sconv txof) (Q.q_get h q))
    Q.q_size Q.q_bytes
    (fun q => map (sconv txof) (Q.q_walk 0 q)).

(** the witness that no representation invariant makes it satisfy the contract
    (C21_skiplist_queue_breaks_contract): with capacity 1, Push A then Push B
    (B scores higher) both succeed and A is gone *)
Definition kA : tx := mkTx 1 0 1000 98 [0].
Definition kB : tx := mkTx 2 1 9000 98 [0].
Definition ktab (h : N) : tx := if N.eqb h 1 then kA else if N.eqb h 2 then kB else mkTx h 2 0 100 [0].
Definition kprice (t : tx) (enter : Z) : Z := Z.quot (t_fee t) (t_size t).
