(** C21 — property theorems only.
    [consistent] (C21.ProofsInv) is the bookkeeping invariant: no duplicate
    hash, size <= capacity, per-sender index = the pool's transactions of the
    sender in arrival order and <= limit, latest list = a suffix of the arrival
    order of bounded length, byte and fee totals = sums over the contents,
    short-hash index = a sub-view of the contents that is never stale (unique
    keys, every entry names a pooled transaction with that short hash).
    [sh_agrees]: every pooled transaction is found under its short hash.
    [sh_owner st h t]: [t] is pooled under hash [h] and is what the lookup of its
    short hash returns.  [sh_covers]: the short-hash lookup of every pooled
    transaction is non-empty. *)
From Coq Require Import List ZArith NArith Bool.
From C33 Require Import C21.Model C21.Spec C21.ProofsLm C21.ProofsInv C21.ProofsMain C21.ProofsSpec.
From C33 Require Import C21.QueueModel C21.QueueProofs C21.QueueInst.
From C33 Require Import C21.SkipQModel C21.SkipQProofsQ C21.SkipQProofs C21.SkipQProofs2.
From C33 Require Import C21.DelayModel C21.DelaySpec C21.DelayProofsMaps C21.DelayProofs.
From Coq Require Import Permutation Sorted Lia.
Import ListNotations.
Open Scope Z_scope.

Theorem C21_init_consistent : forall sh c, 1 <= c_peracc c -> consistent sh c init.
Proof. exact init_consistent. Qed.
Print Assumptions C21_init_consistent.

Theorem C21_event_preserves : forall sh c st e,
  1 <= c_peracc c -> consistent sh c st -> consistent sh c (fst (step sh c st e)).
Proof. exact step_consistent. Qed.
Print Assumptions C21_event_preserves.

Theorem C21_consistent_all_histories : forall sh c es,
  1 <= c_peracc c ->
  consistent sh c (run sh c init es) /\ Forall (consistent sh c) (run_states sh c init es).
Proof.
  intros sh c es Hp. apply run_consistent; [exact Hp|apply init_consistent; exact Hp].
Qed.
Print Assumptions C21_consistent_all_histories.

Theorem C21_block_txs_gone : forall sh c st now height bt hs h,
  consistent sh c st -> In h hs ->
  ~ In h (keys (s_q (fst (step sh c st (EAddBlock now height bt hs))))).
Proof. exact block_txs_gone. Qed.
Print Assumptions C21_block_txs_gone.

(** SHashTxCache.Remove deletes an entry only for the transaction that owns it
    (chain33 a576c70): over any event, the transaction found under a short hash
    keeps its entry as long as it stays pooled, whatever collides with it *)
Theorem C21_shash_owner_kept : forall sh c st e h t,
  1 <= c_peracc c -> consistent sh c st -> sh_owner sh st h t ->
  In h (keys (s_q (fst (step sh c st e)))) -> sh_owner sh (fst (step sh c st e)) h t.
Proof. exact step_owner. Qed.
Print Assumptions C21_shash_owner_kept.

(** a transaction accepted while no pooled transaction has its short hash gets the entry *)
Theorem C21_shash_fresh_indexed : forall sh c st now t,
  1 <= c_peracc c -> c_qcap c <= c_shmax c -> consistent sh c st ->
  snd (step sh c st (EPush now t)) = E_OK ->
  mem_n (sh (t_h t)) (map sh (keys (s_q st))) = false ->
  sh_owner sh (fst (step sh c st (EPush now t))) (t_h t) t.
Proof. intros sh c st now t. cbn [step]. apply cache_push_fresh_owner. Qed.
Print Assumptions C21_shash_fresh_indexed.

(** all histories: a transaction accepted while no pooled transaction had its
    short hash is found under its short hash after every later event up to its
    removal (boolean guards: no collision at the moment of its push; pooled
    after every later event), whatever collisions happen afterwards *)
Theorem C21_shash_first_come_found : forall sh c es1 now t es2,
  1 <= c_peracc c -> c_qcap c <= c_shmax c ->
  let s0 := run sh c init es1 in
  let s1 := fst (step sh c s0 (EPush now t)) in
  snd (step sh c s0 (EPush now t)) = E_OK ->
  mem_n (sh (t_h t)) (map sh (keys (s_q s0))) = false ->
  forallb (fun s => mem_n (t_h t) (keys (s_q s))) (run_states sh c s1 es2) = true ->
  sh_owner sh (run sh c s1 es2) (t_h t) t.
Proof.
  intros sh c es1 now t es2 Hp Hsm s0 s1 Ok Hf G.
  assert (K0 : consistent sh c s0) by (apply run_consistent; [exact Hp|apply init_consistent; exact Hp]).
  assert (K1 : consistent sh c s1) by (apply step_consistent; assumption).
  apply (run_owner sh c); [exact Hp|exact K1| |exact G].
  apply cache_push_fresh_owner; assumption.
Qed.
Print Assumptions C21_shash_first_come_found.

(** non-vacuity along a colliding history: push A, push B (same short hash),
    remove B (where SHashTxCache.Remove lost A's entry before chain33 a576c70) —
    the pool is not injective along the way, A is found at the end *)
Example C21_owner_kept_under_collision :
  let s1 := fst (step wsh wcfg init (EPush 0 wA)) in
  snd (step wsh wcfg init (EPush 0 wA)) = E_OK
  /\ mem_n (wsh 1%N) (map wsh (keys (s_q init))) = false
  /\ forallb (fun s => mem_n 1%N (keys (s_q s))) (run_states wsh wcfg s1 wevents_old) = true
  /\ map (fun s => map fst (s_q s)) (run_states wsh wcfg s1 wevents_old) = [[1; 2]; [1]]%N
  /\ forallb (sh_inj_pool wsh) (run_states wsh wcfg s1 wevents_old) = false
  /\ lm_get (wsh 1%N) (s_sh (run wsh wcfg s1 wevents_old)) = Some wA.
Proof. vm_compute. repeat split; reflexivity. Qed.
Print Assumptions C21_owner_kept_under_collision.

(** the short-hash clause at full strength (guarded only by injectivity on the
    final pool) is still false: a transaction pushed while another pooled one
    has its short hash is never indexed, also not when that one leaves (push A,
    push B, remove A: B is pooled alone and its lookup is empty) ... *)
Definition C21_shash_full : Prop := shash_full_claim.

Theorem C21_refuted_shash : ~ C21_shash_full.
Proof.
  intros H.
  assert (P1 : 1 <= c_peracc wcfg) by (cbn; lia).
  assert (P2 : c_qcap wcfg <= c_shmax wcfg) by (cbn; lia).
  specialize (H wsh wcfg wevents P1 P2 eq_refl 2%N wB).
  assert (X : In (2%N, wB) (qtx (run wsh wcfg init wevents))) by (vm_compute; left; reflexivity).
  apply H in X. vm_compute in X. discriminate.
Qed.
Print Assumptions C21_refuted_shash.

(** ... and holds for every history along which the short hash stays injective
    on the pooled hashes (boolean guard [sh_inj_pool] on every state) *)
Theorem C21_shash_partial : forall sh c es,
  1 <= c_peracc c -> c_qcap c <= c_shmax c ->
  forallb (sh_inj_pool sh) (run_states sh c init es) = true ->
  Forall (fun s => consistent sh c s /\ sh_agrees sh s) (run_states sh c init es).
Proof.
  intros sh c es Hp Hs G. apply run_states_agrees; auto.
  - apply init_consistent; exact Hp.
  - intros h t [].
Qed.
Print Assumptions C21_shash_partial.

(** the executable oracle (C21.Spec) that judges the Go implementation's
    observations accepts the observation of every model state satisfying the
    invariant: the oracle is not stronger than what is proved *)
Theorem C21_oracle_accepts_invariant : forall sh c txs senders hashes err st,
  consistent sh c st -> 0 <= c_qcap c -> table_ok txs (qtx st) ->
  (forall h t, In (h, t) (qtx st) -> In (t_from t) senders) ->
  spec_base sh c txs senders hashes (observe sh senders hashes err st) = true.
Proof. exact oracle_base. Qed.
Print Assumptions C21_oracle_accepts_invariant.

Theorem C21_oracle_accepts_short : forall sh c hashes senders err st,
  consistent sh c st -> sh_covers sh st ->
  spec_short hashes (observe sh senders hashes err st) = true.
Proof. intros sh c hashes senders err st K A. exact (oracle_short sh c senders hashes err st K A). Qed.
Print Assumptions C21_oracle_accepts_short.

(** what the two short-hash clauses of the oracle amount to: a pooled
    transaction with which no other pooled one shares the short hash is found *)
Theorem C21_oracle_short_meaning : forall sh c st h t,
  consistent sh c st -> sh_covers sh st -> In (h, t) (qtx st) ->
  (forall h', In h' (keys (qtx st)) -> sh h' = sh h -> h' = h) ->
  lm_get (sh h) (s_sh st) = Some t.
Proof. intros sh c st h t K A. exact (oracle_short_self sh c st K h t A). Qed.
Print Assumptions C21_oracle_short_meaning.

Theorem C21_oracle_accepts_block : forall sh c st now height bt hs senders hashes err,
  consistent sh c st -> 1 <= c_peracc c ->
  spec_block (EAddBlock now height bt hs)
    (observe sh senders hashes err (fst (step sh c st (EAddBlock now height bt hs)))) = true.
Proof.
  intros sh c st now height bt hs senders hashes err K Hp. apply forallb_forall. intros h Hin.
  apply negb_true_iff. apply mem_n_false.
  assert (K' : consistent sh c (fst (step sh c st (EAddBlock now height bt hs)))) by (apply step_consistent; assumption).
  cbn [observe o_walk]. rewrite (walk_keys sh c _ K'), qtx_keys.
  apply (block_txs_gone sh c); assumption.
Qed.
Print Assumptions C21_oracle_accepts_block.

Example C21_guard_satisfiable :
  forallb (sh_inj_pool xid) (run_states xid xcfg init xevents) = true
  /\ map (fun s => map fst (s_q s)) (run_states xid xcfg init xevents)
     = [[1]; [1; 2]; [1; 2]; [1; 2; 3]; [2; 3]; [2; 3; 4]; [4]; [4; 3; 1]; [4; 3; 1]]%N.
Proof. vm_compute. split; reflexivity. Qed.
Print Assumptions C21_guard_satisfiable.

(** a negative per-account limit (0 is replaced by the default in NewMempool)
    breaks the bookkeeping on the first push: the hypothesis [1 <= c_peracc] of
    the theorems is needed *)
Example C21_peracc_hypothesis_needed :
  let st := fst (cache_push xid (mkCfg 3 (-1) 2 3 100) 10 x1 init) in
  map fst (s_q st) = [1%N] /\ s_acc st = [(0%N, [])] /\ s_fee st = 0.
Proof. vm_compute. repeat split; reflexivity. Qed.
Print Assumptions C21_peracc_hypothesis_needed.

(** * Any QueueCache (QueueModel.v / QueueProofs.v)

    txCache over an arbitrary queue given as a record of operations.  [contract]:
    a fresh queue is empty; the Walk has no hash twice; GetItem, Size,
    GetCacheBytes agree with the Walk; Size <= capacity; a Push that answers an
    error changes nothing; a successful Push adds exactly the pushed item and
    removes nothing; Remove removes exactly the named item.  The Walk order is
    free.  [gconsistent]: the invariant [consistent] holds for the pool taken in
    some arrival order [G] that is a permutation of the Walk. *)
Theorem C21_consistent_any_contract_queue :
  forall (QT : Type) (o : qops QT) (ok : QT -> Prop) sh c es,
  1 <= c_peracc c -> contract c o ok ->
  gconsistent o c sh (grun o sh c (ginit o) es)
  /\ Forall (gconsistent o c sh) (grun_states o sh c (ginit o) es).
Proof.
  intros QT o ok sh c es Hp CT.
  destruct (ginv_run o ok c sh CT es (ginit o) Hp (ginv_init o ok c sh CT Hp)) as [K1 K2]. split.
  - apply (ginv_gconsistent o ok). exact K1.
  - eapply Forall_impl; [intros s; apply (ginv_gconsistent o ok)|exact K2].
Qed.
Print Assumptions C21_consistent_any_contract_queue.

(** when Push appends and Remove keeps the order, the Walk itself is that arrival order *)
Theorem C21_contract_arrival_order :
  forall (QT : Type) (o : qops QT) (ok : QT -> Prop) sh c es,
  1 <= c_peracc c -> contract c o ok -> arrival_ordered o ok ->
  Forall (fun st => consistent sh c (gas_state o st (keyed_of (qo_walk o (g_q st)))))
         (grun o sh c (ginit o) es :: grun_states o sh c (ginit o) es).
Proof.
  intros QT o ok sh c es Hp CT AO.
  destruct (ginv_run o ok c sh CT es (ginit o) Hp (ginv_init o ok c sh CT Hp)) as [K1 K2].
  eapply Forall_impl; [intros s Hs; eapply ginv_arrival; [exact AO|exact Hs]|]. constructor; assumption.
Qed.
Print Assumptions C21_contract_arrival_order.

(** [simple_ops]: SimpleQueue of simplequeue.go, as modelled in Model.v *)
Theorem C21_simple_queue_contract :
  forall c, contract c (simple_ops c) (simple_ok c) /\ arrival_ordered (simple_ops c) (simple_ok c).
Proof. intros c. split; [apply simple_contract|apply simple_arrival]. Qed.
Print Assumptions C21_simple_queue_contract.

(** ... so the invariant of Model.v's pool (C21_consistent_all_histories, final
    state) is a corollary of the generic theorem *)
Theorem C21_consistent_via_contract : forall sh c es,
  1 <= c_peracc c -> consistent sh c (run sh c init es).
Proof.
  intros sh c es Hp.
  pose proof (C21_contract_arrival_order _ (simple_ops c) (simple_ok c) sh c es Hp
                (simple_contract c) (simple_arrival c)) as H.
  apply Forall_inv in H.
  pose proof (contract_ok_all_histories (simple_ops c) (simple_ok c) sh c es Hp (simple_contract c)) as (_ & HK & _).
  change (ginit (simple_ops c)) with (of_state init) in H, HK. rewrite of_state_run in H, HK.
  rewrite gas_state_of_state in H; [exact H|exact HK].
Qed.
Print Assumptions C21_consistent_via_contract.

(** /repo's common/skiplist.Queue (C24.Model) wrapped as a QueueCache meets the
    contract under NO representation invariant: its Push evicts (contract
    mismatch for anyone who plugs it into txCache) *)
Theorem C21_skiplist_queue_breaks_contract :
  forall c ok, ~ contract c (skip_ops kprice ktab 1) ok.
Proof.
  intros c ok CT. set (o := skip_ops kprice ktab 1) in *.
  destruct (ct_new _ _ _ CT) as [Hok0 _].
  destruct (ct_push_ok _ _ _ CT (qo_new o) (mkItem kA 0) Hok0) as (Hok1 & _ & _); [vm_compute; reflexivity|].
  destruct (ct_push_ok _ _ _ CT _ (mkItem kB 0) Hok1) as (_ & _ & HP); [vm_compute; reflexivity|].
  apply Permutation_length in HP. vm_compute in HP. discriminate.
Qed.
Print Assumptions C21_skiplist_queue_breaks_contract.

Example C21_skiplist_push_evicts :
  let o := skip_ops kprice ktab 1 in
  let q1 := fst (qo_push o (mkItem kA 0) (qo_new o)) in
  let q2 := fst (qo_push o (mkItem kB 0) q1) in
  snd (qo_push o (mkItem kA 0) (qo_new o)) = E_OK /\ snd (qo_push o (mkItem kB 0) q1) = E_OK
  /\ map ihash (qo_walk o q1) = [1%N] /\ map ihash (qo_walk o q2) = [2%N].
Proof. vm_compute. repeat split; reflexivity. Qed.
Print Assumptions C21_skiplist_push_evicts.

(** * txCache over common/skiplist.Queue, precisely (SkipQModel.v): any score
    function [sc], transactions named by hash through [txof] ([hash_table_ok]:
    the transaction a hash names has that hash).  [pconsistent]: [consistent]
    for some arrival order that is a permutation of the Walk. *)

(** the unguarded claim is false ... *)
Definition C21_skipqueue_full : Prop := price_full_claim.

Theorem C21_skipqueue_refuted : ~ C21_skipqueue_full.
Proof. exact price_full_refuted. Qed.
Print Assumptions C21_skipqueue_refuted.

(** ... it holds for every history in which no Push evicts (boolean guard on
    the model's record of evictions) ... *)
Theorem C21_skipqueue_partial : forall sc sh txof c es,
  1 <= c_peracc c -> hash_table_ok txof ->
  forallb no_evict (pevictions sc sh txof c (pinit c) es) = true ->
  pconsistent txof sh c (prun sc sh txof c (pinit c) es)
  /\ Forall (pconsistent txof sh c) (prun_states sc sh txof c (pinit c) es).
Proof.
  intros sc sh txof c es Hp Ht Hev. destruct (pinv_all sc txof sh c es Hp Ht Hev) as [H1 H2]. split.
  - apply (pinv_pconsistent sc). exact H1.
  - eapply Forall_impl; [intros s; apply (pinv_pconsistent sc)|exact H2].
Qed.
Print Assumptions C21_skipqueue_partial.

(** ... and the guard is tight: the first eviction of any history breaks it *)
Theorem C21_skipqueue_first_eviction_breaks : forall sc sh txof c es now h,
  1 <= c_peracc c -> hash_table_ok txof ->
  forallb no_evict (pevictions sc sh txof c (pinit c) es) = true ->
  pev (pstep sc sh txof c (prun sc sh txof c (pinit c) es) (PPush now h)) <> [] ->
  ~ pconsistent txof sh c (pst (pstep sc sh txof c (prun sc sh txof c (pinit c) es) (PPush now h))).
Proof.
  intros sc sh txof c es now h Hp Ht Hev. apply evict_breaks; auto. apply pinv_all; auto.
Qed.
Print Assumptions C21_skipqueue_first_eviction_breaks.

(** the queue side holds for every history, evictions or not: no duplicate,
    Size = length of the Walk <= capacity, Walk sorted by score (descending),
    scores and byte total as the transactions say, Exist = membership *)
Theorem C21_skipqueue_queue_side : forall sc sh txof c es,
  hash_table_ok txof ->
  pqueue_ok sc txof c (prun sc sh txof c (pinit c) es)
  /\ Forall (pqueue_ok sc txof c) (prun_states sc sh txof c (pinit c) es).
Proof.
  intros sc sh txof c es Ht. destruct (qlink_all sc sh txof c es Ht) as [(l & H) H2]. split.
  - eapply qlink_queue_ok; exact H.
  - eapply Forall_impl; [|exact H2]. intros s (l' & H'). eapply qlink_queue_ok; exact H'.
Qed.
Print Assumptions C21_skipqueue_queue_side.

Theorem C21_skipqueue_block_txs_gone : forall sc sh txof c es now height bt hs h,
  hash_table_ok txof -> In h hs ->
  ~ In h (map Q.ihash (pwalk (pst (pstep sc sh txof c (prun sc sh txof c (pinit c) es)
                                          (PAddBlock now height bt hs))))).
Proof. exact price_block_gone. Qed.
Print Assumptions C21_skipqueue_block_txs_gone.

(** a history through a full queue without eviction (equal and lower prices
    are refused), in price order *)
Example C21_skipqueue_guard_satisfiable :
  forallb no_evict (pevictions ex_price pid gtab gcfg (pinit gcfg) gevents) = true
  /\ map (fun s => map Q.ihash (pwalk s)) (prun_states ex_price pid gtab gcfg (pinit gcfg) gevents)
     = [[1]; [1; 2]; [1; 2]; [1; 2]; [2]; [4; 2]; [4; 2]; [4]; [4; 3]; []]%N.
Proof. vm_compute. split; reflexivity. Qed.
Print Assumptions C21_skipqueue_guard_satisfiable.

(** the witness: capacity 1, the dearer transaction evicts the cheaper one,
    which stays in the sender index, the latest list, the short-hash index and
    the fee total; removing it explicitly changes nothing *)
Example C21_skipqueue_witness :
  let s := prun ex_price pid ptab pcfg (pinit pcfg) (pwit ++ [PRemove [1%N]]) in
  pevictions ex_price pid ptab pcfg (pinit pcfg) (pwit ++ [PRemove [1%N]]) = [[]; [1%N]; []]
  /\ map Q.ihash (pwalk s) = [2%N]
  /\ option_map (map fst) (lm_get 0%N (p_acc s)) = Some [1%N] /\ map fst (p_last s) = [1; 2]%N
  /\ option_map t_h (lm_get 1%N (p_sh s)) = Some 1%N /\ p_fee s = 10000.
Proof. vm_compute. repeat split; reflexivity. Qed.
Print Assumptions C21_skipqueue_witness.

(** * The delayed-transaction cache (DelayModel.v / DelaySpec.v)

    [drel d p]: the two maps of the cache (EndDelayTime -> transactions, hash ->
    EndDelayTime) describe exactly the flat list [p] of pending
    (hash, EndDelayTime) pairs: no hash twice, each map is the other's inverse,
    every list is the pending transactions of its key in insertion order. *)
Theorem C21_delay_refines_flat : forall sh c size hdr es,
  let s0 := (set_hdr (fst hdr) (snd hdr) init, dnew size) in
  drel (snd (drun sh c s0 es)) (sp_run sh c size s0 [] es).
Proof. intros sh c size hdr es s0. apply drun_rel; [apply drel_new|reflexivity]. Qed.
Print Assumptions C21_delay_refines_flat.

(** under that relation the observables are those of the flat specification:
    contains, the number of entries, the answer of an add *)
Theorem C21_delay_observables : forall d p,
  drel d p ->
  (forall h, dcontains h d = pget h p)
  /\ dlen d = Z.of_nat (length p)
  /\ (forall tx endt, snd (dadd tx endt d) = snd (sp_add (d_size d) tx endt p)).
Proof.
  intros d p R. split; [intros h; apply drel_contains; exact R|].
  split; [apply drel_len; exact R|]. intros tx endt. apply (drel_add d p tx endt R).
Qed.
Print Assumptions C21_delay_observables.

(** delExpiredTxs hands out exactly the due entries, each once *)
Theorem C21_delay_release_exact : forall d p last curr height,
  drel d p ->
  NoDup (snd (drelease last curr height d))
  /\ (forall h, In h (snd (drelease last curr height d))
                <-> exists e, pget h p = Some e /\ due last curr height e = true)
  /\ drel (fst (drelease last curr height d)) (fst (sp_release last curr height p)).
Proof.
  intros d p last curr height R. split; [apply (release_nodup d p last curr height R)|].
  split; [apply (release_in d p last curr height R)|apply (drel_release d p last curr height R)].
Qed.
Print Assumptions C21_delay_release_exact.

(** order of the released list: the keys inside the time window ascending (each
    key's transactions in insertion order), then the height key if it lies
    outside the window *)
Theorem C21_delay_release_order : forall d p last curr height,
  drel d p ->
  exists a b, snd (drelease last curr height d) = a ++ b
    /\ (exists ks, StronglySorted Z.le ks /\ Forall (fun k => in_window last curr k = true) ks
                   /\ a = concat (map (fun k => group k p) ks))
    /\ (b = [] \/ (in_window last curr height = false /\ b = group height p)).
Proof. intros d p last curr height R. exact (release_order d p last curr height R). Qed.
Print Assumptions C21_delay_release_order.

(** nothing but a release removes an entry, and a release leaves what is not
    due: an entry whose EndDelayTime is not after the last block time and is not
    the height of the block stays (with block times and heights only growing it
    stays for ever and keeps its slot of the bounded cache) *)
Theorem C21_delay_not_due_stays : forall p h e,
  NoDup (hkeys p) -> pget h p = Some e ->
  (forall size tx endt, pget h (fst (sp_add size tx endt p)) = Some e)
  /\ (forall last curr height, e <= last -> e <> height ->
        pget h (fst (sp_release last curr height p)) = Some e).
Proof.
  intros p h e ND G. split.
  - intros size tx endt. apply sp_add_keeps. exact G.
  - intros last curr height H1 H2. apply not_due_stays; [exact ND|exact G|]. apply past_not_due; assumption.
Qed.
Print Assumptions C21_delay_not_due_stays.

Example C21_delay_example :
  snd (dadd (Some 4%N) 9 ex_d) = D_OVERFLOW /\ snd (dadd (Some 1%N) 9 (dnew 3)) = D_OK
  /\ snd (dadd (Some 1%N) 9 ex_d) = D_OVERFLOW
  /\ snd (drelease 100 110 7 ex_d) = [1; 2; 3]%N
  /\ d_hash (fst (drelease 100 110 7 ex_d)) = []
  /\ snd (drelease 100 104 6 ex_d) = [] /\ dlen (fst (drelease 100 104 6 ex_d)) = 3
  /\ snd (drelease 100 110 105 ex_d) = [1; 2]%N.
Proof. vm_compute. repeat split; reflexivity. Qed.
Print Assumptions C21_delay_example.
