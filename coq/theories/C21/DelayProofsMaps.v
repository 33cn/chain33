(** C21 — the two maps of the delayed-transaction cache against the flat
    specification: the simulation relation and its preservation by add. *)
From Coq Require Import List ZArith NArith Bool Lia Permutation Sorted.
From C33 Require Import C21.Model C21.Spec C21.ProofsLm C21.DelayModel C21.DelaySpec.
Import ListNotations.
Open Scope Z_scope.

Definition zkeys {V} (m : list (Z * V)) : list Z := map fst m.
Definition hkeys (m : list (N * Z)) : list N := map fst m.

Lemma zget_in_keys {V} k (m : list (Z * V)) v : zget k m = Some v -> In k (zkeys m).
Proof.
  induction m as [|[k' v'] m IH]; cbn; [discriminate|].
  destruct (Z.eqb_spec k k'); [left; congruence|right; auto].
Qed.

Lemma zget_none {V} k (m : list (Z * V)) : zget k m = None <-> ~ In k (zkeys m).
Proof.
  induction m as [|[k' v'] m IH]; cbn; [tauto|].
  destruct (Z.eqb_spec k k') as [E|E]; split; intros H.
  - discriminate.
  - exfalso. apply H. left. congruence.
  - intros [E2|E2]; [congruence|]. apply IH in H. contradiction.
  - apply IH. intro. apply H. right. assumption.
Qed.

Lemma zget_zappend k e h m :
  zget k (zappend e h m) =
    if k =? e then Some ((match zget e m with Some l => l | None => [] end) ++ [h]) else zget k m.
Proof.
  induction m as [|[k' l] m IH]; cbn.
  - destruct (k =? e); reflexivity.
  - destruct (Z.eqb_spec e k') as [E|E]; cbn.
    + subst k'. destruct (Z.eqb_spec k e); [reflexivity|reflexivity].
    + rewrite IH. destruct (Z.eqb_spec k e) as [E2|E2].
      * subst k. destruct (Z.eqb_spec e k'); [contradiction|reflexivity].
      * reflexivity.
Qed.

Lemma zkeys_zappend_in e h m x : In x (zkeys (zappend e h m)) -> x = e \/ In x (zkeys m).
Proof.
  induction m as [|[k' l] m IH]; cbn.
  - intros [E|[]]. left. congruence.
  - destruct (e =? k'); cbn; intros [E|E]; auto. apply IH in E. tauto.
Qed.

Lemma zkeys_zappend_nodup e h m : NoDup (zkeys m) -> NoDup (zkeys (zappend e h m)).
Proof.
  induction m as [|[k' l] m IH]; cbn; intros ND.
  - constructor; [intros []|constructor].
  - inversion ND as [|? ? Hn ND']; subst. destruct (Z.eqb_spec e k') as [E|E]; cbn.
    + constructor; assumption.
    + constructor; [|apply IH; exact ND']. intros Hx. apply zkeys_zappend_in in Hx as [Hx|Hx]; [congruence|contradiction].
Qed.

Lemma zkeys_zdel_in {V} k (m : list (Z * V)) x : In x (zkeys (zdel k m)) -> In x (zkeys m).
Proof.
  induction m as [|[k' v] m IH]; cbn; [tauto|].
  destruct (k =? k'); cbn; [tauto|]. intros [E|E]; auto.
Qed.

Lemma zkeys_zdel_nodup {V} k (m : list (Z * V)) : NoDup (zkeys m) -> NoDup (zkeys (zdel k m)).
Proof.
  induction m as [|[k' v] m IH]; cbn; intros ND; [constructor|].
  inversion ND as [|? ? Hn ND']; subst. destruct (k =? k'); cbn; [exact ND'|].
  constructor; [|apply IH; exact ND']. intros Hx. apply zkeys_zdel_in in Hx. contradiction.
Qed.

Lemma zget_zdel {V} k k' (m : list (Z * V)) :
  NoDup (zkeys m) -> zget k (zdel k' m) = if k =? k' then None else zget k m.
Proof.
  induction m as [|[k2 v] m IH]; cbn; intros ND.
  - destruct (k =? k'); reflexivity.
  - inversion ND as [|? ? Hn ND']; subst.
    destruct (Z.eqb_spec k' k2) as [E|E]; cbn.
    + subst k2. destruct (Z.eqb_spec k k') as [E2|E2]; [|reflexivity].
      subst k. apply zget_none. exact Hn.
    + rewrite (IH ND'). destruct (Z.eqb_spec k k2) as [E2|E2].
      * subst k2. destruct (Z.eqb_spec k k'); [congruence|reflexivity].
      * reflexivity.
Qed.

Definition zmem (k : Z) (l : list Z) : bool := existsb (Z.eqb k) l.

Lemma zmem_in k l : zmem k l = true <-> In k l.
Proof.
  unfold zmem. rewrite existsb_exists. split.
  - intros (x & Hx & E). apply Z.eqb_eq in E. now subst.
  - intros H. exists k. split; [exact H|apply Z.eqb_refl].
Qed.

Lemma zget_fold_zdel {V} k ks : forall (m : list (Z * V)),
  NoDup (zkeys m) ->
  zget k (fold_left (fun m k => zdel k m) ks m) = if zmem k ks then None else zget k m.
Proof.
  induction ks as [|k' ks IH]; intros m ND; cbn [fold_left zmem existsb]; [reflexivity|].
  rewrite IH by (apply zkeys_zdel_nodup; exact ND). rewrite (zget_zdel k k' m ND).
  fold (zmem k ks). destruct (k =? k'), (zmem k ks); reflexivity.
Qed.

Lemma zkeys_fold_zdel_nodup {V} ks (m : list (Z * V)) :
  NoDup (zkeys m) -> NoDup (zkeys (fold_left (fun m k => zdel k m) ks m)).
Proof. apply (fold_left_preserves (fun m => NoDup (zkeys m))). intros m' k. apply zkeys_zdel_nodup. Qed.

Lemma hget_lm h m : hget h m = lm_get h m.
Proof. induction m as [|[h' v] m IH]; cbn; [reflexivity|]. rewrite IH. reflexivity. Qed.

Lemma hget_none h m : hget h m = None <-> ~ In h (hkeys m).
Proof. rewrite hget_lm. apply lm_get_none_iff. Qed.

Lemma hget_in h m e : hget h m = Some e -> In (h, e) m.
Proof. rewrite hget_lm. apply lm_get_in. Qed.

Lemma hget_of_in h m e : NoDup (hkeys m) -> In (h, e) m -> hget h m = Some e.
Proof. rewrite hget_lm. apply lm_in_get. Qed.

Lemma hget_app h a b : hget h (a ++ b) = match hget h a with Some e => Some e | None => hget h b end.
Proof. rewrite !hget_lm. apply lm_get_app. Qed.

Lemma hget_hdel h h' m : hget h (hdel h' m) = if N.eqb h h' then None else hget h m.
Proof.
  rewrite !hget_lm. change (hdel h' m) with (filter (neqk h') m).
  destruct (N.eqb_spec h h') as [->|E]; [apply lm_get_filter_neqk_same|apply lm_get_filter_neqk_other, E].
Qed.

Lemma hget_fold_hdel h hs : forall m,
  hget h (fold_left (fun hm x => hdel x hm) hs m) = if mem_n h hs then None else hget h m.
Proof.
  induction hs as [|x hs IH]; intros m; cbn [fold_left mem_n existsb]; [reflexivity|].
  rewrite IH, hget_hdel. fold (mem_n h hs). destruct (N.eqb h x), (mem_n h hs); reflexivity.
Qed.

Lemma hkeys_fold_hdel_nodup hs m :
  NoDup (hkeys m) -> NoDup (hkeys (fold_left (fun hm x => hdel x hm) hs m)).
Proof. apply (fold_left_preserves (fun m => NoDup (hkeys m))). intros m' x. apply (nodup_map_filter fst). Qed.

Lemma same_lookup_length (a b : list (N * Z)) :
  NoDup (hkeys a) -> NoDup (hkeys b) -> (forall h, hget h a = hget h b) -> length a = length b.
Proof.
  intros Na Nb H. rewrite <- (map_length fst a), <- (map_length fst b).
  apply Permutation_length, NoDup_Permutation; [exact Na|exact Nb|]. intros x.
  change (In x (keys a) <-> In x (keys b)). rewrite <- !lm_exist_true. unfold lm_exist. rewrite <- !hget_lm, H. reflexivity.
Qed.

Definition group (k : Z) (p : pend) : list N := map fst (filter (fun x => snd x =? k) p).
Definition ogroup (k : Z) (p : pend) : option (list N) :=
  match group k p with [] => None | l => Some l end.

Lemma group_in k p h : In h (group k p) <-> In (h, k) p.
Proof.
  unfold group. rewrite in_map_iff. split.
  - intros ([h' e] & E & Hi). cbn in E. subst h'. apply filter_In in Hi as [Hi Hk].
    cbn in Hk. apply Z.eqb_eq in Hk. now subst.
  - intros Hi. exists (h, k). split; [reflexivity|]. apply filter_In. split; [exact Hi|]. cbn. apply Z.eqb_refl.
Qed.

Lemma ogroup_list k p : match ogroup k p with Some l => l | None => [] end = group k p.
Proof. unfold ogroup. destruct (group k p); reflexivity. Qed.

Lemma group_app k a b : group k (a ++ b) = group k a ++ group k b.
Proof. unfold group. now rewrite filter_app, map_app. Qed.

Lemma group_nodup k p : NoDup (hkeys p) -> NoDup (group k p).
Proof. apply (nodup_map_filter fst). Qed.

Record drel (d : dcache) (p : pend) : Prop := mkDrel {
  dr_pnodup : NoDup (hkeys p);
  dr_hnodup : NoDup (hkeys (d_hash d));
  dr_hget : forall h, hget h (d_hash d) = pget h p;
  dr_tnodup : NoDup (zkeys (d_tx d));
  dr_group : forall k, zget k (d_tx d) = ogroup k p
}.

Lemma drel_new size : drel (dnew size) [].
Proof. constructor; cbn; try constructor; reflexivity. Qed.

Lemma drel_len d p : drel d p -> dlen d = Z.of_nat (length p).
Proof.
  intros [Np Nh Hg _ _]. unfold dlen. f_equal. apply same_lookup_length; assumption.
Qed.

Lemma drel_add d p tx endt :
  drel d p ->
  drel (fst (dadd tx endt d)) (fst (sp_add (d_size d) tx endt p))
  /\ snd (dadd tx endt d) = snd (sp_add (d_size d) tx endt p)
  /\ d_size (fst (dadd tx endt d)) = d_size d.
Proof.
  intros R. pose proof (drel_len d p R) as EL. pose proof R as [Np Nh Hg Nt Gr].
  unfold dadd, sp_add. destruct tx as [h|]; [|cbn; auto].
  rewrite EL. destruct (d_size d <=? Z.of_nat (length p)); [cbn; auto|].
  rewrite Hg. destruct (pget h p) as [e|] eqn:G; [cbn; auto|]. cbn [fst snd d_size].
  split; [|auto]. unfold pget in G.
  assert (Hn : ~ In h (hkeys p)) by (apply hget_none; exact G).
  constructor; cbn [d_hash d_tx].
  - unfold hkeys. rewrite map_app. apply nodup_snoc; assumption.
  - cbn. constructor; [|exact Nh]. rewrite <- Hg in G. apply hget_none in G. exact G.
  - intros h'. cbn [hget]. unfold pget. rewrite hget_app. cbn [hget]. rewrite Hg. unfold pget.
    destruct (N.eqb_spec h' h) as [E|E].
    + subst h'. rewrite G. reflexivity.
    + destruct (hget h' p); reflexivity.
  - apply zkeys_zappend_nodup. exact Nt.
  - intros k. rewrite zget_zappend, Gr, ogroup_list. unfold ogroup. rewrite group_app.
    unfold group at 3. cbn [filter snd]. rewrite (Z.eqb_sym endt k).
    destruct (Z.eqb_spec k endt) as [E|E].
    + subst k. cbn [map fst]. destruct (group endt p ++ [h]) eqn:E2; [|reflexivity].
      apply app_eq_nil in E2 as [_ E2]. discriminate.
    + cbn [map]. rewrite app_nil_r. rewrite Gr. reflexivity.
Qed.

Lemma drel_add_block d p h b cms :
  drel d p ->
  drel (dadd_block h b cms d) (sp_add_block (d_size d) h b cms p)
  /\ d_size (dadd_block h b cms d) = d_size d.
Proof.
  unfold dadd_block, sp_add_block. revert d p.
  induction cms as [|cm tl IH]; intros d p R; cbn [fold_left]; [auto|].
  destruct (drel_add d p (Some (cm_tx cm)) (commit_end h b cm) R) as (R1 & _ & S1).
  destruct (IH _ _ R1) as (R2 & S2). rewrite S1 in R2. split; [exact R2|]. rewrite S2. exact S1.
Qed.
