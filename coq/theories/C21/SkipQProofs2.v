(** C21 — score-ordered pool: what the queue side amounts to, the block clause,
    the witness against the unguarded claim, and "every first eviction breaks
    the invariant". *)
From Coq Require Import List ZArith NArith Bool Lia Permutation Sorted.
From C33 Require Import C21.Model C21.Spec C21.ProofsLm C21.ProofsInv C21.ProofsMain.
From C33 Require Import C21.SkipQModel C21.SkipQProofsQ C21.SkipQProofs.
Import ListNotations.
Open Scope Z_scope.

Definition pqueue_ok (sc : tx -> Z -> Z) (txof : N -> tx) (c : config) (st : pstate) : Prop :=
  let w := pwalk st in
  NoDup (map Q.ihash w)
  /\ Q.q_size (p_q st) = Z.of_nat (length w)
  /\ (0 <= c_qcap c -> Z.of_nat (length w) <= c_qcap c)
  /\ StronglySorted (fun a b => Q.iscore a >= Q.iscore b) w
  /\ Forall (fun it => Q.iscore it = sc (txof (Q.ihash it)) (enter_of it)) w
  /\ Q.q_bytes (p_q st) = sum_z (map (fun it => t_size (txof (Q.ihash it))) w)
  /\ (forall h, Q.q_exist h (p_q st) = mem_n h (map Q.ihash w)).

Lemma mem_n_exist h l : mem_n h (map Q.ihash l) = QS.spec_exist h l.
Proof.
  unfold mem_n, QS.spec_exist. induction l as [|x l IH]; cbn; [reflexivity|].
  rewrite IH. unfold QS.has_hash. rewrite (N.eqb_sym h). reflexivity.
Qed.

Lemma qlink_queue_ok sc txof c st l : qlink sc txof c st l -> pqueue_ok sc txof c st.
Proof.
  intros HQ. pose proof (qlink_walk _ _ _ _ _ HQ) as Ew. destruct HQ as [HR HI].
  unfold pqueue_ok. rewrite Ew. repeat split.
  - apply (QR.R_nodup _ _ _ HR).
  - apply (QR.R_size _ _ _ HR).
  - apply (QR.R_within _ _ _ HR).
  - apply (QR.R_sorted _ _ _ HR).
  - eapply Forall_impl; [|exact HI]. intros it [_ E]. exact E.
  - unfold Q.q_bytes. rewrite (QR.R_bytes _ _ _ HR). clear HR Ew.
    induction HI as [|x l [Es _] _ IH]; cbn; [reflexivity|]. rewrite Es, IH. reflexivity.
  - intros h. unfold Q.q_exist. rewrite (QR.map_ok_mem _ _ h (QR.R_map _ _ _ HR)).
    symmetry. apply mem_n_exist.
Qed.

Lemma price_block_gone sc sh txof c es now height bt hs h :
  hash_table_ok txof -> In h hs ->
  ~ In h (map Q.ihash (pwalk (pst (pstep sc sh txof c (prun sc sh txof c (pinit c) es)
                                          (PAddBlock now height bt hs))))).
Proof.
  intros Ht Hin.
  destruct (qlink_all sc sh txof c es Ht) as [(l & H) _].
  set (st := prun sc sh txof c (pinit c) es) in *. cbn [pstep].
  set (st1 := if _ || _ then pset_hdr height bt st else st).
  assert (H1 : qlink sc txof c st1 l).
  { unfold st1. destruct (_ || _); [|exact H]. eapply qlink_q; [|exact H]. reflexivity. }
  destruct (0 <? Q.q_size (p_q st1)) eqn:Z; unfold pst; cbn [fst].
  - destruct (qlink_remove_txs sc sh txof c hs st1 l H1) as (l1 & H2 & S2).
    destruct (qlink_remove_expired sc sh txof c now _ l1 H2) as (l2 & H3 & S3).
    rewrite (qlink_walk _ _ _ _ _ H3). intros Hx. apply S3, S2 in Hx. tauto.
  - rewrite (qlink_walk _ _ _ _ _ H1). apply Z.ltb_ge in Z.
    rewrite (QR.R_size _ _ _ (ql_R _ _ _ _ _ H1)) in Z. unfold QS.spec_size in Z.
    destruct l; [intros []|cbn in Z; lia].
Qed.

(** fee per byte, by Go's int64 division *)
Definition ex_price (t : tx) (enter : Z) : Z := Z.quot (t_fee t) (t_size t).
Definition ex_aging (t : tx) (enter : Z) : Z := Z.quot (t_fee t) (t_size t) - enter.

Definition price_full_claim : Prop :=
  forall sc sh txof c es, 1 <= c_peracc c -> hash_table_ok txof ->
    pconsistent txof sh c (prun sc sh txof c (pinit c) es).

Definition pA : tx := mkTx 1 0 1000 98 [0].
Definition pB : tx := mkTx 2 1 9000 98 [0].
Definition ptab (h : N) : tx :=
  if N.eqb h 1 then pA else if N.eqb h 2 then pB else mkTx h 2 0 100 [0].
Definition pcfg : config := mkCfg 1 4 4 8 600.
Definition pid : N -> N := fun h => h.
Definition pwit : list pevent := [PPush 0 1%N; PPush 0 2%N].

Lemma ptab_ok : hash_table_ok ptab.
Proof.
  intros h. unfold ptab. destruct (N.eqb_spec h 1) as [->|]; [reflexivity|].
  destruct (N.eqb_spec h 2) as [->|]; reflexivity.
Qed.

Lemma price_full_refuted : ~ price_full_claim.
Proof.
  intros H. specialize (H ex_price pid ptab pcfg pwit).
  destruct H as (G & (HP & HT) & K); [cbn; lia|exact ptab_ok|].
  set (s2 := prun ex_price pid ptab pcfg (pinit pcfg) pwit) in *.
  assert (Ew : map Q.ihash (pwalk s2) = [2%N]) by (vm_compute; reflexivity).
  assert (Ef : p_fee s2 = 10000) by (vm_compute; reflexivity).
  rewrite Ew in HP. apply Permutation_sym, Permutation_length_1_inv in HP.
  destruct G as [|[k it] [|? ?]]; try discriminate. cbn in HP. inversion HP; subst k.
  apply Forall_inv in HT. cbn [fst snd] in HT.
  pose proof (k_fee _ _ _ K) as F.
  change (s_fee (as_state s2 [(2%N, it)])) with (p_fee s2) in F.
  change (qtx (as_state s2 [(2%N, it)])) with [(2%N, i_tx it)] in F.
  rewrite Ef, HT in F. vm_compute in F. discriminate.
Qed.

Lemma pcache_push_acc sc sh c now t st :
  acc_can_push c t (p_acc st) = true ->
  snd (Q.q_push (mk_item sc t now) (p_q st)) = Q.ENone ->
  p_acc (pst (pcache_push sc sh c now t st)) = snd (acc_push c t (t_h t) (p_acc st)).
Proof.
  intros Hc He. unfold pcache_push, pst. rewrite Hc. cbn [negb].
  destruct (Q.q_push (mk_item sc t now) (p_q st)) as [q' e]. cbn [snd] in He. subst e. cbn [err_ok negb].
  destruct (acc_push c t (t_h t) (p_acc st)) as [e2 acc']. destruct (negb (N.eqb e2 E_OK)); reflexivity.
Qed.

Lemma pcache_push_ev sc sh c now t st :
  pev (pcache_push sc sh c now t st) =
    if acc_can_push c t (p_acc st)
    then evicted_of (p_q st) (snd (Q.q_push (mk_item sc t now) (p_q st))) else [].
Proof.
  unfold pcache_push, pev. destruct (acc_can_push c t (p_acc st)); cbn [negb]; [|reflexivity].
  destruct (Q.q_push (mk_item sc t now) (p_q st)) as [q' e]. cbn [snd].
  destruct (err_ok e); cbn [negb]; [|reflexivity].
  destruct (acc_push c t (t_h t) (p_acc st)) as [e2 acc']. destruct (negb (N.eqb e2 E_OK)); reflexivity.
Qed.

Lemma pcache_push_evicting sc sh txof c now t st l :
  qlink sc txof c st l -> pev (pcache_push sc sh c now t st) <> [] ->
  acc_can_push c t (p_acc st) = true /\ ~ In (t_h t) (QP.hashes l)
  /\ exists rest worst, l = rest ++ [worst]
       /\ pwalk (pst (pcache_push sc sh c now t st)) = QS.spec_insert (mk_item sc t now) rest
       /\ p_acc (pst (pcache_push sc sh c now t st)) = snd (acc_push c t (t_h t) (p_acc st)).
Proof.
  intros [HR _] Hev. rewrite pcache_push_ev in Hev.
  destruct (acc_can_push c t (p_acc st)) eqn:Hcan; [|congruence].
  pose proof (pcache_push_q sc sh c now t st) as Eq. rewrite Hcan in Eq.
  destruct (qpush_cases _ _ _ (mk_item sc t now) HR)
    as [(_ & _ & _ & E0)|[(_ & _ & _ & _ & E0)|(He & _ & Hnin & rest & worst & El & _ & HR' & _)]];
    [congruence|congruence|].
  split; [reflexivity|]. split; [exact Hnin|]. exists rest, worst. split; [exact El|]. split.
  - unfold pwalk. rewrite Eq, QH.walk0_contents. apply (QR.R_cont _ _ _ HR').
  - apply pcache_push_acc; assumption.
Qed.

Lemma evicted_gone it rest worst :
  NoDup (QP.hashes (rest ++ [worst])) -> ~ In (Q.ihash it) (QP.hashes (rest ++ [worst])) ->
  ~ In (Q.ihash worst) (QP.hashes (QS.spec_insert it rest)).
Proof.
  unfold QP.hashes. rewrite map_app. cbn [map]. intros ND Hnin Hw.
  apply in_map_iff in Hw as (x & Ex & Hx). apply QP.spec_insert_in in Hx as [->|Hx].
  - apply Hnin. rewrite Ex. apply in_or_app. right. now left.
  - apply NoDup_remove_2 in ND. rewrite app_nil_r in ND. apply ND. rewrite <- Ex. now apply in_map.
Qed.

(** The account index still lists the evicted transaction after the push (acc_push only
    adds), so a consistent view of the new state would have it in the Walk. *)
Lemma evict_breaks sc txof sh c st now h :
  1 <= c_peracc c -> pinv sc txof sh c st ->
  pev (pstep sc sh txof c st (PPush now h)) <> [] ->
  ~ pconsistent txof sh c (pst (pstep sc sh txof c st (PPush now h))).
Proof.
  intros Hp (l & G & HQ & HG & K) Hev (G' & (HP & _) & K'). cbn [pstep] in *.
  set (t := txof h) in *.
  destruct (pcache_push_evicting sc sh txof c now t st l HQ Hev) as (Hcan & Hnin & rest & worst & El & Ew & Ea).
  set (st' := pst (pcache_push sc sh c now t st)) in *.
  pose proof (QR.R_nodup _ _ _ (ql_R _ _ _ _ _ HQ)) as ND.
  assert (Hw : In (Q.ihash worst, conv txof worst) G).
  { apply lm_get_in. rewrite (gl_get _ _ _ HG), (spec_get_in l worst ND); [reflexivity|].
    rewrite El. apply in_or_app. right. now left. }
  apply (pooled_acc_get sh c (as_state st G) _ _ K) in Hw.
  apply (acc_push_keeps sh c (as_state st G) t _ _ Hp K Hcan) in Hw;
    [|intro Hx; apply Hnin, (glink_keys txof l G _ HG), Hx].
  change (s_acc (as_state st G)) with (p_acc st) in Hw. rewrite <- Ea in Hw.
  apply in_keys, (acc_get_pooled sh c (as_state st' G') _ _ K'), (Permutation_in _ HP) in Hw.
  rewrite Ew in Hw. revert Hw. apply evicted_gone; rewrite <- El; assumption.
Qed.

Definition g1 : tx := mkTx 1 0 1000 100 [0].   (* price 10 *)
Definition g2 : tx := mkTx 2 0 1040 104 [0].   (* price 10 *)
Definition g3 : tx := mkTx 3 1 500 100 [0].    (* price 5 *)
Definition g4 : tx := mkTx 4 1 2000 100 [0].   (* price 20 *)
Definition gtab (h : N) : tx :=
  if N.eqb h 1 then g1 else if N.eqb h 2 then g2 else if N.eqb h 3 then g3
  else if N.eqb h 4 then g4 else mkTx h 2 0 100 [0].
Definition gcfg : config := mkCfg 2 2 2 4 100.
Definition gevents : list pevent :=
  [PPush 10 1%N; PPush 11 2%N; PPush 12 3%N; PPush 12 2%N; PRemove [1%N]; PPush 13 4%N;
   PPush 14 1%N; PAddBlock 15 1 15 [2%N]; PDelBlock 16 0 16 [3%N]; PExpire 200].

Lemma gtab_ok : hash_table_ok gtab.
Proof.
  intros h. unfold gtab.
  destruct (N.eqb_spec h 1) as [->|]; [reflexivity|].
  destruct (N.eqb_spec h 2) as [->|]; [reflexivity|].
  destruct (N.eqb_spec h 3) as [->|]; [reflexivity|].
  destruct (N.eqb_spec h 4) as [->|]; reflexivity.
Qed.

(** another score function (ageing): the dearest transaction arrives late and is
    refused, a cheaper but earlier one evicts the worst *)
Lemma example_score_shape :
  let sc := ex_aging in
  map (fun s => map Q.ihash (pwalk s))
      (prun_states sc pid gtab gcfg (pinit gcfg) [PPush 10 3%N; PPush 11 1%N; PPush 30 4%N; PPush 12 2%N])
  = [[3]; [1; 3]; [1; 3]; [1; 2]]%N.
Proof. vm_compute. reflexivity. Qed.
