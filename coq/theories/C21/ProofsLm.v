(** C21 — lemmas about the ListMap model (association lists with unique keys),
    about filters, and about the list tests of the oracle. *)
From Coq Require Import List ZArith NArith Bool Lia.
From C33 Require Import C21.Model C21.Spec.
Import ListNotations.
Open Scope Z_scope.

Definition keys {V} (l : lm V) : list N := map fst l.
Definition neqk {V} (k : N) (p : N * V) : bool := negb (N.eqb (fst p) k).

Lemma lm_get_none_iff {V} k (l : lm V) : lm_get k l = None <-> ~ In k (keys l).
Proof.
  induction l as [|[k' v] tl IH]; simpl.
  - tauto.
  - destruct (N.eqb_spec k k') as [E|E].
    + split; [discriminate|]. intros H. exfalso. apply H. left. congruence.
    + rewrite IH. split; intros H; [intros [H1|H1]; [congruence|tauto]|tauto].
Qed.

Lemma lm_get_in {V} k v (l : lm V) : lm_get k l = Some v -> In (k, v) l.
Proof.
  induction l as [|[k' v'] tl IH]; simpl; [discriminate|].
  destruct (N.eqb_spec k k') as [E|E]; intros H.
  - left. congruence.
  - right. auto.
Qed.

Lemma in_keys {V} k v (l : lm V) : In (k, v) l -> In k (keys l).
Proof. intros H. apply (in_map fst) in H. exact H. Qed.

Lemma lm_in_get {V} k v (l : lm V) : NoDup (keys l) -> In (k, v) l -> lm_get k l = Some v.
Proof.
  induction l as [|[k' v'] tl IH]; simpl; intros ND H; [tauto|].
  inversion ND as [|x xs Hn ND']; subst.
  destruct H as [H|H].
  - inversion H; subst. rewrite N.eqb_refl. reflexivity.
  - destruct (N.eqb_spec k k') as [E|E].
    + subst. exfalso. apply Hn. eapply in_keys; eauto.
    + auto.
Qed.

Lemma lm_exist_true {V} k (l : lm V) : lm_exist k l = true <-> In k (keys l).
Proof.
  unfold lm_exist. destruct (lm_get k l) eqn:E.
  - split; [intros _|reflexivity]. apply lm_get_in in E. eapply in_keys; eauto.
  - apply lm_get_none_iff in E. split; [discriminate|tauto].
Qed.

Lemma lm_exist_false {V} k (l : lm V) : lm_exist k l = false <-> ~ In k (keys l).
Proof.
  rewrite <- lm_exist_true. destruct (lm_exist k l); split; congruence.
Qed.

Lemma filter_key_notin {A} (key : A -> N) k (l : list A) :
  ~ In k (map key l) -> filter (fun y => negb (N.eqb (key y) k)) l = l.
Proof.
  induction l as [|y tl IH]; simpl; intros H; [reflexivity|].
  destruct (N.eqb_spec (key y) k) as [E|E]; simpl.
  - exfalso. apply H. left. exact E.
  - f_equal. apply IH. tauto.
Qed.

Lemma filter_neqk_notin {V} k (l : lm V) : ~ In k (keys l) -> filter (neqk k) l = l.
Proof. apply (filter_key_notin fst). Qed.

Lemma lm_remove_filter {V} k (l : lm V) : NoDup (keys l) -> lm_remove k l = filter (neqk k) l.
Proof.
  induction l as [|[k' v] tl IH]; simpl; intros ND; [reflexivity|].
  inversion ND as [|x xs Hn ND']; subst.
  unfold neqk at 1; simpl. rewrite (N.eqb_sym k' k).
  destruct (N.eqb_spec k k') as [E|E]; simpl.
  - subst. symmetry. apply filter_neqk_notin. exact Hn.
  - f_equal. auto.
Qed.

Lemma in_map_filter {A B} (g : A -> B) (f : A -> bool) x l : In x (map g (filter f l)) -> In x (map g l).
Proof. rewrite !in_map_iff. intros [p [E H]]. apply filter_In in H. exists p. tauto. Qed.

Lemma nodup_map_filter {A B} (g : A -> B) (f : A -> bool) l : NoDup (map g l) -> NoDup (map g (filter f l)).
Proof.
  induction l as [|x tl IH]; simpl; intros ND; [constructor|].
  inversion ND as [|y ys Hn ND']; subst.
  destruct (f x); simpl; auto.
  constructor; auto. intros H. apply Hn. eapply in_map_filter; eauto.
Qed.

Lemma keys_filter_in {V} (f : N * V -> bool) k (l : lm V) : In k (keys (filter f l)) -> In k (keys l).
Proof. apply in_map_filter. Qed.

Lemma keys_filter_nodup {V} (f : N * V -> bool) (l : lm V) : NoDup (keys l) -> NoDup (keys (filter f l)).
Proof. apply nodup_map_filter. Qed.

Lemma keys_filter_neqk {V} k k' (l : lm V) : In k' (keys (filter (neqk k) l)) -> k' <> k.
Proof.
  unfold keys. rewrite in_map_iff. intros [p [E H]]. apply filter_In in H as [_ H].
  unfold neqk in H. subst k'. destruct (N.eqb_spec (fst p) k); [discriminate|assumption].
Qed.

Lemma lm_get_filter_neqk_other {V} k k' (l : lm V) :
  k' <> k -> lm_get k' (filter (neqk k) l) = lm_get k' l.
Proof.
  intros Hne. induction l as [|[k2 v] tl IH]; simpl; [reflexivity|].
  unfold neqk at 1; simpl. destruct (N.eqb_spec k2 k) as [E|E]; simpl.
  - subst. destruct (N.eqb_spec k' k); [contradiction|exact IH].
  - rewrite IH. reflexivity.
Qed.

Lemma lm_get_filter_neqk_same {V} k (l : lm V) : lm_get k (filter (neqk k) l) = None.
Proof.
  apply lm_get_none_iff. intros H. apply keys_filter_neqk in H. congruence.
Qed.

Lemma keys_lm_set {V} k (v : V) l : keys (lm_set k v l) = keys l.
Proof.
  induction l as [|[k' v'] tl IH]; simpl; [reflexivity|].
  destruct (N.eqb k k'); simpl; [reflexivity|]. f_equal. exact IH.
Qed.

Lemma lm_get_set_same {V} k (v : V) l : In k (keys l) -> lm_get k (lm_set k v l) = Some v.
Proof.
  induction l as [|[k' v'] tl IH]; simpl; [tauto|].
  intros H. destruct (N.eqb_spec k k') as [E|E]; simpl.
  - subst. rewrite N.eqb_refl. reflexivity.
  - destruct (N.eqb_spec k k'); [contradiction|]. apply IH. destruct H; [congruence|assumption].
Qed.

Lemma lm_get_set_other {V} k k' (v : V) l : k' <> k -> lm_get k' (lm_set k v l) = lm_get k' l.
Proof.
  intros Hne. induction l as [|[k2 v2] tl IH]; simpl; [reflexivity|].
  destruct (N.eqb_spec k k2) as [E|E]; simpl.
  - subst. destruct (N.eqb_spec k' k2); [contradiction|reflexivity].
  - rewrite IH. reflexivity.
Qed.

Lemma lm_get_app {V} k (l1 l2 : lm V) :
  lm_get k (l1 ++ l2) = match lm_get k l1 with Some v => Some v | None => lm_get k l2 end.
Proof.
  induction l1 as [|[k' v] tl IH]; simpl; [reflexivity|].
  destruct (N.eqb k k'); [reflexivity|exact IH].
Qed.

Lemma lm_push_fresh {V} k (v : V) l : ~ In k (keys l) -> lm_push k v l = l ++ [(k, v)].
Proof.
  intros H. unfold lm_push. apply lm_exist_false in H. rewrite H. reflexivity.
Qed.

Lemma keys_app {V} (l1 l2 : lm V) : keys (l1 ++ l2) = keys l1 ++ keys l2.
Proof. apply map_app. Qed.

Lemma nodup_app_intro {A} (a b : list A) :
  NoDup a -> NoDup b -> (forall x, In x a -> ~ In x b) -> NoDup (a ++ b).
Proof.
  induction 1 as [|x a Hn _ IH]; cbn; intros Nb Hd; [exact Nb|].
  constructor.
  - intros Hx. apply in_app_or in Hx as [Hx|Hx]; [contradiction|]. apply (Hd x); [now left|exact Hx].
  - apply IH; [exact Nb|]. intros y Hy. apply Hd. now right.
Qed.

Lemma nodup_snoc {A} (l : list A) k : NoDup l -> ~ In k l -> NoDup (l ++ [k]).
Proof.
  intros ND H. apply nodup_app_intro; [exact ND|constructor; [intros []|constructor]|].
  intros x Hx [<-|[]]. exact (H Hx).
Qed.

Lemma nodup_app_r {A} (l1 l2 : list A) : NoDup (l1 ++ l2) -> NoDup l2.
Proof.
  induction l1 as [|x tl IH]; simpl; [tauto|]. intros H. inversion H; auto.
Qed.

Lemma nodup_app_l {A} (l1 l2 : list A) : NoDup (l1 ++ l2) -> NoDup l1.
Proof.
  induction l1 as [|x tl IH]; simpl; intros H; [constructor|].
  inversion H as [|y ys Hn ND]; subst. constructor; [|auto].
  intros H1. apply Hn. apply in_or_app. left. exact H1.
Qed.

Lemma fold_left_preserves {A B} (P : A -> Prop) (f : A -> B -> A) l :
  (forall a b, P a -> P (f a b)) -> forall a, P a -> P (fold_left f l a).
Proof. intros H. induction l as [|b l IH]; intros a Ha; [exact Ha|]. apply IH, H, Ha. Qed.

Lemma fold_left_commute {A A' B} (v : A -> A') (f : A -> B -> A) (g : A' -> B -> A') l :
  (forall a b, g (v a) b = v (f a b)) -> forall a, fold_left g l (v a) = v (fold_left f l a).
Proof. intros H. induction l as [|b l IH]; intros a; [reflexivity|]. cbn [fold_left]. rewrite H. apply IH. Qed.

Lemma forall_filter {A} (P : A -> Prop) (f : A -> bool) l : Forall P l -> Forall P (filter f l).
Proof. apply incl_Forall, incl_filter. Qed.

Lemma filter_filter {A} (f g : A -> bool) l : filter f (filter g l) = filter (fun x => g x && f x) l.
Proof.
  induction l as [|x tl IH]; simpl; [reflexivity|].
  destruct (g x); simpl; [destruct (f x)|]; rewrite IH; reflexivity.
Qed.

Lemma filter_filter_comm {A} (f g : A -> bool) l : filter f (filter g l) = filter g (filter f l).
Proof. rewrite !filter_filter. apply filter_ext. intros x. apply andb_comm. Qed.

Lemma filter_length_le {A} (f : A -> bool) l : (length (filter f l) <= length l)%nat.
Proof.
  induction l as [|x tl IH]; simpl; [lia|]. destruct (f x); simpl; lia.
Qed.

Lemma map_filter_fst {V W} (g : V -> W) (f : N -> bool) (l : lm V) :
  map (fun p => (fst p, g (snd p))) (filter (fun p => f (fst p)) l)
  = filter (fun p => f (fst p)) (map (fun p => (fst p, g (snd p))) l).
Proof.
  induction l as [|[k v] tl IH]; simpl; [reflexivity|].
  destruct (f k); simpl; rewrite IH; reflexivity.
Qed.

Lemma keys_map_snd {V W} (g : V -> W) (l : lm V) : keys (map (fun p => (fst p, g (snd p))) l) = keys l.
Proof.
  unfold keys. rewrite map_map. reflexivity.
Qed.

Lemma nodup_keys_inj {V} k (v1 v2 : V) l : NoDup (keys l) -> In (k, v1) l -> In (k, v2) l -> v1 = v2.
Proof.
  intros ND H1 H2. apply (lm_in_get _ _ _ ND) in H1. apply (lm_in_get _ _ _ ND) in H2. congruence.
Qed.

Lemma mem_n_in x l : mem_n x l = true <-> In x l.
Proof.
  unfold mem_n. rewrite existsb_exists. split.
  - intros [y [H E]]. apply N.eqb_eq in E. congruence.
  - intros H. exists x. split; [exact H|apply N.eqb_refl].
Qed.

Lemma mem_n_false x l : mem_n x l = false <-> ~ In x l.
Proof. rewrite <- mem_n_in. destruct (mem_n x l); split; congruence. Qed.

Lemma nodup_b_iff l : nodup_b l = true <-> NoDup l.
Proof.
  induction l as [|x tl IH]; cbn [nodup_b].
  - split; [constructor|reflexivity].
  - rewrite andb_true_iff, negb_true_iff, IH, mem_n_false. split.
    + intros [H1 H2]. constructor; assumption.
    + intros H. inversion H; auto.
Qed.
