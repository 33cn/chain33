(** C21 — the QueueCache contract under which txCache's bookkeeping stays
    consistent, for every history and every queue satisfying it.

    [contract c o ok] ([ok] = the queue's own representation invariant):
    - a fresh queue is empty; Walk lists no hash twice; GetItem/Exist, Size and
      GetCacheBytes agree with the Walk; Size <= capacity;
    - Push answering an error leaves the queue as it was;
    - a successful Push adds exactly the pushed item (whose hash was absent) and
      REMOVES NOTHING (the Walk afterwards is a permutation of item :: Walk);
    - Remove removes exactly the named item.
    The order of the Walk is unconstrained.  [arrival_ordered]: Push appends and
    Remove keeps the order (SimpleQueue) — then the Walk itself is the arrival
    order.

    Technique: the pool [st] is viewed as the state [gas_state st G] of the
    arrival-ordered model (Model.v), [G] = the pooled items in arrival order
    (ghost), a permutation of the Walk; every operation is the corresponding
    operation of Model.v on the view, so [consistent] (ProofsInv.v) carries over. *)
From Coq Require Import List ZArith NArith Bool Lia Permutation.
From C33 Require Import C21.Model C21.Spec C21.ProofsLm C21.ProofsInv C21.ProofsMain C21.QueueModel.
Import ListNotations.
Open Scope Z_scope.

Definition ihash (it : item) : N := t_h (i_tx it).
Definition hashb (h : N) (it : item) : bool := N.eqb (ihash it) h.
Definition isz (it : item) : Z := t_size (i_tx it).
Definition keyed_of (w : list item) : lm item := map (fun it => (ihash it, it)) w.

Record contract {QT : Type} (c : config) (o : qops QT) (ok : QT -> Prop) : Prop := mkContract {
  ct_new : ok (qo_new o) /\ qo_walk o (qo_new o) = [];
  ct_nodup : forall q, ok q -> NoDup (map ihash (qo_walk o q));
  ct_get : forall q h, ok q -> qo_get o h q = find (hashb h) (qo_walk o q);
  ct_size : forall q, ok q -> qo_size o q = Z.of_nat (length (qo_walk o q));
  ct_bytes : forall q, ok q -> qo_bytes o q = sum_z (map isz (qo_walk o q));
  ct_cap : forall q, ok q -> qo_size o q <= Z.max 0 (c_qcap c);
  ct_push_err : forall q it, ok q -> snd (qo_push o it q) <> E_OK -> fst (qo_push o it q) = q;
  ct_push_ok : forall q it, ok q -> snd (qo_push o it q) = E_OK ->
      ok (fst (qo_push o it q))
      /\ ~ In (ihash it) (map ihash (qo_walk o q))
      /\ Permutation (qo_walk o (fst (qo_push o it q))) (it :: qo_walk o q);
  ct_remove : forall q h, ok q ->
      ok (qo_remove o h q)
      /\ Permutation (qo_walk o (qo_remove o h q)) (filter (fun it => negb (hashb h it)) (qo_walk o q))
}.

Definition arrival_ordered {QT : Type} (o : qops QT) (ok : QT -> Prop) : Prop :=
  (forall q it, ok q -> snd (qo_push o it q) = E_OK ->
     qo_walk o (fst (qo_push o it q)) = qo_walk o q ++ [it])
  /\ (forall q h, ok q ->
     qo_walk o (qo_remove o h q) = filter (fun it => negb (hashb h it)) (qo_walk o q)).

Lemma perm_filter {A} (f : A -> bool) l l' : Permutation l l' -> Permutation (filter f l) (filter f l').
Proof.
  induction 1 as [|x l l' _ IH|x y l|l l' l'' _ IH1 _ IH2]; cbn.
  - constructor.
  - destruct (f x); [constructor|]; exact IH.
  - destruct (f x), (f y); try apply Permutation_refl. apply perm_swap.
  - eapply perm_trans; eassumption.
Qed.

Lemma sum_perm (l l' : list Z) : Permutation l l' -> sum_z l = sum_z l'.
Proof. unfold sum_z. induction 1; cbn in *; lia. Qed.

Definition hkeyed (G : lm item) : Prop := Forall (fun p => fst p = ihash (snd p)) G.

Lemma keyed_filter_snd h G :
  hkeyed G -> map snd (filter (neqk h) G) = filter (fun it => negb (hashb h it)) (map snd G).
Proof.
  induction 1 as [|[k it] G Hk _ IH]; cbn [map filter snd]; [reflexivity|]. cbn in Hk. subst k.
  unfold neqk at 1, hashb at 1. cbn [fst]. destruct (negb (N.eqb (ihash it) h)); cbn [map snd]; rewrite IH; reflexivity.
Qed.

Lemma keyed_of_keyed w : hkeyed (keyed_of w).
Proof. unfold hkeyed, keyed_of. apply Forall_forall. intros p Hp. apply in_map_iff in Hp as (x & <- & _). reflexivity. Qed.

Lemma keyed_of_snd w : map snd (keyed_of w) = w.
Proof. unfold keyed_of. rewrite map_map. cbn. apply map_id. Qed.

Lemma keyed_of_keys w : keys (keyed_of w) = map ihash w.
Proof. unfold keys, keyed_of. rewrite map_map. reflexivity. Qed.

Lemma keyed_of_filter h w :
  filter (neqk h) (keyed_of w) = keyed_of (filter (fun it => negb (hashb h it)) w).
Proof.
  unfold keyed_of. induction w as [|x w IH]; cbn [map filter]; [reflexivity|].
  unfold neqk at 1, hashb at 1. cbn [fst]. destruct (negb (N.eqb (ihash x) h)); cbn [map]; rewrite IH; reflexivity.
Qed.

Lemma keyed_of_app a b : keyed_of (a ++ b) = keyed_of a ++ keyed_of b.
Proof. unfold keyed_of. apply map_app. Qed.

Section Proofs.
  Context {QT : Type}.
  Variable o : qops QT.
  Variable ok : QT -> Prop.
  Variable c : config.
  Variable sh : N -> N.
  Hypothesis CT : contract c o ok.

  Definition gas_state (st : gstate) (G : lm item) : state :=
    mkSt G (qo_bytes o (g_q st)) (g_acc st) (g_last st) (g_sh st) (g_fee st) (g_hdr st).

  Record glnk (q : QT) (G : lm item) : Prop := mkGlnk {
    gk_nodup : NoDup (keys G);
    gk_keyed : hkeyed G;
    gk_perm : Permutation (map snd G) (qo_walk o q)
  }.

  Lemma glnk_in q G h it : glnk q G -> (In (h, it) G <-> In it (qo_walk o q) /\ ihash it = h).
  Proof.
    intros [ND HK HP]. split.
    - intros Hi. split.
      + apply (Permutation_in _ HP). apply in_map_iff. exists (h, it). auto.
      + unfold hkeyed in HK. rewrite Forall_forall in HK. specialize (HK _ Hi). cbn in HK. congruence.
    - intros [Hi Hh]. apply (Permutation_in _ (Permutation_sym HP)) in Hi.
      apply in_map_iff in Hi as ([k x] & Ex & Hx). cbn in Ex. subst x.
      unfold hkeyed in HK. rewrite Forall_forall in HK. pose proof (HK _ Hx) as E. cbn in E. congruence.
  Qed.

  Lemma glnk_get q G h : glnk q G -> lm_get h G = find (hashb h) (qo_walk o q).
  Proof.
    intros HL. destruct (find (hashb h) (qo_walk o q)) as [it|] eqn:F.
    - apply find_some in F as [Hi Hh]. apply N.eqb_eq in Hh.
      apply lm_in_get; [apply (gk_nodup _ _ HL)|]. apply (glnk_in q G h it HL). auto.
    - destruct (lm_get h G) as [it|] eqn:E; [|reflexivity]. exfalso.
      apply lm_get_in in E. apply (glnk_in q G h it HL) in E as [Hi Hh].
      pose proof (find_none _ _ F _ Hi) as Hf. unfold hashb in Hf. apply N.eqb_neq in Hf. contradiction.
  Qed.

  Lemma glnk_size q G : ok q -> glnk q G -> lm_size G = qo_size o q.
  Proof.
    intros Hok [_ _ HP]. rewrite (ct_size _ _ _ CT q Hok). unfold lm_size. f_equal.
    rewrite <- (Permutation_length HP). now rewrite map_length.
  Qed.

  Lemma glnk_keys q G h : glnk q G -> (In h (keys G) <-> In h (map ihash (qo_walk o q))).
  Proof.
    intros HL. split.
    - intros Hi. apply in_map_iff in Hi as ([k it] & E & Hi). cbn in E. subst k.
      apply (glnk_in q G h it HL) in Hi as [Hi Hh]. apply in_map_iff. exists it. auto.
    - intros Hi. apply in_map_iff in Hi as (it & E & Hi).
      eapply in_keys. apply (glnk_in q G h it HL). auto.
  Qed.

  Lemma gsim_remove st G h :
    ok (g_q st) -> glnk (g_q st) G ->
    ok (g_q (gcache_remove o sh h st))
    /\ glnk (g_q (gcache_remove o sh h st)) (lm_remove h G)
    /\ gas_state (gcache_remove o sh h st) (lm_remove h G) = cache_remove sh h (gas_state st G).
  Proof.
    intros Hok HL. pose proof HL as [ND HK HP].
    pose proof (glnk_get _ _ h HL) as EG.
    unfold gcache_remove. rewrite (ct_get _ _ _ CT _ h Hok).
    destruct (find (hashb h) (qo_walk o (g_q st))) as [it|] eqn:F.
    - destruct (ct_remove _ _ _ CT (g_q st) h Hok) as [Hok' HP'].
      cbn [g_q]. split; [exact Hok'|]. split.
      + rewrite (lm_remove_filter _ _ ND). constructor.
        * apply keys_filter_nodup. exact ND.
        * apply forall_filter, HK.
        * rewrite (keyed_filter_snd h G HK). eapply perm_trans; [|apply Permutation_sym; exact HP'].
          apply perm_filter. exact HP.
      + assert (Eb : qo_bytes o (qo_remove o h (g_q st)) = qo_bytes o (g_q st) - t_size (i_tx it)).
        { rewrite (ct_bytes _ _ _ CT _ Hok'), (ct_bytes _ _ _ CT _ Hok).
          rewrite (sum_perm _ _ (Permutation_map isz HP')).
          apply find_some in F as [Hi Hh]. apply N.eqb_eq in Hh. subst h.
          apply (sum_remove_key ihash isz it); [apply (ct_nodup _ _ _ CT _ Hok)|exact Hi]. }
        unfold cache_remove, gas_state. cbn [s_q s_bytes s_acc s_last s_sh s_fee s_hdr].
        rewrite EG. unfold q_remove. rewrite EG. cbn [g_q g_acc g_last g_sh g_fee g_hdr]. rewrite Eb. reflexivity.
    - split; [exact Hok|]. assert (Hn : ~ In h (keys G)) by (apply lm_get_none_iff; exact EG).
      rewrite (lm_remove_filter _ _ ND), (filter_neqk_notin _ _ Hn). split; [exact HL|].
      rewrite cache_remove_none; [reflexivity|exact EG].
  Qed.

  Lemma gsim_push st G now t :
    ok (g_q st) -> glnk (g_q st) G ->
    let st' := fst (gcache_push o sh c now t st) in
    let G' := G ++ [(t_h t, mkItem t now)] in
    (st' = st)
    \/ (snd (qo_push o (mkItem t now) (g_q st)) = E_OK
        /\ g_q st' = fst (qo_push o (mkItem t now) (g_q st))
        /\ ok (g_q st') /\ glnk (g_q st') G'
        /\ gas_state st' G' = fst (cache_push sh c now t (gas_state st G))).
  Proof.
    intros Hok HL st' G'. subst st' G'. pose proof HL as [ND HK HP].
    unfold gcache_push, cache_push. change (s_acc (gas_state st G)) with (g_acc st).
    destruct (acc_can_push c t (g_acc st)); cbn [negb]; [|left; reflexivity].
    destruct (qo_push o (mkItem t now) (g_q st)) as [q' e] eqn:EP.
    destruct (N.eqb_spec e E_OK) as [Ee|Ee]; cbn [negb fst snd].
    2:{ left. pose proof (ct_push_err _ _ _ CT (g_q st) (mkItem t now) Hok) as Hu.
        rewrite EP in Hu. cbn [fst snd] in Hu. rewrite (Hu Ee). destruct st; reflexivity. }
    right. subst e. split; [reflexivity|].
    destruct (ct_push_ok _ _ _ CT (g_q st) (mkItem t now) Hok) as (Hok' & Hnin & HP'); [rewrite EP; reflexivity|].
    rewrite EP in Hok', HP'. cbn [fst] in Hok', HP'. change (ihash (mkItem t now)) with (t_h t) in Hnin.
    assert (HnG : ~ In (t_h t) (keys G)) by (intro Hx; apply Hnin; apply (glnk_keys _ _ _ HL); exact Hx).
    assert (Hsz : lm_size G < c_qcap c).
    { pose proof (ct_cap _ _ _ CT q' Hok') as Hc. rewrite (ct_size _ _ _ CT q' Hok') in Hc.
      rewrite (Permutation_length HP') in Hc. cbn [length] in Hc.
      rewrite (glnk_size _ _ Hok HL), (ct_size _ _ _ CT _ Hok). lia. }
    assert (Eb : qo_bytes o q' = qo_bytes o (g_q st) + t_size t).
    { rewrite (ct_bytes _ _ _ CT _ Hok'), (ct_bytes _ _ _ CT _ Hok).
      rewrite (sum_perm _ _ (Permutation_map isz HP')).
      unfold sum_z. cbn [map fold_right]. unfold isz. cbn [i_tx]. lia. }
    assert (HL' : glnk q' (G ++ [(t_h t, mkItem t now)])).
    { constructor.
      - rewrite keys_app. apply nodup_snoc; assumption.
      - unfold hkeyed in *. apply Forall_app. split; [exact HK|]. constructor; [reflexivity|constructor].
      - rewrite map_app. cbn [map snd]. eapply perm_trans; [|apply Permutation_sym; exact HP'].
        eapply perm_trans; [apply Permutation_app_comm|]. cbn. constructor. exact HP. }
    change (s_q (gas_state st G)) with G. change (s_bytes (gas_state st G)) with (qo_bytes o (g_q st)).
    rewrite (q_push_accepted c (mkItem t now) G _ HnG Hsz). cbn [N.eqb E_OK negb i_tx].
    destruct (acc_push c t (t_h t) (g_acc st)) as [e2 acc'].
    destruct (negb (N.eqb e2 E_OK)); cbn [fst g_q]; (split; [reflexivity|]); (split; [exact Hok'|]);
      (split; [exact HL'|]); unfold gas_state; cbn [g_q g_acc g_last g_sh g_fee g_hdr s_last s_sh s_fee s_hdr];
      rewrite Eb; reflexivity.
  Qed.

  Definition ginv (st : gstate) : Prop :=
    ok (g_q st)
    /\ exists G, glnk (g_q st) G /\ consistent sh c (gas_state st G)
                 /\ (arrival_ordered o ok -> G = keyed_of (qo_walk o (g_q st))).

  Lemma ginv_init : 1 <= c_peracc c -> ginv (ginit o).
  Proof.
    intros Hp. destruct (ct_new _ _ _ CT) as [Hok Hw]. split; [exact Hok|]. exists []. split; [|split].
    - constructor; cbn; [constructor|constructor|]. cbn [ginit g_q]. rewrite Hw. constructor.
    - pose proof (ct_bytes _ _ _ CT _ Hok) as Eb. rewrite Hw in Eb. cbn in Eb.
      unfold gas_state, ginit. cbn [g_q g_acc g_last g_sh g_fee g_hdr]. rewrite Eb.
      apply init_consistent. exact Hp.
    - intros _. cbn [ginit g_q]. rewrite Hw. reflexivity.
  Qed.

  Lemma ginv_remove h st : ginv st -> ginv (gcache_remove o sh h st).
  Proof.
    intros (Hok & G & HL & K & HA).
    destruct (gsim_remove st G h Hok HL) as (Hok' & HL' & E).
    split; [exact Hok'|]. exists (lm_remove h G). split; [exact HL'|]. split.
    - rewrite E. apply cache_remove_consistent. exact K.
    - intros AO. specialize (HA AO). subst G. destruct AO as [_ AR].
      unfold gcache_remove. rewrite (ct_get _ _ _ CT _ h Hok).
      destruct (find (hashb h) (qo_walk o (g_q st))) as [it|] eqn:F; cbn [g_q].
      + rewrite (AR _ h Hok). rewrite (lm_remove_filter _ _ (gk_nodup _ _ HL)). apply keyed_of_filter.
      + rewrite (lm_remove_filter _ _ (gk_nodup _ _ HL)). apply filter_neqk_notin. rewrite keyed_of_keys. intros Hi.
        apply in_map_iff in Hi as (x & Ex & Hx). pose proof (find_none _ _ F _ Hx) as Hf.
        unfold hashb in Hf. apply N.eqb_neq in Hf. contradiction.
  Qed.

  Lemma ginv_remove_txs hs st : ginv st -> ginv (gremove_txs o sh hs st).
  Proof. apply (fold_left_preserves ginv). intros s h. apply ginv_remove. Qed.

  Lemma ginv_push now t st : 1 <= c_peracc c -> ginv st -> ginv (fst (gcache_push o sh c now t st)).
  Proof.
    intros Hp (Hok & G & HL & K & HA).
    destruct (gsim_push st G now t Hok HL) as [E|(Ee & Eq & Hok' & HL' & E)].
    - rewrite E. split; [exact Hok|]. exists G. auto.
    - split; [exact Hok'|]. exists (G ++ [(t_h t, mkItem t now)]). split; [exact HL'|]. split.
      + rewrite E. apply cache_push_consistent; assumption.
      + intros AO. specialize (HA AO). subst G. destruct AO as [AP _].
        rewrite Eq, (AP _ _ Hok Ee), keyed_of_app. reflexivity.
  Qed.

  Lemma ginv_hdr h b st : ginv st -> ginv (gset_hdr h b st).
  Proof.
    intros (Hok & G & HL & K & HA). split; [exact Hok|]. exists G. split; [exact HL|]. split; [|exact HA].
    change (gas_state (gset_hdr h b st) G) with (set_hdr h b (gas_state st G)).
    apply set_hdr_consistent. exact K.
  Qed.

  Lemma ginv_del_block now ts st : 1 <= c_peracc c -> ginv st -> ginv (gdel_block o sh c now ts st).
  Proof.
    intros Hp. apply (fold_left_preserves ginv). intros s t K.
    destruct (check_expire_valid now (ghdr_state s) t); [apply ginv_push|]; assumption.
  Qed.

  Lemma ginv_step st e : 1 <= c_peracc c -> ginv st -> ginv (fst (gstep o sh c st e)).
  Proof.
    intros Hp K. destruct e as [now t|hs|now|now h b hs|now h b ts]; cbn [gstep].
    - apply ginv_push; assumption.
    - cbn [fst]. apply ginv_remove_txs. exact K.
    - cbn [fst]. unfold gremove_expired. apply ginv_remove_txs. exact K.
    - set (st1 := if _ || _ then gset_hdr h b st else st).
      assert (K1 : ginv st1) by (unfold st1; destruct (_ || _); [apply ginv_hdr|]; exact K).
      destruct (0 <? qo_size o (g_q st1)); cbn [fst]; [|exact K1].
      unfold gremove_expired. apply ginv_remove_txs. apply ginv_remove_txs. exact K1.
    - cbn [fst]. apply ginv_del_block; [exact Hp|]. apply ginv_hdr. exact K.
  Qed.

  Lemma ginv_run es : forall st, 1 <= c_peracc c -> ginv st ->
    ginv (grun o sh c st es) /\ Forall ginv (grun_states o sh c st es).
  Proof.
    unfold grun. induction es as [|e tl IH]; intros st Hp K; cbn [fold_left grun_states].
    - split; [exact K|constructor].
    - pose proof (ginv_step st e Hp K) as K1. destruct (IH _ Hp K1). split; [|constructor]; assumption.
  Qed.

  Definition gconsistent (st : gstate) : Prop :=
    exists G, Permutation (map snd G) (qo_walk o (g_q st)) /\ consistent sh c (gas_state st G).

  Lemma ginv_gconsistent st : ginv st -> gconsistent st.
  Proof. intros (_ & G & HL & K & _). exists G. split; [apply (gk_perm _ _ HL)|exact K]. Qed.

  Lemma ginv_arrival st :
    arrival_ordered o ok -> ginv st -> consistent sh c (gas_state st (keyed_of (qo_walk o (g_q st)))).
  Proof. intros AO (_ & G & _ & K & HA). rewrite <- (HA AO). exact K. Qed.
End Proofs.

Lemma contract_ok_all_histories {QT} (o : qops QT) ok sh c es :
  1 <= c_peracc c -> contract c o ok -> ok (g_q (grun o sh c (ginit o) es)).
Proof.
  intros Hp CT. destruct (ginv_run o ok c sh CT es (ginit o) Hp (ginv_init o ok c sh CT Hp)) as [[Hok _] _].
  exact Hok.
Qed.
