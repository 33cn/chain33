(** C21 — delExpiredTxs against the flat specification (exactness, no double
    release, order), the relation along every history, and entries that can
    never leave. *)
From Coq Require Import List ZArith NArith Bool Lia Permutation Sorted.
From C33 Require Import C21.Model C21.Spec C21.ProofsLm C21.DelayModel C21.DelaySpec C21.DelayProofsMaps.
Import ListNotations.
Open Scope Z_scope.

Lemma zinsert_perm k l : Permutation (zinsert k l) (k :: l).
Proof.
  induction l as [|y l IH]; cbn; [reflexivity|]. destruct (k <=? y); [reflexivity|].
  rewrite IH. apply perm_swap.
Qed.

Lemma zsort_perm l : Permutation (zsort l) l.
Proof. unfold zsort. induction l as [|y l IH]; cbn; [constructor|]. rewrite zinsert_perm, IH. reflexivity. Qed.

Lemma zsort_in l x : In x (zsort l) <-> In x l.
Proof. split; apply Permutation_in; [|symmetry]; apply zsort_perm. Qed.

Lemma zsort_nodup l : NoDup l -> NoDup (zsort l).
Proof. apply Permutation_NoDup. symmetry. apply zsort_perm. Qed.

Lemma zinsert_sorted k l : StronglySorted Z.le l -> StronglySorted Z.le (zinsert k l).
Proof.
  induction 1 as [|y l Hs IH Hall]; cbn; [repeat constructor|].
  destruct (Z.leb_spec k y).
  - constructor; [constructor; assumption|]. constructor; [assumption|].
    eapply Forall_impl; [|exact Hall]. intros; lia.
  - constructor; [exact IH|]. rewrite zinsert_perm. constructor; [lia|exact Hall].
Qed.

Lemma zsort_sorted l : StronglySorted Z.le (zsort l).
Proof. unfold zsort. induction l; cbn; [constructor|apply zinsert_sorted; assumption]. Qed.

Lemma pget_filter_due last curr height p h :
  NoDup (hkeys p) ->
  pget h (filter (fun x => negb (due last curr height (snd x))) p) =
    match pget h p with
    | Some e => if due last curr height e then None else Some e
    | None => None
    end.
Proof.
  unfold pget. induction p as [|[h' e] q IH]; cbn; intros ND; [reflexivity|].
  inversion ND as [|? ? Hn ND']; subst.
  destruct (N.eqb_spec h h') as [E|E].
  - subst h'. destruct (due last curr height e) eqn:D; cbn.
    + rewrite (IH ND'), (proj2 (hget_none h q) Hn). reflexivity.
    + rewrite N.eqb_refl. reflexivity.
  - destruct (due last curr height e); cbn; [apply IH; exact ND'|].
    destruct (N.eqb_spec h h'); [contradiction|apply IH; exact ND'].
Qed.

Lemma group_filter_due last curr height p k :
  group k (filter (fun x => negb (due last curr height (snd x))) p) =
    if due last curr height k then [] else group k p.
Proof.
  unfold group. induction p as [|[h e] q IH]; cbn.
  - destruct (due last curr height k); reflexivity.
  - destruct (due last curr height e) eqn:D; cbn.
    + rewrite IH. destruct (Z.eqb_spec e k) as [E|E]; [subst e; rewrite D; reflexivity|reflexivity].
    + destruct (Z.eqb_spec e k) as [E|E]; cbn; rewrite IH.
      * subst e. rewrite D. reflexivity.
      * destruct (due last curr height k); reflexivity.
Qed.

Section Release.
  Variables (d : dcache) (p : pend) (last curr height : Z).
  Hypothesis R : drel d p.

  Let wk := zsort (filter (in_window last curr) (zkeys (d_tx d))).
  Let m1 := fold_left (fun m k => zdel k m) wk (d_tx d).
  Let del1 := lists_of wk (d_tx d).
  Let del2 := match zget height m1 with Some l => l | None => [] end.
  (** the keys whose lists leave, in the order of the released list *)
  Let dks := wk ++ (if zmem height wk then [] else [height]).

  Lemma key_present k : In k (zkeys (d_tx d)) <-> group k p <> [].
  Proof.
    pose proof (dr_group _ _ R k) as G. unfold ogroup in G. split; intros H.
    - intros E. rewrite E in G. apply zget_none in G. contradiction.
    - destruct (group k p) eqn:E; [congruence|]. eapply zget_in_keys. exact G.
  Qed.

  Lemma wk_in k : In k wk <-> in_window last curr k = true /\ group k p <> [].
  Proof. unfold wk. rewrite zsort_in, filter_In, key_present. tauto. Qed.

  Lemma wk_nodup : NoDup wk.
  Proof. unfold wk. apply zsort_nodup, NoDup_filter, (dr_tnodup _ _ R). Qed.

  Lemma lists_of_group ks : lists_of ks (d_tx d) = concat (map (fun k => group k p) ks).
  Proof.
    unfold lists_of. f_equal. apply map_ext. intros k. rewrite (dr_group _ _ R k). apply ogroup_list.
  Qed.

  Lemma del2_eq : del2 = if zmem height wk then [] else group height p.
  Proof.
    unfold del2, m1. rewrite zget_fold_zdel by apply (dr_tnodup _ _ R).
    destruct (zmem height wk); [reflexivity|]. rewrite (dr_group _ _ R height). apply ogroup_list.
  Qed.

  Lemma del_groups : del1 ++ del2 = concat (map (fun k => group k p) dks).
  Proof.
    unfold del1, dks. rewrite lists_of_group, del2_eq, map_app, concat_app.
    destruct (zmem height wk); cbn; rewrite ?app_nil_r; reflexivity.
  Qed.

  Lemma dks_in k : In k dks <-> due last curr height k = true /\ (group k p <> [] \/ k = height).
  Proof.
    unfold dks, due. rewrite in_app_iff, wk_in. destruct (zmem height wk) eqn:M.
    - apply zmem_in, wk_in in M as [W G]. split.
      + intros [[Hw Hg]|[]]. rewrite Hw. auto.
      + intros [Hd [Hg| ->]]; [|auto]. apply orb_true_iff in Hd as [Hw|E]; [auto|].
        apply Z.eqb_eq in E. subst k. auto.
    - split.
      + intros [[Hw Hg]|[<-|[]]]; [rewrite Hw; auto|]. rewrite Z.eqb_refl, orb_true_r. auto.
      + intros [Hd Hg]. destruct (Z.eqb_spec k height) as [E|E]; [right; left; symmetry; exact E|].
        rewrite orb_false_r in Hd. destruct Hg as [Hg|Hg]; [auto|contradiction].
  Qed.

  Lemma dks_nodup : NoDup dks.
  Proof.
    unfold dks. destruct (zmem height wk) eqn:M; [rewrite app_nil_r; apply wk_nodup|].
    apply nodup_snoc; [apply wk_nodup|]. intros H. apply zmem_in in H. congruence.
  Qed.

  Lemma del_in h : In h (del1 ++ del2) <-> exists e, pget h p = Some e /\ due last curr height e = true.
  Proof.
    rewrite del_groups, in_concat. pose proof (dr_pnodup _ _ R) as ND. split.
    - intros (l & Hl & Hh). apply in_map_iff in Hl as (k & <- & Hk). apply dks_in in Hk as [Hd _].
      apply group_in in Hh. exists k. split; [apply hget_of_in; assumption|exact Hd].
    - intros (e & G & Hd). apply hget_in, group_in in G. exists (group e p). split; [|exact G].
      apply (in_map (fun k => group k p) dks e), dks_in. split; [exact Hd|]. left. intros E. rewrite E in G. exact G.
  Qed.

  Lemma concat_groups_nodup ks : NoDup ks -> NoDup (concat (map (fun k => group k p) ks)).
  Proof.
    induction 1 as [|k ks Hn _ IH]; cbn; [constructor|].
    apply nodup_app_intro; [apply group_nodup, (dr_pnodup _ _ R)|exact IH|].
    intros x Hx Hy. apply group_in in Hx. apply in_concat in Hy as (l & Hl & Hy).
    apply in_map_iff in Hl as (k' & <- & Hk'). apply group_in in Hy.
    pose proof (nodup_keys_inj x k k' p (dr_pnodup _ _ R) Hx Hy). subst k'. contradiction.
  Qed.

  Lemma release_unfold :
    dlen d <=? 0 = false ->
    drelease last curr height d =
      (mkDc (d_size d) (zdel height m1) (fold_left (fun hm h => hdel h hm) (del1 ++ del2) (d_hash d)),
       del1 ++ del2).
  Proof. intros E. unfold drelease. rewrite E. reflexivity. Qed.

  Lemma release_empty : dlen d <=? 0 = true -> drelease last curr height d = (d, []) /\ p = [].
  Proof.
    intros E. unfold drelease. rewrite E. split; [reflexivity|].
    apply Z.leb_le in E. rewrite (drel_len _ _ R) in E. destruct p; [reflexivity|cbn in E; lia].
  Qed.

  Lemma drel_release :
    drel (fst (drelease last curr height d)) (fst (sp_release last curr height p))
    /\ d_size (fst (drelease last curr height d)) = d_size d.
  Proof.
    unfold sp_release. cbn [fst].
    destruct (dlen d <=? 0) eqn:E.
    - destruct (release_empty E) as [-> Ep]. cbn [fst]. split; [|reflexivity]. rewrite Ep in R |- *. exact R.
    - rewrite (release_unfold E). cbn [fst d_size]. split; [|reflexivity].
      constructor; cbn [d_hash d_tx].
      + apply (nodup_map_filter fst), (dr_pnodup _ _ R).
      + apply hkeys_fold_hdel_nodup, (dr_hnodup _ _ R).
      + intros h. rewrite hget_fold_hdel, pget_filter_due, (dr_hget _ _ R) by apply (dr_pnodup _ _ R).
        destruct (mem_n h (del1 ++ del2)) eqn:M.
        * apply mem_n_in, del_in in M as (e & G & Hd). rewrite G, Hd. reflexivity.
        * destruct (pget h p) as [e|] eqn:G; [|reflexivity].
          destruct (due last curr height e) eqn:Hd; [|reflexivity].
          exfalso. apply mem_n_false in M. apply M, del_in. exists e. auto.
      + apply zkeys_zdel_nodup. unfold m1. apply zkeys_fold_zdel_nodup, (dr_tnodup _ _ R).
      + intros k. unfold ogroup. rewrite group_filter_due.
        rewrite zget_zdel by (unfold m1; apply zkeys_fold_zdel_nodup, (dr_tnodup _ _ R)).
        unfold m1. rewrite zget_fold_zdel by apply (dr_tnodup _ _ R). rewrite (dr_group _ _ R k).
        unfold due. destruct (Z.eqb_spec k height) as [E2|E2].
        * rewrite orb_true_r. reflexivity.
        * rewrite orb_false_r. destruct (in_window last curr k) eqn:W.
          -- destruct (zmem k wk) eqn:M; [reflexivity|].
             unfold ogroup. destruct (group k p) eqn:G; [reflexivity|]. exfalso.
             assert (In k wk) by (apply wk_in; split; [exact W|congruence]). apply zmem_in in H. congruence.
          -- destruct (zmem k wk) eqn:M; [|reflexivity]. apply zmem_in, wk_in in M as [M _]. congruence.
  Qed.

  Lemma release_in h :
    In h (snd (drelease last curr height d)) <-> exists e, pget h p = Some e /\ due last curr height e = true.
  Proof.
    destruct (dlen d <=? 0) eqn:E.
    - destruct (release_empty E) as [-> ->]. cbn. split; [intros []|intros (e & G & _); discriminate].
    - rewrite (release_unfold E). apply del_in.
  Qed.

  Lemma release_nodup : NoDup (snd (drelease last curr height d)).
  Proof.
    destruct (dlen d <=? 0) eqn:E.
    - destruct (release_empty E) as [-> _]. constructor.
    - rewrite (release_unfold E). cbn [snd]. rewrite del_groups. apply concat_groups_nodup, dks_nodup.
  Qed.

  Lemma release_order :
    exists a b, snd (drelease last curr height d) = a ++ b
      /\ (exists ks, StronglySorted Z.le ks /\ Forall (fun k => in_window last curr k = true) ks
                     /\ a = concat (map (fun k => group k p) ks))
      /\ (b = [] \/ (in_window last curr height = false /\ b = group height p)).
  Proof.
    destruct (dlen d <=? 0) eqn:E.
    - destruct (release_empty E) as [-> _]. exists [], []. cbn. split; [reflexivity|]. split; [|left; reflexivity].
      exists []. repeat split; constructor.
    - rewrite (release_unfold E). cbn [snd]. exists del1, del2. split; [reflexivity|]. split.
      + exists wk. split; [apply zsort_sorted|]. split.
        * apply Forall_forall. intros k Hk. apply wk_in in Hk. tauto.
        * unfold del1. apply lists_of_group.
      + rewrite del2_eq. destruct (zmem height wk) eqn:M; [left; reflexivity|].
        destruct (group height p) eqn:G; [left; reflexivity|]. right. split; [|reflexivity].
        destruct (in_window last curr height) eqn:W; [|reflexivity]. exfalso.
        assert (In height wk) by (apply wk_in; split; [exact W|congruence]). apply zmem_in in H. congruence.
  Qed.
End Release.

Definition dsize_ok (size : Z) (s : state * dcache) : Prop := d_size (snd s) = size.

Lemma dstep_rel sh c size s p e :
  drel (snd s) p -> d_size (snd s) = size ->
  let last := hdr_time (fst s) in
  let r := dstep sh c s e in
  let q := sp_step size last p e in
  drel (snd (dst r)) (fst (fst q)) /\ d_size (snd (dst r)) = size.
Proof.
  intros R S. cbv zeta. destruct s as [st d]. cbn [fst snd] in *. subst size.
  destruct e as [ev cms|tx endt]; cbn [dstep sp_step].
  - destruct (step sh c st ev) as [st' err].
    destruct ev as [now t|hs|now|now h b hs|now h b ts]; unfold dst; cbn [fst snd]; auto.
    destruct (drel_add_block d p h b cms R) as (R1 & S1).
    pose proof (drel_release _ _ (hdr_time st) b h R1) as (R2 & S2).
    destruct (drelease (hdr_time st) b h (dadd_block h b cms d)) as [d' rel].
    unfold sp_release in *. cbn [fst snd] in *. split; [exact R2|]. rewrite S2. exact S1.
  - destruct (drel_add d p tx endt R) as (R1 & _ & S1).
    destruct (dadd tx endt d) as [d' err]. destruct (sp_add (d_size d) tx endt p) as [p' serr].
    unfold dst. cbn [fst snd] in *. auto.
Qed.

(** the flat specification run next to the model, whose header gives the last block time *)
Fixpoint sp_run (sh : N -> N) (c : config) (size : Z) (s : state * dcache) (p : pend) (es : list devent) : pend :=
  match es with
  | [] => p
  | e :: tl => sp_run sh c size (dst (dstep sh c s e)) (fst (fst (sp_step size (hdr_time (fst s)) p e))) tl
  end.

Lemma drun_rel sh c size es : forall s p,
  drel (snd s) p -> d_size (snd s) = size ->
  drel (snd (drun sh c s es)) (sp_run sh c size s p es).
Proof.
  unfold drun. induction es as [|e tl IH]; intros s p R S; cbn [fold_left sp_run]; [exact R|].
  destruct (dstep_rel sh c size s p e R S) as (R1 & S1). apply IH; assumption.
Qed.

Lemma drel_contains d p h : drel d p -> dcontains h d = pget h p.
Proof. intros R. apply (dr_hget _ _ R). Qed.

Lemma not_due_stays last curr height p h e :
  NoDup (hkeys p) -> pget h p = Some e -> due last curr height e = false ->
  pget h (fst (sp_release last curr height p)) = Some e.
Proof.
  intros ND G Hd. unfold sp_release. cbn [fst]. rewrite pget_filter_due, G, Hd by exact ND. reflexivity.
Qed.

Lemma past_not_due last curr height e : e <= last -> e <> height -> due last curr height e = false.
Proof.
  intros H1 H2. unfold due, in_window. apply orb_false_iff. split.
  - apply andb_false_iff. left. apply Z.ltb_ge. exact H1.
  - apply Z.eqb_neq. exact H2.
Qed.

Lemma sp_add_keeps size tx endt p h e :
  pget h p = Some e -> pget h (fst (sp_add size tx endt p)) = Some e.
Proof.
  intros G. unfold sp_add. destruct tx as [h'|]; [|exact G].
  destruct (size <=? Z.of_nat (length p)); [exact G|]. destruct (pget h' p); [exact G|].
  cbn [fst]. unfold pget in *. rewrite hget_app, G. reflexivity.
Qed.

Definition ex_d : dcache := fst (dadd (Some 3%N) 7 (fst (dadd (Some 2%N) 105 (fst (dadd (Some 1%N) 105 (dnew 3)))))).
