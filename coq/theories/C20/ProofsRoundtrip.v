(** C20 — round trip, precision and canonical form; work is antitone in the target, also
    through the encoding; the two refutation witnesses. *)
From Coq Require Import ZArith Lia Bool.
From C33 Require Import C20.Model C20.Spec C20.ProofsArith.
Open Scope Z_scope.

(** a magnitude [a] under sign [s]; a negative number must have its dropped bytes zero *)
Lemma encode_signed : forall a s, 0 < a -> (s = true -> truncated a = a) ->
  big_to_compact (if s then - a else a) = pack (bytelen a) (shl256 a (3 - bytelen a)) s.
Proof.
  intros a s Ha Hex. rewrite encode_unfold, mant_signed.
  - destruct s.
    + destruct (Z.eqb_spec (- a) 0) as [|_]; [lia|].
      destruct (Z.ltb_spec (- a) 0) as [_|]; [|lia]. rewrite Z.abs_opp, Z.abs_eq by lia. reflexivity.
    + destruct (Z.eqb_spec a 0) as [|_]; [lia|].
      destruct (Z.ltb_spec a 0) as [|_]; [lia|]. rewrite Z.abs_eq by lia. reflexivity.
  - assumption.
  - intros Hs Hgt. specialize (Hex Hs). unfold truncated in Hex.
    apply mod_p256_le with (k := lost_bytes a); [|lia].
    unfold lost_bytes. destruct (top_set a); lia.
Qed.

Lemma roundtrip_signed : forall a s, 0 < a -> fits_format a = true ->
  (s = true -> truncated a = a) ->
  compact_to_big (big_to_compact (if s then - a else a)) =
  if s then - truncated a else truncated a.
Proof.
  intros a s Ha Hfit Hex. rewrite encode_signed by assumption. apply decode_pack; assumption.
Qed.

Lemma truncated_zero : truncated 0 = 0.
Proof. reflexivity. Qed.

Lemma precision_exact : forall n, 0 <= n -> fits_format n = true ->
  compact_to_big (big_to_compact n) = truncated n.
Proof.
  intros n Hn Hfit. destruct (Z.eq_dec n 0) as [->|Hnz]; [reflexivity|].
  apply (roundtrip_signed n false); [lia|assumption|discriminate].
Qed.

Lemma roundtrip_neg_exact : forall a, 0 < a -> fits_format a = true -> truncated a = a ->
  compact_to_big (big_to_compact (- a)) = - a.
Proof.
  intros a Ha Hfit Hex. rewrite <- Hex at 2. apply (roundtrip_signed a true); auto.
Qed.

Lemma lost_bytes_nonneg : forall n, 0 <= lost_bytes n.
Proof. intros n. unfold lost_bytes. lia. Qed.

Lemma truncated_bounds : forall n, 0 <= n - truncated n < 256 ^ lost_bytes n.
Proof.
  intros n. unfold truncated. pose proof (p256_pos _ (lost_bytes_nonneg n)) as PP.
  pose proof (Z.mod_pos_bound n (256 ^ lost_bytes n) PP). lia.
Qed.

Lemma truncated_exact : forall n, lost_bytes n = 0 -> truncated n = n.
Proof. intros n H. unfold truncated. rewrite H, Z.pow_0_r, Z.mod_1_r. lia. Qed.

Lemma truncated_div : forall t, truncated t = t / 256 ^ lost_bytes t * 256 ^ lost_bytes t.
Proof.
  intros t. unfold truncated. rewrite div_mul_trunc; [reflexivity|].
  apply p256_pos, lost_bytes_nonneg.
Qed.

Lemma truncated_shift_eq : forall n, truncated_shift n = truncated n.
Proof.
  intros n. unfold truncated_shift. pose proof (lost_bytes_nonneg n) as HL.
  rewrite Z.shiftl_mul_pow2, Z.shiftr_div_pow2 by lia. rewrite p256_two by lia.
  symmetry. apply truncated_div.
Qed.

Lemma precision_full : forall n, 0 <= n -> fits_format n = true ->
  let d := compact_to_big (big_to_compact n) in
  d = n - n mod 256 ^ lost_bytes n /\
  0 <= n - d < 256 ^ lost_bytes n /\
  (lost_bytes n = 0 -> d = n).
Proof.
  intros n Hn Hfit d. subst d. rewrite precision_exact by assumption.
  split; [reflexivity|]. split; [apply truncated_bounds|apply truncated_exact].
Qed.

(** the same, spelled out without the spec abbreviations *)
Lemma precision_bounds : forall n, 0 <= n -> bytelen n <= 254 ->
  let d := compact_to_big (big_to_compact n) in
  0 <= n - d /\
  (3 < bytelen n -> 2 * n < 256 ^ bytelen n -> n - d < 256 ^ (bytelen n - 3)) /\
  (3 <= bytelen n -> 256 ^ bytelen n <= 2 * n -> n - d < 256 ^ (bytelen n - 2)) /\
  (bytelen n <= 2 \/ (bytelen n = 3 /\ 2 * n < 256 ^ bytelen n) -> d = n).
Proof.
  intros n Hn Hlen d. subst d.
  assert (Hfit : fits_format n = true).
  { unfold fits_format. apply Z.leb_le. destruct (top_set n); lia. }
  rewrite precision_exact by assumption.
  pose proof (truncated_bounds n) as TB.
  split; [lia|]. split; [|split].
  - intros Hgt Htop. apply Z.leb_gt in Htop. fold (top_set n) in Htop.
    unfold lost_bytes in TB. rewrite Htop, Z.max_r in TB by lia. apply TB.
  - intros Hge Htop. apply Z.leb_le in Htop. fold (top_set n) in Htop.
    unfold lost_bytes in TB. rewrite Htop, Z.max_r in TB by lia. apply TB.
  - intros Hcase. apply truncated_exact. unfold lost_bytes.
    destruct Hcase as [H2|[H3 Htop]].
    + destruct (top_set n); lia.
    + apply Z.leb_gt in Htop. fold (top_set n) in Htop. rewrite Htop. lia.
Qed.

(** every decoded compact value is exactly representable *)
Lemma decoded_representable : forall e m, e <= 255 -> 0 <= m < 8388608 ->
  0 < shl256 m (e - 3) ->
  fits_format (shl256 m (e - 3)) = true /\ truncated (shl256 m (e - 3)) = shl256 m (e - 3).
Proof.
  intros e m He Hm Hv. rewrite fits_format_exp by assumption.
  unfold truncated. rewrite lost_bytes_exp by assumption. revert Hv. unfold shl256.
  destruct (Z.leb_spec 0 (e - 3)) as [Hk|Hk]; intros Hv.
  - (* the mantissa shifted left: its exponent moves with it, the new low bytes are zero *)
    assert (Hmp : 0 < m) by nia.
    assert (Hb : bytelen (2 * m) <= 3).
    { apply bytelen_le; [lia|]. change (256 ^ 3) with 16777216. lia. }
    replace (2 * (m * 256 ^ (e - 3))) with (2 * m * 256 ^ (e - 3)) by ring.
    rewrite bytelen_shift by lia. split; [apply Z.leb_le; lia|].
    rewrite (mod_p256_le _ _ (e - 3)); [lia|lia|]. apply Z.mod_mul.
    pose proof (p256_pos (e - 3)). lia.
  - (* at most three bytes with the sign bit: nothing is dropped *)
    set (v := m / 256 ^ (- (e - 3))) in *.
    pose proof (p256_pos (- (e - 3))) as PP.
    assert (Hle : v <= m) by (apply Z.div_le_upper_bound; nia).
    assert (Hb : bytelen (2 * v) <= 3).
    { apply bytelen_le; [lia|]. change (256 ^ 3) with 16777216. lia. }
    split; [apply Z.leb_le; lia|].
    rewrite Z.max_l, Z.pow_0_r, Z.mod_1_r by lia. lia.
Qed.

Lemma decode_recode_mk : forall e s m, 0 <= e <= 255 -> 0 <= m < 8388608 ->
  compact_to_big (big_to_compact (compact_to_big (mk e s m))) = compact_to_big (mk e s m).
Proof.
  intros e s m He Hm. rewrite decode_mk by lia.
  pose proof (shl256_nonneg m (e - 3) (proj1 Hm)) as Hv.
  destruct (Z.eq_dec (shl256 m (e - 3)) 0) as [E0|Hnz].
  - rewrite E0. destruct s; reflexivity.
  - destruct (decoded_representable e m (proj2 He) Hm) as [Hfit Hex]; [lia|].
    rewrite roundtrip_signed, Hex by (auto || lia). reflexivity.
Qed.

Lemma decode_recode : forall c, 0 <= c < 2 ^ 32 ->
  compact_to_big (big_to_compact (compact_to_big c)) = compact_to_big c.
Proof.
  intros c Hc. change (2 ^ 32) with 4294967296 in Hc.
  destruct (mk_decompose c Hc) as [e [s [m [-> [He Hm]]]]].
  apply decode_recode_mk; assumption.
Qed.

Lemma recode_idempotent : forall c, 0 <= c < 2 ^ 32 ->
  big_to_compact (compact_to_big (big_to_compact (compact_to_big c))) =
  big_to_compact (compact_to_big c).
Proof. intros c Hc. rewrite decode_recode by assumption. reflexivity. Qed.

Lemma recode_mk_form : forall e s m, 0 <= e <= 255 -> 0 <= m < 8388608 ->
  let r := big_to_compact (compact_to_big (mk e s m)) in
  r = 0 \/ exists e' m', r = mk e' s m' /\ 1 <= e' <= 255 /\ 32768 <= m' < 8388608.
Proof.
  intros e s m He Hm r. subst r. rewrite decode_mk by lia.
  pose proof (shl256_nonneg m (e - 3) (proj1 Hm)) as Hv.
  destruct (Z.eq_dec (shl256 m (e - 3)) 0) as [E0|Hnz].
  - left. rewrite E0. destruct s; reflexivity.
  - right. assert (Hpos : 0 < shl256 m (e - 3)) by lia.
    destruct (decoded_representable e m (proj2 He) Hm Hpos) as [Hfit Hex].
    rewrite encode_signed by auto.
    rewrite fits_format_exp in Hfit by assumption. apply Z.leb_le in Hfit.
    destruct (pack_exact _ s Hpos Hfit) as [-> [R1 R2]].
    eexists _, _. split; [reflexivity|]. split; [lia|assumption].
Qed.

Lemma canonical_form : forall c, 0 <= c < 2 ^ 32 ->
  let r := big_to_compact (compact_to_big c) in
  0 <= r < 2 ^ 32 /\
  compact_to_big r = compact_to_big c /\
  big_to_compact (compact_to_big r) = r /\
  (r = 0 \/ (16777216 <= r /\ 32768 <= r mod 8388608)) /\
  (compact_to_big c = 0 -> r = 0).
Proof.
  intros c Hc r.
  assert (Hr : 0 <= r < 2 ^ 32 /\ (r = 0 \/ (16777216 <= r /\ 32768 <= r mod 8388608))).
  { subst r. change (2 ^ 32) with 4294967296 in *.
    destruct (mk_decompose c Hc) as [e [s [m [-> [He Hm]]]]].
    destruct (recode_mk_form e s m He Hm) as [->|[e' [m' [-> [He' Hm']]]]].
    - split; [lia|left; reflexivity].
    - split; [apply mk_range; lia|right].
      destruct (mk_fields e' s m') as [-> _]; [lia|].
      split; [|lia]. unfold mk. destruct s; lia. }
  subst r. split; [apply Hr|]. split; [apply decode_recode; assumption|].
  split; [apply recode_idempotent; assumption|]. split; [apply Hr|].
  intros H0. rewrite H0. reflexivity.
Qed.

Lemma calc_work_antitone : forall c1 c2,
  0 < compact_to_big c1 <= compact_to_big c2 -> calc_work c2 <= calc_work c1.
Proof.
  intros c1 c2 H. unfold calc_work.
  destruct (Z.leb_spec (compact_to_big c1) 0); [lia|].
  destruct (Z.leb_spec (compact_to_big c2) 0); [lia|].
  apply Z.div_le_compat_l; [apply Z.pow_nonneg|]; lia.
Qed.

Lemma fits_format_mono : forall t1 t2, 0 < t1 <= t2 ->
  fits_format t2 = true -> fits_format t1 = true.
Proof.
  intros t1 t2 H Hf. rewrite fits_format_exp in * by lia.
  apply Z.leb_le in Hf. apply Z.leb_le.
  pose proof (bytelen_mono (2 * t1) (2 * t2)). lia.
Qed.

(** a multiple of a power of 256 at or above the dropped bytes survives the truncation *)
Lemma truncated_ge_boundary : forall t k j, lost_bytes t <= j ->
  k * 256 ^ j <= t -> k * 256 ^ j <= truncated t.
Proof.
  intros t k j Hj Hle. rewrite truncated_div.
  pose proof (lost_bytes_nonneg t) as HL.
  pose proof (p256_pos (lost_bytes t) HL) as PQ.
  replace j with ((j - lost_bytes t) + lost_bytes t) in * by lia.
  rewrite p256_add in * by lia. rewrite Z.mul_assoc in *.
  apply Z.mul_le_mono_nonneg_r; [lia|]. apply Z.div_le_lower_bound; lia.
Qed.

Lemma truncated_pos : forall t, 0 < t -> 0 < truncated t.
Proof.
  intros t Ht. destruct (bytelen_spec t Ht) as [B1 [B2 _]].
  pose proof (p256_pos (bytelen t - 1)) as PP.
  assert (Hl : lost_bytes t <= bytelen t - 1).
  { unfold lost_bytes. destruct (top_set t); lia. }
  pose proof (truncated_ge_boundary t 1 (bytelen t - 1) Hl). lia.
Qed.

Lemma truncated_mono : forall t1 t2, 0 < t1 <= t2 -> truncated t1 <= truncated t2.
Proof.
  intros t1 t2 H.
  destruct (Z.eq_dec (lost_bytes t1) (lost_bytes t2)) as [E|NE].
  - rewrite !truncated_div, E.
    pose proof (p256_pos _ (lost_bytes_nonneg t2)) as PQ.
    apply Z.mul_le_mono_nonneg_r; [lia|]. apply Z.div_le_mono; lia.
  - (* t2 has the larger exponent, above 3: half of 256 ^ (exponent - 1) lies between
       them and is a multiple of what t2 drops *)
    pose proof (bytelen_mono (2 * t1) (2 * t2)) as Hc.
    rewrite !lost_bytes_exp in NE by lia.
    assert (HE : bytelen (2 * t1) <= bytelen (2 * t2) - 1 /\ 3 < bytelen (2 * t2)) by lia.
    clear NE Hc. destruct HE as [HE1 HE2].
    assert (Hl : lost_bytes t2 <= bytelen (2 * t2) - 2) by (rewrite lost_bytes_exp; lia).
    destruct (bytelen_spec (2 * t1)) as [_ [_ A]]; [lia|].
    destruct (bytelen_spec (2 * t2)) as [_ [B _]]; [lia|].
    pose proof (p256_le _ _ (conj (bytelen_nonneg (2 * t1)) HE1)) as P.
    rewrite (p256_pred (bytelen (2 * t2) - 1)) in B, P by lia.
    replace (bytelen (2 * t2) - 1 - 1) with (bytelen (2 * t2) - 2) in B, P by lia.
    apply Z.le_trans with (128 * 256 ^ (bytelen (2 * t2) - 2)).
    + pose proof (truncated_bounds t1). lia.
    + apply truncated_ge_boundary; [assumption|lia].
Qed.

Lemma work_antitone_encoded : forall t1 t2, 0 < t1 <= t2 -> fits_format t2 = true ->
  0 < compact_to_big (big_to_compact t1) <= compact_to_big (big_to_compact t2) /\
  calc_work (big_to_compact t2) <= calc_work (big_to_compact t1).
Proof.
  intros t1 t2 H Hf. pose proof (fits_format_mono t1 t2 H Hf) as Hf1.
  assert (Hd : 0 < compact_to_big (big_to_compact t1) <= compact_to_big (big_to_compact t2)).
  { rewrite !precision_exact by (assumption || lia).
    split; [apply truncated_pos; lia|apply truncated_mono; assumption]. }
  split; [assumption|]. apply calc_work_antitone. assumption.
Qed.

(** Without the format guard: a 255-byte integer with the top bit set needs exponent
    256, which [uint32(exponent<<24)] truncates to 0 — everything is lost. *)
Lemma precision_unguarded_refuted : ~ C20_precision_unguarded_full.
Proof.
  intros H. specialize (H (2 ^ 2039)). cbv zeta in H.
  assert (Hn : 0 <= 2 ^ 2039) by (apply Z.pow_nonneg; discriminate).
  destruct (H Hn) as [_ Hlt]. vm_compute in Hlt. discriminate.
Qed.

(** For negative integers [big.Int.Rsh] rounds the magnitude up; when the three
    leading bytes are ff ff ff and a lower byte is non-zero the mantissa becomes
    0x1000000, spills into the exponent byte and the value decodes to 0. *)
Lemma precision_negative_refuted : ~ C20_precision_negative_full.
Proof.
  intros H. specialize (H (- 0xffffff01)). cbv zeta in H.
  assert (Hlt : Z.abs (- 0xffffff01 - compact_to_big (big_to_compact (- 0xffffff01)))
                < 256 ^ lost_bytes (- - 0xffffff01)) by (apply H; [lia|reflexivity]).
  vm_compute in Hlt. discriminate.
Qed.
