(** C20 — powers of 256, byte length, bit operations as arithmetic; then decode and
    encode in arithmetic form. *)
From Coq Require Import ZArith Lia Bool.
From C33 Require Import C20.Model C20.Spec.
Open Scope Z_scope.

Lemma p256_pos : forall k, 0 <= k -> 0 < 256 ^ k.
Proof. intros k Hk. apply Z.pow_pos_nonneg; lia. Qed.

Lemma p256_add : forall a b, 0 <= a -> 0 <= b -> 256 ^ (a + b) = 256 ^ a * 256 ^ b.
Proof. intros. apply Z.pow_add_r; assumption. Qed.

Lemma p256_two : forall k, 0 <= k -> 2 ^ (8 * k) = 256 ^ k.
Proof. intros k Hk. rewrite Z.pow_mul_r by lia. reflexivity. Qed.

Lemma p256_le : forall a b, 0 <= a <= b -> 256 ^ a <= 256 ^ b.
Proof. intros. apply Z.pow_le_mono_r; lia. Qed.

Lemma p256_lt : forall a b, 0 <= a < b -> 256 ^ a < 256 ^ b.
Proof. intros. apply Z.pow_lt_mono_r; lia. Qed.

Lemma p256_succ : forall k, 0 <= k -> 256 ^ (k + 1) = 256 ^ k * 256.
Proof. intros k Hk. rewrite p256_add by lia. reflexivity. Qed.

Lemma p256_pred : forall k, 1 <= k -> 256 ^ k = 256 ^ (k - 1) * 256.
Proof. intros k Hk. rewrite <- p256_succ by lia. f_equal. lia. Qed.

Lemma mod_p256_le : forall a j k, 0 <= j <= k -> a mod 256 ^ k = 0 -> a mod 256 ^ j = 0.
Proof.
  intros a j k Hjk Hm.
  pose proof (p256_pos j) as Pj. pose proof (p256_pos k) as Pk.
  apply Z.mod_divide; [lia|]. apply Z.mod_divide in Hm; [|lia].
  apply Z.divide_trans with (256 ^ k); [|assumption].
  exists (256 ^ (k - j)). rewrite <- p256_add by lia. f_equal. lia.
Qed.

Lemma bytelen_nonpos : forall a, a <= 0 -> bytelen a = 0.
Proof. intros a Ha. unfold bytelen. destruct (Z.leb_spec a 0); [reflexivity|lia]. Qed.

Lemma bytelen_nonneg : forall a, 0 <= bytelen a.
Proof.
  intros a. unfold bytelen. destruct (Z.leb_spec a 0); [lia|].
  pose proof (Z.log2_nonneg a) as Hl.
  pose proof (Z.div_pos (Z.log2 a) 8 Hl). lia.
Qed.

Lemma bytelen_spec : forall a, 0 < a ->
  1 <= bytelen a /\ 256 ^ (bytelen a - 1) <= a < 256 ^ bytelen a.
Proof.
  intros a Ha. unfold bytelen. destruct (Z.leb_spec a 0) as [Hle|_]; [lia|].
  destruct (Z.log2_spec a Ha) as [Hlo Hhi].
  pose proof (Z.log2_nonneg a) as Hl.
  remember (Z.log2 a) as l eqn:El. clear El.
  assert (Hq : 0 <= l / 8) by (apply Z.div_pos; lia).
  assert (Hq1 : 8 * (l / 8) <= l) by (apply Z.mul_div_le; lia).
  assert (Hq2 : l < 8 * (l / 8) + 8).
  { pose proof (Z.mod_pos_bound l 8). pose proof (Z.div_mod l 8). lia. }
  replace (l / 8 + 1 - 1) with (l / 8) by lia.
  split; [lia|]. split.
  - rewrite <- p256_two by lia.
    apply Z.le_trans with (2 ^ l); [|assumption].
    apply Z.pow_le_mono_r; lia.
  - rewrite <- p256_two by lia.
    apply Z.lt_le_trans with (2 ^ Z.succ l); [assumption|].
    apply Z.pow_le_mono_r; lia.
Qed.

Lemma bytelen_unique : forall a k, 0 <= k -> 256 ^ k <= a < 256 ^ (k + 1) ->
  bytelen a = k + 1.
Proof.
  intros a k Hk [Hlo Hhi].
  pose proof (p256_pos k Hk) as Pk.
  destruct (bytelen_spec a) as [H1 [H2 H3]]; [lia|].
  destruct (Z.lt_trichotomy (bytelen a) (k + 1)) as [Hlt|[Heq|Hgt]]; [|assumption|].
  - pose proof (p256_le (bytelen a) k). lia.
  - pose proof (p256_le (k + 1) (bytelen a - 1)). lia.
Qed.

Lemma bytelen_le : forall a k, 0 <= k -> 0 < a < 256 ^ k -> bytelen a <= k.
Proof.
  intros a k Hk [Ha Hlt].
  destruct (bytelen_spec a Ha) as [H1 [H2 _]].
  destruct (Z.le_gt_cases (bytelen a) k) as [|Hgt]; [assumption|].
  pose proof (p256_le k (bytelen a - 1)). lia.
Qed.

Lemma bytelen_mono : forall t1 t2, 0 < t1 <= t2 -> bytelen t1 <= bytelen t2.
Proof.
  intros t1 t2 [H1 H12].
  destruct (bytelen_spec t1 H1) as [A1 [A2 A3]].
  destruct (bytelen_spec t2) as [B1 [B2 B3]]; [lia|].
  destruct (Z.le_gt_cases (bytelen t1) (bytelen t2)) as [|Hgt]; [assumption|].
  pose proof (p256_le (bytelen t2) (bytelen t1 - 1)). lia.
Qed.

Lemma bytelen_shift : forall a k, 0 < a -> 0 <= k -> bytelen (a * 256 ^ k) = bytelen a + k.
Proof.
  intros a k Ha Hk. destruct (bytelen_spec a Ha) as [H1 [Hlo Hhi]].
  pose proof (p256_pos k Hk) as Pk.
  replace (bytelen a + k) with (bytelen a - 1 + k + 1) by lia.
  apply bytelen_unique; [lia|].
  replace (bytelen a - 1 + k + 1) with (bytelen a + k) by lia.
  rewrite !p256_add by lia. split.
  - apply Z.mul_le_mono_nonneg_r; lia.
  - apply Z.mul_lt_mono_pos_r; lia.
Qed.

(** The exponent byte the encoder emits is the byte length of [2 * a]: of the magnitude
    with room for the sign bit. *)
Lemma bytelen_double : forall a, 0 < a ->
  bytelen (2 * a) = bytelen a + (if top_set a then 1 else 0).
Proof.
  intros a Ha. destruct (bytelen_spec a Ha) as [H1 [Hlo Hhi]].
  pose proof (p256_pred (bytelen a) H1) as S.
  pose proof (p256_pos (bytelen a - 1)) as PP.
  unfold top_set. destruct (Z.leb_spec (256 ^ bytelen a) (2 * a)).
  - apply bytelen_unique; [lia|]. rewrite p256_succ by lia. lia.
  - replace (bytelen a + 0) with (bytelen a - 1 + 1) by lia.
    apply bytelen_unique; [lia|]. replace (bytelen a - 1 + 1) with (bytelen a) by lia. lia.
Qed.

Lemma lost_bytes_exp : forall a, 0 < a -> lost_bytes a = Z.max 0 (bytelen (2 * a) - 3).
Proof.
  intros a Ha. rewrite bytelen_double by assumption.
  unfold lost_bytes. destruct (top_set a); f_equal; lia.
Qed.

Lemma fits_format_exp : forall a, 0 < a -> fits_format a = (bytelen (2 * a) <=? 255).
Proof. intros a Ha. rewrite bytelen_double by assumption. reflexivity. Qed.

Lemma land_mask23 : forall c, Z.land c 0x007fffff = c mod 8388608.
Proof.
  intros c. change 0x007fffff with (Z.ones 23). change 8388608 with (2 ^ 23).
  apply Z.land_ones. lia.
Qed.

Lemma land_bit23 : forall c, (Z.land c 0x00800000 =? 0) = negb (Z.testbit c 23).
Proof.
  intros c. destruct (Z.testbit c 23) eqn:T; cbn [negb].
  - apply Z.eqb_neq. intro H0.
    assert (Hb : Z.testbit (Z.land c 0x00800000) 23 = true).
    { rewrite Z.land_spec, T. reflexivity. }
    rewrite H0, Z.bits_0 in Hb. discriminate.
  - apply Z.eqb_eq. apply Z.bits_inj'. intros n Hn.
    rewrite Z.land_spec, Z.bits_0. change 0x00800000 with (2 ^ 23).
    rewrite Z.pow2_bits_eqb by lia.
    destruct (Z.eqb_spec 23 n) as [<-|_]; [rewrite T; reflexivity|apply andb_false_r].
Qed.

Lemma testbit23_arith : forall c s, (c / 8388608) mod 2 = Z.b2z s -> Z.testbit c 23 = s.
Proof.
  intros c s H. pose proof (Z.testbit_spec' c 23) as Hs.
  change (2 ^ 23) with 8388608 in Hs. rewrite H in Hs.
  apply Z.b2z_inj. apply Hs. lia.
Qed.

Lemma land_disjoint : forall a b k, 0 <= k -> 0 <= b < 2 ^ k -> Z.land (a * 2 ^ k) b = 0.
Proof.
  intros a b k Hk Hb. apply Z.bits_inj'. intros n Hn.
  rewrite Z.land_spec, Z.bits_0.
  destruct (Z.lt_ge_cases n k) as [Hlt|Hge].
  - rewrite Z.mul_pow2_bits_low by lia. reflexivity.
  - replace (Z.testbit b n) with false; [apply andb_false_r|].
    symmetry. apply Z.testbit_false; [lia|].
    rewrite Z.div_small; [reflexivity|]. split; [lia|].
    apply Z.lt_le_trans with (2 ^ k); [lia|]. apply Z.pow_le_mono_r; lia.
Qed.

Lemma lor_add : forall a b k, 0 <= k -> 0 <= b < 2 ^ k -> Z.lor (a * 2 ^ k) b = a * 2 ^ k + b.
Proof.
  intros a b k Hk Hb. pose proof (land_disjoint a b k Hk Hb) as Hd.
  rewrite <- Z.lxor_lor by assumption. symmetry. apply Z.add_nocarry_lxor. assumption.
Qed.

Lemma u32_small : forall x, 0 <= x < 4294967296 -> u32 x = x.
Proof. intros x Hx. unfold u32. apply Z.mod_small. change (2 ^ 32) with 4294967296. lia. Qed.

Lemma testbit23_small : forall m, 0 <= m < 16777216 -> Z.testbit m 23 = (8388608 <=? m).
Proof.
  intros m Hm. apply testbit23_arith.
  destruct (Z.leb_spec 8388608 m) as [Hge|Hlt]; cbn [Z.b2z].
  - replace m with ((m - 8388608) + 1 * 8388608) by lia.
    rewrite Z.div_add by lia. rewrite Z.div_small by lia. reflexivity.
  - rewrite Z.div_small by lia. reflexivity.
Qed.

(** Arithmetic view of a compact value: exponent byte, sign bit, 23-bit mantissa. *)
Definition mk (e : Z) (s : bool) (m : Z) : Z :=
  e * 16777216 + (if s then 8388608 else 0) + m.

Lemma mk_range : forall e s m, 0 <= e <= 255 -> 0 <= m < 8388608 ->
  0 <= mk e s m < 4294967296.
Proof. intros e s m He Hm. unfold mk. destruct s; lia. Qed.

Lemma mk_decompose : forall c, 0 <= c < 4294967296 ->
  exists e s m, c = mk e s m /\ 0 <= e <= 255 /\ 0 <= m < 8388608.
Proof.
  intros c Hc.
  exists (c / 16777216), ((c / 8388608) mod 2 =? 1), (c mod 8388608).
  pose proof (Z.div_mod c 8388608). pose proof (Z.mod_pos_bound c 8388608).
  pose proof (Z.div_mod (c / 8388608) 2). pose proof (Z.mod_pos_bound (c / 8388608) 2).
  assert (c / 16777216 = (c / 8388608) / 2) by (rewrite Z.div_div by lia; reflexivity).
  unfold mk. destruct (Z.eqb_spec ((c / 8388608) mod 2) 1); lia.
Qed.

Lemma mk_fields : forall e s m, 0 <= m < 8388608 ->
  mk e s m mod 8388608 = m /\ mk e s m / 16777216 = e /\ Z.testbit (mk e s m) 23 = s.
Proof.
  intros e s m Hm. unfold mk. split; [|split].
  - replace (e * 16777216 + (if s then 8388608 else 0) + m)
      with (m + (e * 2 + (if s then 1 else 0)) * 8388608) by (destruct s; lia).
    rewrite Z.mod_add by lia. apply Z.mod_small. lia.
  - replace (e * 16777216 + (if s then 8388608 else 0) + m)
      with ((if s then 8388608 else 0) + m + e * 16777216) by lia.
    rewrite Z.div_add by lia. rewrite Z.div_small by (destruct s; lia). lia.
  - apply testbit23_arith.
    replace (e * 16777216 + (if s then 8388608 else 0) + m)
      with (m + (e * 2 + Z.b2z s) * 8388608) by (destruct s; cbn [Z.b2z]; lia).
    rewrite Z.div_add by lia. rewrite (Z.div_small m) by lia.
    replace (0 + (e * 2 + Z.b2z s)) with (Z.b2z s + e * 2) by lia.
    rewrite Z.mod_add by lia. apply Z.mod_small. destruct s; cbn [Z.b2z]; lia.
Qed.

(** [x * 256 ^ k] rounded down, for [k] of either sign: the decoder scales the mantissa
    by [e - 3], the encoder scales the magnitude by [3 - e] *)
Definition shl256 (x k : Z) : Z := if 0 <=? k then x * 256 ^ k else x / 256 ^ (- k).

Lemma shl256_nonneg : forall m k, 0 <= m -> 0 <= shl256 m k.
Proof.
  intros m k Hm. unfold shl256. destruct (Z.leb_spec 0 k).
  - apply Z.mul_nonneg_nonneg; [assumption|]. pose proof (p256_pos k). lia.
  - apply Z.div_pos; [lia|apply p256_pos; lia].
Qed.

Lemma shl256_lower : forall x k b i, 0 <= i -> 0 <= i + k ->
  b * 256 ^ i <= x -> b * 256 ^ (i + k) <= shl256 x k.
Proof.
  intros x k b i Hi Hik Hx. unfold shl256. destruct (Z.leb_spec 0 k) as [Hk|Hk].
  - rewrite p256_add, Z.mul_assoc by lia.
    apply Z.mul_le_mono_nonneg_r; [|assumption]. pose proof (p256_pos k). lia.
  - pose proof (p256_pos (- k)). apply Z.div_le_lower_bound; [lia|].
    replace i with (i + k + - k) in Hx by lia. rewrite p256_add in Hx by lia. lia.
Qed.

Lemma shl256_upper : forall x k b i, 0 <= i -> 0 <= i + k ->
  x < b * 256 ^ i -> shl256 x k < b * 256 ^ (i + k).
Proof.
  intros x k b i Hi Hik Hx. unfold shl256. destruct (Z.leb_spec 0 k) as [Hk|Hk].
  - rewrite p256_add, Z.mul_assoc by lia.
    apply Z.mul_lt_mono_pos_r; [apply p256_pos|]; assumption.
  - pose proof (p256_pos (- k)). apply Z.div_lt_upper_bound; [lia|].
    replace i with (i + k + - k) in Hx by lia. rewrite p256_add in Hx by lia. lia.
Qed.

Lemma shl256_pred : forall x k, shl256 x k / 256 = shl256 x (k - 1).
Proof.
  intros x k. unfold shl256.
  destruct (Z.leb_spec 0 k) as [Hk|Hk]; destruct (Z.leb_spec 0 (k - 1)) as [Hk1|Hk1]; try lia.
  - replace k with (k - 1 + 1) at 1 by lia. rewrite p256_succ, Z.mul_assoc by lia.
    apply Z.div_mul. lia.
  - replace k with 0 by lia. change (x * 1 / 256 = x / 256). rewrite Z.mul_1_r. reflexivity.
  - pose proof (p256_pos (- k)). rewrite Z.div_div by lia.
    replace (- (k - 1)) with (- k + 1) by lia. rewrite p256_succ by lia. reflexivity.
Qed.

Lemma div_mul_trunc : forall a Q, 0 < Q -> a / Q * Q = a - a mod Q.
Proof. intros a Q HQ. rewrite Z.mod_eq by lia. ring. Qed.

(** scaling down and up again zeroes the low bytes; scaling up and down again loses nothing *)
Lemma shl256_back : forall a j k, j + k = 0 ->
  shl256 (shl256 a j) k = a - a mod 256 ^ Z.max 0 k.
Proof.
  intros a j k Hjk. replace j with (- k) by lia. unfold shl256.
  destruct (Z.leb_spec 0 k) as [Hk|Hk]; destruct (Z.leb_spec 0 (- k)) as [Hk'|Hk']; try lia.
  - replace k with 0 by lia. change (a * 1 * 1 = a - a mod 1). rewrite Z.mod_1_r. lia.
  - rewrite Z.opp_involutive, Z.max_r by lia. apply div_mul_trunc, p256_pos. assumption.
  - rewrite Z.max_l, Z.pow_0_r, Z.mod_1_r, Z.sub_0_r by lia.
    apply Z.div_mul. pose proof (p256_pos (- k)). lia.
Qed.

Lemma decode_mk : forall e s m, 0 <= e -> 0 <= m < 8388608 ->
  compact_to_big (mk e s m) = if s then - shl256 m (e - 3) else shl256 m (e - 3).
Proof.
  intros e s m He Hm. destruct (mk_fields e s m Hm) as [F1 [F2 F3]].
  unfold compact_to_big. cbv zeta.
  rewrite land_mask23, land_bit23, negb_involutive, Z.shiftr_div_pow2 by lia.
  change (2 ^ 24) with 16777216. rewrite F1, F2, F3.
  unfold shl256.
  destruct (Z.leb_spec e 3) as [Hle|Hgt]; destruct (Z.leb_spec 0 (e - 3)) as [Hk|Hk]; try lia.
  - replace e with 3 by lia. change (8 * (3 - 3)) with 0. change (3 - 3) with 0.
    rewrite Z.shiftr_0_r, Z.pow_0_r, Z.mul_1_r. reflexivity.
  - rewrite Z.shiftr_div_pow2, p256_two by lia. replace (- (e - 3)) with (3 - e) by lia. reflexivity.
  - rewrite Z.shiftl_mul_pow2, p256_two by lia. reflexivity.
Qed.

(** BigToCompact split into "mantissa" and "pack". *)
Definition mant_of (n : Z) : Z :=
  let a := Z.abs n in
  let exponent := bytelen a in
  if exponent <=? 3
  then u32 (Z.shiftl (u32 a) (8 * (3 - exponent)))
  else u32 (Z.abs (Z.shiftr n (8 * (exponent - 3)))).

Definition pack (exponent mantissa : Z) (neg : bool) : Z :=
  let adj := negb (Z.land mantissa 0x00800000 =? 0) in
  let mantissa' := if adj then Z.shiftr mantissa 8 else mantissa in
  let exponent' := if adj then exponent + 1 else exponent in
  let compact := Z.lor (u32 (Z.shiftl exponent' 24)) mantissa' in
  if neg then Z.lor compact 0x00800000 else compact.

Lemma encode_unfold : forall n,
  big_to_compact n =
  if n =? 0 then 0 else pack (bytelen (Z.abs n)) (mant_of n) (n <? 0).
Proof. intros n. reflexivity. Qed.

(** the mantissa before the sign-bit adjustment is the magnitude scaled to three bytes *)
Lemma mant24_range : forall a, 0 < a -> 65536 <= shl256 a (3 - bytelen a) < 16777216.
Proof.
  intros a Ha. destruct (bytelen_spec a Ha) as [H1 [Hlo Hhi]].
  pose proof (shl256_lower a (3 - bytelen a) 1 (bytelen a - 1)) as L.
  pose proof (shl256_upper a (3 - bytelen a) 1 (bytelen a)) as U.
  replace (bytelen a - 1 + (3 - bytelen a)) with 2 in L by lia.
  replace (bytelen a + (3 - bytelen a)) with 3 in U by lia.
  change (256 ^ 2) with 65536 in L. change (256 ^ 3) with 16777216 in U. lia.
Qed.

(** For a negative number [big.Int.Rsh] rounds the magnitude up, so its mantissa is
    the scaled magnitude only when the dropped bytes are zero. *)
Lemma mant_signed : forall a s, 0 < a ->
  (s = true -> 3 < bytelen a -> a mod 256 ^ (bytelen a - 3) = 0) ->
  mant_of (if s then - a else a) = shl256 a (3 - bytelen a).
Proof.
  intros a s Ha Hex. pose proof (mant24_range a Ha) as R. revert R.
  unfold mant_of, shl256. cbv zeta.
  replace (Z.abs (if s then - a else a)) with a by (destruct s; lia).
  destruct (bytelen_spec a Ha) as [H1 [_ Hhi]].
  destruct (Z.leb_spec (bytelen a) 3) as [Hle|Hgt];
    destruct (Z.leb_spec 0 (3 - bytelen a)) as [Hk|Hk]; try lia; intros R.
  - pose proof (p256_le (bytelen a) 3) as P3. change (256 ^ 3) with 16777216 in P3.
    rewrite (u32_small a) by lia.
    rewrite Z.shiftl_mul_pow2, p256_two by lia. apply u32_small. lia.
  - replace (- (3 - bytelen a)) with (bytelen a - 3) in * by lia.
    pose proof (p256_pos (bytelen a - 3)) as PP.
    rewrite Z.shiftr_div_pow2, p256_two by lia.
    replace (Z.abs ((if s then - a else a) / 256 ^ (bytelen a - 3)))
      with (a / 256 ^ (bytelen a - 3)); [apply u32_small; lia|].
    destruct s.
    + rewrite Z_div_zero_opp_full by auto. lia.
    + lia.
Qed.

Lemma adj_top : forall a, 0 < a -> (8388608 <=? shl256 a (3 - bytelen a)) = top_set a.
Proof.
  intros a Ha. destruct (bytelen_spec a Ha) as [H1 _]. unfold top_set.
  pose proof (p256_pred (bytelen a) H1) as S.
  pose proof (shl256_lower a (3 - bytelen a) 128 (bytelen a - 1)) as L.
  pose proof (shl256_upper a (3 - bytelen a) 128 (bytelen a - 1)) as U.
  replace (bytelen a - 1 + (3 - bytelen a)) with 2 in L, U by lia.
  change (256 ^ 2) with 65536 in L, U.
  destruct (Z.leb_spec 8388608 (shl256 a (3 - bytelen a)));
    destruct (Z.leb_spec (256 ^ bytelen a) (2 * a)); try reflexivity; lia.
Qed.

Lemma pack_spec : forall e mant s, 0 <= e -> 0 <= mant < 16777216 ->
  e + (if 8388608 <=? mant then 1 else 0) <= 255 ->
  pack e mant s =
  mk (e + (if 8388608 <=? mant then 1 else 0)) s
     (if 8388608 <=? mant then mant / 256 else mant).
Proof.
  intros e mant s He Hm Hfit. unfold pack. cbv zeta.
  rewrite land_bit23, negb_involutive, (testbit23_small mant Hm).
  rewrite Z.shiftr_div_pow2 by lia. change (2 ^ 8) with 256.
  set (adj := 8388608 <=? mant) in *.
  set (m' := if adj then mant / 256 else mant).
  assert (Hm' : 0 <= m' < 8388608).
  { subst m' adj. destruct (Z.leb_spec 8388608 mant).
    - split; [apply Z.div_pos; lia|apply Z.div_lt_upper_bound; lia].
    - lia. }
  replace (if adj then e + 1 else e) with (e + (if adj then 1 else 0)) by (destruct adj; lia).
  set (e' := e + (if adj then 1 else 0)) in *.
  assert (He' : 0 <= e' <= 255) by (subst e'; destruct adj; lia).
  rewrite Z.shiftl_mul_pow2 by lia. rewrite u32_small by (change (2 ^ 24) with 16777216; lia).
  unfold mk. destruct s.
  - rewrite <- Z.lor_assoc. rewrite (Z.lor_comm m').
    change 0x00800000 with (1 * 2 ^ 23).
    rewrite (lor_add 1 m' 23) by (change (2 ^ 23) with 8388608; lia).
    rewrite lor_add by (change (2 ^ 23) with 8388608; change (2 ^ 24) with 16777216; lia).
    change (2 ^ 24) with 16777216. change (2 ^ 23) with 8388608. lia.
  - rewrite lor_add by (change (2 ^ 24) with 16777216; lia).
    change (2 ^ 24) with 16777216. lia.
Qed.

Lemma pack_exact : forall a s, 0 < a -> bytelen (2 * a) <= 255 ->
  pack (bytelen a) (shl256 a (3 - bytelen a)) s =
  mk (bytelen (2 * a)) s (shl256 a (3 - bytelen (2 * a)))
  /\ 1 <= bytelen (2 * a)
  /\ 32768 <= shl256 a (3 - bytelen (2 * a)) < 8388608.
Proof.
  intros a s Ha Hfit.
  pose proof (mant24_range a Ha) as R. pose proof (adj_top a Ha) as AT.
  destruct (bytelen_spec a Ha) as [B1 _].
  rewrite bytelen_double in * by assumption.
  rewrite pack_spec by (rewrite ?AT; lia). rewrite AT.
  replace (3 - (bytelen a + (if top_set a then 1 else 0)))
    with (3 - bytelen a - (if top_set a then 1 else 0)) by lia.
  destruct (top_set a).
  - rewrite <- (shl256_pred a (3 - bytelen a)). apply Z.leb_le in AT.
    split; [reflexivity|]. split; [lia|].
    split; [apply Z.div_le_lower_bound; lia|apply Z.div_lt_upper_bound; lia].
  - apply Z.leb_gt in AT. rewrite Z.sub_0_r. split; [reflexivity|lia].
Qed.

Lemma decode_pack : forall a s, 0 < a -> fits_format a = true ->
  compact_to_big (pack (bytelen a) (shl256 a (3 - bytelen a)) s) =
  if s then - truncated a else truncated a.
Proof.
  intros a s Ha Hfit. rewrite fits_format_exp in Hfit by assumption. apply Z.leb_le in Hfit.
  destruct (pack_exact a s Ha Hfit) as [-> [He Hm]].
  rewrite decode_mk by lia. rewrite shl256_back by lia.
  unfold truncated. rewrite lost_bytes_exp by assumption. reflexivity.
Qed.
