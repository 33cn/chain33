(** C13 — proofs, part 1: permutations, sorting, the map-iteration and
    schedule combinators. *)
From Coq Require Import List NArith Arith Bool Permutation Sorted Lia.
From C33 Require Import Lib.Harness Lib.Bytes C13.Model C13.Spec.
Import ListNotations.

Definition is_perm (pi : list nat) (n : nat) : Prop := Permutation pi (seq 0 n).

Lemma is_perm_id n : is_perm (seq 0 n) n.
Proof. apply Permutation_refl. Qed.

Lemma is_permb_sound pi n : is_permb pi n = true -> is_perm pi n.
Proof.
  unfold is_permb, is_perm. intro H. apply andb_true_iff in H as [Hl Hin].
  apply Nat.eqb_eq in Hl. apply Permutation_sym.
  apply NoDup_Permutation_bis.
  - apply seq_NoDup.
  - rewrite seq_length. lia.
  - intros i Hi. rewrite forallb_forall in Hin. specialize (Hin i Hi).
    apply existsb_exists in Hin as [j [Hj E]]. apply Nat.eqb_eq in E. subst. exact Hj.
Qed.

Definition pick {A} (l : list A) (i : nat) : list A :=
  match nth_error l i with Some x => [x] | None => [] end.

Lemma apply_perm_unfold {A} pi (l : list A) : apply_perm pi l = flat_map (pick l) pi.
Proof. reflexivity. Qed.

Lemma flat_map_perm {A B} (f : A -> list B) l l' :
  Permutation l l' -> Permutation (flat_map f l) (flat_map f l').
Proof.
  induction 1; simpl.
  - constructor.
  - apply Permutation_app_head. assumption.
  - rewrite !app_assoc. apply Permutation_app_tail. apply Permutation_app_comm.
  - eapply Permutation_trans; eassumption.
Qed.

Lemma apply_perm_id {A} (l : list A) : apply_perm (seq 0 (length l)) l = l.
Proof.
  unfold apply_perm. rewrite flat_map_concat_map.
  induction l as [|x l IH]; simpl; [reflexivity|].
  rewrite <- seq_shift, map_map. f_equal. exact IH.
Qed.

Lemma apply_perm_permutation {A} pi (l : list A) :
  is_perm pi (length l) -> Permutation (apply_perm pi l) l.
Proof.
  intro H. rewrite <- (apply_perm_id l) at 2. apply flat_map_perm. exact H.
Qed.

Definition le_str (a b : bytes) : Prop := bleb a b = true.

Lemma sinsert_perm x l : Permutation (sinsert x l) (x :: l).
Proof.
  induction l as [|y l IH]; simpl.
  - apply Permutation_refl.
  - destruct (bleb x y).
    + apply Permutation_refl.
    + eapply Permutation_trans; [apply perm_skip; exact IH | apply perm_swap].
Qed.

Lemma sort_perm l : Permutation (sort_strings l) l.
Proof.
  induction l as [|x l IH]; simpl.
  - constructor.
  - eapply Permutation_trans; [apply sinsert_perm | apply perm_skip; exact IH].
Qed.

Lemma sinsert_sorted x l : StronglySorted le_str l -> StronglySorted le_str (sinsert x l).
Proof.
  induction 1 as [|y l Hs IH Hall]; simpl.
  - repeat constructor.
  - destruct (bleb x y) eqn:E.
    + constructor.
      * constructor; assumption.
      * constructor; [exact E|].
        eapply Forall_impl; [|exact Hall]. intros z Hz. unfold le_str in *.
        eapply bleb_trans; eassumption.
    + constructor; [exact IH|].
      assert (Hyx : le_str y x).
      { unfold le_str. destruct (bleb_total x y) as [H|H]; [congruence|exact H]. }
      eapply Permutation_Forall; [apply Permutation_sym; apply sinsert_perm|].
      constructor; assumption.
Qed.

Lemma sort_sorted l : StronglySorted le_str (sort_strings l).
Proof.
  induction l as [|x l IH]; simpl; [constructor | apply sinsert_sorted; exact IH].
Qed.

Lemma sorted_perm_unique l1 : forall l2,
  StronglySorted le_str l1 -> StronglySorted le_str l2 -> Permutation l1 l2 -> l1 = l2.
Proof.
  induction l1 as [|x l1 IH]; intros l2 H1 H2 P.
  - apply Permutation_nil in P. congruence.
  - destruct l2 as [|y l2]; [apply Permutation_sym, Permutation_nil in P; discriminate|].
    inversion H1 as [|? ? S1 F1]; subst. inversion H2 as [|? ? S2 F2]; subst.
    assert (x = y).
    { assert (Hx : In x (y :: l2)) by (eapply Permutation_in; [exact P|left; reflexivity]).
      assert (Hy : In y (x :: l1)) by (eapply Permutation_in; [apply Permutation_sym; exact P|left; reflexivity]).
      destruct Hx as [->|Hx]; [reflexivity|]. destruct Hy as [->|Hy]; [reflexivity|].
      rewrite Forall_forall in F1, F2. apply bleb_antisym; [apply F1; exact Hy | apply F2; exact Hx]. }
    subst y. f_equal. apply IH; try assumption. eapply Permutation_cons_inv; exact P.
Qed.

Lemma sort_perm_invariant l l' : Permutation l l' -> sort_strings l = sort_strings l'.
Proof.
  intro P. apply sorted_perm_unique; try apply sort_sorted.
  eapply Permutation_trans; [apply sort_perm|].
  eapply Permutation_trans; [exact P|]. apply Permutation_sym, sort_perm.
Qed.

Theorem plugin_names_independent pi keys :
  is_perm pi (length keys) ->
  plugin_names pi keys = sort_strings keys
  /\ StronglySorted le_str (plugin_names pi keys)
  /\ Permutation (plugin_names pi keys) keys.
Proof.
  intro H. unfold plugin_names.
  assert (E : sort_strings (apply_perm pi keys) = sort_strings keys)
    by (apply sort_perm_invariant, apply_perm_permutation; exact H).
  split; [exact E|]. split; [apply sort_sorted|].
  rewrite E. apply sort_perm.
Qed.

Corollary plugin_names_any_two pi pi' keys :
  is_perm pi (length keys) -> is_perm pi' (length keys) ->
  plugin_names pi keys = plugin_names pi' keys.
Proof.
  intros H H'. destruct (plugin_names_independent pi keys H) as [E _].
  destruct (plugin_names_independent pi' keys H') as [E' _]. congruence.
Qed.

Theorem tx_sort_independent {T} (execer : T -> bytes) pi txs :
  is_perm pi (length (group_from execer [] txs)) ->
  tx_sort execer pi txs = tx_sort_id execer txs.
Proof.
  intro H. unfold tx_sort_id, tx_sort.
  set (m := group_from execer [] txs) in *.
  f_equal. apply sort_perm_invariant.
  rewrite <- (map_length fst m) in *.
  eapply Permutation_trans.
  - apply apply_perm_permutation, H.
  - apply Permutation_sym, apply_perm_permutation, is_perm_id.
Qed.

Lemma drain_forallb rs : drain rs = forallb (fun b => b) rs.
Proof. induction rs as [|[] rs IH]; simpl; auto. Qed.

Lemma forallb_perm {A} (f : A -> bool) l l' : Permutation l l' -> forallb f l = forallb f l'.
Proof.
  induction 1; simpl; try congruence.
  destruct (f x), (f y); reflexivity.
Qed.

Theorem verify_sigs_independent pi oks :
  is_perm pi (length oks) -> verify_sigs pi oks = forallb (fun b => b) oks.
Proof.
  intro H. unfold verify_sigs. destruct oks as [|o oks]; [reflexivity|].
  rewrite drain_forallb. apply forallb_perm. apply apply_perm_permutation. exact H.
Qed.

Lemma set_nth_length {A} i (x : A) l : length (set_nth i x l) = length l.
Proof.
  revert i; induction l as [|y l IH]; intros [|i]; simpl; auto.
Qed.

Lemma nth_error_set_nth {A} i (x : A) l j :
  nth_error (set_nth i x l) j =
  if Nat.eqb i j then (if j <? length l then Some x else None) else nth_error l j.
Proof.
  revert i j; induction l as [|y l IH]; intros i j.
  - destruct i, j; simpl; try reflexivity; destruct (Nat.eqb i j); reflexivity.
  - destruct i as [|i], j as [|j]; simpl; try reflexivity.
    rewrite IH. destruct (Nat.eqb i j); [|reflexivity].
    change (S j <? S (length l)) with (j <? length l). reflexivity.
Qed.

Lemma gather_fold_length {A} (res : nat -> A) sched : forall acc,
  length (fold_left (fun acc i => set_nth i (Some (res i)) acc) sched acc) = length acc.
Proof.
  induction sched as [|i sched IH]; intro acc; simpl; [reflexivity|].
  rewrite IH. apply set_nth_length.
Qed.

Lemma gather_fold_nth {A} (res : nat -> A) sched : forall acc j,
  j < length acc ->
  nth_error (fold_left (fun acc i => set_nth i (Some (res i)) acc) sched acc) j =
  if existsb (Nat.eqb j) sched then Some (Some (res j)) else nth_error acc j.
Proof.
  induction sched as [|i sched IH]; intros acc j Hj; simpl; [reflexivity|].
  rewrite IH by (rewrite set_nth_length; exact Hj).
  rewrite nth_error_set_nth.
  destruct (existsb (Nat.eqb j) sched) eqn:Ex.
  - rewrite orb_true_r. reflexivity.
  - rewrite orb_false_r. rewrite (Nat.eqb_sym j i).
    destruct (Nat.eqb i j) eqn:E; [|reflexivity].
    apply Nat.eqb_eq in E. subst i.
    apply Nat.ltb_lt in Hj. rewrite Hj. reflexivity.
Qed.

Lemma tabulate_eq {B} (l : list B) : forall (f : nat -> B) n,
  length l = n -> (forall j, j < n -> nth_error l j = Some (f j)) -> l = map f (seq 0 n).
Proof.
  induction l as [|x l IH]; intros f n <- H; [reflexivity|].
  cbn [length seq map]. rewrite <- seq_shift, map_map. f_equal.
  - specialize (H 0 (Nat.lt_0_succ _)). injection H as H. exact H.
  - apply IH; [reflexivity|]. intros j Hj. apply (H (S j)), le_n_S, Hj.
Qed.

Lemma map_seq_eq {A B} (g : A -> B) (l : list A) : forall f : nat -> B,
  (forall i x, nth_error l i = Some x -> f i = g x) -> map f (seq 0 (length l)) = map g l.
Proof.
  induction l as [|x l IH]; intros f H; simpl; [reflexivity|].
  rewrite <- seq_shift, map_map. f_equal; [exact (H 0 x eq_refl)|].
  apply IH. intros i y. exact (H (S i) y).
Qed.

(** for any completion order, permutation or not: a task that never reports
    leaves its slot empty, one that reports twice changes nothing *)
Theorem gather_spec {A} (res : nat -> A) sched n :
  gather sched res n =
  map (fun j => if existsb (Nat.eqb j) sched then Some (res j) else None) (seq 0 n).
Proof.
  unfold gather. apply tabulate_eq.
  - rewrite gather_fold_length. apply repeat_length.
  - intros j Hj. rewrite gather_fold_nth by (rewrite repeat_length; exact Hj).
    rewrite nth_error_repeat by exact Hj. destruct (existsb (Nat.eqb j) sched); reflexivity.
Qed.

Theorem gather_independent {A} (res : nat -> A) sched n :
  is_perm sched n -> gather sched res n = map (fun i => Some (res i)) (seq 0 n).
Proof.
  intro H. rewrite gather_spec. apply map_ext_in. intros j Hj.
  replace (existsb (Nat.eqb j) sched) with true; [reflexivity|].
  symmetry. apply existsb_exists. exists j. split; [|apply Nat.eqb_refl].
  exact (Permutation_in j (Permutation_sym H) Hj).
Qed.

Corollary gather_any_two {A} (res : nat -> A) s s' n :
  is_perm s n -> is_perm s' n -> gather s res n = gather s' res n.
Proof. intros H H'. rewrite (gather_independent res s n H), (gather_independent res s' n H'). reflexivity. Qed.

Theorem par_root_independent {H} (sub : list H -> H) (top : list (option H) -> H) sched step hashes :
  is_perm sched (length (chunks_of (length hashes) step hashes)) ->
  par_root sub top sched step hashes =
  top (map (fun c => Some (sub c)) (chunks_of (length hashes) step hashes)).
Proof.
  intro Hp. unfold par_root.
  rewrite (gather_independent _ sched _ Hp). f_equal.
  apply map_seq_eq. intros i c E. rewrite (nth_error_nth _ _ [] E). reflexivity.
Qed.

Definition rows_of {H} (single : nat -> nat -> H) (cs : list (bytes * nat * nat))
  : list (bytes * nat * nat * option H) :=
  map (fun r => match r with (t, s, c) => (t, s, c, Some (single s c)) end) cs.

Lemma combine_map_self {A B} (f : A -> B) l : combine l (map f l) = map (fun x => (x, f x)) l.
Proof. induction l; simpl; congruence. Qed.

Theorem multi_layer_independent {H} (single : nat -> nat -> H) (top : list (option H) -> H) sched execs cs :
  cs = seg_counts (length execs) (segs_from 0 [] execs) ->
  is_perm sched (length cs) ->
  2 <= length cs ->
  multi_layer single top sched execs =
  Some (top (map (fun r => match r with (_, s, c) => Some (single s c) end) cs), rows_of single cs).
Proof.
  intros Ecs Hp H2.
  assert (G : gather sched (fun i => match nth_error cs i with
                                     | Some (_, s, c) => single s c
                                     | None => single 0 0 end) (length cs)
              = map (fun r => match r with (_, s, c) => Some (single s c) end) cs).
  { rewrite (gather_independent _ sched (length cs) Hp).
    apply map_seq_eq. intros i [[t s] c] E. rewrite E. reflexivity. }
  assert (R : combine cs (map (fun r => match r with (_, s, c) => Some (single s c) end) cs)
              = rows_of single cs).
  { unfold rows_of. rewrite combine_map_self. apply map_ext. intros [[t s] c]. reflexivity. }
  unfold multi_layer. rewrite <- Ecs.
  destruct execs as [|e execs].
  - simpl in Ecs. subst cs. simpl in H2. lia.
  - destruct cs as [|[[t1 s1] c1] [|r2 rest]]; [simpl in H2; lia | simpl in H2; lia |].
    rewrite G, R. reflexivity.
Qed.
