(** C13 — proofs, part 3: the transaction root does not depend on the CPU count
    nor on the completion order of the chunk goroutines.

    The schedule half is C13's own [par_root_independent]; the CPU-count half is
    C18's [parallel_eq_sequential] (chunked + padded root = sequential root for
    every worker count), imported, not re-proved.  What is proved here is the
    bridge: C13's step-sized slicing [chunks_of] lists exactly C18's [chunk_of]
    slices, as many as C18 counts; so the number of chunk goroutines is a
    function of the length alone ([task_count]). *)
From Coq Require Import List ZArith Arith Bool Lia Permutation.
From C33 Require Import C13.Model C13.ModelRoot C13.Proofs.
From C33 Require C18.Model C18.ProofsPar.
Import ListNotations.
Open Scope nat_scope.

(** number of step-sized slices of [n] elements, as GetMerkleRoot counts them *)
Definition chunk_count (n step : Z) : Z :=
  if (n mod step =? 0)%Z then (n / step)%Z else (n / step + 1)%Z.

(** number of chunk goroutines for [n] leaves on [ncpu] CPUs *)
Definition task_count (n ncpu : Z) : nat :=
  if (n <=? 80)%Z || (ncpu <=? 1)%Z then 0 else Z.to_nat (chunk_count n (C18.Model.par_step n ncpu)).

Lemma chunk_count_bounds n s : (0 <= n)%Z -> (0 < s)%Z ->
  (0 <= chunk_count n s /\ n <= chunk_count n s * s < n + s)%Z.
Proof.
  intros Hn Hs. unfold chunk_count.
  pose proof (Z.div_mod n s ltac:(lia)) as Hdm.
  pose proof (Z.mod_pos_bound n s Hs) as Hmb.
  pose proof (Z.div_pos n s Hn Hs) as Hq.
  destruct (Z.eqb_spec (n mod s) 0); nia.
Qed.

Lemma chunks_are_c18_chunks {T} (s : nat) : 1 <= s ->
  forall cnt fuel (l : list T),
    length l <= fuel -> length l <= cnt * s < length l + s ->
    chunks_of fuel s l = map (C18.Model.chunk_of T l s) (seq 0 cnt).
Proof.
  intro Hs. induction cnt as [|cnt IH]; intros fuel l Hf Hc.
  - destruct l; [destruct fuel; reflexivity | simpl in Hc; lia].
  - destruct fuel as [|f], l as [|x l']; try (simpl in *; lia).
    (* C18's two lemmas take a default element and a hash function that they do not use *)
    pose proof (C18.ProofsPar.chunk_of_0 T x (fun a _ => a)) as chunk_0.
    pose proof (C18.ProofsPar.chunk_of_S T x (fun a _ => a)) as chunk_S.
    cbn [seq map chunks_of]. rewrite <- seq_shift, map_map, chunk_0. f_equal.
    set (l := x :: l') in *.
    destruct (Nat.le_gt_cases s (length l)) as [Hfull|Hpart].
    + rewrite (map_ext _ _ (fun i => chunk_S l s i Hfull)).
      apply IH; rewrite skipn_length; lia.
    + destruct cnt as [|c]; [|cbn [Nat.mul] in Hc; lia].
      rewrite skipn_all2 by lia. destruct f; reflexivity.
Qed.

(** on the parallel path the slices are C18's, as many as C18 counts *)
Lemma root_chunks {T} (ncpu : Z) (hashes : list T) :
  root_sequential_path ncpu hashes = false ->
  let n := Z.of_nat (length hashes) in
  let step := C18.Model.par_step n ncpu in
  chunks_of (length hashes) (Z.to_nat step) hashes =
  map (C18.Model.chunk_of T hashes (Z.to_nat step)) (seq 0 (Z.to_nat (chunk_count n step))).
Proof.
  intros Hseq n step. apply orb_false_iff in Hseq as [Hn Hc].
  apply Z.leb_gt in Hn, Hc.
  destruct (C18.ProofsPar.par_step_spec n ncpu Hn ltac:(lia)) as (k & _ & Hstep & _).
  assert (Hp : 1 <= 2 ^ k) by (apply Nat.neq_0_lt_0, Nat.pow_nonzero; lia).
  destruct (chunk_count_bounds n step) as [H0 Hb]; [lia | lia |].
  apply chunks_are_c18_chunks; lia.
Qed.

Lemma root_tasks_count {T} (ncpu : Z) (hashes : list T) :
  root_tasks ncpu hashes = task_count (Z.of_nat (length hashes)) ncpu.
Proof.
  unfold root_tasks, root_step, task_count. fold (root_sequential_path ncpu hashes).
  destruct (root_sequential_path ncpu hashes) eqn:Hseq; [reflexivity|].
  rewrite (root_chunks ncpu hashes Hseq), map_length. apply seq_length.
Qed.

Section TxRoot.
  Context {T : Type}.
  Variable nilT : T.
  Variable hash2 : T -> T -> T.

  Theorem tx_root_eq_sequential (ncpu : Z) sched (hashes : list T) :
    is_perm sched (root_tasks ncpu hashes) ->
    merkle_root_cpu nilT hash2 ncpu sched hashes = seq_root nilT hash2 hashes.
  Proof.
    unfold merkle_root_cpu, root_tasks, root_step, seq_root.
    rewrite <- (C18.ProofsPar.parallel_eq_sequential T nilT hash2 ncpu hashes).
    unfold C18.Model.get_merkle_root_par. fold (root_sequential_path ncpu hashes).
    destruct (root_sequential_path ncpu hashes) eqn:Hseq; [reflexivity|].
    intro Hp. rewrite (par_root_independent _ _ sched _ hashes Hp).
    unfold root_top, seq_root. rewrite (root_chunks ncpu hashes Hseq), !map_map. reflexivity.
  Qed.
End TxRoot.
