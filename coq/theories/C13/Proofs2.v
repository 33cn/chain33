(** C13 — proofs, part 2: DelDupKey, DelDupTx and TransactionSort compute what
    their specifications say. *)
From Coq Require Import List NArith Arith Bool Permutation Lia.
From C33 Require Import Lib.Harness Lib.Bytes C13.Model C13.Spec C13.Proofs.
Import ListNotations.

Definition add_key (acc : list bytes) (k : bytes) : list bytes :=
  if existsb (beqb k) acc then acc else acc ++ [k].

Lemma uniq_from_ext l : forall s1 s2,
  (forall x, existsb (beqb x) s1 = existsb (beqb x) s2) -> uniq_from s1 l = uniq_from s2 l.
Proof.
  induction l as [|k l IH]; intros s1 s2 H; simpl; [reflexivity|].
  rewrite <- H. destruct (existsb (beqb k) s1); [apply IH; exact H|].
  f_equal. apply IH. intro x. simpl. rewrite H. reflexivity.
Qed.

Lemma uniq_from_in l : forall seen k,
  In k (uniq_from seen l) <-> In k l /\ existsb (beqb k) seen = false.
Proof.
  induction l as [|x l IH]; intros seen k; simpl; [tauto|].
  destruct (existsb (beqb x) seen) eqn:E.
  - rewrite IH. split; [intros [H1 H2]; auto|]. intros [[H1|H1] H2]; [subst; congruence|auto].
  - simpl. rewrite IH. simpl. split.
    + intros [H|[H1 H2]]; [subst; auto|]. apply orb_false_iff in H2 as [_ H2]. auto.
    + intros [[H|H] H2]; [left; exact H|].
      destruct (beqb k x) eqn:Ek; [left; apply beqb_eq in Ek; congruence|].
      right. split; [exact H|]. rewrite H2. reflexivity.
Qed.

Lemma uniq_from_nodup l : forall seen, NoDup (uniq_from seen l).
Proof.
  induction l as [|x l IH]; intro seen; simpl; [constructor|].
  destruct (existsb (beqb x) seen); [apply IH|]. constructor; [|apply IH].
  rewrite uniq_from_in. simpl. rewrite beqb_refl. intros [_ H]. discriminate.
Qed.

Lemma add_key_fold ks : forall keys,
  fold_left add_key ks keys = keys ++ uniq_from keys ks.
Proof.
  induction ks as [|k ks IH]; intro keys; simpl.
  - rewrite app_nil_r. reflexivity.
  - rewrite IH. unfold add_key. destruct (existsb (beqb k) keys) eqn:E; [reflexivity|].
    rewrite <- app_assoc. simpl. f_equal. f_equal. apply uniq_from_ext.
    intro x. rewrite existsb_app. simpl. rewrite orb_false_r. apply orb_comm.
Qed.

Lemma fold_keys {S A} (step : S -> A -> S) (keys : S -> list bytes) (key : A -> bytes) :
  (forall st a, keys (step st a) = add_key (keys st) (key a)) ->
  forall l st, keys (fold_left step l st) = fold_left add_key (map key l) (keys st).
Proof.
  intros H l; induction l as [|a l IH]; intro st; simpl; [reflexivity|].
  rewrite IH, H. reflexivity.
Qed.

Lemma nodup_snoc {A} (l : list A) x : NoDup l -> ~ In x l -> NoDup (l ++ [x]).
Proof.
  intros ND Hn. eapply Permutation_NoDup; [apply Permutation_cons_append|].
  constructor; assumption.
Qed.

Lemma mem_in k ks : existsb (beqb k) ks = true <-> In k ks.
Proof.
  rewrite existsb_exists. split.
  - intros [y [Hy E]]. apply beqb_eq in E. subst y. exact Hy.
  - intro H. exists k. split; [exact H|apply beqb_refl].
Qed.

Section DupKey.
  Context {V : Type}.
  Notation kv := (bytes * V)%type.

  Fixpoint kidx (k : bytes) (ks : list bytes) : option nat :=
    match ks with
    | [] => None
    | k' :: tl => if beqb k k' then Some 0 else option_map S (kidx k tl)
    end.

  Lemma kidx_none k ks : kidx k ks = None <-> existsb (beqb k) ks = false.
  Proof.
    induction ks as [|k' ks IH]; simpl; [tauto|].
    destruct (beqb k k'); simpl; [split; discriminate|].
    destruct (kidx k ks) as [n|]; simpl.
    - split; [discriminate|]. intro H. apply IH in H. discriminate.
    - split; [intros _; apply IH; reflexivity | reflexivity].
  Qed.

  Lemma kidx_app k a b :
    kidx k (a ++ b) = match kidx k a with
                      | Some i => Some i
                      | None => option_map (Nat.add (length a)) (kidx k b)
                      end.
  Proof.
    induction a as [|x a IH]; simpl; [destruct (kidx k b); reflexivity|].
    destruct (beqb k x); [reflexivity|]. rewrite IH.
    destruct (kidx k a); [reflexivity|]. destruct (kidx k b); reflexivity.
  Qed.

  Lemma has_key_existsb k (out : list kv) : has_key k out = existsb (beqb k) (map fst out).
  Proof. unfold has_key. induction out as [|x out IH]; simpl; [reflexivity|]. rewrite IH. reflexivity. Qed.

  Definition replace_key (new : kv) (out : list kv) : list kv :=
    map (fun kv' => if beqb (fst new) (fst kv') then new else kv') out.

  Lemma replace_keys new out : map fst (replace_key new out) = map fst out.
  Proof.
    unfold replace_key. induction out as [|x out IH]; simpl; [reflexivity|].
    rewrite IH. f_equal.
    destruct (beqb _ _) eqn:E; [|reflexivity]. apply beqb_eq in E. exact E.
  Qed.

  Lemma replace_absent new out :
    existsb (beqb (fst new)) (map fst out) = false -> replace_key new out = out.
  Proof.
    unfold replace_key. induction out as [|x out IH]; simpl; intro H; [reflexivity|].
    apply orb_false_iff in H as [H1 H2]. rewrite IH by exact H2. unfold bytes in *. rewrite H1. reflexivity.
  Qed.

  Lemma replace_key_cons new x out :
    replace_key new (x :: out) = (if beqb (fst new) (fst x) then new else x) :: replace_key new out.
  Proof. reflexivity. Qed.

  Lemma set_nth_replace (new : kv) : forall out i,
    NoDup (map fst out) -> kidx (fst new) (map fst out) = Some i ->
    set_nth i new out = replace_key new out.
  Proof.
    induction out as [|x out IH]; intros i ND H; [discriminate|].
    rewrite replace_key_cons. cbn [map kidx] in ND, H. apply NoDup_cons_iff in ND as [Hnin ND].
    destruct (beqb (fst new) (fst x)) eqn:E.
    - injection H as <-. cbn [set_nth]. f_equal. symmetry. apply replace_absent.
      apply not_true_is_false. rewrite mem_in. apply beqb_eq in E. unfold bytes in *. congruence.
    - destruct (kidx (fst new) (map fst out)) as [j|]; [|discriminate].
      injection H as <-. cbn [set_nth]. f_equal. apply IH; [exact ND|reflexivity].
  Qed.

  (** the index map agrees with the output prefix *)
  Definition ddk_inv (st : list (bytes * nat) * list kv) : Prop :=
    NoDup (map fst (snd st)) /\ forall k, dup_find k (fst st) = kidx k (map fst (snd st)).

  Lemma ddk_step_sim st x :
    ddk_inv st -> ddk_inv (ddk_step st x) /\ snd (ddk_step st x) = spec_ddk_step (snd st) x.
  Proof.
    destruct st as [idx out]. intros [ND Hidx]. cbn [fst snd] in ND, Hidx.
    unfold ddk_step, spec_ddk_step. rewrite has_key_existsb, Hidx.
    destruct (kidx (fst x) (map fst out)) as [i|] eqn:Ek; cbn [snd].
    - replace (existsb (beqb (fst x)) (map fst out)) with true
        by (symmetry; apply not_false_is_true; rewrite <- kidx_none; congruence).
      rewrite (set_nth_replace x out i ND Ek).
      split; [|reflexivity]. split; cbn [fst snd]; rewrite replace_keys; assumption.
    - pose proof (proj1 (kidx_none _ _) Ek) as En. rewrite En.
      split; [|reflexivity]. split; cbn [fst snd]; rewrite map_app.
      + apply nodup_snoc; [exact ND|]. rewrite <- mem_in. congruence.
      + intro k. rewrite kidx_app. cbn [map kidx dup_find]. rewrite Hidx.
        destruct (beqb k (fst x)) eqn:E; cbn [option_map].
        * apply beqb_eq in E. subst k. rewrite Ek, map_length, Nat.add_0_r. reflexivity.
        * destruct (kidx k (map fst out)); reflexivity.
  Qed.

  Lemma ddk_fold_sim (kvs : list kv) : forall st,
    ddk_inv st -> snd (fold_left ddk_step kvs st) = fold_left spec_ddk_step kvs (snd st).
  Proof.
    induction kvs as [|x kvs IH]; intros st Hinv; simpl; [reflexivity|].
    destruct (ddk_step_sim st x Hinv) as [Hinv' E]. rewrite IH by exact Hinv'. rewrite E. reflexivity.
  Qed.

  Theorem del_dup_key_is_spec (kvs : list kv) : del_dup_key kvs = spec_del_dup_key kvs.
  Proof.
    unfold del_dup_key, spec_del_dup_key. rewrite ddk_fold_sim; [reflexivity|].
    split; simpl; [constructor|reflexivity].
  Qed.

  Lemma spec_step_keys (out : list kv) x :
    map fst (spec_ddk_step out x) = add_key (map fst out) (fst x).
  Proof.
    unfold spec_ddk_step, add_key. rewrite has_key_existsb. unfold bytes in *.
    destruct (existsb (beqb (fst x)) (map fst out)).
    - apply (replace_keys x out).
    - rewrite map_app. reflexivity.
  Qed.

  Theorem del_dup_key_keys (kvs : list kv) : map fst (del_dup_key kvs) = uniq (map fst kvs).
  Proof.
    rewrite del_dup_key_is_spec. unfold spec_del_dup_key.
    rewrite (fold_keys spec_ddk_step (map fst) fst spec_step_keys).
    rewrite add_key_fold. reflexivity.
  Qed.

  Lemma last_kv_app k (a b : list kv) : forall acc,
    last_kv k (a ++ b) acc = last_kv k b (last_kv k a acc).
  Proof. induction a as [|x a IH]; intro acc; simpl; [reflexivity|apply IH]. Qed.

  Lemma last_kv_replace k x : forall (out : list kv) acc,
    last_kv k (replace_key x out) acc =
    if beqb k (fst x) then (if has_key (fst x) out then Some x else acc) else last_kv k out acc.
  Proof.
    induction out as [|y out IH]; intro acc.
    - simpl. destruct (beqb k (fst x)); reflexivity.
    - rewrite replace_key_cons. cbn [last_kv]. rewrite IH. unfold has_key. cbn [existsb].
      fold (has_key (fst x) out). unfold bytes in *.
      destruct (beqb k (fst x)) eqn:Ekx.
      + apply beqb_eq in Ekx. subst k.
        destruct (beqb (fst x) (fst y)) eqn:Exy; cbn [orb].
        * rewrite beqb_refl. destruct (has_key (fst x) out); reflexivity.
        * rewrite Exy. reflexivity.
      + destruct (beqb (fst x) (fst y)) eqn:Exy.
        * apply beqb_eq in Exy. rewrite Ekx. rewrite <- Exy, Ekx. reflexivity.
        * reflexivity.
  Qed.

  Lemma spec_step_store k (out : list kv) x :
    store_get (spec_ddk_step out x) k = if beqb k (fst x) then Some x else store_get out k.
  Proof.
    unfold spec_ddk_step. destruct (has_key (fst x) out) eqn:E.
    - unfold store_get. rewrite (last_kv_replace k x out), E. reflexivity.
    - unfold store_get. rewrite last_kv_app. reflexivity.
  Qed.

  Theorem del_dup_key_same_store (kvs : list kv) k :
    store_get (del_dup_key kvs) k = store_get kvs k.
  Proof.
    rewrite del_dup_key_is_spec. unfold spec_del_dup_key.
    assert (G : forall out, store_get (fold_left spec_ddk_step kvs out) k = last_kv k kvs (store_get out k)).
    { induction kvs as [|x kvs IH]; intro out; simpl; [reflexivity|].
      rewrite IH, spec_step_store. reflexivity. }
    rewrite G. reflexivity.
  Qed.
End DupKey.

Section DupTx.
  Context {T : Type}.
  Variable hash : T -> N.

  Fixpoint last_pos (h : N) (l : list T) : option nat :=
    match l with
    | [] => None
    | x :: tl => match last_pos h tl with
                 | Some j => Some (S j)
                 | None => if N.eqb (hash x) h then Some 0 else None
                 end
    end.

  Lemma last_pos_none h l :
    last_pos h l = None <-> existsb (fun y => N.eqb (hash y) h) l = false.
  Proof.
    induction l as [|x l IH]; simpl; [tauto|].
    destruct (last_pos h l) as [j|].
    - split; [discriminate|]. intro H. apply orb_false_iff in H as [_ H]. apply IH in H. discriminate.
    - destruct (N.eqb (hash x) h); simpl; [split; discriminate|]. split; [intros _; apply IH; reflexivity|reflexivity].
  Qed.

  Lemma ddt_last_filter h h' idx :
    N.eqb h' h = false ->
    ddt_last h (filter (fun p : N * nat => negb (N.eqb (fst p) h')) idx) = ddt_last h idx.
  Proof.
    intro Hne. induction idx as [|[a i] idx IH]; simpl; [reflexivity|].
    destruct (N.eqb a h') eqn:E1; simpl.
    - apply N.eqb_eq in E1. subst a. rewrite Hne. exact IH.
    - destruct (N.eqb a h); [reflexivity|exact IH].
  Qed.

  Lemma ddt_scan_last l : forall i idx dup idx' dup',
    ddt_scan hash i l idx dup = (idx', dup') ->
    forall h, ddt_last h idx' = match last_pos h l with Some j => Some (i + j) | None => ddt_last h idx end.
  Proof.
    induction l as [|x l IH]; intros i idx dup idx' dup' H h; simpl in H.
    - inversion H; subst. reflexivity.
    - rewrite (IH _ _ _ _ _ H h). simpl.
      destruct (last_pos h l) as [j|]; [f_equal; lia|].
      destruct (N.eqb (hash x) h) eqn:E; [f_equal; lia|].
      apply ddt_last_filter. exact E.
  Qed.

  Lemma seen_last h idx :
    existsb (fun p : N * nat => N.eqb (fst p) h) idx
    = match ddt_last h idx with Some _ => true | None => false end.
  Proof.
    induction idx as [|[a i] idx IH]; simpl; [reflexivity|].
    destruct (N.eqb a h); [reflexivity|exact IH].
  Qed.

  (** no duplicate reported: no hash was already in the index, and none occurs
      twice, so every element is the last of its hash *)
  Lemma ddt_scan_nodup l : forall i idx dup idx',
    ddt_scan hash i l idx dup = (idx', false) ->
    dup = false /\ keep_last hash l = l /\ forall y, In y l -> ddt_last (hash y) idx = None.
  Proof.
    induction l as [|x l IH]; intros i idx dup idx' H; simpl in H.
    - inversion H; subst. repeat split. intros y [].
    - destruct (IH _ _ _ _ H) as (Hdup & Hnd & Hab).
      apply orb_false_iff in Hdup as [Hdup Hseen]. rewrite seen_last in Hseen.
      assert (Hl : forall y, In y l ->
                N.eqb (hash x) (hash y) = false /\ ddt_last (hash y) idx = None).
      { intros y Hy. specialize (Hab y Hy). simpl in Hab.
        destruct (N.eqb (hash x) (hash y)) eqn:E; [discriminate|].
        rewrite ddt_last_filter in Hab by exact E. auto. }
      split; [exact Hdup|]. split.
      + simpl. rewrite Hnd. destruct (existsb _ l) eqn:Ex; [|reflexivity].
        apply existsb_exists in Ex as [y [Hy Ey]].
        rewrite N.eqb_sym, (proj1 (Hl y Hy)) in Ey. discriminate.
      + intros y [<-|Hy]; [|apply Hl, Hy].
        destruct (ddt_last (hash x) idx); [discriminate|reflexivity].
  Qed.

  Lemma ddt_keep_spec l : forall i idx,
    (forall h, existsb (fun y => N.eqb (hash y) h) l = true ->
               ddt_last h idx = match last_pos h l with Some j => Some (i + j) | None => None end) ->
    ddt_keep hash i l idx = keep_last hash l.
  Proof.
    induction l as [|x l IH]; intros i idx H; simpl; [reflexivity|].
    assert (Hx : ddt_last (hash x) idx =
                 match last_pos (hash x) (x :: l) with Some j => Some (i + j) | None => None end).
    { apply H. simpl. rewrite N.eqb_refl. reflexivity. }
    simpl in Hx. rewrite N.eqb_refl in Hx.
    assert (IH' : ddt_keep hash (S i) l idx = keep_last hash l).
    { apply IH. intros h Hh. rewrite H by (simpl; rewrite Hh; apply orb_true_r). simpl.
      destruct (last_pos h l) as [j|] eqn:E; [f_equal; lia|].
      apply last_pos_none in E. congruence. }
    rewrite Hx. destruct (last_pos (hash x) l) as [j|] eqn:E.
    - replace (Nat.eqb i (i + S j)) with false by (symmetry; apply Nat.eqb_neq; lia).
      destruct (existsb _ l) eqn:Ex; [exact IH'|]. apply last_pos_none in Ex. congruence.
    - rewrite Nat.add_0_r, Nat.eqb_refl.
      apply last_pos_none in E. rewrite E. f_equal. exact IH'.
  Qed.

  Theorem del_dup_tx_is_spec (txs : list T) : del_dup_tx hash txs = keep_last hash txs.
  Proof.
    unfold del_dup_tx. destruct (ddt_scan hash 0 txs [] false) as [idx dup] eqn:E.
    destruct dup.
    - apply ddt_keep_spec. intros h _. rewrite (ddt_scan_last _ _ _ _ _ _ E h). simpl.
      destruct (last_pos h txs); reflexivity.
    - symmetry. apply (ddt_scan_nodup _ _ _ _ _ E).
  Qed.
End DupTx.

Lemma flat_map_ext_in {A B} (f g : A -> list B) l :
  (forall a, In a l -> f a = g a) -> flat_map f l = flat_map g l.
Proof.
  induction l as [|a l IH]; intro H; simpl; [reflexivity|].
  rewrite (H a) by (left; reflexivity). rewrite IH; [reflexivity|].
  intros b Hb. apply H. right. exact Hb.
Qed.

Lemma filter_split {A} (p : A -> bool) l :
  Permutation (filter p l ++ filter (fun x => negb (p x)) l) l.
Proof.
  induction l as [|x l IH]; simpl; [constructor|].
  destruct (p x); simpl.
  - constructor. exact IH.
  - eapply Permutation_trans; [apply Permutation_sym, Permutation_middle|]. constructor. exact IH.
Qed.

Lemma filter_filter_implied {A} (p q : A -> bool) l :
  (forall x, p x = true -> q x = true) -> filter p (filter q l) = filter p l.
Proof.
  intro H. induction l as [|x l IH]; simpl; [reflexivity|].
  destruct (q x) eqn:Eq; simpl; [rewrite IH; reflexivity|].
  destruct (p x) eqn:Ep; [|exact IH]. rewrite (H x Ep) in Eq. discriminate.
Qed.

(* the transactions of the first key are split off; those of the other keys are
   all among the rest *)
Lemma filter_key_partition {T} (key : T -> bytes) (ks : list bytes) : forall (txs : list T),
  NoDup ks -> (forall tx, In tx txs -> In (key tx) ks) ->
  Permutation (flat_map (fun t => filter (fun tx => beqb t (key tx)) txs) ks) txs.
Proof.
  induction ks as [|k ks IH]; intros txs ND Hall; simpl.
  - destruct txs as [|x txs]; [constructor|]. exfalso. apply (Hall x). left. reflexivity.
  - inversion ND as [|? ? Hnin ND']; subst.
    set (rest := filter (fun tx => negb (beqb k (key tx))) txs).
    eapply Permutation_trans; [|apply (filter_split (fun tx => beqb k (key tx)))].
    apply Permutation_app_head. fold rest.
    rewrite (flat_map_ext_in _ (fun t => filter (fun tx => beqb t (key tx)) rest)).
    + apply IH; [exact ND'|].
      intros tx Htx. apply filter_In in Htx as [Htx Hne].
      destruct (Hall tx Htx) as [Hk|Hk]; [|exact Hk].
      subst k. rewrite beqb_refl in Hne. discriminate.
    + intros t Ht. symmetry. apply filter_filter_implied. intros tx Et.
      apply beqb_eq in Et. subst t.
      destruct (beqb k (key tx)) eqn:Ek; [|reflexivity].
      apply beqb_eq in Ek. subst k. contradiction.
Qed.

Section TxSortSpec.
  Context {T : Type}.
  Variable execer : T -> bytes.
  Notation title := (fun tx => title_of (execer tx)).

  (** [sinsert0] is [sinsert] written out a second time *)
  Lemma sort0_eq l : fold_right sinsert0 [] l = sort_strings l.
  Proof. reflexivity. Qed.

  Lemma group_add_keys t x (m : list (bytes * list T)) :
    map fst (group_add t x m) = add_key (map fst m) t.
  Proof.
    unfold add_key. induction m as [|[t' xs] m IH]; simpl; [reflexivity|]. unfold bytes in *.
    destruct (beqb t t') eqn:E; simpl; [reflexivity|].
    rewrite IH. destruct (existsb (beqb t) (map fst m)); reflexivity.
  Qed.

  Lemma group_add_get t t' x (m : list (bytes * list T)) :
    group_get t (group_add t' x m) = if beqb t t' then group_get t m ++ [x] else group_get t m.
  Proof.
    induction m as [|[t'' xs] m IH]; simpl.
    - destruct (beqb t t'); reflexivity.
    - unfold bytes in *. destruct (beqb t' t'') eqn:E1; simpl; unfold bytes in *.
      + apply beqb_eq in E1. subst t''. destruct (beqb t t'); reflexivity.
      + destruct (beqb t t'') eqn:E2.
        * destruct (beqb t t') eqn:E3; [|reflexivity].
          apply beqb_eq in E2, E3. subst. rewrite beqb_refl in E1. discriminate.
        * exact IH.
  Qed.

  Lemma group_from_get t txs : forall m,
    group_get t (group_from execer m txs) = group_get t m ++ filter (fun tx => beqb t (title tx)) txs.
  Proof.
    unfold group_from. induction txs as [|x txs IH]; intro m; simpl.
    - rewrite app_nil_r. reflexivity.
    - rewrite IH, group_add_get. unfold bytes in *.
      destruct (beqb t (title_of (execer x))); [rewrite <- app_assoc|]; reflexivity.
  Qed.

  Lemma group_from_keys txs :
    map fst (group_from execer [] txs) = uniq (map title txs).
  Proof.
    unfold group_from.
    rewrite (fold_keys (fun m tx => group_add (title tx) tx m) (map fst) title
                       (fun st a => group_add_keys (title a) a st)).
    rewrite add_key_fold. reflexivity.
  Qed.

  Theorem tx_sort_is_spec txs : tx_sort_id execer txs = spec_tx_sort title txs.
  Proof.
    unfold tx_sort_id, tx_sort, spec_tx_sort.
    rewrite <- (map_length fst (group_from execer [] txs)).
    rewrite apply_perm_id, group_from_keys, <- sort0_eq.
    apply flat_map_ext. intro t. rewrite group_from_get. reflexivity.
  Qed.
End TxSortSpec.

Theorem tx_sort_permutation {T} (execer : T -> bytes) pi txs :
  is_perm pi (length (group_from execer [] txs)) ->
  Permutation (tx_sort execer pi txs) txs.
Proof.
  intro H. rewrite (tx_sort_independent execer pi txs H), tx_sort_is_spec.
  unfold spec_tx_sort. rewrite sort0_eq.
  apply filter_key_partition.
  - eapply Permutation_NoDup; [apply Permutation_sym, sort_perm|]. apply uniq_from_nodup.
  - intros tx Htx. eapply Permutation_in; [apply Permutation_sym, sort_perm|].
    apply uniq_from_in. split; [|reflexivity]. apply in_map_iff. exists tx. auto.
Qed.
