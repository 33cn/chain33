(** C13 — property theorems only.

    Every place of the anchored code where an ordered result is built from an
    unordered source takes that order as the parameter [pi] / [sched]; the
    theorems say the result does not depend on it.  Nondeterminism that is not
    one of these combinators (a map iterated inside a dapp, a process-global
    cache) is outside the model and is only covered by the repeated runs of the
    harness: the property is shown partially. *)
From Coq Require Import List ZArith NArith Arith Bool Permutation Sorted.
From C33 Require Import Lib.Bytes C13.Model C13.ModelRoot C13.Spec C13.Proofs C13.Proofs2 C13.ProofsRoot.
Import ListNotations.

(** executor.sortedPluginNames: whatever order the plugin map is iterated in, the
    plugins run in ascending name order. *)
Theorem C13_plugin_order_independent : forall pi keys,
  is_perm pi (length keys) ->
  plugin_names pi keys = sort_strings keys
  /\ StronglySorted le_str (plugin_names pi keys)
  /\ Permutation (plugin_names pi keys) keys.
Proof. exact plugin_names_independent. Qed.
Print Assumptions C13_plugin_order_independent.

Example C13_plugin_order_nonvacuous :
  is_perm [2; 0; 1] 3 /\
  plugin_names [2; 0; 1] [[109]; [97]; [97; 0]]%N = [[97]; [97; 0]; [109]]%N.
Proof. split; [apply is_permb_sound; reflexivity | reflexivity]. Qed.
Print Assumptions C13_plugin_order_nonvacuous.

(** types.TransactionSort: independent of the iteration order of the title map. *)
Theorem C13_tx_sort_order_independent : forall (T : Type) (execer : T -> bytes) pi txs,
  is_perm pi (length (group_from execer [] txs)) ->
  tx_sort execer pi txs = tx_sort_id execer txs.
Proof. exact @tx_sort_independent. Qed.
Print Assumptions C13_tx_sort_order_independent.

(** ... and it is the stable grouping by ascending title, a permutation of the input. *)
Theorem C13_tx_sort_is_stable_grouping : forall (T : Type) (execer : T -> bytes) pi txs,
  is_perm pi (length (group_from execer [] txs)) ->
  tx_sort execer pi txs = spec_tx_sort (fun tx => title_of (execer tx)) txs
  /\ Permutation (tx_sort execer pi txs) txs.
Proof.
  intros T execer pi txs H. split.
  - rewrite (tx_sort_independent execer pi txs H). apply tx_sort_is_spec.
  - apply tx_sort_permutation. exact H.
Qed.
Print Assumptions C13_tx_sort_is_stable_grouping.

Example C13_tx_sort_nonvacuous :
  let ex := fun t : N => nth (N.to_nat t) [[99]; para_key ++ [98; 46; 99]; para_key ++ [97; 46; 99]]%N [] in
  is_perm [1; 2; 0] (length (group_from ex [] [1; 0; 2; 1; 0]%N)) /\
  tx_sort ex [1; 2; 0] [1; 0; 2; 1; 0]%N = [0; 0; 2; 1; 1]%N.
Proof. split; [apply is_permb_sound; reflexivity | reflexivity]. Qed.
Print Assumptions C13_tx_sort_nonvacuous.

(** types.verifyTxsSignature: the verdict does not depend on the order in which
    the workers' results arrive. *)
Theorem C13_verify_schedule_independent : forall pi oks,
  is_perm pi (length oks) -> verify_sigs pi oks = forallb (fun b => b) oks.
Proof. exact verify_sigs_independent. Qed.
Print Assumptions C13_verify_schedule_independent.

(** gather by index (GetMerkleRoot, calcMultiLayerMerkleInfo): the gathered list is
    the list of results in task order, for every completion order. *)
Theorem C13_gather_schedule_independent : forall (A : Type) (res : nat -> A) sched n,
  is_perm sched n -> gather sched res n = map (fun i => Some (res i)) (seq 0 n).
Proof. exact @gather_independent. Qed.
Print Assumptions C13_gather_schedule_independent.

Example C13_gather_nonvacuous :
  is_perm [3; 1; 0; 2] 4 /\
  gather [3; 1; 0; 2] (fun i => i * i) 4 = [Some 0; Some 1; Some 4; Some 9].
Proof. split; [apply is_permb_sound; reflexivity | reflexivity]. Qed.
Print Assumptions C13_gather_nonvacuous.

Theorem C13_merkle_root_schedule_independent :
  forall (H : Type) (sub : list H -> H) (top : list (option H) -> H) sched step hashes,
  is_perm sched (length (chunks_of (length hashes) step hashes)) ->
  par_root sub top sched step hashes =
  top (map (fun c => Some (sub c)) (chunks_of (length hashes) step hashes)).
Proof. exact @par_root_independent. Qed.
Print Assumptions C13_merkle_root_schedule_independent.

(** merkle.GetMerkleRoot as the block's TxHash uses it (CalcMerkleRoot, util.CreateNewBlock,
    the ErrCheckTxHash comparison of util.PreExecBlock): for every CPU count [ncpu]
    (runtime.NumCPU(): it fixes the chunk size, the 256 cap and the padding of the last
    chunk) and every completion order of the chunk goroutines the root is the sequential
    root, hence a function of the hash list alone.  The CPU-count half is C18's
    C18_parallel_eq_sequential, imported. *)
Theorem C13_tx_root_cpu_independent :
  forall (T : Type) (nilT : T) (hash2 : T -> T -> T) (ncpu1 ncpu2 : Z) sched1 sched2 (hashes : list T),
  is_perm sched1 (root_tasks ncpu1 hashes) ->
  is_perm sched2 (root_tasks ncpu2 hashes) ->
  merkle_root_cpu nilT hash2 ncpu1 sched1 hashes = merkle_root_cpu nilT hash2 ncpu2 sched2 hashes
  /\ merkle_root_cpu nilT hash2 ncpu1 sched1 hashes = seq_root nilT hash2 hashes.
Proof.
  intros T nilT hash2 ncpu1 ncpu2 sched1 sched2 hashes H1 H2.
  rewrite (tx_root_eq_sequential nilT hash2 ncpu1 sched1 hashes H1),
    (tx_root_eq_sequential nilT hash2 ncpu2 sched2 hashes H2).
  split; reflexivity.
Qed.
Print Assumptions C13_tx_root_cpu_independent.

(** 600 leaves: 1 CPU takes the sequential path, 2 CPUs cut 3 chunks of 256 (cap reached,
    last chunk of 88 padded), 16 CPUs 19 chunks of 32 (last chunk of 24 padded) *)
Example C13_tx_root_nonvacuous :
  let h2 := fun x y : N => ((x * 31 + y * 17 + 1) mod 1000003)%N in
  let hs := map N.of_nat (seq 0 600) in
  (root_tasks 1 hs, root_tasks 2 hs, root_tasks 16 hs) = (0, 3, 19) /\
  is_perm [2; 0; 1] (root_tasks 2 hs) /\ is_perm (rev (seq 0 19)) (root_tasks 16 hs) /\
  merkle_root_cpu 0%N h2 2 [2; 0; 1] hs = merkle_root_cpu 0%N h2 16 (rev (seq 0 19)) hs /\
  merkle_root_cpu 0%N h2 2 [2; 0; 1] hs = seq_root 0%N h2 hs.
Proof.
  intros h2 hs.
  (* only the task counts are evaluated, from the length; the roots agree by the theorem above *)
  assert (E : forall ncpu, root_tasks ncpu hs = task_count 600 ncpu).
  { intro ncpu. rewrite root_tasks_count. unfold hs. rewrite map_length, seq_length. reflexivity. }
  assert (P2 : is_perm [2; 0; 1] (root_tasks 2 hs))
    by (rewrite E; apply is_permb_sound; reflexivity).
  assert (P16 : is_perm (rev (seq 0 19)) (root_tasks 16 hs))
    by (rewrite E; apply Permutation_sym, (Permutation_rev (seq 0 19))).
  split; [rewrite !E; reflexivity|]. split; [exact P2|]. split; [exact P16|].
  apply C13_tx_root_cpu_independent; assumption.
Qed.
Print Assumptions C13_tx_root_nonvacuous.

Theorem C13_child_chains_schedule_independent :
  forall (H : Type) (single : nat -> nat -> H) (top : list (option H) -> H) sched execs cs,
  cs = seg_counts (length execs) (segs_from 0 [] execs) ->
  is_perm sched (length cs) ->
  2 <= length cs ->
  multi_layer single top sched execs =
  Some (top (map (fun r => match r with (_, s, c) => Some (single s c) end) cs), rows_of single cs).
Proof. exact @multi_layer_independent. Qed.
Print Assumptions C13_child_chains_schedule_independent.

(** util.DelDupKey: keys in first-seen order, each with its last KeyValue; writing
    the result to a store gives the same store as writing the whole list. *)
Theorem C13_del_dup_key_first_seen_last_value : forall (V : Type) (kvs : list (bytes * V)),
  del_dup_key kvs = spec_del_dup_key kvs
  /\ map fst (del_dup_key kvs) = uniq (map fst kvs)
  /\ forall k, store_get (del_dup_key kvs) k = store_get kvs k.
Proof.
  intros V kvs. split; [apply del_dup_key_is_spec|]. split; [apply del_dup_key_keys|].
  intro k. apply del_dup_key_same_store.
Qed.
Print Assumptions C13_del_dup_key_first_seen_last_value.

Example C13_del_dup_key_nonvacuous :
  del_dup_key [([1], 10); ([2], 20); ([1], 30); ([3], 40); ([2], 50)]%N
  = [([1], 30); ([2], 50); ([3], 40)]%N.
Proof. reflexivity. Qed.
Print Assumptions C13_del_dup_key_nonvacuous.

(** util.DelDupTx: exactly the last occurrence of every hash, order kept. *)
Theorem C13_del_dup_tx_keeps_last : forall (T : Type) (hash : T -> N) (txs : list T),
  del_dup_tx hash txs = keep_last hash txs.
Proof. exact @del_dup_tx_is_spec. Qed.
Print Assumptions C13_del_dup_tx_keeps_last.
