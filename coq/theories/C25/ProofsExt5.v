(** C25 — proofs for the extended model, part 5: boolean forms of the tree
    hypotheses and guards (so that concrete instances are decided by
    computation), and the statements that need them. *)
From Coq Require Import List ZArith NArith Bool Lia.
From C33 Require Import C25.Model C25.Proofs C25.Proofs2 C25.ModelExt C25.ProofsExt C25.ProofsExt2 C25.ProofsExt3 C25.ProofsExt4.
Import ListNotations.
Open Scope Z_scope.

Definition block_eqb (a b : block) : bool :=
  N.eqb (bid a) (bid b) && N.eqb (bpar a) (bpar b) && (bht a =? bht b) && (bdiff a =? bdiff b).

Lemma block_eqb_eq : forall a b, block_eqb a b = true -> a = b.
Proof.
  intros [i1 p1 h1 d1] [i2 p2 h2 d2]. unfold block_eqb. cbn [bid bpar bht bdiff]. intros H.
  apply andb_true_iff in H as [H Hd]. apply andb_true_iff in H as [H Hh]. apply andb_true_iff in H as [Hi Hp].
  apply N.eqb_eq in Hi, Hp. apply Z.eqb_eq in Hh, Hd. congruence.
Qed.

Lemma block_eqb_refl : forall a, block_eqb a a = true.
Proof. intros a. unfold block_eqb. rewrite !N.eqb_refl, !Z.eqb_refl. reflexivity. Qed.

(** ancestor list and total difficulty of [b], following parent hashes inside [T] *)
Fixpoint pathb (fuel : nat) (g : block) (T : list block) (b : block) : option (list N * Z) :=
  match fuel with
  | O => None
  | S f =>
      if block_eqb b g then Some ([bid g], bdiff g)
      else match find (fun p => N.eqb (bid p) (bpar b)) T with
           | Some p =>
               if bht b =? bht p + 1 then
                 match pathb f g T p with
                 | Some (l, td) => Some (bid b :: l, td + bdiff b)
                 | None => None
                 end
               else None
           | None => None
           end
  end.

Lemma pathb_sound : forall fuel g T b l td,
  pathb fuel g T b = Some (l, td) -> In b T -> path g T b l td.
Proof.
  induction fuel as [|f IH]; intros g T b l td; cbn [pathb]; [discriminate|].
  destruct (block_eqb b g) eqn:E.
  { apply block_eqb_eq in E. subst b. intros H _; injection H as <- <-. apply path_root. }
  destruct (find (fun p => N.eqb (bid p) (bpar b)) T) as [p|] eqn:F; [|discriminate].
  apply find_some in F as [Hp Ep]. apply N.eqb_eq in Ep.
  destruct (bht b =? bht p + 1) eqn:Hh; [|discriminate]. apply Z.eqb_eq in Hh.
  destruct (pathb f g T p) as [[l0 td0]|] eqn:R; [|discriminate].
  intros H Hb; injection H as <- <-. eapply path_step; eauto.
Qed.

Fixpoint nodupN (l : list N) : bool :=
  match l with [] => true | x :: tl => negb (memN x tl) && nodupN tl end.

Lemma nodupN_sound : forall l, nodupN l = true -> NoDup l.
Proof.
  induction l as [|x l IH]; cbn [nodupN]; intros H; [constructor|].
  apply andb_true_iff in H as [H1 H2]. constructor; [|apply IH; exact H2].
  intros Q. apply memN_In in Q. rewrite Q in H1. discriminate.
Qed.

Definition connb (g : block) (T : list block) (b : block) : bool :=
  match pathb (length T) g T b with Some _ => true | None => false end.

(** the hypotheses about the tree [T] (root [g]) and the unconnected blocks [J] *)
Definition tree_hyps (g : block) (T J : list block) : Prop :=
  In g T /\ NoDup (map bid (T ++ J)) /\
  (forall b, In b T -> exists l td, path g T b l td) /\
  (forall b, In b T -> 0 <= bdiff b) /\ 0 <= bht g /\
  (forall j, In j J -> ~ In (bpar j) (map bid T)).

Definition tree_ok (g : block) (T J : list block) : bool :=
  existsb (block_eqb g) T && nodupN (map bid (T ++ J)) && forallb (connb g T) T &&
  forallb (fun b => 0 <=? bdiff b) T && (0 <=? bht g) &&
  forallb (fun j => negb (memN (bpar j) (map bid T))) J.

Lemma tree_ok_sound : forall g T J, tree_ok g T J = true -> tree_hyps g T J.
Proof.
  intros g T J H. unfold tree_ok in H.
  apply andb_true_iff in H as [H Hj]. apply andb_true_iff in H as [H Hg0]. apply andb_true_iff in H as [H Hd].
  apply andb_true_iff in H as [H Hc]. apply andb_true_iff in H as [Hg Hn].
  rewrite forallb_forall in Hj, Hd, Hc.
  split; [|split; [|split; [|split; [|split]]]].
  - apply existsb_exists in Hg as (x & Hx & E). apply block_eqb_eq in E. subst x. exact Hx.
  - apply nodupN_sound. exact Hn.
  - intros b Hb. specialize (Hc b Hb). unfold connb in Hc.
    destruct (pathb (length T) g T b) as [[l td]|] eqn:R; [|discriminate].
    exists l, td. eapply pathb_sound; eauto.
  - intros b Hb. apply Z.leb_le. exact (Hd b Hb).
  - apply Z.leb_le. exact Hg0.
  - intros j Hj' Q. specialize (Hj j Hj'). apply memN_In in Q. rewrite Q in Hj. discriminate.
Qed.

Lemma pathb_path : forall g T J x l td (K : list N -> Z -> bool), tree_hyps g T J ->
  path g T x l td ->
  match pathb (length T) g T x with Some (l', td') => K l' td' | None => false end = true ->
  K l td = true.
Proof.
  intros g T J x l td K (Hg & HndU & _) Px H.
  destruct (pathb (length T) g T x) as [[l' td']|] eqn:R; [|discriminate].
  pose proof (pathb_sound _ _ _ _ _ _ R (path_in g T Hg _ _ _ Px)) as Px'.
  destruct (path_fun g T Hg (Hnd T J HndU) _ _ _ Px _ _ Px') as [-> ->]. exact H.
Qed.

(** every block off the branches through [f] is below [h + 12] *)
Definition fin_safe (g : block) (T : list block) (f : N) (h : Z) : bool :=
  forallb (fun b => match pathb (length T) g T b with
                    | Some (l, _) => memN f l || (bht b <? h + margin)
                    | None => false
                    end) T.

Lemma fin_safe_sound : forall g T J f h, tree_hyps g T J -> fin_safe g T f h = true ->
  off_branch_low g T f h.
Proof.
  intros g T J f h TH H b Hb l td0 Pb.
  unfold fin_safe in H. rewrite forallb_forall in H.
  apply (pathb_path g T J b l td0 (fun l _ => memN f l || (bht b <? h + margin)) TH Pb) in H; [|exact Hb].
  apply orb_true_iff in H as [H|H]; [left; apply memN_In; exact H|right; apply Z.ltb_lt; exact H].
Qed.

(** [H] (total difficulty [tdH]) is strictly the heaviest block on the branches through [fo] *)
Definition throughb (fo : option N) (l : list N) : bool :=
  match fo with Some f => memN f l | None => true end.

Definition heaviest_through (g : block) (T : list block) (fo : option N) (H : block) (tdH : Z) : bool :=
  forallb (fun x => match pathb (length T) g T x with
                    | Some (l, td) => block_eqb x H || negb (throughb fo l) || (td <? tdH)
                    | None => false
                    end) T.

Lemma heaviest_through_sound : forall g T J fo H tdH, tree_hyps g T J ->
  heaviest_through g T fo H tdH = true ->
  forall x l td, path g T x l td -> through fo l -> x <> H -> td < tdH.
Proof.
  intros g T J fo H tdH TH Hv x l td Px Th Ne.
  unfold heaviest_through in Hv. rewrite forallb_forall in Hv.
  apply (pathb_path g T J x l td (fun l td => block_eqb x H || negb (throughb fo l) || (td <? tdH)) TH Px) in Hv;
    [|exact (path_in g T (proj1 TH) _ _ _ Px)].
  apply orb_true_iff in Hv as [Hv|Hv]; [|apply Z.ltb_lt; exact Hv].
  apply orb_true_iff in Hv as [Hv|Hv]; [apply block_eqb_eq in Hv; contradiction|].
  exfalso. apply negb_true_iff in Hv. unfold through, throughb in *. destruct fo as [f|]; [|discriminate].
  apply memN_In in Th. congruence.
Qed.

Definition in_universeb (T J : list block) (hist : list xev) : bool :=
  forallb (fun e => match e with
                    | Dl _ b => existsb (block_eqb b) (T ++ J)
                    | Fz _ _ => true
                    end) hist.

Lemma in_universeb_sound : forall T J hist, in_universeb T J hist = true -> in_universe T J hist.
Proof.
  intros T J hist H now b Hb. unfold in_universeb in H. rewrite forallb_forall in H.
  specialize (H _ Hb). cbn in H. apply existsb_exists in H as (x & Hx & E).
  apply block_eqb_eq in E. subst x. exact Hx.
Qed.

Lemma finalized_stays_partial : forall P g T J fin0 pre suf f,
  tree_hyps g T J -> in_universe T J pre -> in_universe T J suf ->
  let s1 := xrun P g fin0 pre in
  xfh s1 = Some f ->
  fin_safe g T f (xfin s1) = true ->
  In f (xmain (xrun P g fin0 (pre ++ suf))).
Proof.
  intros P g T J fin0 pre suf f TH HU1 HU2 s1 E Fs.
  pose proof TH as (Hg & HndU & Hconn & Hdiff & Hg0 & Hjunk).
  apply (finalized_stays P g T J Hg HndU Hconn Hdiff Hg0 Hjunk fin0 pre suf f HU1 HU2 E).
  right. exact (fin_safe_sound g T J f _ TH Fs).
Qed.

(** ** the full claims that the code does not meet *)

(** the finalized block stays on the best chain for every later history *)
Definition finalized_stays_full : Prop :=
  forall P g T J fin0 pre suf f,
  tree_hyps g T J -> in_universe T J pre -> in_universe T J suf ->
  xfh (xrun P g fin0 pre) = Some f ->
  In f (xmain (xrun P g fin0 (pre ++ suf))).

(** convergence whenever every block was delivered at least once (no matter
    what the pool dropped) *)
Definition converges_unkept_full : Prop :=
  forall P g T J fin0 hist H lH tdH,
  tree_hyps g T J -> in_universe T J hist ->
  (forall b, In b T -> b = g \/ In b (blocks_of hist)) ->
  steady P g fin0 hist = true ->
  let s := xrun P g fin0 hist in
  path g T H lH tdH -> through (xfh s) lH ->
  (forall x l td, path g T x l td -> through (xfh s) l -> x <> H -> td < tdH) ->
  xfin s + margin <= bht H ->
  xtip s = bid H.

Definition noP (cap ttl : Z) : params := mkP cap ttl false (fun _ _ => false).

(** *** witness 1: a finalized block is reorganised away.  Root 0, trunk 1-2-3
    (heights 1..3), block 2 finalized; a branch 4..16 off block 1 reaches height
    14 = 2 + 12 with more work: connectBestChain resets the choice to block 1
    and reorganises. *)
Fixpoint chainb (n : nat) (id par : N) (h d : Z) : list block :=
  match n with
  | O => []
  | S k => mkB id par h d :: chainb k (id + 1)%N id (h + 1) d
  end.

Definition w1_g := mkB 0 999 0 5.
Definition w1_T := w1_g :: mkB 1 0 1 5 :: mkB 2 1 2 5 :: mkB 3 2 3 5 :: mkB 4 1 2 5 :: chainb 12 5 4 3 5.
Definition w1_pre := map (Dl 0) [mkB 1 0 1 5; mkB 2 1 2 5; mkB 3 2 3 5] ++ [Fz 2 2%N].
Definition w1_suf := map (Dl 0) (mkB 4 1 2 5 :: chainb 12 5 4 3 5).

Lemma finalized_stays_refuted : ~ finalized_stays_full.
Proof.
  intros F.
  specialize (F (noP 10240 600) w1_g w1_T [] 0 w1_pre w1_suf 2%N).
  assert (TH : tree_hyps w1_g w1_T []) by (apply tree_ok_sound; vm_compute; reflexivity).
  assert (U1 : in_universe w1_T [] w1_pre) by (apply in_universeb_sound; vm_compute; reflexivity).
  assert (U2 : in_universe w1_T [] w1_suf) by (apply in_universeb_sound; vm_compute; reflexivity).
  assert (E : xfh (xrun (noP 10240 600) w1_g 0 w1_pre) = Some 2%N) by (vm_compute; reflexivity).
  specialize (F TH U1 U2 E).
  assert (M : xmain (xrun (noP 10240 600) w1_g 0 (w1_pre ++ w1_suf))
              = [16; 15; 14; 13; 12; 11; 10; 9; 8; 7; 6; 5; 4; 1; 0]%N) by (vm_compute; reflexivity).
  rewrite M in F. cbn in F. repeat (destruct F as [F|F]; [discriminate F|]). exact F.
Qed.

(** what the code does instead: the choice moves down to the fork point *)
Lemma finalized_reset_example :
  let s := xrun (noP 10240 600) w1_g 0 (w1_pre ++ w1_suf) in
  xfin s = 1 /\ xfh s = Some 1%N /\ xtip s = 16%N /\
  steady (noP 10240 600) w1_g 0 (w1_pre ++ w1_suf) = false.
Proof. vm_compute. repeat split; reflexivity. Qed.

(** the guard of [finalized_stays_partial] on a non-trivial instance: the same
    tree with the competing branch one block shorter (height 13 < 2 + 12): the
    finalized block 2 stays although the branch is heavier *)
Definition w1_T' := w1_g :: mkB 1 0 1 5 :: mkB 2 1 2 5 :: mkB 3 2 3 5 :: mkB 4 1 2 5 :: chainb 11 5 4 3 5.
Definition w1_suf' := map (Dl 0) (mkB 4 1 2 5 :: chainb 11 5 4 3 5).

Lemma finalized_stays_example :
  tree_ok w1_g w1_T' [] = true /\
  xfh (xrun (noP 10240 600) w1_g 0 w1_pre) = Some 2%N /\
  fin_safe w1_g w1_T' 2%N (xfin (xrun (noP 10240 600) w1_g 0 w1_pre)) = true /\
  xmain (xrun (noP 10240 600) w1_g 0 (w1_pre ++ w1_suf')) = [3; 2; 1; 0]%N.
Proof. vm_compute. repeat split; reflexivity. Qed.

(** *** witness 2: an evicted ancestor.  Root 0 at height 20, chain 1-2-3; pool
    limit 2.  3 and 2 arrive first (orphans), then an unconnected block 7: the
    pool is full, the oldest orphan (3) is dropped.  1 connects 2; 3 is gone:
    the tip stays at 2 although every block was delivered. *)
Definition w2_g := mkB 0 999 20 5.
Definition w2_T := [w2_g; mkB 1 0 21 5; mkB 2 1 22 5; mkB 3 2 23 5].
Definition w2_J := [mkB 7 555 30 1].
Definition w2_hist := [Dl 0 (mkB 3 2 23 5); Dl 1 (mkB 2 1 22 5); Dl 2 (mkB 7 555 30 1); Dl 3 (mkB 1 0 21 5)].

Lemma converges_unkept_refuted : ~ converges_unkept_full.
Proof.
  intros F.
  specialize (F (noP 2 600) w2_g w2_T w2_J 0 w2_hist (mkB 3 2 23 5) [3; 2; 1; 0]%N 20).
  assert (TH : tree_hyps w2_g w2_T w2_J) by (apply tree_ok_sound; vm_compute; reflexivity).
  assert (U : in_universe w2_T w2_J w2_hist) by (apply in_universeb_sound; vm_compute; reflexivity).
  assert (Cov : forall b, In b w2_T -> b = w2_g \/ In b (blocks_of w2_hist)).
  { intros b [<-|[<-|[<-|[<-|[]]]]]; cbn; auto 6. }
  assert (St : steady (noP 2 600) w2_g 0 w2_hist = true) by (vm_compute; reflexivity).
  assert (PH : path w2_g w2_T (mkB 3 2 23 5) [3; 2; 1; 0]%N 20).
  { apply (pathb_sound 4); [vm_compute; reflexivity|cbn; tauto]. }
  assert (E : xfh (xrun (noP 2 600) w2_g 0 w2_hist) = None) by (vm_compute; reflexivity).
  specialize (F TH U Cov St PH). cbv zeta in F. rewrite E in F.
  assert (X : xtip (xrun (noP 2 600) w2_g 0 w2_hist) = 2%N) by (vm_compute; reflexivity).
  rewrite X in F. cbn [bid] in F.
  assert (Q : 2%N = 3%N); [|discriminate Q].
  apply F; [exact I| |vm_compute; discriminate].
  apply (heaviest_through_sound w2_g w2_T w2_J None _ _ TH). vm_compute. reflexivity.
Qed.

(** the same history: what was dropped, and convergence once 3 is delivered again *)
Lemma evicted_ancestor_example :
  let P := noP 2 600 in
  map o_lost (xouts P (xinit w2_g 0) w2_hist) = [[]; []; [3%N]; []] /\
  kept_all P w2_g 0 w2_T w2_hist = false /\
  xtip (xrun P w2_g 0 w2_hist) = 2%N /\
  let again := w2_hist ++ [Dl 4 (mkB 3 2 23 5)] in
  kept_all P w2_g 0 w2_T again = true /\ steady P w2_g 0 again = true /\
  xmain (xrun P w2_g 0 again) = [3; 2; 1; 0]%N.
Proof. vm_compute. repeat split; reflexivity. Qed.

(** expiry instead of overflow: 3 waits 601 time units for its parent *)
Lemma expired_ancestor_example :
  let P := noP 10240 600 in
  let hist := [Dl 0 (mkB 3 2 23 5); Dl 601 (mkB 2 1 22 5); Dl 602 (mkB 1 0 21 5)] in
  map o_lost (xouts P (xinit w2_g 0) hist) = [[]; [3%N]; []] /\
  xtip (xrun P w2_g 0 hist) = 2%N /\
  xmain (xrun P w2_g 0 (hist ++ [Dl 603 (mkB 3 2 23 5)])) = [3; 2; 1; 0]%N.
Proof. vm_compute. repeat split; reflexivity. Qed.

(** the guards of [ext_converges] on a history that does drop blocks (two
    unconnected ones, one by overflow and one by age), re-delivers a dropped
    tree block, and moves the finalizer *)
Definition w3_g := mkB 0 999 20 5.
Definition w3_T := [w3_g; mkB 1 0 21 5; mkB 2 1 22 5; mkB 3 0 21 5; mkB 4 3 22 5; mkB 5 4 23 5].
Definition w3_J := [mkB 7 555 30 1; mkB 8 556 30 1].
Definition w3_hist :=
  [Dl 0 (mkB 7 555 30 1); Dl 1 (mkB 5 4 23 5); Dl 2 (mkB 8 556 30 1); Dl 3 (mkB 2 1 22 5);
   Dl 4 (mkB 1 0 21 5); Fz 21 1%N; Dl 700 (mkB 4 3 22 5); Dl 701 (mkB 5 4 23 5); Dl 702 (mkB 3 0 21 5)].

Lemma ext_converges_example :
  let P := noP 2 600 in
  tree_ok w3_g w3_T w3_J = true /\ in_universeb w3_T w3_J w3_hist = true /\
  map o_lost (xouts P (xinit w3_g 0) w3_hist) = [[]; []; [7%N]; [5%N]; []; []; [8%N]; []; []] /\
  kept_all P w3_g 0 w3_T w3_hist = true /\ steady P w3_g 0 w3_hist = true /\
  let s := xrun P w3_g 0 w3_hist in
  xfin s = 21 /\ xfh s = Some 1%N /\
  heaviest_through w3_g w3_T (xfh s) (mkB 2 1 22 5) 15 = true /\
  xmain s = [2; 1; 0]%N.
Proof. vm_compute. repeat split; reflexivity. Qed.

(** conservativity's guard on a non-trivial history (orphans, a cascade, a
    reorganisation, a duplicate) *)
Lemma conservative_example :
  let g := mkB 0 99 20 5 in
  let order := [mkB 5 4 23 5; mkB 2 1 22 5; mkB 4 3 22 5; mkB 1 0 21 5; mkB 5 4 23 5; mkB 3 0 21 5] in
  plain (noP 10240 600) (xinit g 0) (map (Dl 7) order) = true /\
  xmain (xrun (noP 10240 600) g 0 (map (Dl 7) order)) = [5; 4; 3; 0]%N.
Proof. vm_compute. split; reflexivity. Qed.

(** the remembered oldest orphan can be stale (it was accepted meanwhile): the
    overflow removal then removes nothing and the pool grows beyond the limit *)
Lemma stale_pointer_example :
  let P := noP 2 600 in
  let hist := [Dl 0 (mkB 2 1 22 5); Dl 1 (mkB 7 555 30 1); Dl 2 (mkB 1 0 21 5);
               Dl 3 (mkB 8 556 30 1); Dl 4 (mkB 9 557 30 1)] in
  map o_lost (xouts P (xinit w2_g 0) hist) = [[]; []; []; []; []] /\
  length (xorph (xrun P w2_g 0 hist)) = 3%nat.
Proof. vm_compute. split; reflexivity. Qed.

(** best-block comparison: with equal total difficulty and height the consensus
    module's answer moves the tip to the sibling (above the margin only) *)
Lemma best_block_cmp_example :
  let g := mkB 0 99 20 5 in
  let hist := [Dl 0 (mkB 1 0 21 5); Dl 0 (mkB 2 0 21 5)] in
  xtip (xrun (mkP 10240 600 true (fun n t => N.eqb n 2)) g 0 hist) = 2%N /\
  xtip (xrun (mkP 10240 600 false (fun n t => N.eqb n 2)) g 0 hist) = 1%N /\
  xtip (xrun (mkP 10240 600 true (fun n t => N.eqb n 2)) g 10 hist) = 1%N.
Proof. vm_compute. repeat split; reflexivity. Qed.

(** every hypothesis of [ext_converges] at once: root 0, trunk 1..14 (heights
    1..14), block 2 finalized after its delivery; a much heavier branch 20-21-22
    off block 1 stays a side chain (below 2 + 12).  Pool limit 2: unconnected
    block 97 and trunk block 4 are dropped by overflow, 4 is delivered again.
    Block 14 is the heaviest on the branches through the finalized block 2 (not
    over all blocks) and at height 14 >= 2 + 12: the best chain is the trunk. *)
Definition w4_g := mkB 0 999 0 5.
Definition w4_trunk := chainb 14 1 0 1 5.
Definition w4_heavy := [mkB 20 1 2 100; mkB 21 20 3 100; mkB 22 21 4 100].
Definition w4_T := w4_g :: w4_trunk ++ w4_heavy.
Definition w4_J := [mkB 97 555 30 1; mkB 98 556 30 1].
Definition w4_b (i : nat) := nth i w4_trunk w4_g.
Definition w4_hist :=
  [Dl 0 (w4_b 0); Dl 1 (w4_b 1); Fz 2 2%N] ++ map (Dl 2) w4_heavy ++
  [Dl 3 (mkB 97 555 30 1); Dl 4 (w4_b 3); Dl 5 (mkB 98 556 30 1); Dl 6 (w4_b 4); Dl 7 (w4_b 2); Dl 8 (w4_b 3)]
  ++ map (Dl 9) (skipn 5 w4_trunk).

Lemma ext_converges_guards_example :
  let P := noP 2 600 in
  tree_ok w4_g w4_T w4_J = true /\ in_universeb w4_T w4_J w4_hist = true /\
  map o_lost (xouts P (xinit w4_g 0) w4_hist) =
    [[]; []; []; []; []; []; []; []; [97%N]; [4%N]; []; []; []; []; []; []; []; []; []; []; []] /\
  kept_all P w4_g 0 w4_T w4_hist = true /\ steady P w4_g 0 w4_hist = true /\
  let s := xrun P w4_g 0 w4_hist in
  xfin s = 2 /\ xfh s = Some 2%N /\
  pathb 20 w4_g w4_T (w4_b 13) = Some ([14; 13; 12; 11; 10; 9; 8; 7; 6; 5; 4; 3; 2; 1; 0]%N, 75) /\
  heaviest_through w4_g w4_T (xfh s) (w4_b 13) 75 = true /\
  heaviest_through w4_g w4_T None (w4_b 13) 75 = false /\
  xfin s + margin <=? bht (w4_b 13) = true /\
  xmain s = [14; 13; 12; 11; 10; 9; 8; 7; 6; 5; 4; 3; 2; 1; 0]%N /\ xtip_td s = 75.
Proof. vm_compute. repeat split; reflexivity. Qed.
