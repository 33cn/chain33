(** C25 — proofs, part 2: the invariants of [deliver] and convergence. *)
From Coq Require Import List ZArith NArith Bool Lia.
From C33 Require Import C25.Model C25.Proofs C25.ModelExt C25.ProofsExt C25.ProofsExt2.
Import ListNotations.
Open Scope Z_scope.

Section Conv.
Variables (fin : Z) (g : block) (T : list block).
Hypothesis Hg : In g T.
Hypothesis Hnd : NoDup (map bid T).
Hypothesis Hconn : forall b, In b T -> exists l td, path g T b l td.
Hypothesis Hdiff : forall b, In b T -> 0 <= bdiff b.
Hypothesis Hg0 : 0 <= bht g.

Definition core (s : state) : Prop :=
  idx_ok g T (idx s) /\
  in_idx (bid g) (idx s) = true /\
  exists t, In t (idx s) /\ path g T (nblk t) (main s) (ntd t) /\
            forall n, In n (idx s) -> fin + margin <= bht (nblk n) -> ntd n <= ntd t.

Lemma core_init : core (init g).
Proof.
  unfold core, init; cbn [idx main].
  split; [|split; [apply in_idx_head|]].
  - intros n [<-|[]]. split; [exists [bid g]; apply path_root|left; reflexivity].
  - exists (mkN g (bdiff g)). split; [left; reflexivity|]. split; [apply path_root|].
    intros n [<-|[]] _. apply Z.le_refl.
Qed.

(** Model.v's state as a state of ModelExt.v whose finalizer never chose: [core]
    is ProofsExt2's invariant of the view, with [fin] as the height of [mx_at] *)
Definition view (s : state) : xstate := mkX (idx s) [] (main s) (evs s) None fin None.

Lemma core_view : forall s, core s <-> cidx g T (view s) /\ mx_at g T fin (view s).
Proof.
  intros s. split.
  - intros (OK & Rt & t & Ht & Pt & Mx).
    split; [split; [exact OK|split; [exact Rt|exists t; split; assumption]]|].
    exact (mx_at_tip g T Hg Hnd fin (view s) t OK (conj Ht Pt) Mx).
  - intros [(OK & Rt & t & Ht & Pt) Mx]. split; [exact OK|]. split; [exact Rt|].
    exists t. split; [exact Ht|]. split; [exact Pt|]. intros n. exact (Mx t n (conj Ht Pt)).
Qed.

(** acceptance is ModelExt.v's with best-block comparison off (ProofsExt) *)
Lemma accept_core : forall s b,
  core s -> In b T -> in_idx (bid b) (idx s) = false -> in_idx (bpar b) (idx s) = true ->
  exists s' m td, accept fin s b = (s', m, ENone) /\ core s' /\
                  idx s' = mkN b td :: idx s /\ orph s' = orph s.
Proof.
  intros s b C Hb Nb Pb. apply core_view in C as [Cx Mx].
  pose (P0 := mkP 0 0 false (fun _ _ => false)).
  destruct (accept_x_ok P0 g T Hg Hnd Hconn Hdiff Hg0 (view s) b (conj Cx I) Hb Nb Pb)
    as (xs' & m & td & A & Ei & [Cx' _] & (_ & _ & _ & Mx')).
  pose proof (accept_x_base P0 (view s) (orph s) b eq_refl) as E. rewrite A in E.
  destruct s as [ix o mn ev]. exists (rebase o xs'), m, td.
  split; [exact E|]. split; [|split; [exact Ei|reflexivity]].
  apply core_view. split; [exact Cx'|]. apply Mx'; [apply Z.le_refl|exact Mx].
Qed.

Definition orph_ok (s : state) : Prop :=
  forall c, In c (orph s) -> In c T /\ in_idx (bid c) (idx s) = false.

Lemma porph_ok : forall fuel q s,
  core s -> pool_loop T (idx s) (orph s) q ->
  (2 * length (orph s) + length q < fuel)%nat ->
  exists s', porph fuel fin q s = (s', ENone) /\ core s' /\
    pool_rest T (idx s') (orph s') /\ pool_adv (idx s) (orph s) (idx s') (orph s').
Proof.
  induction fuel as [|f IH]; intros q s C L Hf; [lia|].
  cbn [porph]. destruct q as [|p q'].
  - exists s. split; [reflexivity|]. split; [exact C|]. split; [exact (loop_done _ _ _ L)|apply pool_adv_refl].
  - destruct (first_child p (orph s)) as [c|] eqn:FC.
    + apply first_child_some in FC as [Hc Hp]. destruct (proj1 L c Hc) as [HcT Nc].
      destruct (accept_core (mkS (idx s) (remove_orph (bid c) (orph s)) (main s) (evs s)) c C HcT Nc)
        as (s1 & m & td & -> & C1 & I1 & O1).
      { rewrite Hp. apply (proj2 (proj2 L)). left; reflexivity. }
      cbn [idx orph] in I1, O1.
      destruct (loop_child T (idx s) (orph s) p q' (mkN c td) L Hc) as (L1 & Ad1 & Lt).
      cbn [nblk] in L1, Ad1, Lt. rewrite <- I1, <- O1 in L1, Ad1. rewrite <- O1 in Lt.
      destruct (IH _ s1 C1 L1) as (s' & -> & C' & R' & Ad'); [lia|].
      exists s'. split; [reflexivity|]. split; [exact C'|]. split; [exact R'|].
      exact (pool_adv_trans _ _ _ _ _ _ Ad1 Ad').
    + apply (IH q' s C (loop_pop _ _ _ _ _ L FC)). cbn [length] in Hf. lia.
Qed.

(** [D]: the blocks delivered so far *)

Definition inv (D : list block) (s : state) : Prop :=
  core s /\ orph_ok s /\
  (forall c, In c (orph s) -> in_idx (bpar c) (idx s) = false) /\
  (forall b, In b D -> in_idx (bid b) (idx s) = true \/ In b (orph s)).

Lemma inv_init : inv [] (init g).
Proof.
  split; [apply core_init|]. split; [intros c []|]. split; [intros c []|intros b []].
Qed.

Lemma step_inv : forall D s b, inv D s -> In b T -> inv (b :: D) (step fin s b).
Proof.
  intros D s b (C & OO & Par & Del) Hb. unfold step, deliver.
  (* the delivered blocks stay indexed or pooled from one pool to a later one *)
  assert (Keep : forall s', core s' -> pool_rest T (idx s') (orph s') ->
            pool_adv (idx s) (orph s) (idx s') (orph s') ->
            in_idx (bid b) (idx s') = true \/ In b (orph s') -> inv (b :: D) s').
  { intros s' C' [OO' W'] [G K] B. split; [exact C'|]. split; [exact OO'|]. split; [exact W'|].
    intros d [<-|Hd]; [exact B|]. destruct (Del d Hd) as [X|X]; [left; apply G, X|].
    destruct (K d X); auto. }
  pose proof (conj OO Par : pool_rest T (idx s) (orph s)) as R.
  destruct (in_idx (bid b) (idx s)) eqn:Eb.
  { exact (Keep s C R (pool_adv_refl _ _) (or_introl Eb)). }
  destruct (in_orph (bid b) (orph s)) eqn:Ko.
  { (* a known orphan: its parent is not indexed *)
    apply in_orph_true in Ko as (c & Hc & Ec).
    assert (c = b) by (apply (id_inj T Hnd); [apply OO, Hc|exact Hb|exact Ec]). subst c.
    rewrite (Par b Hc). exact (Keep s C R (pool_adv_refl _ _) (or_intror Hc)). }
  cbn [andb]. destruct (in_idx (bpar b) (idx s)) eqn:Ep; cbn [negb].
  - (* parent indexed: accept, then process orphans *)
    destruct (accept_core s b C Hb Eb Ep) as (s2 & m & td & -> & C2 & I2 & O2).
    pose proof (loop_start T (idx s) (orph s) (mkN b td) R Ko) as L2. rewrite <- I2, <- O2 in L2.
    destruct (porph_ok (porph_fuel s2) [bid b] s2 C2 L2) as (s3 & -> & C3 & R3 & Ad3).
    { unfold porph_fuel. cbn [length]. lia. }
    rewrite I2, O2 in Ad3. apply (Keep s3 C3 R3).
    + eapply pool_adv_trans; [|exact Ad3]. split; [intros h; apply in_idx_tail|left; assumption].
    + left. apply (proj1 Ad3), in_idx_head.
  - (* parent unknown: orphan *)
    cbn [fst]. apply Keep; [exact C| | |].
    + apply (rest_add T (idx s) (orph s) _ b R Hb Eb Ep).
      intros c Hc. apply in_app_or in Hc as [Hc|[<-|[]]]; [left; exact Hc|right; reflexivity].
    + split; [intros h Hh; exact Hh|]. intros c Hc. left. apply in_or_app. left. exact Hc.
    + right. apply in_or_app. right. left. reflexivity.
Qed.

Lemma run_inv : forall order, (forall b, In b order -> In b T) ->
  forall D s, inv D s -> inv (rev order ++ D) (fold_left (step fin) order s).
Proof.
  induction order as [|b order IH]; intros HT D s I; cbn [fold_left rev app]; [exact I|].
  rewrite <- app_assoc. cbn [app]. apply IH.
  - intros x Hx. apply HT. right; exact Hx.
  - apply step_inv; [exact I|]. apply HT. left; reflexivity.
Qed.

Lemma converges_from : forall D s0 order H lH tdH,
  inv D s0 ->
  (forall b, In b order -> In b T) ->
  (forall b, In b T -> b = g \/ In b D \/ In b order) ->
  path g T H lH tdH ->
  (forall x l td, path g T x l td -> x <> H -> td < tdH) ->
  fin + margin <= bht H ->
  let s := fold_left (step fin) order s0 in
  tip s = bid H /\ main s = lH /\ tip_td s = tdH.
Proof.
  intros D s0 order H lH tdH I0 Hsub Hall PH Hmax Hm s.
  destruct (run_inv order Hsub D s0 I0) as ((OK & Rt & t & Ht & Pt & Mx) & OO & Par & Del).
  fold s in OK, Rt, Ht, Pt, Mx, OO, Par, Del.
  assert (InH : in_idx (bid H) (idx s) = true).
  { apply (connected_indexed g T (idx s) (orph s) Rt Par) with (l := lH) (td := tdH); [|exact PH].
    intros b Hb. destruct (Hall b Hb) as [->|Ho]; [left; reflexivity|right].
    apply Del, in_or_app. rewrite <- in_rev. tauto. }
  destruct (heaviest_is_tip g T Hg Hnd (fun _ => True) fin (idx s) t (main s) H lH tdH OK Ht Pt I Mx PH InH)
    as (E1 & E2 & E3); [intros x l td Px _; exact (Hmax x l td Px)|exact Hm|].
  unfold tip_td, tip. rewrite E3. auto.
Qed.

Lemma converges : forall order H lH tdH,
  (forall b, In b order -> In b T) ->
  (forall b, In b T -> b = g \/ In b order) ->
  path g T H lH tdH ->
  (forall x l td, path g T x l td -> x <> H -> td < tdH) ->
  fin + margin <= bht H ->
  let s := run fin g order in
  tip s = bid H /\ main s = lH /\ tip_td s = tdH.
Proof.
  intros order H lH tdH Hsub Hall. apply (converges_from [] (init g) order H lH tdH inv_init Hsub).
  intros b Hb. destruct (Hall b Hb); auto.
Qed.

End Conv.

(** Non-vacuity: a root at height 20, a trunk of two blocks and a heavier side
    branch of three blocks delivered children-first with a duplicate: the
    node ends on the side branch. *)
Lemma converges_example :
  let g := mkB 0 99 20 5 in
  let T := [g; mkB 1 0 21 5; mkB 2 1 22 5; mkB 3 0 21 5; mkB 4 3 22 5; mkB 5 4 23 5] in
  let order := [mkB 5 4 23 5; mkB 2 1 22 5; mkB 4 3 22 5; mkB 1 0 21 5; mkB 5 4 23 5; mkB 3 0 21 5] in
  let s := run 0 g order in
  path g T (mkB 5 4 23 5) [5; 4; 3; 0]%N 20 /\
  tip s = 5%N /\ main s = [5; 4; 3; 0]%N /\ tip_td s = 20.
Proof.
  cbv zeta. split; [|vm_compute; repeat split].
  apply (path_step _ _ (mkB 5 4 23 5) (mkB 4 3 22 5) [4; 3; 0]%N 15); [cbn; tauto| |reflexivity|reflexivity].
  apply (path_step _ _ (mkB 4 3 22 5) (mkB 3 0 21 5) [3; 0]%N 10); [cbn; tauto| |reflexivity|reflexivity].
  apply (path_step _ _ (mkB 3 0 21 5) (mkB 0 99 20 5) [0]%N 5); [cbn; tauto| |reflexivity|reflexivity].
  apply path_root.
Qed.

(** The height guard is necessary: below [fin + 12] the code never reorganises,
    so the outcome depends on the delivery order (same three blocks, two orders). *)
Lemma below_margin_order_dependent :
  let g := mkB 0 99 0 5 in
  let a := mkB 1 0 1 5 in let b := mkB 2 0 1 9 in
  tip (run 0 g [a; b]) = 1%N /\ tip (run 0 g [b; a]) = 2%N.
Proof. vm_compute. split; reflexivity. Qed.
