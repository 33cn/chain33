(** C25 — proofs, part 1: block trees and paths, the index, the fork-point
    walk, and the orphan pool as a list. *)
From Coq Require Import List ZArith NArith Bool Lia.
From C33 Require Import C25.Model.
Import ListNotations.
Open Scope Z_scope.

(** [path g T b l td]: [b] is connected to the root [g] through blocks of [T];
    [l] = the hashes of [b] and its ancestors ([b] first, [g] last), [td] = the
    sum of their difficulties. *)
Inductive path (g : block) (T : list block) : block -> list N -> Z -> Prop :=
| path_root : path g T g [bid g] (bdiff g)
| path_step : forall b p l td,
    In b T -> path g T p l td -> bpar b = bid p -> bht b = bht p + 1 ->
    path g T b (bid b :: l) (td + bdiff b).

Lemma memN_In : forall h l, memN h l = true <-> In h l.
Proof.
  intros h l. unfold memN. rewrite existsb_exists. split.
  - intros (x & Hx & E). apply N.eqb_eq in E. subst. exact Hx.
  - intros H. exists h. split; [exact H|apply N.eqb_refl].
Qed.

Lemma find_node_some : forall h ix n, find_node h ix = Some n -> In n ix /\ bid (nblk n) = h.
Proof.
  unfold find_node; intros h ix n H. apply find_some in H as [H1 H2].
  apply N.eqb_eq in H2. split; assumption.
Qed.

Lemma find_node_in : forall n ix, In n ix -> exists n', find_node (bid (nblk n)) ix = Some n'.
Proof.
  unfold find_node; intros n ix H.
  destruct (find (fun n0 => N.eqb (bid (nblk n0)) (bid (nblk n))) ix) as [n'|] eqn:E.
  - eexists; reflexivity.
  - exfalso. eapply find_none in E; [|exact H]. cbn in E. rewrite N.eqb_refl in E. discriminate.
Qed.

Lemma in_idx_true : forall h ix, in_idx h ix = true <-> exists n, In n ix /\ bid (nblk n) = h.
Proof.
  unfold in_idx; intros h ix. split.
  - destruct (find_node h ix) as [n|] eqn:E; [|discriminate].
    intros _. exists n. apply find_node_some. exact E.
  - intros (n & Hn & E). subst h. destruct (find_node_in _ _ Hn) as [n' ->]. reflexivity.
Qed.

Lemma in_idx_cons : forall h n ix,
  in_idx h (n :: ix) = N.eqb (bid (nblk n)) h || in_idx h ix.
Proof.
  intros h n ix. unfold in_idx, find_node. cbn [find].
  destruct (N.eqb (bid (nblk n)) h); reflexivity.
Qed.

Lemma in_idx_head : forall n ix, in_idx (bid (nblk n)) (n :: ix) = true.
Proof. intros n ix. rewrite in_idx_cons, N.eqb_refl. reflexivity. Qed.

Lemma in_idx_tail : forall h n ix, in_idx h ix = true -> in_idx h (n :: ix) = true.
Proof. intros h n ix H. rewrite in_idx_cons, H. apply orb_true_r. Qed.

Lemma branch_fork_in : forall fuel ix mn h p fk,
  branch fuel ix mn h = Some (p, fk) -> In fk mn /\ forall x, In x p -> ~ In x mn.
Proof.
  induction fuel as [|f IH]; intros ix mn h p fk; cbn [branch]; [discriminate|].
  destruct (memN h mn) eqn:M.
  { intros H; injection H as <- <-. split; [apply memN_In; exact M|intros x []]. }
  destruct (find_node h ix) as [n|]; [|discriminate].
  destruct (branch f ix mn (bpar (nblk n))) as [[p' fk']|] eqn:B; [|discriminate].
  intros H; injection H as <- <-. destruct (IH _ _ _ _ _ B) as [F D]. split; [exact F|].
  intros x [<-|Hx]; [rewrite <- memN_In, M; discriminate|exact (D x Hx)].
Qed.

Lemma drop_until_self : forall fk l, In fk l -> In fk (drop_until fk l).
Proof.
  induction l as [|a l IHl]; intros H; [destruct H|]. cbn [drop_until].
  destruct (N.eqb a fk) eqn:Ea; [apply N.eqb_eq in Ea; left; exact Ea|].
  destruct H as [->|H]; [rewrite N.eqb_refl in Ea; discriminate|exact (IHl H)].
Qed.

Lemma in_orph_true : forall h o, in_orph h o = true <-> exists c, In c o /\ bid c = h.
Proof.
  intros h o. unfold in_orph. rewrite existsb_exists.
  split; intros (c & A & B); exists c; split; auto; apply N.eqb_eq; exact B.
Qed.

Lemma remove_orph_in : forall h o c, In c (remove_orph h o) <-> In c o /\ bid c <> h.
Proof.
  intros h o c. unfold remove_orph. rewrite filter_In, negb_true_iff, N.eqb_neq. reflexivity.
Qed.

Lemma filter_length_lt : forall A (f : A -> bool) x l,
  In x l -> f x = false -> (length (filter f l) < length l)%nat.
Proof.
  intros A f x l. induction l as [|y l IH]; intros H Fx; [destruct H|].
  destruct H as [->|H]; cbn [filter length].
  - rewrite Fx. clear. induction l as [|z l IH]; cbn; [lia|]. destruct (f z); cbn; lia.
  - specialize (IH H Fx). destruct (f y); cbn [length]; lia.
Qed.

Lemma remove_orph_length : forall c o, In c o -> (length (remove_orph (bid c) o) < length o)%nat.
Proof.
  intros c o H. apply (filter_length_lt _ _ c); [exact H|]. rewrite N.eqb_refl. reflexivity.
Qed.

Lemma first_child_some : forall p o c, first_child p o = Some c -> In c o /\ bpar c = p.
Proof.
  unfold first_child; intros p o c H. apply find_some in H as [A B].
  apply N.eqb_eq in B. auto.
Qed.

Lemma first_child_none : forall p o c, first_child p o = None -> In c o -> bpar c <> p.
Proof.
  unfold first_child; intros p o c H Hc. eapply find_none in H; [|exact Hc].
  apply N.eqb_neq in H. exact H.
Qed.

Section Pool.
Variable U : list block.      (* the blocks that may be delivered *)

Definition pool_inv (ix : list node) (o : list block) : Prop :=
  forall c, In c o -> In c U /\ in_idx (bid c) ix = false.

(** the pool between deliveries *)
Definition pool_rest (ix : list node) (o : list block) : Prop :=
  pool_inv ix o /\ forall c, In c o -> in_idx (bpar c) ix = false.

(** the pool inside ProcessOrphans, [q] its queue *)
Definition pool_loop (ix : list node) (o : list block) (q : list N) : Prop :=
  pool_inv ix o /\
  (forall c, In c o -> in_idx (bpar c) ix = true -> In (bpar c) q) /\
  (forall h, In h q -> in_idx h ix = true).

(** from one pool to a later one *)
Definition pool_adv (ix : list node) (o : list block) (ix' : list node) (o' : list block) : Prop :=
  (forall h, in_idx h ix = true -> in_idx h ix' = true) /\
  (forall c, In c o -> In c o' \/ in_idx (bid c) ix' = true).

Lemma pool_adv_refl : forall ix o, pool_adv ix o ix o.
Proof. intros ix o. split; auto. Qed.

Lemma pool_adv_trans : forall ix o ix1 o1 ix2 o2,
  pool_adv ix o ix1 o1 -> pool_adv ix1 o1 ix2 o2 -> pool_adv ix o ix2 o2.
Proof.
  intros ix o ix1 o1 ix2 o2 [G1 K1] [G2 K2]. split; [auto|].
  intros c Hc. destruct (K1 c Hc) as [X|X]; [apply K2; exact X|right; apply G2; exact X].
Qed.

Lemma pool_adv_orph : forall ix o ix' o' h, pool_adv ix o ix' o' ->
  in_orph h o = true -> in_orph h o' = true \/ in_idx h ix' = true.
Proof.
  intros ix o ix' o' h [_ K] H. apply in_orph_true in H as (c & Hc & <-).
  destruct (K c Hc); [left; apply in_orph_true; eauto|right; assumption].
Qed.

Lemma loop_done : forall ix o, pool_loop ix o [] -> pool_rest ix o.
Proof.
  intros ix o (PI & Pend & _). split; [exact PI|]. intros c Hc.
  destruct (in_idx (bpar c) ix) eqn:E; [destruct (Pend c Hc E)|reflexivity].
Qed.

Lemma loop_pop : forall ix o p q, pool_loop ix o (p :: q) -> first_child p o = None -> pool_loop ix o q.
Proof.
  intros ix o p q (PI & Pend & Qi) FC. split; [exact PI|]. split; [|intros h Hh; apply Qi; right; exact Hh].
  intros c Hc E. destruct (Pend c Hc E) as [X|X]; [|exact X].
  exfalso. eapply first_child_none; eauto.
Qed.

Lemma loop_child : forall ix o p q nb,
  pool_loop ix o (p :: q) -> In (nblk nb) o ->
  let o' := remove_orph (bid (nblk nb)) o in
  let q' := (p :: q) ++ [bid (nblk nb)] in
  pool_loop (nb :: ix) o' q' /\ pool_adv ix o (nb :: ix) o' /\
  (2 * length o' + length q' < 2 * length o + length (p :: q))%nat.
Proof.
  intros ix o p q nb (PI & Pend & Qi) Hc o' q'. unfold o', q'. split; [split; [|split]|split; [split|]].
  - intros c H. apply remove_orph_in in H as [H Ne]. split; [apply PI, H|].
    rewrite in_idx_cons, (proj2 (PI c H)).
    apply orb_false_iff. split; [apply N.eqb_neq; congruence|reflexivity].
  - intros c Hc' E. apply remove_orph_in in Hc' as [Hc' _]. rewrite in_idx_cons in E.
    apply in_or_app. apply orb_true_iff in E as [E|E]; [right; left; apply N.eqb_eq; exact E|].
    left. apply Pend; assumption.
  - intros h Hh. apply in_app_or in Hh as [Hh|[<-|[]]]; [apply in_idx_tail, Qi, Hh|apply in_idx_head].
  - intros h. apply in_idx_tail.
  - intros c Hc'. destruct (N.eq_dec (bid c) (bid (nblk nb))) as [E|E].
    + right. rewrite E. apply in_idx_head.
    + left. apply remove_orph_in. auto.
  - rewrite app_length. pose proof (remove_orph_length _ _ Hc). cbn [length] in *. lia.
Qed.

Lemma loop_start : forall ix o nb,
  pool_rest ix o -> in_orph (bid (nblk nb)) o = false -> pool_loop (nb :: ix) o [bid (nblk nb)].
Proof.
  intros ix o nb [PI W] Nk. split; [|split].
  - intros c H. split; [apply PI, H|].
    rewrite in_idx_cons, (proj2 (PI c H)). apply orb_false_iff. split; [|reflexivity].
    apply N.eqb_neq. intros E. rewrite <- not_true_iff_false in Nk. apply Nk, in_orph_true. eauto.
  - intros c Hc E. rewrite in_idx_cons, (W c Hc), orb_false_r in E. left. apply N.eqb_eq. exact E.
  - intros h [<-|[]]. apply in_idx_head.
Qed.

Lemma rest_add : forall ix o o' b,
  pool_rest ix o -> In b U -> in_idx (bid b) ix = false -> in_idx (bpar b) ix = false ->
  (forall c, In c o' -> In c o \/ c = b) -> pool_rest ix o'.
Proof.
  intros ix o o' b [PI W] Hb Nb Np Sub.
  split; intros c Hc; (destruct (Sub c Hc) as [X| ->]; [auto|]); auto.
Qed.

End Pool.

Section Tree.
Variables (g : block) (T : list block).
Hypothesis Hg : In g T.
Hypothesis Hnd : NoDup (map bid T).

Lemma id_inj : forall a b, In a T -> In b T -> bid a = bid b -> a = b.
Proof.
  clear Hg. induction T as [|x T' IH]; intros a b Ha Hb E; [destruct Ha|].
  cbn [map] in Hnd. inversion Hnd as [|? ? Hx Hnd']; subst.
  destruct Ha as [Ha|Ha], Hb as [Hb|Hb]; subst.
  - reflexivity.
  - exfalso. apply Hx. rewrite E. apply in_map. exact Hb.
  - exfalso. apply Hx. rewrite <- E. apply in_map. exact Ha.
  - apply IH; assumption.
Qed.

Lemma path_in : forall b l td, path g T b l td -> In b T.
Proof. intros b l td P. destruct P; assumption. Qed.

Lemma path_height : forall b l td, path g T b l td -> bht g <= bht b.
Proof. intros b l td P. induction P; lia. Qed.

Lemma path_head : forall b l td, path g T b l td -> exists l', l = bid b :: l'.
Proof. intros b l td P. destruct P; eexists; reflexivity. Qed.

Lemma path_has_root : forall b l td, path g T b l td -> In (bid g) l.
Proof. intros b l td P. induction P; [left; reflexivity|right; assumption]. Qed.

Lemma path_inv : forall b l td, path g T b l td ->
  (b = g /\ l = [bid g] /\ td = bdiff g) \/
  (exists p l0 td0, In b T /\ path g T p l0 td0 /\ bpar b = bid p /\ bht b = bht p + 1 /\
                    l = bid b :: l0 /\ td = td0 + bdiff b).
Proof.
  intros b l td P. destruct P as [|b p l td Hb Pp Hpar Hht]; [left; auto|].
  right. exists p, l, td. auto 10.
Qed.

Lemma path_fun : forall b l td, path g T b l td ->
  forall l' td', path g T b l' td' -> l' = l /\ td' = td.
Proof.
  intros b l td P. induction P as [|b p l td Hb Pp IH Hpar Hht]; intros l' td' P'.
  - apply path_inv in P' as [(_ & E1 & E2)|(p' & l0 & td0 & _ & Pp' & Hpar' & Hht' & _)].
    + split; assumption.
    + apply path_height in Pp'. lia.
  - apply path_inv in P' as [(E0 & _)|(p' & l0 & td0 & _ & Pp' & Hpar' & Hht' & E1 & E2)].
    + apply path_height in Pp. rewrite E0 in Hht. lia.
    + assert (E : p' = p).
      { apply id_inj; [eapply path_in; eauto|eapply path_in; eauto|congruence]. }
      rewrite E in Pp'. destruct (IH _ _ Pp') as [El Et].
      split; congruence.
Qed.

Lemma path_eq : forall a la ta b lb tb, path g T a la ta -> path g T b lb tb ->
  bid a = bid b -> a = b /\ la = lb /\ ta = tb.
Proof.
  intros a la ta b lb tb Pa Pb E.
  assert (a = b) by (apply id_inj; [eapply path_in; eauto|eapply path_in; eauto|exact E]). subst b.
  destruct (path_fun _ _ _ Pb _ _ Pa) as [-> ->]. auto.
Qed.

(** a block other than the root lies one step above its parent's path *)
Lemma path_child : forall b l td p lp tdp, path g T b l td -> b <> g -> path g T p lp tdp ->
  bpar b = bid p -> bht b = bht p + 1 /\ l = bid b :: lp /\ td = tdp + bdiff b.
Proof.
  intros b l td p lp tdp Pb Ng Pp E.
  apply path_inv in Pb as [(Eg & _)|(p' & l0 & td0 & _ & Pp' & Hpar & Hht & -> & ->)]; [destruct (Ng Eg)|].
  destruct (path_eq _ _ _ _ _ _ Pp' Pp) as (-> & -> & ->); [congruence|]. auto.
Qed.

Lemma path_mem : forall t lt td, path g T t lt td ->
  forall h, In h lt -> exists x lx tdx, path g T x lx tdx /\ bid x = h /\ bht x <= bht t.
Proof.
  intros t lt td Pt. induction Pt as [|b p l td Hb Pp IH Hpar Hht]; intros h Hin.
  - destruct Hin as [<-|[]]. exists g, [bid g], (bdiff g). split; [apply path_root|]. split; [reflexivity|lia].
  - destruct Hin as [<-|Hin].
    + exists b, (bid b :: l), (td + bdiff b). split; [eapply path_step; eauto|]. split; [reflexivity|lia].
    + destruct (IH h Hin) as (x & lx & tdx & Px & Ex & Lx). exists x, lx, tdx. repeat split; auto. lia.
Qed.

Lemma drop_until_path : forall t l td, path g T t l td ->
  forall n ln tdn, path g T n ln tdn -> In (bid n) l -> drop_until (bid n) l = ln.
Proof.
  intros t l td P. induction P as [|b p l td Hb Pp IH Hpar Hht]; intros n ln tdn Pn Hin.
  - destruct Hin as [E|[]].
    destruct (path_eq _ _ _ _ _ _ (path_root g T) Pn E) as (<- & <- & _).
    cbn [drop_until]. rewrite N.eqb_refl. reflexivity.
  - cbn [drop_until]. destruct (N.eqb (bid b) (bid n)) eqn:E.
    + apply N.eqb_eq in E.
      destruct (path_eq _ _ _ _ _ _ (path_step g T b p l td Hb Pp Hpar Hht) Pn E) as (_ & <- & _).
      reflexivity.
    + apply N.eqb_neq in E. destruct Hin as [Hin|Hin]; [congruence|].
      eapply IH; eauto.
Qed.

Lemma path_lower_in : forall t lt td, path g T t lt td ->
  forall x lx tdx y ly tdy, path g T x lx tdx -> path g T y ly tdy ->
  In (bid x) lt -> In (bid y) lt -> bht x <= bht y -> In (bid x) ly.
Proof.
  intros t lt td Pt. induction Pt as [|b p l td Hb Pp IH Hpar Hht];
    intros x lx tdx y ly tdy Px Py Hx Hy Le.
  - destruct Hx as [Ex|[]], Hy as [Ey|[]].
    destruct (path_eq _ _ _ _ _ _ (path_root g T) Py Ey) as (_ & <- & _). left. exact Ex.
  - pose proof (path_step g T b p l td Hb Pp Hpar Hht) as Pb.
    destruct Hy as [Ey|Hy].
    { destruct (path_eq _ _ _ _ _ _ Pb Py Ey) as (_ & <- & _). exact Hx. }
    destruct Hx as [Ex|Hx]; [|eapply IH; eauto].
    (* [x] owns the list and [y] is strictly below it *)
    exfalso. destruct (path_eq _ _ _ _ _ _ Pb Px Ex) as (<- & _).
    destruct (path_mem _ _ _ Pp _ Hy) as (y' & ly' & tdy' & Py' & Ey' & L).
    destruct (path_eq _ _ _ _ _ _ Py' Py Ey') as (-> & _). lia.
Qed.

Lemma drop_until_height : forall t lt td, path g T t lt td ->
  forall x lx tdx y ly tdy, path g T x lx tdx -> path g T y ly tdy ->
  In (bid x) lt -> In (bid y) lt ->
  (In (bid x) (drop_until (bid y) lt) <-> bht x <= bht y).
Proof.
  intros t lt td Pt x lx tdx y ly tdy Px Py Hx Hy.
  rewrite (drop_until_path _ _ _ Pt _ _ _ Py Hy). split.
  - intros H. destruct (path_mem _ _ _ Py _ H) as (x' & lx' & tdx' & Px' & Ex & L).
    destruct (path_eq _ _ _ _ _ _ Px' Px Ex) as (-> & _). exact L.
  - exact (path_lower_in _ _ _ Pt _ _ _ _ _ _ Px Py Hx Hy).
Qed.

Definition idx_ok (ix : list node) : Prop :=
  forall n, In n ix ->
    (exists l, path g T (nblk n) l (ntd n)) /\
    (nblk n = g \/ in_idx (bpar (nblk n)) ix = true).

Lemma idx_path : forall ix b l td, idx_ok ix -> path g T b l td ->
  in_idx (bid b) ix = true -> In (mkN b td) ix.
Proof.
  intros ix b l td OK Pb H. apply in_idx_true in H as ([b' td'] & Hn & E).
  destruct (OK _ Hn) as [[l' Pn] _]. cbn [nblk ntd] in *.
  destruct (path_eq _ _ _ _ _ _ Pn Pb E) as (-> & _ & ->). exact Hn.
Qed.

Lemma node_eq : forall ix n1 n2, idx_ok ix -> In n1 ix -> In n2 ix ->
  bid (nblk n1) = bid (nblk n2) -> n1 = n2.
Proof.
  intros ix [b1 t1] [b2 t2] OK H1 H2 E.
  destruct (OK _ H1) as [[l1 P1] _]. destruct (OK _ H2) as [[l2 P2] _]. cbn [nblk ntd] in *.
  destruct (path_eq _ _ _ _ _ _ P1 P2 E) as (-> & _ & ->). reflexivity.
Qed.

Lemma idx_find : forall ix n, idx_ok ix -> In n ix -> find_node (bid (nblk n)) ix = Some n.
Proof.
  intros ix n OK Hn. destruct (find_node_in _ _ Hn) as [n' F]. rewrite F.
  apply find_node_some in F as [Hn' E]. f_equal. apply (node_eq ix); assumption.
Qed.

Lemma idx_ok_cons : forall ix nb l,
  idx_ok ix -> path g T (nblk nb) l (ntd nb) -> in_idx (bpar (nblk nb)) ix = true ->
  idx_ok (nb :: ix).
Proof.
  intros ix nb l OK P Par n [<-|Hn].
  - split; [exists l; exact P|]. right. apply in_idx_tail, Par.
  - destruct (OK _ Hn) as [HP [Cl|Cl]]; split; auto. right. apply in_idx_tail, Cl.
Qed.

Lemma idx_child : forall ix b l td pn,
  idx_ok ix -> in_idx (bid g) ix = true -> path g T b l td ->
  in_idx (bid b) ix = false -> find_node (bpar b) ix = Some pn ->
  bht b = bht (nblk pn) + 1 /\ td = ntd pn + bdiff b /\
  (exists lp, l = bid b :: lp /\ path g T (nblk pn) lp (ntd pn)) /\
  idx_ok (mkN b td :: ix).
Proof.
  intros ix b l td pn OK Rt Pb Nb F. apply find_node_some in F as [Hpn Epn].
  destruct (OK _ Hpn) as [[lp Ppn] _].
  assert (Ng : b <> g) by congruence.
  destruct (path_child _ _ _ _ _ _ Pb Ng Ppn (eq_sym Epn)) as (Hht & El & Et).
  split; [exact Hht|]. split; [exact Et|]. split; [exists lp; auto|].
  apply (idx_ok_cons ix (mkN b td) l OK Pb).
  apply in_idx_true. exists pn. auto.
Qed.

Lemma anc_indexed : forall ix, idx_ok ix ->
  forall b l td, path g T b l td -> in_idx (bid b) ix = true ->
  forall h, In h l -> in_idx h ix = true.
Proof.
  intros ix OK b l td Pb. induction Pb as [|b p l td Hb Pp IH Hpar Hht]; intros Ib h Hin.
  - destruct Hin as [<-|[]]. exact Ib.
  - destruct Hin as [<-|Hin]; [exact Ib|]. apply IH; [|exact Hin].
    pose proof (idx_path ix _ _ _ OK (path_step g T b p l td Hb Pp Hpar Hht) Ib) as Hn.
    destruct (OK _ Hn) as [_ [Cl|Cl]]; cbn [nblk] in Cl.
    + exfalso. subst b. apply path_height in Pp. lia.
    + rewrite Hpar in Cl. exact Cl.
Qed.

Lemma branch_ok : forall ix mn t tdt,
  idx_ok ix -> path g T t mn tdt ->
  forall b l td, path g T b l td -> in_idx (bid b) ix = true ->
  forall fuel, (Z.to_nat (bht b - bht g) < fuel)%nat ->
  exists p fk, branch fuel ix mn (bid b) = Some (p, fk) /\ p ++ drop_until fk mn = l.
Proof.
  intros ix mn t tdt OK Pt b l td P.
  induction P as [|b p l td Hb Pp IH Hpar Hht]; intros Hin fuel Hf;
    (destruct fuel as [|f]; [lia|]); cbn [branch].
  - assert (M : In (bid g) mn) by (eapply path_has_root; eauto).
    rewrite (proj2 (memN_In _ _) M). exists [], (bid g). split; [reflexivity|].
    exact (drop_until_path _ _ _ Pt _ _ _ (path_root g T) M).
  - pose proof (path_step g T b p l td Hb Pp Hpar Hht) as Pb.
    destruct (memN (bid b) mn) eqn:M.
    + exists [], (bid b). split; [reflexivity|]. apply memN_In in M.
      exact (drop_until_path _ _ _ Pt _ _ _ Pb M).
    + pose proof (idx_path ix _ _ _ OK Pb Hin) as Hn.
      rewrite (idx_find ix _ OK Hn : find_node (bid b) ix = _). cbn [nblk].
      destruct (OK _ Hn) as [_ [Cl|Cl]]; cbn [nblk] in Cl.
      { apply path_height in Pp. subst b. lia. }
      rewrite Hpar in *. apply path_height in Pp as Hp.
      destruct (IH Cl f) as (p' & fk & -> & <-); [lia|].
      exists (bid b :: p'), fk. split; reflexivity.
Qed.

(** [Q]: which path lists compete (all for Model.v; for ModelExt.v those
    through the finalizer's choice) *)
Lemma heaviest_is_tip : forall (Q : list N -> Prop) fin ix t mn H lH tdH,
  idx_ok ix -> In t ix -> path g T (nblk t) mn (ntd t) -> Q mn ->
  (forall n, In n ix -> fin + margin <= bht (nblk n) -> ntd n <= ntd t) ->
  path g T H lH tdH -> in_idx (bid H) ix = true ->
  (forall x l td, path g T x l td -> Q l -> x <> H -> td < tdH) ->
  fin + margin <= bht H ->
  hd 0%N mn = bid H /\ mn = lH /\ find_node (hd 0%N mn) ix = Some (mkN H tdH).
Proof.
  intros Q fin ix t mn H lH tdH OK Ht Pt Qm Mx PH InH Hmax Hm.
  pose proof (idx_path ix _ _ _ OK PH InH) as Hn.
  pose proof (Mx _ Hn Hm) as Le. cbn [ntd] in Le.
  assert (E : bid (nblk t) = bid H).
  { destruct (N.eq_dec (bid (nblk t)) (bid H)) as [E|E]; [exact E|].
    assert (ntd t < tdH) by (apply (Hmax _ _ _ Pt Qm); congruence). lia. }
  destruct (path_eq _ _ _ _ _ _ Pt PH E) as (_ & -> & _).
  destruct (path_head _ _ _ PH) as [l' ->]. cbn [hd].
  split; [reflexivity|]. split; [reflexivity|]. exact (idx_find ix _ OK Hn).
Qed.

Lemma connected_indexed : forall ix (o : list block),
  in_idx (bid g) ix = true ->
  (forall c, In c o -> in_idx (bpar c) ix = false) ->
  (forall b, In b T -> b = g \/ in_idx (bid b) ix = true \/ In b o) ->
  forall b l td, path g T b l td -> in_idx (bid b) ix = true.
Proof.
  intros ix o Rt Par All b l td P. induction P as [|b p l td Hb Pp IH Hpar Hht]; [exact Rt|].
  destruct (All b Hb) as [->|[X|X]]; [exact Rt|exact X|].
  apply Par in X. rewrite Hpar, IH in X. discriminate.
Qed.

End Tree.
