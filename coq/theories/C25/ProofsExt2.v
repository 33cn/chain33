(** C25 — proofs for the extended model, part 2: the invariant of one
    acceptance (index, best chain view, finalizer choice, heaviest-so-far). *)
From Coq Require Import List ZArith NArith Bool Lia.
From C33 Require Import C25.Model C25.Proofs C25.ModelExt C25.ProofsExt.
Import ListNotations.
Open Scope Z_scope.

Lemma node_height_some : forall f ix h, node_height f ix = Some h -> in_idx f ix = true.
Proof. unfold node_height, in_idx. intros f ix h. destruct (find_node f ix); [reflexivity|discriminate]. Qed.

Lemma node_height_cons : forall f nb ix h, in_idx (bid (nblk nb)) ix = false ->
  node_height f ix = Some h -> node_height f (nb :: ix) = Some h.
Proof.
  intros f nb ix h Nb H. unfold node_height, find_node in *. cbn [find].
  destruct (N.eqb (bid (nblk nb)) f) eqn:E; [|exact H].
  apply N.eqb_eq in E. apply node_height_some in H. congruence.
Qed.

(** connectBestChain's comparison of total difficulties: best-block comparison
    ([c], [d], [e]) has a say only at equal difficulty *)
Lemma tie_break_only : forall x y c d e,
  if (x <=? y) && negb (c && (x =? y) && d && e) then x <= y else y <= x.
Proof.
  intros x y c d e. destruct (Z.eqb_spec x y) as [E|E]; [destruct (_ && negb _); lia|].
  rewrite andb_false_r. cbn [andb negb]. rewrite andb_true_r. destruct (Z.leb_spec x y); lia.
Qed.

Section AcceptX.
Variables (P : params) (g : block) (T : list block).
Hypothesis Hg : In g T.
Hypothesis Hnd : NoDup (map bid T).
Hypothesis Hconn : forall b, In b T -> exists l td, path g T b l td.
Hypothesis Hdiff : forall b, In b T -> 0 <= bdiff b.
Hypothesis Hg0 : 0 <= bht g.

Definition tipnode (s : xstate) (t : node) : Prop :=
  In t (xidx s) /\ path g T (nblk t) (xmain s) (ntd t).

(** index and view: always *)
Definition cidx (s : xstate) : Prop :=
  idx_ok g T (xidx s) /\ in_idx (bid g) (xidx s) = true /\ exists t, tipnode s t.

(** the tip is at least as heavy as every indexed block at or above the margin:
    holds as long as no delivery lowers the finalizer's choice *)
Definition mx (s : xstate) : Prop :=
  forall t n, tipnode s t -> In n (xidx s) -> xfin s + margin <= bht (nblk n) -> ntd n <= ntd t.

Definition anchored (s : xstate) (f : N) (h : Z) : Prop :=
  In f (xmain s) /\ node_height f (xidx s) = Some h.

Definition fin_ok (s : xstate) : Prop :=
  match xfh s with Some f => anchored s f (xfin s) | None => True end.

Lemma tipnode_fun : forall s t1 t2, idx_ok g T (xidx s) -> tipnode s t1 -> tipnode s t2 -> t1 = t2.
Proof.
  intros s t1 t2 OK [H1 P1] [H2 P2].
  apply (node_eq g T Hg Hnd (xidx s)); auto.
  destruct (path_head _ _ _ _ _ P1) as [l1 E1]. destruct (path_head _ _ _ _ _ P2) as [l2 E2].
  rewrite E1 in E2. injection E2 as E _. exact E.
Qed.

Definition with_orph (s : xstate) (o : list (block * Z)) (od : option (N * Z)) : xstate :=
  mkX (xidx s) o (xmain s) (xevs s) od (xfin s) (xfh s).

Lemma cidx_with_orph : forall s o od, cidx s -> cidx (with_orph s o od).
Proof. intros s o od H. exact H. Qed.
Lemma mx_with_orph : forall s o od, mx s -> mx (with_orph s o od).
Proof. intros s o od H. exact H. Qed.
Lemma fin_ok_with_orph : forall s o od, fin_ok s -> fin_ok (with_orph s o od).
Proof. intros s o od H. exact H. Qed.

Definition view_ok (s : xstate) : Prop := cidx s /\ fin_ok s.

(** [mx] against a height [f] of its own: [mx s] is [mx_at (xfin s) s], and
    Model.v's invariant is [mx_at] its constant *)
Definition mx_at (f : Z) (s : xstate) : Prop :=
  forall t n, tipnode s t -> In n (xidx s) -> f + margin <= bht (nblk n) -> ntd n <= ntd t.

Lemma mx_at_tip : forall f s t, idx_ok g T (xidx s) -> tipnode s t ->
  (forall n, In n (xidx s) -> f + margin <= bht (nblk n) -> ntd n <= ntd t) -> mx_at f s.
Proof. intros f s t OK Tn H t' n Tn'. rewrite (tipnode_fun s t' t OK Tn' Tn). apply H. Qed.

Definition settled (s : xstate) (f : N) (h : Z) : Prop := anchored s f h /\ h <= xfin s.

Definition off_branch_low (f : N) (h : Z) : Prop :=
  forall b, In b T -> forall l td, path g T b l td -> In f l \/ bht b < h + margin.

(** what deliveries do to the view, seen from the finalizer: the choice only
    goes down; a settled block stays settled if the choice did not go down or
    nothing off its branches can reach the margin; the tip stays the heaviest *)
Definition advances (s s' : xstate) : Prop :=
  xfin s' <= xfin s /\
  (forall h, in_idx h (xidx s) = true -> in_idx h (xidx s') = true) /\
  (forall f h, settled s f h -> xfin s <= xfin s' \/ off_branch_low f h -> settled s' f h) /\
  (forall f, xfin s <= f -> mx_at f s -> mx_at f s').

Lemma advances_refl : forall s, advances s s.
Proof. intros s. split; [apply Z.le_refl|]. split; [auto|]. split; auto. Qed.

Lemma advances_trans : forall s1 s2 s3, advances s1 s2 -> advances s2 s3 -> advances s1 s3.
Proof.
  intros s1 s2 s3 (L1 & G1 & S1 & M1) (L2 & G2 & S2 & M2).
  split; [lia|]. split; [auto|]. split.
  - intros f h St D. apply S2; [apply S1; [exact St|]|]; (destruct D as [D|D]; [left; lia|right; exact D]).
  - intros f Lf M. apply M2; [lia|]. apply M1; assumption.
Qed.

Lemma fin_ok_advances : forall s s', advances s s' ->
  xfin s' = xfin s -> xfh s' = xfh s -> fin_ok s -> fin_ok s'.
Proof.
  intros s s' (_ & _ & St & _) Ef Eh. unfold fin_ok. rewrite Eh, Ef.
  destruct (xfh s) as [f|]; [|auto].
  intros A. apply (St f (xfin s)); [split; [exact A|apply Z.le_refl]|left; lia].
Qed.

Lemma node_height_path : forall ix x lx tdx, idx_ok g T ix -> path g T x lx tdx ->
  in_idx (bid x) ix = true -> node_height (bid x) ix = Some (bht x).
Proof.
  intros ix x lx tdx OK Px Ix. unfold node_height.
  rewrite (idx_find g T Hg Hnd ix _ OK (idx_path g T Hg Hnd ix _ _ _ OK Px Ix) : find_node (bid x) ix = _).
  reflexivity.
Qed.

Lemma fork_keeps : forall ix t lt tdt f h fk fkh, idx_ok g T ix -> path g T t lt tdt ->
  In f lt -> In fk lt -> node_height f ix = Some h -> node_height fk ix = Some fkh ->
  (In f (drop_until fk lt) <-> h <= fkh).
Proof.
  intros ix t lt tdt f h fk fkh OK Pt Hf Hfk Nf Nfk.
  destruct (path_mem g T _ _ _ Pt _ Hf) as (x & lx & tdx & Px & <- & _).
  destruct (path_mem g T _ _ _ Pt _ Hfk) as (y & ly & tdy & Py & <- & _).
  rewrite (node_height_path ix _ _ _ OK Px (node_height_some _ _ _ Nf)) in Nf.
  rewrite (node_height_path ix _ _ _ OK Py (node_height_some _ _ _ Nfk)) in Nfk.
  injection Nf as <-. injection Nfk as <-.
  exact (drop_until_height g T Hg Hnd _ _ _ Pt _ _ _ _ _ _ Px Py Hf Hfk).
Qed.

Lemma mx_at_grow : forall s s' t nb t' f,
  idx_ok g T (xidx s') -> xidx s' = nb :: xidx s -> tipnode s t -> tipnode s' t' -> ntd t <= ntd t' ->
  (f + margin <= bht (nblk nb) -> ntd nb <= ntd t') ->
  mx_at f s -> mx_at f s'.
Proof.
  intros s s' t nb t' f OK Ei Tt Tt' Ge New M. apply (mx_at_tip f s' t' OK Tt').
  rewrite Ei. intros n [<-|Hn] Hm; [exact (New Hm)|]. specialize (M t n Tt Hn Hm). lia.
Qed.

(** the new node [nb] is indexed and the view keeps its blocks and the choice:
    [nb] extends the tip, or stays on a side chain (not heavier than the tip, or
    below the margin) *)
Lemma grown_ok : forall s s' nb t t',
  view_ok s -> tipnode s t -> in_idx (bid (nblk nb)) (xidx s) = false ->
  xidx s' = nb :: xidx s -> idx_ok g T (xidx s') -> tipnode s' t' -> ntd t <= ntd t' ->
  ntd nb <= ntd t' \/ bht (nblk nb) < xfin s + margin ->
  (forall f, In f (xmain s) -> In f (xmain s')) -> xfin s' = xfin s -> xfh s' = xfh s ->
  view_ok s' /\ advances s s'.
Proof.
  intros s s' nb t t' [(_ & Rt & _) Fo] Tt Nb Ei OK' Tt' Ge Lo Em Ef Eh.
  assert (Adv : advances s s').
  { split; [lia|]. split; [intros h; rewrite Ei; apply in_idx_tail|]. split.
    - intros f h [[Am An] Le] _. split; [split; [apply Em, Am|]|lia].
      rewrite Ei. apply node_height_cons; assumption.
    - intros f Lf. apply (mx_at_grow s s' t nb t' f OK' Ei Tt Tt' Ge). destruct Lo; lia. }
  split; [|exact Adv]. split; [|exact (fin_ok_advances s s' Adv Ef Eh Fo)].
  split; [exact OK'|]. split; [rewrite Ei; apply in_idx_tail, Rt|exists t'; exact Tt'].
Qed.

(** a reorganisation onto the new node [nb], above the margin, that forks off
    the view at [fk] (height [fkh]) and moves the choice down to it if it was above *)
Lemma reorg_ok : forall s s' t nb p fk fkh,
  view_ok s -> tipnode s t -> in_idx (bid (nblk nb)) (xidx s) = false ->
  xidx s' = nb :: xidx s -> idx_ok g T (xidx s') -> tipnode s' nb -> ntd t <= ntd nb ->
  xfin s + margin <= bht (nblk nb) ->
  xmain s' = p ++ drop_until fk (xmain s) -> In fk (xmain s) -> (forall x, In x p -> ~ In x (xmain s)) ->
  node_height fk (xidx s') = Some fkh ->
  (xfin s' = fkh /\ xfh s' = Some fk /\ fkh < xfin s \/ xfin s' = xfin s /\ xfh s' = xfh s /\ xfin s <= fkh) ->
  view_ok s' /\ advances s s'.
Proof.
  intros s s' t nb p fk fkh [(_ & Rt & _) Fo] Tt Nb Ei OK' [Hnb Pnb] Ge Hm Em Fin Dis Nfk Ef.
  assert (Adv : advances s s').
  { split; [lia|]. split; [intros h; rewrite Ei; apply in_idx_tail|]. split.
    2:{ intros f _. apply (mx_at_grow s s' t nb nb f OK' Ei Tt (conj Hnb Pnb) Ge). intros _. apply Z.le_refl. }
    intros f h [[Am An] Le] D.
    apply (node_height_cons _ nb _ _ Nb) in An. rewrite <- Ei in An.
    (* [f] is kept exactly when it is not above the fork point *)
    destruct (fork_keeps _ _ _ _ f h fk fkh OK' (proj2 Tt) Am Fin An Nfk) as [K1 K2].
    assert (In f (p ++ drop_until fk (xmain s)) /\ h <= fkh) as [A1 A2].
    { destruct D as [D|D]; [split; [apply in_or_app; right; apply K2|]; lia|].
      destruct (D _ (path_in g T Hg _ _ _ Pnb) _ _ Pnb) as [I|I]; [|lia]. rewrite Em in I.
      split; [exact I|]. apply K1. apply in_app_or in I as [I|I]; [destruct (Dis f I Am)|exact I]. }
    split; [split; [rewrite Em; exact A1|exact An]|lia]. }
  split; [|exact Adv]. split.
  { split; [exact OK'|]. split; [rewrite Ei; apply in_idx_tail, Rt|exists nb; split; assumption]. }
  destruct Ef as [(Ef & Eh & _)|(Ef & Eh & _)]; [|exact (fin_ok_advances s s' Adv Ef Eh Fo)].
  unfold fin_ok, anchored. rewrite Eh, Ef, Em. split; [apply in_or_app; right; apply drop_until_self, Fin|exact Nfk].
Qed.

(** FindFork from an indexed block [b] does not fail: its branch leaves the view
    [mn] at a block of the view, which is indexed *)
Lemma fork_found : forall ix mn t b l td,
  idx_ok g T ix -> In t ix -> path g T (nblk t) mn (ntd t) -> path g T b l td -> in_idx (bid b) ix = true ->
  exists p fk fkh, branch (S (Z.to_nat (bht b))) ix mn (bid b) = Some (p, fk) /\ p ++ drop_until fk mn = l /\
    In fk mn /\ (forall x, In x p -> ~ In x mn) /\ node_height fk ix = Some fkh.
Proof.
  intros ix mn t b l td OK Ht Pt Pb Ib. pose proof (path_height _ _ _ _ _ Pb) as Hh.
  destruct (branch_ok g T Hg Hnd ix mn _ _ OK Pt b _ _ Pb Ib (S (Z.to_nat (bht b)))) as (p & fk & Br & Sp); [lia|].
  destruct (branch_fork_in _ _ _ _ _ _ Br) as [Fin Dis].
  assert (It : in_idx (bid (nblk t)) ix = true) by (apply in_idx_true; eauto).
  pose proof (anc_indexed g T Hg Hnd _ OK _ _ _ Pt It _ Fin) as Ifk.
  unfold in_idx in Ifk. destruct (find_node fk ix) as [n|] eqn:F; [|discriminate].
  exists p, fk, (bht (nblk n)). unfold node_height. rewrite F. split; [exact Br|]. split; [exact Sp|]. split; [exact Fin|]. split; [exact Dis|reflexivity].
Qed.

(** connectBestChain for the node of a tree block that was just put on the index *)
Lemma connect_best_x_ok : forall s b lb td t,
  view_ok s -> tipnode s t -> In b T -> in_idx (bid b) (xidx s) = false ->
  path g T b lb td -> idx_ok g T (mkN b td :: xidx s) ->
  exists s' m,
    connect_best_x P (mkX (mkN b td :: xidx s) (xorph s) (xmain s) (xevs s) (xold s) (xfin s) (xfh s)) b td
      = (s', m, ENone) /\
    xidx s' = mkN b td :: xidx s /\ view_ok s' /\ advances s s'.
Proof.
  intros s b lb td t V Tt Hb Nb Plb OK1. pose proof Tt as [Ht Pt]. set (nb := mkN b td) in *.
  destruct (path_head _ _ _ _ _ Pt) as [lt' Emain].
  unfold connect_best_x, xtip. cbn [xidx xorph xmain xevs xold xfin xfh].
  replace (hd 0%N (xmain s)) with (bid (nblk t)) by (rewrite Emain; reflexivity).
  destruct (N.eqb (bpar b) (bid (nblk t))) eqn:Ext.
  - (* extends the tip: the path of [b] is the view with [b] on top *)
    apply N.eqb_eq in Ext. pose proof (proj1 (proj2 (proj1 V))) as Rt.
    assert (Ng : b <> g) by congruence.
    destruct (path_child g T Hg Hnd _ _ _ _ _ _ Plb Ng Pt Ext) as (_ & -> & ->).
    pose proof (Hdiff b Hb) as Db.
    eexists _, true. split; [reflexivity|]. split; [reflexivity|]. set (s' := mkX _ _ _ _ _ _ _).
    apply (grown_ok s s' nb t nb V Tt Nb eq_refl OK1 (conj (or_introl eq_refl) Plb));
      [cbn [ntd nb]; lia|left; apply Z.le_refl|intros f; apply in_cons|reflexivity|reflexivity].
  - rewrite (idx_find g T Hg Hnd _ t OK1 (or_intror Ht)).
    pose proof (tie_break_only td (ntd t) (pebc P) (bht b =? bht (nblk t)) (pcmp P (bid b) (bid (nblk t)))) as Cmp.
    destruct (_ || _) eqn:Side.
    + (* side chain *)
      eexists _, false. split; [reflexivity|]. split; [reflexivity|]. set (s' := mkX _ _ _ _ _ _ _).
      apply (grown_ok s s' nb t t V Tt Nb eq_refl OK1 (conj (or_intror Ht) Pt) (Z.le_refl _));
        [|auto|reflexivity|reflexivity].
      apply orb_true_iff in Side as [S1|S2]; [left; rewrite S1 in Cmp; exact Cmp|right; apply Z.ltb_lt, S2].
    + (* reorganisation *)
      apply orb_false_iff in Side as [S1 S2]. apply Z.ltb_ge in S2. rewrite S1 in Cmp.
      destruct (fork_found (nb :: xidx s) (xmain s) t b lb td OK1 (or_intror Ht) Pt Plb (in_idx_head nb _))
        as (p' & fk & fkh & Br & Sp & Fin & Dis & Nfk).
      rewrite Br, Nfk.
      eexists _, true. split; [reflexivity|]. split; [reflexivity|]. set (s' := mkX _ _ _ _ _ _ _).
      apply (reorg_ok s s' t nb p' fk fkh V Tt Nb eq_refl OK1); [|exact Cmp|exact S2|reflexivity|exact Fin|exact Dis|exact Nfk|].
      * split; [left; reflexivity|unfold s'; cbn [xmain]; rewrite Sp; exact Plb].
      * unfold s'. cbn [xfin xfh]. destruct (fkh <? xfin s) eqn:L; [apply Z.ltb_lt in L|apply Z.ltb_ge in L]; auto.
Qed.

Lemma accept_x_ok : forall s b,
  view_ok s -> In b T -> in_idx (bid b) (xidx s) = false -> in_idx (bpar b) (xidx s) = true ->
  exists s' m td, accept_x P s b = (s', m, ENone) /\ xidx s' = mkN b td :: xidx s /\
    view_ok s' /\ advances s s'.
Proof.
  intros s b V Hb Nb Pb. pose proof V as [(OK & Rt & t & Tt) _].
  unfold accept_x. unfold in_idx in Pb.
  destruct (find_node (bpar b) (xidx s)) as [pn|] eqn:F; [|discriminate]. clear Pb.
  destruct (Hconn b Hb) as (lb & tdb & Plb).
  destruct (idx_child g T Hg Hnd _ _ _ _ _ OK Rt Plb Nb F) as (Hht & -> & _ & OK1).
  rewrite (proj2 (Z.eqb_eq _ _) Hht). cbn [negb].
  destruct (connect_best_x_ok s b lb _ t V Tt Hb Nb Plb OK1) as (s' & m & H).
  exists s', m, (ntd pn + bdiff b). exact H.
Qed.

End AcceptX.
