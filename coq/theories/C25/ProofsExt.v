(** C25 — proofs for the extended model, part 1: ModelExt.v over Model.v.
    Without best-block comparison an acceptance is Model.v's after forgetting
    the additions (Proofs2 gets Model.v's invariant of acceptance this way).
    Conservativity: a history of deliveries in which nothing leaves the orphan
    pool unindexed, no delivery moves the finalizer's choice and best-block
    comparison is off is exactly a run of Model.v. *)
From Coq Require Import List ZArith NArith Bool Lia.
From C33 Require Import C25.Model C25.ModelExt.
Import ListNotations.
Open Scope Z_scope.

Lemma in_xorph_base : forall h o, in_xorph h o = in_orph h (map fst o).
Proof. intros h o. unfold in_xorph, in_orph. induction o as [|e o IH]; cbn; [reflexivity|]. rewrite IH. reflexivity. Qed.

Lemma remove_x_base : forall h o, map fst (remove_x h o) = remove_orph h (map fst o).
Proof.
  intros h o. unfold remove_x, remove_orph. induction o as [|e o IH]; cbn [map filter]; [reflexivity|].
  destruct (negb (N.eqb (bid (fst e)) h)); cbn [map]; rewrite IH; reflexivity.
Qed.

Lemma first_child_x_base : forall p o,
  first_child p (map fst o) = option_map fst (first_child_x p o).
Proof.
  intros p o. unfold first_child, first_child_x. induction o as [|e o IH]; cbn [map find]; [reflexivity|].
  destruct (N.eqb (bpar (fst e)) p); [reflexivity|exact IH].
Qed.

Lemma remove_x_absent : forall h o, in_xorph h o = false -> remove_x h o = o.
Proof.
  intros h o. unfold in_xorph, remove_x. induction o as [|e o IH]; cbn [existsb filter]; [reflexivity|].
  intros H. apply orb_false_iff in H as [H1 H2]. rewrite H1. cbn [negb]. rewrite (IH H2). reflexivity.
Qed.

Lemma filter_none_id : forall A (f : A -> bool) l, filter f l = [] -> filter (fun x => negb (f x)) l = l.
Proof.
  intros A f l. induction l as [|x l IH]; cbn [filter]; [reflexivity|].
  destruct (f x); [discriminate|]. intros H. cbn [negb]. rewrite (IH H). reflexivity.
Qed.

(** the models branch on "no error" or any error *)
Lemma errc_none_dec : forall e : errc,
  {e = ENone} + {forall A (x y : A), match e with ENone => x | _ => y end = y}.
Proof. destruct e; [left; reflexivity|right; reflexivity..]. Qed.

(** forgetting the additions, with [o] for the pool *)
Definition rebase (o : list block) (s : xstate) : state := mkS (xidx s) o (xmain s) (xevs s).

Lemma connect_best_x_frame : forall P s b td s' m e,
  connect_best_x P s b td = (s', m, e) -> xfin s' <= xfin s /\ xorph s' = xorph s.
Proof.
  intros P s b td s' m e H.
  replace s' with (fst (fst (connect_best_x P s b td))) by (rewrite H; reflexivity). clear H.
  unfold connect_best_x.
  (* in every outcome but a reorganisation the choice stays *)
  destruct (N.eqb _ _); [|destruct (find_node _ _) as [t|]; [destruct (_ || _); [|destruct (branch _ _ _ _) as [[p fk]|]]|]];
    cbn [fst xfin xorph]; (split; [|reflexivity]); try apply Z.le_refl.
  destruct (node_height fk (xidx s)) as [fkh|]; [|apply Z.le_refl].
  destruct (fkh <? xfin s) eqn:L; [apply Z.ltb_lt in L; lia|apply Z.le_refl].
Qed.

Lemma accept_x_frame : forall P s b s' m e,
  accept_x P s b = (s', m, e) -> xfin s' <= xfin s /\ xorph s' = xorph s.
Proof.
  intros P s b s' m e. unfold accept_x.
  destruct (find_node (bpar b) (xidx s)) as [p|]; [destruct (negb _)|];
    try (intros H; injection H as <- _ _; split; [apply Z.le_refl|reflexivity]).
  intros H. apply connect_best_x_frame in H. exact H.
Qed.

Lemma connect_best_x_base : forall P s o b td, pebc P = false ->
  connect_best (xfin s) (rebase o s) b td =
  (let '(s', m, e) := connect_best_x P s b td in (rebase o s', m, e)).
Proof.
  intros P s o b td HP. unfold connect_best, connect_best_x, tip, xtip, rebase. rewrite HP.
  cbn [idx orph main evs andb negb].
  destruct (N.eqb _ _); [reflexivity|].
  destruct (find_node _ _) as [t|]; [|reflexivity].
  rewrite andb_true_r. destruct (_ || _); [reflexivity|].
  destruct (branch _ _ _ _) as [[p fk]|]; reflexivity.
Qed.

Lemma accept_x_base : forall P s o b, pebc P = false ->
  accept (xfin s) (rebase o s) b = (let '(s', m, e) := accept_x P s b in (rebase o s', m, e)).
Proof.
  intros P s o b HP. unfold accept, accept_x. cbn [rebase idx orph main evs].
  destruct (find_node (bpar b) (xidx s)) as [p|]; [|reflexivity].
  destruct (negb _); [reflexivity|].
  exact (connect_best_x_base P (mkX _ _ _ _ _ _ _) o b _ HP).
Qed.

Lemma base_rebase : forall s, base_of s = rebase (map fst (xorph s)) s.
Proof. reflexivity. Qed.

Lemma accept_x_cons : forall P s b s' m e, pebc P = false ->
  accept_x P s b = (s', m, e) -> accept (xfin s) (base_of s) b = (base_of s', m, e).
Proof.
  intros P s b s' m e HP A. rewrite !base_rebase, (accept_x_base P s _ b HP), A.
  apply accept_x_frame in A as [_ ->]. reflexivity.
Qed.

Lemma porph_x_cons : forall fuel P q s s' rj e,
  porph_x fuel P q s = (s', rj, e) ->
  xfin s' <= xfin s /\
  (forall fin, pebc P = false -> rj = [] -> xfin s <= fin -> xfin s' = fin ->
     porph fuel fin q (base_of s) = (base_of s', e)).
Proof.
  induction fuel as [|f IH]; intros P q s s' rj e; cbn [porph_x porph].
  { intros H; injection H as <- <- <-. split; [apply Z.le_refl|reflexivity]. }
  destruct q as [|p q'].
  { intros H; injection H as <- <- <-. split; [apply Z.le_refl|reflexivity]. }
  cbn [base_of orph idx main evs]. rewrite first_child_x_base.
  destruct (first_child_x p (xorph s)) as [[c z]|]; cbn [option_map fst]; [|apply IH].
  set (s0 := set_orph s (remove_x (bid c) (xorph s))).
  rewrite <- remove_x_base. change (mkS _ _ _ _) with (base_of s0).
  destruct (accept_x P s0 c) as [[s1 m1] e1] eqn:A.
  pose proof (accept_x_frame _ _ _ _ _ _ A) as (A1 & _). cbn [xfin set_orph s0] in A1.
  destruct (errc_none_dec e1) as [->|Ne].
  - intros H. destruct (IH _ _ _ _ _ _ H) as [M C]. split; [lia|]. intros fin HP Rj Le E.
    (* the choice ends where it began, so it never moved *)
    replace fin with (xfin s) by lia.
    rewrite (accept_x_cons P s0 c s1 m1 ENone HP A : accept (xfin s) _ _ = _).
    apply C; [exact HP|exact Rj|lia|lia].
  - rewrite Ne. destruct (porph_x f P (p :: q') s1) as [[s2 rj2] e2] eqn:R.
    intros H; injection H as <- <- <-. split; [apply IH in R; lia|intros fin _ Q; discriminate Q].
Qed.

Lemma add_orphan_cons : forall P now s b s',
  add_orphan P now s b = (s', []) ->
  base_of s' = mkS (xidx s) (map fst (xorph s) ++ [b]) (xmain s) (xevs s) /\ xfin s' = xfin s.
Proof.
  intros P now s b s'. unfold add_orphan.
  set (live := filter (fun e => negb (expired now e)) (xorph s)).
  set (old := fold_left older live (xold s)).
  intros H. injection H as <- L. apply app_eq_nil in L as [G Ev].
  apply map_eq_nil in G.
  assert (Lv : live = xorph s) by (apply filter_none_id; exact G).
  unfold base_of. cbn [xidx xorph xmain xevs xfin].
  split; [|reflexivity]. f_equal. rewrite map_app. cbn [map fst]. f_equal.
  destruct (pcap P <? Z.of_nat (length live) + 1); [|rewrite Lv; reflexivity].
  destruct old as [[h x]|]; [|rewrite Lv; reflexivity].
  destruct (in_xorph h live) eqn:I; [discriminate Ev|].
  rewrite (remove_x_absent _ _ I), Lv. reflexivity.
Qed.

Definition out3 (o : xout) : out := (o_main o, o_orph o, o_err o).

Lemma deliver_x_cons : forall P now s b s' o,
  pebc P = false ->
  deliver_x P now s b = (s', o) -> o_lost o = [] -> xfin s' = xfin s ->
  deliver (xfin s) (base_of s) b = (base_of s', out3 o).
Proof.
  intros P now s b s' o HP. unfold deliver_x, deliver.
  cbn [base_of idx orph main evs]. rewrite <- in_xorph_base.
  destruct (in_idx (bid b) (xidx s)).
  { intros H _ _; injection H as <- <-. reflexivity. }
  destruct (in_xorph (bid b) (xorph s) && negb (in_idx (bpar b) (xidx s))).
  { intros H _ _; injection H as <- <-. reflexivity. }
  (* the state without a pooled copy of [b], on both sides *)
  set (s1 := if in_xorph (bid b) (xorph s) then set_orph s (remove_x (bid b) (xorph s)) else s).
  rewrite <- remove_x_base.
  replace (if in_xorph (bid b) (xorph s) then mkS _ _ _ _ else _) with (base_of s1)
    by (unfold s1; destruct (in_xorph (bid b) (xorph s)); reflexivity).
  assert (F1 : xfin s1 = xfin s) by (unfold s1; destruct (in_xorph (bid b) (xorph s)); reflexivity).
  clearbody s1. cbn [base_of idx orph main evs]. rewrite <- F1.
  destruct (negb (in_idx (bpar b) (xidx s1))).
  - destruct (add_orphan P now s1 b) as [s2 lost] eqn:A.
    intros H L _; injection H as <- <-. cbn [o_lost] in L. subst lost.
    apply add_orphan_cons in A as [-> _]. reflexivity.
  - fold (base_of s1).
    destruct (accept_x P s1 b) as [[s2 m2] e2] eqn:A.
    rewrite (accept_x_cons P s1 b s2 m2 e2 HP A).
    apply accept_x_frame in A as (A1 & _).
    destruct (errc_none_dec e2) as [->|Ne]; [|rewrite !Ne; intros H _ _; injection H as <- <-; reflexivity].
    replace (porph_fuel (base_of s2)) with (porph_fuel_x s2)
      by (unfold porph_fuel, porph_fuel_x, base_of; cbn [orph]; rewrite map_length; reflexivity).
    destruct (porph_x (porph_fuel_x s2) P [bid b] s2) as [[s3 rj] e3] eqn:R.
    destruct (porph_x_cons _ _ _ _ _ _ _ R) as [_ C].
    destruct (errc_none_dec e3) as [->|Ne]; [|rewrite Ne];
      intros H L E; injection H as <- <-; cbn [o_lost] in L; rewrite (C _ HP L A1 E); [|rewrite Ne]; reflexivity.
Qed.

Fixpoint outs (fin : Z) (s : state) (order : list block) : list out :=
  match order with
  | [] => []
  | b :: tl => let '(s', o) := deliver fin s b in o :: outs fin s' tl
  end.

Fixpoint xouts (P : params) (s : xstate) (hist : list xev) : list xout :=
  match hist with
  | [] => []
  | e :: tl => let '(s', o) := xstep P s e in o :: xouts P s' tl
  end.

Lemma conservative_from : forall P hist s,
  pebc P = false -> plain P s hist = true ->
  base_of (xrun_from P s hist) = fold_left (step (xfin s)) (blocks_of hist) (base_of s) /\
  map out3 (xouts P s hist) = outs (xfin s) (base_of s) (blocks_of hist) /\
  xfin (xrun_from P s hist) = xfin s.
Proof.
  intros P hist. induction hist as [|e hist IH]; intros s HP Pl.
  { cbn. auto. }
  destruct e as [now b|h f]; [|discriminate Pl].
  cbn [plain] in Pl. unfold xrun_from. cbn [fold_left xstep blocks_of flat_map app xouts outs map].
  destruct (deliver_x P now s b) as [s' o] eqn:D.
  destruct (o_lost o) eqn:Lo; [|discriminate Pl].
  apply andb_true_iff in Pl as [E Pl]. apply Z.eqb_eq in E.
  pose proof (deliver_x_cons P now s b s' o HP D Lo E) as Db.
  cbn [fst]. unfold step at 2. rewrite Db. cbn [fst map].
  destruct (IH s' HP Pl) as (I1 & I2 & I3). rewrite E in I1, I2, I3.
  fold (xrun_from P s' hist). split; [exact I1|]. split; [|exact I3].
  f_equal. exact I2.
Qed.

(** Conservativity: with best-block comparison off, a history of deliveries
    during which nothing is dropped from the pool and the finalizer's choice
    stays where it started is a run of Model.v with that height as its
    constant: same index, pool (in order), best chain view and connect /
    disconnect trace, and the same ProcessBlock results at every delivery. *)
Lemma conservative : forall P g fin0 hist,
  pebc P = false -> plain P (xinit g fin0) hist = true ->
  base_of (xrun P g fin0 hist) = run fin0 g (blocks_of hist) /\
  map out3 (xouts P (xinit g fin0) hist) = outs fin0 (init g) (blocks_of hist) /\
  xfin (xrun P g fin0 hist) = fin0.
Proof. intros P g fin0 hist HP Pl. exact (conservative_from P hist (xinit g fin0) HP Pl). Qed.

Lemma xrun_acc_app : forall P a h1 h2, xrun_acc P a (h1 ++ h2) = xrun_acc P (xrun_acc P a h1) h2.
Proof. intros. unfold xrun_acc. apply fold_left_app. Qed.

Lemma xrun_from_app : forall P s h1 h2, xrun_from P s (h1 ++ h2) = xrun_from P (xrun_from P s h1) h2.
Proof. intros. unfold xrun_from. apply fold_left_app. Qed.

Lemma xrun_acc_state : forall P hist s held ok,
  fst (fst (xrun_acc P (s, held, ok) hist)) = xrun_from P s hist.
Proof.
  intros P. induction hist as [|e hist IH]; intros s held ok; [reflexivity|].
  unfold xrun_acc, xrun_from. cbn [fold_left]. fold (xrun_acc P). fold (xrun_from P).
  unfold xstep_acc, xstep_acc_o. destruct (xstep P s e) as [s1 o]. cbn [fst].
  destruct e; apply IH.
Qed.
