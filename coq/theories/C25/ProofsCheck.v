(** C25 — the guard evaluated by the correspondence check is the theorems'
    guard: when [agree_x] accepts a case, the accumulator it returns is
    [xrun_acc] over the case's events written out as a history. *)
From Coq Require Import List ZArith NArith Bool.
From C33 Require Import Lib.Harness C25.Model C25.ModelExt C25.ProofsExt C25.Check.
Import ListNotations.
Open Scope Z_scope.

Fixpoint junk_events (n : nat) (now : Z) (id : N) : list xev :=
  match n with
  | O => []
  | S k => Dl now (junk_block id) :: junk_events k now (id + 1)%N
  end.

Definition expand_ev (T : list block) (e : cev) : list xev :=
  match e with
  | CD now id => match ev_block T id with Some b => [Dl now b] | None => [] end
  | CF h id => [Fz h id]
  | CJ now id0 n => junk_events (N.to_nat n) now id0
  end.

Definition expand (T : list block) (evs : list cev) : list xev := flat_map (expand_ev T) evs.

Lemma junk_run_acc : forall P n now id a ok,
  fst (junk_run P n now id a ok) = xrun_acc P a (junk_events n now id).
Proof.
  induction n as [|k IH]; intros now id a ok; cbn [junk_run junk_events]; [reflexivity|].
  destruct (xstep_acc_o P a (Dl now (junk_block id))) as [a1 mo] eqn:X.
  rewrite IH. unfold xrun_acc at 2. cbn [fold_left]. unfold xstep_acc at 2. rewrite X. reflexivity.
Qed.

Lemma agree_x_acc : forall P T evs obs a ok a' ok',
  agree_x P T a ok evs obs = Some (a', ok') -> a' = xrun_acc P a (expand T evs).
Proof.
  intros P T evs. induction evs as [|e evs IH]; intros [|o obs] a ok a' ok'; cbn [agree_x]; try discriminate.
  { intros H; injection H as <- _. reflexivity. }
  unfold expand. cbn [flat_map]. fold (expand T evs). rewrite xrun_acc_app.
  destruct e as [now id|h id|now id0 n]; cbn [expand_ev].
  - destruct (ev_block T id) as [b|]; [|discriminate].
    unfold xrun_acc at 2. cbn [fold_left]. unfold xstep_acc.
    destruct (xstep_acc_o P a (Dl now b)) as [a1 mo]. apply IH.
  - unfold xrun_acc at 2. cbn [fold_left]. unfold xstep_acc.
    destruct (xstep_acc_o P a (Fz h id)) as [a1 mo]. apply IH.
  - destruct (junk_base <=? id0)%N; [|discriminate].
    rewrite <- (junk_run_acc P _ now id0 a (result_ok (mkO false true ENone []) o)).
    destruct (junk_run P (N.to_nat n) now id0 a _) as [a1 k]. apply IH.
Qed.

(** the accumulator that [model_ok_x] hands to the spec - whether or not the
    node agreed with the model: the final state, the held hashes and the steady
    flag of the expanded history, i.e. the arguments of [kept_all] and [steady] *)
Lemma check_guard_is_theorem_guard : forall P T evs obs fmain pool g T' a ok,
  T = g :: T' -> model_ok_x P T evs obs fmain pool = Some (a, ok) ->
  acc_state a = xrun P g 0 (expand T evs) /\
  snd (fst a) = held_of P g 0 (expand T evs) /\
  snd a = steady P g 0 (expand T evs).
Proof.
  intros P T evs obs fmain pool g T' a ok -> H. unfold model_ok_x in H.
  destruct (agree_x P (g :: T') (xinit g 0, [], true) true evs obs) as [[a1 ok1]|] eqn:A; [|discriminate].
  injection H as <- _.
  apply agree_x_acc in A. unfold held_of, steady, acc_state. rewrite A.
  split; [apply xrun_acc_state|split; reflexivity].
Qed.
