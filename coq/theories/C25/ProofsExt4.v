(** C25 — proofs for the extended model, part 4: histories and the theorems
    about them (convergence under the pool limits and a moving finalizer, the
    finalized block, re-delivery). *)
From Coq Require Import List ZArith NArith Bool Lia.
From C33 Require Import C25.Model C25.Proofs C25.ModelExt C25.ProofsExt C25.ProofsExt2 C25.ProofsExt3.
Import ListNotations.
Open Scope Z_scope.

(** the blocks whose ancestor list has to be looked at: all of them before the
    finalizer made a choice, afterwards those on a branch through the chosen block *)
Definition through (f : option N) (l : list N) : Prop :=
  match f with Some x => In x l | None => True end.

(** deliveries in an order in which every block comes after its parent (from
    the blocks in [known]); finalize events may be anywhere *)
Fixpoint parents_first (known : list N) (suf : list xev) : bool :=
  match suf with
  | [] => true
  | Dl _ b :: tl => memN (bpar b) known && parents_first (bid b :: known) tl
  | Fz _ _ :: tl => parents_first known tl
  end.

Section Top.
Variables (P : params) (g : block) (T J : list block).
Hypothesis Hg : In g T.
Hypothesis HndU : NoDup (map bid (T ++ J)).
Hypothesis Hconn : forall b, In b T -> exists l td, path g T b l td.
Hypothesis Hdiff : forall b, In b T -> 0 <= bdiff b.
Hypothesis Hg0 : 0 <= bht g.
Hypothesis Hjunk : forall j, In j J -> ~ In (bpar j) (map bid T).

Let HndT : NoDup (map bid T) := Hnd T J HndU.

Definition in_universe (hist : list xev) : Prop :=
  forall now b, In (Dl now b) hist -> In b (T ++ J).

Lemma in_universe_app : forall h1 h2, in_universe (h1 ++ h2) <-> in_universe h1 /\ in_universe h2.
Proof.
  intros h1 h2. unfold in_universe. split.
  - intros H. split; intros now b Hb; apply (H now b); apply in_or_app; [left|right]; exact Hb.
  - intros [H1 H2] now b Hb. apply in_app_or in Hb as [Hb|Hb]; [apply (H1 now b Hb)|apply (H2 now b Hb)].
Qed.

Lemma in_universe_cons : forall e hist, in_universe (e :: hist) -> ev_in T J e /\ in_universe hist.
Proof.
  intros e hist H. split; [|intros now b Hb; apply (H now b); right; exact Hb].
  destruct e as [now b|]; [apply (H now b); left; reflexivity|exact I].
Qed.

Notation inv_x := (inv_x g T J).
Notation follows := (follows g T).

Lemma xrun_acc_inv : forall hist, in_universe hist ->
  forall s held ok, inv_x held s ->
  forall s' held' ok', xrun_acc P (s, held, ok) hist = (s', held', ok') ->
  s' = xrun_from P s hist /\ inv_x held' s' /\ follows s ok s' ok'.
Proof.
  induction hist as [|e hist IH]; intros HU s held ok I s' held' ok'.
  { cbn. intros H; injection H as <- <- <-. split; [reflexivity|]. split; [exact I|apply follows_refl]. }
  apply in_universe_cons in HU as [U HU].
  unfold xrun_acc, xrun_from. cbn [fold_left]. fold (xrun_acc P). fold (xrun_from P).
  destruct (xstep_acc P (s, held, ok) e) as [[s1 held1] ok1] eqn:X.
  assert (E1 : fst (xstep P s e) = s1).
  { unfold xstep_acc, xstep_acc_o in X. destruct (xstep P s e) as [s0 o]. destruct e; injection X as <- _ _; reflexivity. }
  destruct (xstep_acc_inv P g T J Hg HndU Hconn Hdiff Hg0 Hjunk e s held ok I U _ _ _ X) as (I1 & F1 & _).
  intros R. rewrite E1. destruct (IH HU s1 held1 ok1 I1 _ _ _ R) as (E & I' & F').
  split; [exact E|]. split; [exact I'|exact (follows_trans g T _ _ _ _ _ _ F1 F')].
Qed.

Lemma run_facts : forall fin0 hist, in_universe hist ->
  let s := xrun P g fin0 hist in
  inv_x (held_of P g fin0 hist) s /\ (steady P g fin0 hist = true -> mx g T s).
Proof.
  intros fin0 hist HU s. unfold held_of, steady.
  destruct (xrun_acc P (xinit g fin0, [], true) hist) as [[s' held'] ok'] eqn:R. cbn [fst snd].
  destruct (inv_x_init g T J Hg HndU fin0) as [I0 M0].
  destruct (xrun_acc_inv hist HU _ _ _ I0 _ _ _ R) as (-> & I' & (_ & _ & _ & M')).
  split; [exact I'|exact (M' M0)].
Qed.

Lemma finalizer_on_best_chain : forall fin0 hist, in_universe hist ->
  let s := xrun P g fin0 hist in
  forall f, xfh s = Some f -> In f (xmain s) /\ node_height f (xidx s) = Some (xfin s).
Proof.
  intros fin0 hist HU s f E. destruct (run_facts fin0 hist HU) as (([_ Fo] & _) & _).
  fold s in Fo. unfold ProofsExt2.fin_ok in Fo. rewrite E in Fo. exact Fo.
Qed.

Lemma ext_converges : forall fin0 hist H lH tdH,
  in_universe hist ->
  kept_all P g fin0 T hist = true ->
  steady P g fin0 hist = true ->
  let s := xrun P g fin0 hist in
  path g T H lH tdH ->
  through (xfh s) lH ->
  (forall x l td, path g T x l td -> through (xfh s) l -> x <> H -> td < tdH) ->
  xfin s + margin <= bht H ->
  xtip s = bid H /\ xmain s = lH /\ xtip_td s = tdH.
Proof.
  intros fin0 hist H lH tdH HU Kp St s PH ThH Hmax Hm.
  destruct (run_facts fin0 hist HU) as (([(OK & Rt & t & Ht & Pt) Fo] & [OO W] & Hd) & Mx).
  fold s in OK, Rt, Ht, Pt, Fo, OO, W, Hd, Mx. specialize (Mx St).
  assert (InH : in_idx (bid H) (xidx s) = true).
  { apply (connected_indexed g T (xidx s) (xpool s) Rt W) with (l := lH) (td := tdH); [|exact PH].
    intros b Hb. unfold kept_all in Kp. rewrite forallb_forall in Kp. specialize (Kp b Hb).
    apply orb_true_iff in Kp as [Kp|Kp].
    { left. apply N.eqb_eq in Kp. apply (id_inj T HndT); assumption. }
    right. apply memN_In in Kp. destruct (Hd _ Kp) as [X|X]; [left; exact X|right].
    apply in_orph_true in X as (c & Hc & Ec). replace b with c; [exact Hc|].
    apply (id_inj (T ++ J) HndU); [apply OO, Hc|apply in_or_app; left; exact Hb|exact Ec]. }
  assert (Tht : through (xfh s) (xmain s)).
  { unfold through. unfold ProofsExt2.fin_ok in Fo. destruct (xfh s); [exact (proj1 Fo)|exact I]. }
  destruct (heaviest_is_tip g T Hg HndT (through (xfh s)) (xfin s) (xidx s) t (xmain s) H lH tdH
              OK Ht Pt Tht (fun n => Mx t n (conj Ht Pt)) PH InH Hmax Hm) as (E1 & E2 & E3).
  unfold xtip_td, xtip. rewrite E3. auto.
Qed.

(** the finalized block stays on the best chain as long as no delivery lowers the choice, and
    in any case when every block off its branches is below its height + 12 *)
Lemma finalized_stays : forall fin0 pre suf f,
  in_universe pre -> in_universe suf ->
  let s1 := xrun P g fin0 pre in
  xfh s1 = Some f ->
  steady_from P s1 suf = true \/ off_branch_low g T f (xfin s1) ->
  In f (xmain (xrun P g fin0 (pre ++ suf))).
Proof.
  intros fin0 pre suf f HU1 HU2 s1 E D.
  destruct (run_facts fin0 pre HU1) as ((V1 & R1 & _) & _). fold s1 in V1, R1.
  assert (I1 : inv_x [] s1) by (split; [exact V1|split; [exact R1|intros h []]]).
  pose proof (proj2 V1) as Fo1. unfold ProofsExt2.fin_ok in Fo1. rewrite E in Fo1.
  unfold steady_from in D.
  destruct (xrun_acc P (s1, [], true) suf) as [[s' held'] ok'] eqn:R. cbn [snd] in D.
  destruct (xrun_acc_inv suf HU2 _ _ _ I1 _ _ _ R) as (-> & _ & (_ & _ & St & _)).
  unfold xrun. rewrite xrun_from_app.
  exact (proj1 (proj1 (St f (xfin s1) (conj Fo1 (Z.le_refl _)) D))).
Qed.

Lemma finalized_stays_steady : forall fin0 pre suf f,
  in_universe pre -> in_universe suf ->
  xfh (xrun P g fin0 pre) = Some f ->
  steady_from P (xrun P g fin0 pre) suf = true ->
  In f (xmain (xrun P g fin0 (pre ++ suf))).
Proof.
  intros fin0 pre suf f HU1 HU2 E St. exact (finalized_stays fin0 pre suf f HU1 HU2 E (or_introl St)).
Qed.

(** re-delivery: after any history, delivering the tree parents first leaves
    every block held *)
Lemma parents_first_held : forall suf, in_universe suf ->
  forall s held ok known, inv_x held s ->
  (forall h, In h known -> in_idx h (xidx s) = true) ->
  parents_first known suf = true ->
  forall s' held' ok', xrun_acc P (s, held, ok) suf = (s', held', ok') ->
  (forall h, In h held -> In h held') /\ (forall b, In b (blocks_of suf) -> In (bid b) held').
Proof.
  induction suf as [|e suf IH]; intros HU s held ok known I Kn Pf s' held' ok'.
  { cbn. intros H; injection H as <- <- <-. split; [auto|intros b []]. }
  apply in_universe_cons in HU as [U HU].
  unfold xrun_acc. cbn [fold_left]. fold (xrun_acc P).
  destruct (xstep_acc P (s, held, ok) e) as [[s1 held1] ok1] eqn:X.
  destruct (xstep_acc_inv P g T J Hg HndU Hconn Hdiff Hg0 Hjunk e s held ok I U _ _ _ X) as (I1 & (_ & Gr & _) & Hc).
  intros R. destruct e as [now b|h f]; cbn [parents_first] in Pf.
  - apply andb_true_iff in Pf as [Pk Pf]. apply memN_In in Pk. destruct (Hc (Kn _ Pk)) as [-> Ib].
    destruct (IH HU s1 _ ok1 (bid b :: known) I1) with (3 := R) as [K1 K2]; [|exact Pf|].
    { intros h [<-|Hh]; [exact Ib|apply Gr, Kn, Hh]. }
    split; [intros h Hh; apply K1; right; exact Hh|].
    cbn [blocks_of flat_map app]. intros b0 [<-|Hb0]; [apply K1; left; reflexivity|apply K2, Hb0].
  - subst held1. exact (IH HU s1 held ok1 known I1 (fun h Hh => Gr h (Kn h Hh)) Pf _ _ _ R).
Qed.

Lemma redelivery_keeps_all : forall fin0 pre suf,
  in_universe pre -> in_universe suf ->
  parents_first [bid g] suf = true ->
  (forall b, In b T -> b = g \/ In b (blocks_of suf)) ->
  kept_all P g fin0 T (pre ++ suf) = true.
Proof.
  intros fin0 pre suf HU1 HU2 Pf Cov.
  unfold kept_all, held_of. rewrite xrun_acc_app.
  destruct (xrun_acc P (xinit g fin0, [], true) pre) as [[s1 held1] ok1] eqn:R1.
  destruct (xrun_acc_inv pre HU1 _ _ _ (proj1 (inv_x_init g T J Hg HndU fin0)) _ _ _ R1) as (_ & I1 & _).
  destruct (xrun_acc P (s1, held1, ok1) suf) as [[s2 held2] ok2] eqn:R2. cbn [fst snd].
  assert (Kn : forall h, In h [bid g] -> in_idx h (xidx s1) = true)
    by (intros h [<-|[]]; exact (proj1 (proj2 (proj1 (proj1 I1))))).
  destruct (parents_first_held suf HU2 s1 held1 ok1 [bid g] I1 Kn Pf s2 held2 ok2 R2) as [_ K2].
  apply forallb_forall. intros b Hb. destruct (Cov b Hb) as [->|Hs].
  - rewrite N.eqb_refl. reflexivity.
  - apply orb_true_iff. right. apply memN_In. apply K2. exact Hs.
Qed.

Lemma redelivery_converges : forall fin0 pre suf H lH tdH,
  in_universe pre -> in_universe suf ->
  parents_first [bid g] suf = true ->
  (forall b, In b T -> b = g \/ In b (blocks_of suf)) ->
  steady P g fin0 (pre ++ suf) = true ->
  let s := xrun P g fin0 (pre ++ suf) in
  path g T H lH tdH ->
  through (xfh s) lH ->
  (forall x l td, path g T x l td -> through (xfh s) l -> x <> H -> td < tdH) ->
  xfin s + margin <= bht H ->
  xtip s = bid H /\ xmain s = lH /\ xtip_td s = tdH.
Proof.
  intros fin0 pre suf H lH tdH HU1 HU2 Pf Cov St.
  apply ext_converges; [apply in_universe_app; split; assumption| |exact St].
  apply redelivery_keeps_all; assumption.
Qed.

End Top.
