(** C25 — proofs for the extended model, part 3: the orphan pool with its
    limits, ProcessOrphans, one delivery, one event of a history. *)
From Coq Require Import List ZArith NArith Bool Lia.
From C33 Require Import C25.Model C25.Proofs C25.Proofs2 C25.ModelExt C25.ProofsExt C25.ProofsExt2.
Import ListNotations.
Open Scope Z_scope.

Lemma in_xorph_true : forall h o, in_xorph h o = true <-> exists e, In e o /\ bid (fst e) = h.
Proof.
  intros h o. unfold in_xorph. rewrite existsb_exists.
  split; intros (e & A & B); exists e; split; auto; apply N.eqb_eq; exact B.
Qed.

Lemma remove_x_in : forall h o e, In e (remove_x h o) <-> In e o /\ bid (fst e) <> h.
Proof.
  intros h o e. unfold remove_x. rewrite filter_In, negb_true_iff, N.eqb_neq. reflexivity.
Qed.

(** AddOrphanBlock only touches the pool and the pointer; what stays *)
Lemma add_orphan_shape : forall P now s b s' lost,
  add_orphan P now s b = (s', lost) ->
  exists o od, s' = with_orph s o od /\
    (forall c, In c (map fst o) -> In c (map fst (xorph s)) \/ c = b) /\
    In b (map fst o) /\
    (forall h, in_orph h (map fst (xorph s)) = true -> ~ In h lost -> in_orph h (map fst o) = true).
Proof.
  intros P now s b s' lost. unfold add_orphan.
  set (live := filter (fun e => negb (expired now e)) (xorph s)).
  set (old := fold_left older live (xold s)).
  set (over := pcap P <? Z.of_nat (length live) + 1).
  set (live2 := if over then match old with Some (h, _) => remove_x h live | None => live end else live).
  intros H. injection H as <- <-.
  exists (live2 ++ [(b, now + pttl P)]). eexists. split; [reflexivity|].
  assert (Sub : forall e, In e live2 -> In e (xorph s)).
  { intros e He. assert (In e live).
    { unfold live2 in He. destruct over; [|exact He]. destruct old as [[h x]|]; [|exact He].
      apply remove_x_in in He. tauto. }
    unfold live in H. apply filter_In in H. tauto. }
  rewrite map_app. cbn [map fst]. split; [|split].
  - intros c Hc. apply in_app_or in Hc as [Hc|[<-|[]]]; [left|right; reflexivity].
    apply in_map_iff in Hc as (e & <- & He). apply in_map, Sub, He.
  - apply in_or_app. right. left. reflexivity.
  - intros h Hh Nl. rewrite <- in_xorph_base in Hh. apply in_xorph_true in Hh as (e & He & Eh).
    apply in_orph_true. exists (fst e). split; [|exact Eh]. apply in_or_app. left. apply in_map.
    assert (Lv : In e live).
    { unfold live. apply filter_In. split; [exact He|]. destruct (expired now e) eqn:X; [|reflexivity].
      exfalso. apply Nl. apply in_or_app. left. rewrite <- Eh.
      apply (in_map (fun e0 => bid (fst e0))). apply filter_In. split; assumption. }
    unfold live2. destruct over; [|exact Lv]. destruct old as [[h0 x]|]; [|exact Lv].
    apply remove_x_in. split; [exact Lv|]. intros E. apply Nl. apply in_or_app. right.
    assert (I : in_xorph h0 live = true) by (apply in_xorph_true; exists e; split; assumption).
    rewrite I. left. congruence.
Qed.

Lemma nodup_app : forall A (l1 l2 : list A), NoDup (l1 ++ l2) ->
  NoDup l1 /\ forall x, In x l1 -> ~ In x l2.
Proof.
  intros A l1 l2. induction l1 as [|x l1 IH]; cbn [app]; intros H; [split; [constructor|intros x []]|].
  inversion H as [|? ? Hx Hn]; subst. destruct (IH Hn) as [N D]. split.
  - constructor; [|exact N]. intros Q. apply Hx, in_or_app. left. exact Q.
  - intros y [<-|Hy] Q; [apply Hx, in_or_app; right; exact Q|exact (D y Hy Q)].
Qed.

Section RunX.
Variables (P : params) (g : block) (T J : list block).
Hypothesis Hg : In g T.
Hypothesis HndU : NoDup (map bid (T ++ J)).
Hypothesis Hconn : forall b, In b T -> exists l td, path g T b l td.
Hypothesis Hdiff : forall b, In b T -> 0 <= bdiff b.
Hypothesis Hg0 : 0 <= bht g.
Hypothesis Hjunk : forall j, In j J -> ~ In (bpar j) (map bid T).

Lemma Hnd : NoDup (map bid T).
Proof. pose proof HndU as H. rewrite map_app in H. exact (proj1 (nodup_app _ _ _ H)). Qed.

Lemma junk_not_T : forall j, In j J -> ~ In (bid j) (map bid T).
Proof.
  intros j Hj Hin. pose proof HndU as H. rewrite map_app in H.
  apply (proj2 (nodup_app _ _ _ H) _ Hin). apply in_map. exact Hj.
Qed.

Lemma child_in_T : forall ix c, idx_ok g T ix -> In c (T ++ J) -> in_idx (bpar c) ix = true -> In c T.
Proof.
  intros ix c OK Hc Pi. apply in_app_or in Hc as [X|X]; [exact X|]. exfalso. apply (Hjunk c X).
  apply in_idx_true in Pi as (n & Hn & <-). destruct (OK _ Hn) as [[l Pn] _].
  apply in_map. exact (path_in g T Hg _ _ _ Pn).
Qed.

Notation view_ok := (view_ok g T).
Notation advances := (advances g T).

Definition xpool (s : xstate) : list block := map fst (xorph s).

(** acceptance of a block of the universe whose parent is indexed: it is a
    tree block, and the pool is untouched *)
Lemma accept_x_pool : forall s b,
  view_ok s -> In b (T ++ J) -> in_idx (bid b) (xidx s) = false -> in_idx (bpar b) (xidx s) = true ->
  exists s' m td, accept_x P s b = (s', m, ENone) /\ xidx s' = mkN b td :: xidx s /\
    xpool s' = xpool s /\ view_ok s' /\ advances s s'.
Proof.
  intros s b V HbU Nb Pi.
  destruct (accept_x_ok P g T Hg Hnd Hconn Hdiff Hg0 s b V (child_in_T _ b (proj1 (proj1 V)) HbU Pi) Nb Pi)
    as (s' & m & td & A & I' & V' & Ad).
  exists s', m, td. split; [exact A|]. split; [exact I'|]. split; [|split; assumption].
  apply accept_x_frame in A as [_ O']. unfold xpool. rewrite O'. reflexivity.
Qed.

Lemma porph_x_ok : forall fuel q s,
  view_ok s -> pool_loop (T ++ J) (xidx s) (xpool s) q ->
  (2 * length (xpool s) + length q < fuel)%nat ->
  exists s', porph_x fuel P q s = (s', [], ENone) /\ view_ok s' /\
    pool_rest (T ++ J) (xidx s') (xpool s') /\
    pool_adv (xidx s) (xpool s) (xidx s') (xpool s') /\ advances s s'.
Proof.
  induction fuel as [|f IH]; intros q s V L Hf; [lia|].
  cbn [porph_x]. destruct q as [|p q'].
  - exists s. split; [reflexivity|]. split; [exact V|]. split; [exact (loop_done _ _ _ L)|].
    split; [apply pool_adv_refl|apply advances_refl].
  - pose proof (first_child_x_base p (xorph s)) as FC. fold (xpool s) in FC.
    destruct (first_child_x p (xorph s)) as [[c z]|]; cbn [option_map fst] in FC.
    + apply first_child_some in FC as [Hc Hp]. destruct (proj1 L c Hc) as [HcU Nc].
      assert (Pi : in_idx (bpar c) (xidx s) = true) by (rewrite Hp; apply (proj2 (proj2 L)); left; reflexivity).
      destruct (accept_x_pool (set_orph s (remove_x (bid c) (xorph s))) c V HcU Nc Pi)
        as (s1 & m & td & -> & I1 & E0 & V1 & Ad1).
      cbn [xidx set_orph] in I1.
      assert (E1 : xpool s1 = remove_orph (bid c) (xpool s)) by (rewrite E0; apply remove_x_base).
      destruct (loop_child (T ++ J) (xidx s) (xpool s) p q' (mkN c td) L Hc) as (L1 & Pa1 & Lt).
      cbn [nblk] in L1, Pa1, Lt.
      rewrite <- I1, <- E1 in L1, Pa1. rewrite <- E1 in Lt.
      destruct (IH _ s1 V1 L1) as (s' & -> & V' & R' & Pa' & Ad'); [lia|].
      exists s'. split; [reflexivity|]. split; [exact V'|]. split; [exact R'|].
      split; [exact (pool_adv_trans _ _ _ _ _ _ Pa1 Pa')|exact (advances_trans g T s s1 s' Ad1 Ad')].
    + apply (IH q' s V (loop_pop _ _ _ _ _ L FC)). cbn [length] in Hf. lia.
Qed.

(** [held]: as tracked by [xstep_acc] *)
Definition held_ok (held : list N) (s : xstate) : Prop :=
  forall h, In h held -> in_idx h (xidx s) = true \/ in_orph h (xpool s) = true.

Definition inv_x (held : list N) (s : xstate) : Prop :=
  view_ok s /\ pool_rest (T ++ J) (xidx s) (xpool s) /\ held_ok held s.

Lemma inv_x_init : forall fin0, inv_x [] (xinit g fin0) /\ mx g T (xinit g fin0).
Proof.
  intros fin0. destruct (proj1 (core_view fin0 g T Hg Hnd (init g)) (core_init fin0 g T)) as [C M].
  split; [|exact M]. split; [exact (conj C I)|]. split; [split; intros c []|intros h []].
Qed.

(** the accumulator step for a delivery, spelled out *)
Definition held_after (o : xout) (b : block) (held : list N) : list N :=
  let keep := keep_held (o_lost o) held in
  if is_held_err (o_err o) then bid b :: keep else keep.

Lemma keep_held_in : forall lost held h, In h (keep_held lost held) -> In h held /\ ~ In h lost.
Proof.
  intros [|x lost] held h; [cbn; auto|]. intros H. apply filter_In in H as [H N]. split; [exact H|].
  apply negb_true_iff in N. rewrite <- memN_In. congruence.
Qed.

Lemma xstep_acc_dl : forall s held ok now b,
  xstep_acc P (s, held, ok) (Dl now b) =
  (fst (deliver_x P now s b), held_after (snd (deliver_x P now s b)) b held,
   ok && negb (lowered s (fst (deliver_x P now s b)))).
Proof.
  intros s held ok now b. unfold xstep_acc, xstep_acc_o. cbn [xstep].
  destruct (deliver_x P now s b) as [s' o]. reflexivity.
Qed.

Lemma held_after_ok : forall held s b s1 o1, held_ok held s ->
  (forall h, in_idx h (xidx s) = true -> in_idx h (xidx s1) = true) ->
  (forall h, in_orph h (xpool s) = true -> ~ In h (o_lost o1) ->
             in_orph h (xpool s1) = true \/ in_idx h (xidx s1) = true) ->
  in_idx (bid b) (xidx s1) = true \/ in_orph (bid b) (xpool s1) = true ->
  held_ok (held_after o1 b held) s1.
Proof.
  intros held s b s1 o1 Hd G K B h Hh. unfold held_after in Hh.
  destruct (is_held_err (o_err o1)); [destruct Hh as [<-|Hh]; [exact B|]|];
    (apply keep_held_in in Hh as [Hh Nl]; destruct (Hd h Hh) as [X|X]; [left; apply G, X|];
     destruct (K h X Nl); auto).
Qed.

(** a new block whose parent is indexed is accepted, and ProcessOrphans
    connects what waited for it *)
Lemma accept_porph_x_ok : forall s b,
  view_ok s -> pool_rest (T ++ J) (xidx s) (xpool s) -> In b (T ++ J) ->
  in_idx (bid b) (xidx s) = false -> in_orph (bid b) (xpool s) = false -> in_idx (bpar b) (xidx s) = true ->
  exists s2 m s3 td, accept_x P s b = (s2, m, ENone) /\
    porph_x (porph_fuel_x s2) P [bid b] s2 = (s3, [], ENone) /\
    view_ok s3 /\ pool_rest (T ++ J) (xidx s3) (xpool s3) /\
    pool_adv (mkN b td :: xidx s) (xpool s) (xidx s3) (xpool s3) /\ advances s s3.
Proof.
  intros s b V R HbU Eb Ko Ep.
  destruct (accept_x_pool s b V HbU Eb Ep) as (s2 & m & td & A & I2 & E2 & V2 & Ad2).
  pose proof (loop_start (T ++ J) (xidx s) (xpool s) (mkN b td) R Ko) as L2. rewrite <- I2, <- E2 in L2.
  destruct (porph_x_ok (porph_fuel_x s2) [bid b] s2 V2 L2) as (s3 & Po & V3 & R3 & Pa3 & Ad3).
  { unfold porph_fuel_x, xpool. rewrite map_length. cbn [length]. lia. }
  rewrite I2, E2 in Pa3. exists s2, m, s3, td.
  split; [exact A|]. split; [exact Po|]. split; [exact V3|]. split; [exact R3|].
  split; [exact Pa3|exact (advances_trans g T s s2 s3 Ad2 Ad3)].
Qed.

Lemma deliver_x_inv : forall held now s b,
  inv_x held s -> In b (T ++ J) ->
  forall s' o, deliver_x P now s b = (s', o) ->
  inv_x (held_after o b held) s' /\ advances s s' /\
  (in_idx (bpar b) (xidx s) = true ->
     o_lost o = [] /\ is_held_err (o_err o) = true /\ in_idx (bid b) (xidx s') = true).
Proof.
  intros held now s b (V & R & Hd) HbU s' o. unfold deliver_x.
  rewrite in_xorph_base. fold (xpool s).
  destruct (in_idx (bid b) (xidx s)) eqn:Eb.
  { intros H; injection H as <- <-. split; [|split; [apply advances_refl|auto]].
    split; [exact V|]. split; [exact R|]. apply (held_after_ok held s); auto. }
  destruct (in_orph (bid b) (xpool s)) eqn:Ko.
  { (* a known orphan: its parent is not indexed *)
    pose proof Ko as Kb. apply in_orph_true in Ko as (c & Hc & Ec).
    assert (c = b) by (apply (id_inj (T ++ J) HndU); [apply R, Hc|exact HbU|exact Ec]). subst c.
    rewrite (proj2 R b Hc). cbn [negb andb]. intros H; injection H as <- <-.
    split; [|split; [apply advances_refl|intros Q; discriminate Q]].
    split; [exact V|]. split; [exact R|]. apply (held_after_ok held s); auto. }
  cbn [andb]. destruct (in_idx (bpar b) (xidx s)) eqn:Ep; cbn [negb].
  - destruct (accept_porph_x_ok s b V R HbU Eb Ko Ep) as (s2 & m & s3 & td & -> & -> & V3 & R3 & Pa3 & Ad).
    intros H; injection H as <- <-. cbn [o_lost o_err].
    assert (Ib : in_idx (bid b) (xidx s3) = true) by (apply (proj1 Pa3), in_idx_head).
    split; [|split; [exact Ad|auto]].
    split; [exact V3|]. split; [exact R3|]. apply (held_after_ok held s); auto.
    + intros h Hh. apply (proj1 Pa3), in_idx_tail, Hh.
    + intros h Hh _. exact (pool_adv_orph _ _ _ _ h Pa3 Hh).
  - (* parent unknown: orphan *)
    destruct (add_orphan P now s b) as [s2 lost] eqn:A.
    destruct (add_orphan_shape _ _ _ _ _ _ A) as (o2 & od & -> & Sub & Inb & Kp).
    intros H; injection H as <- <-. cbn [o_lost o_err].
    split; [|split; [exact (advances_refl g T s)|congruence]].
    split; [exact V|]. split; [|apply (held_after_ok held s); auto].
    + exact (rest_add (T ++ J) (xidx s) (xpool s) (map fst o2) b R HbU Eb Ep Sub).
    + right. apply in_orph_true. eauto.
Qed.

(** how the state [s'] with steady flag [ok'] follows on [s] with flag [ok]:
    the flag only falls, and while it is up the choice has not gone down *)
Definition follows (s : xstate) (ok : bool) (s' : xstate) (ok' : bool) : Prop :=
  (ok' = true -> ok = true /\ xfin s <= xfin s') /\
  (forall h, in_idx h (xidx s) = true -> in_idx h (xidx s') = true) /\
  (forall f h, settled s f h -> ok' = true \/ off_branch_low g T f h -> settled s' f h) /\
  (mx g T s -> ok' = true -> mx g T s').

Lemma follows_refl : forall s ok, follows s ok s ok.
Proof. intros s ok. split; [intros H; split; [exact H|apply Z.le_refl]|]. split; [auto|]. split; auto. Qed.

Lemma follows_trans : forall s1 k1 s2 k2 s3 k3,
  follows s1 k1 s2 k2 -> follows s2 k2 s3 k3 -> follows s1 k1 s3 k3.
Proof.
  intros s1 k1 s2 k2 s3 k3 (L1 & G1 & S1 & M1) (L2 & G2 & S2 & M2).
  assert (K : k3 = true -> k2 = true) by (intros H; apply L2, H).
  split; [intros H; destruct (L2 H) as [H2 ?]; destruct (L1 H2); split; [assumption|lia]|].
  split; [auto|]. split.
  - intros f h St D. apply S2; [apply S1; [exact St|]|exact D]. destruct D; auto.
  - intros M H. apply M2; [apply M1; auto|exact H].
Qed.

Lemma advances_follows : forall s s' ok, advances s s' -> follows s ok s' (ok && negb (lowered s s')).
Proof.
  intros s s' ok (Le & G & St & M).
  assert (K : ok && negb (lowered s s') = true -> ok = true /\ xfin s <= xfin s').
  { intros H. apply andb_true_iff in H as [H1 H2]. apply negb_true_iff, Z.ltb_ge in H2. auto. }
  split; [exact K|]. split; [exact G|]. split.
  - intros f h S D. apply St; [exact S|]. destruct D as [D|D]; [left; apply K, D|right; exact D].
  - intros Mx H. apply K in H as [_ H]. unfold ProofsExt2.mx. replace (xfin s') with (xfin s) by lia.
    apply (M (xfin s)); [apply Z.le_refl|exact Mx].
Qed.

Lemma finalize_inv : forall held s ok h f,
  inv_x held s -> inv_x held (finalize s h f) /\ follows s ok (finalize s h f) ok.
Proof.
  intros held s ok h f ([C Fo] & R & Hd). unfold finalize.
  destruct (on_main s h f && (xfin s <? h)) eqn:E.
  2:{ split; [exact (conj (conj C Fo) (conj R Hd))|apply follows_refl]. }
  apply andb_true_iff in E as [Om Lt]. apply Z.ltb_lt in Lt.
  unfold on_main in Om. apply andb_true_iff in Om as [Mm Nh]. apply memN_In in Mm.
  split.
  - split; [|exact (conj R Hd)]. split; [exact C|].
    unfold ProofsExt2.fin_ok. cbn [xfh xfin]. split; [exact Mm|]. cbn [xidx].
    destruct (node_height f (xidx s)) as [x|]; [|discriminate]. apply Z.eqb_eq in Nh. congruence.
  - split; [intros H; cbn [xfin]; split; [exact H|lia]|]. split; [auto|]. split.
    + intros f0 h0 [A Le] _. split; [exact A|cbn [xfin]; lia].
    + intros M _ t n Tn Hn Hm. cbn [xfin xidx] in Hn, Hm. apply (M t n Tn Hn). lia.
Qed.

Definition ev_in (e : xev) : Prop := match e with Dl _ b => In b (T ++ J) | Fz _ _ => True end.

Lemma xstep_acc_inv : forall e s held ok,
  inv_x held s -> ev_in e ->
  forall s' held' ok', xstep_acc P (s, held, ok) e = (s', held', ok') ->
  inv_x held' s' /\ follows s ok s' ok' /\
  match e with
  | Dl _ b => in_idx (bpar b) (xidx s) = true -> held' = bid b :: held /\ in_idx (bid b) (xidx s') = true
  | Fz _ _ => held' = held
  end.
Proof.
  intros [now b|h f] s held ok I U s' held' ok'.
  - rewrite xstep_acc_dl. destruct (deliver_x P now s b) as [s1 o] eqn:D. cbn [fst snd].
    intros H; injection H as <- <- <-.
    destruct (deliver_x_inv held now s b I U s1 o D) as (I1 & Ad & Cn).
    split; [exact I1|]. split; [apply advances_follows, Ad|].
    intros Pi. destruct (Cn Pi) as (Lo & He & Ib). split; [|exact Ib].
    unfold held_after. rewrite Lo, He. reflexivity.
  - intros H; injection H as <- <- <-. destruct (finalize_inv held s ok h f I). auto.
Qed.

End RunX.
