(** C36 — the main statements, assembled. *)
From Coq Require Import List NArith Bool.
From C33 Require Import Lib.Harness C36.Model C36.Spec C36.Check C36.ProofsBase C36.ProofsStep C36.ProofsBlock C36.ProofsOcc C36.ProofsEff
  C36.ProofsInv C36.ProofsInv4 C36.ProofsDeliv.
Import ListNotations.
Open Scope N_scope.

Lemma drun_invs tr : forall s s', Inv s -> Deliv s -> drun s tr = Some s' -> Inv s' /\ Deliv s'.
Proof.
  intros s s' I D H. rewrite drun_grun in H. revert H.
  apply (grun_invariant disc (fun s => Inv s /\ Deliv s)); [|auto].
  intros s0 e s1 [I0 D0] Dc H. split; [eapply inv_step|eapply deliv_step]; eauto.
Qed.

Lemma reply_eqb_eq a b : reply_eqb a b = true -> a = b.
Proof. destruct a, b; simpl; try discriminate; [intros H; apply N.eqb_eq in H; congruence|reflexivity]. Qed.

(** a requester only ever takes the reply made for the current use of its message *)
Lemma reply_to_own_request_proof :
  forall cp tr s, drun (init cp) tr = Some s ->
  forall c o timed r s', step s (EWait c o timed (WGot r)) = Some s' ->
    r = RClosed \/ r = RFor (o_id (go s o)).
Proof.
  intros cp tr s Hr c o timed r s' H.
  destruct (drun_invs tr _ _ (inv_init cp) (deliv_init cp) Hr) as [(_ & _ & (_ & I2 & _)) _].
  apply step_cases in H. inversion H; subst. apply reply_eqb_eq in Hxy as ->.
  destruct y as [i|]; [right|left; reflexivity]. rewrite (I2 _ _ Hslot). reflexivity.
Qed.

(** what a responder holds (and will answer) is the current use of the message *)
Lemma responder_holds_current_proof :
  forall cp tr s, drun (init cp) tr = Some s ->
  forall c o i, In (o, i) (c_held (gc s c)) -> i = o_id (go s o) /\ o_pool (go s o) = false.
Proof.
  intros cp tr s Hr c o i Hin.
  destruct (drun_invs tr _ _ (inv_init cp) (deliv_init cp) Hr) as [(W & _ & (I1 & _ & I3 & _)) _].
  split; [eapply I1; eauto|].
  destruct (o_pool (go s o)) eqn:E; [|reflexivity]. destruct (I3 _ E) as [Hw _].
  assert (Ho : occurs s o (PHeld c)) by (simpl; unfold vheld; apply in_map_iff; exists (o, i); auto).
  apply W in Ho. congruence.
Qed.

Definition recv_ids_tr (tr : list event) : list N :=
  flat_map (fun e => match e with ERecv _ _ i => [i] | _ => [] end) tr.

Lemma step_deliv s e s' :
  step s e = Some s' ->
  s_deliv s' = match e with ERecv _ _ i => [i] | _ => [] end ++ s_deliv s.
Proof. intros H. destruct (step_cases _ _ _ H); items; reflexivity. Qed.

Lemma run_deliv tr : forall s s', run s tr = Some s' -> s_deliv s' = rev (recv_ids_tr tr) ++ s_deliv s.
Proof.
  induction tr as [|e tr IH]; intros s s' H; simpl in H; [injection H as <-; reflexivity|].
  destruct (step s e) as [s1|] eqn:E; [|discriminate].
  rewrite (IH _ _ H), (step_deliv _ _ _ E). unfold recv_ids_tr. simpl. fold (recv_ids_tr tr).
  rewrite rev_app_distr, <- app_assoc. destruct e; simpl; reflexivity.
Qed.

Lemma at_most_once_delivery_proof :
  forall cp tr s, drun (init cp) tr = Some s -> NoDup (recv_ids_tr tr).
Proof.
  intros cp tr s Hr.
  destruct (drun_invs tr _ _ (inv_init cp) (deliv_init cp) Hr) as [_ (D1 & _)].
  rewrite (run_deliv tr _ _ (drun_run _ _ _ Hr)) in D1. simpl in D1. rewrite app_nil_r in D1.
  apply NoDup_rev in D1. rewrite rev_involutive in D1. exact D1.
Qed.

(** without the discipline both statements fail *)
Definition reply_any_trace_full : Prop :=
  forall cp tr s c o timed i s', run (init cp) tr = Some s ->
    step s (EWait c o timed (WGot (RFor i))) = Some s' -> i = o_id (go s o).

(* wait times out (no event), the message is freed and recycled while the responder still
   holds it, the late reply reaches the next user of the object *)
Definition stale_trace : list event :=
  [ ESub 0 0; ENew 0 0 1; ESend 1 0 true MForever SOk; EPumpTake 0 true; EPumpPut 0; ERecv 0 0 1;
    EFree 0; ENew 0 0 2; ESend 1 0 true MForever SOk; EReply 0 0 1 ].

Lemma stale_run :
  exists s, run (init (mkCaps 2 2 5)) stale_trace = Some s
            /\ (exists s', step s (EWait 1 0 true (WGot (RFor 1))) = Some s')
            /\ o_id (go s 0) = 2.
Proof.
  eexists. split; [vm_compute; reflexivity|]. split; [eexists; vm_compute; reflexivity|vm_compute; reflexivity].
Qed.

Lemma reply_any_trace_refuted : ~ reply_any_trace_full.
Proof.
  intros F. destruct stale_run as (s & Hr & (s' & Hw) & Hid).
  pose proof (F _ _ _ _ _ _ _ _ Hr Hw) as H. rewrite Hid in H. discriminate.
Qed.

Lemma stale_trace_not_disciplined : drun (init (mkCaps 2 2 5)) stale_trace = None.
Proof. vm_compute. reflexivity. Qed.

(** non-vacuity: a disciplined trace with a complete round trip, FreeMessage, and reuse of the
    same pooled object for a second round trip *)
Definition roundtrip_trace : list event :=
  [ ESub 0 0; ENew 0 0 1; ESend 1 0 true MForever SOk; EPumpTake 0 true; EPumpPut 0; ERecv 0 0 1;
    EReply 0 0 1; EWait 1 0 false (WGot (RFor 1)); EFree 0;
    ENew 0 0 2; ESend 1 0 false MNow SOk; EPumpTake 0 false; EPumpPut 0; ERecv 0 0 2;
    EReply 0 0 2; EWait 1 0 true (WGot (RFor 2)) ].

Lemma roundtrip_disciplined :
  exists s, drun (init (mkCaps 2 2 5)) roundtrip_trace = Some s /\ recv_ids_tr roundtrip_trace = [1; 2].
Proof. eexists. split; vm_compute; reflexivity. Qed.

(* the same through two subscriptions of one client: the request to topic 1 travels through the
   later pump, the one to topic 0 through the first; both arrive in the one recv channel *)
Definition two_subs_trace : list event :=
  [ ESub 0 0; ESub2 0 0 1; ENew 0 1 1; ESend 1 0 true MForever SOk; EXTake 0 true; EXPut 0; ERecv 0 0 1;
    EReply 0 0 1; EWait 1 0 false (WGot (RFor 1)); EFree 0;
    ENew 0 0 2; ESend 1 0 false MNow SOk; EPumpTake 0 false; EPumpPut 0; ERecv 0 0 2;
    EReply 0 0 2; EWait 1 0 true (WGot (RFor 2)) ].

Lemma two_subs_disciplined :
  exists s, drun (init (mkCaps 2 2 5)) two_subs_trace = Some s /\ recv_ids_tr two_subs_trace = [1; 2]
            /\ subs_of s 0 = [0; 1].
Proof. eexists. split; [vm_compute; reflexivity|]. split; vm_compute; reflexivity. Qed.

(** Check.bulk_fill (used for the 40960-slot channel) agrees with the event-by-event [fill] *)
Definition same_view (a b : option state) : bool :=
  match a, b with
  | Some x, Some y =>
      forallb (fun o => let p := go x o in let q := go y o in
                        (o_id p =? o_id q) && (o_topic p =? o_topic q) && Bool.eqb (o_pool p) (o_pool q)
                        && Bool.eqb (o_sent p) (o_sent q)) (map N.of_nat (seq 0 40))
      && list_eqb (fun i j => match i, j with IMsg u, IMsg v => u =? v | ISent, ISent => true | _, _ => false end)
           (f_items (t_low (gt x 0))) (f_items (t_low (gt y 0)))
      && (f_len (t_low (gt x 0)) =? f_len (t_low (gt y 0))) && (s_gid x =? s_gid y)
  | None, None => true
  | _, _ => false
  end.

Lemma bulk_fill_agrees :
  forallb (fun n => same_view (bulk_fill n (init (mkCaps 2 30 5)) 1 0 3 7) (fill (N.to_nat n) 8%nat 0%nat (init (mkCaps 2 30 5)) 1 0 3 7))
          [1; 2; 5; 17; 30; 31] = true.
Proof. vm_compute. reflexivity. Qed.
