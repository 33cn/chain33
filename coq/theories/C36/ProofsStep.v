(** C36 — the transition function as a relation.  [Step] has one constructor per branch of
    [step] that succeeds: the tests the branch passed and the new state as an update term
    ([cl], [t], [xp] name what [step] binds with [let]).  Whatever is proved about an arbitrary
    step goes through [step_cases] and does not unfold [step] again. *)
From Coq Require Import List NArith Bool.
From C33 Require Import C36.Model C36.ProofsBase.
Import ListNotations.
Open Scope N_scope.

Inductive Step (s : state) : event -> state -> Prop :=
| StNew o t i ob (Eob : ob = go s o) (Hpool : o_pool ob = true) (Hgid : (s_gid s <? i) = true) :
    Step s (ENew o t i) (sg (so s o (mkO i t (o_slot ob) false false (o_where ob))) i)
| StFree o ob (Eob : ob = go s o) (Hpool : o_pool ob = false) :
    Step s (EFree o) (so s o (mkO (o_id ob) (o_topic ob) (o_slot ob) true (o_sent ob) (o_where ob)))
| StSubClosed c t (Hclose : c_closing (gc s c) || c_closed (gc s c) = true) :
    Step s (ESub c t) s
| StSub c t cl (Ecl : cl = gc s c) (Hclosing : c_closing cl = false) (Hclosed : c_closed cl = false)
    (Hpump : c_pump cl = PNone) :
    Step s (ESub c t) (sc (touch s t) c (mkC (c_recv cl) (c_hold cl) PRun t false false (c_held cl)))
| StSendRefused c o hi m r (Hpre : pre_check s c (o_topic (go s o)) = Some r) :
    Step s (ESend c o hi m r) s
| StSendOk c o hi m t (Et : t = o_topic (go s o)) (Hpre : pre_check s c t = None)
    (Hspace : fspace (cap_of s hi) (chan_of (gt s t) hi) = true) :
    Step s (ESend c o hi m SOk) (enqueue (touch s t) t o hi)
| StSendTimeout c o hi t (Et : t = o_topic (go s o)) (Hpre : pre_check s c t = None)
    (Hspace : fspace (cap_of s hi) (chan_of (gt s t) hi) = true) :
    Step s (ESend c o hi MTimed STimeout) (touch s t)
| StSendFull c o hi t (Et : t = o_topic (go s o)) (Hpre : pre_check s c t = None)
    (Hspace : fspace (cap_of s hi) (chan_of (gt s t) hi) = false) :
    Step s (ESend c o hi MNow SFull) (touch s t)
| StBlock p c o hi m t (Et : t = o_topic (go s o)) (Hpre : pre_check s c t = None) (Hm : m <> MNow)
    (Hget : pend_get p (s_pend s) = None) (Hspace : fspace (cap_of s hi) (chan_of (gt s t) hi) = false) :
    Step s (EBlock p c o hi m)
      (set_parked (sp (touch s t) ((p, mkP c o hi (match m with MTimed => true | _ => false end) t) :: s_pend s))
                  o true (PPend p))
| StUnblockOk p pd (Hget : pend_get p (s_pend s) = Some pd)
    (Hspace : fspace (cap_of s (p_high pd)) (chan_of (gt s (p_topic pd)) (p_high pd)) = true) :
    Step s (EUnblock p SOk) (enqueue (sp s (pend_del p (s_pend s))) (p_topic pd) (p_obj pd) (p_high pd))
| StUnblockErr p pd r (Hget : pend_get p (s_pend s) = Some pd)
    (Hwoken : r = SErrChan /\ p_timed pd = false /\ t_closed (gt s (p_topic pd)) = true
              \/ r = STimeout /\ p_timed pd = true) :
    Step s (EUnblock p r) (set_parked (sp s (pend_del p (s_pend s))) (p_obj pd) false P0)
| StPumpTake c (hi : bool) cl tp x f' (Ecl : cl = gc s c) (Etp : tp = gt s (c_topic cl))
    (Hpump : c_pump cl = PRun) (Hhold : c_hold cl = None)
    (Hok : (if hi then true else fis_empty (t_high tp) && negb (t_closed tp)) = true)
    (Hpop : fpop (chan_of tp hi) = Some (x, f')) :
    Step s (EPumpTake c hi)
      match x with
      | ISent => sc (st s (c_topic cl) (set_chan tp hi f')) c (set_pump cl PExit None)
      | IMsg o => set_where (sc (st s (c_topic cl) (set_chan tp hi f')) c (set_pump cl PRun (Some x))) o (PHold c)
      end
| StPumpPut c cl x (Ecl : cl = gc s c) (Hhold : c_hold cl = Some x)
    (Hspace : fspace (rcap (s_caps s)) (c_recv cl) = true) (Hclosed : c_closed cl = false) :
    Step s (EPumpPut c)
      (item_where (sc s c (mkC (fpush x (c_recv cl)) None (c_pump cl) (c_topic cl) (c_closing cl) (c_closed cl)
                               (c_held cl))) x (PRecv c))
| StPumpExit c cl (Ecl : cl = gc s c) (Hpump : c_pump cl = PRun) (Hhold : c_hold cl = None)
    (Hdone : t_closed (gt s (c_topic cl)) || c_closing cl = true) :
    Step s (EPumpExit c) (sc s c (set_pump cl PExit None))
| StRecv c o i f' cl (Ecl : cl = gc s c) (Ei : i = o_id (go s o)) (Hpop : fpop (c_recv cl) = Some (IMsg o, f')) :
    Step s (ERecv c o i)
      (sd (set_where (sc s c (mkC f' (c_hold cl) (c_pump cl) (c_topic cl) (c_closing cl) (c_closed cl)
                                  ((o, i) :: c_held cl))) o (PHeld c)) i)
| StRecvClosed c (Hclosed : c_closed (gc s c) = true) (Hempty : fis_empty (c_recv (gc s c)) = true) :
    Step s (ERecvClosed c) s
| StReply c o i cl ob (Ecl : cl = gc s c) (Eob : ob = go s o) (Hmem : mem_pair o i (c_held cl) = true)
    (Hslot : o_slot ob = None) :
    Step s (EReply c o i)
      (so (sc s c (mkC (c_recv cl) (c_hold cl) (c_pump cl) (c_topic cl) (c_closing cl) (c_closed cl)
                       (remove_pair o i (c_held cl))))
          o (mkO (o_id ob) (o_topic ob) (Some (RFor i)) (o_pool ob) (o_sent ob) P0))
| StWaitGot c o timed x y ob (Eob : ob = go s o) (Hslot : o_slot ob = Some y) (Hxy : reply_eqb x y = true) :
    Step s (EWait c o timed (WGot x))
      (so (touch s (o_topic ob)) o (mkO (o_id ob) (o_topic ob) None (o_pool ob) (o_sent ob) (o_where ob)))
| StWaitChan c o timed (Htc : t_closed (gt s (o_topic (go s o))) = true) :
    Step s (EWait c o timed WChan) (touch s (o_topic (go s o)))
| StWaitClient c o timed (Hclosing : c_closing (gc s c) = true) :
    Step s (EWait c o timed WClient) (touch s (o_topic (go s o)))
| StWaitTimeout c o :
    Step s (EWait c o true WTimeout) (touch s (o_topic (go s o)))
| StCloseNoop c (Hclosed : c_closed (gc s c) = true) :
    Step s (ECloseNoop c) s
| StCloseBegin c cl t (Ecl : cl = gc s c) (Et : t = last_of s c) (Hclosed : c_closed cl = false)
    (Hclosing : c_closing cl = false) (Hpump : c_pump cl <> PNone) :
    Step s (ECloseBegin c)
      (sc (st s t (close_topic_rec (s_caps s) (gt s t))) c
          (mkC (c_recv cl) (c_hold cl) (c_pump cl) (c_topic cl) true false (c_held cl)))
| StCloseBeginNoSub c cl (Ecl : cl = gc s c) (Hclosed : c_closed cl = false) (Hclosing : c_closing cl = false)
    (Hpump : c_pump cl = PNone) :
    Step s (ECloseBegin c) (sc s c (mkC (c_recv cl) (c_hold cl) (c_pump cl) (c_topic cl) true false (c_held cl)))
| StCloseEnd c cl (Ecl : cl = gc s c) (Hclosing : c_closing cl = true) (Hclosed : c_closed cl = false)
    (Hpump : c_pump cl <> PRun) (Hhold : c_hold cl = None) (Hxp : xp_done s c = true) :
    Step s (ECloseEnd c) (sc s c (mkC (c_recv cl) None (c_pump cl) (c_topic cl) true true (c_held cl)))
| StDrain c cl x f' (Ecl : cl = gc s c) (Hclosed : c_closed cl = true) (Hhold : c_hold cl = None)
    (Hpop : fpop (c_recv cl) = Some (x, f')) :
    Step s (EDrain c)
      (item_where (sc s c (mkC f' (Some x) (c_pump cl) (c_topic cl) (c_closing cl) true (c_held cl))) x (PHold c))
| StDrainReply c cl o ob (Ecl : cl = gc s c) (Eob : ob = go s o) (Hclosed : c_closed cl = true)
    (Hhold : c_hold cl = Some (IMsg o)) (Hslot : o_slot ob = None) :
    Step s (EDrainReply c)
      (so (sc s c (mkC (c_recv cl) None (c_pump cl) (c_topic cl) (c_closing cl) true (c_held cl)))
          o (mkO (o_id ob) (o_topic ob) (Some RClosed) (o_pool ob) (o_sent ob) P0))
| StDrainSent c cl (Ecl : cl = gc s c) (Hclosed : c_closed cl = true) (Hhold : c_hold cl = Some ISent) :
    Step s (EDrainReply c) (sc s c (mkC (c_recv cl) None (c_pump cl) (c_topic cl) (c_closing cl) true (c_held cl)))
| StCloseQueueAgain (Hq : s_qclosed s = true) :
    Step s ECloseQueue s
| StCloseQueue (Hq : s_qclosed s = false) (Hqc : s_qclosing s = false) :
    Step s ECloseQueue (sq s (close_all s))
| StNewRaw o t ob (Eob : ob = go s o) (Hpool : o_pool ob = true) (Hid : o_id ob = 0) (Hsent : o_sent ob = false) :
    Step s (ENewRaw o t) (so s o (mkO 0 t (o_slot ob) false false (o_where ob)))
| StSub2 k c t (Hclosing : c_closing (gc s c) = false) (Hclosed : c_closed (gc s c) = false)
    (Hpump : c_pump (gc s c) <> PNone) (Hxst : x_st (gx s k) = PNone) (Hxhold : x_hold (gx s k) = None) :
    Step s (ESub2 k c t) (sl (sx (touch s t) k (mkX c t PRun None)) c t)
| StXTake k (hi : bool) xp tp x f' (Exp : xp = gx s k) (Etp : tp = gt s (x_topic xp))
    (Hxst : x_st xp = PRun) (Hxhold : x_hold xp = None)
    (Hok : (if hi then true else fis_empty (t_high tp) && negb (t_closed tp)) = true)
    (Hpop : fpop (chan_of tp hi) = Some (x, f')) :
    Step s (EXTake k hi)
      match x with
      | ISent => sx (st s (x_topic xp) (set_chan tp hi f')) k (set_xp xp PExit None)
      | IMsg o => set_where (sx (st s (x_topic xp) (set_chan tp hi f')) k (set_xp xp PRun (Some x))) o (PXHold k)
      end
| StXPut k xp c cl x (Exp : xp = gx s k) (Ec : c = x_client xp) (Ecl : cl = gc s c) (Hxhold : x_hold xp = Some x)
    (Hspace : fspace (rcap (s_caps s)) (c_recv cl) = true) (Hclosed : c_closed cl = false) :
    Step s (EXPut k)
      (item_where (sx (sc s c (mkC (fpush x (c_recv cl)) (c_hold cl) (c_pump cl) (c_topic cl) (c_closing cl)
                                   (c_closed cl) (c_held cl)))
                      k (set_xp xp (x_st xp) None)) x (PRecv c))
| StXExit k xp (Exp : xp = gx s k) (Hxst : x_st xp = PRun) (Hxhold : x_hold xp = None)
    (Hdone : t_closed (gt s (x_topic xp)) || c_closing (gc s (x_client xp)) = true) :
    Step s (EXExit k) (sx s k (set_xp xp PExit None))
| StClosePanic c (Hclosing : c_closing (gc s c) = true) (Hclosed : c_closed (gc s c) = false) :
    Step s (EClosePanic c) s
| StCloseQBegin (Hqc : s_qclosing s = false) :
    Step s ECloseQBegin (sqb s (close_all s))
| StCloseQEnd (Hqc : s_qclosing s = true) (Hq : s_qclosed s = false) :
    Step s ECloseQEnd (sqe s).


Ltac break_match_hyp H :=
  repeat match type of H with
         | context [match ?x with _ => _ end] =>
             let E := fresh "E" in destruct x eqn:E; try discriminate H
         | context [if ?x then _ else _] =>
             let E := fresh "E" in destruct x eqn:E; try discriminate H
         end.

Lemma sres_eqb_eq a b : sres_eqb a b = true -> a = b.
Proof. destruct a, b; simpl; congruence. Qed.

Lemma step_cases s e s' : step s e = Some s' -> Step s e s'.
Proof.
  intros H. destruct e; unfold step in H; break_match_hyp H; injection H as <-;
    repeat match goal with
           | E : (_ || _) = false |- _ => apply orb_false_iff in E as [? ?]
           | E : (_ && _) = true |- _ => apply andb_true_iff in E as [? ?]
           | E : negb _ = _ |- _ => first [apply negb_true_iff in E | apply negb_false_iff in E]
           | E : sres_eqb _ _ = true |- _ => apply sres_eqb_eq in E; subst
           | E : (_ =? _) = true |- _ => apply N.eqb_eq in E; subst
           end;
    (* the new state keeps the pump state that [step] matched on *)
    try match goal with E : c_pump ?cl = ?p |- Step _ _ (sc _ _ (mkC _ _ ?p _ true _ _)) => rewrite <- E end;
    try match goal with
        | E : fpop _ = Some (?x, _) |- Step _ (EPumpTake _ _) _ => eapply (StPumpTake _ _ _ _ _ x); eauto
        | E : fpop _ = Some (?x, _) |- Step _ (EXTake _ _) _ => eapply (StXTake _ _ _ _ _ x); eauto
        end;
    try (econstructor; eauto; congruence).
Qed.

(** After [step_cases] the new state is an update term; it computes once the items the
    step moved are known to be messages or sentinels. *)
Ltac items := repeat match goal with x : item |- _ => destruct x end.

Lemma qflags_step s e s' :
  step s e = Some s' ->
  (s_qclosed s' = s_qclosed s /\ s_qclosing s' = s_qclosing s)
  \/ (s_qclosing s = false /\ s_qclosing s' = true /\ s_topics s' = close_all s
      /\ (e = ECloseQBegin /\ s_qclosed s' = s_qclosed s \/ e = ECloseQueue /\ s_qclosed s' = true))
  \/ (e = ECloseQEnd /\ s_qclosing s = true /\ s_qclosing s' = true /\ s_qclosed s' = true).
Proof.
  intros H. destruct (step_cases _ _ _ H); items; try (left; split; reflexivity).
  - right; left. repeat split; auto.
  - right; left. repeat split; auto.
  - right; right. repeat split; auto.
Qed.

Lemma pend_step s e s' :
  step s e = Some s' ->
  s_pend s' = s_pend s
  \/ (exists p c o hi m pd, e = EBlock p c o hi m /\ pend_get p (s_pend s) = None
        /\ In (p_topic pd) (map fst (s_topics s')) /\ s_pend s' = (p, pd) :: s_pend s)
  \/ (exists p r, e = EUnblock p r /\ s_pend s' = pend_del p (s_pend s)).
Proof.
  intros H. destruct (step_cases _ _ _ H); items; try (left; reflexivity); subst; right.
  - left. eexists _, _, _, _, _, _. repeat split; auto. apply aset_key_in.
  - right. eexists _, _; split; reflexivity.
  - right. eexists _, _; split; reflexivity.
Qed.

Lemma gt_step s e s' t :
  step s e = Some s' ->
  gt s' t = gt s t
  \/ (exists hi o, gt s' t = set_chan (gt s t) hi (fpush (IMsg o) (chan_of (gt s t) hi)))
  \/ (exists hi x f', fpop (chan_of (gt s t) hi) = Some (x, f') /\ gt s' t = set_chan (gt s t) hi f')
  \/ gt s' t = close_topic_rec (s_caps s) (gt s t).
Proof.
  (* the topic table of [s'], computed, is as before, or set at one topic (is it [t]?), or walked by
     Queue.Close *)
  intros H. destruct (step_cases _ _ _ H); items; try (left; reflexivity);
    unfold gt; simpl; rewrite ?aget_aset, ?close_all_gt, ?gt_touch;
    first [destruct (t =? _) eqn:E; [apply N.eqb_eq in E; subst t|auto] | destruct (topic_known s t); auto];
    try (left; reflexivity); subst; eauto 8.
Qed.

Definition cflags (cl : client) : pump_st * N * bool * bool := (c_pump cl, c_topic cl, c_closing cl, c_closed cl).

Lemma aget_aset_cases {A} (d : A) k v m k' :
  k' = k /\ aget d k' (aset k v m) = v \/ aget d k' (aset k v m) = aget d k' m.
Proof. rewrite aget_aset. destruct (k' =? k) eqn:E; [apply N.eqb_eq in E|]; auto. Qed.

Lemma gc_upd s s' c v c' : s_clients s' = aset c v (s_clients s) -> c' = c /\ gc s' c' = v \/ gc s' c' = gc s c'.
Proof. unfold gc. intros ->. apply aget_aset_cases. Qed.

Lemma gc_step s e s' c :
  step s e = Some s' ->
  let cl := gc s c in let cl' := gc s' c in
  cflags cl' = cflags cl
  \/ (exists t, e = ESub c t /\ cflags cl = (PNone, c_topic cl, false, false) /\ cflags cl' = (PRun, t, false, false))
  \/ (c_pump cl = PRun /\ cflags cl' = (PExit, c_topic cl, c_closing cl, c_closed cl)
      /\ (t_closed (gt s (c_topic cl)) = true \/ c_closing cl = true
          \/ exists hi f', fpop (chan_of (gt s (c_topic cl)) hi) = Some (ISent, f')))
  \/ (e = ECloseBegin c /\ c_closing cl = false /\ c_closed cl = false
      /\ cflags cl' = (c_pump cl, c_topic cl, true, false)
      /\ (c_pump cl = PNone \/ t_closed (gt s' (last_of s c)) = true))
  \/ (e = ECloseEnd c /\ c_closing cl = true /\ cflags cl' = (c_pump cl, c_topic cl, true, true)).
Proof.
  intros H cl cl'.
  (* the clients' table is as before, or set at one client: is it [c]? *)
  destruct (step_cases _ _ _ H); items; try (left; reflexivity);
    match goal with H : step s _ = Some ?S |- _ =>
      destruct (gc_upd s S _ _ c eq_refl) as [[-> E]|E]; [clear H|left; unfold cl'; rewrite E; reflexivity]
    end;
    (assert (E' : cl' = _) by exact E); clearbody cl'; subst cl' cl; subst; unfold cflags; simpl;
    try (left; congruence).
  - right; left. eexists. repeat split; congruence.
  - right; right; left. repeat split; eauto.
  - right; right; left. repeat split; auto. apply orb_true_iff in Hdone as [?|?]; auto.
  - right; right; right; left. repeat split; auto. right.
    rewrite gt_sc, gt_st, N.eqb_refl. apply close_topic_closed.
  - right; right; right; left. repeat split; auto.
  - right; right; right; right. repeat split; congruence.
Qed.

Lemma gx_upd s s' k v k' : s_xp s' = aset k v (s_xp s) -> k' = k /\ gx s' k' = v \/ gx s' k' = gx s k'.
Proof. unfold gx. intros ->. apply aget_aset_cases. Qed.

Lemma gx_step s e s' k :
  step s e = Some s' ->
  let xp := gx s k in let xp' := gx s' k in
  (x_client xp', x_topic xp', x_st xp') = (x_client xp, x_topic xp, x_st xp)
  \/ x_st xp' = PRun
  \/ (x_st xp = PRun /\ (x_client xp', x_topic xp', x_st xp') = (x_client xp, x_topic xp, PExit)
      /\ (t_closed (gt s (x_topic xp)) = true \/ c_closing (gc s (x_client xp)) = true
          \/ exists hi f', fpop (chan_of (gt s (x_topic xp)) hi) = Some (ISent, f'))).
Proof.
  intros H xp xp'.
  destruct (step_cases _ _ _ H); items; try (left; reflexivity);
    match goal with H : step s _ = Some ?S |- _ =>
      destruct (gx_upd s S _ _ k eq_refl) as [[-> E]|E]; [clear H|left; unfold xp'; rewrite E; reflexivity]
    end;
    (assert (E' : xp' = _) by exact E); clearbody xp'; subst xp' xp; subst; simpl; auto.
  - right; right. repeat split; eauto.
  - right; right. repeat split; auto. apply orb_true_iff in Hdone as [?|?]; auto.
Qed.

Lemma last_step s e s' :
  step s e = Some s' ->
  s_last s' = s_last s
  \/ exists k c t, e = ESub2 k c t /\ c_closing (gc s c) = false /\ s_last s' = aset c t (s_last s).
Proof.
  intros H. destruct (step_cases _ _ _ H); items; try (left; reflexivity).
  right. eexists _, _, _. repeat split; auto.
Qed.
