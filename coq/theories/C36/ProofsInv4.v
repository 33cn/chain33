(** C36 — every step of a disciplined trace preserves the reference invariant and the
    delivery bookkeeping.  One case analysis over [Step]: most events move no reference; the
    others move the one reference to an object from a place [A] (where [refs_ok] says it is)
    to a place [B], and the proof of each names [A], [B] and the lists of [A] and [B] after
    the step. *)
From Coq Require Import List NArith Bool.
From C33 Require Import C36.Model C36.ProofsBase C36.ProofsStep C36.ProofsBlock C36.ProofsOcc C36.ProofsEff C36.ProofsInv
  C36.ProofsDeliv.
Import ListNotations.
Open Scope N_scope.

Definition both_ok (s s' : state) : Prop := (refs_ok s' /\ ids_ok s') /\ (Deliv s -> Deliv s').

Lemma static_both s s' :
  refs_ok s /\ ids_ok s -> static s s' -> s_deliv s' = s_deliv s -> s_gid s' = s_gid s -> both_ok s s'.
Proof.
  intros RI St Ed Eg. split; [exact (static_ok s s' St RI)|].
  intros D. apply (deliv_same s s' D Ed Eg), St.
Qed.

(* only [o_where] of [o0] changes: it was in a channel, a hand, recv or a parked send *)
Lemma relocate_both s s' o0 A B :
  refs_ok s /\ ids_ok s -> A <> B -> (forall c, A <> PHeld c) ->
  s_objs s' = aset o0 (mkO (o_id (go s o0)) (o_topic (go s o0)) (o_slot (go s o0)) (o_pool (go s o0))
                           (o_sent (go s o0)) B) (s_objs s) ->
  s_deliv s' = s_deliv s -> s_gid s' = s_gid s ->
  (forall c x, In x (c_held (gc s' c)) -> In x (c_held (gc s c))) ->
  (forall pl, pl <> A -> pl <> B -> view s' pl = view s pl) ->
  without o0 (view s A) (view s' A) ->
  B = P0 \/ view s' B = o0 :: view s B ->
  both_ok s s'.
Proof.
  intros [R I] Hne Hh Eo Ed Eg Hheld V VA VB.
  assert (Hin : In o0 (view s A)) by (destruct VA as (l1 & l2 & -> & _); apply in_or_app; right; left; reflexivity).
  pose proof (proj2 R _ _ Hin) as HA.
  assert (HP : A <> P0) by (intros ->; exact Hin).
  split; [split|].
  - eapply (refs_move s s' o0 _ A B); eauto.
  - apply (ids_ok_set_where s s' o0 B I); auto. left. congruence.
  - intros D. eapply (deliv_update s s' o0 _ D); eauto.
    intros Hd. exfalso. exact (undelivered s o0 A R Hin Hh Hd).
Qed.

(* a request that is with its owner ([disc]: neither pooled nor sent) is sent: it enters place [B] *)
Lemma enter_both s s' o0 B :
  refs_ok s /\ ids_ok s -> o_pool (go s o0) = false -> o_sent (go s o0) = false -> B <> P0 ->
  s_objs s' = aset o0 (mkO (o_id (go s o0)) (o_topic (go s o0)) (o_slot (go s o0)) (o_pool (go s o0)) true B) (s_objs s) ->
  s_deliv s' = s_deliv s -> s_gid s' = s_gid s ->
  (forall c x, In x (c_held (gc s' c)) -> In x (c_held (gc s c))) ->
  (forall pl, pl <> B -> view s' pl = view s pl) ->
  view s' B = o0 :: view s B ->
  both_ok s s'.
Proof.
  intros [R I] Hp Hs HB Eo Ed Eg Hheld V VB. pose proof (proj2 (proj2 (proj2 I)) _ Hs) as HA.
  split; [split|].
  - eapply (refs_move s s' o0 _ P0 B R); [intros E; exact (HB (eq_sym E))|exact HA|exact Eo|reflexivity|auto..].
  - apply (ids_ok_update s s' o0 _ I Eo); simpl; auto; try congruence. apply I.
  - intros D. apply (deliv_update s s' o0 _ D Ed Eg Eo); simpl; auto.
    intros [[c0 Hc]|[_ Hc]]; congruence.
Qed.

Lemma parked_view s p pd :
  pend_get p (s_pend s) = Some pd ->
  In (p_obj pd) (view s (PPend p))
  /\ forall s1, (forall pl, view s1 pl = view (sp s (pend_del p (s_pend s))) pl) ->
       (forall pl, pl <> PPend p -> view s1 pl = view s pl)
       /\ without (p_obj pd) (view s (PPend p)) (view s1 (PPend p)).
Proof.
  intros Hget. pose proof (pend_objs_del _ _ _ Hget) as Hd.
  change (view s (PPend p)) with (pend_objs p (s_pend s)). rewrite Hd. split; [left; reflexivity|].
  intros s1 V. split.
  - intros pl HA. rewrite V, view_sp. destruct pl; try reflexivity. apply pend_objs_del_other. congruence.
  - rewrite V, view_sp. apply without_head.
Qed.

(** a parked send leaves [PPend p]: into its channel when there is room, back to its owner
    (not sent) when it gives up *)
Lemma unpark_enqueue_both s p pd :
  refs_ok s /\ ids_ok s -> pend_get p (s_pend s) = Some pd ->
  both_ok s (enqueue (sp s (pend_del p (s_pend s))) (p_topic pd) (p_obj pd) (p_high pd)).
Proof.
  intros RI Hget. pose proof RI as [R I]. pose proof I as (_ & I2 & I3 & _).
  destruct (parked_view s p pd Hget) as [Hin HV]. pose proof (proj2 R _ _ Hin) as HA.
  set (o := p_obj pd) in *. set (t := p_topic pd) in *. set (hi := p_high pd) in *.
  destruct (HV _ (fun pl => eq_refl)) as [V VA].
  split; [split|].
  - eapply (refs_move s _ o _ (PPend p) (PChan t hi)); [exact R|discriminate|exact HA|reflexivity|reflexivity|..].
    + intros pl HA' HB. rewrite view_enqueue_other by exact HB. apply V, HA'.
    + right. rewrite view_enqueue_other by discriminate. exact VA.
    + right. rewrite view_enqueue_here. reflexivity.
  - eapply (ids_ok_update s _ o _ I); [reflexivity|..]; simpl; rewrite ?go_st, ?go_sp; auto; try congruence.
    intros Hp. destruct (I3 _ Hp). congruence.
  - intros D. eapply (deliv_update s _ o _ D); try reflexivity; simpl; auto.
    intros Hd. exfalso. revert Hd. apply (undelivered s o (PPend p) R Hin). discriminate.
Qed.

Lemma unpark_fail_both s p pd :
  refs_ok s /\ ids_ok s -> pend_get p (s_pend s) = Some pd ->
  both_ok s (set_parked (sp s (pend_del p (s_pend s))) (p_obj pd) false P0).
Proof.
  intros RI Hget. pose proof RI as [R I]. pose proof I as (_ & I2 & I3 & _).
  destruct (parked_view s p pd Hget) as [Hin HV]. pose proof (proj2 R _ _ Hin) as HA. set (o := p_obj pd) in *.
  destruct (HV _ (fun pl => eq_refl)) as [V VA].
  split; [split|].
  - eapply (refs_move s _ o _ (PPend p) P0); [exact R|discriminate|exact HA|reflexivity|reflexivity|..].
    + intros pl HA' _. rewrite view_set_parked. apply V, HA'.
    + right. rewrite view_set_parked. exact VA.
    + left; reflexivity.
  - eapply (ids_ok_update s _ o _ I); [reflexivity|..]; simpl; rewrite ?go_sp; auto.
    intros Hp. destruct (I3 _ Hp). auto.
  - intros D. eapply (deliv_update s _ o _ D); try reflexivity; simpl; auto.
    intros Hd. exfalso. revert Hd. apply (undelivered s o (PPend p) R Hin). discriminate.
Qed.

Ltac key_cases :=
  destruct (_ =? _) eqn:E; [apply N.eqb_eq in E; subst|]; try reflexivity.

Lemma step_ok s e s' :
  refs_ok s /\ ids_ok s -> disc s e = true -> step s e = Some s' -> both_ok s s'.
Proof.
  intros RI Dc H. pose proof RI as [R I]. pose proof I as (I1 & I2 & I3 & I4).
  destruct (step_cases _ _ _ H); subst;
    try match goal with Hp : fpop _ = Some _ |- _ => pose proof (fpop_objs _ _ _ Hp) as Hv; simpl in Hv end;
    items; simpl item_where; rewrite ?app_nil_r in *;
    (* the events that move no reference and change no object *)
    try (apply (static_both s _ RI); [|reflexivity|reflexivity];
         (split; [intros pl|split; [reflexivity|]]);
         [rewrite ?view_sl, ?view_sx_same, ?view_sc_same, ?view_touch by same_lists;
          first [reflexivity | apply view_pop_sent; assumption | apply (view_close_all s _ pl eq_refl)
                | apply view_st_same; intros; apply vchan_close_topic]
         |first [intros ? ? Hin; exact Hin | eapply held_same; reflexivity]]).
  - (* ENew *)
    destruct (I3 o Hpool) as [Hw Hs]. apply N.ltb_lt in Hgid.
    split; [|intros D; eapply (deliv_new s _ o _ i D Hgid); reflexivity].
    eapply (inv_obj s _ o); [exact RI|reflexivity|..]; simpl; auto; try congruence.
    intros c0 i0 Hi. apply held_view, R in Hi. congruence.
  - (* EFree *)
    simpl in Dc. apply andb_true_iff in Dc as [D1 D2].
    destruct (o_where (go s o)) eqn:Ew; simpl in D1; try discriminate D1.
    destruct (o_slot (go s o)) eqn:Es; try discriminate D2.
    split.
    + eapply (inv_obj s _ o); [exact RI|reflexivity|..]; simpl; rewrite ?Es, ?Ew; auto; discriminate.
    + intros D. eapply (deliv_update s _ o _ D); try reflexivity; simpl; rewrite ?Ew; auto.
      intros [[c0 Hc]|[_ Hs]]; [congruence|right; auto].
  - (* ESend, accepted *)
    simpl in Dc. apply andb_true_iff in Dc as [Dp Ds]. apply negb_true_iff in Dp, Ds.
    apply (enter_both s _ o (PChan (o_topic (go s o)) hi) RI Dp Ds); try reflexivity; try discriminate.
    + intros ? ? Hin; exact Hin.
    + intros pl HB. rewrite view_enqueue_other, view_touch by exact HB. reflexivity.
    + rewrite view_enqueue_here, view_touch. reflexivity.
  - (* EBlock *)
    simpl in Dc. apply andb_true_iff in Dc as [Dp Ds]. apply negb_true_iff in Dp, Ds.
    apply (enter_both s _ o (PPend p) RI Dp Ds); try reflexivity; try discriminate.
    + intros ? ? Hin; exact Hin.
    + intros pl HB. rewrite view_set_parked, view_sp, view_touch. destruct pl; try reflexivity.
      unfold pend_objs. simpl. destruct (p =? p0) eqn:E; [apply N.eqb_eq in E; congruence|reflexivity].
    + rewrite view_set_parked, view_sp. unfold pend_objs. simpl. rewrite N.eqb_refl. reflexivity.
  - (* EUnblock, resumed: enqueued *) exact (unpark_enqueue_both s p pd RI Hget).
  - (* EUnblock, gave up: the topic is closed, or the timer fired *) exact (unpark_fail_both s p pd RI Hget).
  - (* EPumpTake: channel -> the pump's hand *)
    set (T := c_topic (gc s c)) in *.
    apply (relocate_both s _ o (PChan T hi) (PHold c) RI); try reflexivity; try discriminate.
    + eapply held_same; reflexivity.
    + intros pl HA' HB. rewrite view_set_where, view_sc, view_st.
      destruct pl; try reflexivity; key_cases; try congruence.
      rewrite vchan_set_chan. destruct (eqb hi0 hi) eqn:Eh; [apply eqb_prop in Eh; congruence|reflexivity].
    + rewrite view_set_where, view_sc, view_st, N.eqb_refl, vchan_set_chan, eqb_reflx.
      simpl. unfold vchan. rewrite Hv. apply without_last.
    + right. rewrite view_set_where, view_sc, N.eqb_refl. simpl. unfold vhold. rewrite Hhold. reflexivity.
  - (* EPumpPut: the pump's hand -> recv *)
    apply (relocate_both s _ o (PHold c) (PRecv c) RI); try reflexivity; try discriminate.
    + eapply held_same; reflexivity.
    + intros pl HA' HB. rewrite view_set_where, view_sc. destruct pl; try reflexivity; key_cases; congruence.
    + rewrite view_set_where, view_sc, N.eqb_refl. simpl. unfold vhold. rewrite Hhold. apply without_head.
    + right. rewrite view_set_where, view_sc, N.eqb_refl. reflexivity.
  - (* ERecv: recv -> the responder *)
    assert (Hin : In o (view s (PRecv c))) by (simpl; unfold vrecv; rewrite Hv; apply in_last).
    pose proof (proj2 R _ _ Hin) as HA.
    split; [split|intros D; eapply (deliv_recv s _ c o _ _ R I D Hin); try reflexivity; discriminate].
    + eapply (refs_move s _ o _ (PRecv c) (PHeld c)); [exact R|discriminate|exact HA|reflexivity|reflexivity|..].
      * intros pl HA' HB. rewrite view_sd, view_set_where, view_sc. destruct pl; try reflexivity; key_cases; congruence.
      * right. rewrite view_sd, view_set_where, view_sc, N.eqb_refl. simpl. unfold vrecv. rewrite Hv. apply without_last.
      * right. rewrite view_sd, view_set_where, view_sc, N.eqb_refl. reflexivity.
    + eapply (ids_ok_update s _ o _ I); [reflexivity|..]; simpl; auto.
      * intros c0 o1 i Hi. eapply (held_upd s) in Hi; [|reflexivity]. destruct Hi as [Hi|[-> [[= <- <-]|Hi]]]; auto.
      * apply I2.
      * intros Hp. destruct (I3 _ Hp). congruence.
      * intros Hs. pose proof (I4 _ Hs). congruence.
  - (* EReply: the responder -> nowhere, the answer in the slot *)
    pose proof (remove_pair_without _ _ _ Hmem) as Hw.
    assert (Hin : In o (view s (PHeld c))) by (eapply held_view, mem_pair_in, Hmem).
    pose proof (proj2 R _ _ Hin) as HA.
    split; [split|].
    + eapply (refs_move s _ o _ (PHeld c) P0); [exact R|discriminate|exact HA|reflexivity|reflexivity|..].
      * intros pl HA' HB. rewrite view_so, view_sc. destruct pl; try reflexivity; key_cases; congruence.
      * right. rewrite view_so, view_sc, N.eqb_refl. exact Hw.
      * left; reflexivity.
    + eapply (ids_ok_update s _ o _ I); [reflexivity|..]; simpl; auto.
      * intros c0 o1 i0 Hi. left. eapply (held_upd s) in Hi; [|reflexivity]. destruct Hi as [Hi|[-> Hi]]; auto.
        eapply remove_pair_in2; eauto.
      * intros i0 [= <-]. eapply I1, mem_pair_in, Hmem.
      * intros Hp. destruct (I3 _ Hp). congruence.
    + intros D. eapply (deliv_update s _ o _ D); try reflexivity; simpl; auto.
      intros _. right. split; [reflexivity|]. destruct (o_sent (go s o)) eqn:Es; [reflexivity|].
      pose proof (I4 _ Es). congruence.
  - (* EWait, reply taken *)
    split.
    + eapply (inv_obj s _ o); [exact RI|reflexivity|..]; simpl; auto.
      * intros pl. rewrite view_so. apply view_touch.
      * discriminate.
      * intros Hp. split; [apply I3, Hp|reflexivity].
    + intros D. eapply (deliv_update s _ o _ D); try reflexivity; simpl; auto.
  - (* EDrain: recv -> the closing client's hand *)
    apply (relocate_both s _ o (PRecv c) (PHold c) RI); try reflexivity; try discriminate.
    + eapply held_same; reflexivity.
    + intros pl HA' HB. rewrite view_set_where, view_sc. destruct pl; try reflexivity; key_cases; congruence.
    + rewrite view_set_where, view_sc, N.eqb_refl. simpl. unfold vrecv. rewrite Hv. apply without_last.
    + right. rewrite view_set_where, view_sc, N.eqb_refl. simpl. unfold vhold. rewrite Hhold. reflexivity.
  - (* EDrainReply: the hand -> nowhere, ErrChannelClosed in the slot *)
    assert (Hin : In o (view s (PHold c))) by (simpl; unfold vhold; rewrite Hhold; left; reflexivity).
    pose proof (proj2 R _ _ Hin) as HA.
    split; [split|].
    + eapply (refs_move s _ o _ (PHold c) P0); [exact R|discriminate|exact HA|reflexivity|reflexivity|..].
      * intros pl HA' HB. rewrite view_so, view_sc. destruct pl; try reflexivity; key_cases; congruence.
      * right. rewrite view_so, view_sc, N.eqb_refl. simpl. unfold vhold. rewrite Hhold. apply without_head.
      * left; reflexivity.
    + eapply (ids_ok_update s _ o _ I); [reflexivity|..]; simpl; auto.
      * intros c0 o1 i Hi. left. revert Hi. eapply held_same; reflexivity.
      * discriminate.
      * intros Hp. destruct (I3 _ Hp). congruence.
    + intros D. eapply (deliv_update s _ o _ D); try reflexivity; simpl; auto.
      intros Hd. exfalso. revert Hd. apply (undelivered s o (PHold c) R Hin). discriminate.
  - (* ENewRaw is not disciplined *) discriminate Dc.
  - (* EXTake: channel -> the later pump's hand *)
    set (T := x_topic (gx s k)) in *.
    apply (relocate_both s _ o (PChan T hi) (PXHold k) RI); try reflexivity; try discriminate; auto.
    + intros pl HA' HB. rewrite view_set_where, view_sx, view_st.
      destruct pl; try reflexivity; key_cases; try congruence.
      rewrite vchan_set_chan. destruct (eqb hi0 hi) eqn:Eh; [apply eqb_prop in Eh; congruence|reflexivity].
    + rewrite view_set_where, view_sx, view_st, N.eqb_refl, vchan_set_chan, eqb_reflx.
      simpl. unfold vchan. rewrite Hv. apply without_last.
    + right. rewrite view_set_where, view_sx, N.eqb_refl. simpl. unfold vxhold. rewrite Hxhold. reflexivity.
  - (* EXPut: the later pump's hand -> recv *)
    set (c := x_client (gx s k)) in *.
    apply (relocate_both s _ o (PXHold k) (PRecv c) RI); try reflexivity; try discriminate.
    + eapply held_same; reflexivity.
    + intros pl HA' HB. rewrite view_set_where, view_sx, view_sc. destruct pl; try reflexivity; key_cases; congruence.
    + rewrite view_set_where, view_sx, N.eqb_refl. simpl. unfold vxhold. rewrite Hxhold. apply without_head.
    + right. rewrite view_set_where, view_sx, view_sc, N.eqb_refl. reflexivity.
Qed.

Lemma inv_step s e s' : Inv s -> disc s e = true -> step s e = Some s' -> Inv s'.
Proof.
  intros I D H. apply inv_refs in I as (R & I & K). apply inv_refs.
  destruct (step_ok s e s' (conj R I) D H) as [[R' I'] _]. auto using (pend_nodup_step s e s').
Qed.

Lemma deliv_step s e s' : Inv s -> Deliv s -> disc s e = true -> step s e = Some s' -> Deliv s'.
Proof. intros I Dl D H. apply inv_refs in I as (R & I & _). exact (proj2 (step_ok s e s' (conj R I) D H) Dl). Qed.

Lemma drun_grun tr : forall s, drun s tr = grun disc s tr.
Proof. induction tr as [|e tr IH]; intros s; simpl; [reflexivity|]. destruct (disc s e), (step s e); auto. Qed.

Lemma drun_inv tr : forall s s', Inv s -> drun s tr = Some s' -> Inv s'.
Proof. intros s s' I H. rewrite drun_grun in H. exact (grun_invariant disc Inv inv_step tr s s' I H). Qed.

Lemma drun_run tr : forall s s', drun s tr = Some s' -> run s tr = Some s'.
Proof. intros s s' H. rewrite drun_grun in H. exact (grun_run _ _ _ _ H). Qed.
