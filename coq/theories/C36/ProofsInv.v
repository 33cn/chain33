(** C36 — the reference invariant: under the client discipline every message object is
    referenced from at most one place, the ghost field [o_where] names it, identifiers read
    by responders and carried by replies are the object's current identifier.
    Every event either moves no reference, or changes one object's record only, or moves
    the one reference to an object from a place [A] to a place [B] ([refs_move]). *)
From Coq Require Import List NArith Bool.
From C33 Require Import C36.Model C36.ProofsBase C36.ProofsStep C36.ProofsClose C36.ProofsBlock C36.ProofsOcc
  C36.ProofsEff.
Import ListNotations.
Open Scope N_scope.

Definition Inv (s : state) : Prop := where_ok s /\ nodup_ok s /\ ids_ok s.

Lemma inv_init cp : Inv (init cp).
Proof.
  split; [|split].
  - intros o pl H. destruct pl as [|t hi| | | | |]; try destruct hi; cbv in H; contradiction.
  - repeat split; intros; try destruct hi; cbv; constructor.
  - repeat split; intros; simpl in *; try contradiction; try discriminate; reflexivity.
Qed.

Lemma vpend_keys s : map fst (vpend s) = map fst (s_pend s).
Proof. unfold vpend. rewrite map_map. reflexivity. Qed.

(** the numbers of the parked sends stay distinct in any run ([pend_nodup_step]); what each
    event has to preserve is [refs_ok] and [ids_ok] *)
Lemma inv_refs s : Inv s <-> refs_ok s /\ ids_ok s /\ pend_nodup s.
Proof.
  unfold pend_nodup. rewrite <- vpend_keys. split.
  - intros (W & N & I). pose proof (proj2 (proj2 (proj2 N))) as K.
    split; [apply (proj1 (refs_ok_iff s K)); split; assumption|split; assumption].
  - intros (R & I & K). apply (proj2 (refs_ok_iff s K)) in R as [W N]. split; [exact W|split; [exact N|exact I]].
Qed.

Lemma held_upd s s' c v :
  s_clients s' = aset c v (s_clients s) ->
  forall c' x, In x (c_held (gc s' c')) -> In x (c_held (gc s c')) \/ c' = c /\ In x (c_held v).
Proof. intros E c' x. destruct (gc_upd s s' c v c' E) as [[-> ->]| ->]; auto. Qed.

Lemma ids_ok_update s s' o0 v :
  ids_ok s -> s_objs s' = aset o0 v (s_objs s) ->
  (forall c o i, In (o, i) (c_held (gc s' c)) -> In (o, i) (c_held (gc s c)) \/ (o = o0 /\ i = o_id v)) ->
  (forall c i, In (o0, i) (c_held (gc s c)) -> o_id v = o_id (go s o0)) ->
  (forall i, o_slot v = Some (RFor i) -> i = o_id v) ->
  (o_pool v = true -> o_where v = P0 /\ o_slot v = None) ->
  (o_sent v = false -> o_where v = P0) ->
  ids_ok s'.
Proof.
  intros (I1 & I2 & I3 & I4) Eo Hh Hid H2 H3 H4.
  assert (Hg : forall o, go s' o = if o =? o0 then v else go s o) by (intros o; unfold go; rewrite Eo; apply aget_aset).
  unfold ids_ok. split; [|split; [|split]].
  - intros c o i Hin. rewrite Hg. destruct (Hh _ _ _ Hin) as [Hold|[-> ->]].
    + destruct (o =? o0) eqn:E; [apply N.eqb_eq in E; subst; rewrite (Hid _ _ Hold)|]; eauto.
    + rewrite N.eqb_refl. reflexivity.
  - intros o i Hs. rewrite Hg in *. destruct (o =? o0) eqn:E; eauto.
  - intros o Hp. rewrite Hg in *. destruct (o =? o0) eqn:E; auto.
  - intros o Hs. rewrite Hg in *. destruct (o =? o0) eqn:E; auto.
Qed.

Lemma ids_ok_set_where s s' o0 B :
  ids_ok s -> o_where (go s o0) <> P0 \/ B = P0 ->
  s_objs s' = aset o0 (mkO (o_id (go s o0)) (o_topic (go s o0)) (o_slot (go s o0)) (o_pool (go s o0))
                           (o_sent (go s o0)) B) (s_objs s) ->
  (forall c x, In x (c_held (gc s' c)) -> In x (c_held (gc s c))) ->
  ids_ok s'.
Proof.
  intros I HB Eo Hh. pose proof I as (_ & I2 & I3 & I4).
  apply (ids_ok_update s s' o0 _ I Eo); simpl; auto.
  - intros Hp. destruct (I3 _ Hp) as [Hw Hs]. split; [tauto|exact Hs].
  - intros Hs. pose proof (I4 _ Hs). tauto.
Qed.

Lemma ids_ok_same s s' :
  ids_ok s -> s_objs s' = s_objs s -> (forall c x, In x (c_held (gc s' c)) -> In x (c_held (gc s c))) -> ids_ok s'.
Proof.
  intros (I1 & I2 & I3 & I4) Eo Hh. unfold ids_ok, go in *. rewrite Eo. repeat split; eauto; apply I3; auto.
Qed.

Definition static (s s' : state) : Prop :=
  (forall pl, view s' pl = view s pl) /\ s_objs s' = s_objs s
  /\ (forall c x, In x (c_held (gc s' c)) -> In x (c_held (gc s c))).

Lemma static_ok s s' : static s s' -> refs_ok s /\ ids_ok s -> refs_ok s' /\ ids_ok s'.
Proof.
  intros (V & Eo & Hh) [R I]. split; [|eapply ids_ok_same; eauto].
  apply (refs_same s); auto. intros o. unfold go. rewrite Eo. reflexivity.
Qed.

Lemma held_same s s' c v :
  s_clients s' = aset c v (s_clients s) -> c_held v = c_held (gc s c) ->
  forall c' x, In x (c_held (gc s' c')) -> In x (c_held (gc s c')).
Proof. intros E Ev c' x. destruct (gc_upd s s' c v c' E) as [[-> ->]| ->]; [rewrite Ev|]; auto. Qed.

Lemma inv_obj s s' o v :
  refs_ok s /\ ids_ok s -> s_objs s' = aset o v (s_objs s) ->
  (forall pl, view s' pl = view s pl) -> (forall c x, In x (c_held (gc s' c)) -> In x (c_held (gc s c))) ->
  o_where v = o_where (go s o) -> (forall c i, In (o, i) (c_held (gc s c)) -> o_id v = o_id (go s o)) ->
  (forall i, o_slot v = Some (RFor i) -> i = o_id v) ->
  (o_pool v = true -> o_where v = P0 /\ o_slot v = None) ->
  (o_sent v = false -> o_where v = P0) ->
  refs_ok s' /\ ids_ok s'.
Proof.
  intros [R I] Eo V Hh Hw Hid H2 H3 H4. split.
  - apply (refs_same s); auto. intros o'. unfold go. rewrite Eo, aget_aset.
    destruct (o' =? o) eqn:E; [apply N.eqb_eq in E; subst; exact Hw|reflexivity].
  - apply (ids_ok_update s s' o v I Eo); auto.
Qed.

Lemma held_view s c o i : In (o, i) (c_held (gc s c)) -> In o (view s (PHeld c)).
Proof. intros H. apply in_map_iff. exists (o, i). auto. Qed.
