(** C36 — the extension: exact condition for a wait to return, overlapping Close calls
    (finding 4), topics created inside a closed queue (finding 6). *)
From Coq Require Import List NArith Bool.
From C33 Require Import C36.Model C36.ProofsBase C36.ProofsClose C36.ProofsBlock.
Import ListNotations.
Open Scope N_scope.

(** a wait returns iff it has a timer, its client's done channel is closed, the topic of
    its message is closed, or a reply lies in the reply channel *)
Lemma wait_enabled_iff s c o timed :
  (exists r s', step s (EWait c o timed r) = Some s') <-> wait_returns_guard s c o timed = true.
Proof.
  unfold wait_returns_guard. split.
  - intros (r & s' & H). destruct r as [x| | |]; simpl in H.
    + destruct (o_slot (go s o)); [|discriminate]. rewrite !orb_true_r. reflexivity.
    + destruct (t_closed (gt s (o_topic (go s o)))); [|discriminate]. rewrite !orb_true_r. reflexivity.
    + destruct (c_closing (gc s c)); [|discriminate]. rewrite !orb_true_r. reflexivity.
    + destruct timed; [reflexivity|discriminate].
  - intros G. destruct timed.
    { exists WTimeout. simpl. eauto. }
    destruct (c_closing (gc s c)) eqn:E1.
    { exists WClient. simpl. rewrite E1. eauto. }
    destruct (t_closed (gt s (o_topic (go s o)))) eqn:E2.
    { exists WChan. simpl. rewrite E2. eauto. }
    simpl in G. destruct (o_slot (go s o)) as [y|] eqn:E3; [|discriminate].
    exists (WGot y). simpl. rewrite E3.
    assert (R : reply_eqb y y = true) by (destruct y; simpl; [apply N.eqb_refl|reflexivity]).
    rewrite R. eauto.
Qed.

(** [after_close_errors_base_stmt] and the exact condition for a wait to return *)
Definition after_close_errors_stmt : Prop :=
  forall cp tr1 s c, run (init cp) tr1 = Some s ->
    c_closed (gc s c) = true \/ s_qclosed s = true ->
  forall tr2 s2, run s tr2 = Some s2 ->
    (forall o hi m r s3, step s2 (ESend c o hi m r) = Some s3 -> is_err r = true)
    /\ (forall p o hi m, step s2 (EBlock p c o hi m) = None)
    /\ (c_closed (gc s c) = true -> forall o timed, exists r s3, step s2 (EWait c o timed r) = Some s3)
    /\ (forall o timed, t_closed (gt s (o_topic (go s2 o))) = true ->
          exists r s3, step s2 (EWait c o timed r) = Some s3)
    /\ (forall o timed, (exists r s3, step s2 (EWait c o timed r) = Some s3)
                        <-> wait_returns_guard s2 c o timed = true).

Lemma after_close_errors_proof : after_close_errors_stmt.
Proof.
  intros cp tr1 s c Hr1 Hc tr2 s2 Hr2.
  destruct (after_close_errors_base cp tr1 s c Hr1 Hc tr2 s2 Hr2) as (A & B & C & D).
  repeat split; auto; apply wait_enabled_iff.
Qed.

(** finding 4: a Close that starts while another Close of the same client is in progress *)
Definition close_never_panics_full : Prop :=
  forall cp tr s c, run (init cp) tr = Some s -> step s (EClosePanic c) = None.

(* subscriber 0 does not read: recv (1) is full and the pump holds the next message, so the
   first Close waits in wg.Wait(); the second Close closes client.done again *)
Definition overlap_trace : list event :=
  [ ESub 0 0; ENew 0 0 1; ESend 1 0 true MNow SOk; EPumpTake 0 true; EPumpPut 0;
    ENew 1 0 2; ESend 1 1 true MNow SOk; EPumpTake 0 true; ECloseBegin 0 ].

Lemma overlap_runs :
  exists s, run (init (mkCaps 2 2 1)) overlap_trace = Some s
            /\ close_in_progress s 0 = true
            /\ step s (ECloseEnd 0) = None /\ step s (EPumpPut 0) = None /\ step s (EPumpExit 0) = None
            /\ step s (EClosePanic 0) = Some s.
Proof. eexists. split; [vm_compute; reflexivity|]. repeat apply conj; vm_compute; reflexivity. Qed.

Lemma close_never_panics_refuted : ~ close_never_panics_full.
Proof.
  intros F. destruct overlap_runs as (s & Hr & _ & _ & _ & _ & Hp).
  rewrite (F _ _ _ 0 Hr) in Hp. discriminate.
Qed.

(* a Close call that starts when no other Close of that client is in progress does not
   panic: it returns at once (already closed) or begins *)
Lemma close_no_overlap_no_panic s c :
  close_in_progress s c = false ->
  step s (EClosePanic c) = None
  /\ ((exists s1, step s (ECloseNoop c) = Some s1) \/ (exists s1, step s (ECloseBegin c) = Some s1)).
Proof.
  unfold close_in_progress. intros G. simpl. rewrite G. split; [reflexivity|].
  destruct (c_closed (gc s c)) eqn:E1; [left; eauto|right].
  destruct (c_closing (gc s c)) eqn:E2; [discriminate|].
  destruct (c_pump (gc s c)); eauto.
Qed.

Lemma close_panic_iff s c : (exists s1, step s (EClosePanic c) = Some s1) <-> close_in_progress s c = true.
Proof.
  unfold close_in_progress. simpl. destruct (c_closing (gc s c) && negb (c_closed (gc s c))); split; eauto.
  - intros (s1 & H); discriminate.
  - discriminate.
Qed.

(* non-vacuity: Close calls one after the other *)
Lemma sequential_closes_run :
  exists s s1 s2, run (init (mkCaps 2 2 5)) [ESub 0 0; ECloseBegin 0; EPumpTake 0 true; ECloseEnd 0] = Some s
    /\ close_in_progress s 0 = false /\ step s (ECloseNoop 0) = Some s1
    /\ run (init (mkCaps 2 2 5)) [ESub 0 0] = Some s2 /\ close_in_progress s2 0 = false
    /\ step s2 (EClosePanic 0) = None.
Proof.
  eexists _, _, _. split; [vm_compute; reflexivity|]. split; [vm_compute; reflexivity|].
  split; [vm_compute; reflexivity|]. split; [vm_compute; reflexivity|]. split; vm_compute; reflexivity.
Qed.

(** finding 6: q.chanSub creates topics inside a queue that Queue.Close has walked *)
Definition all_topics_closed (s : state) : Prop := forall t, In t (tkeys s) -> t_closed (gt s t) = true.

Definition closed_queue_no_open_topic_full : Prop :=
  forall cp tr s, run (init cp) tr = Some s -> s_qclosed s = true -> all_topics_closed s.

(* the race: a Send that read isClose = 0 reaches chanSub after the loop *)
Definition race_trace : list event :=
  [ ENew 0 7 1; ECloseQBegin; ESend 1 0 true MForever SOk; ECloseQEnd ].
(* no race needed: a Wait (or Sub) that names a new topic after Queue.Close *)
Definition late_wait_trace : list event :=
  [ ENew 0 7 1; ECloseQueue; ESend 1 0 true MForever SErrChan; EWait 1 0 true WTimeout ].

Lemma race_runs :
  exists s, run (init (mkCaps 2 2 5)) race_trace = Some s
            /\ s_qclosed s = true /\ In 7 (tkeys s) /\ t_closed (gt s 7) = false
            /\ f_len (t_high (gt s 7)) = 1
            /\ forall r, step s (EWait 1 0 false r) = None.
Proof.
  eexists. split; [vm_compute; reflexivity|]. repeat apply conj; try (vm_compute; reflexivity).
  - vm_compute. auto.
  - intros r. destruct r as [[i|]| | |]; vm_compute; reflexivity.
Qed.

Lemma late_wait_runs :
  exists s, run (init (mkCaps 2 2 5)) late_wait_trace = Some s
            /\ s_qclosed s = true /\ In 7 (tkeys s) /\ t_closed (gt s 7) = false
            /\ forall r, step s (EWait 1 0 false r) = None.
Proof.
  eexists. split; [vm_compute; reflexivity|]. repeat apply conj; try (vm_compute; reflexivity).
  - vm_compute. auto.
  - intros r. destruct r as [[i|]| | |]; vm_compute; reflexivity.
Qed.

Lemma closed_queue_no_open_topic_refuted : ~ closed_queue_no_open_topic_full.
Proof.
  intros F. destruct race_runs as (s & Hr & Hq & Hin & Ho & _).
  rewrite (F _ _ _ Hr Hq 7 Hin) in Ho. discriminate.
Qed.

Definition wait_after_queue_close_full : Prop :=
  forall cp tr s, run (init cp) tr = Some s -> s_qclosed s = true ->
    forall c o timed, exists r s', step s (EWait c o timed r) = Some s'.

Lemma wait_after_queue_close_refuted : ~ wait_after_queue_close_full.
Proof.
  intros F. destruct race_runs as (s & Hr & Hq & _ & _ & _ & Hn).
  destruct (F _ _ _ Hr Hq 1 0 false) as (r & s' & H). rewrite Hn in H. discriminate.
Qed.

(** under the guard [qdisc]: once the topics were walked, every topic is closed *)
Definition walked_closed (s : state) : Prop := s_qclosing s = true -> all_topics_closed s.

Lemma tkeys_touch s t t' : In t' (tkeys (touch s t)) -> t' = t \/ In t' (tkeys s).
Proof. apply aset_keys_inv. Qed.

Lemma tkeys_st_known s t v t' : In t (tkeys s) -> In t' (tkeys (st s t v)) -> In t' (tkeys s).
Proof. intros Hin H. apply aset_keys_inv in H as [->|H]; assumption. Qed.
