(** C36 — delivery bookkeeping: the invariant [Deliv] (no message identifier is read twice
    from a subscriber's Recv channel) and its preservation when an object gets a fresh identifier, when one is read
    by a responder and when only one object's record changes; the case analysis over all events is [step_ok] in ProofsInv4. *)
From Coq Require Import List NArith Bool Lia.
From C33 Require Import C36.Model C36.ProofsBase C36.ProofsStep C36.ProofsOcc C36.ProofsEff C36.ProofsInv.
Import ListNotations.
Open Scope N_scope.

Lemma deliv_st s t v : s_deliv (st s t v) = s_deliv s. Proof. reflexivity. Qed.
Lemma deliv_sc s c v : s_deliv (sc s c v) = s_deliv s. Proof. reflexivity. Qed.
Lemma deliv_so s o v : s_deliv (so s o v) = s_deliv s. Proof. reflexivity. Qed.
Lemma deliv_sp s l : s_deliv (sp s l) = s_deliv s. Proof. reflexivity. Qed.
Lemma deliv_sg s i : s_deliv (sg s i) = s_deliv s. Proof. reflexivity. Qed.
Lemma deliv_sd s i : s_deliv (sd s i) = i :: s_deliv s. Proof. reflexivity. Qed.
Lemma deliv_sq s m : s_deliv (sq s m) = s_deliv s. Proof. reflexivity. Qed.
Lemma deliv_touch s t : s_deliv (touch s t) = s_deliv s. Proof. reflexivity. Qed.
Lemma deliv_set_where s o w : s_deliv (set_where s o w) = s_deliv s. Proof. reflexivity. Qed.
Lemma deliv_set_parked s o b w : s_deliv (set_parked s o b w) = s_deliv s. Proof. reflexivity. Qed.
Lemma deliv_item_where s x w : s_deliv (item_where s x w) = s_deliv s. Proof. destruct x; reflexivity. Qed.
Lemma deliv_enqueue s t o hi : s_deliv (enqueue s t o hi) = s_deliv s. Proof. reflexivity. Qed.
Lemma gid_st s t v : s_gid (st s t v) = s_gid s. Proof. reflexivity. Qed.
Lemma gid_sc s c v : s_gid (sc s c v) = s_gid s. Proof. reflexivity. Qed.
Lemma gid_so s o v : s_gid (so s o v) = s_gid s. Proof. reflexivity. Qed.
Lemma gid_sp s l : s_gid (sp s l) = s_gid s. Proof. reflexivity. Qed.
Lemma gid_sg s i : s_gid (sg s i) = i. Proof. reflexivity. Qed.
Lemma gid_sd s i : s_gid (sd s i) = s_gid s. Proof. reflexivity. Qed.
Lemma gid_sq s m : s_gid (sq s m) = s_gid s. Proof. reflexivity. Qed.
Lemma gid_touch s t : s_gid (touch s t) = s_gid s. Proof. reflexivity. Qed.
Lemma gid_set_where s o w : s_gid (set_where s o w) = s_gid s. Proof. reflexivity. Qed.
Lemma gid_set_parked s o b w : s_gid (set_parked s o b w) = s_gid s. Proof. reflexivity. Qed.
Lemma gid_item_where s x w : s_gid (item_where s x w) = s_gid s. Proof. destruct x; reflexivity. Qed.
Lemma gid_enqueue s t o hi : s_gid (enqueue s t o hi) = s_gid s. Proof. reflexivity. Qed.
Lemma deliv_sx s k v : s_deliv (sx s k v) = s_deliv s. Proof. reflexivity. Qed.
Lemma deliv_sl s c t : s_deliv (sl s c t) = s_deliv s. Proof. reflexivity. Qed.
Lemma deliv_sqb s m : s_deliv (sqb s m) = s_deliv s. Proof. reflexivity. Qed.
Lemma deliv_sqe s : s_deliv (sqe s) = s_deliv s. Proof. reflexivity. Qed.
Lemma gid_sx s k v : s_gid (sx s k v) = s_gid s. Proof. reflexivity. Qed.
Lemma gid_sl s c t : s_gid (sl s c t) = s_gid s. Proof. reflexivity. Qed.
Lemma gid_sqb s m : s_gid (sqb s m) = s_gid s. Proof. reflexivity. Qed.
Lemma gid_sqe s : s_gid (sqe s) = s_gid s. Proof. reflexivity. Qed.
Global Hint Rewrite deliv_sx deliv_sl deliv_sqb deliv_sqe gid_sx gid_sl gid_sqb gid_sqe : frame.
Lemma go_item_where s x w o' :
  go (item_where s x w) o' = match x with IMsg o => go (set_where s o w) o' | ISent => go s o' end.
Proof. destruct x; reflexivity. Qed.
Global Hint Rewrite deliv_st deliv_sc deliv_so deliv_sp deliv_sg deliv_sd deliv_sq deliv_touch deliv_set_where
  deliv_set_parked deliv_item_where deliv_enqueue gid_st gid_sc gid_so gid_sp gid_sg gid_sd gid_sq gid_touch
  gid_set_where gid_set_parked gid_item_where gid_enqueue go_item_where : frame.

(** an object whose current identifier has been read by a subscriber is with a responder,
    or was answered / given up *)
Definition delivered_place (ob : obj) : Prop :=
  (exists c, o_where ob = PHeld c) \/ (o_where ob = P0 /\ o_sent ob = true).

Definition Deliv (s : state) : Prop :=
  NoDup (s_deliv s)
  /\ (forall i, In i (s_deliv s) -> i <= s_gid s /\ i <> 0)
  /\ (forall o, o_id (go s o) <= s_gid s)
  /\ (forall o o', o <> o' -> o_id (go s o) = o_id (go s o') -> o_id (go s o) = 0)
  /\ (forall o, In (o_id (go s o)) (s_deliv s) -> delivered_place (go s o))
  /\ (forall o, o_id (go s o) = 0 -> o_pool (go s o) = true).

Lemma deliv_init cp : Deliv (init cp).
Proof.
  repeat split; simpl; intros; try constructor; try contradiction; auto.
  - apply N.le_0_l.
Qed.

Lemma deliv_update s s' o0 v :
  Deliv s -> s_deliv s' = s_deliv s -> s_gid s' = s_gid s -> s_objs s' = aset o0 v (s_objs s) ->
  o_id v = o_id (go s o0) ->
  (o_pool (go s o0) = true -> o_pool v = true) ->
  (delivered_place (go s o0) -> delivered_place v) ->
  Deliv s'.
Proof.
  intros (D1 & D2 & D3 & D4 & D5 & D6) Hd Hg Eo Hid Hp Hdp.
  assert (Hgo : forall o, go s' o = if o =? o0 then v else go s o) by (intros o; unfold go; rewrite Eo; apply aget_aset).
  assert (Hids : forall o, o_id (go s' o) = o_id (go s o)).
  { intros o. rewrite Hgo. destruct (o =? o0) eqn:E; [apply N.eqb_eq in E; subst; exact Hid|reflexivity]. }
  unfold Deliv. rewrite Hd, Hg. repeat split; auto.
  - apply D2; auto.
  - apply D2; auto.
  - intros o. rewrite Hids. apply D3.
  - intros o o' Hne. rewrite !Hids. apply D4; auto.
  - intros o Hin. rewrite Hids in Hin. rewrite Hgo.
    destruct (o =? o0) eqn:E; [apply N.eqb_eq in E; subst; apply Hdp|]; apply D5; exact Hin.
  - intros o H0. rewrite Hids in H0. rewrite Hgo.
    destruct (o =? o0) eqn:E; [apply N.eqb_eq in E; subst; apply Hp|]; apply D6; exact H0.
Qed.

Lemma deliv_same s s' :
  Deliv s -> s_deliv s' = s_deliv s -> s_gid s' = s_gid s -> s_objs s' = s_objs s -> Deliv s'.
Proof. unfold Deliv, go. intros D -> -> ->. exact D. Qed.

Lemma undelivered s o pl :
  refs_ok s -> In o (view s pl) -> (forall c, pl <> PHeld c) -> ~ delivered_place (go s o).
Proof.
  intros [_ W] Hi Hh Hd. pose proof (W _ _ Hi) as Hw.
  destruct Hd as [[c Hc]|[Hc _]]; rewrite Hw in Hc; [exact (Hh c Hc)|subst pl; exact Hi].
Qed.

(** a pooled object is given the fresh identifier [i] *)
Lemma deliv_new s s' o v i :
  Deliv s -> s_gid s < i -> s_objs s' = aset o v (s_objs s) -> o_id v = i -> o_pool v = false ->
  s_deliv s' = s_deliv s -> s_gid s' = i -> Deliv s'.
Proof.
  intros (D1 & D2 & D3 & D4 & D5 & D6) Hlt Eo Hid Hp Ed Eg.
  pose proof (go_upd s s' o v Eo) as Hg.
  unfold Deliv. rewrite Ed, Eg.
  split; [exact D1|]. split; [|split; [|split; [|split]]].
  - intros i0 Hin. destruct (D2 _ Hin). split; [lia|assumption].
  - intros o'. rewrite Hg. destruct (o' =? o); [lia|]. pose proof (D3 o'). lia.
  - intros o1 o2 Hne. rewrite !Hg.
    destruct (o1 =? o) eqn:E1, (o2 =? o) eqn:E2; try (apply N.eqb_eq in E1); try (apply N.eqb_eq in E2);
      try congruence; intros Heq.
    + pose proof (D3 o2). lia.
    + pose proof (D3 o1). lia.
    + apply D4 with (o' := o2); auto.
  - intros o'. rewrite Hg. destruct (o' =? o) eqn:E; [|apply D5].
    intros Hin. destruct (D2 _ Hin). lia.
  - intros o'. rewrite Hg. destruct (o' =? o) eqn:E; [lia|apply D6].
Qed.

(** an object in a place that is no responder's goes to the responder [c]: its identifier is read *)
Lemma deliv_recv s s' c o0 v pl :
  refs_ok s -> ids_ok s -> Deliv s -> In o0 (view s pl) -> (forall c', pl <> PHeld c') ->
  s_objs s' = aset o0 v (s_objs s) -> o_id v = o_id (go s o0) -> o_pool v = o_pool (go s o0) -> o_where v = PHeld c ->
  s_deliv s' = o_id (go s o0) :: s_deliv s -> s_gid s' = s_gid s -> Deliv s'.
Proof.
  intros R I (D1 & D2 & D3 & D4 & D5 & D6) Hin Hpl Eo Hid Hp Hw Ed Eg.
  pose proof (proj2 R _ _ Hin) as HA.
  assert (Hnz : o_id (go s o0) <> 0).
  { intros H0. pose proof (D6 _ H0) as Hp0. destruct I as (_ & _ & I3 & _). destruct (I3 _ Hp0) as [Hw0 _].
    rewrite Hw0 in HA. subst pl. exact Hin. }
  assert (Hnew : ~ In (o_id (go s o0)) (s_deliv s)).
  { intros Hd. apply D5 in Hd. revert Hd. apply (undelivered s o0 pl); auto. }
  pose proof (go_upd s s' o0 v Eo) as Hg.
  assert (Hids : forall o, o_id (go s' o) = o_id (go s o)).
  { intros o. rewrite Hg. destruct (o =? o0) eqn:E; [apply N.eqb_eq in E; subst; exact Hid|reflexivity]. }
  unfold Deliv. rewrite Ed, Eg.
  split; [constructor; assumption|]. split; [|split; [|split; [|split]]].
  - intros i0 [<-|Hi]; [split; [apply D3|exact Hnz]|apply D2; exact Hi].
  - intros o. rewrite Hids. apply D3.
  - intros o o' Hne. rewrite !Hids. apply D4; auto.
  - intros o. rewrite Hids, Hg.
    destruct (o =? o0) eqn:E; [left; exists c; exact Hw|].
    apply N.eqb_neq in E. intros [Heq|Hi]; [|apply D5; exact Hi].
    exfalso. assert (Hz : o_id (go s o) = 0) by (apply (D4 o o0 E); congruence). apply Hnz. congruence.
  - intros o. rewrite Hids, Hg.
    destruct (o =? o0) eqn:E; [apply N.eqb_eq in E; subst; rewrite Hp|]; apply D6.
Qed.
