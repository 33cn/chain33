(** C36 — the extension, finding 6 continued: under the guard [qdisc] (no call names a new
    topic once Queue.Close has walked the topics) a closed queue holds no open topic and
    every wait returns. *)
From Coq Require Import List NArith Bool.
From C33 Require Import C36.Model C36.ProofsBase C36.ProofsStep C36.ProofsClose C36.ProofsBlock C36.ProofsExt.
Import ListNotations.
Open Scope N_scope.

Lemma tkeys_sc s c v : tkeys (sc s c v) = tkeys s. Proof. reflexivity. Qed.
Lemma tkeys_so s o v : tkeys (so s o v) = tkeys s. Proof. reflexivity. Qed.
Lemma tkeys_sp s l : tkeys (sp s l) = tkeys s. Proof. reflexivity. Qed.
Lemma tkeys_sg s i : tkeys (sg s i) = tkeys s. Proof. reflexivity. Qed.
Lemma tkeys_sd s i : tkeys (sd s i) = tkeys s. Proof. reflexivity. Qed.
Lemma tkeys_sx s k v : tkeys (sx s k v) = tkeys s. Proof. reflexivity. Qed.
Lemma tkeys_sl s c t : tkeys (sl s c t) = tkeys s. Proof. reflexivity. Qed.
Lemma tkeys_sqe s : tkeys (sqe s) = tkeys s. Proof. reflexivity. Qed.
Lemma tkeys_set_where s o w : tkeys (set_where s o w) = tkeys s. Proof. reflexivity. Qed.
Lemma tkeys_set_parked s o b w : tkeys (set_parked s o b w) = tkeys s. Proof. reflexivity. Qed.
Lemma tkeys_item_where s x w : tkeys (item_where s x w) = tkeys s. Proof. destruct x; reflexivity. Qed.
Lemma tkeys_enqueue s t o hi :
  tkeys (enqueue s t o hi) = tkeys (st s t (set_chan (gt s t) hi (fpush (IMsg o) (chan_of (gt s t) hi)))).
Proof. reflexivity. Qed.
Lemma tkeys_close_all s : map fst (close_all s) = tkeys s.
Proof. unfold close_all, tkeys. rewrite map_map. reflexivity. Qed.
Lemma tkeys_sq s : tkeys (sq s (close_all s)) = tkeys s. Proof. apply tkeys_close_all. Qed.
Lemma tkeys_sqb s : tkeys (sqb s (close_all s)) = tkeys s. Proof. apply tkeys_close_all. Qed.

Lemma gt_unknown s t : ~ In t (tkeys s) -> gt s t = topic0.
Proof.
  unfold gt, tkeys. induction (s_topics s) as [|[k w] m IH]; simpl; [reflexivity|].
  intros Hn. destruct (t =? k) eqn:E; [apply N.eqb_eq in E; subst; tauto|]. apply IH. tauto.
Qed.
Lemma fpop_known s t hi x f' : fpop (chan_of (gt s t) hi) = Some (x, f') -> In t (tkeys s).
Proof.
  intros H. destruct (in_dec N.eq_dec t (tkeys s)) as [Hin|Hn]; [exact Hin|].
  rewrite (gt_unknown s t Hn) in H. destruct hi; discriminate H.
Qed.

Lemma topic_known_in s t : topic_known s t = true -> In t (tkeys s).
Proof. unfold topic_known. apply mem_key_in. Qed.

(* the topic an API call names; [q.chanSub] creates it when it is missing *)
Definition names (s : state) (e : event) (t : N) : Prop :=
  match e with
  | ESub _ t' | ESub2 _ _ t' => t = t'
  | ESend _ o _ _ _ | EBlock _ _ o _ _ | EWait _ o _ _ => t = o_topic (go s o)
  | EUnblock p _ => exists pd, pend_get p (s_pend s) = Some pd /\ t = p_topic pd
  | _ => False
  end.

Lemma tkeys_step s e s' t :
  step s e = Some s' -> In t (tkeys s') -> In t (tkeys s) \/ names s e t \/ t_closed (gt s' t) = true.
Proof.
  intros H Hin. unfold tkeys in *.
  (* the table of [s'], computed, has the keys of [s] and at most one more: the topic a call names,
     the topic a pump took an item from, or the topic Client.Close closes *)
  destruct (step_cases _ _ _ H); items; simpl in Hin; rewrite ?tkeys_close_all in Hin; try (left; exact Hin);
    repeat (apply aset_keys_inv in Hin as [->|Hin]); try (left; exact Hin); subst;
    try (right; left; simpl; eauto; fail); try (left; eapply fpop_known; eassumption).
  right; right. rewrite gt_sc, gt_st, N.eqb_refl. apply close_topic_closed.
Qed.

Lemma walked_closed_step s e s' :
  walked_closed s -> pend_inv s -> qdisc s e = true -> step s e = Some s' -> walked_closed s'.
Proof.
  intros J P G H Hq' t Hin. unfold qdisc in G.
  destruct (s_qclosing s) eqn:Q.
  - specialize (J Q).
    destruct (tkeys_step _ _ _ t H Hin) as [Ho|[Hn|Hc]]; [| |exact Hc]; apply (tclosed_mono _ _ _ _ H), J; auto.
    (* the guard: the call names a topic that exists; a parked send's topic exists *)
    destruct e; simpl in Hn; try contradiction; subst; try apply topic_known_in, G.
    destruct Hn as (pd & Hg & ->). apply (P p pd), pend_get_in, Hg.
  - (* the topics are walked by this step *)
    destruct (qflags_step _ _ _ H) as [[_ Hb]|[(_ & _ & Ht & _)|(_ & Hb & _)]]; try congruence.
    unfold tkeys in Hin. unfold gt. rewrite Ht in *. rewrite tkeys_close_all in Hin. apply close_all_closes, Hin.
Qed.

Lemma qrun_walked_closed cp tr s : grun qdisc (init cp) tr = Some s -> walked_closed s.
Proof.
  intros Hr.
  assert (Hb : walked_closed s /\ pend_inv s).
  { eapply (grun_invariant qdisc (fun s => walked_closed s /\ pend_inv s)); [| |exact Hr].
    - intros s0 e s1 [J P] G H. split; [eapply walked_closed_step; eauto|eapply pend_inv_step; eauto].
    - split; [intros Hq; discriminate Hq|apply pend_inv_init]. }
  exact (proj1 Hb).
Qed.

(** a closed queue holds no open topic -- when no call names a new topic after the walk *)
Lemma closed_queue_no_open_topic_proof :
  forall cp tr s, grun qdisc (init cp) tr = Some s -> s_qclosing s = true -> all_topics_closed s.
Proof. intros cp tr s Hr Hq. exact (qrun_walked_closed cp tr s Hr Hq). Qed.

Lemma wait_after_queue_close_proof :
  forall cp tr s, grun qdisc (init cp) tr = Some s -> s_qclosed s = true ->
    forall c o timed, topic_known s (o_topic (go s o)) = true ->
      exists r s', step s (EWait c o timed r) = Some s'.
Proof.
  intros cp tr s Hr Hq c o timed Hk.
  pose proof (grun_run _ _ _ _ Hr) as Hrun.
  pose proof (reachable_qflags cp s (ex_intro _ tr Hrun) Hq) as Hqq.
  exists WChan. apply wait_after_topic_close. apply (qrun_walked_closed cp tr s Hr Hqq). apply topic_known_in, Hk.
Qed.

(** in any run: a topic that exists when Queue.Close walks the topics is closed from then
    on, and a wait on a message of such a topic returns, whatever happens later *)
Lemma known_topic_wait_returns :
  forall cp tr s0 s1, run (init cp) tr = Some s0 -> s_qclosing s0 = false ->
    (step s0 ECloseQueue = Some s1 \/ step s0 ECloseQBegin = Some s1) ->
    forall tr2 s2, run s1 tr2 = Some s2 ->
    forall t, topic_known s0 t = true ->
      t_closed (gt s2 t) = true
      /\ forall c o timed, o_topic (go s2 o) = t -> exists r s3, step s2 (EWait c o timed r) = Some s3.
Proof.
  intros cp tr s0 s1 Hr0 Hq Hs tr2 s2 Hr2 t Hk. apply topic_known_in in Hk.
  assert (Hc : t_closed (gt s2 t) = true).
  { eapply tclosed_mono_run; [exact Hr2|].
    destruct Hs as [Hs|Hs]; [|exact (close_qbegin_closes_all _ _ _ Hs Hk)].
    apply (close_queue_closes_all _ _ _ Hs); [|exact Hk].
    destruct (s_qclosed s0) eqn:E; [|reflexivity].
    pose proof (reachable_qflags cp s0 (ex_intro _ tr Hr0) E). congruence. }
  split; [exact Hc|]. intros c o timed <-. exists WChan. apply wait_after_topic_close, Hc.
Qed.

(* non-vacuity of the guard: calls on existing topics go on after the walk and after the store *)
Definition guarded_close_trace : list event :=
  [ ESub 0 0; ENew 0 0 1; ESend 1 0 true MForever SOk; ENew 1 0 2; ECloseQBegin;
    ESend 1 1 true MForever SErrChan; ECloseQEnd; EWait 1 0 false WChan; EPumpTake 0 true; EPumpPut 0 ].
Lemma guarded_close_runs :
  exists s, grun qdisc (init (mkCaps 2 2 5)) guarded_close_trace = Some s
            /\ s_qclosed s = true /\ tkeys s = [0] /\ t_closed (gt s 0) = true.
Proof. eexists. split; [vm_compute; reflexivity|]. repeat apply conj; vm_compute; reflexivity. Qed.
Lemma race_trace_not_guarded : grun qdisc (init (mkCaps 2 2 5)) race_trace = None.
Proof. vm_compute. reflexivity. Qed.
