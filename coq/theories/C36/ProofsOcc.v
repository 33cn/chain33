(** C36 — where message objects occur in a state; fifo facts; the generic "one reference
    moves" lemma used by the invariant proofs. *)
From Coq Require Import List NArith Bool.
From C33 Require Import C36.Model C36.ProofsBase.
Import ListNotations.
Open Scope N_scope.

Lemma fpush_items x f : f_items (fpush x f) = x :: f_items f.
Proof. reflexivity. Qed.

Lemma fpop_items f x f' : fpop f = Some (x, f') -> f_items f = f_items f' ++ [x].
Proof.
  unfold fpop. destruct (rev (f_items f)) as [|y r] eqn:E; [discriminate|].
  intros [= <- <-]. simpl. rewrite <- (rev_involutive (f_items f)), E. reflexivity.
Qed.

Lemma in_last {A} (l : list A) x : In x (l ++ [x]).
Proof. apply in_or_app; right; left; reflexivity. Qed.

Lemma objs_of_app l1 l2 : objs_of (l1 ++ l2) = objs_of l1 ++ objs_of l2.
Proof. induction l1 as [|[o|] l1 IH]; simpl; congruence. Qed.

Lemma in_objs_of o l : In o (objs_of l) <-> In (IMsg o) l.
Proof.
  induction l as [|[o'|] l IH]; simpl; [tauto| |].
  - rewrite IH. split; intros [H|H]; auto; left; congruence.
  - rewrite IH. split; [auto|intros [H|H]; [discriminate|auto]].
Qed.

Lemma place_eq_dec_aux (A B : place) : {A = B} + {A <> B}.
Proof. decide equality; try apply N.eq_dec; apply Bool.bool_dec. Qed.

(** views: the message objects referenced from each part of the state *)
Definition vchan (s : state) (t : N) (hi : bool) : list N := objs_of (f_items (chan_of (gt s t) hi)).
Definition vrecv (s : state) (c : N) : list N := objs_of (f_items (c_recv (gc s c))).
Definition vhold (s : state) (c : N) : list N :=
  match c_hold (gc s c) with Some (IMsg o) => [o] | _ => [] end.
Definition vheld (s : state) (c : N) : list N := map fst (c_held (gc s c)).
Definition vxhold (s : state) (k : N) : list N :=
  match x_hold (gx s k) with Some (IMsg o) => [o] | _ => [] end.
Definition vpend (s : state) : list (N * N) := map (fun x => (fst x, p_obj (snd x))) (s_pend s).

Definition occurs (s : state) (o : N) (pl : place) : Prop :=
  match pl with
  | P0 => False
  | PChan t hi => In o (vchan s t hi)
  | PHold c => In o (vhold s c)
  | PRecv c => In o (vrecv s c)
  | PHeld c => In o (vheld s c)
  | PPend p => In (p, o) (vpend s)
  | PXHold k => In o (vxhold s k)
  end.

(** each object is referenced from at most one place, and the ghost field says which *)
Definition where_ok (s : state) : Prop := forall o pl, occurs s o pl -> o_where (go s o) = pl.

Definition nodup_ok (s : state) : Prop :=
  (forall t hi, NoDup (vchan s t hi))
  /\ (forall c, NoDup (vrecv s c))
  /\ (forall c, NoDup (vheld s c))
  /\ NoDup (map fst (vpend s)).

Definition ids_ok (s : state) : Prop :=
  (forall c o i, In (o, i) (c_held (gc s c)) -> i = o_id (go s o))
  /\ (forall o i, o_slot (go s o) = Some (RFor i) -> i = o_id (go s o))
  /\ (forall o, o_pool (go s o) = true -> o_where (go s o) = P0 /\ o_slot (go s o) = None)
  /\ (forall o, o_sent (go s o) = false -> o_where (go s o) = P0).

(** the objects referenced from one place, uniformly in the place.  [where_ok] and
    [nodup_ok] together say: no list [view s pl] repeats an object, and an object in it has
    [o_where = pl] (and the numbers of the parked sends are distinct). *)
Definition view (s : state) (pl : place) : list N :=
  match pl with
  | P0 => []
  | PChan t hi => vchan s t hi
  | PHold c => vhold s c
  | PRecv c => vrecv s c
  | PHeld c => vheld s c
  | PPend p => map snd (filter (fun x => fst x =? p) (vpend s))
  | PXHold k => vxhold s k
  end.

Lemma occurs_view s o pl : occurs s o pl <-> In o (view s pl).
Proof.
  destruct pl; simpl; try tauto.
  rewrite in_map_iff. split.
  - intros H. exists (p, o). rewrite filter_In. simpl. rewrite N.eqb_refl. auto.
  - intros ([q o'] & <- & H). apply filter_In in H as [H E]. apply N.eqb_eq in E. simpl in *. subst. exact H.
Qed.

Lemma filter_key_none {A} p (l : list (N * A)) : ~ In p (map fst l) -> filter (fun x => fst x =? p) l = [].
Proof.
  induction l as [|[q a] l IH]; simpl; [reflexivity|]. intros H.
  destruct (q =? p) eqn:E; [apply N.eqb_eq in E; tauto|apply IH; tauto].
Qed.

Lemma nodup_key_view {A} p (l : list (N * A)) :
  NoDup (map fst l) -> NoDup (map snd (filter (fun x => fst x =? p) l)).
Proof.
  induction l as [|[q a] l IH]; simpl; intros H; [constructor|]. inversion H as [|? ? Hn Hd]; subst.
  destruct (q =? p) eqn:E; [|auto]. apply N.eqb_eq in E; subst q.
  rewrite (filter_key_none p l Hn). repeat constructor. intros [].
Qed.

Definition refs_ok (s : state) : Prop :=
  (forall pl, NoDup (view s pl)) /\ (forall o pl, In o (view s pl) -> o_where (go s o) = pl).

Lemma refs_ok_iff s :
  NoDup (map fst (vpend s)) -> (where_ok s /\ nodup_ok s <-> refs_ok s).
Proof.
  intros K. split.
  - intros [W (N1 & N2 & N3 & _)]. split.
    + intros pl. destruct pl; simpl; auto using nodup_key_view; [constructor| |];
        [unfold vhold; destruct (c_hold (gc s c)) as [[o|]|]|unfold vxhold; destruct (x_hold (gx s k)) as [[o|]|]];
        repeat constructor; intros [].
    + intros o pl H. apply W, occurs_view, H.
  - intros [N W]. split; [intros o pl H; apply W, occurs_view, H|].
    repeat split; auto; intros; [apply (N (PChan t hi))|apply (N (PRecv c))|apply (N (PHeld c))].
Qed.

Lemma refs_same s s' :
  refs_ok s -> (forall pl, view s' pl = view s pl) -> (forall o, o_where (go s' o) = o_where (go s o)) -> refs_ok s'.
Proof. intros [N W] V G. split; intros; rewrite ?G, V in *; auto. Qed.

Definition without (o0 : N) (l l' : list N) : Prop := exists l1 l2, l = l1 ++ o0 :: l2 /\ l' = l1 ++ l2.

Lemma without_last (l : list N) o : without o (l ++ [o]) l.
Proof. exists l, []. rewrite app_nil_r. auto. Qed.
Lemma without_head (l : list N) o : without o (o :: l) l.
Proof. exists [], l. auto. Qed.

(** the one reference to [o0] moves from place [A] to place [B] ([P0]: no reference), the
    record of [o0] becomes [v]; every other list stays *)
Lemma refs_move s s' o0 v A B :
  refs_ok s -> A <> B -> o_where (go s o0) = A ->
  s_objs s' = aset o0 v (s_objs s) -> o_where v = B ->
  (forall pl, pl <> A -> pl <> B -> view s' pl = view s pl) ->
  A = P0 \/ without o0 (view s A) (view s' A) ->
  B = P0 \/ view s' B = o0 :: view s B ->
  refs_ok s'.
Proof.
  intros [N W] Hne HA Eobj Ev V VA VB.
  assert (G : forall o, o_where (go s' o) = if o =? o0 then B else o_where (go s o)).
  { intros o. unfold go. rewrite Eobj, aget_aset. destruct (o =? o0); auto. }
  assert (P0v : forall x, view x P0 = []) by reflexivity.
  assert (HnB : ~ In o0 (view s B)) by (intros Hi; apply W in Hi; congruence).
  assert (Key : forall pl, (pl = A /\ (A = P0 \/ without o0 (view s A) (view s' A)))
                           \/ (pl = B /\ (B = P0 \/ view s' B = o0 :: view s B))
                           \/ (pl <> A /\ view s' pl = view s pl)).
  { intros pl. destruct (place_eq_dec_aux pl A) as [->|n1]; [auto|].
    destruct (place_eq_dec_aux pl B) as [->|n2]; auto. }
  split.
  - intros pl. destruct (Key pl) as [[-> [->|(l1 & l2 & E1 & E2)]]|[[-> [->|E]]|[_ E]]].
    + rewrite P0v; constructor.
    + rewrite E2. specialize (N A). rewrite E1 in N. eapply NoDup_remove_1; eauto.
    + rewrite P0v; constructor.
    + rewrite E. constructor; auto.
    + rewrite E; auto.
  - intros o pl Hin. rewrite G.
    destruct (Key pl) as [[-> [->|(l1 & l2 & E1 & E2)]]|[[-> [->|E]]|[n E]]].
    + rewrite P0v in Hin; contradiction.
    + specialize (N A). rewrite E1 in N. apply NoDup_remove_2 in N. rewrite E2 in Hin.
      destruct (o =? o0) eqn:Eo; [apply N.eqb_eq in Eo; subst; contradiction|].
      apply W. rewrite E1. apply in_app_iff in Hin. apply in_app_iff. simpl. tauto.
    + rewrite P0v in Hin; contradiction.
    + rewrite E in Hin. destruct Hin as [->|Hin]; [rewrite N.eqb_refl; reflexivity|].
      destruct (o =? o0) eqn:Eo; [apply N.eqb_eq in Eo; subst; contradiction|]. apply W, Hin.
    + rewrite E in Hin. apply W in Hin.
      destruct (o =? o0) eqn:Eo; [apply N.eqb_eq in Eo; subst; congruence|exact Hin].
Qed.
