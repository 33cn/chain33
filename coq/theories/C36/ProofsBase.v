(** C36 — basic lemmas: association maps, frame rules for the state updates, the walk of
    Queue.Close over the topics, runs. *)
From Coq Require Import List NArith Bool.
From C33 Require Import C36.Model.
Import ListNotations.
Open Scope N_scope.

Lemma aget_aset {A} (d : A) k k' v m :
  aget d k' (aset k v m) = if k' =? k then v else aget d k' m.
Proof.
  induction m as [|[k0 v0] m IH]; simpl.
  - destruct (k' =? k); reflexivity.
  - destruct (k =? k0) eqn:E; simpl.
    + apply N.eqb_eq in E; subst k0. destruct (k' =? k); reflexivity.
    + destruct (k' =? k0) eqn:E2.
      * apply N.eqb_eq in E2; subst k0.
        destruct (k' =? k) eqn:E3; [apply N.eqb_eq in E3; subst; rewrite N.eqb_refl in E; discriminate|reflexivity].
      * apply IH.
Qed.

Lemma aset_keys {A} k (v : A) m k' : In k' (map fst m) -> In k' (map fst (aset k v m)).
Proof.
  induction m as [|[k0 v0] m IH]; simpl; [tauto|].
  destruct (k =? k0) eqn:E; simpl; [apply N.eqb_eq in E; subst; tauto|intuition].
Qed.
Lemma aset_keys_inv {A} k (v : A) m k' : In k' (map fst (aset k v m)) -> k' = k \/ In k' (map fst m).
Proof.
  induction m as [|[k0 v0] m IH]; simpl; [intros [H|[]]; auto|].
  destruct (k =? k0) eqn:E; simpl.
  - apply N.eqb_eq in E; subst. tauto.
  - intros [H|H]; [tauto|]. destruct (IH H); tauto.
Qed.
Lemma aset_key_in {A} k (v : A) m : In k (map fst (aset k v m)).
Proof.
  induction m as [|[k0 v0] m IH]; simpl; [auto|].
  destruct (k =? k0) eqn:E; simpl; auto.
Qed.

Lemma gt_st s t v t' : gt (st s t v) t' = if t' =? t then v else gt s t'.
Proof. unfold gt, st; simpl. apply aget_aset. Qed.
Lemma gc_st s t v c : gc (st s t v) c = gc s c. Proof. reflexivity. Qed.
Lemma go_st s t v o : go (st s t v) o = go s o. Proof. reflexivity. Qed.
Lemma gt_sc s c v t : gt (sc s c v) t = gt s t. Proof. reflexivity. Qed.
Lemma gc_sc s c v c' : gc (sc s c v) c' = if c' =? c then v else gc s c'.
Proof. unfold gc, sc; simpl. apply aget_aset. Qed.
Lemma go_sc s c v o : go (sc s c v) o = go s o. Proof. reflexivity. Qed.
Lemma gt_so s o v t : gt (so s o v) t = gt s t. Proof. reflexivity. Qed.
Lemma gc_so s o v c : gc (so s o v) c = gc s c. Proof. reflexivity. Qed.
Lemma go_so s o v o' : go (so s o v) o' = if o' =? o then v else go s o'.
Proof. unfold go, so; simpl. apply aget_aset. Qed.
Lemma gt_sp s l t : gt (sp s l) t = gt s t. Proof. reflexivity. Qed.
Lemma gc_sp s l c : gc (sp s l) c = gc s c. Proof. reflexivity. Qed.
Lemma go_sp s l o : go (sp s l) o = go s o. Proof. reflexivity. Qed.

Lemma gt_touch s t t' : gt (touch s t) t' = gt s t'.
Proof. unfold touch. rewrite gt_st. destruct (t' =? t) eqn:E; [apply N.eqb_eq in E; subst|]; reflexivity. Qed.
Lemma gc_touch s t c : gc (touch s t) c = gc s c. Proof. reflexivity. Qed.
Lemma go_touch s t o : go (touch s t) o = go s o. Proof. reflexivity. Qed.

Lemma gt_set_where s o w t : gt (set_where s o w) t = gt s t. Proof. reflexivity. Qed.
Lemma gc_set_where s o w c : gc (set_where s o w) c = gc s c. Proof. reflexivity. Qed.
Lemma go_set_where s o w o' :
  go (set_where s o w) o' =
  if o' =? o then mkO (o_id (go s o)) (o_topic (go s o)) (o_slot (go s o)) (o_pool (go s o)) (o_sent (go s o)) w
  else go s o'.
Proof. unfold set_where. apply go_so. Qed.
Lemma gt_set_parked s o b w t : gt (set_parked s o b w) t = gt s t. Proof. reflexivity. Qed.
Lemma gc_set_parked s o b w c : gc (set_parked s o b w) c = gc s c. Proof. reflexivity. Qed.
Lemma go_set_parked s o b w o' :
  go (set_parked s o b w) o' =
  if o' =? o then mkO (o_id (go s o)) (o_topic (go s o)) (o_slot (go s o)) (o_pool (go s o)) b w
  else go s o'.
Proof. unfold set_parked. apply go_so. Qed.
Lemma qclosed_set_parked s o b w : s_qclosed (set_parked s o b w) = s_qclosed s. Proof. reflexivity. Qed.
Lemma pend_set_parked s o b w : s_pend (set_parked s o b w) = s_pend s. Proof. reflexivity. Qed.
Lemma caps_set_parked s o b w : s_caps (set_parked s o b w) = s_caps s. Proof. reflexivity. Qed.
Lemma gt_item_where s x w t : gt (item_where s x w) t = gt s t. Proof. destruct x; reflexivity. Qed.
Lemma gc_item_where s x w c : gc (item_where s x w) c = gc s c. Proof. destruct x; reflexivity. Qed.

Lemma gt_sg s i t : gt (sg s i) t = gt s t. Proof. reflexivity. Qed.
Lemma gc_sg s i c : gc (sg s i) c = gc s c. Proof. reflexivity. Qed.
Lemma go_sg s i o : go (sg s i) o = go s o. Proof. reflexivity. Qed.
Lemma gt_sd s i t : gt (sd s i) t = gt s t. Proof. reflexivity. Qed.
Lemma gc_sd s i c : gc (sd s i) c = gc s c. Proof. reflexivity. Qed.
Lemma go_sd s i o : go (sd s i) o = go s o. Proof. reflexivity. Qed.
Lemma gt_sq s m t : gt (sq s m) t = aget topic0 t m. Proof. reflexivity. Qed.
Lemma gc_sq s m c : gc (sq s m) c = gc s c. Proof. reflexivity. Qed.
Lemma go_sq s m o : go (sq s m) o = go s o. Proof. reflexivity. Qed.
Lemma qclosed_sg s i : s_qclosed (sg s i) = s_qclosed s. Proof. reflexivity. Qed.
Lemma qclosed_sd s i : s_qclosed (sd s i) = s_qclosed s. Proof. reflexivity. Qed.
Lemma qclosed_sq s m : s_qclosed (sq s m) = true. Proof. reflexivity. Qed.
Lemma pend_sg s i : s_pend (sg s i) = s_pend s. Proof. reflexivity. Qed.
Lemma pend_sd s i : s_pend (sd s i) = s_pend s. Proof. reflexivity. Qed.
Lemma pend_sq s m : s_pend (sq s m) = s_pend s. Proof. reflexivity. Qed.
Lemma caps_sg s i : s_caps (sg s i) = s_caps s. Proof. reflexivity. Qed.
Lemma caps_sd s i : s_caps (sd s i) = s_caps s. Proof. reflexivity. Qed.
Lemma caps_sq s m : s_caps (sq s m) = s_caps s. Proof. reflexivity. Qed.

Lemma qclosed_st s t v : s_qclosed (st s t v) = s_qclosed s. Proof. reflexivity. Qed.
Lemma qclosed_sc s c v : s_qclosed (sc s c v) = s_qclosed s. Proof. reflexivity. Qed.
Lemma qclosed_so s o v : s_qclosed (so s o v) = s_qclosed s. Proof. reflexivity. Qed.
Lemma qclosed_sp s l : s_qclosed (sp s l) = s_qclosed s. Proof. reflexivity. Qed.
Lemma qclosed_touch s t : s_qclosed (touch s t) = s_qclosed s. Proof. reflexivity. Qed.
Lemma qclosed_set_where s o w : s_qclosed (set_where s o w) = s_qclosed s. Proof. reflexivity. Qed.
Lemma qclosed_item_where s x w : s_qclosed (item_where s x w) = s_qclosed s. Proof. destruct x; reflexivity. Qed.
Lemma pend_st s t v : s_pend (st s t v) = s_pend s. Proof. reflexivity. Qed.
Lemma pend_sc s c v : s_pend (sc s c v) = s_pend s. Proof. reflexivity. Qed.
Lemma pend_so s o v : s_pend (so s o v) = s_pend s. Proof. reflexivity. Qed.
Lemma pend_sp s l : s_pend (sp s l) = l. Proof. reflexivity. Qed.
Lemma pend_touch s t : s_pend (touch s t) = s_pend s. Proof. reflexivity. Qed.
Lemma pend_set_where s o w : s_pend (set_where s o w) = s_pend s. Proof. reflexivity. Qed.
Lemma pend_item_where s x w : s_pend (item_where s x w) = s_pend s. Proof. destruct x; reflexivity. Qed.
Lemma caps_st s t v : s_caps (st s t v) = s_caps s. Proof. reflexivity. Qed.
Lemma caps_sc s c v : s_caps (sc s c v) = s_caps s. Proof. reflexivity. Qed.
Lemma caps_so s o v : s_caps (so s o v) = s_caps s. Proof. reflexivity. Qed.
Lemma caps_sp s l : s_caps (sp s l) = s_caps s. Proof. reflexivity. Qed.
Lemma caps_touch s t : s_caps (touch s t) = s_caps s. Proof. reflexivity. Qed.
Lemma caps_set_where s o w : s_caps (set_where s o w) = s_caps s. Proof. reflexivity. Qed.
Lemma caps_item_where s x w : s_caps (item_where s x w) = s_caps s. Proof. destruct x; reflexivity. Qed.

Lemma go_upd s s' o v : s_objs s' = aset o v (s_objs s) -> forall o', go s' o' = if o' =? o then v else go s o'.
Proof. unfold go. intros -> o'. apply aget_aset. Qed.

Lemma gx_st s t v k : gx (st s t v) k = gx s k. Proof. reflexivity. Qed.
Lemma gx_sc s c v k : gx (sc s c v) k = gx s k. Proof. reflexivity. Qed.
Lemma gx_so s o v k : gx (so s o v) k = gx s k. Proof. reflexivity. Qed.
Lemma gx_sp s l k : gx (sp s l) k = gx s k. Proof. reflexivity. Qed.
Lemma gx_sg s i k : gx (sg s i) k = gx s k. Proof. reflexivity. Qed.
Lemma gx_sd s i k : gx (sd s i) k = gx s k. Proof. reflexivity. Qed.
Lemma gx_sq s m k : gx (sq s m) k = gx s k. Proof. reflexivity. Qed.
Lemma gx_sqb s m k : gx (sqb s m) k = gx s k. Proof. reflexivity. Qed.
Lemma gx_sqe s k : gx (sqe s) k = gx s k. Proof. reflexivity. Qed.
Lemma gx_sl s c t k : gx (sl s c t) k = gx s k. Proof. reflexivity. Qed.
Lemma gx_touch s t k : gx (touch s t) k = gx s k. Proof. reflexivity. Qed.
Lemma gx_set_where s o w k : gx (set_where s o w) k = gx s k. Proof. reflexivity. Qed.
Lemma gx_set_parked s o b w k : gx (set_parked s o b w) k = gx s k. Proof. reflexivity. Qed.
Lemma gx_item_where s x w k : gx (item_where s x w) k = gx s k. Proof. destruct x; reflexivity. Qed.
Lemma gx_sx s k v k' : gx (sx s k v) k' = if k' =? k then v else gx s k'.
Proof. unfold gx, sx; simpl. apply aget_aset. Qed.

Lemma gt_sx s k v t : gt (sx s k v) t = gt s t. Proof. reflexivity. Qed.
Lemma gc_sx s k v c : gc (sx s k v) c = gc s c. Proof. reflexivity. Qed.
Lemma go_sx s k v o : go (sx s k v) o = go s o. Proof. reflexivity. Qed.
Lemma gt_sl s c x t : gt (sl s c x) t = gt s t. Proof. reflexivity. Qed.
Lemma gc_sl s c x c' : gc (sl s c x) c' = gc s c'. Proof. reflexivity. Qed.
Lemma go_sl s c x o : go (sl s c x) o = go s o. Proof. reflexivity. Qed.
Lemma gt_sqb s m t : gt (sqb s m) t = aget topic0 t m. Proof. reflexivity. Qed.
Lemma gc_sqb s m c : gc (sqb s m) c = gc s c. Proof. reflexivity. Qed.
Lemma go_sqb s m o : go (sqb s m) o = go s o. Proof. reflexivity. Qed.
Lemma gt_sqe s t : gt (sqe s) t = gt s t. Proof. reflexivity. Qed.
Lemma gc_sqe s c : gc (sqe s) c = gc s c. Proof. reflexivity. Qed.
Lemma go_sqe s o : go (sqe s) o = go s o. Proof. reflexivity. Qed.

Lemma qclosed_sx s k v : s_qclosed (sx s k v) = s_qclosed s. Proof. reflexivity. Qed.
Lemma qclosed_sl s c t : s_qclosed (sl s c t) = s_qclosed s. Proof. reflexivity. Qed.
Lemma qclosed_sqb s m : s_qclosed (sqb s m) = s_qclosed s. Proof. reflexivity. Qed.
Lemma qclosed_sqe s : s_qclosed (sqe s) = true. Proof. reflexivity. Qed.
Lemma pend_sx s k v : s_pend (sx s k v) = s_pend s. Proof. reflexivity. Qed.
Lemma pend_sl s c t : s_pend (sl s c t) = s_pend s. Proof. reflexivity. Qed.
Lemma pend_sqb s m : s_pend (sqb s m) = s_pend s. Proof. reflexivity. Qed.
Lemma pend_sqe s : s_pend (sqe s) = s_pend s. Proof. reflexivity. Qed.
Lemma caps_sx s k v : s_caps (sx s k v) = s_caps s. Proof. reflexivity. Qed.
Lemma caps_sl s c t : s_caps (sl s c t) = s_caps s. Proof. reflexivity. Qed.
Lemma caps_sqb s m : s_caps (sqb s m) = s_caps s. Proof. reflexivity. Qed.
Lemma caps_sqe s : s_caps (sqe s) = s_caps s. Proof. reflexivity. Qed.

Lemma qclosing_st s t v : s_qclosing (st s t v) = s_qclosing s. Proof. reflexivity. Qed.
Lemma qclosing_sc s c v : s_qclosing (sc s c v) = s_qclosing s. Proof. reflexivity. Qed.
Lemma qclosing_so s o v : s_qclosing (so s o v) = s_qclosing s. Proof. reflexivity. Qed.
Lemma qclosing_sp s l : s_qclosing (sp s l) = s_qclosing s. Proof. reflexivity. Qed.
Lemma qclosing_sg s i : s_qclosing (sg s i) = s_qclosing s. Proof. reflexivity. Qed.
Lemma qclosing_sd s i : s_qclosing (sd s i) = s_qclosing s. Proof. reflexivity. Qed.
Lemma qclosing_sx s k v : s_qclosing (sx s k v) = s_qclosing s. Proof. reflexivity. Qed.
Lemma qclosing_sl s c t : s_qclosing (sl s c t) = s_qclosing s. Proof. reflexivity. Qed.
Lemma qclosing_sq s m : s_qclosing (sq s m) = true. Proof. reflexivity. Qed.
Lemma qclosing_sqb s m : s_qclosing (sqb s m) = true. Proof. reflexivity. Qed.
Lemma qclosing_sqe s : s_qclosing (sqe s) = s_qclosing s. Proof. reflexivity. Qed.
Lemma qclosing_touch s t : s_qclosing (touch s t) = s_qclosing s. Proof. reflexivity. Qed.
Lemma qclosing_set_where s o w : s_qclosing (set_where s o w) = s_qclosing s. Proof. reflexivity. Qed.
Lemma qclosing_set_parked s o b w : s_qclosing (set_parked s o b w) = s_qclosing s. Proof. reflexivity. Qed.
Lemma qclosing_item_where s x w : s_qclosing (item_where s x w) = s_qclosing s. Proof. destruct x; reflexivity. Qed.

Lemma enqueue_gt s t o hi t' :
  gt (enqueue s t o hi) t' =
  if t' =? t then set_chan (gt s t) hi (fpush (IMsg o) (chan_of (gt s t) hi)) else gt s t'.
Proof. unfold enqueue. rewrite gt_so, gt_st. reflexivity. Qed.
Lemma enqueue_gc s t o hi c : gc (enqueue s t o hi) c = gc s c.
Proof. reflexivity. Qed.
Lemma enqueue_qclosed s t o hi : s_qclosed (enqueue s t o hi) = s_qclosed s.
Proof. reflexivity. Qed.
Lemma enqueue_pend s t o hi : s_pend (enqueue s t o hi) = s_pend s.
Proof. reflexivity. Qed.
Lemma enqueue_go s t o hi o' :
  go (enqueue s t o hi) o' =
  if o' =? o then mkO (o_id (go s o)) (o_topic (go s o)) (o_slot (go s o)) (o_pool (go s o)) true (PChan t hi)
  else go s o'.
Proof. unfold enqueue. rewrite go_so, go_st. reflexivity. Qed.
Lemma enqueue_gx s t o hi k : gx (enqueue s t o hi) k = gx s k.
Proof. reflexivity. Qed.
Lemma enqueue_qclosing s t o hi : s_qclosing (enqueue s t o hi) = s_qclosing s.
Proof. reflexivity. Qed.

Lemma set_chan_closed tp hi f : t_closed (set_chan tp hi f) = t_closed tp.
Proof. destruct hi; reflexivity. Qed.
Lemma close_topic_closed cp tp : t_closed (close_topic_rec cp tp) = true.
Proof. unfold close_topic_rec. destruct (t_closed tp) eqn:E; [exact E|reflexivity]. Qed.

Lemma mem_key_in x l : mem_key x l = true <-> In x l.
Proof.
  induction l as [|y l IH]; simpl; [split; [discriminate|tauto]|].
  rewrite orb_true_iff, IH, N.eqb_eq. split; intros [H|H]; auto.
Qed.

Lemma close_all_gt s t :
  aget topic0 t (close_all s) = if topic_known s t then close_topic_rec (s_caps s) (gt s t) else gt s t.
Proof.
  unfold close_all, topic_known, gt. induction (s_topics s) as [|[k v] m IH]; simpl; [reflexivity|].
  destruct (t =? k); [reflexivity|exact IH].
Qed.

Lemma run_app s tr1 tr2 :
  run s (tr1 ++ tr2) = match run s tr1 with Some s1 => run s1 tr2 | None => None end.
Proof.
  revert s; induction tr1 as [|e tr1 IH]; intros s; simpl; [reflexivity|].
  destruct (step s e); [apply IH|reflexivity].
Qed.

Lemma run_invariant (P : state -> Prop) :
  (forall s e s', P s -> step s e = Some s' -> P s') ->
  forall tr s s', P s -> run s tr = Some s' -> P s'.
Proof.
  intros Hstep tr; induction tr as [|e tr IH]; intros s s' HP Hr; simpl in Hr.
  - injection Hr as <-; exact HP.
  - destruct (step s e) as [s1|] eqn:E; [|discriminate]. eapply IH; [|exact Hr]. eapply Hstep; eauto.
Qed.
