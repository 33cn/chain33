(** C36 — the extension, finding 3: Client.Close closes the topic of the last Sub only. *)
From Coq Require Import List NArith Bool.
From C33 Require Import C36.Model C36.ProofsBase C36.ProofsStep C36.ProofsClose.
Import ListNotations.
Open Scope N_scope.

Lemma last_sx s k v : s_last (sx s k v) = s_last s. Proof. reflexivity. Qed.
Lemma last_st s t v : s_last (st s t v) = s_last s. Proof. reflexivity. Qed.
Lemma last_sc s c v : s_last (sc s c v) = s_last s. Proof. reflexivity. Qed.
Lemma last_so s o v : s_last (so s o v) = s_last s. Proof. reflexivity. Qed.
Lemma last_sp s l : s_last (sp s l) = s_last s. Proof. reflexivity. Qed.
Lemma last_sg s i : s_last (sg s i) = s_last s. Proof. reflexivity. Qed.
Lemma last_sd s i : s_last (sd s i) = s_last s. Proof. reflexivity. Qed.
Lemma last_sq s m : s_last (sq s m) = s_last s. Proof. reflexivity. Qed.
Lemma last_sqb s m : s_last (sqb s m) = s_last s. Proof. reflexivity. Qed.
Lemma last_sqe s : s_last (sqe s) = s_last s. Proof. reflexivity. Qed.
Lemma last_touch s t : s_last (touch s t) = s_last s. Proof. reflexivity. Qed.
Lemma last_set_where s o w : s_last (set_where s o w) = s_last s. Proof. reflexivity. Qed.
Lemma last_set_parked s o b w : s_last (set_parked s o b w) = s_last s. Proof. reflexivity. Qed.
Lemma last_item_where s x w : s_last (item_where s x w) = s_last s. Proof. destruct x; reflexivity. Qed.
Lemma last_enqueue s t o hi : s_last (enqueue s t o hi) = s_last s. Proof. reflexivity. Qed.
Lemma last_sl s c t : s_last (sl s c t) = aset c t (s_last s). Proof. reflexivity. Qed.
Global Hint Rewrite last_sx last_st last_sc last_so last_sp last_sg last_sd last_sq last_sqb last_sqe last_touch
  last_set_where last_set_parked last_item_where last_enqueue last_sl : frame.

Definition last_closed (s : state) : Prop :=
  forall c, c_closing (gc s c) = true -> c_pump (gc s c) <> PNone -> t_closed (gt s (last_of s c)) = true.

Lemma last_closed_init cp : last_closed (init cp).
Proof. intros c H. discriminate H. Qed.

Lemma last_of_step s e s' c :
  step s e = Some s' -> c_topic (gc s' c) = c_topic (gc s c) ->
  last_of s' c = last_of s c \/ exists k t, e = ESub2 k c t /\ c_closing (gc s c) = false.
Proof.
  intros H Et. unfold last_of. rewrite Et.
  destruct (last_step _ _ _ H) as [->|(k & c0 & t & -> & Hc & ->)]; [auto|].
  destruct (aget_aset_cases (c_topic (gc s c)) c0 t (s_last s) c) as [[-> _]| ->]; eauto.
Qed.

Lemma last_closed_step s e s' : last_closed s -> step s e = Some s' -> last_closed s'.
Proof.
  intros I H c Hc Hp. specialize (I c).
  (* the step leaves the client's topic and [client.topic] alone: it is not a Sub of a closing client *)
  assert (Hl : c_topic (gc s' c) = c_topic (gc s c) -> (e = ECloseBegin c \/ c_closing (gc s c) = true) ->
               last_of s' c = last_of s c).
  { intros Et Hc0. destruct (last_of_step _ _ _ c H Et) as [E|(k & t & -> & E)]; [exact E|].
    destruct Hc0; [discriminate|congruence]. }
  destruct (gc_step _ _ _ c H) as [E|[(t & _ & _ & E)|[(Hr & E & _)|[(He & _ & _ & E & Hb)|(He & Hg & E)]]]];
    injection E as Ep Et Eg Ed; try congruence; rewrite Hl by (auto; right; congruence).
  3: destruct Hb; congruence.
  all: apply (tclosed_mono _ _ _ _ H), I; congruence.
Qed.

Lemma reachable_last_closed cp s : reachable cp s -> last_closed s.
Proof. exact (reachable_invariant _ last_closed_init last_closed_step cp s). Qed.

(* full strength: after Close of a subscriber returned, none of its topics takes requests *)
Definition closed_subscriber_topics_closed_full : Prop :=
  forall cp tr s c s1, run (init cp) tr = Some s -> close_returned s c s1 ->
    forall t, In t (subs_of s1 c) -> t_closed (gt s1 t) = true.

(* client 0 subscribes to topics 0 and 1 and is closed: topic 1 is closed, the pump of topic 0
   leaves through client.done, topic 0 stays open; client 1's request to topic 0 is accepted,
   nobody will ever read it and its wait has nothing to wake it *)
Definition two_topics_trace : list event :=
  [ ESub 0 0; ESub2 0 0 1; ECloseBegin 0; EPumpExit 0; EXTake 0 true ].
Definition two_topics_after : list event :=
  [ ENew 0 0 1; ESend 1 0 true MForever SOk ].

Lemma two_topics_runs :
  exists s s1 s2, run (init (mkCaps 2 2 5)) two_topics_trace = Some s
    /\ step s (ECloseEnd 0) = Some s1
    /\ subs_of s1 0 = [0; 1] /\ last_of s1 0 = 1
    /\ t_closed (gt s1 1) = true /\ t_closed (gt s1 0) = false
    /\ close_done s1 0 = true
    /\ run s1 two_topics_after = Some s2
    /\ f_len (t_high (gt s2 0)) = 1
    /\ (forall r, step s2 (EWait 1 0 false r) = None)
    /\ step s2 (EPumpTake 0 true) = None /\ step s2 (EXTake 0 true) = None.
Proof.
  eexists _, _, _. split; [vm_compute; reflexivity|].
  repeat apply conj; try (vm_compute; reflexivity).
  intros r. destruct r as [[i|]| | |]; vm_compute; reflexivity.
Qed.

Lemma closed_subscriber_topics_closed_refuted : ~ closed_subscriber_topics_closed_full.
Proof.
  intros F. destruct two_topics_runs as (s & s1 & s2 & Hr & He & Hs & _ & _ & Ho & _).
  assert (Hcr : exists s0, run (init (mkCaps 2 2 5)) [ESub 0 0; ESub2 0 0 1] = Some s0
                           /\ close_returned s0 0 s1).
  { eexists. split; [vm_compute; reflexivity|]. right.
    eexists _, [EPumpExit 0; EXTake 0 true], s. split; [vm_compute; reflexivity|]. split; [|exact He].
    revert Hr. vm_compute. intros [= <-]. reflexivity. }
  destruct Hcr as (s0 & Hr0 & Hcr).
  assert (Hin : In 0 (subs_of s1 0)) by (rewrite Hs; left; reflexivity).
  rewrite (F _ _ _ _ _ Hr0 Hcr 0 Hin) in Ho. discriminate.
Qed.

(** the topic of the last Sub is closed once Close has returned, for ever *)
Lemma closed_subscriber_last_topic_closed :
  forall cp tr s c s1, run (init cp) tr = Some s -> close_returned s c s1 ->
    c_pump (gc s1 c) <> PNone ->
    forall tr2 s2, run s1 tr2 = Some s2 ->
      t_closed (gt s2 (last_of s1 c)) = true
      /\ (forall c' o hi m r s3, o_topic (go s2 o) = last_of s1 c ->
            step s2 (ESend c' o hi m r) = Some s3 -> is_err r = true)
      /\ (forall c' o timed, o_topic (go s2 o) = last_of s1 c ->
            exists r s3, step s2 (EWait c' o timed r) = Some s3).
Proof.
  intros cp tr s c s1 Hr Hcr Hp tr2 s2 Hr2.
  assert (R1 : reachable cp s1).
  { destruct Hcr as [H|(s0 & tr' & s0' & H1 & H2 & H3)].
    - exists (tr ++ [ECloseNoop c]). rewrite run_app, Hr. cbn [run]. rewrite H. reflexivity.
    - exists (tr ++ ECloseBegin c :: tr' ++ [ECloseEnd c]). rewrite run_app, Hr. cbn [run]. rewrite H1.
      rewrite run_app, H2. cbn [run]. rewrite H3. reflexivity. }
  pose proof (close_returned_closed _ _ _ Hcr) as Hc.
  pose proof (reachable_closed_closing cp s1 R1 c Hc) as Hcg.
  pose proof (reachable_last_closed cp s1 R1 c Hcg Hp) as Hl.
  pose proof (tclosed_mono_run tr2 _ _ _ Hr2 Hl) as Hl2.
  split; [exact Hl2|]. split.
  - intros c' o hi m r s3 Ho H. simpl in H. unfold pre_check in H. rewrite Ho, Hl2 in H.
    destruct (c_closed (gc s2 c')), (s_qclosed s2); destruct r; simpl in H; try discriminate; reflexivity.
  - intros c' o timed Ho. exists WChan. apply wait_after_topic_close. rewrite Ho. exact Hl2.
Qed.

(** with the guard "every topic the client subscribed to is the topic of its last Sub" (one
    Sub per client, or repeated Subs of one topic) every subscribed topic is closed *)
Lemma closed_subscriber_topics_closed_partial :
  forall cp tr s c s1, run (init cp) tr = Some s -> close_returned s c s1 ->
    single_sub s1 c = true ->
    forall tr2 s2, run s1 tr2 = Some s2 ->
    forall t, In t (subs_of s1 c) -> t_closed (gt s2 t) = true.
Proof.
  intros cp tr s c s1 Hr Hcr G tr2 s2 Hr2 t Hin.
  assert (Hp : c_pump (gc s1 c) <> PNone).
  { unfold subs_of in Hin. destruct (c_pump (gc s1 c)); [contradiction|discriminate|discriminate]. }
  unfold single_sub in G. rewrite forallb_forall in G. apply G in Hin. apply N.eqb_eq in Hin. subst t.
  exact (proj1 (closed_subscriber_last_topic_closed cp tr s c s1 Hr Hcr Hp tr2 s2 Hr2)).
Qed.

(* non-vacuity: the one-topic subscriber *)
Lemma one_topic_runs :
  exists s s1, run (init (mkCaps 2 2 5)) [ESub 0 3] = Some s
    /\ close_returned s 0 s1 /\ single_sub s1 0 = true /\ subs_of s1 0 = [3] /\ t_closed (gt s1 3) = true.
Proof.
  eexists _, _. split; [vm_compute; reflexivity|]. split.
  - right. eexists _, [EPumpTake 0 true], _. split; [vm_compute; reflexivity|]. split; vm_compute; reflexivity.
  - repeat apply conj; vm_compute; reflexivity.
Qed.
