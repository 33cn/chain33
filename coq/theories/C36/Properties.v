From Coq Require Import List NArith Bool.
From C33 Require Import C36.Model C36.ProofsBase C36.ProofsClose C36.ProofsBlock C36.ProofsMain
  C36.ProofsExt C36.ProofsExt2 C36.ProofsExt3 C36.ProofsExt4.
Import ListNotations.
Open Scope N_scope.

Theorem C36_reply_to_own_request :
  forall cp tr s, drun (init cp) tr = Some s ->
  forall c o timed r s', step s (EWait c o timed (WGot r)) = Some s' ->
    r = RClosed \/ r = RFor (o_id (go s o)).
Proof. exact reply_to_own_request_proof. Qed.
Print Assumptions C36_reply_to_own_request.

Theorem C36_responder_holds_current_request :
  forall cp tr s, drun (init cp) tr = Some s ->
  forall c o i, In (o, i) (c_held (gc s c)) -> i = o_id (go s o) /\ o_pool (go s o) = false.
Proof. exact responder_holds_current_proof. Qed.
Print Assumptions C36_responder_holds_current_request.

Theorem C36_at_most_once_delivery :
  forall cp tr s, drun (init cp) tr = Some s -> NoDup (recv_ids_tr tr).
Proof. exact at_most_once_delivery_proof. Qed.
Print Assumptions C36_at_most_once_delivery.

Theorem C36_reply_without_discipline_refuted : ~ reply_any_trace_full.
Proof. exact reply_any_trace_refuted. Qed.
Print Assumptions C36_reply_without_discipline_refuted.

Example C36_discipline_satisfiable :
  exists s, drun (init (mkCaps 2 2 5)) roundtrip_trace = Some s /\ recv_ids_tr roundtrip_trace = [1; 2].
Proof. exact roundtrip_disciplined. Qed.
Print Assumptions C36_discipline_satisfiable.

Example C36_discipline_satisfiable_two_subscriptions :
  exists s, drun (init (mkCaps 2 2 5)) two_subs_trace = Some s /\ recv_ids_tr two_subs_trace = [1; 2]
            /\ subs_of s 0 = [0; 1].
Proof. exact two_subs_disciplined. Qed.
Print Assumptions C36_discipline_satisfiable_two_subscriptions.

Theorem C36_after_close_errors : ProofsExt.after_close_errors_stmt.
Proof. exact ProofsExt.after_close_errors_proof. Qed.
Print Assumptions C36_after_close_errors.

Theorem C36_queue_close_closes_topics :
  forall s s' t tr s2, step s ECloseQueue = Some s' -> s_qclosed s = false -> In t (map fst (s_topics s)) ->
    run s' tr = Some s2 -> t_closed (gt s2 t) = true.
Proof. exact queue_close_topics. Qed.
Print Assumptions C36_queue_close_closes_topics.

Theorem C36_close_call_closes :
  forall cp tr s c s1, run (init cp) tr = Some s ->
    (step s (ECloseNoop c) = Some s1
     \/ exists s0 tr' s0', step s (ECloseBegin c) = Some s0 /\ run s0 tr' = Some s0' /\ step s0' (ECloseEnd c) = Some s1) ->
    forall tr2 s2, run s1 tr2 = Some s2 ->
      (forall o hi m r s3, step s2 (ESend c o hi m r) = Some s3 -> is_err r = true)
      /\ (forall p o hi m, step s2 (EBlock p c o hi m) = None).
Proof. exact close_call_closes_proof. Qed.
Print Assumptions C36_close_call_closes.

Theorem C36_close_call_sets_closed :
  forall s c s1, close_returned s c s1 -> c_closed (gc s1 c) = true.
Proof. exact close_returned_closed. Qed.
Print Assumptions C36_close_call_sets_closed.

Example C36_never_subscribed_client_closes :
  exists s s1, run (init (mkCaps 2 2 5)) [ENew 0 0 1] = Some s
    /\ c_pump (gc s 0) = PNone
    /\ close_returned s 0 s1
    /\ step s1 (ESend 0 0 true MForever SErrClient) = Some s1
    /\ step s1 (ESend 0 0 true MForever SOk) = None
    /\ step s1 (ERecvClosed 0) = Some s1
    /\ (exists s2, step s1 (EWait 0 0 false WClient) = Some s2).
Proof. exact never_subscribed_close_runs. Qed.
Print Assumptions C36_never_subscribed_client_closes.

Theorem C36_after_close_parked_send_returns_error_refuted : ~ parked_send_returns_error_full.
Proof. exact parked_send_returns_error_refuted. Qed.
Print Assumptions C36_after_close_parked_send_returns_error_refuted.

Theorem C36_after_close_parked_send_returns_error_partial :
  forall cp tr s p pd, grun bdisc (init cp) tr = Some s -> s_qclosed s = true ->
    pend_get p (s_pend s) = Some pd ->
    exists r s2, is_err r = true /\ step s (EUnblock p r) = Some s2 /\ pend_get p (s_pend s2) = None.
Proof. exact parked_send_returns_error_proof. Qed.
Print Assumptions C36_after_close_parked_send_returns_error_partial.

Theorem C36_after_close_no_block_forever_partial :
  forall cp tr s p pd, grun bdisc (init cp) tr = Some s -> s_qclosed s = true ->
    pend_get p (s_pend s) = Some pd ->
    exists tr2 s2, run s tr2 = Some s2 /\ pend_get p (s_pend s2) = None.
Proof. exact no_block_forever_proof. Qed.
Print Assumptions C36_after_close_no_block_forever_partial.

Theorem C36_atomic_queue_close_meets_guard :
  forall cp tr s, forallb (fun e => match e with ECloseQBegin => false | _ => true end) tr = true ->
    run (init cp) tr = Some s -> grun bdisc (init cp) tr = Some s.
Proof. exact bdisc_atomic_init. Qed.
Print Assumptions C36_atomic_queue_close_meets_guard.

Example C36_send_parked_inside_queue_close_never_woken :
  exists s, run (init (mkCaps 1 1 5)) late_park_trace = Some s
            /\ s_qclosed s = true /\ t_closed (gt s 7) = false
            /\ pend_get 9 (s_pend s) = Some (mkP 1 1 true false 7)
            /\ forall r, is_err r = true -> step s (EUnblock 9 r) = None.
Proof. exact late_park_runs. Qed.
Print Assumptions C36_send_parked_inside_queue_close_never_woken.

Example C36_parked_low_sender_woken :
  exists s s2, run (init witness_caps) witness_trace = Some s
            /\ s_qclosed s = true /\ c_closed (gc s 0) = true /\ close_done s 0 = true
            /\ pend_get 7 (s_pend s) = Some (mkP 1 3 false false 0)
            /\ fspace (lcap (s_caps s)) (t_low (gt s 0)) = false
            /\ step s (EUnblock 7 SOk) = None
            /\ step s (EUnblock 7 SErrChan) = Some s2 /\ s_pend s2 = [].
Proof. exact witness_runs. Qed.
Print Assumptions C36_parked_low_sender_woken.

Example C36_parked_high_sender_woken :
  exists s pd s2, run (init (mkCaps 1 1 5))
                 [ENew 0 0 1; ESend 1 0 true MNow SOk; ENew 1 0 2; EBlock 9 1 1 true MForever; ECloseQueue] = Some s
               /\ s_qclosed s = true /\ pend_get 9 (s_pend s) = Some pd /\ p_high pd = true
               /\ step s (EUnblock 9 SErrChan) = Some s2 /\ s_pend s2 = [].
Proof. exact high_sender_woken_runs. Qed.
Print Assumptions C36_parked_high_sender_woken.

Example C36_bulk_fill_agrees :
  forallb (fun n => same_view (C36.Check.bulk_fill n (init (mkCaps 2 30 5)) 1 0 3 7)
                              (C36.Check.fill (N.to_nat n) 8%nat 0%nat (init (mkCaps 2 30 5)) 1 0 3 7))
          [1; 2; 5; 17; 30; 31] = true.
Proof. exact bulk_fill_agrees. Qed.
Print Assumptions C36_bulk_fill_agrees.

Theorem C36_wait_returns_iff :
  forall s c o timed,
    (exists r s', step s (EWait c o timed r) = Some s') <-> wait_returns_guard s c o timed = true.
Proof. exact wait_enabled_iff. Qed.
Print Assumptions C36_wait_returns_iff.

(** *** finding 3: several subscriptions of one client *)
Theorem C36_closed_subscriber_topics_closed_refuted : ~ closed_subscriber_topics_closed_full.
Proof. exact closed_subscriber_topics_closed_refuted. Qed.
Print Assumptions C36_closed_subscriber_topics_closed_refuted.

Theorem C36_closed_subscriber_topics_closed_partial :
  forall cp tr s c s1, run (init cp) tr = Some s -> close_returned s c s1 ->
    single_sub s1 c = true ->
    forall tr2 s2, run s1 tr2 = Some s2 ->
    forall t, In t (subs_of s1 c) -> t_closed (gt s2 t) = true.
Proof. exact closed_subscriber_topics_closed_partial. Qed.
Print Assumptions C36_closed_subscriber_topics_closed_partial.

Theorem C36_closed_subscriber_last_topic_closed :
  forall cp tr s c s1, run (init cp) tr = Some s -> close_returned s c s1 ->
    c_pump (gc s1 c) <> PNone ->
    forall tr2 s2, run s1 tr2 = Some s2 ->
      t_closed (gt s2 (last_of s1 c)) = true
      /\ (forall c' o hi m r s3, o_topic (go s2 o) = last_of s1 c ->
            step s2 (ESend c' o hi m r) = Some s3 -> is_err r = true)
      /\ (forall c' o timed, o_topic (go s2 o) = last_of s1 c ->
            exists r s3, step s2 (EWait c' o timed r) = Some s3).
Proof. exact closed_subscriber_last_topic_closed. Qed.
Print Assumptions C36_closed_subscriber_last_topic_closed.

Example C36_two_topic_subscriber_leaves_topic_open :
  exists s s1 s2, run (init (mkCaps 2 2 5)) two_topics_trace = Some s
    /\ step s (ECloseEnd 0) = Some s1
    /\ subs_of s1 0 = [0; 1] /\ last_of s1 0 = 1
    /\ t_closed (gt s1 1) = true /\ t_closed (gt s1 0) = false
    /\ close_done s1 0 = true
    /\ run s1 two_topics_after = Some s2
    /\ f_len (t_high (gt s2 0)) = 1
    /\ (forall r, step s2 (EWait 1 0 false r) = None)
    /\ step s2 (EPumpTake 0 true) = None /\ step s2 (EXTake 0 true) = None.
Proof. exact two_topics_runs. Qed.
Print Assumptions C36_two_topic_subscriber_leaves_topic_open.

Example C36_single_sub_satisfiable :
  exists s s1, run (init (mkCaps 2 2 5)) [ESub 0 3] = Some s
    /\ close_returned s 0 s1 /\ single_sub s1 0 = true /\ subs_of s1 0 = [3] /\ t_closed (gt s1 3) = true.
Proof. exact one_topic_runs. Qed.
Print Assumptions C36_single_sub_satisfiable.

(** *** finding 4: overlapping Close calls *)
Theorem C36_close_never_panics_refuted : ~ close_never_panics_full.
Proof. exact close_never_panics_refuted. Qed.
Print Assumptions C36_close_never_panics_refuted.

Theorem C36_close_never_panics_partial :
  forall s c, close_in_progress s c = false ->
    step s (EClosePanic c) = None
    /\ ((exists s1, step s (ECloseNoop c) = Some s1) \/ (exists s1, step s (ECloseBegin c) = Some s1)).
Proof. exact close_no_overlap_no_panic. Qed.
Print Assumptions C36_close_never_panics_partial.

Theorem C36_close_panics_iff_overlap :
  forall s c, (exists s1, step s (EClosePanic c) = Some s1) <-> close_in_progress s c = true.
Proof. exact close_panic_iff. Qed.
Print Assumptions C36_close_panics_iff_overlap.

Example C36_overlapping_close_panics :
  exists s, run (init (mkCaps 2 2 1)) overlap_trace = Some s
            /\ close_in_progress s 0 = true
            /\ step s (ECloseEnd 0) = None /\ step s (EPumpPut 0) = None /\ step s (EPumpExit 0) = None
            /\ step s (EClosePanic 0) = Some s.
Proof. exact overlap_runs. Qed.
Print Assumptions C36_overlapping_close_panics.

Example C36_sequential_closes_satisfiable :
  exists s s1 s2, run (init (mkCaps 2 2 5)) [ESub 0 0; ECloseBegin 0; EPumpTake 0 true; ECloseEnd 0] = Some s
    /\ close_in_progress s 0 = false /\ step s (ECloseNoop 0) = Some s1
    /\ run (init (mkCaps 2 2 5)) [ESub 0 0] = Some s2 /\ close_in_progress s2 0 = false
    /\ step s2 (EClosePanic 0) = None.
Proof. exact sequential_closes_run. Qed.
Print Assumptions C36_sequential_closes_satisfiable.

(** *** former finding 5 (repaired): the sentinel look-alike is an ordinary message *)
Theorem C36_pump_stops_only_on_close :
  forall cp tr s, run (init cp) tr = Some s ->
    (forall c, c_pump (gc s c) = PExit -> t_closed (gt s (c_topic (gc s c))) = true \/ c_closing (gc s c) = true)
    /\ (forall k, x_st (gx s k) = PExit ->
          t_closed (gt s (x_topic (gx s k))) = true \/ c_closing (gc s (x_client (gx s k))) = true).
Proof. exact pump_stops_only_on_close_proof. Qed.
Print Assumptions C36_pump_stops_only_on_close.

Theorem C36_running_pump_takes :
  forall s c, c_pump (gc s c) = PRun -> c_hold (gc s c) = None ->
    fis_empty (t_high (gt s (c_topic (gc s c)))) = false ->
    exists s', step s (EPumpTake c true) = Some s'.
Proof. exact running_pump_takes. Qed.
Print Assumptions C36_running_pump_takes.

Example C36_lookalike_is_delivered :
  exists s, run (init (mkCaps 2 2 5)) lookalike_trace = Some s
    /\ c_pump (gc s 0) = PRun /\ t_closed (gt s 0) = false
    /\ c_held (gc s 0) = [(1, 1); (0, 0)] /\ s_deliv s = [1; 0].
Proof. exact lookalike_runs. Qed.
Print Assumptions C36_lookalike_is_delivered.

(** *** finding 6: topics created inside a closed queue *)
Theorem C36_closed_queue_no_open_topic_refuted : ~ closed_queue_no_open_topic_full.
Proof. exact closed_queue_no_open_topic_refuted. Qed.
Print Assumptions C36_closed_queue_no_open_topic_refuted.

Theorem C36_closed_queue_no_open_topic_partial :
  forall cp tr s, grun qdisc (init cp) tr = Some s -> s_qclosing s = true ->
    forall t, In t (map fst (s_topics s)) -> t_closed (gt s t) = true.
Proof. exact closed_queue_no_open_topic_proof. Qed.
Print Assumptions C36_closed_queue_no_open_topic_partial.

Theorem C36_wait_after_queue_close_refuted : ~ wait_after_queue_close_full.
Proof. exact wait_after_queue_close_refuted. Qed.
Print Assumptions C36_wait_after_queue_close_refuted.

Theorem C36_wait_after_queue_close_partial :
  forall cp tr s, grun qdisc (init cp) tr = Some s -> s_qclosed s = true ->
    forall c o timed, topic_known s (o_topic (go s o)) = true ->
      exists r s', step s (EWait c o timed r) = Some s'.
Proof. exact wait_after_queue_close_proof. Qed.
Print Assumptions C36_wait_after_queue_close_partial.

Theorem C36_known_topic_wait_returns :
  forall cp tr s0 s1, run (init cp) tr = Some s0 -> s_qclosing s0 = false ->
    (step s0 ECloseQueue = Some s1 \/ step s0 ECloseQBegin = Some s1) ->
    forall tr2 s2, run s1 tr2 = Some s2 ->
    forall t, topic_known s0 t = true ->
      t_closed (gt s2 t) = true
      /\ forall c o timed, o_topic (go s2 o) = t -> exists r s3, step s2 (EWait c o timed r) = Some s3.
Proof. exact known_topic_wait_returns. Qed.
Print Assumptions C36_known_topic_wait_returns.

Example C36_send_racing_queue_close :
  exists s, run (init (mkCaps 2 2 5)) race_trace = Some s
            /\ s_qclosed s = true /\ In 7 (map fst (s_topics s)) /\ t_closed (gt s 7) = false
            /\ f_len (t_high (gt s 7)) = 1
            /\ forall r, step s (EWait 1 0 false r) = None.
Proof. exact race_runs. Qed.
Print Assumptions C36_send_racing_queue_close.

Example C36_late_topic_wait_blocks :
  exists s, run (init (mkCaps 2 2 5)) late_wait_trace = Some s
            /\ s_qclosed s = true /\ In 7 (map fst (s_topics s)) /\ t_closed (gt s 7) = false
            /\ forall r, step s (EWait 1 0 false r) = None.
Proof. exact late_wait_runs. Qed.
Print Assumptions C36_late_topic_wait_blocks.

Example C36_topic_guard_satisfiable :
  exists s, grun qdisc (init (mkCaps 2 2 5)) guarded_close_trace = Some s
            /\ s_qclosed s = true /\ map fst (s_topics s) = [0] /\ t_closed (gt s 0) = true.
Proof. exact guarded_close_runs. Qed.
Print Assumptions C36_topic_guard_satisfiable.
