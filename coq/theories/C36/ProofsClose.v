(** C36 — after Client.Close / Queue.Close: every newly started send fails with an error,
    every newly started wait returns. *)
From Coq Require Import List NArith Bool.
From C33 Require Import C36.Model C36.ProofsBase C36.ProofsStep.
Import ListNotations.
Open Scope N_scope.

Lemma closed_mono s e s' c :
  step s e = Some s' -> c_closed (gc s c) = true -> c_closed (gc s' c) = true.
Proof.
  intros H Hc. destruct (gc_step _ _ _ c H) as [E|[(t & E)|[E|[E|E]]]]; unfold cflags in E; intuition congruence.
Qed.

Lemma closing_mono s e s' c : step s e = Some s' -> c_closing (gc s c) = true -> c_closing (gc s' c) = true.
Proof.
  intros H Hc. destruct (gc_step _ _ _ c H) as [E|[(t & E)|[E|[E|E]]]]; unfold cflags in E; intuition congruence.
Qed.

Lemma qclosed_mono s e s' :
  step s e = Some s' -> s_qclosed s = true -> s_qclosed s' = true.
Proof. intros H Hc. destruct (qflags_step _ _ _ H); intuition congruence. Qed.

Lemma tclosed_mono s e s' t :
  step s e = Some s' -> t_closed (gt s t) = true -> t_closed (gt s' t) = true.
Proof.
  intros H Hc.
  destruct (gt_step _ _ _ t H) as [E|[(hi & o & E)|[(hi & x & f' & _ & E)|E]]]; rewrite E;
    rewrite ?set_chan_closed, ?close_topic_closed; auto.
Qed.

Lemma close_all_closes s t :
  In t (map fst (s_topics s)) -> t_closed (aget topic0 t (close_all s)) = true.
Proof.
  intros Hin. rewrite close_all_gt. unfold topic_known. rewrite (proj2 (mem_key_in _ _) Hin). apply close_topic_closed.
Qed.

Lemma close_queue_closes_all s s' t :
  step s ECloseQueue = Some s' -> s_qclosed s = false ->
  In t (map fst (s_topics s)) -> t_closed (gt s' t) = true.
Proof.
  intros H Hq Hin. simpl in H. rewrite Hq in H.
  destruct (s_qclosing s); [discriminate|]. injection H as <-. rewrite gt_sq.
  apply close_all_closes, Hin.
Qed.

Lemma close_qbegin_closes_all s s' t :
  step s ECloseQBegin = Some s' -> In t (map fst (s_topics s)) -> t_closed (gt s' t) = true.
Proof.
  intros H Hin. simpl in H. destruct (s_qclosing s); [discriminate|]. injection H as <-. rewrite gt_sqb.
  apply close_all_closes, Hin.
Qed.

Lemma closed_mono_run tr : forall s s' c,
  run s tr = Some s' -> c_closed (gc s c) = true -> c_closed (gc s' c) = true.
Proof.
  intros s s' c Hr Hc.
  exact (run_invariant (fun s => c_closed (gc s c) = true) (fun _ _ _ P H => closed_mono _ _ _ c H P) tr s s' Hc Hr).
Qed.
Lemma qclosed_mono_run tr : forall s s',
  run s tr = Some s' -> s_qclosed s = true -> s_qclosed s' = true.
Proof.
  intros s s' Hr Hc.
  exact (run_invariant (fun s => s_qclosed s = true) (fun _ _ _ P H => qclosed_mono _ _ _ H P) tr s s' Hc Hr).
Qed.
Lemma tclosed_mono_run tr : forall s s' t,
  run s tr = Some s' -> t_closed (gt s t) = true -> t_closed (gt s' t) = true.
Proof.
  intros s s' t Hr Hc.
  exact (run_invariant (fun s => t_closed (gt s t) = true) (fun _ _ _ P H => tclosed_mono _ _ _ t H P) tr s s' Hc Hr).
Qed.

Definition closed_closing (s : state) : Prop :=
  forall c, c_closed (gc s c) = true -> c_closing (gc s c) = true.

Lemma closed_closing_init cp : closed_closing (init cp).
Proof. intros c; simpl; discriminate. Qed.

Lemma closed_closing_step s e s' :
  closed_closing s -> step s e = Some s' -> closed_closing s'.
Proof.
  intros I H c Hc. specialize (I c).
  destruct (gc_step _ _ _ c H) as [E|[(t & _ & _ & E)|[(_ & E & _)|[(_ & _ & _ & E & _)|(_ & _ & E)]]]];
    injection E as _ _ Eg Ed; try congruence.
  all: rewrite Eg; apply I; congruence.
Qed.

Lemma send_after_close s c o hi m r s' :
  c_closed (gc s c) = true \/ s_qclosed s = true ->
  step s (ESend c o hi m r) = Some s' -> is_err r = true.
Proof.
  intros Hc H. simpl in H. unfold pre_check in H.
  destruct (c_closed (gc s c)) eqn:E1.
  - destruct r; simpl in H; try discriminate; reflexivity.
  - destruct Hc as [Hc|Hc]; [discriminate|]. rewrite Hc in H.
    destruct r; simpl in H; try discriminate; reflexivity.
Qed.

Lemma block_after_close s p c o hi m :
  c_closed (gc s c) = true \/ s_qclosed s = true ->
  step s (EBlock p c o hi m) = None.
Proof.
  intros Hc. simpl. unfold pre_check.
  destruct (c_closed (gc s c)) eqn:E1; [reflexivity|].
  destruct Hc as [Hc|Hc]; [discriminate|]. rewrite Hc. reflexivity.
Qed.

Lemma wait_after_client_close s c o timed :
  c_closing (gc s c) = true -> exists s', step s (EWait c o timed WClient) = Some s'.
Proof. intros H. simpl. rewrite H. eauto. Qed.

Lemma wait_after_topic_close s c o timed :
  t_closed (gt s (o_topic (go s o))) = true -> exists s', step s (EWait c o timed WChan) = Some s'.
Proof. intros H. simpl. rewrite H. eauto. Qed.

Definition reachable (cp : caps) (s : state) : Prop := exists tr, run (init cp) tr = Some s.

Lemma reachable_invariant (P : state -> Prop) :
  (forall cp, P (init cp)) -> (forall s e s', P s -> step s e = Some s' -> P s') ->
  forall cp s, reachable cp s -> P s.
Proof. intros H0 Hs cp s [tr Hr]. exact (run_invariant P Hs tr _ s (H0 cp) Hr). Qed.

Lemma reachable_closed_closing cp s : reachable cp s -> closed_closing s.
Proof. exact (reachable_invariant _ closed_closing_init closed_closing_step cp s). Qed.

(** [s] is any reachable state in which client [c] is closed or the queue is
    closed; [s2] any later state.  In [s2] a send of [c] that completes at once returns an
    error, no send of [c] parks, and a wait of [c] returns (with ErrIsQueueClosed if the
    client is closed; with ErrChannelClosed if the message's topic existed when the queue
    was closed -- more generally whenever that topic is closed). *)
Definition after_close_errors_base_stmt : Prop :=
  forall cp tr1 s c, run (init cp) tr1 = Some s ->
    c_closed (gc s c) = true \/ s_qclosed s = true ->
  forall tr2 s2, run s tr2 = Some s2 ->
    (forall o hi m r s3, step s2 (ESend c o hi m r) = Some s3 -> is_err r = true)
    /\ (forall p o hi m, step s2 (EBlock p c o hi m) = None)
    /\ (c_closed (gc s c) = true -> forall o timed, exists r s3, step s2 (EWait c o timed r) = Some s3)
    /\ (forall o timed, t_closed (gt s (o_topic (go s2 o))) = true ->
          exists r s3, step s2 (EWait c o timed r) = Some s3).

Lemma after_close_errors_base : after_close_errors_base_stmt.
Proof.
  intros cp tr1 s c Hr1 Hc tr2 s2 Hr2.
  assert (Hc2 : c_closed (gc s2 c) = true \/ s_qclosed s2 = true).
  { destruct Hc as [Hc|Hc]; [left; eapply closed_mono_run|right; eapply qclosed_mono_run]; eauto. }
  assert (R2 : reachable cp s2).
  { exists (tr1 ++ tr2). rewrite run_app, Hr1. exact Hr2. }
  repeat split.
  - intros; eapply send_after_close; eauto.
  - intros; eapply block_after_close; eauto.
  - intros Hcc o timed. exists WClient.
    apply wait_after_client_close. apply (reachable_closed_closing cp s2 R2).
    exact (closed_mono_run _ _ _ _ Hr2 Hcc).
  - intros o timed Ht. exists WChan. apply wait_after_topic_close.
    exact (tclosed_mono_run _ _ _ _ Hr2 Ht).
Qed.

Lemma queue_close_topics s s' t tr s2 :
  step s ECloseQueue = Some s' -> s_qclosed s = false -> In t (map fst (s_topics s)) ->
  run s' tr = Some s2 -> t_closed (gt s2 t) = true.
Proof.
  intros H Hq Hin Hr. exact (tclosed_mono_run _ _ _ _ Hr (close_queue_closes_all _ _ _ H Hq Hin)).
Qed.

(** a Close call that has returned leaves the client closed, whether or not it had
    subscribed.  The call is [ECloseNoop] (already closed) or [ECloseBegin] ... [ECloseEnd]
    with anything in between (the pump exits, other participants go on). *)
Definition close_returned (s : state) (c : N) (s1 : state) : Prop :=
  step s (ECloseNoop c) = Some s1
  \/ exists s0 tr s0', step s (ECloseBegin c) = Some s0 /\ run s0 tr = Some s0' /\ step s0' (ECloseEnd c) = Some s1.

Lemma close_returned_closed s c s1 : close_returned s c s1 -> c_closed (gc s1 c) = true.
Proof.
  intros [H|(s0 & tr & s0' & _ & _ & H)].
  - simpl in H. destruct (c_closed (gc s c)) eqn:E; [injection H as <-; exact E|discriminate].
  - apply step_cases in H. inversion H; subst. rewrite gc_sc, N.eqb_refl. reflexivity.
Qed.

Definition close_call_closes_full : Prop :=
  forall cp tr s c s1, run (init cp) tr = Some s -> close_returned s c s1 ->
    forall tr2 s2, run s1 tr2 = Some s2 ->
      (forall o hi m r s3, step s2 (ESend c o hi m r) = Some s3 -> is_err r = true)
      /\ (forall p o hi m, step s2 (EBlock p c o hi m) = None).

Lemma close_call_closes_proof : close_call_closes_full.
Proof.
  intros cp tr s c s1 _ Hc tr2 s2 Hr2.
  pose proof (closed_mono_run _ _ _ c Hr2 (close_returned_closed _ _ _ Hc)) as Hc2.
  split; intros; [eapply send_after_close|eapply block_after_close]; eauto.
Qed.

(* non-vacuity: a client that never subscribed (before the repair of Client.Close in /repo its
   Close did nothing) is closed by its Close call; its next send fails, its next wait returns *)
Lemma never_subscribed_close_runs :
  exists s s1, run (init (mkCaps 2 2 5)) [ENew 0 0 1] = Some s
    /\ c_pump (gc s 0) = PNone
    /\ close_returned s 0 s1
    /\ step s1 (ESend 0 0 true MForever SErrClient) = Some s1
    /\ step s1 (ESend 0 0 true MForever SOk) = None
    /\ step s1 (ERecvClosed 0) = Some s1
    /\ (exists s2, step s1 (EWait 0 0 false WClient) = Some s2).
Proof.
  eexists _, _. split; [reflexivity|]. split; [reflexivity|]. split.
  - right. eexists _, [], _. split; [vm_compute; reflexivity|]. split; [reflexivity|vm_compute; reflexivity].
  - repeat apply conj; try (vm_compute; reflexivity). eexists; vm_compute; reflexivity.
Qed.
