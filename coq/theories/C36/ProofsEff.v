(** C36 — how the elementary state updates act on the views (which objects are referenced
    from where). *)
From Coq Require Import List NArith Bool.
From C33 Require Import C36.Model C36.ProofsBase C36.ProofsOcc.
Import ListNotations.
Open Scope N_scope.

Lemma vchan_ext s s' t hi : gt s' t = gt s t -> vchan s' t hi = vchan s t hi.
Proof. unfold vchan; intros ->; reflexivity. Qed.
Lemma vrecv_ext s s' c : gc s' c = gc s c -> vrecv s' c = vrecv s c.
Proof. unfold vrecv; intros ->; reflexivity. Qed.
Lemma vhold_ext s s' c : gc s' c = gc s c -> vhold s' c = vhold s c.
Proof. unfold vhold; intros ->; reflexivity. Qed.
Lemma vheld_ext s s' c : gc s' c = gc s c -> vheld s' c = vheld s c.
Proof. unfold vheld; intros ->; reflexivity. Qed.
Lemma vxhold_ext s s' k : gx s' k = gx s k -> vxhold s' k = vxhold s k.
Proof. unfold vxhold; intros ->; reflexivity. Qed.
Lemma vxhold_sx s k v k' :
  vxhold (sx s k v) k' = if k' =? k then match x_hold v with Some (IMsg o) => [o] | _ => [] end else vxhold s k'.
Proof. unfold vxhold. rewrite gx_sx. destruct (k' =? k); reflexivity. Qed.

Lemma views_so s o v :
  (forall t hi, vchan (so s o v) t hi = vchan s t hi) /\ (forall c, vrecv (so s o v) c = vrecv s c)
  /\ (forall c, vhold (so s o v) c = vhold s c) /\ (forall c, vheld (so s o v) c = vheld s c)
  /\ vpend (so s o v) = vpend s /\ (forall k, vxhold (so s o v) k = vxhold s k).
Proof. repeat split. Qed.

Lemma vchan_st s t v t' hi :
  vchan (st s t v) t' hi = if t' =? t then objs_of (f_items (chan_of v hi)) else vchan s t' hi.
Proof. unfold vchan. rewrite gt_st. destruct (t' =? t); reflexivity. Qed.

Lemma vchan_touch s t t' hi : vchan (touch s t) t' hi = vchan s t' hi.
Proof. apply vchan_ext, gt_touch. Qed.

Lemma vrecv_sc s c v c' : vrecv (sc s c v) c' = if c' =? c then objs_of (f_items (c_recv v)) else vrecv s c'.
Proof. unfold vrecv. rewrite gc_sc. destruct (c' =? c); reflexivity. Qed.
Lemma vhold_sc s c v c' :
  vhold (sc s c v) c' = if c' =? c then match c_hold v with Some (IMsg o) => [o] | _ => [] end else vhold s c'.
Proof. unfold vhold. rewrite gc_sc. destruct (c' =? c); reflexivity. Qed.
Lemma vheld_sc s c v c' : vheld (sc s c v) c' = if c' =? c then map fst (c_held v) else vheld s c'.
Proof. unfold vheld. rewrite gc_sc. destruct (c' =? c); reflexivity. Qed.

Lemma vchan_set_chan tp hi f h :
  objs_of (f_items (chan_of (set_chan tp hi f) h)) =
  if Bool.eqb h hi then objs_of (f_items f) else objs_of (f_items (chan_of tp h)).
Proof. destruct hi, h; reflexivity. Qed.

(** closing a topic only adds sentinels *)
Lemma vchan_close_topic cp tp h :
  objs_of (f_items (chan_of (close_topic_rec cp tp) h)) = objs_of (f_items (chan_of tp h)).
Proof.
  unfold close_topic_rec. destruct (t_closed tp); [reflexivity|].
  destruct h; simpl; [destruct (fspace (hcap cp) (t_high tp))|destruct (fspace (lcap cp) (t_low tp))]; reflexivity.
Qed.

Lemma fpop_objs f x f' :
  fpop f = Some (x, f') ->
  objs_of (f_items f) = objs_of (f_items f') ++ match x with IMsg o => [o] | ISent => [] end.
Proof.
  intros H. rewrite (fpop_items _ _ _ H), objs_of_app. destruct x; reflexivity.
Qed.

Lemma remove_pair_in2 o i x l : In x (remove_pair o i l) -> In x l.
Proof.
  induction l as [|[a b] l IH]; simpl; [auto|].
  destruct ((o =? a) && (i =? b)); simpl; intuition.
Qed.
Lemma mem_pair_in o i l : mem_pair o i l = true -> In (o, i) l.
Proof.
  induction l as [|[a b] l IH]; simpl; [discriminate|].
  intros H. apply orb_true_iff in H as [H|H]; [|auto].
  apply andb_true_iff in H as [H1 H2]. apply N.eqb_eq in H1, H2. subst. auto.
Qed.

Definition hold_objs (h : option item) : list N := match h with Some (IMsg o) => [o] | _ => [] end.
Definition pend_objs (q : N) (l : list (N * pend)) : list N :=
  map snd (filter (fun x => fst x =? q) (map (fun x => (fst x, p_obj (snd x))) l)).

Lemma view_so s o v pl : view (so s o v) pl = view s pl. Proof. reflexivity. Qed.
Lemma view_set_where s o w pl : view (set_where s o w) pl = view s pl. Proof. reflexivity. Qed.
Lemma view_set_parked s o b w pl : view (set_parked s o b w) pl = view s pl. Proof. reflexivity. Qed.
Lemma view_sd s i pl : view (sd s i) pl = view s pl. Proof. reflexivity. Qed.
Lemma view_sl s c t pl : view (sl s c t) pl = view s pl. Proof. reflexivity. Qed.
Lemma view_touch s t pl : view (touch s t) pl = view s pl.
Proof. destruct pl; try reflexivity. apply vchan_touch. Qed.
Lemma view_st s t v pl :
  view (st s t v) pl =
  match pl with PChan t' hi => if t' =? t then objs_of (f_items (chan_of v hi)) else view s pl | _ => view s pl end.
Proof. destruct pl; try reflexivity. apply vchan_st. Qed.
Lemma view_sc s c v pl :
  view (sc s c v) pl =
  match pl with
  | PHold c' => if c' =? c then hold_objs (c_hold v) else view s pl
  | PRecv c' => if c' =? c then objs_of (f_items (c_recv v)) else view s pl
  | PHeld c' => if c' =? c then map fst (c_held v) else view s pl
  | _ => view s pl
  end.
Proof. destruct pl; try reflexivity; [apply vhold_sc|apply vrecv_sc|apply vheld_sc]. Qed.
Lemma view_sx s k v pl :
  view (sx s k v) pl = match pl with PXHold k' => if k' =? k then hold_objs (x_hold v) else view s pl | _ => view s pl end.
Proof. destruct pl; try reflexivity. apply vxhold_sx. Qed.
Lemma view_sp s l pl : view (sp s l) pl = match pl with PPend q => pend_objs q l | _ => view s pl end.
Proof. destruct pl; reflexivity. Qed.
Lemma view_enqueue s t o hi pl :
  view (enqueue s t o hi) pl =
  match pl with
  | PChan t' hi' => if (t' =? t) && Bool.eqb hi' hi then o :: view s pl else view s pl
  | _ => view s pl
  end.
Proof.
  unfold enqueue. rewrite view_so, view_st. destruct pl; try reflexivity.
  destruct (t0 =? t) eqn:E; [apply N.eqb_eq in E; subst t0|reflexivity].
  rewrite vchan_set_chan. destruct (Bool.eqb hi0 hi) eqn:Eh; [apply eqb_prop in Eh; subst hi0|]; reflexivity.
Qed.

Lemma view_enqueue_other s t o hi pl : pl <> PChan t hi -> view (enqueue s t o hi) pl = view s pl.
Proof.
  intros Hn. rewrite view_enqueue. destruct pl; try reflexivity.
  destruct (t0 =? t) eqn:E; [apply N.eqb_eq in E; subst t0|reflexivity].
  destruct (Bool.eqb hi0 hi) eqn:Eh; [apply eqb_prop in Eh; congruence|reflexivity].
Qed.
Lemma view_enqueue_here s t o hi : view (enqueue s t o hi) (PChan t hi) = o :: view s (PChan t hi).
Proof. rewrite view_enqueue, N.eqb_refl, eqb_reflx. reflexivity. Qed.

Lemma view_sc_same s c v :
  objs_of (f_items (c_recv v)) = vrecv s c -> hold_objs (c_hold v) = vhold s c -> map fst (c_held v) = vheld s c ->
  forall pl, view (sc s c v) pl = view s pl.
Proof.
  intros E1 E2 E3 pl. rewrite view_sc.
  destruct pl; try reflexivity; (destruct (_ =? c) eqn:E; [apply N.eqb_eq in E; subst|reflexivity]); assumption.
Qed.
Lemma view_sx_same s k v : hold_objs (x_hold v) = vxhold s k -> forall pl, view (sx s k v) pl = view s pl.
Proof.
  intros E1 pl. rewrite view_sx.
  destruct pl; try reflexivity. destruct (k0 =? k) eqn:E; [apply N.eqb_eq in E; subst; exact E1|reflexivity].
Qed.
(* for the side conditions of the [_same] lemmas: the item held, if any, is known from a hypothesis *)
Ltac same_lists :=
  first [reflexivity | symmetry; assumption
        |unfold vhold, vxhold; simpl; rewrite ?gc_touch, ?gx_touch, ?gc_st, ?gx_st, ?gx_sc;
         repeat match goal with E : c_hold _ = _ |- _ => rewrite E | E : x_hold _ = _ |- _ => rewrite E end; reflexivity].
Lemma view_st_same s t v :
  (forall hi, objs_of (f_items (chan_of v hi)) = vchan s t hi) -> forall pl, view (st s t v) pl = view s pl.
Proof.
  intros E1 pl. rewrite view_st.
  destruct pl; try reflexivity. destruct (t0 =? t) eqn:E; [apply N.eqb_eq in E; subst; apply E1|reflexivity].
Qed.
(* the sentinel is no message object: taking it changes no list *)
Lemma view_pop_sent s t hi f' :
  fpop (chan_of (gt s t) hi) = Some (ISent, f') -> forall pl, view (st s t (set_chan (gt s t) hi f')) pl = view s pl.
Proof.
  intros H. apply view_st_same. intros h. rewrite vchan_set_chan.
  destruct (Bool.eqb h hi) eqn:E; [apply eqb_prop in E; subst h|reflexivity].
  unfold vchan. rewrite (fpop_objs _ _ _ H). symmetry. apply app_nil_r.
Qed.
Lemma view_close_all s m pl : m = close_all s -> view (sqb s m) pl = view s pl /\ view (sq s m) pl = view s pl.
Proof.
  intros ->. destruct pl; split; try reflexivity; unfold view, vchan; rewrite ?gt_sq, ?gt_sqb, close_all_gt;
    destruct (topic_known s t); auto using vchan_close_topic.
Qed.

Lemma pend_objs_del_other p q l : q <> p -> pend_objs q (pend_del p l) = pend_objs q l.
Proof.
  intros Hn. unfold pend_objs. induction l as [|[p' x] l IH]; simpl; [reflexivity|].
  destruct (p =? p') eqn:E; simpl.
  - apply N.eqb_eq in E; subst p'. destruct (p =? q) eqn:E2; [apply N.eqb_eq in E2; congruence|reflexivity].
  - destruct (p' =? q); simpl; congruence.
Qed.
Lemma pend_objs_del p l pd :
  pend_get p l = Some pd -> pend_objs p l = p_obj pd :: pend_objs p (pend_del p l).
Proof.
  unfold pend_objs. induction l as [|[p' x] l IH]; simpl; [discriminate|].
  destruct (p =? p') eqn:E.
  - apply N.eqb_eq in E; subst p'. intros [= ->]. rewrite N.eqb_refl. reflexivity.
  - intros H. simpl. rewrite N.eqb_sym, E. auto.
Qed.
Lemma remove_pair_without o i l :
  mem_pair o i l = true -> without o (map fst l) (map fst (remove_pair o i l)).
Proof.
  induction l as [|[a b] l IH]; simpl; [discriminate|].
  destruct ((o =? a) && (i =? b)) eqn:E; simpl.
  - intros _. apply andb_true_iff in E as [E _]. apply N.eqb_eq in E; subst a. apply without_head.
  - intros H. destruct (IH H) as (l1 & l2 & E1 & E2). exists (a :: l1), l2. simpl. split; congruence.
Qed.
