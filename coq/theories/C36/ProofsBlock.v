(** C36 — parked sends and Close: once the queue is closed every parked send can return,
    with an error, and is then gone from the set of parked sends ("no send blocks for ever
    after close").  Wait-forever sends of both priorities select on the topic's done
    channel; timed sends have their timer.  Since Queue.Close is modelled in two parts this
    needs a guard: a send that parks between the walk over the topics and isClose = 1 on a
    topic created after the walk is never woken by the close (finding 6).
    (The purely existential form "some continuation lets it return" holds trivially -- a
    third client could subscribe to the late topic and close itself -- and is not stated.) *)
From Coq Require Import List NArith Bool.
From C33 Require Import C36.Model C36.ProofsBase C36.ProofsStep C36.ProofsClose.
Import ListNotations.
Open Scope N_scope.

Lemma pend_get_in p l pd : pend_get p l = Some pd -> In (p, pd) l.
Proof.
  induction l as [|[p' x] l IH]; simpl; [discriminate|].
  destruct (p =? p') eqn:E; [apply N.eqb_eq in E; subst; intros [= ->]; auto|auto].
Qed.
Lemma pend_del_in p q pd l : In (q, pd) (pend_del p l) -> In (q, pd) l.
Proof.
  induction l as [|[p' x] l IH]; simpl; [auto|].
  destruct (p =? p'); simpl; intuition.
Qed.
Lemma pend_get_del_other p q l : q <> p -> pend_get q (pend_del p l) = pend_get q l.
Proof.
  intros Hn. induction l as [|[p' x] l IH]; simpl; [reflexivity|].
  destruct (p =? p') eqn:E.
  - apply N.eqb_eq in E; subst p'. destruct (q =? p) eqn:E2; [apply N.eqb_eq in E2; contradiction|reflexivity].
  - simpl. destruct (q =? p'); [reflexivity|apply IH].
Qed.

Definition pend_nodup (s : state) : Prop := NoDup (map fst (s_pend s)).

Lemma pend_get_none_notin p l : pend_get p l = None -> ~ In p (map fst l).
Proof.
  induction l as [|[p' x] l IH]; simpl; [tauto|].
  destruct (p =? p') eqn:E; [discriminate|]. apply N.eqb_neq in E.
  intros H [Heq|Hin]; [congruence|exact (IH H Hin)].
Qed.
Lemma pend_del_keys p q l : In q (map fst (pend_del p l)) -> In q (map fst l).
Proof.
  induction l as [|[p' x] l IH]; simpl; [auto|].
  destruct (p =? p'); simpl; intuition.
Qed.
Lemma pend_del_nodup p l : NoDup (map fst l) -> NoDup (map fst (pend_del p l)).
Proof.
  induction l as [|[p' x] l IH]; simpl; intros H; [constructor|].
  inversion H as [|? ? Hn Hd]; subst.
  destruct (p =? p'); simpl; [exact Hd|].
  constructor; [intros Hin; apply Hn; eapply pend_del_keys; exact Hin|apply IH, Hd].
Qed.
Lemma pend_get_del_same p l : NoDup (map fst l) -> pend_get p (pend_del p l) = None.
Proof.
  induction l as [|[p' x] l IH]; simpl; intros H; [reflexivity|].
  inversion H as [|? ? Hn Hd]; subst.
  destruct (p =? p') eqn:E.
  - apply N.eqb_eq in E; subst p'.
    destruct (pend_get p l) eqn:G; [|reflexivity].
    exfalso. apply Hn. apply pend_get_in in G. apply in_map_iff. exists (p, p0). auto.
  - simpl. rewrite E. apply IH, Hd.
Qed.

Lemma pend_nodup_init cp : pend_nodup (init cp).
Proof. constructor. Qed.

Lemma pend_nodup_step s e s' : pend_nodup s -> step s e = Some s' -> pend_nodup s'.
Proof.
  unfold pend_nodup. intros I H.
  destruct (pend_step _ _ _ H) as [E|[(p & c & o & hi & m & pd & _ & Hn & _ & E)|(p & r & _ & E)]]; rewrite E.
  - exact I.
  - constructor; [apply pend_get_none_notin, Hn|exact I].
  - apply pend_del_nodup, I.
Qed.

Lemma reachable_pend_nodup cp s : reachable cp s -> pend_nodup s.
Proof. exact (reachable_invariant _ pend_nodup_init pend_nodup_step cp s). Qed.

(* subscriber 0 on topic 0 stops draining; requester 1 fills recv (1), the pump's hand (1)
   and the low channel (1), parks one more Send(msg,false) (#7); then the subscriber reads
   one message, Client.Close of 0 runs to the end, Queue.Close.  (Before the repair of
   sendLowTimeout this parked send could never return.) *)
Definition witness_caps : caps := mkCaps 1 1 1.
Definition witness_trace : list event :=
  [ ESub 0 0;
    ENew 0 0 1; ESend 1 0 false MNow SOk; EPumpTake 0 false; EPumpPut 0;
    ENew 1 0 2; ESend 1 1 false MNow SOk; EPumpTake 0 false;
    ENew 2 0 3; ESend 1 2 false MNow SOk;
    ENew 3 0 4; EBlock 7 1 3 false MForever;
    ECloseBegin 0; ERecv 0 0 1; EPumpPut 0; EPumpExit 0; ECloseEnd 0; EDrain 0; EDrainReply 0;
    ECloseQueue ].

Lemma witness_runs :
  exists s s2, run (init witness_caps) witness_trace = Some s
            /\ s_qclosed s = true /\ c_closed (gc s 0) = true /\ close_done s 0 = true
            /\ pend_get 7 (s_pend s) = Some (mkP 1 3 false false 0)
            /\ fspace (lcap (s_caps s)) (t_low (gt s 0)) = false
            /\ step s (EUnblock 7 SOk) = None
            /\ step s (EUnblock 7 SErrChan) = Some s2 /\ s_pend s2 = [].
Proof. eexists _, _. split; [vm_compute; reflexivity|]. vm_compute. intuition. Qed.

Lemma high_sender_woken_runs :
  exists s pd s2, run (init (mkCaps 1 1 5))
                 [ENew 0 0 1; ESend 1 0 true MNow SOk; ENew 1 0 2; EBlock 9 1 1 true MForever; ECloseQueue] = Some s
               /\ s_qclosed s = true /\ pend_get 9 (s_pend s) = Some pd /\ p_high pd = true
               /\ step s (EUnblock 9 SErrChan) = Some s2 /\ s_pend s2 = [].
Proof.
  eexists _, _, _. split; [vm_compute; reflexivity|]. split; [vm_compute; reflexivity|].
  split; [vm_compute; reflexivity|]. split; [vm_compute; reflexivity|]. split; vm_compute; reflexivity.
Qed.

Definition tkeys (s : state) : list N := map fst (s_topics s).

Definition pend_inv (s : state) : Prop :=
  forall p pd, In (p, pd) (s_pend s) -> In (p_topic pd) (tkeys s).

Lemma tkeys_mono s e s' t : step s e = Some s' -> In t (tkeys s) -> In t (tkeys s').
Proof.
  intros H Hin. unfold tkeys in *.
  destruct (step_cases _ _ _ H); items; simpl; repeat apply aset_keys; auto.
  all: unfold close_all; rewrite map_map; exact Hin.
Qed.

Lemma pend_inv_init cp : pend_inv (init cp).
Proof. intros p pd []. Qed.

Lemma pend_inv_step s e s' : pend_inv s -> step s e = Some s' -> pend_inv s'.
Proof.
  intros I H p pd Hin.
  destruct (pend_step _ _ _ H) as [E|[(p0 & c & o & hi & m & pd0 & -> & _ & Ht & E)|(p0 & r & _ & E)]];
    rewrite E in Hin.
  - eapply tkeys_mono; eauto.
  - destruct Hin as [[= <- <-]|Hin]; [exact Ht|eapply tkeys_mono; eauto].
  - eapply tkeys_mono; eauto using pend_del_in.
Qed.

Lemma reachable_pend_inv cp s : reachable cp s -> pend_inv s.
Proof. exact (reachable_invariant _ pend_inv_init pend_inv_step cp s). Qed.

(** isClose = 1 is stored after the topics were walked *)
Definition qflags (s : state) : Prop := s_qclosed s = true -> s_qclosing s = true.
Lemma qflags_inv_step s e s' : qflags s -> step s e = Some s' -> qflags s'.
Proof.
  unfold qflags. intros I H Hq'.
  destruct (qflags_step _ _ _ H) as [[Ha Hb]|[(_ & Hb & _)|(_ & _ & Hb & _)]];
    [rewrite Hb; apply I; congruence|exact Hb|exact Hb].
Qed.
Lemma qflags_init cp : qflags (init cp).
Proof. intros H. discriminate H. Qed.
Lemma reachable_qflags cp s : reachable cp s -> qflags s.
Proof. exact (reachable_invariant _ qflags_init qflags_inv_step cp s). Qed.

Lemma grun_run g tr : forall s s', grun g s tr = Some s' -> run s tr = Some s'.
Proof.
  induction tr as [|e tr IH]; intros s s' H; simpl in *; [exact H|].
  destruct (g s e); [|discriminate]. destruct (step s e); [apply IH; exact H|discriminate].
Qed.
Lemma grun_invariant g (P : state -> Prop) :
  (forall s e s', P s -> g s e = true -> step s e = Some s' -> P s') ->
  forall tr s s', P s -> grun g s tr = Some s' -> P s'.
Proof.
  intros Hstep tr; induction tr as [|e tr IH]; intros s s' HP Hr; simpl in Hr.
  - injection Hr as <-; exact HP.
  - destruct (g s e) eqn:G; [|discriminate].
    destruct (step s e) as [s1|] eqn:E; [|discriminate]. eapply IH; [|exact Hr]. eapply Hstep; eauto.
Qed.
Lemma grun_true tr : forall s, grun (fun _ _ => true) s tr = run s tr.
Proof. induction tr as [|e tr IH]; intros s; simpl; [reflexivity|]. destruct (step s e); auto. Qed.

Definition pend_closed (s : state) : Prop :=
  pend_inv s /\
  (s_qclosing s = true -> forall p pd, In (p, pd) (s_pend s) -> t_closed (gt s (p_topic pd)) = true).

Lemma pend_closed_init cp : pend_closed (init cp).
Proof. split; [apply pend_inv_init|intros _ p pd []]. Qed.

Lemma pend_closed_step s e s' :
  pend_closed s -> bdisc s e = true -> step s e = Some s' -> pend_closed s'.
Proof.
  intros [I J] G H. split; [eapply pend_inv_step; eauto|].
  intros Hq' p pd Hin.
  assert (Hold : In (p, pd) (s_pend s) -> t_closed (gt s' (p_topic pd)) = true).
  { intros Hi. destruct (s_qclosing s) eqn:Eq; [exact (tclosed_mono _ _ _ _ H (J eq_refl _ _ Hi))|].
    (* the topics are walked by this very step *)
    destruct (qflags_step _ _ _ H) as [[_ Hb]|[(_ & _ & Ht & _)|(_ & Hb & _)]]; try congruence.
    unfold gt. rewrite Ht. apply close_all_closes, (I _ _ Hi). }
  destruct (pend_step _ _ _ H) as [E|[(p0 & c & o & hi & m & pd0 & -> & _)|(p0 & r & _ & E)]].
  - apply Hold. rewrite <- E. exact Hin.
  - (* EBlock: excluded by the guard once the loop has run *)
    apply negb_true_iff in G.
    destruct (qflags_step _ _ _ H) as [[_ Hb]|[(_ & _ & _ & [[? _]|[? _]])|(? & _)]]; congruence.
  - apply Hold. rewrite E in Hin. eapply pend_del_in; eauto.
Qed.

Lemma brun_pend_closed cp tr s : grun bdisc (init cp) tr = Some s -> pend_closed s.
Proof.
  intros Hr. eapply (grun_invariant bdisc pend_closed); eauto using pend_closed_init.
  intros; eapply pend_closed_step; eauto.
Qed.

Definition parked_send_returns_error_full : Prop :=
  forall cp tr s p pd, run (init cp) tr = Some s -> s_qclosed s = true ->
    pend_get p (s_pend s) = Some pd ->
    exists r s2, is_err r = true /\ step s (EUnblock p r) = Some s2 /\ pend_get p (s_pend s2) = None.

(* a wait-forever send that passed q.isClosed() before the store, reached a topic created
   after the loop (open, inside the closed queue) and found it full: nothing wakes it *)
Definition late_park_trace : list event :=
  [ ECloseQBegin; ENew 0 7 1; ESend 1 0 true MNow SOk; ENew 1 7 2; EBlock 9 1 1 true MForever; ECloseQEnd ].

Lemma late_park_runs :
  exists s, run (init (mkCaps 1 1 5)) late_park_trace = Some s
            /\ s_qclosed s = true /\ t_closed (gt s 7) = false
            /\ pend_get 9 (s_pend s) = Some (mkP 1 1 true false 7)
            /\ forall r, is_err r = true -> step s (EUnblock 9 r) = None.
Proof.
  eexists. split; [vm_compute; reflexivity|]. repeat apply conj; try (vm_compute; reflexivity).
  intros r Hr. destruct r; try discriminate Hr; vm_compute; reflexivity.
Qed.

Lemma parked_send_returns_error_refuted : ~ parked_send_returns_error_full.
Proof.
  intros F. destruct late_park_runs as (s & Hr & Hq & _ & Hg & Hn).
  destruct (F _ _ _ _ _ Hr Hq Hg) as (r & s2 & He & Hs & _).
  rewrite (Hn r He) in Hs. discriminate.
Qed.

(** every parked send can return once the queue is closed; it returns an error and is no
    longer parked afterwards -- in runs where no send parks inside Queue.Close's window *)
Lemma parked_send_returns_error_proof :
  forall cp tr s p pd, grun bdisc (init cp) tr = Some s -> s_qclosed s = true ->
    pend_get p (s_pend s) = Some pd ->
    exists r s2, is_err r = true /\ step s (EUnblock p r) = Some s2 /\ pend_get p (s_pend s2) = None.
Proof.
  intros cp tr s p pd Hb Hq Hg.
  pose proof (grun_run _ _ _ _ Hb) as Hr.
  pose proof (reachable_pend_nodup cp s (ex_intro _ tr Hr)) as Hnd.
  pose proof (reachable_qflags cp s (ex_intro _ tr Hr) Hq) as Hqq.
  (* either way the send leaves the set of parked sends; its timer fires, or else the topic
     it selects on was closed by the walk *)
  exists (if p_timed pd then STimeout else SErrChan), (set_parked (sp s (pend_del p (s_pend s))) (p_obj pd) false P0).
  split; [destruct (p_timed pd); reflexivity|]. split; [|exact (pend_get_del_same _ _ Hnd)].
  simpl. rewrite Hg. destruct (p_timed pd); [reflexivity|].
  rewrite (proj2 (brun_pend_closed cp tr s Hb) Hqq _ _ (pend_get_in _ _ _ Hg)). reflexivity.
Qed.

Definition no_block_forever_stmt : Prop :=
  forall cp tr s p pd, grun bdisc (init cp) tr = Some s -> s_qclosed s = true ->
    pend_get p (s_pend s) = Some pd ->
    exists tr2 s2, run s tr2 = Some s2 /\ pend_get p (s_pend s2) = None.

Lemma no_block_forever_proof : no_block_forever_stmt.
Proof.
  intros cp tr s p pd Hr Hq Hg.
  destruct (parked_send_returns_error_proof cp tr s p pd Hr Hq Hg) as (r & s2 & _ & Hs & Hn).
  exists [EUnblock p r], s2. split; [cbn [run]; rewrite Hs; reflexivity|exact Hn].
Qed.

(* the guard is met by every trace in which Queue.Close is the one event [ECloseQueue] *)
Lemma bdisc_atomic tr : forall s s',
  (s_qclosing s = true -> s_qclosed s = true) ->
  forallb (fun e => match e with ECloseQBegin => false | _ => true end) tr = true ->
  run s tr = Some s' -> grun bdisc s tr = Some s'.
Proof.
  induction tr as [|e tr IH]; intros s s' I Hf Hr; simpl in *; [exact Hr|].
  apply andb_true_iff in Hf as [He Hf].
  destruct (step s e) as [s1|] eqn:E; [|discriminate].
  assert (G : bdisc s e = true).
  { destruct e; try reflexivity. simpl. destruct (s_qclosing s) eqn:Q; [|reflexivity].
    rewrite block_after_close in E; [discriminate|auto]. }
  rewrite G. apply IH; auto.
  intros Q1. destruct (qflags_step _ _ _ E) as [[Ha Hb]|[(_ & _ & _ & [[-> _]|[_ Hd]])|(_ & _ & _ & Hd)]];
    [rewrite Ha; apply I; congruence|discriminate He|exact Hd|exact Hd].
Qed.

Lemma bdisc_atomic_init :
  forall cp tr s, forallb (fun e => match e with ECloseQBegin => false | _ => true end) tr = true ->
    run (init cp) tr = Some s -> grun bdisc (init cp) tr = Some s.
Proof. intros cp tr s. apply bdisc_atomic. discriminate. Qed.
