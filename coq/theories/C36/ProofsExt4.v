(** C36 — the extension, former finding 5 (repaired: isEnd knows the sentinel by identity):
    a subscriber's pump stops only when its topic or its client is closed, whatever the
    messages look like. *)
From Coq Require Import List NArith Bool.
From C33 Require Import C36.Model C36.ProofsBase C36.ProofsStep C36.ProofsClose C36.ProofsOcc.
Import ListNotations.
Open Scope N_scope.

Definition citems (s : state) (t : N) (hi : bool) : list item := f_items (chan_of (gt s t) hi).

Lemma in_set_chan x tp h f hi :
  In x (f_items (chan_of (set_chan tp h f) hi)) -> In x (f_items f) \/ In x (f_items (chan_of tp hi)).
Proof. destruct h, hi; simpl; auto. Qed.
Lemma fpop_in f x f' : fpop f = Some (x, f') -> In x (f_items f) /\ (forall y, In y (f_items f') -> In y (f_items f)).
Proof.
  intros H. rewrite (fpop_items _ _ _ H). split; [apply in_or_app; right; left; reflexivity|].
  intros y Hy. apply in_or_app; left; exact Hy.
Qed.

Definition sentinel_ok (s : state) : Prop :=
  forall t hi, In ISent (citems s t hi) -> t_closed (gt s t) = true.
Definition pump_exit_ok (s : state) : Prop :=
  (forall c, c_pump (gc s c) = PExit -> t_closed (gt s (c_topic (gc s c))) = true \/ c_closing (gc s c) = true)
  /\ (forall k, x_st (gx s k) = PExit ->
        t_closed (gt s (x_topic (gx s k))) = true \/ c_closing (gc s (x_client (gx s k))) = true).

Lemma sentinel_step s e s' : sentinel_ok s -> step s e = Some s' -> sentinel_ok s'.
Proof.
  intros A H t hi Hin. unfold citems in Hin.
  (* a sentinel that was there already lay in a closed topic, which stays closed *)
  assert (Hold : forall h, In ISent (f_items (chan_of (gt s t) h)) -> t_closed (gt s' t) = true)
    by (intros h Hi; exact (tclosed_mono _ _ _ _ H (A t h Hi))).
  destruct (gt_step s e s' t H) as [Hg|[(h & o1 & Hg)|[(h & x & f' & Hp & Hg)|Hg]]].
  - rewrite Hg in Hin. eauto.
  - rewrite Hg in Hin. apply in_set_chan in Hin as [Hin|Hin]; [|eauto]. destruct Hin as [Hin|Hin]; [discriminate|eauto].
  - rewrite Hg in Hin. apply in_set_chan in Hin as [Hin|Hin]; [|eauto].
    apply (Hold h), (proj2 (fpop_in _ _ _ Hp)), Hin.
  - rewrite Hg. apply close_topic_closed.
Qed.

Definition rinv (s : state) : Prop := sentinel_ok s /\ pump_exit_ok s.

Lemma rinv_init cp : rinv (init cp).
Proof.
  split; [|split].
  - intros t hi H. destruct hi; contradiction H.
  - intros c H. discriminate H.
  - intros k H. discriminate H.
Qed.

(* a pump that returns now was woken by a closed done channel or took the sentinel *)
Lemma wakes_on_close s e s' t c :
  sentinel_ok s -> step s e = Some s' ->
  t_closed (gt s t) = true \/ c_closing (gc s c) = true
  \/ (exists hi f', fpop (chan_of (gt s t) hi) = Some (ISent, f')) ->
  t_closed (gt s' t) = true \/ c_closing (gc s' c) = true.
Proof.
  intros S H [Hx|[Hx|(hi & f' & Hp)]].
  - left. exact (tclosed_mono _ _ _ _ H Hx).
  - right. exact (closing_mono _ _ _ _ H Hx).
  - left. apply (tclosed_mono _ _ _ _ H), (S t hi). exact (proj1 (fpop_in _ _ _ Hp)).
Qed.

Lemma rinv_step s e s' : rinv s -> step s e = Some s' -> rinv s'.
Proof.
  intros (S & [P1 P2]) H. split; [eapply sentinel_step; eauto|].
  split.
  - intros c Hc.
    destruct (gc_step _ _ _ c H) as [E|[(t & _ & _ & E)|[(_ & E & Hw)|[(_ & _ & _ & E & _)|(_ & _ & E)]]]];
      injection E as Ep Et Eg Ed; try rewrite Et; auto; try congruence.
    + apply (wakes_on_close s e); auto. destruct (P1 c); [congruence|auto..].
    + apply (wakes_on_close s e); auto.
  - intros k Hk.
    destruct (gx_step _ _ _ k H) as [E|[E|(_ & E & Hw)]]; [| congruence |];
      injection E as Ec Et Ep; rewrite Ec, Et.
    + apply (wakes_on_close s e); auto. destruct (P2 k); [congruence|auto..].
    + apply (wakes_on_close s e); auto.
Qed.

(** a subscriber's pump stops only when its topic or its
    client is closed (so accepted requests do not stay in the channel for ever) *)
Lemma pump_stops_only_on_close_proof :
  forall cp tr s, run (init cp) tr = Some s ->
    (forall c, c_pump (gc s c) = PExit -> t_closed (gt s (c_topic (gc s c))) = true \/ c_closing (gc s c) = true)
    /\ (forall k, x_st (gx s k) = PExit ->
          t_closed (gt s (x_topic (gx s k))) = true \/ c_closing (gc s (x_client (gx s k))) = true).
Proof.
  intros cp tr s Hr.
  assert (I : rinv s).
  { eapply (run_invariant rinv); [|apply rinv_init|exact Hr]. intros; eapply rinv_step; eauto. }
  exact (proj2 I).
Qed.

(* a message lying in an open topic's channel in front of a running idle pump can be
   taken: it is not lost *)
Lemma running_pump_takes :
  forall s c, c_pump (gc s c) = PRun -> c_hold (gc s c) = None ->
    fis_empty (t_high (gt s (c_topic (gc s c)))) = false ->
    exists s', step s (EPumpTake c true) = Some s'.
Proof.
  intros s c Hp Hh Hne. simpl. rewrite Hp, Hh.
  unfold fis_empty in Hne. unfold fpop.
  destruct (f_items (t_high (gt s (c_topic (gc s c))))) as [|x l] eqn:E; [discriminate|].
  destruct (rev (x :: l)) as [|y r] eqn:Er.
  { apply (f_equal (@length item)) in Er. rewrite rev_length in Er. discriminate. }
  destruct y as [o|]; eauto.
Qed.

(* the witness of former finding 5: client 1 sends queue.NewMessage(0, topic, 0, nil) to subscriber 0. It is
   delivered (the subscriber reads ID 0), the pump keeps running and the next request arrives *)
Definition lookalike_trace : list event :=
  [ ESub 0 0; ENewRaw 0 0; ESend 1 0 true MForever SOk; EPumpTake 0 true; EPumpPut 0; ERecv 0 0 0;
    ENew 1 0 1; ESend 1 1 true MForever SOk; EPumpTake 0 true; EPumpPut 0; ERecv 0 1 1 ].

Lemma lookalike_runs :
  exists s, run (init (mkCaps 2 2 5)) lookalike_trace = Some s
    /\ c_pump (gc s 0) = PRun /\ t_closed (gt s 0) = false
    /\ c_held (gc s 0) = [(1, 1); (0, 0)] /\ s_deliv s = [1; 0].
Proof. eexists. split; [vm_compute; reflexivity|]. repeat apply conj; vm_compute; reflexivity. Qed.
