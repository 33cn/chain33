(** C37 — password changes preserve every stored secret (invariant over
    operation histories of the wallet model). *)
From Coq Require Import List NArith Arith Bool Lia.
From C33 Require Import Lib.Harness C37.Model C37.ProofsCbc C37.ProofsGcm.
Import ListNotations.

Lemma is_nil_true : forall b, is_nil b = true -> b = [].
Proof. intros [|? ?] H; [reflexivity|discriminate]. Qed.

Lemma accept_len_supported : forall ed key,
  accept_len ed (length key) = true -> supported_len key = true.
Proof.
  intros ed key H. unfold accept_len in H. unfold supported_len.
  apply orb_true_iff in H as [H|H]; [rewrite H; reflexivity|].
  apply andb_true_iff in H as [_ H]. rewrite H. apply orb_true_r.
Qed.

Lemma iv_lookup_len : forall ivs a,
  Forall (fun p : N * bytes => length (snd p) = 16) ivs ->
  length (iv_of ivs a) = 16.
Proof.
  intros ivs a H. unfold iv_of. induction H as [|[b v] ivs Hb _ IH]; simpl; [reflexivity|].
  destruct (N.eqb a b); [exact Hb|exact IH].
Qed.

(** Operations issued through the wallet API, with well-formed randomness
    (a 12-byte nonce, 16-byte IVs).  The Inject operations only exist to let
    the harness put old-release records into the DB. *)
Definition op_ok (o : op) : Prop :=
  match o with
  | OSaveSeed _ _ nonce => length nonce = 12
  | OImport _ _ iv => length iv = 16
  | OSetPasswd _ _ nonce ivs _ =>
      length nonce = 12 /\ Forall (fun p : N * bytes => length (snd p) = 16) ivs
  | OInjectLegacyAcct _ _ _ | OInjectRawAcct _ _ | OInjectLegacySeed _ _ => False
  | _ => True
  end.

Definition truth_seed (ts : option bytes) (o : op) (r : res) : option bytes :=
  match o, r with
  | OSaveSeed _ seed _, ROk => Some seed
  | _, _ => ts
  end.

Definition truth_keys (tk : list (N * bytes)) (o : op) (r : res) : list (N * bytes) :=
  match o, r with
  | OImport a key _, ROk => acct_put a key tk
  | _, _ => tk
  end.

Section Wallet.

Variable E D : bytes -> bytes -> bytes.
Variable seal : bytes -> bytes -> bytes -> bytes.
Variable open : bytes -> bytes -> bytes -> option bytes.
Hypothesis D_E : forall k b, length b = 16 -> D k (E k b) = b.
Hypothesis E_len : forall k b, length b = 16 -> length (E k b) = 16.
Hypothesis open_seal : forall k n m, open k n (seal k n m) = Some m.
Hypothesis seal_len : forall k n m, length (seal k n m) = length m + 16.

Notation stepM := (step E D seal open).

(** The test ProcWalletUnLock and ProcWalletSetPasswd put the given password
    to: against the stored hash when no password is in memory, against the one
    in memory otherwise. *)
Definition pw_accepted (w : wallet) (pw : bytes) : Prop :=
  is_nil (w_pw w) && w_flag w && negb (verify_hash w pw) = false /\
  negb (is_nil (w_pw w)) && negb (bytes_eqb pw (w_pw w)) = false.

Definition ok_effect (ed : bool) (w : wallet) (o : op) (w' : wallet) : Prop :=
  match o with
  | OSaveSeed pw seed nonce =>
      has_seed w = false /\ valid_password pw = true /\
      w' = mkW (gcm_encrypter seal pw nonce seed) (Some pw) true (w_accts w) pw true (w_locked w)
  | OUnlock pw =>
      pw_accepted w pw /\
      w' = mkW (w_seed w) (w_hash w) (w_dbflag w) (w_accts w) pw (w_flag w) false
  | OLock => w' = mkW (w_seed w) (w_hash w) (w_dbflag w) (w_accts w) (w_pw w) (w_flag w) true
  | ORestart => w' = mkW (w_seed w) (w_hash w) (w_dbflag w) (w_accts w) [] (w_dbflag w) true
  | OImport a key iv =>
      w_locked w = false /\ has_seed w = true /\ accept_len ed (length key) = true /\
      exists blob,
        cbc_encrypter E (w_pw w) iv key = Some blob /\
        w' = mkW (w_seed w) (w_hash w) (w_dbflag w) (acct_put a blob (w_accts w))
                 (w_pw w) (w_flag w) (w_locked w)
  | OSetPasswd oldpw newpw nonce ivs _ =>
      valid_password newpw = true /\ pw_accepted w oldpw /\ has_seed w = true /\
      exists seed accts',
        gcm_decrypter open oldpw (w_seed w) = Some seed /\
        reencrypt_all E D oldpw newpw ivs (w_accts w) = Some accts' /\
        w' = mkW (gcm_encrypter seal newpw nonce seed) (Some newpw) true accts' newpw true (w_locked w)
  | ODump _ | OGetSeed _ => False
  | _ => True
  end.

Local Ltac unchanged H := left; injection H as <- <-; split; [discriminate|reflexivity].

Lemma step_cases : forall ed w o w' r, stepM ed w o = (w', r) ->
  (r <> ROk /\ w' = w) \/ (r = ROk /\ ok_effect ed w o w').
Proof.
  intros ed w o w' r H. destruct o; cbn [step ok_effect] in *.
  - destruct (has_seed w); [unchanged H|].
    destruct (is_nil pw || is_nil seed); [unchanged H|].
    destruct (valid_password pw); cbn [negb] in H; [|unchanged H].
    right. injection H as <- <-. auto.
  - destruct (negb (has_seed w)); [unchanged H|].
    destruct (is_nil (w_pw w) && w_flag w && negb (verify_hash w pw)) eqn:C1; [unchanged H|].
    destruct (negb (is_nil (w_pw w)) && negb (bytes_eqb pw (w_pw w))) eqn:C2; [unchanged H|].
    right. injection H as <- <-. unfold pw_accepted. auto.
  - destruct (negb (has_seed w)); [unchanged H|]. right. injection H as <- <-. auto.
  - right. injection H as <- <-. auto.
  - unfold check_status in H.
    destruct (w_locked w); [unchanged H|]. destruct (has_seed w); [|unchanged H].
    destruct (is_nil key); [unchanged H|].
    destruct (accept_len ed (length key)); cbn [negb] in H; [|unchanged H].
    destruct (cbc_encrypter E (w_pw w) iv key) as [blob|]; [|unchanged H].
    destruct (acct_get a (w_accts w)) as [old|].
    + destruct (cbc_decrypter D (w_pw w) old) as [dec|]; [destruct (bytes_eqb dec key)|];
        unchanged H.
    + right. injection H as <- <-. repeat split. exists blob. auto.
  - right. injection H as <- <-. auto.
  - right. injection H as <- <-. auto.
  - right. injection H as <- <-. auto.
  - destruct (negb (w_locked w) && negb (has_seed w)); [unchanged H|].
    destruct (valid_password newpw); cbn [negb] in H; [|unchanged H].
    destruct (is_nil (w_pw w) && w_flag w && negb (verify_hash w oldpw)) eqn:C1; [unchanged H|].
    destruct (negb (is_nil (w_pw w)) && negb (bytes_eqb oldpw (w_pw w))) eqn:C2; [unchanged H|].
    destruct (has_seed w); cbn [negb] in H; [|unchanged H].
    destruct (is_nil oldpw); [unchanged H|].
    destruct (gcm_decrypter open oldpw (w_seed w)) as [seed|]; [|unchanged H].
    destruct (is_nil seed); [unchanged H|].
    destruct (reencrypt_all E D oldpw newpw ivs (w_accts w)) as [accts'|]; [|unchanged H].
    destruct wfail; [unchanged H|]. right. injection H as <- <-.
    unfold pw_accepted. repeat split; try assumption. exists seed, accts'. auto.
  - destruct (check_status w); [unchanged H|].
    destruct (acct_get a (w_accts w)) as [blob|]; [|unchanged H].
    destruct (is_nil blob); [unchanged H|].
    destruct (cbc_decrypter D (w_pw w) blob); unchanged H.
  - destruct (check_status w); [unchanged H|].
    destruct (is_nil pw); [unchanged H|].
    destruct (gcm_decrypter open pw (w_seed w)); unchanged H.
Qed.

Definition pair_ok (cp : bytes) (ab ak : N * bytes) : Prop :=
  fst ab = fst ak /\ supported_len (snd ak) = true /\ cbc_decrypter D cp (snd ab) = Some (snd ak).

Definition agrees (cp : bytes) (accts tk : list (N * bytes)) : Prop :=
  Forall2 (pair_ok cp) accts tk.

Definition db_ok (w : wallet) (cp s : bytes) (tk : list (N * bytes)) : Prop :=
  w_hash w = Some cp /\ w_dbflag w = true /\ cp <> [] /\ has_seed w = true /\
  gcm_decrypter open cp (w_seed w) = Some s /\ agrees cp (w_accts w) tk.

(** The memory: the password held is [cp] or (after a restart, still locked) empty. *)
Definition mem_ok (w : wallet) (cp : bytes) : Prop :=
  w_flag w = true /\ (w_pw w = cp \/ (w_pw w = [] /\ w_locked w = true)).

Definition R (w : wallet) (ts : option bytes) (tk : list (N * bytes)) : Prop :=
  match ts with
  | None => has_seed w = false /\ w_accts w = [] /\ tk = []
  | Some s => exists cp, db_ok w cp s tk /\ mem_ok w cp
  end.

Lemma R_init : R w_init None [].
Proof. repeat split. Qed.

(** The wallet a successful SaveSeed or SetPasswd leaves. *)
Lemma R_fresh : forall pw nonce seed accts tk l,
  valid_password pw = true -> length nonce = 12 -> agrees pw accts tk ->
  R (mkW (gcm_encrypter seal pw nonce seed) (Some pw) true accts pw true l) (Some seed) tk.
Proof.
  intros pw nonce seed accts tk l Hv Ln Ha. exists pw. split.
  - split; [reflexivity|]. split; [reflexivity|].
    split; [apply valid_password_not_nil; exact Hv|].
    split; [|split; [|exact Ha]].
    + apply negb_true_iff, (gcm_encrypter_not_nil seal seal_len). exact Ln.
    + apply (gcm_roundtrip seal open open_seal seal_len). exact Ln.
  - split; [reflexivity|left; reflexivity].
Qed.

Lemma accepted_is_current : forall w cp s tk pw,
  db_ok w cp s tk -> mem_ok w cp -> pw_accepted w pw -> pw = cp.
Proof.
  intros w cp s tk pw [Hh _] [Hf Hpw] [C3 C4].
  destruct (is_nil (w_pw w)) eqn:Hn.
  - rewrite Hf in C3. cbn in C3. apply negb_false_iff in C3.
    unfold verify_hash in C3. rewrite Hh in C3. apply bytes_eqb_eq in C3. congruence.
  - cbn in C4. apply negb_false_iff in C4. apply bytes_eqb_eq in C4.
    destruct Hpw as [Hpw|[Hpw _]]; [congruence|rewrite Hpw in Hn; discriminate].
Qed.

Lemma agrees_put : forall cp accts tk a blob key,
  agrees cp accts tk -> pair_ok cp (a, blob) (a, key) ->
  agrees cp (acct_put a blob accts) (acct_put a key tk).
Proof.
  intros cp accts tk a blob key H Hp.
  induction H as [|[b v] [b' k'] accts tk Hh Ht IH]; simpl.
  - constructor; [exact Hp|constructor].
  - destruct Hh as [Hid Hrest]. simpl in Hid. subst b'.
    destruct (N.eqb a b).
    + constructor; [exact Hp|exact Ht].
    + destruct (N.ltb a b).
      * constructor; [exact Hp|]. constructor; [split; [reflexivity|exact Hrest]|exact Ht].
      * constructor; [split; [reflexivity|exact Hrest]|exact IH].
Qed.

Lemma agrees_get : forall cp accts tk a key,
  agrees cp accts tk -> acct_get a tk = Some key ->
  exists blob, acct_get a accts = Some blob /\ supported_len key = true
               /\ cbc_decrypter D cp blob = Some key.
Proof.
  intros cp accts tk a key H.
  induction H as [|[b v] [b' k'] accts tk Hh _ IH]; simpl; [discriminate|].
  destruct Hh as [Hid [Hs Hd]]. simpl in *. subst b'.
  destruct (N.eqb a b).
  - intros X. inversion X; subst. exists v. auto.
  - exact IH.
Qed.

Lemma agrees_get_none : forall cp accts tk a,
  agrees cp accts tk -> acct_get a accts = None -> acct_get a tk = None.
Proof.
  intros cp accts tk a H.
  induction H as [|[b v] [b' k'] accts tk Hh _ IH]; simpl; [reflexivity|].
  destruct Hh as [Hid _]. simpl in Hid. subst b'.
  destruct (N.eqb a b); [discriminate|exact IH].
Qed.

Lemma encrypt_pair_ok : forall pw iv a key,
  length iv = 16 -> supported_len key = true ->
  exists blob, cbc_encrypter E pw iv key = Some blob /\ pair_ok pw (a, blob) (a, key).
Proof.
  intros pw iv a key Liv Hs.
  destruct (cbc_roundtrip E D D_E E_len pw iv key Liv Hs) as [blob [He [_ [_ [_ Hd]]]]].
  exists blob. split; [exact He|]. split; [reflexivity|]. split; [exact Hs|exact Hd].
Qed.

Lemma reencrypt_agrees : forall cp newpw ivs accts tk,
  agrees cp accts tk ->
  Forall (fun p : N * bytes => length (snd p) = 16) ivs ->
  exists accts', reencrypt_all E D cp newpw ivs accts = Some accts' /\ agrees newpw accts' tk.
Proof.
  intros cp newpw ivs accts tk H Hiv.
  induction H as [|[a blob] [a' key] accts tk Hh _ IH].
  - exists []. split; [reflexivity|constructor].
  - destruct Hh as [Hid [Hs Hd]]. simpl in Hid, Hs, Hd. subst a'.
    destruct IH as [tl' [Htl Hag]].
    cbn [reencrypt_all]. rewrite (key_record_not_nil D cp blob key Hd Hs), Hd.
    destruct (encrypt_pair_ok newpw _ a key (iv_lookup_len ivs a Hiv) Hs) as [blob' [He Hp]].
    rewrite He, Htl. eexists. split; [reflexivity|]. constructor; assumption.
Qed.

Lemma step_R : forall ed w ts tk o w' r,
  R w ts tk -> op_ok o -> stepM ed w o = (w', r) ->
  R w' (truth_seed ts o r) (truth_keys tk o r).
Proof.
  intros ed w ts tk o w' r HR Hok Hst.
  destruct (step_cases ed w o w' r Hst) as [[Hr ->]|[-> Hok']]; clear Hst.
  { destruct o, r; try exact HR; contradiction Hr; reflexivity. }
  destruct o; cbn [op_ok] in Hok; cbn [ok_effect] in Hok'; try contradiction;
    cbn [truth_seed truth_keys].
  - (* SaveSeed: there was no seed, hence nothing *)
    destruct Hok' as [Hs [Hv ->]]. destruct ts as [s|].
    + destruct HR as [cp [[_ [_ [_ [Hs' _]]]] _]]. congruence.
    + destruct HR as [_ [-> ->]]. apply R_fresh; [exact Hv|exact Hok|constructor].
  - (* Unlock *)
    destruct Hok' as [Hacc ->]. destruct ts as [s|]; [|exact HR].
    destruct HR as [cp [Hdb Hm]]. exists cp. split; [exact Hdb|].
    split; [exact (proj1 Hm)|left]. exact (accepted_is_current w cp s tk pw Hdb Hm Hacc).
  - (* Lock *)
    subst w'. destruct ts as [s|]; [|exact HR].
    destruct HR as [cp [Hdb [Hf Hpw]]]. exists cp. split; [exact Hdb|]. split; [exact Hf|].
    destruct Hpw as [Hpw|[Hpw _]]; [left; exact Hpw|right; split; [exact Hpw|reflexivity]].
  - (* Restart *)
    subst w'. destruct ts as [s|]; [|exact HR].
    destruct HR as [cp [Hdb _]]. exists cp. split; [exact Hdb|].
    split; [exact (proj1 (proj2 Hdb))|right; split; reflexivity].
  - (* Import: the wallet is unlocked, so the password in memory is the current one *)
    destruct Hok' as [Hl [Hs [Hal [blob [He ->]]]]]. destruct ts as [s|].
    + destruct HR as [cp [[Hh [Hdf [Hne [_ [Hg Ha]]]]] [Hf Hpw]]].
      destruct Hpw as [Hpw|[_ Hpw]]; [|congruence].
      apply accept_len_supported in Hal.
      destruct (encrypt_pair_ok cp iv a key Hok Hal) as [b0 [He0 Hp]].
      rewrite Hpw, He0 in He. injection He as <-.
      exists cp. split; [|split; [exact Hf|left; exact Hpw]].
      repeat split; try assumption.
      apply agrees_put; assumption.
    + destruct HR as [Hs' _]. congruence.
  - (* SetPasswd: the old password is the current one, so everything decrypts *)
    destruct Hok as [Ln Hiv].
    destruct Hok' as [Hv [Hacc [Hs [seed [accts' [Hg [Hre ->]]]]]]]. destruct ts as [s|].
    + destruct HR as [cp [Hdb Hm]].
      pose proof (accepted_is_current w cp s tk oldpw Hdb Hm Hacc). subst oldpw.
      destruct Hdb as [_ [_ [_ [_ [Hg' Ha]]]]].
      rewrite Hg' in Hg. injection Hg as <-.
      destruct (reencrypt_agrees cp newpw ivs _ _ Ha Hiv) as [a2 [Hre' Hag]].
      rewrite Hre in Hre'. injection Hre' as <-.
      apply R_fresh; assumption.
    + destruct HR as [Hs' _]. congruence.
Qed.

Fixpoint run_truth (ed : bool) (w : wallet) (ts : option bytes) (tk : list (N * bytes))
         (ops : list op) : wallet * option bytes * list (N * bytes) :=
  match ops with
  | [] => (w, ts, tk)
  | o :: tl =>
      let wr := stepM ed w o in
      run_truth ed (fst wr) (truth_seed ts o (snd wr)) (truth_keys tk o (snd wr)) tl
  end.

Lemma run_R : forall ed ops w ts tk,
  R w ts tk -> Forall op_ok ops ->
  match run_truth ed w ts tk ops with (w', ts', tk') => R w' ts' tk' end.
Proof.
  intros ed ops. induction ops as [|o ops IH]; intros w ts tk HR Hok; cbn [run_truth]; [exact HR|].
  inversion Hok as [|? ? Ho Hops]; subst.
  apply IH; [|exact Hops].
  eapply step_R; [exact HR|exact Ho|]. apply surjective_pairing.
Qed.

(** What the invariant means for the reads the API offers. *)
Definition secrets_intact (ed : bool) (w : wallet) (ts : option bytes) (tk : list (N * bytes)) : Prop :=
  match ts with
  | None => w_accts w = [] /\ has_seed w = false
  | Some s =>
      exists cp,
        w_hash w = Some cp /\
        gcm_decrypter open cp (w_seed w) = Some s /\
        (forall a key, acct_get a tk = Some key ->
           exists blob, acct_get a (w_accts w) = Some blob /\ cbc_decrypter D cp blob = Some key) /\
        (w_locked w = false ->
           snd (stepM ed w (OGetSeed cp)) = RBytes s /\
           forall a key, acct_get a tk = Some key -> snd (stepM ed w (ODump a)) = RBytes key)
  end.

Lemma R_secrets_intact : forall ed w ts tk, R w ts tk -> secrets_intact ed w ts tk.
Proof.
  intros ed w ts tk HR. destruct ts as [s|]; cbn [secrets_intact].
  - destruct HR as [cp [[Hh [_ [Hne [Hs [Hg Ha]]]]] [_ Hpw]]].
    exists cp. split; [exact Hh|]. split; [exact Hg|]. split.
    + intros a key Hk. destruct (agrees_get cp _ _ a key Ha Hk) as [blob [H1 [_ H3]]].
      exists blob. auto.
    + intros Hl.
      destruct Hpw as [Hpw|[_ Hpw]]; [|rewrite Hl in Hpw; discriminate].
      assert (Hc : check_status w = None) by (unfold check_status; rewrite Hl, Hs; reflexivity).
      split.
      * cbn [step]. rewrite Hc. destruct cp as [|c cp]; [contradiction|]. cbn [is_nil].
        rewrite Hg. reflexivity.
      * intros a key Hk. destruct (agrees_get cp _ _ a key Ha Hk) as [blob [H1 [H2 H3]]].
        cbn [step]. rewrite Hc, H1, (key_record_not_nil D cp blob key H3 H2), Hpw, H3.
        reflexivity.
  - destruct HR as [Hs [Ha _]]. split; assumption.
Qed.

(** From any wallet that satisfies the invariant (for instance one left by an
    older release, see [legacy_wallet_R]). *)
Lemma setpasswd_preserves_from : forall ed ops w0 ts0 tk0,
  R w0 ts0 tk0 -> Forall op_ok ops ->
  match run_truth ed w0 ts0 tk0 ops with
  | (w, ts, tk) => secrets_intact ed w ts tk
  end.
Proof.
  intros ed ops w0 ts0 tk0 H0 Hok.
  pose proof (run_R ed ops w0 ts0 tk0 H0 Hok) as H.
  destruct (run_truth ed w0 ts0 tk0 ops) as [[w ts] tk].
  apply R_secrets_intact. exact H.
Qed.

Lemma setpasswd_preserves : forall ed ops,
  Forall op_ok ops ->
  match run_truth ed w_init None [] ops with
  | (w, ts, tk) => secrets_intact ed w ts tk
  end.
Proof. intros ed ops. apply setpasswd_preserves_from. exact R_init. Qed.

(** A wallet written by the release before the IV / nonce randomisation. *)
Definition legacy_wallet (cp seed : bytes) (tk : list (N * bytes)) : wallet :=
  mkW (gcm_legacy_encrypter seal cp seed) (Some cp) true
      (map (fun ak : N * bytes => (fst ak, cbc_legacy_encrypter E cp (snd ak))) tk)
      [] true true.

Lemma legacy_wallet_R : forall cp seed tk,
  cp <> [] ->
  Forall (fun ak : N * bytes => supported_len (snd ak) = true) tk ->
  (let blob := gcm_legacy_encrypter seal cp seed in
   open (derive_key cp) (firstn 12 blob) (skipn 12 blob) = None) ->
  R (legacy_wallet cp seed tk) (Some seed) tk.
Proof.
  intros cp seed tk Hne Hs Hrej. exists cp. split.
  - split; [reflexivity|]. split; [reflexivity|]. split; [exact Hne|].
    split; [|split].
    + unfold has_seed, legacy_wallet, gcm_legacy_encrypter. cbn [w_seed]. rewrite seal_len.
      rewrite Nat.add_comm. reflexivity.
    + apply (gcm_legacy_roundtrip seal open open_seal). exact Hrej.
    + induction Hs as [|[a key] tk Hk _ IH]; cbn; constructor; [|exact IH].
      split; [reflexivity|]. split; [exact Hk|].
      apply (cbc_legacy_roundtrip E D D_E E_len cp key Hk).
  - split; [reflexivity|right; split; reflexivity].
Qed.

(** A failed password change leaves the whole wallet (DB and memory) as it
    was — no invariant needed. *)
Lemma setpasswd_failure_unchanged : forall ed w oldpw newpw nonce ivs wfail,
  snd (stepM ed w (OSetPasswd oldpw newpw nonce ivs wfail)) <> ROk ->
  fst (stepM ed w (OSetPasswd oldpw newpw nonce ivs wfail)) = w.
Proof.
  intros ed w oldpw newpw nonce ivs wfail Hr.
  destruct (step_cases ed w (OSetPasswd oldpw newpw nonce ivs wfail) _ _ (surjective_pairing _))
    as [[_ H]|[H _]]; [exact H|contradiction].
Qed.

End Wallet.

(** Non-vacuity: a concrete cipher and a concrete history. *)
Definition toy_seal (k n m : bytes) : bytes := m ++ repeat 0%N 16.
Definition toy_open (k n c : bytes) : option bytes := Some (firstn (length c - 16) c).

Lemma toy_open_seal : forall k n m, toy_open k n (toy_seal k n m) = Some m.
Proof.
  intros. unfold toy_open, toy_seal. rewrite app_length, repeat_length.
  replace (length m + 16 - 16) with (length m) by lia.
  rewrite (firstn_len_app m _ (length m) eq_refl). reflexivity.
Qed.

Lemma toy_seal_len : forall k n m, length (toy_seal k n m) = length m + 16.
Proof. intros. unfold toy_seal. rewrite app_length, repeat_length. reflexivity. Qed.

Definition ex_pw1 : bytes := [97;98;99;100;101;102;103;49]%N.
Definition ex_pw2 : bytes := [120;121;122;100;101;102;103;50]%N.
Definition ex_key : bytes := repeat 5%N 32.
Definition ex_history : list op :=
  [ OSaveSeed ex_pw1 [115;101;101;100]%N (repeat 1%N 12);
    OUnlock ex_pw1;
    OImport 0%N ex_key (repeat 2%N 16);
    OSetPasswd ex_pw2 ex_pw2 (repeat 3%N 12) [(0%N, repeat 4%N 16)] false;   (* wrong old password *)
    OSetPasswd ex_pw1 ex_pw2 (repeat 3%N 12) [(0%N, repeat 4%N 16)] true;    (* write fails *)
    OSetPasswd ex_pw1 ex_pw2 (repeat 3%N 12) [(0%N, repeat 4%N 16)] false;   (* succeeds *)
    ORestart;
    OUnlock ex_pw2 ].

Example ex_history_ok : Forall op_ok ex_history.
Proof. repeat constructor. Qed.

Example ex_history_result :
  match run_truth idc idc toy_seal toy_open false w_init None [] ex_history with
  | (w, ts, tk) =>
      ts = Some [115;101;101;100]%N /\ tk = [(0%N, ex_key)] /\ w_hash w = Some ex_pw2 /\
      w_locked w = false /\
      snd (step idc idc toy_seal toy_open false w (ODump 0%N)) = RBytes ex_key
  end.
Proof. vm_compute. repeat split. Qed.
