(** C37 — GCM seed encryption round trips and key derivation facts. *)
From Coq Require Import List NArith Arith Bool Lia.
From C33 Require Import Lib.Harness C37.Model C37.ProofsCbc.
Import ListNotations.

Section Gcm.

Variable seal : bytes -> bytes -> bytes -> bytes.
Variable open : bytes -> bytes -> bytes -> option bytes.
(** AEAD correctness and the GCM ciphertext length (16-byte tag). *)
Hypothesis open_seal : forall k n m, open k n (seal k n m) = Some m.
Hypothesis seal_len : forall k n m, length (seal k n m) = length m + 16.

Lemma gcm_encrypter_length : forall pw nonce seed,
  length (gcm_encrypter seal pw nonce seed) = length nonce + length seed + 16.
Proof.
  intros. unfold gcm_encrypter. rewrite app_length, seal_len. lia.
Qed.

Lemma gcm_decrypter_first_wins : forall pw blob m,
  (12 <? length blob) = true ->
  open (derive_key pw) (firstn 12 blob) (skipn 12 blob) = Some m ->
  gcm_decrypter open pw blob = Some m.
Proof.
  intros pw blob m L H. unfold gcm_decrypter. rewrite L, H. reflexivity.
Qed.

Lemma gcm_roundtrip : forall pw nonce seed,
  length nonce = 12 ->
  gcm_decrypter open pw (gcm_encrypter seal pw nonce seed) = Some seed.
Proof.
  intros pw nonce seed Ln. apply gcm_decrypter_first_wins.
  - apply Nat.ltb_lt. rewrite gcm_encrypter_length. lia.
  - unfold gcm_encrypter.
    rewrite (firstn_len_app nonce _ 12 Ln), (skipn_len_app nonce _ 12 Ln).
    apply open_seal.
Qed.

(** Legacy fixed-nonce blob: accepted by the fallback, provided the first
    attempt (reading its first 12 bytes as a nonce) is rejected — which is what
    GCM authentication gives, and is a premise here. *)
Lemma gcm_legacy_roundtrip : forall pw seed,
  let blob := gcm_legacy_encrypter seal pw seed in
  open (derive_key pw) (firstn 12 blob) (skipn 12 blob) = None ->
  gcm_decrypter open pw blob = Some seed.
Proof.
  intros pw seed blob Hrej.
  unfold gcm_decrypter.
  destruct (12 <? length blob); [rewrite Hrej|];
    unfold blob, gcm_legacy_encrypter; apply open_seal.
Qed.

Lemma gcm_encrypter_not_nil : forall pw nonce seed,
  length nonce = 12 -> (length (gcm_encrypter seal pw nonce seed) =? 0) = false.
Proof.
  intros. apply Nat.eqb_neq. rewrite gcm_encrypter_length. lia.
Qed.

End Gcm.

Definition no_nul (pw : bytes) : bool := forallb (fun c => negb (c =? 0)%N) pw.

(** what isValidPassWord guarantees about the bytes of a password *)
Definition wallet_pw_ok (pw : bytes) : bool := (length pw <=? 32) && no_nul pw.

Lemma pad_injective : forall a b n m,
  no_nul a = true -> no_nul b = true ->
  a ++ repeat 0%N n = b ++ repeat 0%N m -> a = b.
Proof.
  induction a as [|x a IH]; intros [|y b] n m Ha Hb H; simpl in *.
  - reflexivity.
  - destruct n as [|n]; simpl in H; [discriminate|].
    inversion H; subst. apply andb_true_iff in Hb as [Hy _]. discriminate.
  - destruct m as [|m]; simpl in H; [discriminate|].
    inversion H; subst. apply andb_true_iff in Ha as [Hx _]. discriminate.
  - inversion H; subst.
    apply andb_true_iff in Ha as [_ Ha]. apply andb_true_iff in Hb as [_ Hb].
    f_equal. eapply IH; eassumption.
Qed.

Lemma derive_key_short : forall pw, length pw <= 32 -> derive_key pw = pw ++ repeat 0%N (32 - length pw).
Proof.
  intros pw L. unfold derive_key.
  destruct (32 <? length pw) eqn:C; [apply Nat.ltb_lt in C; lia|reflexivity].
Qed.

Lemma derive_key_injective_ok : forall pw1 pw2,
  wallet_pw_ok pw1 = true -> wallet_pw_ok pw2 = true ->
  derive_key pw1 = derive_key pw2 -> pw1 = pw2.
Proof.
  intros pw1 pw2 H1 H2 H.
  apply andb_true_iff in H1 as [L1 N1]. apply andb_true_iff in H2 as [L2 N2].
  apply Nat.leb_le in L1. apply Nat.leb_le in L2.
  rewrite (derive_key_short pw1 L1), (derive_key_short pw2 L2) in H.
  eapply pad_injective; eassumption.
Qed.

Lemma valid_chars_no_nul : forall pw,
  forallb (fun c => is_letter c || is_digit c) pw = true -> no_nul pw = true.
Proof.
  induction pw as [|c pw IH]; simpl; [reflexivity|].
  intros H. apply andb_true_iff in H as [Hc H]. rewrite (IH H), andb_true_r.
  destruct (N.eqb_spec c 0) as [->|]; [discriminate|reflexivity].
Qed.

Lemma valid_password_ok : forall pw, valid_password pw = true -> wallet_pw_ok pw = true.
Proof.
  intros pw H. unfold valid_password in H.
  apply andb_true_iff in H as [H _]. apply andb_true_iff in H as [H _].
  apply andb_true_iff in H as [H Hc]. apply andb_true_iff in H as [_ H30].
  unfold wallet_pw_ok. apply andb_true_iff. split.
  - apply Nat.leb_le. apply Nat.leb_le in H30. lia.
  - apply valid_chars_no_nul. exact Hc.
Qed.

Lemma valid_password_not_nil : forall pw, valid_password pw = true -> pw <> [].
Proof. intros pw H ->. discriminate. Qed.

Definition password_separation_full : Prop :=
  forall pw1 pw2 : bytes, pw1 <> pw2 -> derive_key pw1 <> derive_key pw2.

Lemma password_separation_refuted : ~ password_separation_full.
Proof.
  intros H.
  apply (H (repeat 65%N 32 ++ [1%N]) (repeat 65%N 32 ++ [2%N])).
  - intros X. apply app_inv_head in X. discriminate.
  - vm_compute. reflexivity.
Qed.

(** zero padding collides as well *)
Lemma password_separation_refuted_padding :
  exists pw1 pw2 : bytes, pw1 <> pw2 /\ length pw1 <= 32 /\ length pw2 <= 32
                          /\ derive_key pw1 = derive_key pw2.
Proof.
  exists [97%N], [97%N; 0%N]. repeat split; try (simpl; lia). discriminate.
Qed.

Lemma password_separation_partial : forall pw1 pw2,
  valid_password pw1 = true -> valid_password pw2 = true ->
  pw1 <> pw2 -> derive_key pw1 <> derive_key pw2.
Proof.
  intros pw1 pw2 H1 H2 Hne He. apply Hne.
  apply derive_key_injective_ok; auto using valid_password_ok.
Qed.

Lemma interchangeable : forall E D seal open pw1 pw2,
  derive_key pw1 = derive_key pw2 ->
  (forall iv p, cbc_encrypter E pw1 iv p = cbc_encrypter E pw2 iv p) /\
  (forall b, cbc_decrypter D pw1 b = cbc_decrypter D pw2 b) /\
  (forall n s, gcm_encrypter seal pw1 n s = gcm_encrypter seal pw2 n s) /\
  (forall b, gcm_decrypter open pw1 b = gcm_decrypter open pw2 b).
Proof.
  intros E D seal open pw1 pw2 H.
  unfold cbc_encrypter, cbc_decrypter, gcm_encrypter, gcm_decrypter. rewrite H.
  repeat split; reflexivity.
Qed.

Example valid_password_example :
  valid_password [97;98;99;100;101;102;103;49]%N = true /\
  valid_password [97;98;99;100;101;102;103;104]%N = false.
Proof. split; reflexivity. Qed.

(** Non-vacuity of the legacy-seed premise: an AEAD that authenticates (the
    tag is key ++ nonce) rejects the nonce-prefixed reading of a legacy blob,
    and the fallback returns the seed. *)
Definition tag_seal (k n m : bytes) : bytes := m ++ k ++ n.
Definition tag_open (k n c : bytes) : option bytes :=
  let l := length c in
  let tl := length k + length n in
  if l <? tl then None
  else if bytes_eqb (skipn (l - tl) c) (k ++ n) then Some (firstn (l - tl) c) else None.

Lemma tag_open_seal : forall k n m, tag_open k n (tag_seal k n m) = Some m.
Proof.
  intros k n m. unfold tag_open, tag_seal.
  rewrite !app_length.
  destruct (length m + (length k + length n) <? length k + length n) eqn:C.
  - apply Nat.ltb_lt in C. lia.
  - replace (length m + (length k + length n) - (length k + length n)) with (length m) by lia.
    rewrite (skipn_len_app m _ (length m) eq_refl), (firstn_len_app m _ (length m) eq_refl).
    assert (X : bytes_eqb (k ++ n) (k ++ n) = true).
    { apply list_eqb_spec; [intros x y; apply N.eqb_eq|reflexivity]. }
    rewrite X. reflexivity.
Qed.

Example gcm_legacy_example :
  let pw := [97;98;99;100;101;102;103;49]%N in
  let seed := [115;101;101;100;32;119;111;114;100;115;32;104;101;114;101]%N in
  let blob := gcm_legacy_encrypter tag_seal pw seed in
  tag_open (derive_key pw) (firstn 12 blob) (skipn 12 blob) = None /\
  gcm_decrypter tag_open pw blob = Some seed /\
  gcm_decrypter tag_open pw (gcm_encrypter tag_seal pw (repeat 9%N 12) seed) = Some seed.
Proof. vm_compute. repeat split. Qed.
