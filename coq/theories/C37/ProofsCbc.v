(** C37 — CBC private-key encryption: round trips, legacy format, format test. *)
From Coq Require Import List NArith Arith Bool Lia.
From C33 Require Import Lib.Harness C37.Model.
Import ListNotations.

Lemma bxor_invol : forall a b, length a = length b -> bxor (bxor a b) b = a.
Proof.
  induction a as [|x a IH]; intros [|y b] L; simpl in *; try discriminate; try reflexivity.
  f_equal.
  - rewrite N.lxor_assoc, N.lxor_nilpotent, N.lxor_0_r. reflexivity.
  - apply IH. injection L as L. exact L.
Qed.

Lemma bxor_length : forall a b, length a = length b -> length (bxor a b) = length a.
Proof.
  induction a as [|x a IH]; intros [|y b] L; simpl in *; try discriminate; try reflexivity.
  f_equal. apply IH. injection L as L. exact L.
Qed.

Lemma firstn_len_app : forall (a b : bytes) n, length a = n -> firstn n (a ++ b) = a.
Proof.
  intros a b n <-. rewrite firstn_app, Nat.sub_diag, firstn_all. simpl. apply app_nil_r.
Qed.

Lemma skipn_len_app : forall (a b : bytes) n, length a = n -> skipn n (a ++ b) = b.
Proof.
  intros a b n <-. rewrite skipn_app, Nat.sub_diag, skipn_all. reflexivity.
Qed.

Definition all16 (bs : list bytes) : Prop := Forall (fun b => length b = 16) bs.

Lemma concat_length16 : forall bs, all16 bs -> length (concat bs) = 16 * length bs.
Proof.
  induction 1 as [|b bs Hb _ IH]; simpl; [reflexivity|].
  rewrite app_length, IH, Hb. lia.
Qed.

Lemma chunks_exact : forall n l,
  length l = 16 * n -> all16 (chunks n l) /\ concat (chunks n l) = l.
Proof.
  induction n as [|n IH]; intros l L; cbn [chunks concat].
  - split; [constructor|]. symmetry. apply length_zero_iff_nil. exact L.
  - destruct (IH (skipn 16 l)) as [H16 Hc]; [rewrite skipn_length; lia|].
    split.
    + constructor; [rewrite firstn_length; lia|exact H16].
    + rewrite Hc. apply firstn_skipn.
Qed.

Lemma blocks_full : forall l,
  full_blocks l = true -> all16 (blocks_of l) /\ concat (blocks_of l) = l.
Proof.
  intros l H. apply chunks_exact, Nat.div_exact; [discriminate|].
  apply Nat.eqb_eq. exact H.
Qed.

Lemma chunks_of_concat : forall bs, all16 bs -> chunks (length bs) (concat bs) = bs.
Proof.
  induction 1 as [|b bs Hb _ IH]; [reflexivity|].
  cbn [length chunks concat].
  rewrite (firstn_len_app b (concat bs) 16 Hb), (skipn_len_app b (concat bs) 16 Hb), IH.
  reflexivity.
Qed.

Lemma blocks_of_concat : forall bs, all16 bs -> blocks_of (concat bs) = bs.
Proof.
  intros bs H. unfold blocks_of.
  rewrite (concat_length16 bs H), Nat.mul_comm, Nat.div_mul by discriminate.
  apply chunks_of_concat. exact H.
Qed.

Lemma derive_key_length : forall pw, length (derive_key pw) = 32.
Proof.
  intros pw. unfold derive_key. destruct (32 <? length pw) eqn:C.
  - apply Nat.ltb_lt in C. rewrite firstn_length. lia.
  - apply Nat.ltb_ge in C. rewrite app_length, repeat_length. lia.
Qed.

Lemma supported_len_cases : forall key,
  supported_len key = true -> length key = 32 \/ length key = 64.
Proof.
  intros key H. unfold supported_len in H. apply orb_true_iff in H as [H|H];
    apply Nat.eqb_eq in H; auto.
Qed.

Lemma full_blocks_supported : forall key, supported_len key = true -> full_blocks key = true.
Proof.
  intros key H. unfold full_blocks.
  destruct (supported_len_cases key H) as [L|L]; rewrite L; reflexivity.
Qed.

(** 48 = 16 + 32 and 80 = 16 + 64: an IV in front of a key of a supported length. *)
Lemma is_new_format_iff : forall blob,
  is_new_format blob = true <-> (length blob = 48 \/ length blob = 80).
Proof.
  intros blob. unfold is_new_format. split.
  - intros H. apply andb_true_iff in H as [H H3]. apply andb_true_iff in H as [H1 _].
    apply Nat.ltb_lt in H1. apply orb_true_iff in H3 as [H3|H3]; apply Nat.eqb_eq in H3; lia.
  - intros [L|L]; rewrite L; reflexivity.
Qed.

Section Cbc.

Variable E D : bytes -> bytes -> bytes.
(** AES under a fixed key is a permutation of the 16-byte blocks. *)
Hypothesis D_E : forall k b, length b = 16 -> D k (E k b) = b.
Hypothesis E_len : forall k b, length b = 16 -> length (E k b) = 16.

Lemma enc_blocks_all16 : forall k ps prev,
  all16 ps -> length prev = 16 -> all16 (cbc_enc_blocks E k prev ps).
Proof.
  intros k ps. induction ps as [|p ps IH]; intros prev Hp Hv; cbn [cbc_enc_blocks]; [constructor|].
  inversion Hp as [|? ? Hp1 Hp2]; subst.
  assert (L : length (E k (bxor p prev)) = 16).
  { apply E_len. rewrite bxor_length; congruence. }
  constructor; [exact L|]. apply IH; assumption.
Qed.

Lemma enc_blocks_length : forall k ps prev,
  length (cbc_enc_blocks E k prev ps) = length ps.
Proof.
  intros k ps. induction ps as [|p ps IH]; intros prev; cbn [cbc_enc_blocks length]; [reflexivity|].
  f_equal. apply IH.
Qed.

Lemma blocks_roundtrip : forall k ps prev,
  all16 ps -> length prev = 16 ->
  cbc_dec_blocks D k prev (cbc_enc_blocks E k prev ps) = ps.
Proof.
  intros k ps. induction ps as [|p ps IH]; intros prev Hp Hv; [reflexivity|].
  inversion Hp as [|? ? Hp1 Hp2]; subst.
  cbn [cbc_enc_blocks cbc_dec_blocks].
  assert (Lx : length (bxor p prev) = 16) by (rewrite bxor_length; congruence).
  rewrite D_E by exact Lx.
  rewrite bxor_invol by congruence.
  f_equal. apply IH; [assumption|]. apply E_len. exact Lx.
Qed.

Lemma raw_length : forall k iv p,
  full_blocks p = true -> length iv = 16 -> length (cbc_encrypt_raw E k iv p) = length p.
Proof.
  intros k iv p Hp Liv. destruct (blocks_full p Hp) as [H16 Hc].
  unfold cbc_encrypt_raw.
  rewrite concat_length16 by (apply enc_blocks_all16; assumption).
  rewrite enc_blocks_length, <- concat_length16, Hc by exact H16. reflexivity.
Qed.

Lemma raw_roundtrip : forall k iv p,
  full_blocks p = true -> length iv = 16 ->
  cbc_decrypt_raw D k iv (cbc_encrypt_raw E k iv p) = p.
Proof.
  intros k iv p Hp Liv. destruct (blocks_full p Hp) as [H16 Hc].
  unfold cbc_decrypt_raw, cbc_encrypt_raw.
  rewrite blocks_of_concat by (apply enc_blocks_all16; assumption).
  rewrite blocks_roundtrip by assumption. exact Hc.
Qed.

(** The decrypter returns what was encrypted, in either format and for every
    plaintext of full blocks, as long as its length test takes the blob for
    what it is.  The test is right for the supported key lengths, which gives
    the two round trips below, and wrong for others (the refutations). *)
Lemma decrypt_prefixed : forall pw iv p,
  length iv = 16 -> full_blocks p = true ->
  is_new_format (iv ++ cbc_encrypt_raw E (derive_key pw) iv p) = true ->
  cbc_decrypter D pw (iv ++ cbc_encrypt_raw E (derive_key pw) iv p) = Some p.
Proof.
  intros pw iv p Liv Hp Hnew. unfold cbc_decrypter. rewrite Hnew.
  rewrite (firstn_len_app iv _ 16 Liv), (skipn_len_app iv _ 16 Liv).
  rewrite raw_roundtrip by assumption. reflexivity.
Qed.

Lemma legacy_iv_length : forall pw, length (firstn 16 (derive_key pw)) = 16.
Proof. intros pw. rewrite firstn_length, derive_key_length. reflexivity. Qed.

Lemma legacy_length : forall pw p,
  full_blocks p = true -> length (cbc_legacy_encrypter E pw p) = length p.
Proof. intros pw p Hp. apply raw_length; [exact Hp|apply legacy_iv_length]. Qed.

Lemma decrypt_legacy : forall pw p,
  full_blocks p = true -> is_new_format (cbc_legacy_encrypter E pw p) = false ->
  cbc_decrypter D pw (cbc_legacy_encrypter E pw p) = Some p.
Proof.
  intros pw p Hp Hold. unfold cbc_decrypter. rewrite Hold.
  unfold full_blocks. rewrite legacy_length by exact Hp. fold (full_blocks p). rewrite Hp.
  unfold cbc_legacy_encrypter. rewrite raw_roundtrip by (exact Hp || apply legacy_iv_length).
  reflexivity.
Qed.

Lemma cbc_roundtrip : forall pw iv priv,
  length iv = 16 -> supported_len priv = true ->
  exists blob,
    cbc_encrypter E pw iv priv = Some blob /\
    length blob = 16 + length priv /\
    firstn 16 blob = iv /\
    is_new_format blob = true /\
    cbc_decrypter D pw blob = Some priv.
Proof.
  intros pw iv priv Liv Hs.
  pose proof (full_blocks_supported priv Hs) as Hp.
  unfold cbc_encrypter. rewrite Hp. eexists. split; [reflexivity|].
  assert (Lb : length (iv ++ cbc_encrypt_raw E (derive_key pw) iv priv) = 16 + length priv).
  { rewrite app_length, raw_length, Liv by assumption. reflexivity. }
  assert (Hnew : is_new_format (iv ++ cbc_encrypt_raw E (derive_key pw) iv priv) = true).
  { apply is_new_format_iff. rewrite Lb.
    destruct (supported_len_cases priv Hs) as [L|L]; rewrite L; auto. }
  split; [exact Lb|]. split; [apply firstn_len_app; exact Liv|]. split; [exact Hnew|].
  apply decrypt_prefixed; assumption.
Qed.

Lemma cbc_legacy_roundtrip : forall pw priv,
  supported_len priv = true ->
  length (cbc_legacy_encrypter E pw priv) = length priv /\
  is_new_format (cbc_legacy_encrypter E pw priv) = false /\
  cbc_decrypter D pw (cbc_legacy_encrypter E pw priv) = Some priv.
Proof.
  intros pw priv Hs.
  pose proof (full_blocks_supported priv Hs) as Hp.
  pose proof (legacy_length pw priv Hp) as Lc.
  assert (Hold : is_new_format (cbc_legacy_encrypter E pw priv) = false).
  { apply not_true_is_false. intros C. apply is_new_format_iff in C. rewrite Lc in C.
    destruct (supported_len_cases priv Hs) as [L|L]; rewrite L in C;
      destruct C; discriminate. }
  split; [exact Lc|]. split; [exact Hold|]. apply decrypt_legacy; assumption.
Qed.

Lemma formats_disjoint : forall pw iv priv,
  length iv = 16 -> supported_len priv = true ->
  (forall blob, cbc_encrypter E pw iv priv = Some blob -> is_new_format blob = true) /\
  is_new_format (cbc_legacy_encrypter E pw priv) = false.
Proof.
  intros pw iv priv Liv Hs. split.
  - intros blob Hb. destruct (cbc_roundtrip pw iv priv Liv Hs) as [b [H1 [_ [_ [H4 _]]]]].
    rewrite Hb in H1. inversion H1; subst. exact H4.
  - apply (cbc_legacy_roundtrip pw priv Hs).
Qed.

Lemma key_record_not_nil : forall pw blob key,
  cbc_decrypter D pw blob = Some key -> supported_len key = true -> is_nil blob = false.
Proof.
  intros pw [|x blob] key H Hs; [|reflexivity].
  cbn in H. injection H as <-. discriminate Hs.
Qed.

End Cbc.

Definition idc (k b : bytes) : bytes := b.

Definition cbc_roundtrip_anylen_full : Prop :=
  forall (E D : bytes -> bytes -> bytes),
    (forall k b, length b = 16 -> D k (E k b) = b) ->
    (forall k b, length b = 16 -> length (E k b) = 16) ->
    forall pw iv priv blob,
      length iv = 16 -> full_blocks priv = true -> priv <> [] ->
      cbc_encrypter E pw iv priv = Some blob -> cbc_decrypter D pw blob = Some priv.

Lemma cbc_roundtrip_anylen_refuted : ~ cbc_roundtrip_anylen_full.
Proof.
  intros H.
  pose (iv := repeat 0%N 16). pose (priv := repeat 7%N 16).
  pose (blob := match cbc_encrypter idc [] iv priv with Some b => b | None => [] end).
  assert (X : priv <> []) by discriminate.
  assert (Y : cbc_encrypter idc [] iv priv = Some blob) by (vm_compute; reflexivity).
  specialize (H idc idc (fun _ _ _ => eq_refl) (fun _ _ L => L)
                [] iv priv blob eq_refl eq_refl X Y).
  vm_compute in H. discriminate.
Qed.

Definition cbc_legacy_anylen_full : Prop :=
  forall (E D : bytes -> bytes -> bytes),
    (forall k b, length b = 16 -> D k (E k b) = b) ->
    (forall k b, length b = 16 -> length (E k b) = 16) ->
    forall pw priv,
      full_blocks priv = true ->
      cbc_decrypter D pw (cbc_legacy_encrypter E pw priv) = Some priv.

(** a legacy blob of a 48-byte secret has the length of an IV-prefixed 32-byte key *)
Lemma cbc_legacy_anylen_refuted : ~ cbc_legacy_anylen_full.
Proof.
  intros H.
  specialize (H idc idc (fun _ _ _ => eq_refl) (fun _ _ L => L) [] (repeat 7%N 48) eq_refl).
  vm_compute in H. discriminate.
Qed.

(** Non-vacuity: the hypotheses hold for a concrete cipher and the statement
    computes on a concrete 32-byte key. *)
From Coq Require Import String.
Example cbc_roundtrip_example :
  let pw := bs "passw0rd"%string in
  let iv := hx "000102030405060708090a0b0c0d0e0f"%string in
  let priv := hx "1111111111111111111111111111111122222222222222222222222222222222"%string in
  match cbc_encrypter idc pw iv priv with
  | Some blob => List.length blob = 48 /\ cbc_decrypter idc pw blob = Some priv
                 /\ cbc_decrypter idc pw (cbc_legacy_encrypter idc pw priv) = Some priv
  | None => False
  end.
Proof. vm_compute. repeat split. Qed.
