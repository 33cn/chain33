(** C23 — property theorems only.
    [filter_tx_list e nonce_of perm count excl isAll pool] is filterTxList on the
    pool (in Walk order) with the request's count and exclusion list;
    [get_tx_list] is the block producer's path (isAll = false), [event_tx_list]
    the EventTxList handler.  [nonce_of] is the answer of getCurrentNonce per
    sender and [perm] the order in which Go's map iteration visits the eth
    senders; every theorem but the closing satisfiability example quantifies over both. *)
From Coq Require Import List ZArith NArith Bool Lia Permutation.
From C33 Require Import C23.Model C23.Spec C23.ProofsWalk C23.ProofsMap C23.ProofsExamples.
Import ListNotations.
Open Scope Z_scope.

(** at most the requested number of entries *)
Theorem C23_length_le_count : forall e nonce_of perm count excl isAll pool,
  0 < count -> NoDup perm ->
  Z.of_nat (length (filter_tx_list e nonce_of perm count excl isAll pool)) <= count.
Proof.
  intros e nonce_of perm count excl isAll pool Hc Hn.
  pose proof (filter_walk_length e count excl isAll pool Hc) as Hw.
  unfold filter_tx_list. destruct (sort_active e); [|exact Hw].
  pose proof (sort_length nonce_of perm (filter_walk e count excl isAll pool) Hn). lia.
Qed.
Print Assumptions C23_length_le_count.

(** EventTxList: a count <= 0 is refused, otherwise the reply is getTxList *)
Theorem C23_event_reply : forall e nonce_of perm count excl pool,
  (count <= 0 -> event_tx_list e nonce_of perm count excl pool = RErr) /\
  (0 < count -> event_tx_list e nonce_of perm count excl pool
                = RList (filter_tx_list e nonce_of perm count excl false pool)).
Proof.
  intros. unfold event_tx_list, get_tx_list. split; intros H; destruct (Z.leb_spec count 0); auto; lia.
Qed.
Print Assumptions C23_event_reply.

(** no duplicates (the pool holds every hash once: C21's invariant) *)
Theorem C23_no_duplicates : forall e nonce_of perm count excl isAll pool,
  NoDup (map (fun it => t_id (i_tx it)) pool) -> NoDup perm ->
  (forall s, in64 (nonce_of s) = true) -> Z.of_nat (length pool) < two64 ->
  NoDup (map t_id (filter_tx_list e nonce_of perm count excl isAll pool)).
Proof.
  intros e nonce_of perm count excl isAll pool Hp Hn Hc Hl.
  pose proof (filter_walk_nodup e count excl isAll pool Hp) as Hw.
  (* the hashes tell the walked transactions apart, and the result is drawn from those *)
  apply (NoDup_map_inj_on t_id _ _ Hw); [|apply filter_tx_incl].
  apply NoDup_map_inv in Hw. unfold filter_tx_list. destruct (sort_active e); [|exact Hw].
  apply sort_nodup; auto. pose proof (filter_walk_length_pool e count excl isAll pool). lia.
Qed.
Print Assumptions C23_no_duplicates.

(** every entry is a pooled transaction, none is excluded, none is expired for
    the next block (height + 1, last block time, pool age) *)
Theorem C23_pooled_not_excluded_not_expired : forall e nonce_of perm count excl isAll pool t,
  In t (filter_tx_list e nonce_of perm count excl isAll pool) ->
  exists it, In it pool /\ i_tx it = t /\ ~ In (t_id t) excl
             /\ (isAll = false -> is_expired e it (e_height e + 1) (e_blocktime e) = false).
Proof.
  intros e nonce_of perm count excl isAll pool t Ht.
  apply filter_tx_incl, filter_walk_items in Ht as (it & H1 & H2 & H3 & H4).
  exists it. repeat split; auto. intros Hi. apply mem_n_In in Hi. congruence.
Qed.
Print Assumptions C23_pooled_not_excluded_not_expired.

(** the transactions that are not eth-signed keep their arrival order (and are
    exactly those the walk selected) *)
Theorem C23_non_eth_keep_order : forall e nonce_of perm count excl isAll pool,
  non_eth (filter_tx_list e nonce_of perm count excl isAll pool)
    = non_eth (filter_walk e count excl isAll pool)
  /\ sublist (non_eth (filter_tx_list e nonce_of perm count excl isAll pool)) (map i_tx pool).
Proof.
  intros e nonce_of perm count excl isAll pool.
  assert (E : non_eth (filter_tx_list e nonce_of perm count excl isAll pool)
              = non_eth (filter_walk e count excl isAll pool)).
  { unfold filter_tx_list. destruct (sort_active e); [apply sort_non_eth|reflexivity]. }
  split; [exact E|]. rewrite E.
  eapply sublist_trans; [apply sublist_filter|apply filter_walk_sublist].
Qed.
Print Assumptions C23_non_eth_keep_order.

(** before ForkCheckEthTxSort the whole list is in arrival order *)
Theorem C23_prefork_arrival_order : forall e nonce_of perm count excl isAll pool,
  sort_active e = false ->
  sublist (filter_tx_list e nonce_of perm count excl isAll pool) (map i_tx pool).
Proof.
  intros e nonce_of perm count excl isAll pool H. unfold filter_tx_list. rewrite H.
  apply filter_walk_sublist.
Qed.
Print Assumptions C23_prefork_arrival_order.

(** after the fork: the k-th transaction of an eth sender carries the nonce
    current + k (int64 arithmetic, as the loop's nonce++) *)
Theorem C23_eth_runs_consecutive : forall e nonce_of perm count excl isAll pool s k n,
  sort_active e = true -> NoDup perm -> in64 (nonce_of s) = true ->
  nth_error (map t_nonce (eth_of s (filter_tx_list e nonce_of perm count excl isAll pool))) k = Some n ->
  n = wrap64 (nonce_of s + Z.of_nat k).
Proof.
  intros e nonce_of perm count excl isAll pool s k n Hs Hn Hc Hk.
  eapply consecb_nth; [exact Hc| |exact Hk]. apply filter_tx_consec; assumption.
Qed.
Print Assumptions C23_eth_runs_consecutive.

(** ... which is current + k whenever the run does not cross MaxInt64 *)
Theorem C23_eth_runs_consecutive_nowrap : forall e nonce_of perm count excl isAll pool s k n,
  sort_active e = true -> NoDup perm -> in64 (nonce_of s) = true ->
  nonce_of s + Z.of_nat (length (eth_of s (filter_tx_list e nonce_of perm count excl isAll pool))) <= two63 ->
  nth_error (map t_nonce (eth_of s (filter_tx_list e nonce_of perm count excl isAll pool))) k = Some n ->
  n = nonce_of s + Z.of_nat k.
Proof.
  intros e nonce_of perm count excl isAll pool s k n Hs Hn Hc Hb Hk.
  eapply consecb_nth_nowrap; [exact Hc| |exact Hk|rewrite map_length; exact Hb].
  apply filter_tx_consec; assumption.
Qed.
Print Assumptions C23_eth_runs_consecutive_nowrap.

(** the run of a sender ends only where the walked list has no transaction of
    that sender with the next nonce *)
Theorem C23_eth_runs_maximal : forall e nonce_of perm count excl isAll pool s,
  sort_active e = true -> Permutation perm (sender_keys (filter_walk e count excl isAll pool)) ->
  in64 (nonce_of s) = true -> Z.of_nat (length pool) < two64 ->
  forall t, In t (filter_walk e count excl isAll pool) -> is_eth t = true -> t_from t = s ->
    t_nonce t <> wrap64 (nonce_of s + Z.of_nat (length (eth_of s (filter_tx_list e nonce_of perm count excl isAll pool)))).
Proof.
  intros e nonce_of perm count excl isAll pool s Hs Hp Hc Hl.
  unfold filter_tx_list. rewrite Hs, sort_eth_of_all by exact Hp.
  apply sender_run_maximal; [exact Hc|].
  pose proof (filter_walk_length_pool e count excl isAll pool). lia.
Qed.
Print Assumptions C23_eth_runs_maximal.

(** Go's map iteration order only permutes the result *)
Theorem C23_sender_order_irrelevant : forall e nonce_of p1 p2 count excl isAll pool,
  Permutation p1 p2 ->
  Permutation (filter_tx_list e nonce_of p1 count excl isAll pool)
              (filter_tx_list e nonce_of p2 count excl isAll pool).
Proof.
  intros e nonce_of p1 p2 count excl isAll pool H. unfold filter_tx_list.
  destruct (sort_active e); [apply sort_perm; exact H|apply Permutation_refl].
Qed.
Print Assumptions C23_sender_order_irrelevant.

(** the executable oracle of C23.Spec (which judges the Go implementation's
    replies) accepts every reply of the model *)
Theorem C23_oracle_accepts_model : forall e nonce_of perm count excl isAll pool,
  NoDup (map (fun it => t_id (i_tx it)) pool) ->
  Permutation perm (sender_keys (filter_walk e count excl isAll pool)) ->
  (forall s, in64 (nonce_of s) = true) -> Z.of_nat (length pool) < two64 ->
  spec_list e nonce_of (mkReq count excl isAll) pool
            (map t_id (filter_tx_list e nonce_of perm count excl isAll pool)) = true.
Proof.
  intros e nonce_of perm count excl isAll pool Hn Hp Hc Hl.
  set (R := filter_tx_list e nonce_of perm count excl isAll pool).
  assert (Hperm : NoDup perm).
  { apply (Permutation_NoDup (Permutation_sym Hp)), keys_ok_eth_map. }
  assert (Hitems : forall t, In t R -> exists it, In it pool /\ i_tx it = t).
  { intros t Ht. apply C23_pooled_not_excluded_not_expired in Ht as (it & ? & ? & _). exists it. auto. }
  destruct (resolve_ok pool R Hn Hitems) as (its & Hres & Hmap & Hin).
  unfold spec_list. rewrite Hres. cbn [r_count r_excl r_all]. rewrite Hmap.
  repeat (apply andb_true_iff; split).
  - destruct (Z.leb_spec count 0) as [|Hpos]; [reflexivity|]. simpl. apply Z.leb_le.
    rewrite map_length. apply C23_length_le_count; assumption.
  - apply nodupb_NoDup, C23_no_duplicates; assumption.
  - apply forallb_forall. intros id Hid. apply in_map_iff in Hid as (t & <- & Ht).
    apply C23_pooled_not_excluded_not_expired in Ht as (_ & _ & _ & Hx & _).
    apply negb_true_iff. destruct (mem_n (t_id t) excl) eqn:E; [|reflexivity].
    apply mem_n_In in E. contradiction.
  - destruct isAll eqn:Ea; [reflexivity|]. simpl. apply forallb_forall. intros it Hit.
    assert (Ht : In (i_tx it) R). { rewrite <- Hmap. apply in_map. exact Hit. }
    apply C23_pooled_not_excluded_not_expired in Ht as (it' & Hi' & Ht' & _ & He).
    (* the pool has one entry per hash, so [it'] is the resolved entry itself *)
    apply (f_equal t_id), (NoDup_map_inj _ pool it' it Hn Hi' (Hin it Hit)) in Ht'.
    subst it'. rewrite (He eq_refl). reflexivity.
  - destruct (sort_active e) eqn:Es.
    + apply andb_true_iff. split.
      * apply sublist_subseqb. rewrite <- (map_map i_tx t_id). apply sublist_map.
        apply C23_non_eth_keep_order.
      * apply forallb_forall. intros t _. apply orb_true_iff. right.
        apply filter_tx_consec; assumption.
    + apply sublist_subseqb. rewrite <- (map_map i_tx t_id). apply sublist_map.
      apply C23_prefork_arrival_order. exact Es.
Qed.
Print Assumptions C23_oracle_accepts_model.

(** the hypotheses are satisfiable by a pool on which every clause has work to do *)
Theorem C23_hypotheses_satisfiable :
  NoDup (map (fun it => t_id (i_tx it)) ex_pool)
  /\ NoDup [2; 1]%N
  /\ Permutation [2; 1]%N (sender_keys (filter_walk ex_env 20 [] false ex_pool))
  /\ (forall s, in64 (ex_nonce s) = true)
  /\ Z.of_nat (length ex_pool) < two64
  /\ sort_active ex_env = true.
Proof. exact ex_hyps. Qed.
Print Assumptions C23_hypotheses_satisfiable.
