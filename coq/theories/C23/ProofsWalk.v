(** C23 — list facts, the checkers of C23.Spec against the notions they decide,
    and the filtered walk. *)
From Coq Require Import List ZArith NArith Bool Lia.
From C33 Require Import C23.Model C23.Spec.
Import ListNotations.
Open Scope Z_scope.

Inductive sublist {A : Type} : list A -> list A -> Prop :=
| sl_nil : forall l, sublist [] l
| sl_cons : forall x a b, sublist a b -> sublist (x :: a) (x :: b)
| sl_skip : forall x a b, sublist a b -> sublist a (x :: b).

Lemma sublist_refl {A} (l : list A) : sublist l l.
Proof. induction l; constructor; auto. Qed.

Lemma sublist_trans {A} (a b c : list A) : sublist a b -> sublist b c -> sublist a c.
Proof.
  intros Hab Hbc. revert a Hab. induction Hbc as [l|x b c Hbc IH|x b c Hbc IH]; intros a Hab.
  - inversion Hab; subst. constructor.
  - inversion Hab; subst.
    + constructor.
    + constructor. apply IH. assumption.
    + apply sl_skip. apply IH. assumption.
  - apply sl_skip. apply IH. assumption.
Qed.

Lemma sublist_In {A} (a b : list A) x : sublist a b -> In x a -> In x b.
Proof.
  induction 1 as [l|y a b H IH|y a b H IH]; simpl; intros Hx.
  - contradiction.
  - destruct Hx; auto.
  - auto.
Qed.

Lemma sublist_map {A B} (f : A -> B) a b : sublist a b -> sublist (map f a) (map f b).
Proof. induction 1; simpl; constructor; auto. Qed.

Lemma sublist_filter {A} (p : A -> bool) l : sublist (filter p l) l.
Proof. induction l as [|x l IH]; simpl; [constructor|]. destruct (p x); constructor; auto. Qed.

Lemma sublist_filter_mono {A} (p : A -> bool) a b : sublist a b -> sublist (filter p a) (filter p b).
Proof.
  induction 1 as [l|x a b H IH|x a b H IH]; simpl.
  - constructor.
  - destruct (p x); [constructor|]; auto.
  - destruct (p x); [apply sl_skip|]; auto.
Qed.

Lemma sublist_firstn {A} k (l : list A) : sublist (firstn k l) l.
Proof. revert k. induction l as [|x l IH]; intros [|k]; simpl; constructor; auto. Qed.

Lemma sublist_length {A} (a b : list A) : sublist a b -> (length a <= length b)%nat.
Proof. induction 1; simpl; lia. Qed.

Lemma sublist_NoDup {A} (a b : list A) : sublist a b -> NoDup b -> NoDup a.
Proof.
  induction 1 as [l|x a b H IH|x a b H IH]; intros Hn.
  - constructor.
  - inversion Hn; subst. constructor; auto. intro Hx. eapply sublist_In in Hx; eauto.
  - inversion Hn; subst. auto.
Qed.

Lemma NoDup_app_intro {A} (a b : list A) :
  NoDup a -> NoDup b -> (forall x, In x a -> In x b -> False) -> NoDup (a ++ b).
Proof.
  induction a as [|x a IH]; simpl; intros Ha Hb Hd; [assumption|].
  inversion Ha; subst. constructor.
  - rewrite in_app_iff. intros [H|H]; [contradiction|]. exact (Hd x (or_introl eq_refl) H).
  - apply IH; auto. intros y Hy. exact (Hd y (or_intror Hy)).
Qed.

Lemma NoDup_flat_map {A B} (f : A -> list B) (l : list A) :
  NoDup l -> (forall a, In a l -> NoDup (f a)) ->
  (forall a b x, In a l -> In b l -> a <> b -> In x (f a) -> In x (f b) -> False) ->
  NoDup (flat_map f l).
Proof.
  induction l as [|a l IH]; simpl; intros Hn Hf Hd; [constructor|].
  inversion Hn as [|? ? Ha Hl]; subst. apply NoDup_app_intro.
  - apply Hf. left. reflexivity.
  - apply (IH Hl).
    + intros b Hb. apply Hf. right. exact Hb.
    + intros b c x Hb Hc. apply Hd; right; assumption.
  - intros x Hx1 Hx2. apply in_flat_map in Hx2 as (b & Hb & Hxb).
    apply (Hd a b x); auto. intros ->. contradiction.
Qed.

Lemma NoDup_map_inj {A B} (f : A -> B) l a b :
  NoDup (map f l) -> In a l -> In b l -> f a = f b -> a = b.
Proof.
  induction l as [|x l IH]; simpl; intros Hn Ha Hb E; [contradiction|].
  inversion Hn as [|? ? Hx Hl]; subst. destruct Ha as [<-|Ha], Hb as [<-|Hb]; auto; exfalso; apply Hx.
  - rewrite E. apply in_map. assumption.
  - rewrite <- E. apply in_map. assumption.
Qed.

Lemma NoDup_map_inj_on {A B} (f : A -> B) (big l : list A) :
  NoDup (map f big) -> NoDup l -> incl l big -> NoDup (map f l).
Proof.
  intros Hbig. induction l as [|x l IH]; simpl; intros Hn Hi; [constructor|].
  apply incl_cons_inv in Hi as [Hx Hi]. inversion Hn; subst. constructor; [|auto].
  intros Hfx. apply in_map_iff in Hfx as (y & E & Hy).
  apply (NoDup_map_inj f big y x Hbig (Hi y Hy) Hx) in E. subst. contradiction.
Qed.

Lemma filter_length_id {A} (p : A -> bool) l : length (filter p l) = length l -> filter p l = l.
Proof.
  induction l as [|x l IH]; simpl; intros E; [reflexivity|].
  destruct (p x); simpl in E.
  - f_equal. apply IH. lia.
  - pose proof (sublist_length _ _ (sublist_filter p l)). lia.
Qed.

Lemma filter_partition_length {A} (p : A -> bool) l :
  (length (filter p l) + length (filter (fun x => negb (p x)) l) = length l)%nat.
Proof. induction l as [|x l IH]; simpl; [reflexivity|]. destruct (p x); simpl; lia. Qed.

Lemma filter_all {A} (p : A -> bool) l : (forall x, In x l -> p x = true) -> filter p l = l.
Proof.
  induction l as [|x l IH]; simpl; intros H; [reflexivity|].
  rewrite (H x) by (left; reflexivity). f_equal. apply IH. intros y Hy. apply H. right. exact Hy.
Qed.

Lemma filter_none {A} (p : A -> bool) l : (forall x, In x l -> p x = false) -> filter p l = [].
Proof.
  induction l as [|x l IH]; simpl; intros H; [reflexivity|].
  rewrite (H x) by (left; reflexivity). apply IH. intros y Hy. apply H. right. exact Hy.
Qed.

Lemma mem_n_In x l : mem_n x l = true <-> In x l.
Proof.
  unfold mem_n. rewrite existsb_exists. split.
  - intros (y & Hy & E). apply N.eqb_eq in E. subst. assumption.
  - intros H. exists x. split; [assumption|apply N.eqb_refl].
Qed.

Lemma nodupb_NoDup l : nodupb l = true <-> NoDup l.
Proof.
  induction l as [|x l IH]; simpl.
  - split; [constructor|reflexivity].
  - rewrite andb_true_iff, negb_true_iff, IH, <- not_true_iff_false, mem_n_In. split.
    + intros [Hx Hn]. constructor; assumption.
    + intros H. inversion H; auto.
Qed.

Lemma sublist_subseqb : forall b a, sublist a b -> subseqb a b = true.
Proof.
  induction b as [|x b IH]; intros a H.
  - inversion H; subst. reflexivity.
  - destruct a as [|y a]; [reflexivity|]. simpl.
    destruct (N.eqb_spec y x) as [->|Hne]; apply IH; inversion H; subst; try assumption.
    + (* greedy matching takes the first [x] although [H] skipped it *)
      eapply sublist_trans; [apply sl_skip, sublist_refl|eassumption].
    + congruence.
Qed.

Lemma find_item_In pool it :
  NoDup (map (fun it => t_id (i_tx it)) pool) -> In it pool ->
  find_item (t_id (i_tx it)) pool = Some it.
Proof.
  induction pool as [|x pool IH]; simpl; intros Hn Hi; [contradiction|].
  inversion Hn as [|? ? Hx Hn']; subst. destruct Hi as [->|Hi].
  - rewrite N.eqb_refl. reflexivity.
  - destruct (N.eqb_spec (t_id (i_tx x)) (t_id (i_tx it))) as [E|E].
    + exfalso. apply Hx. rewrite E. apply (in_map (fun it => t_id (i_tx it))). exact Hi.
    + apply IH; assumption.
Qed.

Lemma resolve_ok pool l :
  NoDup (map (fun it => t_id (i_tx it)) pool) ->
  (forall t, In t l -> exists it, In it pool /\ i_tx it = t) ->
  exists its, resolve pool (map t_id l) = Some its /\ map i_tx its = l /\ (forall it, In it its -> In it pool).
Proof.
  intros Hn. induction l as [|t l IH]; intros H.
  - exists []. simpl. repeat split; auto. intros it [].
  - destruct (H t (or_introl eq_refl)) as (it & Hi & <-).
    destruct IH as (its & Hr & Hm & Hp). { intros t Ht. apply H. right. exact Ht. }
    exists (it :: its). simpl. rewrite (find_item_In _ _ Hn Hi), Hr. repeat split.
    + simpl. rewrite Hm. reflexivity.
    + intros x [<-|Hx]; auto.
Qed.

(** the entries the callback of the walk does not skip *)
Definition passes (e : env) (height blocktime : Z) (excl : list N) (isAll : bool) (it : item) : bool :=
  negb (mem_n (t_id (i_tx it)) excl) && negb (is_expired e it height blocktime && negb isAll).

Lemma walk_firstn e height blocktime count excl isAll : forall pool n, exists k,
  walk e height blocktime count excl isAll pool n
    = firstn k (map i_tx (filter (passes e height blocktime excl isAll) pool))
  /\ (0 <= n < count -> Z.of_nat k <= count - n).
Proof.
  induction pool as [|it tl IH]; intros n; simpl.
  { exists 0%nat. split; [reflexivity|lia]. }
  unfold passes at 1.
  destruct (mem_n (t_id (i_tx it)) excl); [apply IH|].
  destruct (is_expired e it height blocktime && negb isAll); [apply IH|]. simpl.
  destruct ((count >? 0) && (n + 1 =? count)) eqn:Stop.
  - exists 1%nat. split; [reflexivity|]. apply andb_true_iff in Stop as [_ Stop]. lia.
  - destruct (IH (n + 1)) as (k & -> & Hk). exists (S k). split; [reflexivity|].
    apply andb_false_iff in Stop. lia.
Qed.

Section FilterWalk.
  Variables (e : env) (count : Z) (excl : list N) (isAll : bool) (pool : list item).
  Let W := filter_walk e count excl isAll pool.
  Let F := map i_tx (filter (passes e (e_height e + 1) (e_blocktime e) excl isAll) pool).

  Lemma filter_walk_firstn : exists k, W = firstn k F /\ (0 < count -> Z.of_nat k <= count).
  Proof.
    destruct (walk_firstn e (e_height e + 1) (e_blocktime e) count excl isAll pool 0) as (k & E & Hk).
    exists k. split; [exact E|lia].
  Qed.

  Lemma filter_walk_sublist : sublist W (map i_tx pool).
  Proof.
    destruct filter_walk_firstn as (k & -> & _).
    eapply sublist_trans; [apply sublist_firstn|]. apply sublist_map, sublist_filter.
  Qed.

  Lemma filter_walk_length : 0 < count -> Z.of_nat (length W) <= count.
  Proof.
    intros Hc. destruct filter_walk_firstn as (k & -> & Hk).
    pose proof (firstn_le_length k F). lia.
  Qed.

  Lemma filter_walk_items t : In t W ->
    exists it, In it pool /\ i_tx it = t /\ mem_n (t_id t) excl = false
               /\ (isAll = false -> is_expired e it (e_height e + 1) (e_blocktime e) = false).
  Proof.
    destruct filter_walk_firstn as (k & -> & _). intros H.
    apply (sublist_In _ _ _ (sublist_firstn _ _)), in_map_iff in H as (it & <- & H).
    apply filter_In in H as [Hi Hp]. apply andb_true_iff in Hp as [Hx He].
    apply negb_true_iff in Hx, He. exists it. repeat split; auto.
    intros ->. rewrite andb_true_r in He. exact He.
  Qed.

  Lemma filter_walk_length_pool : (length W <= length pool)%nat.
  Proof. pose proof (sublist_length _ _ filter_walk_sublist) as H. rewrite map_length in H. exact H. Qed.

  Lemma filter_walk_nodup : NoDup (map (fun it => t_id (i_tx it)) pool) -> NoDup (map t_id W).
  Proof.
    intros H. rewrite <- map_map in H. eapply sublist_NoDup; [|exact H].
    apply sublist_map, filter_walk_sublist.
  Qed.
End FilterWalk.
