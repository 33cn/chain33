(** C23 — executable model of the transaction list the mempool hands to block
    producers (system/mempool/base.go getTxList / filterTxList /
    sortEthSignTyTx / getCurrentNonce, cache.go isExpired, types/tx.go
    isExpire / Transactions.IsExpire, eventprocess.go eventTxList /
    eventGetMempool).  The model follows the code as it is.  No proofs here. *)
From Coq Require Import List ZArith NArith Bool.
Import ListNotations.
Open Scope Z_scope.

(** ** int64 arithmetic used by the nonce loop ([nonce++] on an int64) *)
Definition two63 : Z := 9223372036854775808.
Definition two64 : Z := 18446744073709551616.
Definition wrap64 (z : Z) : Z := (z + two63) mod two64 - two63.
Definition in64 (z : Z) : bool := (- two63 <=? z) && (z <? two63).

(** ** transactions as the pool sees them
    [t_id]      the transaction hash (small id; the harness keeps the table)
    [t_ethsig]  types.IsEthSignID(tx.Signature.Ty)
    [t_para]    bytes.HasPrefix(tx.Execer, "user.p.")
    [t_from]    tx.From() (small id of the address string)
    [t_nonce]   tx.Nonce
    [t_expires] Expire of the transaction itself, or of every member when the
                pool entry is the head of a transaction group (GetTxGroup) *)
Record tx := mkTx {
  t_id : N; t_ethsig : bool; t_para : bool; t_from : N; t_nonce : Z; t_expires : list Z }.

(** mempool.Item: the transaction and its EnterTime (seconds) *)
Record item := mkItem { i_tx : tx; i_enter : Z }.

(** what the walk reads besides the pool:
    [e_now]       types.Now().Unix()
    [e_interval]  mempoolExpiredInterval
    [e_height], [e_blocktime]  mem.header (0, 0 when no header was set yet)
    [e_fork_sort] height of ForkCheckEthTxSort
    [e_txh_on], [e_fork_txh]  cfg.IsEnable("TxHeight"), height of ForkTxHeight *)
Record env := mkEnv {
  e_now : Z; e_interval : Z; e_height : Z; e_blocktime : Z;
  e_fork_sort : Z; e_txh_on : bool; e_fork_txh : Z }.

(** Forks.IsFork *)
Definition is_fork (h f : Z) : bool := (h =? -1) || (f <=? h).

Definition expire_bound : Z := 1000000000.
Definition txheight_flag : Z := 4611686018427387904.   (* 1 << 62 *)
Definition low_allow : Z := 200.
Definition high_allow : Z := 600.

(** types.GetTxHeight on a main-chain configuration *)
Definition get_tx_height (e : env) (valid height : Z) : Z :=
  if e_txh_on e && is_fork height (e_fork_txh e) && (valid >? txheight_flag)
  then valid - txheight_flag else -1.

(** Transaction.isExpire *)
Definition is_expire1 (e : env) (valid height blocktime : Z) : bool :=
  if valid =? 0 then false
  else if valid <=? expire_bound then valid <=? height
  else
    let th := get_tx_height e valid height in
    if th >? 0 then negb ((th - low_allow <=? height) && (height <=? th + high_allow))
    else valid <=? blocktime.

(** Transaction.IsExpire (group: any member) *)
Definition tx_is_expire (e : env) (t : tx) (height blocktime : Z) : bool :=
  existsb (fun v => is_expire1 e v height blocktime) (t_expires t).

(** mempool.isExpired: pool age first, then the transaction's own expiry *)
Definition is_expired (e : env) (it : item) (height blocktime : Z) : bool :=
  (e_now e - i_enter it >=? e_interval e) || tx_is_expire e (i_tx it) height blocktime.

Definition mem_n (x : N) (l : list N) : bool := existsb (N.eqb x) l.

(** the callback of mem.cache.Walk in filterTxList; [n] = len(txs) so far *)
Fixpoint walk (e : env) (height blocktime count : Z) (excl : list N) (isAll : bool)
         (pool : list item) (n : Z) : list tx :=
  match pool with
  | [] => []
  | it :: tl =>
      if mem_n (t_id (i_tx it)) excl then walk e height blocktime count excl isAll tl n
      else if is_expired e it height blocktime && negb isAll
           then walk e height blocktime count excl isAll tl n
      else i_tx it ::
           (if (count >? 0) && (n + 1 =? count) then []
            else walk e height blocktime count excl isAll tl (n + 1))
  end.

(** next block's height, last block's time *)
Definition filter_walk (e : env) (count : Z) (excl : list N) (isAll : bool) (pool : list item) : list tx :=
  walk e (e_height e + 1) (e_blocktime e) count excl isAll pool 0.

(** ** sortEthSignTyTx *)
Definition is_eth (t : tx) : bool := t_ethsig t && negb (t_para t).

(** Go maps as association lists (insertion with overwrite) *)
Fixpoint aget {K V : Type} (eqb : K -> K -> bool) (k : K) (m : list (K * V)) : option V :=
  match m with
  | [] => None
  | (k', v) :: tl => if eqb k' k then Some v else aget eqb k tl
  end.

Fixpoint aput {K V : Type} (eqb : K -> K -> bool) (k : K) (v : V) (m : list (K * V)) : list (K * V) :=
  match m with
  | [] => [(k, v)]
  | (k', v') :: tl => if eqb k' k then (k, v) :: tl else (k', v') :: aput eqb k v tl
  end.

Definition nmap := list (Z * tx).          (* nonce -> tx *)
Definition smap := list (N * nmap).        (* from  -> nonce -> tx *)

(** ethsignTxs[tx.From()][tx.GetNonce()] = tx *)
Definition add_eth (m : smap) (t : tx) : smap :=
  let nm := match aget N.eqb (t_from t) m with Some nm => nm | None => [] end in
  aput N.eqb (t_from t) (aput Z.eqb (t_nonce t) t nm) m.

Definition eth_map (txs : list tx) : smap :=
  fold_left (fun m t => if is_eth t then add_eth m t else m) txs [].

Definition non_eth (txs : list tx) : list tx := filter (fun t => negb (is_eth t)) txs.

(** for nonce := currentNonce; ; nonce++ { if tx, ok := txs[nonce]; ok {append} else {break} }
    Fuel = number of keys of the map: after that many hits every key has been
    visited (C23.ProofsMap.run_maximal shows the loop never needs more). *)
Fixpoint run (nm : nmap) (cur : Z) (fuel : nat) : list tx :=
  match fuel with
  | O => []
  | S f =>
      match aget Z.eqb cur nm with
      | Some t => t :: run nm (wrap64 (cur + 1)) f
      | None => []
      end
  end.

Definition sender_run (m : smap) (nonce_of : N -> Z) (s : N) : list tx :=
  match aget N.eqb s m with
  | Some nm => run nm (nonce_of s) (length nm)
  | None => []
  end.

(** the keys of ethsignTxs; Go visits them in an arbitrary order [perm] *)
Definition sender_keys (txs : list tx) : list N := map fst (eth_map txs).

Definition sort_eth (nonce_of : N -> Z) (perm : list N) (txs : list tx) : list tx :=
  let merge := non_eth txs in
  if Nat.eqb (length merge) (length txs) then txs
  else merge ++ flat_map (sender_run (eth_map txs) nonce_of) perm.

(** ** filterTxList / getTxList / the two event handlers *)
Definition sort_active (e : env) : bool := is_fork (e_height e) (e_fork_sort e).

Definition filter_tx_list (e : env) (nonce_of : N -> Z) (perm : list N)
           (count : Z) (excl : list N) (isAll : bool) (pool : list item) : list tx :=
  let txs := filter_walk e count excl isAll pool in
  if sort_active e then sort_eth nonce_of perm txs else txs.

(** the senders whose nonce is requested from the rpc module (as a set) *)
Definition asked_keys (e : env) (count : Z) (excl : list N) (isAll : bool) (pool : list item) : list N :=
  let txs := filter_walk e count excl isAll pool in
  if sort_active e then sender_keys txs else [].

Definition get_tx_list (e : env) (nonce_of : N -> Z) (perm : list N)
           (count : Z) (excl : list N) (pool : list item) : list tx :=
  filter_tx_list e nonce_of perm count excl false pool.

Inductive reply := RErr | RList (l : list tx).

(** eventTxList: Count <= 0 is answered with ErrSize *)
Definition event_tx_list (e : env) (nonce_of : N -> Z) (perm : list N)
           (count : Z) (excl : list N) (pool : list item) : reply :=
  if count <=? 0 then RErr else RList (get_tx_list e nonce_of perm count excl pool).

(** eventGetMempool: filterTxList(0, nil, isAll) *)
Definition event_get_mempool (e : env) (nonce_of : N -> Z) (perm : list N)
           (isAll : bool) (pool : list item) : list tx :=
  filter_tx_list e nonce_of perm 0 [] isAll pool.

(** getCurrentNonce: the rpc module's answer; anything but a well-typed answer
    in time counts as nonce 0 *)
Inductive nreply := NRep (n : Z) | NErr | NBadType | NTimeout.
Definition current_nonce (r : nreply) : Z :=
  match r with NRep n => n | _ => 0 end.
