(** C23 — sortEthSignTyTx: association-list maps, what the two-level map
    ethsignTxs[from][nonce] contains after the loop over the walked list, the
    nonce loop
      for nonce := currentNonce; ; nonce++ { tx, ok := txs[nonce]; if !ok {break}; append }
    and the list put together from the senders' runs. *)
From Coq Require Import List ZArith NArith Bool Lia Permutation.
From C33 Require Import C23.Model C23.Spec C23.ProofsWalk.
Import ListNotations.
Open Scope Z_scope.

Section Assoc.
  Variables (K V : Type) (eqb : K -> K -> bool).
  Hypothesis eqb_ok : forall a b, eqb a b = true <-> a = b.

  Lemma eqb_refl' k : eqb k k = true.
  Proof. apply eqb_ok. reflexivity. Qed.

  Lemma eqb_neq a b : a <> b -> eqb a b = false.
  Proof. intros H. destruct (eqb a b) eqn:E; [|reflexivity]. apply eqb_ok in E. contradiction. Qed.

  Lemma aget_aput_same k (v : V) m : aget eqb k (aput eqb k v m) = Some v.
  Proof.
    induction m as [|[k' v'] m IH]; simpl.
    - rewrite eqb_refl'. reflexivity.
    - destruct (eqb k' k) eqn:E; simpl.
      + rewrite eqb_refl'. reflexivity.
      + rewrite E. exact IH.
  Qed.

  Lemma aget_aput_other k k' (v : V) m : k' <> k -> aget eqb k' (aput eqb k v m) = aget eqb k' m.
  Proof.
    intros Hn. induction m as [|[k0 v0] m IH]; simpl.
    - rewrite eqb_neq; auto.
    - destruct (eqb k0 k) eqn:E; simpl.
      + apply eqb_ok in E. subst k0. rewrite !eqb_neq; auto.
      + destruct (eqb k0 k'); auto.
  Qed.

  Lemma aget_In k (v : V) m : aget eqb k m = Some v -> In (k, v) m.
  Proof.
    induction m as [|[k' v'] m IH]; simpl; [discriminate|].
    destruct (eqb k' k) eqn:E.
    - apply eqb_ok in E. subst. intros [= ->]. left. reflexivity.
    - intros H. right. auto.
  Qed.

  Lemma aget_Some_keys k (v : V) m : aget eqb k m = Some v -> In k (map fst m).
  Proof. intros H. apply aget_In, (in_map fst) in H. exact H. Qed.

  Lemma aget_None_keys k (m : list (K * V)) : aget eqb k m = None <-> ~ In k (map fst m).
  Proof.
    split.
    - induction m as [|[k' v'] m IH]; simpl; [auto|].
      destruct (eqb k' k) eqn:E; [discriminate|]. intros H [->|Hk]; [|exact (IH H Hk)].
      rewrite eqb_refl' in E. discriminate.
    - intros H. destruct (aget eqb k m) eqn:E; [|reflexivity]. apply aget_Some_keys in E. contradiction.
  Qed.

  Lemma keys_aput k (v : V) m :
    map fst (aput eqb k v m) =
    match aget eqb k m with Some _ => map fst m | None => map fst m ++ [k] end.
  Proof.
    induction m as [|[k' v'] m IH]; simpl; [reflexivity|].
    destruct (eqb k' k) eqn:E; simpl.
    - apply eqb_ok in E. subst. reflexivity.
    - rewrite IH. destruct (aget eqb k m); reflexivity.
  Qed.

  Lemma NoDup_keys_aput k (v : V) m : NoDup (map fst m) -> NoDup (map fst (aput eqb k v m)).
  Proof.
    intros H. rewrite keys_aput. destruct (aget eqb k m) eqn:E; [assumption|].
    apply aget_None_keys in E. apply NoDup_app_intro; auto.
    - constructor; [intros []|constructor].
    - intros x Hx [<-|[]]. contradiction.
  Qed.

  Lemma length_aput k (v : V) m :
    length (aput eqb k v m) = match aget eqb k m with Some _ => length m | None => S (length m) end.
  Proof.
    induction m as [|[k' v'] m IH]; simpl; [reflexivity|].
    destruct (eqb k' k) eqn:E; simpl; [reflexivity|].
    rewrite IH. destruct (aget eqb k m); reflexivity.
  Qed.
End Assoc.

Definition lookup (m : smap) (s : N) (n : Z) : option tx :=
  match aget N.eqb s m with Some nm => aget Z.eqb n nm | None => None end.

(** the transactions stored under sender [s] and nonce [n] *)
Definition sel (s : N) (n : Z) (t : tx) : bool :=
  is_eth t && N.eqb (t_from t) s && Z.eqb (t_nonce t) n.

(** the body of the loop that fills the map *)
Definition ins (m : smap) (t : tx) : smap := if is_eth t then add_eth m t else m.

Lemma lookup_ins m t s n : lookup (ins m t) s n = if sel s n t then Some t else lookup m s n.
Proof.
  unfold ins, sel. destruct (is_eth t); [|reflexivity]. unfold lookup, add_eth. cbn [andb].
  destruct (N.eqb_spec (t_from t) s) as [<-|Hs]; cbn [andb].
  - rewrite aget_aput_same by apply N.eqb_eq.
    destruct (Z.eqb_spec (t_nonce t) n) as [<-|Hn].
    + apply aget_aput_same, Z.eqb_eq.
    + rewrite aget_aput_other by (apply Z.eqb_eq || congruence).
      destruct (aget N.eqb (t_from t) m); reflexivity.
  - rewrite aget_aput_other by (apply N.eqb_eq || congruence). reflexivity.
Qed.

(** the map is filled front to back and later entries overwrite: it holds,
    under [s] and [n], the last such transaction of the list *)
Lemma lookup_eth_map txs s n : lookup (eth_map txs) s n = find (sel s n) (rev txs).
Proof.
  unfold eth_map. rewrite <- fold_left_rev_right.
  induction (rev txs) as [|t l IH]; simpl; [reflexivity|]. rewrite <- IH. exact (lookup_ins _ t s n).
Qed.

Lemma eth_map_Some txs s n t : lookup (eth_map txs) s n = Some t ->
  In t txs /\ is_eth t = true /\ t_from t = s /\ t_nonce t = n.
Proof.
  rewrite lookup_eth_map. intros H. apply find_some in H as [Hi Hp]. apply in_rev in Hi.
  apply andb_true_iff in Hp as [Hp Hn]. apply andb_true_iff in Hp as [He Hs].
  apply N.eqb_eq in Hs. apply Z.eqb_eq in Hn. auto.
Qed.

Lemma eth_map_None txs s n t : lookup (eth_map txs) s n = None ->
  In t txs -> is_eth t = true -> t_from t = s -> t_nonce t <> n.
Proof.
  rewrite lookup_eth_map. intros H Hi He Hs Hn. apply in_rev, (find_none _ _ H) in Hi.
  unfold sel in Hi. rewrite He, Hs, Hn, N.eqb_refl, Z.eqb_refl in Hi. discriminate.
Qed.

Lemma eth_map_keyed txs s nm : aget N.eqb s (eth_map txs) = Some nm ->
  forall n t, aget Z.eqb n nm = Some t -> t_nonce t = n.
Proof.
  intros Hs n t Hn. apply (eth_map_Some txs s). unfold lookup. rewrite Hs. exact Hn.
Qed.

(** Go map keys are distinct on both levels *)
Definition keys_ok (m : smap) : Prop :=
  NoDup (map fst m) /\ forall s nm, aget N.eqb s m = Some nm -> NoDup (map fst nm).

Lemma keys_ok_ins m t : keys_ok m -> keys_ok (ins m t).
Proof.
  unfold ins. destruct (is_eth t); [|auto]. intros [Hk Hn]. unfold add_eth. split.
  - apply NoDup_keys_aput; [apply N.eqb_eq|exact Hk].
  - intros s nm. destruct (N.eq_dec s (t_from t)) as [->|Hs].
    + rewrite aget_aput_same by apply N.eqb_eq. intros [= <-].
      apply NoDup_keys_aput; [apply Z.eqb_eq|].
      destruct (aget N.eqb (t_from t) m) eqn:E; [exact (Hn _ _ E)|constructor].
    + rewrite aget_aput_other by (apply N.eqb_eq || assumption). apply Hn.
Qed.

Lemma keys_ok_eth_map txs : keys_ok (eth_map txs).
Proof.
  unfold eth_map. rewrite <- fold_left_rev_right. induction (rev txs) as [|t l IH]; simpl.
  - split; [constructor|discriminate].
  - exact (keys_ok_ins _ t IH).
Qed.

Definition msize (m : smap) : nat := list_sum (map (fun p => length (snd p)) m).

Definition nm_len (m : smap) (s : N) : nat :=
  match aget N.eqb s m with Some nm => length nm | None => 0%nat end.

Lemma msize_aput s nm' (m : smap) :
  (msize (aput N.eqb s nm' m) + nm_len m s = msize m + length nm')%nat.
Proof.
  unfold msize, nm_len. induction m as [|[k v] m IH]; simpl; [lia|].
  destruct (N.eqb k s); simpl; lia.
Qed.

Lemma msize_add_eth m t : (msize (add_eth m t) <= S (msize m))%nat.
Proof.
  unfold add_eth. cbv zeta.
  pose proof (fun nm' => msize_aput (t_from t) nm' m) as H.
  (* [lia] takes [length] at [nmap] and at [list (Z * tx)] for different terms *)
  unfold nm_len, smap, nmap in *.
  destruct (aget N.eqb (t_from t) m) as [nm|].
  - specialize (H (aput Z.eqb (t_nonce t) t nm)). rewrite length_aput in H.
    destruct (aget Z.eqb (t_nonce t) nm); lia.
  - specialize (H [(t_nonce t, t)]). simpl in *. lia.
Qed.

Lemma msize_fold txs : forall m,
  (msize (fold_left ins txs m) <= msize m + length (filter is_eth txs))%nat.
Proof.
  induction txs as [|t txs IH]; intros m; simpl; [lia|]. rewrite IH. unfold ins.
  destruct (is_eth t); simpl; [|lia]. pose proof (msize_add_eth m t). lia.
Qed.

Lemma msize_eth_map txs : (msize (eth_map txs) <= length (filter is_eth txs))%nat.
Proof. exact (msize_fold txs []). Qed.

(** distinct senders: put an empty nonce map in the place of the first sender's,
    which takes that sender's entries off the size and changes no other sender's *)
Lemma sum_nm_len perm : forall m : smap,
  NoDup perm -> (list_sum (map (nm_len m) perm) <= msize m)%nat.
Proof.
  induction perm as [|s perm IH]; intros m Hn; simpl; [lia|].
  inversion Hn as [|? ? Hs Hp]; subst. specialize (IH (aput N.eqb s [] m) Hp).
  rewrite (map_ext_in _ (nm_len m)) in IH.
  - pose proof (msize_aput s [] m) as E. unfold nmap in E. simpl in E. lia.
  - intros a Ha. unfold nm_len. rewrite aget_aput_other; [reflexivity|apply N.eqb_eq|].
    intros ->. contradiction.
Qed.

Lemma two64_two63 : two64 = 2 * two63.
Proof. reflexivity. Qed.

Lemma wrap64_range z : - two63 <= wrap64 z < two63.
Proof.
  unfold wrap64. pose proof (Z.mod_pos_bound (z + two63) two64 eq_refl). rewrite two64_two63 in *. lia.
Qed.

Lemma in64_iff z : in64 z = true <-> - two63 <= z < two63.
Proof. unfold in64. rewrite andb_true_iff, Z.leb_le, Z.ltb_lt. reflexivity. Qed.

Lemma in64_wrap z : in64 z = true -> wrap64 z = z.
Proof.
  rewrite in64_iff. unfold wrap64. intros H. rewrite Z.mod_small; [lia|]. rewrite two64_two63. lia.
Qed.

Lemma wrap64_in64 z : in64 (wrap64 z) = true.
Proof. apply in64_iff, wrap64_range. Qed.

Lemma wrap64_add z k : wrap64 (wrap64 z + k) = wrap64 (z + k).
Proof.
  unfold wrap64.
  replace ((z + two63) mod two64 - two63 + k + two63) with ((z + two63) mod two64 + k) by lia.
  replace (z + k + two63) with ((z + two63) + k) by lia.
  rewrite Z.add_mod_idemp_l by discriminate. reflexivity.
Qed.

Lemma wrap64_inj a b : wrap64 a = wrap64 b -> 0 <= b - a < two64 -> a = b.
Proof.
  unfold wrap64. intros E Hr.
  assert (H : (b - a) mod two64 = 0).
  { replace (b - a) with ((b + two63) - (a + two63)) by lia.
    rewrite Zminus_mod. replace ((b + two63) mod two64) with ((a + two63) mod two64) by lia.
    rewrite Z.sub_diag. reflexivity. }
  rewrite Z.mod_small in H by exact Hr. lia.
Qed.

Lemma consecb_nth : forall l cur k n,
  in64 cur = true -> consecb cur l = true -> nth_error l k = Some n ->
  n = wrap64 (cur + Z.of_nat k).
Proof.
  induction l as [|x l IH]; intros cur k n Hc Hl Hk; [destruct k; discriminate|].
  simpl in Hl. apply andb_true_iff in Hl as [Hx Hl]. apply Z.eqb_eq in Hx. subst x.
  destruct k as [|k]; simpl in Hk.
  - injection Hk as <-. rewrite Z.add_0_r. symmetry. apply in64_wrap. exact Hc.
  - apply (IH _ _ _ (wrap64_in64 _) Hl) in Hk. rewrite wrap64_add in Hk. subst n. f_equal. lia.
Qed.

Lemma consecb_nth_nowrap l cur k n :
  in64 cur = true -> consecb cur l = true -> nth_error l k = Some n ->
  cur + Z.of_nat (length l) <= two63 -> n = cur + Z.of_nat k.
Proof.
  intros Hc Hl Hk Hb. rewrite (consecb_nth l cur k n Hc Hl Hk).
  assert (Hlt : (k < length l)%nat) by (apply nth_error_Some; congruence).
  apply in64_wrap. apply in64_iff in Hc. apply in64_iff. lia.
Qed.

Lemma consecb_NoDup : forall l cur,
  in64 cur = true -> consecb cur l = true -> Z.of_nat (length l) <= two64 -> NoDup l.
Proof.
  induction l as [|x l IH]; intros cur Hc Hl Hb; [constructor|].
  simpl in Hl, Hb. apply andb_true_iff in Hl as [Hx Hl]. apply Z.eqb_eq in Hx. subst x. constructor.
  - intros Hi. apply In_nth_error in Hi as (k & Hk).
    assert (Hlt : (k < length l)%nat) by (apply nth_error_Some; congruence).
    apply (consecb_nth _ _ _ _ (wrap64_in64 _) Hl) in Hk. rewrite wrap64_add in Hk.
    (* [cur] again after k + 1 < 2^64 increments *)
    assert (E : cur = cur + 1 + Z.of_nat k); [|lia].
    apply wrap64_inj; [|lia]. rewrite (in64_wrap cur Hc). exact Hk.
  - apply (IH _ (wrap64_in64 _) Hl). lia.
Qed.

Section Run.
  Variable nm : nmap.
  Hypothesis keyed : forall n t, aget Z.eqb n nm = Some t -> t_nonce t = n.

  Lemma run_length : forall fuel cur, (length (run nm cur fuel) <= fuel)%nat.
  Proof.
    induction fuel as [|f IH]; intros cur; simpl; [lia|].
    destruct (aget Z.eqb cur nm); simpl; [specialize (IH (wrap64 (cur + 1))); lia|lia].
  Qed.

  Lemma run_in : forall fuel cur t, In t (run nm cur fuel) -> exists n, aget Z.eqb n nm = Some t.
  Proof.
    induction fuel as [|f IH]; intros cur t; simpl; [contradiction|].
    destruct (aget Z.eqb cur nm) as [t0|] eqn:E; [|contradiction].
    intros [<-|H]; [exists cur; exact E|]. eapply IH; eauto.
  Qed.

  Lemma run_consec : forall fuel cur, consecb cur (map t_nonce (run nm cur fuel)) = true.
  Proof.
    induction fuel as [|f IH]; intros cur; simpl; [reflexivity|].
    destruct (aget Z.eqb cur nm) as [t0|] eqn:E; simpl; [|reflexivity].
    rewrite (keyed _ _ E), Z.eqb_refl. simpl. apply IH.
  Qed.

  Lemma run_nodup fuel cur :
    in64 cur = true -> Z.of_nat fuel <= two64 -> NoDup (run nm cur fuel).
  Proof.
    intros Hc Hf. apply (NoDup_map_inv t_nonce), (consecb_NoDup _ cur Hc (run_consec fuel cur)).
    rewrite map_length. pose proof (run_length fuel cur). lia.
  Qed.

  Lemma run_stops : forall fuel cur, in64 cur = true ->
    length (run nm cur fuel) = fuel
    \/ aget Z.eqb (wrap64 (cur + Z.of_nat (length (run nm cur fuel)))) nm = None.
  Proof.
    induction fuel as [|f IH]; intros cur Hc; simpl; [left; reflexivity|].
    destruct (aget Z.eqb cur nm) eqn:E; simpl length.
    - destruct (IH (wrap64 (cur + 1)) (wrap64_in64 _)) as [H|H]; [left; congruence|right].
      rewrite wrap64_add in H. rewrite <- H. do 2 f_equal. lia.
    - right. rewrite Z.add_0_r, in64_wrap; assumption.
  Qed.

  (** the fuel never ends the loop: a run that used up [length nm] iterations has
      visited every key, and with fewer than 2^64 keys the next nonce is not
      one of those visited *)
  Lemma run_maximal cur :
    NoDup (map fst nm) -> in64 cur = true -> Z.of_nat (length nm) < two64 ->
    aget Z.eqb (wrap64 (cur + Z.of_nat (length (run nm cur (length nm))))) nm = None.
  Proof.
    intros Hk Hc Hlen. destruct (run_stops (length nm) cur Hc) as [Hfull|H]; [|exact H].
    rewrite Hfull. set (l := map t_nonce (run nm cur (length nm))).
    assert (Hl : length l = length nm) by (unfold l; rewrite map_length; exact Hfull).
    assert (Hincl : incl l (map fst nm)).
    { intros n Hn. apply in_map_iff in Hn as (t & <- & Ht). apply run_in in Ht as (n & Hg).
      rewrite (keyed _ _ Hg). exact (aget_Some_keys _ _ _ Z.eqb_eq _ _ _ Hg). }
    assert (Hall : incl (map fst nm) l).
    { apply NoDup_length_incl; auto.
      - apply (consecb_NoDup _ cur Hc (run_consec _ _)). fold l. lia.
      - rewrite map_length. lia. }
    destruct (aget Z.eqb (wrap64 (cur + Z.of_nat (length nm))) nm) eqn:E; [exfalso|reflexivity].
    apply aget_Some_keys, Hall, In_nth_error in E as (k & Hk'); [|exact Z.eqb_eq].
    assert (Hlt : (k < length l)%nat) by (apply nth_error_Some; congruence).
    apply (consecb_nth _ _ _ _ Hc (run_consec _ _)) in Hk'. symmetry in Hk'. apply wrap64_inj in Hk'; lia.
  Qed.
End Run.

Section Runs.
  Variables (txs : list tx) (nonce_of : N -> Z).
  Let m := eth_map txs.

  Lemma sender_run_in s t :
    In t (sender_run m nonce_of s) -> In t txs /\ is_eth t = true /\ t_from t = s.
  Proof.
    unfold sender_run. destruct (aget N.eqb s m) as [nm|] eqn:E; [|contradiction].
    intros H. apply run_in in H as (n & Hn).
    assert (L : lookup m s n = Some t) by (unfold lookup; rewrite E; exact Hn).
    apply eth_map_Some in L. tauto.
  Qed.

  Lemma sender_run_consec s :
    consecb (nonce_of s) (map t_nonce (sender_run m nonce_of s)) = true.
  Proof.
    unfold sender_run. destruct (aget N.eqb s m) as [nm|] eqn:E; [|reflexivity].
    apply run_consec, (eth_map_keyed txs s), E.
  Qed.

  Lemma sender_run_length s : (length (sender_run m nonce_of s) <= nm_len m s)%nat.
  Proof.
    unfold sender_run, nm_len. destruct (aget N.eqb s m) as [nm|]; [apply run_length|simpl; lia].
  Qed.

  Lemma nm_len_bound s : (nm_len m s <= length txs)%nat.
  Proof.
    pose proof (sum_nm_len [s] m ltac:(repeat constructor; intros [])) as H. simpl in H.
    pose proof (msize_eth_map txs). pose proof (sublist_length _ _ (sublist_filter is_eth txs)).
    unfold m in *. lia.
  Qed.

  Lemma sender_run_nodup s :
    in64 (nonce_of s) = true -> Z.of_nat (length txs) < two64 ->
    NoDup (sender_run m nonce_of s).
  Proof.
    intros Hc Hl. pose proof (nm_len_bound s) as Hb. unfold sender_run, nm_len in *.
    destruct (aget N.eqb s m) as [nm|] eqn:E; [|constructor].
    apply run_nodup; [exact (eth_map_keyed txs s nm E)|exact Hc|lia].
  Qed.

  Lemma sender_run_maximal s :
    in64 (nonce_of s) = true -> Z.of_nat (length txs) < two64 ->
    forall t, In t txs -> is_eth t = true -> t_from t = s ->
      t_nonce t <> wrap64 (nonce_of s + Z.of_nat (length (sender_run m nonce_of s))).
  Proof.
    intros Hc Hl t. apply eth_map_None. fold m.
    pose proof (nm_len_bound s) as Hb. unfold lookup, sender_run, nm_len in *.
    destruct (aget N.eqb s m) as [nm|] eqn:E; [|reflexivity].
    apply run_maximal; [exact (eth_map_keyed txs s nm E)| |exact Hc|lia].
    exact (proj2 (keys_ok_eth_map txs) s nm E).
  Qed.
End Runs.

(** the shortcut for a list without eth transactions returns what the general
    path would *)
Lemma sort_eth_eq nonce_of perm txs :
  sort_eth nonce_of perm txs = non_eth txs ++ flat_map (sender_run (eth_map txs) nonce_of) perm.
Proof.
  unfold sort_eth. destruct (Nat.eqb_spec (length (non_eth txs)) (length txs)) as [E|E]; [|reflexivity].
  apply filter_length_id in E. fold (non_eth txs) in E. rewrite E.
  destruct (flat_map _ perm) as [|t r] eqn:F; [symmetry; apply app_nil_r|exfalso].
  assert (Ht : In t (flat_map (sender_run (eth_map txs) nonce_of) perm)) by (rewrite F; left; reflexivity).
  apply in_flat_map in Ht as (s & _ & Ht). apply sender_run_in in Ht as (Ht & He & _).
  rewrite <- E in Ht. apply filter_In in Ht as [_ Ht]. rewrite He in Ht. discriminate.
Qed.

Lemma length_flat_map {A B} (f : A -> list B) l :
  length (flat_map f l) = list_sum (map (fun a => length (f a)) l).
Proof. induction l as [|a l IH]; simpl; [reflexivity|]. rewrite app_length, IH. reflexivity. Qed.

Lemma list_sum_le {A} (f g : A -> nat) l :
  (forall a, (f a <= g a)%nat) -> (list_sum (map f l) <= list_sum (map g l))%nat.
Proof. intros H. induction l as [|a l IH]; simpl; [lia|]. specialize (H a). lia. Qed.

Section Sort.
  Variables (nonce_of : N -> Z) (perm : list N) (txs : list tx).
  Let m := eth_map txs.
  Let res := sort_eth nonce_of perm txs.

  Lemma sort_incl : incl res txs.
  Proof.
    unfold res. rewrite sort_eth_eq. intros t Ht. apply in_app_iff in Ht as [Ht|Ht].
    - apply filter_In in Ht. tauto.
    - apply in_flat_map in Ht as (s & _ & Ht). apply sender_run_in in Ht. tauto.
  Qed.

  Lemma sort_non_eth : non_eth res = non_eth txs.
  Proof.
    unfold res. rewrite sort_eth_eq. unfold non_eth at 1. rewrite filter_app.
    rewrite (filter_all _ (non_eth txs)).
    - rewrite filter_none; [apply app_nil_r|].
      intros t Ht. apply in_flat_map in Ht as (s & _ & Ht). apply sender_run_in in Ht.
      destruct Ht as (_ & -> & _). reflexivity.
    - intros t Ht. apply filter_In in Ht. tauto.
  Qed.

  (** among the runs of distinct senders only the sender's own holds its transactions *)
  Lemma eth_of_flat_map s : NoDup perm ->
    eth_of s (flat_map (sender_run m nonce_of) perm) =
    if mem_n s perm then sender_run m nonce_of s else [].
  Proof.
    assert (Hown : forall a, eth_of s (sender_run m nonce_of a) = if N.eqb s a then sender_run m nonce_of a else []).
    { intros a. destruct (N.eqb_spec s a) as [<-|Hne]; [apply filter_all|apply filter_none]; intros t Ht;
        apply sender_run_in in Ht as (_ & -> & ->).
      - rewrite N.eqb_refl. reflexivity.
      - rewrite (proj2 (N.eqb_neq a s)) by congruence. reflexivity. }
    induction perm as [|a l IH]; intros Hn; [reflexivity|].
    inversion Hn as [|? ? Ha Hl]; subst. cbn [flat_map]. unfold eth_of at 1. rewrite filter_app.
    fold (eth_of s (sender_run m nonce_of a)). fold (eth_of s (flat_map (sender_run m nonce_of) l)).
    rewrite (IH Hl), Hown. simpl. destruct (N.eqb_spec s a) as [<-|Hne]; [|reflexivity].
    destruct (mem_n s l) eqn:Hi; [apply mem_n_In in Hi; contradiction|apply app_nil_r].
  Qed.

  Lemma sort_eth_of s : NoDup perm ->
    eth_of s res = if mem_n s perm then sender_run m nonce_of s else [].
  Proof.
    intros Hn. unfold res. rewrite sort_eth_eq. unfold eth_of at 1. rewrite filter_app.
    rewrite filter_none.
    - simpl. apply eth_of_flat_map. exact Hn.
    - intros t Ht. apply filter_In in Ht as [_ Hp]. destruct (is_eth t); [discriminate|reflexivity].
  Qed.

  Lemma sort_consec s : NoDup perm -> consecb (nonce_of s) (map t_nonce (eth_of s res)) = true.
  Proof.
    intros Hn. rewrite sort_eth_of by exact Hn.
    destruct (mem_n s perm); [apply sender_run_consec|reflexivity].
  Qed.

  Lemma sort_eth_of_all s : Permutation perm (sender_keys txs) ->
    eth_of s res = sender_run m nonce_of s.
  Proof.
    intros Hp. rewrite sort_eth_of.
    - destruct (mem_n s perm) eqn:Hi; [reflexivity|].
      unfold sender_run. destruct (aget N.eqb s m) eqn:E; [|reflexivity].
      apply (aget_Some_keys _ _ _ N.eqb_eq), (Permutation_in _ (Permutation_sym Hp)), mem_n_In in E.
      congruence.
    - apply (Permutation_NoDup (Permutation_sym Hp)), keys_ok_eth_map.
  Qed.

  Lemma sort_length : NoDup perm -> (length res <= length txs)%nat.
  Proof.
    intros Hn. unfold res. rewrite sort_eth_eq, app_length, length_flat_map.
    pose proof (list_sum_le (fun a => length (sender_run m nonce_of a)) (nm_len m) perm
                  (sender_run_length txs nonce_of)) as H1.
    pose proof (sum_nm_len perm m Hn) as H2.
    pose proof (msize_eth_map txs) as H3.
    pose proof (filter_partition_length is_eth txs) as H4. unfold non_eth, m in *. lia.
  Qed.

  Lemma sort_nodup :
    NoDup txs -> NoDup perm -> (forall s, in64 (nonce_of s) = true) ->
    Z.of_nat (length txs) < two64 -> NoDup res.
  Proof.
    intros Ht Hn Hc Hl. unfold res. rewrite sort_eth_eq. apply NoDup_app_intro.
    - apply NoDup_filter. exact Ht.
    - apply NoDup_flat_map; auto.
      + intros s _. apply sender_run_nodup; auto.
      + intros a b x _ _ Hab Ha Hb. apply sender_run_in in Ha as (_ & _ & Ha).
        apply sender_run_in in Hb as (_ & _ & Hb). congruence.
    - intros x Hx Hy. apply filter_In in Hx as [_ Hx].
      apply in_flat_map in Hy as (s & _ & Hy). apply sender_run_in in Hy as (_ & Hy & _).
      rewrite Hy in Hx. discriminate.
  Qed.
End Sort.

Lemma sort_perm nonce_of p1 p2 txs :
  Permutation p1 p2 -> Permutation (sort_eth nonce_of p1 txs) (sort_eth nonce_of p2 txs).
Proof.
  intros H. rewrite !sort_eth_eq. apply Permutation_app_head. apply Permutation_flat_map. exact H.
Qed.

Lemma filter_tx_incl e nonce_of perm count excl isAll pool :
  incl (filter_tx_list e nonce_of perm count excl isAll pool) (filter_walk e count excl isAll pool).
Proof. unfold filter_tx_list. destruct (sort_active e); [apply sort_incl|apply incl_refl]. Qed.

Lemma filter_tx_consec e nonce_of perm count excl isAll pool s :
  sort_active e = true -> NoDup perm ->
  consecb (nonce_of s) (map t_nonce (eth_of s (filter_tx_list e nonce_of perm count excl isAll pool))) = true.
Proof. intros Hs Hn. unfold filter_tx_list. rewrite Hs. apply sort_consec. exact Hn. Qed.
