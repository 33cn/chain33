(** C23 — concrete states showing that the hypotheses of the theorems are
    satisfiable by non-trivial pools and that the model does what the code
    comments say (evaluated by [vm_compute]; these are examples, not theorems). *)
From Coq Require Import List ZArith NArith Bool Lia Permutation.
From C33 Require Import C23.Model C23.Spec C23.ProofsWalk.
Import ListNotations.
Open Scope Z_scope.

Definition ex_env : env := mkEnv 1000 600 10 5000000000 0 false 0.

(* sender 1: eth nonces 1, 0, 3 (gap at 2), sender 2: eth nonce 5 (current 5) and a
   second transaction with the same nonce; plain transactions 2, 6, 8, 9; transaction 6
   expired by height (Expire 11 <= next height 11), 8 too old (entered at 400) *)
Definition ex_pool : list item := [
  mkItem (mkTx 1 true false 1 1 [0]) 900;
  mkItem (mkTx 2 false false 7 0 [0]) 900;
  mkItem (mkTx 3 true false 1 0 [0]) 900;
  mkItem (mkTx 4 true false 2 5 [0]) 900;
  mkItem (mkTx 5 true false 1 3 [12]) 900;
  mkItem (mkTx 6 false false 7 0 [11]) 900;
  mkItem (mkTx 7 true false 2 5 [0]) 900;
  mkItem (mkTx 8 false false 7 0 [0]) 400;
  mkItem (mkTx 9 false false 8 0 [0; 5000000001]) 950 ].

Definition ex_nonce (s : N) : Z := if N.eqb s 2 then 5 else 0.

Example ex_result :
  map t_id (get_tx_list ex_env ex_nonce [2; 1]%N 20 [] ex_pool) = [2; 9; 7; 3; 1]%N.
Proof. vm_compute. reflexivity. Qed.

Example ex_result_other_order :
  map t_id (get_tx_list ex_env ex_nonce [1; 2]%N 20 [] ex_pool) = [2; 9; 3; 1; 7]%N.
Proof. vm_compute. reflexivity. Qed.

Example ex_count_and_exclusion :
  map t_id (get_tx_list ex_env ex_nonce [1; 2]%N 3 [2]%N ex_pool) = [3; 1; 4]%N.
Proof. vm_compute. reflexivity. Qed.

(* the hypotheses used by the theorems hold for this state *)
Example ex_hyps :
  NoDup (map (fun it => t_id (i_tx it)) ex_pool)
  /\ NoDup [2; 1]%N
  /\ Permutation [2; 1]%N (sender_keys (filter_walk ex_env 20 [] false ex_pool))
  /\ (forall s, in64 (ex_nonce s) = true)
  /\ Z.of_nat (length ex_pool) < two64
  /\ sort_active ex_env = true.
Proof.
  split; [|split; [|split; [|split; [|split]]]].
  - apply nodupb_NoDup. reflexivity.
  - apply nodupb_NoDup. reflexivity.
  - vm_compute. apply perm_swap.
  - intros s. unfold ex_nonce. destruct (N.eqb s 2); reflexivity.
  - vm_compute. reflexivity.
  - vm_compute. reflexivity.
Qed.

(* int64 wrap-around of the nonce loop: current nonce MaxInt64, the map holds
   MaxInt64 and MinInt64 *)
Example ex_wrap :
  let pool := [ mkItem (mkTx 1 true false 1 (-9223372036854775808) [0]) 900;
                mkItem (mkTx 2 true false 1 9223372036854775807 [0]) 900 ] in
  map t_id (get_tx_list ex_env (fun _ => 9223372036854775807) [1]%N 20 [] pool) = [2; 1]%N.
Proof. vm_compute. reflexivity. Qed.

(* a count that is used up by unpackable eth transactions yields an empty list
   although packable transactions wait behind them *)
Example ex_starved :
  let pool := [ mkItem (mkTx 1 true false 1 7 [0]) 900;
                mkItem (mkTx 2 false false 7 0 [0]) 900 ] in
  get_tx_list ex_env (fun _ => 0) [1]%N 1 [] pool = [].
Proof. vm_compute. reflexivity. Qed.
