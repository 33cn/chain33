(** C04 — Pending state updates never leak into committed state: theorem statements. *)
From Coq Require Import List ZArith NArith Bool.
From C33 Require Import C01.Keys C01.Model C01.Spec C01.Store C01.Inv
  C04.Model C04.Proofs C04.ProofsOps C04.ProofsMain C04.ProofsExamples.
Import ListNotations.

(** every state the store can reach from an empty database satisfies the invariant the
    theorems below assume *)
Theorem C04_reachable_inv : forall pfx ops, inv (run (st0 pfx) ops).
Proof. exact reachable_inv. Qed.
Print Assumptions C04_reachable_inv.

(** a read at a root that resolves in the database returns that root's content, whatever the
    table of pending trees holds *)
Theorem C04_read_committed : forall s r o k,
  inv s -> committed s r o -> read s r k = sget (o_elements o) k.
Proof. exact read_committed. Qed.
Print Assumptions C04_read_committed.

(** a committed root stays committed with the same content under ANY later operations,
    before and after a restart *)
Theorem C04_committed_forever : forall s r o ops,
  inv s -> committed s r o ->
  inv (run s ops) /\ committed (run s ops) r o /\
  (forall k, read (run s ops) r k = sget (o_elements o) k) /\
  (forall k, read (restart (run s ops)) r k = sget (o_elements o) k).
Proof. exact committed_forever. Qed.
Print Assumptions C04_committed_forever.

(** MemSet, Rollback (and Get) leave the database untouched and every read at every committed
    root unchanged, before and after a restart *)
Theorem C04_pending_invisible : forall s r o ops,
  inv s -> committed s r o -> forallb table_only ops = true ->
  s_db (run s ops) = s_db s /\
  forall k, read (run s ops) r k = read s r k /\
            read (restart (run s ops)) r k = read s r k /\
            read (restart s) r k = read s r k.
Proof. exact pending_invisible. Qed.
Print Assumptions C04_pending_invisible.

(** ... and they neither add nor remove a committed root: the set of roots that resolve, with
    their contents, is the same before and after (and after a restart) *)
Theorem C04_table_only_frame : forall s ops r o,
  inv s -> forallb table_only ops = true ->
  (committed (run s ops) r o <-> committed s r o) /\
  (committed (restart (run s ops)) r o <-> committed s r o).
Proof. exact table_only_frame. Qed.
Print Assumptions C04_table_only_frame.

(** an update that is still pending when it is committed (no Rollback of its root, no restart
    in between): whatever else happens between MemSet and its acknowledged Commit - other
    updates, commits and rollbacks, reads, EMPTY MemSets on the root itself (former finding
    C04-1, fixed in chain33: the shortcut keeps what waits under the hash) - reads at the root
    return the content MemSet computed, for ever after and after restarts *)
Theorem C04_commit_exact : forall s p o kvs r s1 ops x s2,
  inv s -> committed s p o ->
  mem_set s p kvs = (RRoot r, s1) ->
  still_pending r ops = true ->
  step (run s1 ops) (OCommit r) = (RRoot x, s2) ->
  exists oc, o_elements oc = apply_writes (o_elements o) kvs /\ committed s2 r oc /\
    forall later k,
      read (run s2 later) r k = sget (apply_writes (o_elements o) kvs) k /\
      read (restart (run s2 later)) r k = sget (apply_writes (o_elements o) kvs) k.
Proof. exact commit_exact. Qed.
Print Assumptions C04_commit_exact.

(** the same under the weakest guard: the root may be rolled back / lost in a restart and
    computed again, as long as no empty MemSet is issued on it AFTER it was discarded *)
Theorem C04_commit_exact_general : forall s p o kvs r s1 ops x s2,
  inv s -> committed s p o ->
  mem_set s p kvs = (RRoot r, s1) ->
  no_marker_after_discard r ops = true ->
  step (run s1 ops) (OCommit r) = (RRoot x, s2) ->
  exists oc, o_elements oc = apply_writes (o_elements o) kvs /\ committed s2 r oc /\
    forall later k,
      read (run s2 later) r k = sget (apply_writes (o_elements o) kvs) k /\
      read (restart (run s2 later)) r k = sget (apply_writes (o_elements o) kvs) k.
Proof. exact commit_exact_general. Qed.
Print Assumptions C04_commit_exact_general.

(** ... which is implied by "still pending" and by [no_marker_on] (no empty MemSet on the
    root at all) *)
Theorem C04_commit_exact_guards : forall r ops,
  (still_pending r ops = true -> no_marker_after_discard r ops = true) /\
  (no_marker_on r ops = true -> no_marker_after_discard r ops = true).
Proof. exact commit_exact_guards. Qed.
Print Assumptions C04_commit_exact_guards.

(** the "still pending" hypothesis cannot be dropped altogether: after Rollback r an empty
    MemSet on r is a new update of a root the store does not know; the shortcut accepts it
    without looking at the database and its Commit is acknowledged (not a pending update of
    known content: the specification has no obligation there) *)
Theorem C04_commit_exact_unguarded_false : ~ commit_exact_unguarded.
Proof. exact commit_exact_unguarded_false. Qed.
Print Assumptions C04_commit_exact_unguarded_false.

(** two pending updates of one parent, then commits / rollbacks of the two in any order and
    number: a fork whose Commit was acknowledged reads as computed, the parent reads as before *)
Theorem C04_forks_independent : forall s p o kvs1 kvs2 r1 r2 s1 s2 acts,
  inv s -> committed s p o ->
  mem_set s p kvs1 = (RRoot r1, s1) ->
  mem_set s1 p kvs2 = (RRoot r2, s2) ->
  let ops := map (act_op r1 r2) acts in
  let s3 := run s2 ops in
  (In (OCommit r1, RRoot r1) (combine ops (outs s2 ops)) ->
     forall k, read s3 r1 k = sget (apply_writes (o_elements o) kvs1) k /\
               read (restart s3) r1 k = sget (apply_writes (o_elements o) kvs1) k) /\
  (In (OCommit r2, RRoot r2) (combine ops (outs s2 ops)) ->
     forall k, read s3 r2 k = sget (apply_writes (o_elements o) kvs2) k /\
               read (restart s3) r2 k = sget (apply_writes (o_elements o) kvs2) k) /\
  (forall k, read s3 p k = sget (o_elements o) k /\ read (restart s3) p k = sget (o_elements o) k).
Proof. exact forks_independent. Qed.
Print Assumptions C04_forks_independent.

(** any schedule of clients whose requests are served one at a time (operation granularity —
    the assumed atomicity) gives the final state and the replies of ONE sequential history that
    keeps every client's own order *)
Theorem C04_ops_linearizable_model : forall sched s rem sf rf h,
  exec s rem sched = (sf, rf, h) ->
  sf = run s (map ev_op h) /\
  map ev_out h = outs s (map ev_op h) /\
  forall i, proj i h ++ nth i rf [] = nth i rem [].
Proof. exact ops_linearizable_model. Qed.
Print Assumptions C04_ops_linearizable_model.
