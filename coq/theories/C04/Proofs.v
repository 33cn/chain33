(** C04 — invariants of the store state machine and the basic read lemma:
    a read at a root that resolves in the database is a function of that root's
    content only (the table of pending trees cannot change it). *)
From Coq Require Import List ZArith NArith Bool.
From C33 Require Import C01.Keys C01.KeysFacts C01.Model C01.Spec C01.Store C01.Inv
  C01.Proofs C01.ProofsStore C04.Model.
Import ListNotations.
Open Scope Z_scope.

Lemma xroot_eqb_refl : forall a, xroot_eqb a a = true.
Proof. intros [| |h]; simpl; auto using hash_eqb_refl. Qed.

Lemma xroot_eqb_eq : forall a b, xroot_eqb a b = true -> a = b.
Proof.
  intros [| |x] [| |y]; simpl; intros H; try discriminate; auto.
  apply hash_eqb_eq in H. congruence.
Qed.

Lemma xroot_eqb_neq : forall a b, xroot_eqb a b = false -> a <> b.
Proof. intros a b H E. subst b. rewrite xroot_eqb_refl in H. discriminate. Qed.

Lemma xroot_eqb_sym : forall a b, xroot_eqb a b = xroot_eqb b a.
Proof.
  intros a b. destruct (xroot_eqb a b) eqn:E.
  - apply xroot_eqb_eq in E. subst. symmetry. apply xroot_eqb_refl.
  - destruct (xroot_eqb b a) eqn:E2; [|reflexivity].
    apply xroot_eqb_eq in E2. destruct (xroot_eqb_neq _ _ E (eq_sym E2)).
Qed.

Lemma p_get_del : forall p x r, p_get (p_del p x) r = if xroot_eqb r x then None else p_get p r.
Proof.
  induction p as [|[y v] p IH]; intros x r; simpl; [destruct (xroot_eqb r x); reflexivity|].
  destruct (xroot_eqb x y) eqn:E; simpl; rewrite IH.
  - apply xroot_eqb_eq in E. subst y. destruct (xroot_eqb r x); reflexivity.
  - destruct (xroot_eqb r y) eqn:E2; [|reflexivity].
    apply xroot_eqb_eq in E2. subst y. rewrite xroot_eqb_sym, E. reflexivity.
Qed.

Lemma p_get_put : forall p x v r, p_get (p_put p x v) r = if xroot_eqb r x then Some v else p_get p r.
Proof. intros. unfold p_put. simpl. rewrite p_get_del. destruct (xroot_eqb r x); reflexivity. Qed.

Lemma put_absent_some : forall p r v w, p_get p r = Some w -> p_put_absent p r v = p.
Proof. intros p r v w H. unfold p_put_absent. rewrite H. reflexivity. Qed.

Lemma put_absent_none : forall p r v, p_get p r = None -> p_put_absent p r v = p_put p r v.
Proof. intros p r v H. unfold p_put_absent. rewrite H. reflexivity. Qed.

(** every stored node is a node of an ordered tree with correct heights and sizes *)
Definition db_good (d : db) : Prop :=
  forall h r, db_get d h = Some r -> exists t, ordered t /\ sized t /\ thash t = h.

(** a pending tree sits under its own hash and is a well-formed search tree *)
Definition pend_ok (p : pending) : Prop :=
  forall r t, p_get p r = Some (Some t) -> r = XH (thash t) /\ ordered t /\ sized t.

Definition inv (s : st) : Prop := db_wf (s_db s) /\ db_good (s_db s) /\ pend_ok (s_pend s).

Lemma inv_st0 : forall pfx, inv (st0 pfx).
Proof.
  intros pfx. split; [apply db_wf_empty|]. split.
  - intros h r H. discriminate.
  - intros r t H. discriminate.
Qed.

Lemma put_good : forall d t rc, db_good d -> ordered t -> sized t -> db_good (db_put d (thash t) rc).
Proof.
  intros d t rc G HO HS h r H. rewrite db_get_put in H. destruct (hash_eqb h (thash t)) eqn:E.
  - apply hash_eqb_eq in E. exists t. auto.
  - apply (G _ _ H).
Qed.

Lemma save_good : forall t d, db_good d -> ordered t -> sized t -> db_good (save d t).
Proof.
  induction t as [k v|k h s l IHl r IHr]; intros d G HO HS; cbn [save];
    (destruct (db_has d _); [exact G|apply put_good; auto]).
  destruct HO as [Ol [Or _]], HS as [Sl [Sr _]]. auto.
Qed.

(** what resolves in a good database is a good, completely stored tree *)
Lemma load_good : forall d h o,
  db_wf d -> db_good d -> load_tree d (Some h) = Some o ->
  exists t, o = Some t /\ ordered t /\ sized t /\ stored d t /\ thash t = h.
Proof.
  intros d h o WF G H. cbn [load_tree] in H.
  destruct (load_root d h) as [t|] eqn:L; [|discriminate].
  injection H as <-.
  unfold load_root in L. destruct (db_get d h) as [rc|] eqn:E; [|discriminate].
  destruct (G _ _ E) as [t0 [O0 [S0 H0]]].
  destruct (WF _ _ E) as [t1 [K1 [H1 ST1]]].
  assert (t1 = t0) by (apply thash_inj; auto using ordered_keyed; congruence). subst t1.
  pose proof (load_root_stored t0 d ST1 S0) as L0. rewrite H0 in L0.
  unfold load_root in L0. rewrite E in L0. rewrite L0 in L. injection L as <-.
  exists t0. auto.
Qed.

(** [committed s r o]: the hash [r] resolves in the store, to the tree [o] *)
Definition committed (s : st) (r : xroot) (o : otree) : Prop := load_x s r = Some o.

(** the tree [oc] is the content of root [r] *)
Definition target (r : xroot) (oc : otree) : Prop := xr r = tree_root oc /\ o_good oc.

Lemma committed_good : forall s r o, inv s -> committed s r o -> target r o /\ o_stored (s_db s) o.
Proof.
  intros s r o [WF [G _]] H. unfold committed, load_x in H.
  destruct r as [| |h]; [injection H as <-; repeat split ..|].
  destruct (s_pfx s && negb (is_root s h)); [discriminate|].
  destruct (load_good _ _ _ WF G H) as [t [-> [HO [HS [ST HH]]]]].
  subst h. repeat split; auto.
Qed.

(** the same tree under the same hash *)
Lemma good_same_root : forall o1 o2, o_good o1 -> o_good o2 -> tree_root o1 = tree_root o2 -> o1 = o2.
Proof.
  intros [t1|] [t2|] G1 G2 H; simpl in H; try discriminate; auto.
  injection H as H. f_equal. destruct G1, G2. apply thash_inj; auto using ordered_keyed.
Qed.

(** a tree that waits under [r] is the content of [r] *)
Lemma target_pending : forall s r oc t, inv s -> target r oc ->
  p_get (s_pend s) r = Some (Some t) -> oc = Some t.
Proof.
  intros s r oc t [_ [_ PO]] [XR G] P. destruct (PO _ _ P) as [-> [HO HS]].
  apply good_same_root; simpl; auto.
Qed.

(** a read at a committed root sees its content, whatever is pending: a tree that waits
    under the same hash is the same tree *)
Theorem read_committed : forall s r o k,
  inv s -> committed s r o -> read s r k = sget (o_elements o) k.
Proof.
  intros s r o k I C. pose proof (committed_good _ _ _ I C) as [T _].
  unfold read. destruct (p_get (s_pend s) r) as [[t|]|] eqn:P;
    [|rewrite C; apply t_get_elements, T ..].
  rewrite (target_pending s r o t I T P). destruct I as [_ [_ PO]].
  apply get_elements, (PO _ _ P).
Qed.

Definition roots_incl (s s' : st) : Prop := forall h, is_root s h = true -> is_root s' h = true.

Definition grows (s s' : st) : Prop :=
  db_extends (s_db s) (s_db s') /\ roots_incl s s' /\ s_pfx s' = s_pfx s.

Lemma grows_refl : forall s, grows s s.
Proof. intros s. split; [apply db_extends_refl|]. split; [intros h H; exact H|reflexivity]. Qed.

Lemma grows_trans : forall a b c, grows a b -> grows b c -> grows a c.
Proof.
  intros a b c [X1 [R1 P1]] [X2 [R2 P2]]. split; [eapply db_extends_trans; eauto|].
  split; [intros h H; auto|congruence].
Qed.

Lemma committed_grows : forall s s' r o,
  inv s -> grows s s' -> committed s r o -> committed s' r o.
Proof.
  intros s s' r o I [X [R P]] C.
  pose proof (committed_good _ _ _ I C) as [[XR G] ST].
  unfold committed, load_x in *. destruct r as [| |h]; auto.
  rewrite P. destruct (s_pfx s && negb (is_root s h)) eqn:E; [discriminate|].
  assert (E' : s_pfx s && negb (is_root s' h) = false).
  { destruct (s_pfx s); [|reflexivity]. simpl in *.
    destruct (is_root s h) eqn:E2; [|discriminate]. rewrite (R _ E2). reflexivity. }
  rewrite E'. simpl in XR. rewrite XR.
  apply load_tree_stored; [eapply o_stored_ext; eauto|exact G].
Qed.

Lemma with_pend_same : forall s, s = with_pend s (s_pend s).
Proof. intros []. reflexivity. Qed.

Lemma with_pend_grows : forall s p, grows s (with_pend s p).
Proof. intros. split; [apply db_extends_refl|]. split; [intros h H; exact H|reflexivity]. Qed.

Lemma save_x_grows : forall s t p, db_wf (s_db s) -> keyed t -> grows s (save_x s t p).
Proof.
  intros s t p WF K. split; [apply save_spec; auto|]. split; [|reflexivity].
  intros h H. unfold is_root, save_x in *. simpl. rewrite H. apply orb_true_r.
Qed.

Lemma save_x_inv : forall s t p, inv s -> ordered t -> sized t -> pend_ok p -> inv (save_x s t p).
Proof.
  intros s t p [WF [G _]] HO HS PO. split; [|split].
  - simpl. apply save_spec; auto using ordered_keyed.
  - simpl. apply save_good; auto.
  - exact PO.
Qed.

Lemma save_x_committed : forall s t p, inv s -> ordered t -> sized t ->
  committed (save_x s t p) (XH (thash t)) (Some t).
Proof.
  intros s t p [WF [G _]] HO HS. unfold committed, load_x.
  assert (R : is_root (save_x s t p) (thash t) = true).
  { unfold is_root, save_x. simpl. rewrite hash_eqb_refl. reflexivity. }
  rewrite R. rewrite andb_false_r.
  change (Some (thash t)) with (tree_root (Some t)).
  apply load_tree_stored; simpl; auto.
  apply save_spec; auto using ordered_keyed.
Qed.
