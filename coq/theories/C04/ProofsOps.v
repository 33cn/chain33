(** C04 — what a step does to the database and to the table; hence every operation
    keeps the invariant and only lets the database grow; what an update (MemSet)
    leaves in the table, and when an acknowledged Commit makes it readable. *)
From Coq Require Import List ZArith NArith Bool.
From C33 Require Import C01.Keys C01.KeysFacts C01.Model C01.Spec C01.Store C01.Inv
  C01.Proofs C01.ProofsStore C04.Model C04.Proofs.
Import ListNotations.
Open Scope Z_scope.

(** the tree an update computes *)
Lemma update_tree : forall s p o kvs, inv s -> load_x s p = Some o ->
  exists o', t_set_all o kvs = Some o' /\ o_good o' /\
             o_elements o' = apply_writes (o_elements o) kvs.
Proof. intros s p o kvs I H. apply t_set_all_inv. apply (committed_good s p o I H). Qed.

(** operations that only touch the table *)
Definition table_only (o : op) : bool :=
  match o with OMemSet _ _ | ORollback _ | OGet _ _ => true | _ => false end.

Definition empty_memset_on (r : xroot) (o : op) : bool :=
  match o with OMemSet x [] => xroot_eqb r x | _ => false end.

(** operations that throw away what waits under [r] *)
Definition discards (r : xroot) (o : op) : bool :=
  match o with ORollback x => xroot_eqb r x | ORestart => true | _ => false end.

(** The database side: a step replaces the table, or saves one well-formed tree as well;
    only Set and Commit save. *)
Lemma step_db : forall s o, inv s ->
  (exists p', snd (step s o) = with_pend s p') \/
  (exists t p', snd (step s o) = save_x s t p' /\ ordered t /\ sized t /\ table_only o = false).
Proof.
  intros s o I.
  assert (Same : exists p', s = with_pend s p') by (eexists; apply with_pend_same).
  destruct o as [p kvs|p kvs|r|r|r ks|]; cbn [step].
  - left. unfold mem_set. destruct kvs as [|kv kvs]; [eexists; reflexivity|].
    destruct (load_x s p) as [o|]; [|exact Same].
    destruct (t_set_all o (kv :: kvs)) as [[t|]|]; [eexists; reflexivity|exact Same|exact Same].
  - unfold set_direct. destruct (load_x s p) as [o|] eqn:L; [|left; exact Same].
    destruct (update_tree s p o kvs I L) as [[t|] [E [G _]]]; rewrite E; [|left; exact Same].
    right. exists t, (s_pend s). destruct G. auto.
  - unfold commit. destruct (p_get (s_pend s) r) as [[t|]|] eqn:P;
      [|left; eexists; reflexivity|left; exact Same].
    right. destruct I as [_ [_ PO]]. destruct (PO _ _ P) as [_ [HO HS]].
    exists t, (p_del (s_pend s) r). auto.
  - left. unfold rollback. destruct (p_get (s_pend s) r); [eexists; reflexivity|exact Same].
  - left. exact Same.
  - left. eexists. reflexivity.
Qed.

(** The table side, one root [r] at a time: how the entry [e] under [r] before a step [o] and
    the entry [e'] after it are related.  It is what it was; or it is gone, and then the step
    discarded [r] or was Commit [r]; or it is the tree MemSet has just computed; or it is the
    nil marker of an empty MemSet on [r], and then nothing waited under [r] (LoadOrStore). *)
Definition entry_after (r : xroot) (o : op) (e e' : option (option tree)) : Prop :=
  e' = e \/
  (e' = None /\ (discards r o = true \/ o = OCommit r)) \/
  (exists t, e' = Some (Some t) /\ r = XH (thash t) /\ ordered t /\ sized t) \/
  (e' = Some None /\ e = None /\ empty_memset_on r o = true).

Lemma step_table : forall s o r, inv s ->
  entry_after r o (p_get (s_pend s) r) (p_get (s_pend (snd (step s o))) r).
Proof.
  intros s o r I. destruct o as [p kvs|p kvs|x|x|x ks|]; cbn [step].
  - unfold mem_set. destruct kvs as [|kv kvs].
    + cbn [snd s_pend with_pend]. destruct (p_get (s_pend s) p) as [w|] eqn:P.
      * rewrite (put_absent_some _ _ _ w P). left. reflexivity.
      * rewrite (put_absent_none _ _ _ P), p_get_put.
        destruct (xroot_eqb r p) eqn:E; [|left; reflexivity].
        apply xroot_eqb_eq in E. subst p. right. right. right.
        split; [reflexivity|]. split; [exact P|]. apply xroot_eqb_refl.
    + destruct (load_x s p) as [o|] eqn:L; [|left; reflexivity].
      destruct (update_tree s p o (kv :: kvs) I L) as [[t|] [E [G _]]]; rewrite E; [|left; reflexivity].
      cbn [snd s_pend with_pend]. rewrite p_get_put.
      destruct (xroot_eqb r (XH (thash t))) eqn:X; [|left; reflexivity].
      apply xroot_eqb_eq in X. destruct G. right. right. left. exists t. auto.
  - left. unfold set_direct. destruct (load_x s p) as [o|]; [|reflexivity].
    destruct (t_set_all o kvs) as [[t|]|]; reflexivity.
  - unfold commit. destruct (p_get (s_pend s) x) as [[t|]|]; [| |left; reflexivity];
      cbn [snd s_pend with_pend save_x]; rewrite p_get_del;
      (destruct (xroot_eqb r x) eqn:E; [|left; reflexivity]);
      apply xroot_eqb_eq in E; subst x; right; left; auto.
  - unfold rollback. destruct (p_get (s_pend s) x); [|left; reflexivity].
    cbn [snd s_pend with_pend]. rewrite p_get_del.
    destruct (xroot_eqb r x) eqn:E; [right; left; auto|left; reflexivity].
  - left. reflexivity.
  - right. left. auto.
Qed.

Lemma step_inv_grows : forall s o, inv s -> inv (snd (step s o)) /\ grows s (snd (step s o)).
Proof.
  intros s o I. pose proof I as [WF [G PO]].
  assert (PO' : pend_ok (s_pend (snd (step s o)))).
  { intros r t H.
    destruct (step_table s o r I) as [E|[[E _]|[[t' [E X]]|[E _]]]]; rewrite E in H.
    - apply (PO _ _ H).
    - discriminate.
    - injection H as <-. exact X.
    - discriminate. }
  destruct (step_db s o I) as [[p' E]|[t [p' [E [HO [HS _]]]]]]; rewrite E in *.
  - split; [|apply with_pend_grows]. split; [exact WF|]. split; [exact G|exact PO'].
  - split; [apply save_x_inv; auto|apply save_x_grows; auto using ordered_keyed].
Qed.

Lemma step_inv : forall s o, inv s -> inv (snd (step s o)).
Proof. intros. apply step_inv_grows. assumption. Qed.

Lemma step_grows : forall s o, inv s -> grows s (snd (step s o)).
Proof. intros. apply step_inv_grows. assumption. Qed.

Lemma run_inv_grows : forall ops s, inv s -> inv (run s ops) /\ grows s (run s ops).
Proof.
  induction ops as [|o ops IH]; intros s I; simpl; [auto using grows_refl|].
  destruct (IH _ (step_inv s o I)) as [I' G']. split; [exact I'|].
  eapply grows_trans; [apply step_grows; exact I|exact G'].
Qed.

Lemma run_app : forall a b s, run s (a ++ b) = run (run s a) b.
Proof. induction a as [|o a IH]; intros b s; simpl; [reflexivity|apply IH]. Qed.

Lemma restart_inv : forall s, inv s -> inv (restart s).
Proof. intros s I. apply (step_inv s ORestart I). Qed.

Lemma restart_committed : forall s r o, committed s r o -> committed (restart s) r o.
Proof. intros s r o H. exact H. Qed.

(** once a root resolves it resolves for ever, to the same tree, and reads there are fixed *)
Theorem committed_forever : forall s r o ops,
  inv s -> committed s r o ->
  inv (run s ops) /\ committed (run s ops) r o /\
  (forall k, read (run s ops) r k = sget (o_elements o) k) /\
  (forall k, read (restart (run s ops)) r k = sget (o_elements o) k).
Proof.
  intros s r o ops I C. destruct (run_inv_grows ops s I) as [I' G'].
  assert (C' : committed (run s ops) r o) by (apply (committed_grows s); auto).
  split; [exact I'|]. split; [exact C'|]. split; intros k.
  - apply read_committed; auto.
  - apply read_committed; [apply restart_inv; exact I'|exact C'].
Qed.

(** a run of table-only operations changes nothing but the table *)
Lemma table_only_run : forall ops s, inv s -> forallb table_only ops = true ->
  exists p', run s ops = with_pend s p'.
Proof.
  induction ops as [|o ops IH]; intros s I H; simpl.
  - exists (s_pend s). apply with_pend_same.
  - simpl in H. apply andb_prop in H. destruct H as [H1 H2].
    destruct (step_db s o I) as [[p1 E1]|[t [p1 [_ [_ [_ F]]]]]]; [|congruence].
    destruct (IH _ (step_inv s o I) H2) as [p2 E2]. exists p2. rewrite E2, E1. reflexivity.
Qed.

(** The update of [r] has not been lost: its tree waits under [r], or [r] is in the database.
    Every step keeps this except a Rollback of [r] and a restart. *)
Definition ready (r : xroot) (oc : otree) (s : st) : Prop :=
  (exists t, p_get (s_pend s) r = Some (Some t)) \/ committed s r oc.

(** What is left of it afterwards: if the table holds only the nil marker under [r], then [r]
    is in the database.  Every step keeps this except an empty MemSet on [r]. *)
Definition marker_safe (r : xroot) (oc : otree) (s : st) : Prop :=
  p_get (s_pend s) r = Some None -> committed s r oc.

Lemma ready_marker_safe : forall r oc s, ready r oc s -> marker_safe r oc s.
Proof. intros r oc s [[t P]|C] M; [congruence|exact C]. Qed.

Lemma marker_safe_step : forall s r oc o, inv s -> marker_safe r oc s ->
  empty_memset_on r o = false -> marker_safe r oc (snd (step s o)).
Proof.
  intros s r oc o I M Hg P.
  destruct (step_table s o r I) as [E|[[E _]|[[t [E _]]|[_ [_ E]]]]]; try congruence.
  rewrite E in P. apply (committed_grows s); auto using step_grows.
Qed.

Lemma marker_safe_run : forall ops s r oc, inv s -> marker_safe r oc s ->
  forallb (fun o => negb (empty_memset_on r o)) ops = true ->
  marker_safe r oc (run s ops).
Proof.
  induction ops as [|o ops IH]; intros s r oc I M H; simpl; [exact M|].
  simpl in H. apply andb_prop in H. destruct H as [H1 H2].
  apply IH; auto using step_inv.
  apply marker_safe_step; auto. destruct (empty_memset_on r o); [discriminate|reflexivity].
Qed.

(** an acknowledged Commit of [r] makes [r] resolve to its content *)
Lemma commit_ack : forall s r oc x, inv s -> target r oc -> marker_safe r oc s ->
  fst (step s (OCommit r)) = RRoot x ->
  committed (snd (step s (OCommit r))) r oc.
Proof.
  intros s r oc x I T M H. cbn [step] in *. unfold commit in *.
  destruct (p_get (s_pend s) r) as [[t|]|] eqn:P; simpl in *; try discriminate.
  - pose proof (target_pending s r oc t I T P). subst oc.
    destruct I as [WF [G PO]]. destruct (PO _ _ P) as [-> [HO HS]].
    apply save_x_committed; [split; auto|auto|auto].
  - apply (committed_grows s); auto using with_pend_grows.
Qed.

Lemma ready_step : forall s r oc o, inv s -> target r oc -> ready r oc s ->
  discards r o = false -> ready r oc (snd (step s o)).
Proof.
  intros s r oc o I T R D. pose proof (ready_marker_safe _ _ _ R) as M.
  destruct R as [[t P]|C]; [|right; apply (committed_grows s); auto using step_grows].
  destruct (step_table s o r I) as [E|[[_ [E| ->]]|[[t' [E _]]|[_ [E _]]]]]; try congruence.
  - left. exists t. congruence.
  - right. apply (commit_ack s r oc r I T M). cbn [step]. unfold commit. rewrite P. reflexivity.
  - left. exists t'. exact E.
Qed.

(** no Rollback of [r] and no restart *)
Definition still_pending (r : xroot) (ops : list op) : bool :=
  forallb (fun o => negb (discards r o)) ops.

(** no empty MemSet on [r] after the first Rollback of [r] / restart *)
Fixpoint no_marker_after_discard (r : xroot) (ops : list op) : bool :=
  match ops with
  | [] => true
  | o :: tl =>
      if discards r o then forallb (fun o' => negb (empty_memset_on r o')) tl
      else no_marker_after_discard r tl
  end.

Lemma still_pending_general : forall r ops,
  still_pending r ops = true -> no_marker_after_discard r ops = true.
Proof.
  induction ops as [|o ops IH]; intros H; simpl in *; [reflexivity|].
  apply andb_prop in H. destruct H as [H1 H2].
  destruct (discards r o); [discriminate|auto].
Qed.

Lemma no_marker_general : forall r ops,
  forallb (fun o => negb (empty_memset_on r o)) ops = true -> no_marker_after_discard r ops = true.
Proof.
  induction ops as [|o ops IH]; intros H; simpl in *; [reflexivity|].
  apply andb_prop in H. destruct H as [H1 H2].
  destruct (discards r o); auto.
Qed.

(** up to the first discard the update is ready; the discarding step is not an empty MemSet *)
Lemma marker_safe_run_general : forall ops s r oc, inv s -> target r oc -> ready r oc s ->
  no_marker_after_discard r ops = true ->
  marker_safe r oc (run s ops).
Proof.
  induction ops as [|o ops IH]; intros s r oc I T R H; simpl; [apply ready_marker_safe; exact R|].
  simpl in H. destruct (discards r o) eqn:D.
  - apply marker_safe_run; auto using step_inv.
    apply marker_safe_step; auto using ready_marker_safe.
    destruct o as [x [|]| | | | |]; try discriminate; reflexivity.
  - apply IH; auto using step_inv, ready_step.
Qed.

(** an acknowledged Commit of an update that is ready, under the guard *)
Lemma commit_ready : forall ops s r oc x s2, inv s -> target r oc -> ready r oc s ->
  no_marker_after_discard r ops = true ->
  step (run s ops) (OCommit r) = (RRoot x, s2) ->
  inv s2 /\ committed s2 r oc.
Proof.
  intros ops s r oc x s2 I T R G HC. destruct (run_inv_grows ops s I) as [I' _].
  pose proof (marker_safe_run_general ops s r oc I T R G) as M.
  pose proof (commit_ack _ r oc x I' T M) as C. pose proof (step_inv _ (OCommit r) I') as I2.
  rewrite HC in C, I2. auto.
Qed.

(** what MemSet leaves behind *)
Lemma mem_set_spec : forall s p o kvs r s1, inv s -> committed s p o ->
  mem_set s p kvs = (RRoot r, s1) ->
  exists oc, target r oc /\ o_elements oc = apply_writes (o_elements o) kvs /\ ready r oc s1.
Proof.
  intros s p o kvs r s1 I C H. unfold mem_set in H. destruct kvs as [|kv kvs].
  - injection H as <- <-. exists o. split; [apply (committed_good s p o I C)|]. split; [reflexivity|].
    right. apply (committed_grows s); auto using with_pend_grows.
  - unfold committed in C. rewrite C in H.
    destruct (update_tree s p o (kv :: kvs) I C) as [[t|] [E [G' HE]]]; rewrite E in H;
      injection H as <- <-.
    + exists (Some t). split; [split; simpl; auto|]. split; [exact HE|].
      left. exists t. cbn [s_pend with_pend]. rewrite p_get_put, xroot_eqb_refl. reflexivity.
    + exists None. split; [split; simpl; auto|]. split; [exact HE|]. right. reflexivity.
Qed.
