(** C04 — the main theorems: pending updates are invisible at committed roots; an
    acknowledged Commit makes exactly the computed content readable; forks of one parent
    do not disturb each other; interleavings of atomically served requests are sequential
    histories. *)
From Coq Require Import List ZArith NArith Bool Lia Arith.
From C33 Require Import C01.Keys C01.KeysFacts C01.Model C01.Spec C01.Store C01.Inv
  C01.Proofs C01.ProofsStore C04.Model C04.Proofs C04.ProofsOps.
Import ListNotations.
Open Scope Z_scope.

(** table-only operations (and a restart) neither add nor remove a resolvable root *)
Theorem table_only_frame : forall s ops r o,
  inv s -> forallb table_only ops = true ->
  (committed (run s ops) r o <-> committed s r o) /\
  (committed (restart (run s ops)) r o <-> committed s r o).
Proof.
  intros s ops r o I H. destruct (table_only_run ops s I H) as [p' E]. rewrite E.
  split; reflexivity.
Qed.

Theorem pending_invisible : forall s r o ops,
  inv s -> committed s r o -> forallb table_only ops = true ->
  s_db (run s ops) = s_db s /\
  forall k, read (run s ops) r k = read s r k /\
            read (restart (run s ops)) r k = read s r k /\
            read (restart s) r k = read s r k.
Proof.
  intros s r o ops I C H. split.
  - destruct (table_only_run ops s I H) as [p' E]. rewrite E. reflexivity.
  - intros k. destruct (committed_forever s r o ops I C) as [_ [_ [R1 R2]]].
    rewrite R1, R2. rewrite (read_committed s r o k I C).
    rewrite (read_committed (restart s) r o k (restart_inv s I) C). auto.
Qed.

Lemma in_outs_split : forall ops s o x, In (o, x) (combine ops (outs s ops)) ->
  exists a b s', ops = a ++ o :: b /\ step (run s a) o = (x, s').
Proof.
  induction ops as [|o0 ops IH]; intros s o x H; simpl in H; [contradiction|].
  destruct H as [H|H].
  - injection H as <- <-. exists [], ops, (snd (step s o0)). split; [reflexivity|apply surjective_pairing].
  - destruct (IH _ _ _ H) as [a [b [s' [E1 E2]]]]. exists (o0 :: a), b, s'. subst ops. auto.
Qed.

Lemma step_eq : forall s o x s', step s o = (x, s') -> s' = snd (step s o).
Proof. intros s o x s' E. rewrite E. reflexivity. Qed.

Definition no_marker_on (r : xroot) (ops : list op) : bool :=
  forallb (fun o => negb (empty_memset_on r o)) ops.

(** an acknowledged Commit somewhere in a history without empty MemSets on [r] *)
Lemma acked_commit : forall ops s r oc,
  inv s -> target r oc -> ready r oc s -> no_marker_on r ops = true ->
  In (OCommit r, RRoot r) (combine ops (outs s ops)) ->
  forall k, read (run s ops) r k = sget (o_elements oc) k /\
            read (restart (run s ops)) r k = sget (o_elements oc) k.
Proof.
  intros ops s r oc I T R G H k.
  destruct (in_outs_split _ _ _ _ H) as [a [b [s' [E1 E2]]]]. subst ops.
  unfold no_marker_on in G. rewrite forallb_app in G. apply andb_prop in G. destruct G as [Ga _].
  destruct (commit_ready a s r oc r s' I T R (no_marker_general _ _ Ga) E2) as [I2 C2].
  rewrite run_app. cbn [run]. rewrite E2.
  destruct (committed_forever s' r oc b I2 C2) as [_ [_ [Ra Rb]]]. auto.
Qed.

(** The guard: no empty MemSet on [r] after [r] was rolled back or the store was restarted
    (then nothing waits under [r] any more and the shortcut leaves a marker for a root
    that may not exist).  Implied by [still_pending] and by [no_marker_on]. *)
Theorem commit_exact_general : forall s p o kvs r s1 ops x s2,
  inv s -> committed s p o ->
  mem_set s p kvs = (RRoot r, s1) ->
  no_marker_after_discard r ops = true ->
  step (run s1 ops) (OCommit r) = (RRoot x, s2) ->
  exists oc, o_elements oc = apply_writes (o_elements o) kvs /\ committed s2 r oc /\
    forall later k,
      read (run s2 later) r k = sget (apply_writes (o_elements o) kvs) k /\
      read (restart (run s2 later)) r k = sget (apply_writes (o_elements o) kvs) k.
Proof.
  intros s p o kvs r s1 ops x s2 I C HM G HC.
  destruct (mem_set_spec _ _ _ _ _ _ I C HM) as [oc [T [HE R]]].
  pose proof (step_eq _ (OMemSet p kvs) _ _ HM). subst s1.
  destruct (commit_ready ops _ r oc x s2 (step_inv _ _ I) T R G HC) as [I2 C2].
  exists oc. split; [exact HE|]. split; [exact C2|].
  intros later k. destruct (committed_forever s2 r oc later I2 C2) as [_ [_ [R1 R2]]].
  rewrite R1, R2, HE. auto.
Qed.

(** the update is still pending when it is committed: whatever else happens in between
    (empty MemSets on its root included), the acknowledged Commit makes its content readable *)
Theorem commit_exact : forall s p o kvs r s1 ops x s2,
  inv s -> committed s p o ->
  mem_set s p kvs = (RRoot r, s1) ->
  still_pending r ops = true ->
  step (run s1 ops) (OCommit r) = (RRoot x, s2) ->
  exists oc, o_elements oc = apply_writes (o_elements o) kvs /\ committed s2 r oc /\
    forall later k,
      read (run s2 later) r k = sget (apply_writes (o_elements o) kvs) k /\
      read (restart (run s2 later)) r k = sget (apply_writes (o_elements o) kvs) k.
Proof.
  intros s p o kvs r s1 ops x s2 I C HM G HC.
  eapply commit_exact_general; eauto using still_pending_general.
Qed.

Theorem commit_exact_guards : forall r ops,
  (still_pending r ops = true -> no_marker_after_discard r ops = true) /\
  (no_marker_on r ops = true -> no_marker_after_discard r ops = true).
Proof. intros r ops. split; [apply still_pending_general|apply no_marker_general]. Qed.

(** Why a guard remains: once the update of [r] has been rolled back, an empty MemSet on [r]
    is a NEW update of a root the store does not know; it is accepted without looking at the
    database and its Commit is acknowledged.  (The specification has no obligation for an
    update of an unknown parent; this is not the pending update of the first MemSet.) *)
Definition commit_exact_unguarded : Prop := forall s p o kvs r s1 ops x s2 k,
  inv s -> committed s p o ->
  mem_set s p kvs = (RRoot r, s1) ->
  step (run s1 ops) (OCommit r) = (RRoot x, s2) ->
  read s2 r k = sget (apply_writes (o_elements o) kvs) k.

Definition wk : bytes := [107%N; 49%N].      (* "k1" *)
Definition wv : bytes := [118%N; 49%N].      (* "v1" *)
Definition wroot : xroot := XH (HLeaf wk wv).

Theorem commit_exact_unguarded_false : ~ commit_exact_unguarded.
Proof.
  intros F.
  specialize (F (st0 false) XNil None [(wk, wv)] wroot
                (snd (mem_set (st0 false) XNil [(wk, wv)]))
                [ORollback wroot; OMemSet wroot []] wroot
                (snd (step (run (snd (mem_set (st0 false) XNil [(wk, wv)])) [ORollback wroot; OMemSet wroot []]) (OCommit wroot)))
                wk (inv_st0 false) eq_refl eq_refl eq_refl).
  vm_compute in F. discriminate.
Qed.

(** the history of the former finding 1 (MemSet, empty MemSet on the result, Commit) now reads
    what the first MemSet computed *)
Lemma former_witness_exact :
  let s1 := snd (mem_set (st0 false) XNil [(wk, wv)]) in
  let s2 := snd (step (run s1 [OMemSet wroot []]) (OCommit wroot)) in
  fst (step (run s1 [OMemSet wroot []]) (OCommit wroot)) = RRoot wroot /\
  read s2 wroot wk = Some wv /\ read (restart s2) wroot wk = Some wv.
Proof. vm_compute. auto. Qed.

(** (which fork, commit or rollback) *)
Definition act_op (r1 r2 : xroot) (a : bool * bool) : op :=
  let r := if fst a then r1 else r2 in
  if snd a then OCommit r else ORollback r.

Lemma acts_no_marker : forall r r1 r2 acts, no_marker_on r (map (act_op r1 r2) acts) = true.
Proof.
  intros r r1 r2 acts. induction acts as [|[w c] acts IH]; simpl; [reflexivity|].
  unfold act_op at 1. simpl. destruct c; simpl; exact IH.
Qed.

Theorem forks_independent : forall s p o kvs1 kvs2 r1 r2 s1 s2 acts,
  inv s -> committed s p o ->
  mem_set s p kvs1 = (RRoot r1, s1) ->
  mem_set s1 p kvs2 = (RRoot r2, s2) ->
  let ops := map (act_op r1 r2) acts in
  let s3 := run s2 ops in
  (In (OCommit r1, RRoot r1) (combine ops (outs s2 ops)) ->
     forall k, read s3 r1 k = sget (apply_writes (o_elements o) kvs1) k /\
               read (restart s3) r1 k = sget (apply_writes (o_elements o) kvs1) k) /\
  (In (OCommit r2, RRoot r2) (combine ops (outs s2 ops)) ->
     forall k, read s3 r2 k = sget (apply_writes (o_elements o) kvs2) k /\
               read (restart s3) r2 k = sget (apply_writes (o_elements o) kvs2) k) /\
  (forall k, read s3 p k = sget (o_elements o) k /\ read (restart s3) p k = sget (o_elements o) k).
Proof.
  intros s p o kvs1 kvs2 r1 r2 s1 s2 acts I C H1 H2 ops s3. subst s3.
  destruct (mem_set_spec _ _ _ _ _ _ I C H1) as [oc1 [T1 [E1 R1]]].
  pose proof (step_eq _ (OMemSet p kvs1) _ _ H1). subst s1.
  pose proof (step_inv _ (OMemSet p kvs1) I) as I1.
  assert (C1 : committed (snd (step s (OMemSet p kvs1))) p o)
    by (apply (committed_grows s); auto using step_grows).
  destruct (mem_set_spec _ _ _ _ _ _ I1 C1 H2) as [oc2 [T2 [E2 R2]]].
  pose proof (step_eq _ (OMemSet p kvs2) _ _ H2). subst s2.
  pose proof (step_inv _ (OMemSet p kvs2) I1) as I2.
  split; [|split].
  - intros HIn k. apply (ready_step _ _ _ (OMemSet p kvs2) I1 T1) in R1; [|reflexivity].
    rewrite <- E1. apply (acked_commit ops _ r1 oc1 I2 T1 R1 (acts_no_marker _ _ _ _) HIn).
  - intros HIn k. rewrite <- E2. apply (acked_commit ops _ r2 oc2 I2 T2 R2 (acts_no_marker _ _ _ _) HIn).
  - intros k. apply (committed_grows _ _ _ _ I1 (step_grows _ (OMemSet p kvs2) I1)) in C1.
    destruct (committed_forever _ p o ops I2 C1) as [_ [_ [Ra Rb]]]. auto.
Qed.

Fixpoint upd {A} (i : nat) (x : A) (l : list A) : list A :=
  match l, i with
  | [], _ => []
  | _ :: tl, O => x :: tl
  | y :: tl, S j => y :: upd j x tl
  end.

Lemma nth_upd_same : forall {A} (l : list A) i x d, (i < length l)%nat -> nth i (upd i x l) d = x.
Proof.
  induction l as [|y l IH]; intros i x d H; simpl in H; [lia|].
  destruct i; simpl; [reflexivity|]. apply IH. lia.
Qed.

Lemma nth_upd_other : forall {A} (l : list A) i j x d, i <> j -> nth j (upd i x l) d = nth j l d.
Proof.
  induction l as [|y l IH]; intros i j x d H; simpl; [destruct i; reflexivity|].
  destruct i, j; simpl; try reflexivity; [contradiction|]. apply IH. congruence.
Qed.

(** an event: which client, which operation, which reply *)
Definition event := (nat * op * out)%type.
Definition ev_thread (e : event) : nat := fst (fst e).
Definition ev_op (e : event) : op := snd (fst e).
Definition ev_out (e : event) : out := snd e.

(** [rem]: what each client still has to send.  [sched]: which client's next
    request the store serves next; the request is served ATOMICALLY (this is the
    assumption: the Go store serves every request in its own goroutine and an
    operation is several steps on the table and the database). *)
Fixpoint exec (s : st) (rem : list (list op)) (sched : list nat) : st * list (list op) * list event :=
  match sched with
  | [] => (s, rem, [])
  | i :: tl =>
      match nth i rem [] with
      | [] => exec s rem tl
      | o :: more =>
          let '(sf, rf, h) := exec (snd (step s o)) (upd i more rem) tl in
          (sf, rf, (i, o, fst (step s o)) :: h)
      end
  end.

Definition proj (i : nat) (h : list event) : list op :=
  map ev_op (filter (fun e => Nat.eqb (ev_thread e) i) h).

Theorem ops_linearizable_model : forall sched s rem sf rf h,
  exec s rem sched = (sf, rf, h) ->
  sf = run s (map ev_op h) /\
  map ev_out h = outs s (map ev_op h) /\
  forall i, proj i h ++ nth i rf [] = nth i rem [].
Proof.
  induction sched as [|i sched IH]; intros s rem sf rf h H; simpl in H.
  - injection H as <- <- <-. simpl. auto.
  - destruct (nth i rem []) as [|o more] eqn:E.
    + apply IH. exact H.
    + destruct (exec (snd (step s o)) (upd i more rem) sched) as [[sf' rf'] h'] eqn:X.
      injection H as <- <- <-.
      destruct (IH _ _ _ _ _ X) as [A [B Cc]].
      split; [simpl; exact A|]. split; [simpl; f_equal; exact B|].
      intros j. unfold proj. simpl. unfold ev_thread at 1. simpl.
      destruct (Nat.eqb i j) eqn:EJ.
      * apply Nat.eqb_eq in EJ. subst j. simpl. fold (proj i h'). rewrite (Cc i).
        rewrite nth_upd_same; [rewrite E; reflexivity|].
        destruct (Nat.lt_ge_cases i (length rem)) as [L|L]; [exact L|].
        rewrite nth_overflow in E by exact L. discriminate.
      * apply Nat.eqb_neq in EJ. fold (proj j h'). rewrite (Cc j).
        apply nth_upd_other. exact EJ.
Qed.
