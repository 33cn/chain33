(** C04 — the hypotheses of the main theorems are satisfiable by concrete,
    non-trivial states (non-vacuity), and every reachable state has the invariant. *)
From Coq Require Import List ZArith NArith Bool.
From C33 Require Import C01.Keys C01.Model C01.Spec C01.Store C01.Inv
  C04.Model C04.Proofs C04.ProofsOps C04.ProofsMain.
Import ListNotations.
Open Scope Z_scope.

Theorem reachable_inv : forall pfx ops, inv (run (st0 pfx) ops).
Proof. intros. apply run_inv_grows. apply inv_st0. Qed.

Definition ka : bytes := [97%N].
Definition kb : bytes := [98%N].
Definition kc : bytes := [99%N].
Definition v1 : bytes := [49%N].
Definition v2 : bytes := [50%N].

(** a store with one committed version {a=1, b=2} *)
Definition ex_ops : list op :=
  [OSet XNil [(ka, v1); (kb, v2)]].
Definition ex_s (pfx : bool) : st := run (st0 pfx) ex_ops.
Definition ex_tree : tree := Node kb 1 2 (Leaf ka v1) (Leaf kb v2).
Definition ex_root : xroot := XH (thash ex_tree).

Example ex_committed : forall pfx, committed (ex_s pfx) ex_root (Some ex_tree).
Proof. intros [|]; vm_compute; reflexivity. Qed.

Example ex_inv : forall pfx, inv (ex_s pfx).
Proof. intros. apply reachable_inv. Qed.

(** pending_invisible: three table-only operations on that store *)
Definition ex_table_ops : list op :=
  [OMemSet ex_root [(kc, v1)]; OMemSet ex_root [(ka, v2)]; ORollback (XH (thash (Leaf ka v1)))].

Example ex_table_only : forallb table_only ex_table_ops = true.
Proof. reflexivity. Qed.

Example ex_table_pending : s_pend (run (ex_s false) ex_table_ops) <> [].
Proof. vm_compute. discriminate. Qed.

(** commit_exact: a fork is computed, another fork is computed (and stays pending), an empty
    update marks the PARENT and the marker is rolled back, an empty update marks the FORK
    ITSELF (the history of the former finding 1), the fork is read, then it is committed *)
Definition ex_fork : out * st := mem_set (ex_s false) ex_root [(kc, v1)].
Definition ex_fork_root : xroot :=
  match fst ex_fork with RRoot r => r | _ => XNil end.
Definition ex_between : list op :=
  [OMemSet ex_root [(ka, v2)]; OMemSet ex_root []; ORollback ex_root;
   OMemSet ex_fork_root []; OGet ex_fork_root [kc]].

Example ex_fork_ok : ex_fork = (RRoot ex_fork_root, snd ex_fork).
Proof. vm_compute. reflexivity. Qed.

Example ex_guard : still_pending ex_fork_root ex_between = true.
Proof. vm_compute. reflexivity. Qed.

(** (the stronger guard [no_marker_on] does not hold on this history) *)
Example ex_old_guard_fails : no_marker_on ex_fork_root ex_between = false.
Proof. vm_compute. reflexivity. Qed.

Example ex_commit_acked :
  fst (step (run (snd ex_fork) ex_between) (OCommit ex_fork_root)) = RRoot ex_fork_root.
Proof. vm_compute. reflexivity. Qed.

Example ex_commit_reads :
  read (snd (step (run (snd ex_fork) ex_between) (OCommit ex_fork_root))) ex_fork_root kc = Some v1.
Proof. vm_compute. reflexivity. Qed.

(** commit_exact_general beyond commit_exact: the fork is rolled back, computed again and
    committed (no empty MemSet on it after the rollback) *)
Definition ex_again : list op :=
  [OMemSet ex_fork_root []; ORollback ex_fork_root; OMemSet ex_root [(kc, v1)]].

Example ex_general_guard :
  no_marker_after_discard ex_fork_root ex_again = true /\ still_pending ex_fork_root ex_again = false.
Proof. vm_compute. auto. Qed.

Example ex_again_acked :
  fst (step (run (snd ex_fork) ex_again) (OCommit ex_fork_root)) = RRoot ex_fork_root.
Proof. vm_compute. reflexivity. Qed.

(** forks_independent: commit the second fork, roll back the first, try to commit the first *)
Definition ex_acts : list (bool * bool) := [(false, true); (true, false); (true, true)].

Example ex_forks :
  let s1 := snd (mem_set (ex_s true) ex_root [(kc, v1)]) in
  let r1 := ex_fork_root in
  let m2 := mem_set s1 ex_root [(ka, v2); (kc, v2)] in
  match fst m2 with
  | RRoot r2 =>
      let ops := map (act_op r1 r2) ex_acts in
      In (OCommit r2, RRoot r2) (combine ops (outs (snd m2) ops)) /\
      ~ In (OCommit r1, RRoot r1) (combine ops (outs (snd m2) ops)) /\
      read (run (snd m2) ops) r2 kc = Some v2 /\ read (run (snd m2) ops) r1 kc = None
  | _ => False
  end.
Proof.
  vm_compute. split; [left; reflexivity|]. split; [|split; reflexivity].
  intros [H|[H|[H|[]]]]; discriminate.
Qed.

(** ops_linearizable_model: three clients, a schedule that interleaves them *)
Example ex_exec :
  let progs := [[OMemSet XNil [(ka, v1)]; OCommit (XH (HLeaf ka v1))];
                [OGet (XH (HLeaf ka v1)) [ka]; OGet (XH (HLeaf ka v1)) [ka]];
                [ORollback (XH (HLeaf ka v1))]] in
  let '(sf, rf, h) := exec (st0 false) progs [1; 0; 1; 2; 0; 2]%nat in
  map ev_out h = [RVals [None]; RRoot (XH (HLeaf ka v1)); RVals [Some v1];
                  RRoot (XH (HLeaf ka v1)); RErrNotFound] /\
  rf = [[]; []; []].
Proof. vm_compute. auto. Qed.
