(** C26 — proofs, part 3: the key-level store.  With saveSequence on, the
    node's own records are the numbered log of Model.v, the by-hash entry is
    the number of the latest add record, the range query returns log segments;
    without it (and not a para chain) nothing is ever written. *)
From Coq Require Import List ZArith NArith Bool Lia.
From C33 Require Import C25.Model C26.Model C26.ModelKv C26.SpecIdx C26.Proofs C26.ProofsIdx.
Import ListNotations.
Open Scope Z_scope.

Definition ev_of (e : sev) : N * bool := (fst (fst e), snd (fst e)).

Lemma dget_cons : forall k v d k0,
  dget ((k, v) :: d) k0 = if key_eqb k k0 then Some v else dget d k0.
Proof. intros. unfold dget. cbn [find fst snd]. destruct (key_eqb k k0); reflexivity. Qed.

Lemma num_at_cons : forall k v d k0,
  num_at ((k, v) :: d) k0 = if key_eqb k k0 then match v with VNum n => Some n | _ => None end
                            else num_at d k0.
Proof. intros. unfold num_at. rewrite dget_cons. destruct (key_eqb k k0); reflexivity. Qed.

Lemma rec_at_cons : forall k v d k0,
  rec_at ((k, v) :: d) k0 = if key_eqb k k0 then match v with VRec h a => Some (h, a) | _ => None end
                            else rec_at d k0.
Proof. intros. unfold rec_at. rewrite dget_cons. destruct (key_eqb k k0); reflexivity. Qed.

Lemma kv_of_cons : forall c e es, kv_of c (e :: es) = store_event c (kv_of c es) e.
Proof. reflexivity. Qed.

(** What one SaveBlock / DelBlock call does to the reads.

    The flags decide which keys are written; each lemma goes through the four
    cases of (the other flag, add or delete) once, so that the proofs about
    whole traces below are inductions that never look at a key. *)

Ltac by_flags c a :=
  destruct c as [[] []]; try discriminate; destruct a; repeat split; intros;
  unfold store_event, save_block_sequence, save_own, save_main, dset, load_last, load_last_main,
    get_block_sequence, get_block_by_main_sequence, get_sequence_by_hash, get_main_sequence_by_hash,
    num_at, rec_at, dget;
  cbn [c_save c_para orb andb last_key seq_key hash_key find key_eqb fst snd];
  try reflexivity;
  match goal with |- context [if ?b then _ else _] => destruct b; reflexivity end.

Lemma own_event : forall c d h a ms, c_save c = true ->
  let d' := store_event c d (h, a, ms) in
  let n := load_last c d + 1 in
  load_last c d' = n /\
  (forall i, get_block_sequence c d' i = if n =? i then Some (h, a) else get_block_sequence c d i) /\
  (forall x, get_sequence_by_hash c d' x = if a && N.eqb h x then Some n else get_sequence_by_hash c d x).
Proof. intros c d h a ms Hs. by_flags c a. Qed.

Lemma norec_event : forall c d e, c_save c = false ->
  let d' := store_event c d e in
  load_last c d' = load_last c d /\
  (forall i, get_block_sequence c d' i = get_block_sequence c d i) /\
  (forall x, get_sequence_by_hash c d' x = get_sequence_by_hash c d x).
Proof. intros c d [[h a] ms] Hs. by_flags c a. Qed.

Lemma main_event : forall c d h a ms, c_para c = true ->
  let d' := store_event c d (h, a, ms) in
  load_last_main d' = ms /\
  (forall i, get_block_by_main_sequence d' i = if ms =? i then Some (h, a) else get_block_by_main_sequence d i) /\
  (forall x, get_main_sequence_by_hash d' x = if a && N.eqb h x then Some ms else get_main_sequence_by_hash d x).
Proof. intros c d h a ms Hp. by_flags c a. Qed.

Section Own.
Variable c : conf.
Hypothesis Hsave : c_save c = true.

Lemma own_load_last : forall es, load_last c (kv_of c es) = Z.of_nat (length es) - 1.
Proof.
  induction es as [|[[h a] ms] es IH]; [reflexivity|].
  rewrite kv_of_cons. destruct (own_event c (kv_of c es) h a ms Hsave) as [L _].
  rewrite L, IH. cbn [length]. lia.
Qed.

Lemma own_load_last_store : forall es,
  load_last c (kv_of c es) = lastseq (store_of (map ev_of es)).
Proof. intros. rewrite own_load_last, lastseq_store_of, map_length. reflexivity. Qed.

Lemma own_rec : forall es i,
  get_block_sequence c (kv_of c es) i = get_seq (store_of (map ev_of es)) i.
Proof.
  induction es as [|[[h a] ms] es IH]; intros i; [reflexivity|].
  rewrite kv_of_cons. destruct (own_event c (kv_of c es) h a ms Hsave) as (_ & R & _).
  cbn [map]. rewrite R, IH, own_load_last_store, store_of_cons, get_seq_save. reflexivity.
Qed.

Lemma own_idx : forall es h,
  get_sequence_by_hash c (kv_of c es) h = idx_of h (map ev_of es).
Proof.
  induction es as [|[[x a] ms] es IH]; intros h; [reflexivity|].
  rewrite kv_of_cons. destruct (own_event c (kv_of c es) x a ms Hsave) as (_ & _ & X).
  rewrite X, IH, own_load_last. cbn [map idx_of ev_of fst snd]. rewrite map_length.
  replace (Z.of_nat (length es) - 1 + 1) with (Z.of_nat (length es)) by lia. reflexivity.
Qed.

Lemma get_seq_log_at : forall evs i,
  get_seq (store_of evs) i = log_at (rev evs) i.
Proof.
  intros evs i. unfold log_at. destruct (i <? 0) eqn:E.
  - apply Z.ltb_lt in E. apply get_seq_neg. exact E.
  - apply Z.ltb_ge in E. apply get_seq_store_of. exact E.
Qed.

Lemma own_range : forall es st en,
  get_block_sequences c (kv_of c es) st en =
  range_spec (Z.of_nat (length es) - 1) (rev (map ev_of es)) st en.
Proof.
  intros es st en. unfold get_block_sequences, range_spec. rewrite own_load_last.
  set (last := Z.of_nat (length es) - 1).
  destruct (last <? st); [reflexivity|]. destruct (en <? st); [reflexivity|].
  destruct ((max_block_count <=? wrap64 (en - st)) || (wrap64 (en - st) <? 0)); [reflexivity|].
  assert (E : (if last <? en then last else en) = Z.min en last).
  { destruct (last <? en) eqn:L; [apply Z.ltb_lt in L|apply Z.ltb_ge in L]; lia. }
  rewrite E. f_equal. apply map_ext. intros i. rewrite own_rec. apply get_seq_log_at.
Qed.

End Own.

Lemma norec_own : forall c, c_save c = false -> forall tr n h,
  load_last c (kv_of c tr) = -1 /\ get_block_sequence c (kv_of c tr) n = None /\
  get_sequence_by_hash c (kv_of c tr) h = None.
Proof.
  intros c Hs tr n h. induction tr as [|e tr IH]; [repeat split|].
  rewrite kv_of_cons. destruct (norec_event c (kv_of c tr) e Hs) as (L & R & X).
  rewrite L, R, X. exact IH.
Qed.

Lemma norec_empty : forall es, kv_of norec_conf es = [].
Proof.
  induction es as [|[[h a] ms] es IH]; [reflexivity|].
  rewrite kv_of_cons, IH. reflexivity.
Qed.

Lemma zseq_map_nth : forall (log : list (N * bool)) n a, (a + n <= length log)%nat ->
  map (log_at log) (zseq (Z.of_nat a) n) = map Some (firstn n (skipn a log)).
Proof.
  intros log n. induction n as [|n IH]; intros a L; [reflexivity|].
  cbn [zseq map]. replace (Z.of_nat a + 1) with (Z.of_nat (S a)) by lia.
  rewrite IH by lia. unfold log_at at 1.
  assert (Z.of_nat a <? 0 = false) as -> by (apply Z.ltb_ge; lia).
  rewrite Nat2Z.id.
  destruct (nth_error log a) as [x|] eqn:E.
  - rewrite (skipn_nth _ _ _ _ E). reflexivity.
  - apply nth_error_None in E. lia.
Qed.

Lemma wrap64_small : forall z, 0 <= z < two63 -> wrap64 z = z.
Proof. intros z H. unfold wrap64. rewrite Z.mod_small by lia. ring. Qed.

Lemma range_in_bounds : forall (log : list (N * bool)) a n,
  (a + S n <= length log)%nat -> Z.of_nat n < max_block_count ->
  range_spec (Z.of_nat (length log) - 1) log (Z.of_nat a) (Z.of_nat (a + n)) =
  (0%N, map Some (firstn (S n) (skipn a log))).
Proof.
  intros log a n L K. unfold range_spec.
  replace (Z.of_nat (a + n) - Z.of_nat a) with (Z.of_nat n) by lia.
  rewrite wrap64_small by (unfold max_block_count, two63 in *; lia).
  rewrite !(proj2 (Z.ltb_ge _ _)) by lia.
  rewrite (proj2 (Z.leb_gt _ _)) by exact K.
  cbn [orb]. rewrite Z.min_l by lia.
  replace (Z.to_nat (Z.of_nat (a + n) - Z.of_nat a + 1)) with (S n) by lia.
  f_equal. apply zseq_map_nth. lia.
Qed.

(** the own log of a recording node whose store calls replay strictly to the
    chain [m]: C25's runs and para-chain runs are the two instances *)

Theorem own_log : forall c es m, c_save c = true ->
  let d := kv_of c es in
  let log := rev (map ev_of es) in
  replay_s log [] = Some m ->
  load_last c d = Z.of_nat (length log) - 1 /\
  (forall i, get_block_sequence c d i = log_at log i) /\
  replay log [] = Some m /\
  (forall h, get_sequence_by_hash c d h = idx_of h (rev log) /\ idx_fact (rev log) m h) /\
  (forall st en, get_block_sequences c d st en = range_spec (Z.of_nat (length log) - 1) log st en).
Proof.
  intros c es m Hs d log R. subst d log. rewrite rev_length, map_length, rev_involutive.
  split; [apply own_load_last; exact Hs|]. split.
  { intros i. rewrite own_rec by exact Hs. apply get_seq_log_at. }
  split; [apply replay_s_replay; exact R|]. split.
  { intros h. split; [apply own_idx; exact Hs|]. apply idx_fact_holds. exact R. }
  intros st en. apply own_range. exact Hs.
Qed.
