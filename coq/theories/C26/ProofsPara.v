(** C26 — proofs, part 4: para-chain nodes.  The database of a run is the
    database of its trace of store calls; the trace replays strictly to the
    best chain; the records kept under the caller's sequence numbers, read in
    key order, are the trace when the numbers increase. *)
From Coq Require Import List ZArith NArith Bool Lia.
From C33 Require Import C25.Model C26.Model C26.ModelKv C26.SpecIdx C26.Proofs C26.ProofsIdx C26.ProofsKv.
Import ListNotations.
Open Scope Z_scope.

Definition sev_seq (e : sev) : Z := snd e.

(** the record under the caller's number [n]: that of the newest call made with it *)
Fixpoint massoc (n : Z) (tr : list sev) : option (N * bool) :=
  match tr with
  | [] => None
  | (h, a, ms) :: tl => if ms =? n then Some (h, a) else massoc n tl
  end.

Section ParaKeys.
Variable c : conf.
Hypothesis Hpara : c_para c = true.

Lemma para_main_rec : forall tr n, get_block_by_main_sequence (kv_of c tr) n = massoc n tr.
Proof.
  induction tr as [|[[h a] ms] tr IH]; intros n; [reflexivity|].
  rewrite kv_of_cons. destruct (main_event c (kv_of c tr) h a ms Hpara) as (_ & R & _).
  rewrite R, IH. reflexivity.
Qed.

Lemma para_main_idx : forall tr h, get_main_sequence_by_hash (kv_of c tr) h = midx_of h tr.
Proof.
  induction tr as [|[[x a] ms] tr IH]; intros h; [reflexivity|].
  rewrite kv_of_cons. destruct (main_event c (kv_of c tr) x a ms Hpara) as (_ & _ & X).
  rewrite X, IH. reflexivity.
Qed.

Lemma para_main_last : forall tr,
  load_last_main (kv_of c tr) = match tr with [] => -1 | e :: _ => sev_seq e end.
Proof.
  destruct tr as [|[[x a] ms] tr]; [reflexivity|].
  rewrite kv_of_cons. apply (main_event c (kv_of c tr) x a ms Hpara).
Qed.

End ParaKeys.

Lemma zseq_app : forall n1 n2 a, zseq a (n1 + n2) = zseq a n1 ++ zseq (a + Z.of_nat n1) n2.
Proof.
  induction n1 as [|n1 IH]; intros n2 a.
  - cbn [plus zseq app]. f_equal. lia.
  - cbn [plus zseq app]. rewrite IH. f_equal. f_equal. f_equal. lia.
Qed.

Lemma zseq_in : forall n a x, In x (zseq a n) -> a <= x < a + Z.of_nat n.
Proof.
  induction n as [|n IH]; intros a x H; [destruct H|].
  cbn [zseq] in H. destruct H as [<-|H]; [lia|]. apply IH in H. lia.
Qed.

Lemma somes_app : forall A (l1 l2 : list (option A)), somes (l1 ++ l2) = somes l1 ++ somes l2.
Proof.
  induction l1 as [|[x|] l1 IH]; intros l2; cbn [somes app]; [reflexivity| |apply IH].
  rewrite IH. reflexivity.
Qed.

Lemma somes_none : forall A B (f : B -> option A) l,
  (forall x, In x l -> f x = None) -> somes (map f l) = [].
Proof.
  induction l as [|x l IH]; intros H; [reflexivity|]. cbn [map somes].
  rewrite (H x) by (left; reflexivity). apply IH. intros y Hy. apply H. right; exact Hy.
Qed.

Lemma massoc_none : forall tr n, (forall e, In e tr -> sev_seq e <> n) -> massoc n tr = None.
Proof.
  induction tr as [|[[h a] ms] tr IH]; intros n H; [reflexivity|]. cbn [massoc].
  destruct (ms =? n) eqn:E.
  - apply Z.eqb_eq in E. exfalso. apply (H ((h, a), ms)); [left; reflexivity|exact E].
  - apply IH. intros e He. apply H. right; exact He.
Qed.

Lemma mono_b_cons2 : forall h a k h2 a2 k2 tl,
  mono_b ((h, a, k) :: (h2, a2, k2) :: tl) = (k2 <? k) && mono_b ((h2, a2, k2) :: tl).
Proof. reflexivity. Qed.

Lemma mono_below : forall tr e, mono_b (e :: tr) = true ->
  mono_b tr = true /\ forall e', In e' tr -> sev_seq e' < sev_seq e.
Proof.
  induction tr as [|[[h2 a2] k2] tr IH]; intros [[h a] k] M.
  - split; [reflexivity|intros e' []].
  - rewrite mono_b_cons2 in M. apply andb_true_iff in M as [L M]. apply Z.ltb_lt in L.
    split; [exact M|]. destruct (IH _ M) as [_ B].
    intros e' [<-|He]; [exact L|]. specialize (B e' He). unfold sev_seq in *. cbn [snd] in *. lia.
Qed.

Lemma scan_sorted : forall tr lo n, mono_b tr = true ->
  (forall e, In e tr -> lo <= sev_seq e < lo + Z.of_nat n) ->
  somes (map (fun k => massoc k tr) (zseq lo n)) = rev (map ev_of tr).
Proof.
  induction tr as [|e tr IH]; intros lo n M R.
  - apply somes_none. intros x _. reflexivity.
  - destruct (mono_below _ _ M) as [M' Below].
    destruct e as [[h a] k]. assert (Rk := R _ (or_introl eq_refl)). unfold sev_seq in Rk; cbn [snd] in Rk.
    set (n1 := Z.to_nat (k - lo)). set (n2 := (n - n1 - 1)%nat).
    replace n with (n1 + (1 + n2))%nat by lia.
    rewrite zseq_app, map_app, somes_app. rewrite (zseq_app 1 n2), map_app, somes_app.
    replace (lo + Z.of_nat n1) with k by lia.
    match goal with |- context [massoc _ ?l] => set (trx := l) end.
    (* below k: the older records *)
    assert (P1 : somes (map (fun k0 => massoc k0 trx) (zseq lo n1)) = rev (map ev_of tr)).
    { subst trx. rewrite <- (IH lo n1 M').
      - f_equal. apply map_ext_in. intros x Hx. apply zseq_in in Hx. cbn [massoc].
        assert (k =? x = false) as -> by (apply Z.eqb_neq; lia). reflexivity.
      - intros e He. specialize (Below e He). specialize (R e (or_intror He)).
        unfold sev_seq in *. cbn [snd] in *. lia. }
    (* above k: nothing *)
    assert (P3 : somes (map (fun k0 => massoc k0 trx) (zseq (k + Z.of_nat 1) n2)) = []).
    { subst trx. apply somes_none. intros x Hx. apply zseq_in in Hx. cbn [massoc].
      assert (k =? x = false) as -> by (apply Z.eqb_neq; lia).
      apply massoc_none. intros e He. specialize (Below e He). unfold sev_seq in *. cbn [snd] in *. lia. }
    rewrite P1, P3. subst trx. cbn [zseq map somes massoc].
    rewrite Z.eqb_refl. cbn [somes app rev map]. unfold ev_of at 2. cbn [fst snd].
    reflexivity.
Qed.

Definition pinv (c : conf) (s : pstate) (tr : list sev) : Prop :=
  pdb s = kv_of c tr /\
  replay_s (rev (map ev_of tr)) [] = Some (map bid (pchain s)) /\
  pchain s <> [].

Lemma memN_chain : forall (b : block) ch,
  existsb (fun x => N.eqb (bid x) (bid b)) ch = memN (bid b) (map bid ch).
Proof.
  intros b ch. unfold memN. induction ch as [|x ch IH]; [reflexivity|].
  cbn [existsb map]. rewrite IH, (N.eqb_sym (bid x)). reflexivity.
Qed.

Lemma pstep_pinv : forall c s tr o, pinv c s tr ->
  pinv c (fst (pstep c s o)) (if N.eqb (snd (pstep c s o)) 0 then op_event o :: tr else tr).
Proof.
  intros c s tr o I. destruct o as [b ms|b ms|a]; cbn [pstep]; [| |exact I].
  - destruct (bht b <=? 0); [exact I|].
    destruct (negb (N.eqb (bpar b) (ptip_id s))); [exact I|].
    destruct (existsb (fun x => N.eqb (bid x) (bid b)) (pchain s)) eqn:X; [exact I|].
    destruct (negb (bht b =? ptip_ht s + 1)); [exact I|].
    destruct I as (D & R & NE). cbn [fst snd N.eqb op_event]. split; [|split].
    + cbn [pdb]. rewrite D. reflexivity.
    + cbn [map rev pchain]. rewrite replay_s_app, R. unfold ev_of at 1. cbn [fst snd replay_s].
      rewrite memN_chain in X. rewrite X. reflexivity.
    + discriminate.
  - destruct (bht b <=? 0); [exact I|].
    destruct (negb (N.eqb (bid b) (ptip_id s))) eqn:T; [exact I|].
    destruct (pchain s) as [|t [|t2 rest]] eqn:C; [exact I|exact I|].
    destruct I as (D & R & NE). cbn [fst snd N.eqb op_event]. split; [|split].
    + cbn [pdb]. rewrite D. reflexivity.
    + cbn [map rev pchain]. rewrite replay_s_app, R, C. unfold ev_of at 1. cbn [fst snd replay_s map].
      apply negb_false_iff in T. unfold ptip_id in T. rewrite C in T. rewrite N.eqb_sym in T.
      rewrite T. reflexivity.
    + discriminate.
Qed.

Lemma pinit_pinv : forall c g, pinv c (pinit c g) [(bid g, true, -1)].
Proof. intros c g. split; [reflexivity|]. split; [reflexivity|discriminate]. Qed.

Lemma prun_from_pinv : forall c ops s tr, pinv c s tr ->
  pinv c (fold_left (fun s o => fst (pstep c s o)) ops s) (ptrace_from c s ops tr).
Proof.
  induction ops as [|o ops IH]; intros s tr I; cbn [fold_left ptrace_from]; [exact I|].
  pose proof (pstep_pinv c s tr o I) as I'. destruct (pstep c s o) as [s' e]. apply IH. exact I'.
Qed.

Lemma prun_pinv : forall c g ops, pinv c (prun c g ops) (ptrace c g ops).
Proof. intros. unfold prun, ptrace. apply prun_from_pinv. apply pinit_pinv. Qed.

(** the trace is never empty and ends with the genesis record *)
Lemma ptrace_from_last : forall c ops s tr e0, last tr e0 = e0 -> tr <> [] ->
  last (ptrace_from c s ops tr) e0 = e0 /\ ptrace_from c s ops tr <> [].
Proof.
  induction ops as [|o ops IH]; intros s tr e0 L NE; cbn [ptrace_from]; [split; assumption|].
  destruct (pstep c s o) as [s' e]. apply IH.
  - destruct (N.eqb e 0); [|exact L]. destruct tr; [congruence|]. cbn [last] in *. exact L.
  - destruct (N.eqb e 0); [discriminate|exact NE].
Qed.

Lemma mono_last_min : forall tr e0, mono_b tr = true -> last tr e0 = e0 -> tr <> [] ->
  forall e, In e tr -> sev_seq e0 <= sev_seq e.
Proof.
  induction tr as [|x tr IH]; intros e0 M L NE e He; [congruence|].
  destruct (mono_below _ _ M) as [M' B]. destruct tr as [|y tr].
  - cbn [last] in L. destruct He as [<-|[]]. subst. lia.
  - assert (L' : last (y :: tr) e0 = e0) by exact L.
    destruct He as [<-|He].
    + assert (sev_seq e0 <= sev_seq y) by (apply (IH e0 M' L'); [discriminate|left; reflexivity]).
      specialize (B y (or_introl eq_refl)). lia.
    + apply (IH e0 M' L'); [discriminate|exact He].
Qed.

Lemma main_scan : forall c tr lo, c_para c = true -> mono_b tr = true -> tr <> [] ->
  (forall e, In e tr -> lo <= sev_seq e) ->
  let d := kv_of c tr in
  (forall e, In e tr -> sev_seq e <= load_last_main d) /\
  scan_main d lo (Z.to_nat (load_last_main d - lo + 1)) = rev (map ev_of tr).
Proof.
  intros c tr lo P G NE Lo d. subst d. rewrite (para_main_last c P).
  destruct tr as [|e0 tr']; [congruence|]. destruct (mono_below _ _ G) as [_ B].
  assert (Top : forall e, In e (e0 :: tr') -> sev_seq e <= sev_seq e0).
  { intros e [<-|He]; [lia|]. specialize (B e He). lia. }
  split; [exact Top|]. unfold scan_main.
  rewrite (map_ext _ (fun k => massoc k (e0 :: tr'))) by (intros k; apply (para_main_rec c P)).
  apply scan_sorted; [exact G|]. intros e He. specialize (Top e He). specialize (Lo e He). lia.
Qed.

(** a run's trace ends with the genesis record, whose number -1 is then the lowest *)
Lemma para_main_partial : forall c g ops, c_para c = true -> para_guard_b c g ops = true ->
  let s := prun c g ops in
  let d := pdb s in
  let tr := ptrace c g ops in
  replay (scan_main d (-1) (Z.to_nat (load_last_main d + 2))) [] = Some (map bid (pchain s)) /\
  (forall e, In e tr -> sev_seq e <= load_last_main d) /\
  (forall h, get_main_sequence_by_hash d h = midx_of h tr).
Proof.
  intros c g ops P G s d tr. destruct (prun_pinv c g ops) as (D & R & _). fold s tr in D, R.
  subst d. rewrite D.
  destruct (ptrace_from_last c ops (pinit c g) [(bid g, true, -1)] (bid g, true, -1) eq_refl) as [L NE];
    [discriminate|].
  destruct (main_scan c tr (-1) P G NE (mono_last_min tr _ G L NE)) as [Top Scan].
  split; [|split; [exact Top|intros h; apply (para_main_idx c P)]].
  replace (load_last_main (kv_of c tr) + 2) with (load_last_main (kv_of c tr) - -1 + 1) by lia.
  rewrite Scan. apply replay_s_replay. exact R.
Qed.

(** the guard is satisfiable by a run with deletes and a block that comes back *)
Example para_example :
  let c := mkConf true true in
  let g := mkB 0 99 0 1 in
  let b1 := mkB 1 0 1 1 in let b2 := mkB 2 1 2 1 in let b3 := mkB 3 1 2 1 in
  let ops := [PAdd b1 0; PAdd b2 3; PDel b2 4; PAdd b3 9; PDel b3 10; PAdd b2 11; PNil true; PDel b1 12] in
  let s := prun c g ops in
  para_guard_b c g ops = true /\ map bid (pchain s) = [2; 1; 0]%N /\
  load_last_main (pdb s) = 11 /\ get_main_sequence_by_hash (pdb s) 2 = Some 11 /\
  get_sequence_by_hash c (pdb s) 2 = Some 6 /\ get_block_by_main_sequence (pdb s) 5 = None /\
  get_block_by_main_sequence (pdb s) 4 = Some (2%N, false).
Proof. vm_compute. repeat split. Qed.
