(** C26 — proofs, part 5: what the index and the range query of a recording
    node say, in the numbers the queries use, whenever the log replays strictly
    to the chain; the oracle of Check.v holds of the model's replies. *)
From Coq Require Import List ZArith NArith Bool Lia.
From C33 Require Import C25.Model C26.Model C26.ModelKv C26.SpecIdx C26.Proofs C26.ProofsIdx
  C26.ProofsKv.
Import ListNotations.
Open Scope Z_scope.

Lemma existsb_skipn_nth : forall (f : N * bool -> bool) k l,
  existsb f (skipn k l) = true <-> exists j x, (k <= j)%nat /\ nth_error l j = Some x /\ f x = true.
Proof.
  intros f k. induction k as [|k IH]; intros l.
  - cbn [skipn]. rewrite existsb_exists. split.
    + intros (x & Hx & Fx). apply In_nth_error in Hx as [j Hj]. exists j, x. split; [lia|auto].
    + intros (j & x & _ & Hj & Fx). exists x. split; [eapply nth_error_In; eauto|exact Fx].
  - destruct l as [|y l]; cbn [skipn].
    + cbn [existsb]. split; [discriminate|]. intros (j & x & _ & Hj & _). destruct j; discriminate.
    + rewrite IH. split.
      * intros (j & x & L & Hj & Fx). exists (S j), x. split; [lia|]. split; [exact Hj|exact Fx].
      * intros (j & x & L & Hj & Fx). destruct j as [|j]; [lia|]. exists j, x. split; [lia|]. split; [exact Hj|exact Fx].
Qed.

Lemma is_del_true : forall h x, is_del h x = true <-> x = (h, false).
Proof.
  intros h [y a]. unfold is_del. cbn [fst snd]. rewrite andb_true_iff, N.eqb_eq, negb_true_iff.
  split; [intros [-> ->]; reflexivity|intros E; inversion E; auto].
Qed.

Lemma chain_eqb_refl : forall x, chain_eqb (Some x) (Some x) = true.
Proof.
  intros x. cbn [chain_eqb]. induction x as [|p x IH]; [reflexivity|].
  rewrite N.eqb_refl. exact IH.
Qed.

Lemma drop_until_split : forall h ab bl, ~ In h ab -> drop_until h (ab ++ h :: bl) = h :: bl.
Proof.
  intros h ab bl. induction ab as [|y ab IH]; intros Nin; cbn [app drop_until].
  - rewrite N.eqb_refl. reflexivity.
  - assert (N.eqb y h = false) as -> by (apply N.eqb_neq; intros ->; apply Nin; left; reflexivity).
    apply IH. intros H. apply Nin. right; exact H.
Qed.

Lemma ev_of_lift : forall evs, map ev_of (lift evs) = evs.
Proof.
  induction evs as [|[h a] evs IH]; [reflexivity|]. cbn [lift map]. unfold ev_of at 1. cbn [fst snd].
  f_equal. exact IH.
Qed.

(** The store calls [es] of a recording node write the log [evs] (newest
    first), which replays strictly to the chain [m]: C25's runs on a main-chain
    node ([es = lift evs]) and para-chain runs ([es] the trace) are instances. *)
Section Recording.
Variables (c : conf) (es : list sev) (evs : list (N * bool)) (m : list N).
Hypothesis Hsave : c_save c = true.
Hypothesis Hevs : map ev_of es = evs.
Hypothesis Hrep : replay_s (rev evs) [] = Some m.
Let d := kv_of c es.
Let log := rev evs.

Lemma rec_some : forall j r,
  get_block_sequence c d j = Some r <-> 0 <= j /\ log_at_n evs (Z.to_nat j) = Some r.
Proof.
  intros j r. subst d. rewrite own_rec by exact Hsave. rewrite Hevs, get_seq_log_at.
  unfold log_at, log_at_n. destruct (Z.ltb_spec j 0) as [L|L].
  - split; [discriminate|intros [L' _]; lia].
  - split; [intros H; split; [exact L|exact H]|intros [_ H]; exact H].
Qed.

Lemma none_after : forall i r, (forall j, (i < j)%nat -> log_at_n evs j <> Some r) ->
  forall j, Z.of_nat i < j -> get_block_sequence c d j <> Some r.
Proof. intros i r B j L Q. apply rec_some in Q as [_ Q]. apply (B (Z.to_nat j)); [lia|exact Q]. Qed.

Lemma idx_entry : forall h, get_sequence_by_hash c d h = option_map Z.of_nat (idxn h evs).
Proof. intros h. subst d. rewrite own_idx by exact Hsave. rewrite Hevs. apply idx_of_idxn. Qed.

Lemma not_above : forall h above below, m = above ++ h :: below -> ~ In h above.
Proof.
  intros h ab bl E Hab. pose proof (replay_s_nodup _ _ _ (NoDup_nil _) Hrep) as ND. rewrite E in ND.
  apply NoDup_remove_2 in ND. apply ND. apply in_or_app. left. exact Hab.
Qed.

Lemma names_latest_add : forall h,
  match get_sequence_by_hash c d h with
  | None => ~ In h m /\ forall j, get_block_sequence c d j <> Some (h, true)
  | Some i => 0 <= i <= lastseq (store_of evs) /\
              get_block_sequence c d i = Some (h, true) /\
              forall j, i < j -> get_block_sequence c d j <> Some (h, true)
  end.
Proof.
  intros h. rewrite idx_entry. pose proof (idx_fact_holds evs m Hrep h) as F. unfold idx_fact in F.
  destruct (idxn h evs) as [i|] eqn:I; cbn [option_map].
  - destruct F as (A & B & _). apply idxn_lt in I.
    split; [rewrite lastseq_store_of; lia|]. split; [|apply none_after; exact B].
    apply rec_some. rewrite Nat2Z.id. split; [lia|exact A].
  - destruct F as (A & B). split; [exact A|]. intros j Q. apply rec_some in Q as [_ Q]. exact (B _ Q).
Qed.

Lemma on_best_chain : forall h, In h m ->
  exists i above below,
    get_sequence_by_hash c d h = Some (Z.of_nat i) /\
    m = above ++ h :: below /\ ~ In h above /\
    replay (firstn (S i) log) [] = Some (h :: below) /\
    forall j, Z.of_nat i < j -> get_block_sequence c d j <> Some (h, false).
Proof.
  intros h Hin. rewrite idx_entry. pose proof (idx_fact_holds evs m Hrep h) as F. unfold idx_fact in F.
  destruct (idxn h evs) as [i|]; [|destruct F as [A _]; contradiction].
  destruct F as (_ & _ & [(_ & C2 & ab & bl & C3 & C4)|(C1 & _)]); [|contradiction].
  exists i, ab, bl. split; [reflexivity|]. split; [exact C3|]. split; [exact (not_above _ _ _ C3)|].
  split; [exact C4|apply none_after; exact C2].
Qed.

Lemma off_chain_iff : forall h i, get_sequence_by_hash c d h = Some i ->
  (In h m <-> forall j, i < j -> get_block_sequence c d j <> Some (h, false)).
Proof.
  intros h i0 E. rewrite idx_entry in E. pose proof (idx_fact_holds evs m Hrep h) as F. unfold idx_fact in F.
  destruct (idxn h evs) as [i|]; [|discriminate]. cbn [option_map] in E. inversion E; subst i0.
  destruct F as (_ & _ & [(C1 & C2 & _)|(C1 & j & C2 & C3)]).
  - split; [intros _; apply none_after; exact C2|intros _; exact C1].
  - split; [contradiction|]. intros H. exfalso. apply (H (Z.of_nat j)); [lia|].
    apply rec_some. rewrite Nat2Z.id. split; [lia|exact C3].
Qed.

Lemma range : forall st en,
  get_block_sequences c d st en = range_spec (lastseq (store_of evs)) log st en.
Proof.
  intros st en. subst d log. rewrite own_range by exact Hsave.
  rewrite lastseq_store_of, <- Hevs, map_length. reflexivity.
Qed.

Lemma range_segment : forall a n, (a + S n <= length log)%nat -> Z.of_nat n < max_block_count ->
  get_block_sequences c d (Z.of_nat a) (Z.of_nat (a + n)) =
  (0%N, map Some (firstn (S n) (skipn a log))).
Proof.
  intros a n L K. rewrite range, lastseq_store_of. subst log. rewrite <- (rev_length evs).
  apply range_in_bounds; assumption.
Qed.

(** the boolean oracle of Check.v is what the lemmas above say *)
Lemma oracle : forall h, index_spec_b log m h (proc_get_seq_by_hash c d (Some h)) = true.
Proof.
  intros h. unfold index_spec_b, proc_get_seq_by_hash. rewrite idx_entry. subst log.
  rewrite rev_involutive, idx_of_idxn.
  pose proof (idx_fact_holds evs m Hrep h) as F. unfold idx_fact in F.
  destruct (idxn h evs) as [i|]; cbn [option_map by_hash_reply fst snd].
  - rewrite Z.eqb_refl. cbn [andb N.eqb]. unfold later_del_b. rewrite Nat2Z.id.
    destruct F as (_ & _ & [(C1 & C2 & ab & bl & C3 & C4)|(C1 & j & C2 & C3)]).
    + apply memN_In in C1. rewrite C1.
      assert (LD : existsb (is_del h) (skipn (S i) (rev evs)) = false).
      { destruct (existsb _ _) eqn:X; [|reflexivity].
        apply existsb_skipn_nth in X as (j & x & L & Hj & Fx). apply is_del_true in Fx. subst x.
        exfalso. apply (C2 j); [lia|exact Hj]. }
      rewrite LD. cbn [negb andb]. rewrite C4.
      rewrite C3, drop_until_split by exact (not_above _ _ _ C3). apply chain_eqb_refl.
    + apply memN_false in C1. rewrite C1. apply existsb_skipn_nth.
      exists j, (h, false). split; [lia|]. split; [exact C3|apply is_del_true; reflexivity].
  - destruct F as (A & _). cbn. apply memN_false in A. rewrite A. reflexivity.
Qed.

End Recording.

(** * non-vacuity: X -> Y -> X.  Blocks 1..12 (branch X), then 13..25 (branch Y,
      one longer), then 26, 27 on X: block 1 is connected, disconnected and
      connected again; its index entry names the second add record *)
Definition chain_blocks (first : N) (par : N) (n : nat) (h0 : Z) : list block :=
  (fix go (k : nat) (id par : N) (ht : Z) : list block :=
     match k with
     | O => []
     | S k' => mkB id par ht 1 :: go k' (id + 1)%N id (ht + 1)
     end) n first par h0.

Example readd_example :
  let g := mkB 0 99 0 1 in
  let order := chain_blocks 1 0 12 1 ++ chain_blocks 13 0 13 1 ++ chain_blocks 26 12 2 13 in
  let s := run 0 g order in
  let d := kv_state main_conf s in
  hd 0%N (main s) = 27%N /\ In 1%N (main s) /\
  get_block_sequence main_conf d 1 = Some (1%N, true) /\
  get_block_sequence main_conf d 24 = Some (1%N, false) /\
  get_sequence_by_hash main_conf d 1 = Some 51 /\
  get_sequence_by_hash main_conf d 13 = Some 25 /\ ~ In 13%N (main s) /\
  load_last main_conf d = 64.
Proof.
  vm_compute. repeat split; [auto 20|].
  intros H. repeat (destruct H as [H|H]; [discriminate|]). exact H.
Qed.
