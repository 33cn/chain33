(** C26 — proofs: in C25's runs the trace of connect/disconnect calls replays
    to the best chain, and strictly so: no block is connected while it is on
    the chain.  Needs three facts about the model of process.go: the fork-point
    walk never repeats a block, the best chain is indexed, and an orphan is not
    indexed.  Then the sequence store: numbered 0..last without gaps or reuse,
    and read back in order it is that trace. *)
From Coq Require Import List ZArith NArith Bool Lia FinFun.
From C33 Require Import C25.Model C26.Model.
Import ListNotations.
Open Scope Z_scope.

Lemma replay_app : forall l1 l2 c,
  replay (l1 ++ l2) c = match replay l1 c with Some c' => replay l2 c' | None => None end.
Proof.
  induction l1 as [|[h [|]] l1 IH]; intros l2 c; cbn [replay app].
  - reflexivity.
  - apply IH.
  - destruct c as [|t c']; [reflexivity|]. destruct (N.eqb t h); [apply IH|reflexivity].
Qed.

Lemma replay_adds : forall l c, replay (map (fun h => (h, true)) l) c = Some (rev l ++ c).
Proof.
  induction l as [|h l IH]; intros c; cbn [map replay rev app].
  - reflexivity.
  - rewrite IH. rewrite <- app_assoc. reflexivity.
Qed.

(** strict replay: an add of a hash that is on the chain fails *)

Fixpoint replay_s (log : list (N * bool)) (chain : list N) : option (list N) :=
  match log with
  | [] => Some chain
  | (h, true) :: tl => if memN h chain then None else replay_s tl (h :: chain)
  | (h, false) :: tl =>
      match chain with
      | t :: c' => if N.eqb t h then replay_s tl c' else None
      | [] => None
      end
  end.

Lemma memN_In : forall h l, memN h l = true <-> In h l.
Proof.
  intros h l. unfold memN. rewrite existsb_exists. split.
  - intros (x & Hx & E). apply N.eqb_eq in E. subst. exact Hx.
  - intros H. exists h. split; [exact H|apply N.eqb_refl].
Qed.

Lemma memN_false : forall h l, memN h l = false <-> ~ In h l.
Proof.
  intros h l. rewrite <- memN_In. destruct (memN h l); split; intros; congruence.
Qed.

Lemma replay_s_app : forall l1 l2 c,
  replay_s (l1 ++ l2) c = match replay_s l1 c with Some c' => replay_s l2 c' | None => None end.
Proof.
  induction l1 as [|[h [|]] l1 IH]; intros l2 c; cbn [replay_s app].
  - reflexivity.
  - destruct (memN h c); [reflexivity|apply IH].
  - destruct c as [|t c']; [reflexivity|]. destruct (N.eqb t h); [apply IH|reflexivity].
Qed.

Lemma replay_s_replay : forall l c m, replay_s l c = Some m -> replay l c = Some m.
Proof.
  induction l as [|[h [|]] l IH]; intros c m H; cbn [replay_s replay] in *.
  - exact H.
  - destruct (memN h c); [discriminate|]. apply IH. exact H.
  - destruct c as [|t c']; [discriminate|]. destruct (N.eqb t h); [apply IH; exact H|discriminate].
Qed.

Lemma replay_s_nodup : forall l c m, NoDup c -> replay_s l c = Some m -> NoDup m.
Proof.
  induction l as [|[h [|]] l IH]; intros c m ND H; cbn [replay_s] in H.
  - inversion H; subst. exact ND.
  - destruct (memN h c) eqn:E; [discriminate|]. apply (IH (h :: c)); [|exact H].
    constructor; [apply memN_false; exact E|exact ND].
  - destruct c as [|t c']; [discriminate|]. destruct (N.eqb t h); [|discriminate].
    apply (IH c'); [|exact H]. inversion ND; assumption.
Qed.

Lemma replay_s_adds : forall l c, NoDup (rev l ++ c) ->
  replay_s (map (fun h => (h, true)) l) c = Some (rev l ++ c).
Proof.
  induction l as [|h l IH]; intros c ND; cbn [map replay_s rev app].
  - reflexivity.
  - cbn [rev] in ND. rewrite <- app_assoc in ND. cbn [app] in ND.
    assert (X : memN h c = false).
    { apply memN_false. intros Hc. apply NoDup_remove_2 in ND. apply ND.
      apply in_or_app. right. exact Hc. }
    rewrite X. rewrite IH by exact ND. rewrite <- app_assoc. reflexivity.
Qed.

Lemma replay_s_dels : forall fk l,
  replay_s (map (fun h => (h, false)) (take_until fk l)) l = Some (drop_until fk l).
Proof.
  intros fk; induction l as [|h l IH]; cbn [take_until drop_until map replay_s].
  - reflexivity.
  - destruct (N.eqb h fk) eqn:E; cbn [map replay_s].
    + reflexivity.
    + rewrite N.eqb_refl. exact IH.
Qed.

Lemma replay_dels : forall fk l,
  replay (map (fun h => (h, false)) (take_until fk l)) l = Some (drop_until fk l).
Proof. intros fk l. apply replay_s_replay. apply replay_s_dels. Qed.

Lemma branch_indep : forall f1 f2 ix mn h r1 r2,
  branch f1 ix mn h = Some r1 -> branch f2 ix mn h = Some r2 -> r1 = r2.
Proof.
  induction f1 as [|f1 IH]; intros f2 ix mn h r1 r2 H1 H2; [discriminate|].
  destruct f2 as [|f2]; [discriminate|]. cbn [branch] in H1, H2.
  destruct (memN h mn); [congruence|].
  destruct (find_node h ix) as [n|]; [|discriminate].
  destruct (branch f1 ix mn (bpar (nblk n))) as [[p1 k1]|] eqn:B1; [|discriminate].
  destruct (branch f2 ix mn (bpar (nblk n))) as [[p2 k2]|] eqn:B2; [|discriminate].
  pose proof (IH _ _ _ _ _ _ B1 B2) as E. inversion E; subst. congruence.
Qed.

Lemma branch_S : forall f ix mn h p fk, branch (S f) ix mn h = Some (p, fk) ->
  (memN h mn = true /\ p = [] /\ fk = h) \/
  (memN h mn = false /\ exists n p1, find_node h ix = Some n /\
     branch f ix mn (bpar (nblk n)) = Some (p1, fk) /\ p = h :: p1).
Proof.
  intros f ix mn h p fk H. cbn [branch] in H. destruct (memN h mn); [left; inversion H; subst; auto|right].
  destruct (find_node h ix) as [n|]; [|discriminate].
  destruct (branch f ix mn (bpar (nblk n))) as [[p1 k1]|] eqn:B1; [|discriminate].
  inversion H; subst. split; [reflexivity|]. exists n, p1. auto.
Qed.

Lemma branch_sub : forall f ix mn h p fk x,
  branch f ix mn h = Some (p, fk) -> In x p ->
  exists f' p', branch f' ix mn x = Some (p', fk) /\ (length p' <= length p)%nat.
Proof.
  induction f as [|f IH]; intros ix mn h p fk x H Hx; [discriminate|].
  destruct (branch_S _ _ _ _ _ _ H) as [(_ & -> & _)|(_ & n & p1 & _ & B1 & ->)]; [destruct Hx|].
  destruct Hx as [<-|Hx].
  - exists (S f), (h :: p1). split; [exact H|lia].
  - destruct (IH _ _ _ _ _ _ B1 Hx) as (f' & p' & A & L).
    exists f', p'. split; [exact A|cbn [length]; lia].
Qed.

Lemma branch_nodup : forall f ix mn h p fk, branch f ix mn h = Some (p, fk) -> NoDup p.
Proof.
  induction f as [|f IH]; intros ix mn h p fk H; [discriminate|].
  destruct (branch_S _ _ _ _ _ _ H) as [(_ & -> & _)|(_ & n & p1 & _ & B1 & ->)]; [constructor|].
  constructor; [|eapply IH; exact B1].
  (* were [h] on the walk from its parent, the walk from [h] would be no longer than that one; it is one longer *)
  intros Hin. destruct (branch_sub _ _ _ _ _ _ _ B1 Hin) as (f' & p' & A & L).
  pose proof (branch_indep _ _ _ _ _ _ _ A H) as E. inversion E; subst. cbn [length] in L. lia.
Qed.

Lemma branch_props : forall f ix mn h p fk, branch f ix mn h = Some (p, fk) ->
  memN fk mn = true /\ forall x, In x p -> memN x mn = false /\ in_idx x ix = true.
Proof.
  induction f as [|f IH]; intros ix mn h p fk H; [discriminate|].
  destruct (branch_S _ _ _ _ _ _ H) as [(M & -> & ->)|(M & n & p1 & F & B1 & ->)].
  - split; [exact M|intros x []].
  - destruct (IH _ _ _ _ _ B1) as [A B]. split; [exact A|].
    intros x [<-|Hx]; [|apply B; exact Hx]. split; [exact M|]. unfold in_idx. rewrite F. reflexivity.
Qed.

Lemma drop_until_incl : forall fk l x, In x (drop_until fk l) -> In x l.
Proof.
  intros fk; induction l as [|h l IH]; intros x H; cbn [drop_until] in H; [exact H|].
  destruct (N.eqb h fk); [exact H|right; apply IH; exact H].
Qed.

Lemma drop_until_nodup : forall fk l, NoDup l -> NoDup (drop_until fk l).
Proof.
  intros fk; induction l as [|h l IH]; intros ND; cbn [drop_until]; [constructor|].
  destruct (N.eqb h fk); [exact ND|]. apply IH. inversion ND; assumption.
Qed.

Lemma nodup_app : forall A (l1 l2 : list A),
  NoDup l1 -> NoDup l2 -> (forall x, In x l1 -> ~ In x l2) -> NoDup (l1 ++ l2).
Proof.
  induction l1 as [|a l1 IH]; intros l2 N1 N2 D; cbn [app]; [exact N2|].
  inversion N1; subst. constructor.
  - intros H. apply in_app_or in H as [H|H]; [contradiction|]. apply (D a); [left; reflexivity|exact H].
  - apply IH; [assumption|exact N2|]. intros x Hx. apply D. right; exact Hx.
Qed.

Lemma in_idx_cons : forall h n ix,
  in_idx h (n :: ix) = N.eqb (bid (nblk n)) h || in_idx h ix.
Proof.
  intros h n ix. unfold in_idx, find_node. cbn [find].
  destruct (N.eqb (bid (nblk n)) h); reflexivity.
Qed.

Definition sinv (s : state) : Prop :=
  replay_s (rev (evs s)) [] = Some (main s) /\
  (forall h, In h (main s) -> in_idx h (idx s) = true) /\
  (forall c, In c (orph s) -> in_idx (bid c) (idx s) = false).

Lemma sinv_init : forall g, sinv (init g).
Proof.
  intros g. split; [reflexivity|]. split; [|intros c []].
  intros h [<-|[]]. unfold init; cbn [idx]. rewrite in_idx_cons. cbn [nblk]. rewrite N.eqb_refl. reflexivity.
Qed.

Lemma sinv_nodup : forall s, sinv s -> NoDup (main s).
Proof. intros s (R & _). eapply replay_s_nodup; [constructor|exact R]. Qed.

Lemma connect_best_sinv : forall fin s b td, sinv s ->
  in_idx (bid b) (idx s) = true -> ~ In (bid b) (main s) -> sinv (fst (fst (connect_best fin s b td))).
Proof.
  unfold connect_best; intros fin s b td I Ib Nb.
  pose proof (sinv_nodup _ I) as ND.
  destruct (N.eqb (bpar b) (tip s)).
  - destruct I as (R & Mi & Oi). split; [|split]; cbn [fst evs main idx orph].
    + cbn [rev]. rewrite replay_s_app, R. cbn [replay_s].
      apply memN_false in Nb. rewrite Nb. reflexivity.
    + intros h [<-|Hh]; [exact Ib|apply Mi; exact Hh].
    + exact Oi.
  - destruct (find_node (tip s) (idx s)) as [t|]; [|exact I].
    destruct ((td <=? ntd t) || (bht b <? fin + margin)); [exact I|].
    destruct (branch (S (Z.to_nat (bht b))) (idx s) (main s) (bid b)) as [[p fk]|] eqn:B; [|exact I].
    destruct I as (R & Mi & Oi).
    pose proof (branch_nodup _ _ _ _ _ _ B) as NDp.
    destruct (branch_props _ _ _ _ _ _ B) as [Fk Pp].
    assert (NDall : NoDup (p ++ drop_until fk (main s))).
    { apply nodup_app; [exact NDp|apply drop_until_nodup; exact ND|].
      intros x Hx Hd. destruct (Pp x Hx) as [Mx _]. apply memN_false in Mx. apply Mx.
      eapply drop_until_incl. exact Hd. }
    split; [|split]; cbn [fst evs main idx orph].
    + rewrite !rev_app_distr, rev_involutive, <- map_rev.
      rewrite <- app_assoc.
      rewrite replay_s_app, R, replay_s_app, replay_s_dels, replay_s_adds;
        rewrite rev_involutive; [reflexivity|exact NDall].
    + intros h Hh. apply in_app_or in Hh as [Hh|Hh].
      * apply Pp. exact Hh.
      * apply Mi. eapply drop_until_incl. exact Hh.
    + exact Oi.
Qed.

Lemma accept_sinv : forall fin s b, sinv s ->
  in_idx (bid b) (idx s) = false -> (forall c, In c (orph s) -> bid c <> bid b) ->
  sinv (fst (fst (accept fin s b))).
Proof.
  unfold accept; intros fin s b I Nb No.
  destruct (find_node (bpar b) (idx s)) as [p|]; [|exact I].
  destruct (negb (bht b =? bht (nblk p) + 1)); [exact I|].
  destruct I as (R & Mi & Oi).
  apply connect_best_sinv.
  - split; [exact R|]. split.
    + cbn [main idx]. intros h Hh. rewrite in_idx_cons, (Mi h Hh). apply orb_true_r.
    + cbn [orph idx]. intros c Hc. rewrite in_idx_cons, (Oi c Hc). cbn [nblk].
      rewrite orb_false_r. apply N.eqb_neq. intros E. apply (No c Hc). symmetry. exact E.
  - cbn [idx]. rewrite in_idx_cons. cbn [nblk]. rewrite N.eqb_refl. reflexivity.
  - cbn [main]. intros Hm. rewrite (Mi _ Hm) in Nb. discriminate.
Qed.

Lemma remove_orph_in : forall h o c, In c (remove_orph h o) -> In c o /\ bid c <> h.
Proof.
  intros h o c H. unfold remove_orph in H. apply filter_In in H as [A B]. split; [exact A|].
  apply negb_true_iff in B. apply N.eqb_neq in B. exact B.
Qed.

Lemma first_child_in : forall p o c, first_child p o = Some c -> In c o.
Proof. intros p o c H. unfold first_child in H. apply find_some in H. apply H. Qed.

Lemma porph_sinv : forall fuel fin q s, sinv s -> sinv (fst (porph fuel fin q s)).
Proof.
  induction fuel as [|f IH]; intros fin q s I; cbn [porph]; [exact I|].
  destruct q as [|p q']; [exact I|].
  destruct (first_child p (orph s)) as [c|] eqn:FC; [|apply IH; exact I].
  apply first_child_in in FC.
  assert (I1 : sinv (fst (fst (accept fin (mkS (idx s) (remove_orph (bid c) (orph s)) (main s) (evs s)) c)))).
  { destruct I as (R & Mi & Oi). apply accept_sinv.
    - split; [exact R|]. split; [exact Mi|]. cbn [orph idx]. intros c' Hc'.
      apply remove_orph_in in Hc' as [Hc' _]. apply Oi. exact Hc'.
    - cbn [idx]. apply Oi. exact FC.
    - cbn [orph]. intros c' Hc'. apply remove_orph_in in Hc' as [_ Hc']. exact Hc'. }
  destruct (accept fin _ c) as [[s1 m1] e1]. cbn [fst] in I1.
  destruct e1; try exact I1. apply IH. exact I1.
Qed.

Lemma in_orph_false : forall h o c, in_orph h o = false -> In c o -> bid c <> h.
Proof.
  intros h o c H Hc E. unfold in_orph in H.
  assert (X : existsb (fun b => N.eqb (bid b) h) o = true)
    by (apply existsb_exists; exists c; split; [exact Hc|apply N.eqb_eq; exact E]).
  congruence.
Qed.

Lemma deliver_sinv : forall fin s b, sinv s -> sinv (step fin s b).
Proof.
  unfold step, deliver; intros fin s b I.
  destruct (in_idx (bid b) (idx s)) eqn:Eb; [exact I|].
  destruct (in_orph (bid b) (orph s) && negb (in_idx (bpar b) (idx s))); [exact I|].
  set (s1 := if in_orph (bid b) (orph s) then _ else s).
  assert (I1 : sinv s1 /\ idx s1 = idx s /\ forall c, In c (orph s1) -> bid c <> bid b).
  { subst s1. destruct (in_orph (bid b) (orph s)) eqn:K.
    - destruct I as (R & Mi & Oi). split; [|split; [reflexivity|]].
      + split; [exact R|]. split; [exact Mi|]. cbn [orph idx]. intros c Hc.
        apply remove_orph_in in Hc as [Hc _]. apply Oi. exact Hc.
      + cbn [orph]. intros c Hc. apply remove_orph_in in Hc as [_ Hc]. exact Hc.
    - split; [exact I|split; [reflexivity|]]. intros c Hc. eapply in_orph_false; eauto. }
  clearbody s1. destruct I1 as (I1 & Ix & No).
  destruct (negb (in_idx (bpar b) (idx s1))).
  - cbn [fst]. destruct I1 as (R & Mi & Oi). split; [exact R|]. split; [exact Mi|].
    cbn [orph idx]. intros c Hc. apply in_app_or in Hc as [Hc|[<-|[]]]; [apply Oi; exact Hc|].
    rewrite Ix. exact Eb.
  - assert (I2 : sinv (fst (fst (accept fin s1 b))))
      by (apply accept_sinv; [exact I1|rewrite Ix; exact Eb|exact No]).
    destruct (accept fin s1 b) as [[s2 m2] e2]. cbn [fst] in I2.
    destruct e2; try exact I2.
    pose proof (porph_sinv (porph_fuel s2) fin [bid b] s2 I2) as I3.
    destruct (porph (porph_fuel s2) fin [bid b] s2) as [s3 e3].
    destruct e3; exact I3.
Qed.

Lemma run_sinv : forall fin g order, sinv (run fin g order).
Proof.
  intros fin g order. unfold run.
  assert (G : forall s, sinv s -> sinv (fold_left (step fin) order s)).
  { induction order as [|b order IH]; intros s I; cbn [fold_left]; [exact I|].
    apply IH. apply deliver_sinv. exact I. }
  apply G. apply sinv_init.
Qed.

Lemma run_main_nodup : forall fin g order, NoDup (main (run fin g order)).
Proof. intros. apply sinv_nodup. apply run_sinv. Qed.

Definition inv (s : state) : Prop := replay (rev (evs s)) [] = Some (main s).

Lemma inv_same : forall s s', evs s' = evs s -> main s' = main s -> inv s -> inv s'.
Proof. unfold inv; intros s s' E M H. rewrite E, M. exact H. Qed.

Lemma run_strict : forall fin g order,
  replay_s (rev (evs (run fin g order))) [] = Some (main (run fin g order)).
Proof. intros. apply run_sinv. Qed.

Lemma run_inv : forall fin g order, inv (run fin g order).
Proof. intros. apply replay_s_replay. apply run_strict. Qed.

Lemma store_of_cons : forall e evs, store_of (e :: evs) = save_seq (store_of evs) e.
Proof. reflexivity. Qed.

Lemma lastseq_store_of : forall evs, lastseq (store_of evs) = Z.of_nat (length evs) - 1.
Proof.
  induction evs as [|e evs IH].
  - reflexivity.
  - rewrite store_of_cons. unfold save_seq; cbn [lastseq length]. rewrite IH. lia.
Qed.

Lemma get_seq_save : forall q e i,
  get_seq (save_seq q e) i = if lastseq q + 1 =? i then Some e else get_seq q i.
Proof.
  intros. unfold get_seq, save_seq. cbn [recs find fst snd]. destruct (lastseq q + 1 =? i); reflexivity.
Qed.

Lemma get_seq_store_of : forall evs i, 0 <= i ->
  get_seq (store_of evs) i = nth_error (rev evs) (Z.to_nat i).
Proof.
  induction evs as [|e evs IH]; intros i Hi.
  - cbn. destruct (Z.to_nat i); reflexivity.
  - rewrite store_of_cons, get_seq_save, lastseq_store_of, IH by exact Hi. cbn [rev].
    destruct (Z.of_nat (length evs) - 1 + 1 =? i) eqn:E.
    + apply Z.eqb_eq in E.
      rewrite nth_error_app2 by (rewrite rev_length; lia).
      rewrite rev_length. replace (Z.to_nat i - length evs)%nat with O by lia. reflexivity.
    + apply Z.eqb_neq in E. destruct (Z_lt_le_dec i (Z.of_nat (length evs))) as [L|L].
      * rewrite nth_error_app1 by (rewrite rev_length; lia). reflexivity.
      * assert (N1 : nth_error (rev evs) (Z.to_nat i) = None)
          by (apply nth_error_None; rewrite rev_length; lia).
        assert (N2 : nth_error (rev evs ++ [e]) (Z.to_nat i) = None)
          by (apply nth_error_None; rewrite app_length, rev_length; cbn; lia).
        rewrite N1, N2. reflexivity.
Qed.

Lemma get_seq_neg : forall evs i, i < 0 -> get_seq (store_of evs) i = None.
Proof.
  induction evs as [|e evs IH]; intros i Hi; [reflexivity|].
  rewrite store_of_cons, get_seq_save, lastseq_store_of.
  destruct (Z.of_nat (length evs) - 1 + 1 =? i) eqn:E; [apply Z.eqb_eq in E; lia|].
  apply IH. exact Hi.
Qed.

Lemma keys_store_of : forall evs,
  map fst (recs (store_of evs)) = rev (map Z.of_nat (seq 0 (length evs))).
Proof.
  induction evs as [|e evs IH]; [reflexivity|].
  rewrite store_of_cons. unfold save_seq. cbn [recs map fst].
  rewrite IH, lastseq_store_of. cbn [length]. rewrite seq_S, map_app, rev_app_distr.
  cbn [map rev app]. f_equal. lia.
Qed.

Lemma skipn_nth : forall A (l : list A) i x,
  nth_error l i = Some x -> skipn i l = x :: skipn (S i) l.
Proof.
  induction l as [|y l IH]; intros [|i] x H; cbn in H; try discriminate.
  - inversion H; subst. reflexivity.
  - cbn [skipn]. rewrite (IH _ _ H). reflexivity.
Qed.

Lemma read_from_spec : forall evs k i, (i + k = length evs)%nat ->
  read_from (store_of evs) (Z.of_nat i) k = map Some (skipn i (rev evs)).
Proof.
  intros evs; induction k as [|k IH]; intros i H; cbn [read_from].
  - rewrite skipn_all2 by (rewrite rev_length; lia). reflexivity.
  - rewrite get_seq_store_of by lia. rewrite Nat2Z.id.
    replace (Z.of_nat i + 1) with (Z.of_nat (S i)) by lia.
    rewrite IH by lia.
    destruct (nth_error (rev evs) i) as [x|] eqn:E.
    + rewrite (skipn_nth _ _ _ _ E). reflexivity.
    + apply nth_error_None in E. rewrite rev_length in E. lia.
Qed.

Lemma read_log_spec : forall evs, read_log (store_of evs) = map Some (rev evs).
Proof.
  intros evs. unfold read_log. rewrite lastseq_store_of.
  replace (Z.to_nat (Z.of_nat (length evs) - 1 + 1)) with (length evs) by lia.
  apply (read_from_spec evs (length evs) 0). lia.
Qed.

Lemma all_some_map : forall A (l : list A), all_some (map Some l) = Some l.
Proof. induction l as [|x l IH]; cbn; [reflexivity|rewrite IH; reflexivity]. Qed.

Lemma store_gapfree : forall evs i,
  get_seq (store_of evs) i <> None <-> 0 <= i <= lastseq (store_of evs).
Proof.
  intros evs i. rewrite lastseq_store_of.
  destruct (Z_lt_le_dec i 0) as [L|L].
  - rewrite get_seq_neg by exact L. split; [congruence|lia].
  - rewrite get_seq_store_of by exact L. split; intro H.
    + apply nth_error_Some in H. rewrite rev_length in H. lia.
    + apply nth_error_Some. rewrite rev_length. lia.
Qed.

Lemma store_no_reuse : forall evs, NoDup (map fst (recs (store_of evs))).
Proof.
  intros. rewrite keys_store_of.
  apply NoDup_rev. apply Injective_map_NoDup; [|apply seq_NoDup].
  intros a b H. lia.
Qed.

Lemma log_read : forall evs,
  all_some (read_log (store_of evs)) = Some (rev evs) /\
  Z.of_nat (length (rev evs)) = lastseq (store_of evs) + 1.
Proof.
  intros evs. rewrite read_log_spec, all_some_map, lastseq_store_of, rev_length.
  split; [reflexivity|lia].
Qed.

(** non-vacuity: a history with a reorganisation (blocks 1,2 then 3,4,5 from the root with fin = -12) *)
Example seq_example :
  let g := mkB 0 99 0 1 in
  let s := run (-12) g [mkB 1 0 1 1; mkB 2 1 2 1; mkB 4 3 2 1; mkB 5 4 3 1; mkB 3 0 1 1] in
  main s = [5; 4; 3; 0]%N /\ lastseq (seq_state s) = 7 /\
  get_seq (seq_state s) 3 = Some (2%N, false).
Proof. vm_compute. repeat split. Qed.
