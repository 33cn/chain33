(** C26 — proofs, part 2: what the latest add record of a hash says about the
    chain, in a log in which no block is added while it is on the chain (pure
    list facts, used for C25's runs and for para-chain runs). *)
From Coq Require Import List ZArith NArith Bool Lia.
From C33 Require Import C25.Model C26.Model C26.ModelKv C26.SpecIdx C26.Proofs.
Import ListNotations.
Open Scope Z_scope.

(** position (from the oldest record) of the latest add record of [h] *)
Fixpoint idxn (h : N) (evs : list (N * bool)) : option nat :=
  match evs with
  | [] => None
  | (x, a) :: tl => if a && N.eqb x h then Some (length tl) else idxn h tl
  end.

Lemma idx_of_idxn : forall h evs, idx_of h evs = option_map Z.of_nat (idxn h evs).
Proof.
  induction evs as [|[x a] tl IH]; cbn [idx_of idxn]; [reflexivity|].
  destruct (a && N.eqb x h); [reflexivity|exact IH].
Qed.

Lemma idxn_lt : forall h evs i, idxn h evs = Some i -> (i < length evs)%nat.
Proof.
  induction evs as [|[x a] tl IH]; intros i H; cbn [idxn] in H; [discriminate|].
  cbn [length]. destruct (a && N.eqb x h).
  - inversion H; subst. lia.
  - specialize (IH _ H). lia.
Qed.

Lemma idx_of_cons_mono : forall h e evs i, idx_of h evs = Some i ->
  exists j, idx_of h (e :: evs) = Some j /\ i <= j.
Proof.
  intros h [x a] evs i E. cbn [idx_of]. destruct (a && N.eqb x h).
  - eexists. split; [reflexivity|]. rewrite idx_of_idxn in E.
    destruct (idxn h evs) as [k|] eqn:I; [|discriminate]. inversion E; subst.
    apply idxn_lt in I. lia.
  - exists i. split; [exact E|lia].
Qed.

Definition log_at_n (evs : list (N * bool)) (j : nat) : option (N * bool) := nth_error (rev evs) j.

Lemma log_at_old : forall e tl j, (j < length tl)%nat -> log_at_n (e :: tl) j = log_at_n tl j.
Proof.
  intros e tl j L. unfold log_at_n. cbn [rev]. apply nth_error_app1. rewrite rev_length. exact L.
Qed.

Lemma log_at_new : forall e tl, log_at_n (e :: tl) (length tl) = Some e.
Proof.
  intros e tl. unfold log_at_n. cbn [rev]. rewrite nth_error_app2 by (rewrite rev_length; lia).
  rewrite rev_length, Nat.sub_diag. reflexivity.
Qed.

Lemma log_at_beyond : forall evs j, (length evs <= j)%nat -> log_at_n evs j = None.
Proof. intros evs j L. unfold log_at_n. apply nth_error_None. rewrite rev_length. exact L. Qed.

Lemma log_at_keep : forall e tl j r, log_at_n tl j = Some r -> log_at_n (e :: tl) j = Some r.
Proof.
  intros e tl j r H. destruct (Nat.lt_ge_cases j (length tl)) as [L|L].
  - rewrite log_at_old by exact L. exact H.
  - rewrite log_at_beyond in H by exact L. discriminate.
Qed.

Lemma log_at_cons_inv : forall e tl j r,
  log_at_n (e :: tl) j = Some r -> log_at_n tl j = Some r \/ (j = length tl /\ e = r).
Proof.
  intros e tl j r H. destruct (Nat.lt_trichotomy j (length tl)) as [L|[->|L]].
  - left. rewrite <- (log_at_old e) by exact L. exact H.
  - right. rewrite log_at_new in H. inversion H. split; reflexivity.
  - rewrite log_at_beyond in H by (cbn [length]; lia). discriminate.
Qed.

Lemma firstn_log_old : forall (e : N * bool) tl i, (i <= length tl)%nat ->
  firstn i (rev (e :: tl)) = firstn i (rev tl).
Proof.
  intros e tl i L. cbn [rev]. rewrite firstn_app.
  replace (i - length (rev tl))%nat with O by (rewrite rev_length; lia).
  cbn [firstn]. apply app_nil_r.
Qed.

(** what the index says about [h], given the log [evs] (newest first) and the chain [m] *)
Definition idx_fact (evs : list (N * bool)) (m : list N) (h : N) : Prop :=
  match idxn h evs with
  | None => ~ In h m /\ forall j, log_at_n evs j <> Some (h, true)
  | Some i =>
      log_at_n evs i = Some (h, true) /\
      (forall j, (i < j)%nat -> log_at_n evs j <> Some (h, true)) /\
      ((In h m /\ (forall j, (i < j)%nat -> log_at_n evs j <> Some (h, false)) /\
        exists above below, m = above ++ h :: below /\
                            replay (firstn (S i) (rev evs)) [] = Some (h :: below))
       \/ (~ In h m /\ exists j, (i < j)%nat /\ log_at_n evs j = Some (h, false)))
  end.

(** One more record on a log: every clause of [idx_fact] about older records
    carries over ([log_at_keep]; [log_at_cons_inv]: the new record is a record
    of [h] only if it says so).  Three cases: [h] is added, another block is
    added, the tip is deleted. *)

Lemma idx_fact_add : forall tl m h, replay (rev tl) [] = Some m ->
  idx_fact ((h, true) :: tl) (h :: m) h.
Proof.
  intros tl m h R. unfold idx_fact. cbn [idxn andb]. rewrite N.eqb_refl.
  assert (Last : forall j r, (length tl < j)%nat -> log_at_n ((h, true) :: tl) j <> Some r).
  { intros j r L. rewrite log_at_beyond; [discriminate|cbn [length]; lia]. }
  split; [apply log_at_new|]. split; [intros j; apply Last|].
  left. split; [left; reflexivity|]. split; [intros j; apply Last|].
  exists [], m. split; [reflexivity|].
  rewrite firstn_all2 by (rewrite rev_length; cbn [length]; lia).
  cbn [rev]. rewrite replay_app, R. reflexivity.
Qed.

Lemma idx_fact_add_other : forall tl m h x, x <> h ->
  idx_fact tl m h -> idx_fact ((x, true) :: tl) (x :: m) h.
Proof.
  intros tl m h x E F. unfold idx_fact in *. cbn [idxn andb].
  rewrite (proj2 (N.eqb_neq x h) E).
  destruct (idxn h tl) as [i|] eqn:I.
  - destruct F as (A & B & C). split; [apply log_at_keep; exact A|]. split.
    { intros j L Q. apply log_at_cons_inv in Q as [Q|[_ Q]]; [exact (B j L Q)|congruence]. }
    destruct C as [(C1 & C2 & ab & bl & C3 & C4)|(C1 & j & C2 & C3)].
    + left. split; [right; exact C1|]. split.
      { intros j L Q. apply log_at_cons_inv in Q as [Q|[_ Q]]; [exact (C2 j L Q)|discriminate]. }
      exists (x :: ab), bl. split; [rewrite C3; reflexivity|].
      rewrite firstn_log_old by (apply idxn_lt in I; lia). exact C4.
    + right. split; [intros [Q|Q]; [congruence|exact (C1 Q)]|].
      exists j. split; [exact C2|apply log_at_keep; exact C3].
  - destruct F as (A & B). split; [intros [Q|Q]; [congruence|exact (A Q)]|].
    intros j Q. apply log_at_cons_inv in Q as [Q|[_ Q]]; [exact (B j Q)|congruence].
Qed.

Lemma idx_fact_del : forall tl m h x, ~ In x m ->
  idx_fact tl (x :: m) h -> idx_fact ((x, false) :: tl) m h.
Proof.
  intros tl m h x Nx F. unfold idx_fact in *. cbn [idxn andb].
  destruct (idxn h tl) as [i|] eqn:I.
  - destruct F as (A & B & C). split; [apply log_at_keep; exact A|]. split.
    { intros j L Q. apply log_at_cons_inv in Q as [Q|[_ Q]]; [exact (B j L Q)|discriminate]. }
    destruct (N.eq_dec x h) as [->|Nxh].
    + (* the deleted block itself *)
      right. split; [exact Nx|]. exists (length tl).
      split; [apply idxn_lt in I; exact I|apply log_at_new].
    + destruct C as [(C1 & C2 & ab & bl & C3 & C4)|(C1 & j & C2 & C3)].
      * left. split; [destruct C1 as [Q|Q]; [congruence|exact Q]|]. split.
        { intros j L Q. apply log_at_cons_inv in Q as [Q|[_ Q]]; [exact (C2 j L Q)|congruence]. }
        destruct ab as [|y ab']; cbn [app] in C3; inversion C3; subst; [congruence|].
        exists ab', bl. split; [reflexivity|].
        rewrite firstn_log_old by (apply idxn_lt in I; lia). exact C4.
      * right. split; [intros Q; apply C1; right; exact Q|].
        exists j. split; [exact C2|apply log_at_keep; exact C3].
  - destruct F as (A & B). split; [intros Q; apply A; right; exact Q|].
    intros j Q. apply log_at_cons_inv in Q as [Q|[_ Q]]; [exact (B j Q)|discriminate].
Qed.

Lemma idx_fact_holds : forall evs m, replay_s (rev evs) [] = Some m -> forall h, idx_fact evs m h.
Proof.
  induction evs as [|[x a] tl IH]; intros m R h.
  - cbn in R. inversion R; subst. unfold idx_fact. cbn [idxn]. split; [intros []|].
    intros j. unfold log_at_n. cbn. destruct j; discriminate.
  - cbn [rev] in R. rewrite replay_s_app in R.
    destruct (replay_s (rev tl) []) as [m'|] eqn:R'; [|discriminate].
    specialize (IH m' eq_refl h). destruct a; cbn [replay_s] in R.
    + destruct (memN x m'); [discriminate|]. inversion R; subst m; clear R.
      destruct (N.eq_dec x h) as [->|E].
      * apply idx_fact_add. apply replay_s_replay. exact R'.
      * apply idx_fact_add_other; assumption.
    + assert (ND' : NoDup m') by (eapply replay_s_nodup; [constructor|exact R']).
      destruct m' as [|t m'']; [discriminate|].
      destruct (N.eqb_spec t x) as [->|]; [|discriminate]. inversion R; subst m''; clear R.
      apply idx_fact_del; [inversion ND'; assumption|exact IH].
Qed.
