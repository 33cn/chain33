(** C15 — the simulation over whole histories. *)
From Coq Require Import List ZArith NArith Bool Lia.
From C33 Require Import Lib.Harness C15.Model C15.ModelFlat C15.ProofsBase C15.ProofsReceipt
  C15.ProofsFlat C15.ProofsFlatSim.
Import ListNotations.
Open Scope Z_scope.

Section Sim2.
  Variable l : lid.
  Fixpoint results (miners : list bytes) (s : ledger) (ops : list op) : list res :=
    match ops with
    | [] => []
    | o :: tl => snd (step miners s o) :: results miners (fst (step miners s o)) tl
    end.

  Fixpoint fresults (miners : list bytes) (w : flat) (ops : list op) : list res :=
    match ops with
    | [] => []
    | o :: tl => snd (fstep l miners w o) :: fresults miners (fst (fstep l miners w o)) tl
    end.

  Theorem frun_sim : forall miners ops s w,
    flat_rel l s w -> keys_ok s = true -> forallb op_keys_ok ops = true ->
    results miners s ops = fresults miners w ops /\
    flat_rel l (run miners s ops) (frun miners w (map (fun o => (l, o)) ops)) /\
    (forall q, key_ok (qkey q) = true ->
       fanswer l (frun miners w (map (fun o => (l, o)) ops)) q = answer (run miners s ops) q).
  Proof.
    intros miners ops. induction ops as [|o tl IH]; intros s w R K G.
    - split; [reflexivity|]. split; [exact R|].
      intros q Hq. unfold frun, run. cbn [map fold_left]. unfold fanswer, ganswer, answer.
      destruct q; cbn [qkey] in Hq;
        [rewrite (rel_load_main l s w a R Hq)|rewrite (rel_load_sub l s w a x R Hq)]; reflexivity.
    - simpl in G. apply andb_true_iff in G as [Go Gtl].
      destruct (fstep_sim l miners s w o R K Go) as [E R1].
      pose proof (step_keys_ok miners s o K) as K1.
      destruct (IH _ _ R1 K1 Gtl) as (I1 & I2 & I3).
      change (run miners s (o :: tl)) with (run miners (fst (step miners s o)) tl).
      change (frun miners w (map (fun o0 => (l, o0)) (o :: tl)))
        with (frun miners (fst (fstep l miners w o)) (map (fun o0 => (l, o0)) tl)).
      cbn [results fresults]. rewrite E, I1. repeat split; assumption.
  Qed.
End Sim2.

(** non-vacuity: base58 and hex addresses pass the guard; a string that looks
    like a sub-account key does not, and really shares its byte key *)
From Coq Require Import String.
From C33 Require Import C15.Spec C15.Proofs C15.ProofsRefute.

Example plain_history_keys_ok : forallb op_keys_ok plain_history = true.
Proof. vm_compute. reflexivity. Qed.

Example odd_address_collides :
  let l := (bs "coins"%string, bs "bty"%string) in
  let a := bs "exec-a:b"%string in
  op_keys_ok (OMint a 5) = false /\
  flat_key l (MainK a) = flat_key l (SubK (bs "a"%string) (bs "b"%string)).
Proof. vm_compute. split; reflexivity. Qed.
