(** C15 — one ledger of the shared byte-keyed store behaves exactly like the
    structured-key model of Model.v, as long as the keys it touches decode
    uniquely (ModelFlat.op_keys_ok): primitives, composites, one step. *)
From Coq Require Import List ZArith NArith Bool Lia.
From C33 Require Import Lib.Harness C15.Model C15.ModelFlat C15.ProofsBase C15.ProofsReceipt
  C15.ProofsFlat.
Import ListNotations.
Open Scope Z_scope.

Lemma starts_with_app : forall p b, starts_with p (p ++ b) = true.
Proof. induction p as [|c p IH]; intro b; simpl; [reflexivity|]. rewrite N.eqb_refl. apply IH. Qed.

Lemma key_rest_inj : forall k k',
  key_ok k = true -> key_ok k' = true -> key_rest k = key_rest k' -> k = k'.
Proof.
  intros [a|x a] [a'|x' a'] H H' E; cbn [key_ok key_rest] in *.
  - congruence.
  - subst a. rewrite starts_with_app in H. discriminate H.
  - subst a'. rewrite starts_with_app in H'. discriminate H'.
  - apply app_inv_head in E. apply negb_true_iff in H, H'.
    destruct (split_at_sep colon _ _ _ _ H H' E) as [-> ->]. reflexivity.
Qed.

Lemma flat_key_inj : forall l k k',
  key_ok k = true -> key_ok k' = true -> flat_key l k = flat_key l k' -> k = k'.
Proof.
  intros l k k' H H' E. unfold flat_key in E. apply app_inv_head in E.
  apply key_rest_inj; assumption.
Qed.

Definition flat_rel (l : lid) (s : ledger) (w : flat) : Prop :=
  forall k, key_ok k = true -> fget (flat_key l k) w = get k s.

Lemma flat_rel_empty : forall l, flat_rel l [] [].
Proof. intros l k _. reflexivity. Qed.

Section Sim.
  Variable l : lid.
  Local Notation fg := (fun k => fget (flat_key l k)).
  Local Notation fp := (fun k => fput (flat_key l k)).

  Lemma rel_put : forall s w k r,
    flat_rel l s w -> key_ok k = true -> flat_rel l (put k r s) (fput (flat_key l k) r w).
  Proof.
    intros s w k r R Hk k' Hk'.
    destruct (key_eqb k k') eqn:E.
    - apply key_eqb_eq in E. subst k'. rewrite fget_fput_same, get_put_same. reflexivity.
    - apply key_eqb_neq in E. rewrite get_put_other by exact E.
      rewrite fget_fput_other; [apply R; exact Hk'|].
      intro F. apply E. apply (flat_key_inj l); assumption.
  Qed.

  Lemma rel_load_main : forall s w a, flat_rel l s w -> key_ok (MainK (norm a)) = true ->
    gload_main flat fg w a = load_main s a.
  Proof. intros s w a R H. unfold gload_main, load_main. rewrite (R _ H). reflexivity. Qed.

  Lemma rel_load_sub : forall s w a x, flat_rel l s w -> key_ok (SubK x (norm a)) = true ->
    gload_sub flat fg w a x = load_sub s a x.
  Proof. intros s w a x R H. unfold gload_sub, load_sub. rewrite (R _ H). reflexivity. Qed.

  (* saving a record derived from the loaded one writes the loaded key *)
  Lemma rel_save_main : forall s0 s w a r,
    keys_ok s0 = true -> flat_rel l s w -> key_ok (MainK (norm a)) = true ->
    a_addr r = a_addr (load_main s0 a) ->
    flat_rel l (save_main s r) (gsave_main flat fp w r).
  Proof.
    intros s0 s w a r K R H E. unfold save_main, gsave_main.
    apply rel_put; [exact R|]. rewrite E, (load_main_norm s0 a K). exact H.
  Qed.

  Lemma rel_save_sub : forall s0 s w a x r,
    keys_ok s0 = true -> flat_rel l s w -> key_ok (SubK x (norm a)) = true ->
    a_addr r = a_addr (load_sub s0 a x) ->
    flat_rel l (save_sub s x r) (gsave_sub flat fp w x r).
  Proof.
    intros s0 s w a x r K R H E. unfold save_sub, gsave_sub.
    apply rel_put; [exact R|]. exact H.
  Qed.

  Definition sim (p : ledger * res) (q : flat * res) : Prop :=
    snd p = snd q /\ flat_rel l (fst p) (fst q).

  Lemma sim_then : forall s w p p' q q' panic,
    flat_rel l s w -> sim p p' ->
    (forall s1 w1, p = (s1, ROk) -> flat_rel l s1 w1 -> sim (q s1) (q' w1)) ->
    sim (then_ s p q panic) (then_ w p' q' panic).
  Proof.
    intros s w [s1 r1] [w1 r1'] q q' panic R [E R1] H. cbn [fst snd] in E, R1. subst r1'.
    unfold then_. destruct r1; try (split; [reflexivity|exact R]).
    destruct (H s1 w1 eq_refl R1) as [E2 R2].
    destruct (q s1) as [s2 r2]. destruct (q' w1) as [w2 r2'].
    cbn [fst snd] in E2, R2. subst r2'. destruct r2; split; try reflexivity; assumption.
  Qed.

  Ltac sim_ifs :=
    repeat match goal with
    | |- context [if ?c then _ else _] => destruct c
    | |- context [match safe_add ?a ?b with _ => _ end] => destruct (safe_add a b)
    end; split; cbn [fst snd]; try reflexivity; try assumption.

  Lemma sim_transfer : forall s w f t m,
    flat_rel l s w -> keys_ok s = true ->
    key_ok (MainK (norm f)) = true -> key_ok (MainK (norm t)) = true ->
    sim (transfer s f t m) (gtransfer flat fg fp w f t m).
  Proof.
    intros s w f t m R K Hf Ht. unfold transfer, gtransfer.
    rewrite (rel_load_main s w f R Hf), (rel_load_main s w t R Ht). sim_ifs.
    eapply (rel_save_main s _ _ t); [exact K| |exact Ht|reflexivity].
    eapply (rel_save_main s _ _ f); [exact K|exact R|exact Hf|reflexivity].
  Qed.

  Lemma sim_check_transfer : forall s w a m,
    flat_rel l s w -> key_ok (MainK (norm a)) = true ->
    check_transfer s a m = gcheck_transfer flat fg w a m.
  Proof.
    intros s w a m R H. unfold check_transfer, gcheck_transfer.
    rewrite (rel_load_main s w a R H). reflexivity.
  Qed.

  Lemma sim_deposit_balance : forall s w x m,
    flat_rel l s w -> keys_ok s = true -> key_ok (MainK (norm x)) = true ->
    sim (deposit_balance s x m) (gdeposit_balance flat fg fp w x m).
  Proof.
    intros s w x m R K H. unfold deposit_balance, gdeposit_balance.
    rewrite (rel_load_main s w x R H). sim_ifs.
    eapply (rel_save_main s _ _ x); [exact K|exact R|exact H|reflexivity].
  Qed.

  Lemma sim_genesis_init : forall s w a m,
    flat_rel l s w -> keys_ok s = true -> key_ok (MainK (norm a)) = true ->
    sim (genesis_init s a m) (ggenesis_init flat fg fp w a m).
  Proof.
    intros s w a m R K H. unfold genesis_init, ggenesis_init.
    rewrite (rel_load_main s w a R H). sim_ifs.
    eapply (rel_save_main s _ _ a); [exact K|exact R|exact H|reflexivity].
  Qed.

  Lemma sim_exec_deposit : forall s w a x m,
    flat_rel l s w -> keys_ok s = true -> key_ok (SubK x (norm a)) = true ->
    sim (exec_deposit s a x m) (gexec_deposit flat fg fp w a x m).
  Proof.
    intros s w a x m R K H. unfold exec_deposit, gexec_deposit.
    rewrite (rel_load_sub s w a x R H). sim_ifs.
    eapply (rel_save_sub s _ _ a x); [exact K|exact R|exact H|reflexivity].
  Qed.

  Lemma sim_exec_deposit_frozen_inner : forall s w a x m,
    flat_rel l s w -> keys_ok s = true -> key_ok (SubK x (norm a)) = true ->
    sim (exec_deposit_frozen_inner s a x m) (gexec_deposit_frozen_inner flat fg fp w a x m).
  Proof.
    intros s w a x m R K H. unfold exec_deposit_frozen_inner, gexec_deposit_frozen_inner.
    rewrite (rel_load_sub s w a x R H). sim_ifs.
    eapply (rel_save_sub s _ _ a x); [exact K|exact R|exact H|reflexivity].
  Qed.

  Lemma sim_exec_withdraw : forall s w x a m,
    flat_rel l s w -> keys_ok s = true -> key_ok (SubK x (norm a)) = true ->
    sim (exec_withdraw s x a m) (gexec_withdraw flat fg fp w x a m).
  Proof.
    intros s w x a m R K H. unfold exec_withdraw, gexec_withdraw.
    rewrite (rel_load_sub s w a x R H). sim_ifs.
    eapply (rel_save_sub s _ _ a x); [exact K|exact R|exact H|reflexivity].
  Qed.

  Lemma sim_exec_issue : forall miners s w x m,
    flat_rel l s w -> keys_ok s = true -> key_ok (MainK (norm x)) = true ->
    sim (exec_issue miners s x m) (gexec_issue flat fg fp miners w x m).
  Proof.
    intros miners s w x m R K H. unfold exec_issue, gexec_issue.
    destruct (existsb (bytes_eqb x) miners); [|split; [reflexivity|exact R]].
    apply sim_deposit_balance; assumption.
  Qed.

  Lemma sim_transfer_to_exec : forall s w f t m,
    flat_rel l s w -> keys_ok s = true ->
    key_ok (MainK (norm f)) = true -> key_ok (MainK (norm t)) = true ->
    key_ok (SubK t (norm f)) = true ->
    sim (transfer_to_exec s f t m) (gtransfer_to_exec flat fg fp w f t m).
  Proof.
    intros s w f t m R K Hf Ht Hs. rewrite transfer_to_exec_then, gtransfer_to_exec_then.
    apply sim_then; [exact R|apply sim_transfer; assumption|]. intros s1 w1 T R1.
    apply sim_exec_deposit; [exact R1|exact (step_to_keys_ok [] s (OTransfer f t m) s1 ROk K T)|exact Hs].
  Qed.

  Lemma sim_transfer_withdraw : forall s w f t m,
    flat_rel l s w -> keys_ok s = true ->
    key_ok (MainK (norm f)) = true -> key_ok (MainK (norm t)) = true ->
    key_ok (SubK t (norm f)) = true ->
    sim (transfer_withdraw s f t m) (gtransfer_withdraw flat fg fp w f t m).
  Proof.
    intros s w f t m R K Hf Ht Hs. rewrite transfer_withdraw_then, gtransfer_withdraw_then.
    rewrite <- (sim_check_transfer s w t m R Ht).
    destruct (check_transfer s t m); try (split; [reflexivity|exact R]).
    apply sim_then; [exact R|apply sim_exec_withdraw; assumption|]. intros s1 w1 W R1.
    apply sim_transfer; try assumption.
    exact (step_to_keys_ok [] s (OExecWithdraw t f m) s1 ROk K W).
  Qed.

  Lemma sim_exec_deposit_frozen : forall miners s w a x m,
    flat_rel l s w -> keys_ok s = true ->
    key_ok (MainK (norm x)) = true -> key_ok (SubK x (norm a)) = true ->
    sim (exec_deposit_frozen miners s a x m) (gexec_deposit_frozen flat fg fp miners w a x m).
  Proof.
    intros miners s w a x m R K Hx Hs. rewrite exec_deposit_frozen_then, gexec_deposit_frozen_then.
    destruct (bytes_eqb a x); [split; [reflexivity|exact R]|].
    apply sim_then; [exact R|apply sim_exec_issue; assumption|]. intros s1 w1 I R1.
    apply sim_exec_deposit_frozen_inner; [exact R1| |exact Hs].
    exact (step_to_keys_ok miners s (OExecIssueCoins x m) s1 ROk K I).
  Qed.

  Lemma sim_genesis_init_exec : forall s w a m x,
    flat_rel l s w -> keys_ok s = true ->
    key_ok (MainK (norm x)) = true -> key_ok (SubK x (norm a)) = true ->
    sim (genesis_init_exec s a m x) (ggenesis_init_exec flat fg fp w a m x).
  Proof.
    intros s w a m x R K Hx Hs. rewrite genesis_init_exec_then, ggenesis_init_exec_then.
    apply sim_then; [exact R|apply sim_genesis_init; assumption|]. intros s1 w1 G R1.
    apply sim_exec_deposit; [exact R1|exact (step_to_keys_ok [] s (OGenesisInit x m) s1 ROk K G)|exact Hs].
  Qed.

  Theorem fstep_sim : forall miners s w o,
    flat_rel l s w -> keys_ok s = true -> op_keys_ok o = true ->
    sim (step miners s o) (fstep l miners w o).
  Proof.
    intros miners s w o R K G. unfold fstep. unfold op_keys_ok in G.
    (* one hypothesis per key the operation touches *)
    destruct o; cbn [step gstep]; cbn [touched forallb qkey] in G;
      repeat (apply andb_true_iff in G as [? G]).
    - apply sim_transfer; assumption.
    - apply sim_transfer_to_exec; assumption.
    - apply sim_transfer_withdraw; assumption.
    - unfold exec_frozen, gexec_frozen. rewrite (rel_load_sub s w a x R) by assumption.
      sim_ifs. eapply (rel_save_sub s _ _ a x); (eassumption || reflexivity).
    - unfold exec_active, gexec_active. rewrite (rel_load_sub s w a x R) by assumption.
      sim_ifs. eapply (rel_save_sub s _ _ a x); (eassumption || reflexivity).
    - unfold exec_transfer, gexec_transfer.
      rewrite (rel_load_sub s w from x R), (rel_load_sub s w to x R) by assumption. sim_ifs.
      eapply (rel_save_sub s _ _ to x); [exact K| |assumption|reflexivity].
      eapply (rel_save_sub s _ _ from x); (eassumption || reflexivity).
    - unfold exec_transfer_frozen, gexec_transfer_frozen.
      rewrite (rel_load_sub s w from x R), (rel_load_sub s w to x R) by assumption. sim_ifs.
      eapply (rel_save_sub s _ _ to x); [exact K| |assumption|reflexivity].
      eapply (rel_save_sub s _ _ from x); (eassumption || reflexivity).
    - apply sim_exec_deposit; assumption.
    - apply sim_exec_withdraw; assumption.
    - apply sim_exec_deposit_frozen; assumption.
    - apply sim_exec_issue; assumption.
    - apply sim_deposit_balance; assumption.
    - unfold burn, gburn. rewrite (rel_load_main s w a R) by assumption. sim_ifs.
      eapply (rel_save_main s _ _ a); (eassumption || reflexivity).
    - apply sim_genesis_init; assumption.
    - apply sim_genesis_init_exec; assumption.
  Qed.

End Sim.
