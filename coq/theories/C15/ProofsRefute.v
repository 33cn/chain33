(** C15 — corollaries, refutation witnesses (the known findings) and
    non-vacuity examples. *)
From Coq Require Import List ZArith NArith Bool Lia String.
From C33 Require Import Lib.Harness C15.Model C15.Spec C15.ProofsBase C15.Proofs.
Import ListNotations.
Open Scope Z_scope.

Lemma invariants_partial : forall miners s ops,
  ledger_ok s = true -> hist_guard s ops = true ->
  let s' := run miners s ops in
  ledger_ok s' = true /\
  main_total s' = main_total s + deltas miners main_delta s ops /\
  sub_total s' = sub_total s + deltas miners sub_delta s ops /\
  all_steps good_step miners s ops.
Proof.
  intros miners s ops Hs G. destruct (history_invariants miners ops s Hs G) as (L & W & A).
  cbv zeta. split; [exact L|]. split; [|split; [|exact A]].
  - rewrite <- (deltas_ext miners _ _ gdelta_main). apply W.
  - rewrite <- (deltas_ext miners _ _ gdelta_sub). apply W.
Qed.

Lemma weighted_sums_partial : forall miners s ops cm cf cs,
  ledger_ok s = true -> hist_guard s ops = true ->
  wsum (lw cm cf cs) (run miners s ops)
  = wsum (lw cm cf cs) s + deltas miners (gdelta cm cs) s ops.
Proof.
  intros miners s ops cm cf cs Hs G.
  destruct (history_invariants miners ops s Hs G) as (_ & W & _). apply W.
Qed.

Lemma exec_consistency_partial : forall miners e s ops,
  ledger_ok s = true -> hist_guard s ops = true ->
  gap e (run miners s ops) = gap e s + deltas miners (gap_delta e) s ops /\
  (forallb (fun o => gap_delta e o =? 0) ops = true -> gap e (run miners s ops) = gap e s).
Proof.
  intros miners e s ops Hs G.
  assert (gap e (run miners s ops) = gap e s + deltas miners (gap_delta e) s ops) as H
    by (unfold gap, gap_delta; apply weighted_sums_partial; assumption).
  split; [exact H|]. intro Z. rewrite H, deltas_zero by exact Z. lia.
Qed.

(** spellings of the HOLDER address that normalise alike read one account *)
Lemma same_account_partial : forall s a a' x,
  norm a = norm a' ->
  answer s (QMain a) = answer s (QMain a') /\ answer s (QSub a x) = answer s (QSub a' x).
Proof.
  intros s a a' x H. unfold answer, load_main, load_sub. rewrite H.
  split.
  - destruct (get (MainK (norm a')) s); reflexivity.
  - destruct (get (SubK x (norm a')) s); reflexivity.
Qed.

Definition w_lo : bytes := bs "0x43b72b02a359bf1a131210e974747368d064f8d4".
Definition w_up : bytes := bs "0x43B72B02A359BF1A131210E974747368D064F8D4".
Definition w_mix : bytes := bs "0x43b72B02a359Bf1A131210e974747368D064f8d4".
Definition w_ex : bytes := bs "1GaHYpWmqAJsqRwrpoNcB8VvgKtSwjcHqt".
Definition w_u1 : bytes := bs "14ZTV2wHG3uPHnA5cBJmNxAxxvbzS7Z5mE".
Definition w_u2 : bytes := bs "1EbDHAXpoiewjPLX9uqoz38HsKqMXayZrF".
Definition w_hx0 : bytes := bs "0x8f7e6d5c4b3a29180706f5e4d3c2b1a098765432".
Definition w_hx1 : bytes := bs "0x8F7E6D5C4B3A29180706F5E4D3C2B1A098765432".
Definition w_miner : bytes := bs "16htvcBNSEA7fZhAdLJphDwQRQJaHpyHTp".

(** finding 1: supply is conserved by every history (no guard) *)
Definition conservation_full : Prop :=
  forall miners s ops, ledger_ok s = true ->
  main_total (run miners s ops) = main_total s + deltas miners main_delta s ops /\
  sub_total (run miners s ops) = sub_total s + deltas miners sub_delta s ops.

Definition alias_witness : list op :=
  [OGenesisInitExec w_lo 1000 w_ex; OExecTransfer w_lo w_up w_ex 100].

(** the ledgers the alias witnesses pass through: executor [w_ex] was granted
    1000, and holder [w_lo] has balance [b] in its sub-ledger.  Each step is
    evaluated once; the totals are read off these ledgers. *)
Definition alias_ledger (b : Z) : ledger :=
  [(MainK w_ex, mkAcct w_ex 1000 0); (SubK w_ex w_lo, mkAcct w_lo b 0)].

Lemma alias_grant :
  step [] [] (OGenesisInitExec w_lo 1000 w_ex) = (alias_ledger 1000, ROk).
Proof. vm_compute. reflexivity. Qed.

Lemma alias_transfer :
  step [] (alias_ledger 1000) (OExecTransfer w_lo w_up w_ex 100) = (alias_ledger 1100, ROk).
Proof. vm_compute. reflexivity. Qed.

(* 1000 granted, the sub-ledger holds 1100 *)
Example alias_witness_value :
  sub_total (run [] [] alias_witness) = 1100 /\ deltas [] sub_delta [] alias_witness = 1000 /\
  headroom [] alias_witness = true.
Proof.
  unfold alias_witness, run. cbn [fold_left deltas].
  rewrite alias_grant. cbn [fst]. rewrite alias_transfer. repeat split; reflexivity.
Qed.

Lemma conservation_refuted : ~ conservation_full.
Proof.
  intro H. destruct (H [] [] alias_witness eq_refl) as [_ H2].
  destruct alias_witness_value as (V & D & _). rewrite V, D in H2. discriminate H2.
Qed.

Example alias_frozen_witness_value :
  let ops := [OGenesisInitExec w_lo 1000 w_ex; OExecFrozen w_mix w_ex 400;
              OExecTransferFrozen w_up w_lo w_ex 300] in
  sub_total (run [] [] ops) = 1300 /\ deltas [] sub_delta [] ops = 1000.
Proof.
  unfold run. cbn [fold_left deltas]. rewrite alias_grant. vm_compute. split; reflexivity.
Qed.

(** finding 2: an operation that does not succeed changes nothing — false for
    the two operations that panic after their first save *)
Definition failed_op_atomic_full : Prop :=
  forall miners s o, ledger_ok s = true ->
  snd (step miners s o) <> ROk -> fst (step miners s o) = s.

Lemma failed_op_atomic_refuted : ~ failed_op_atomic_full.
Proof.
  intro H. specialize (H [] [] (OGenesisInitExec w_u1 0 w_ex) eq_refl).
  vm_compute in H. assert (RPanic <> ROk) as Hne by discriminate.
  specialize (H Hne). discriminate.
Qed.

Example withdraw_panic_witness :
  let s := run [] [] [OGenesisInit w_u1 max_token; OGenesisInitExec w_u1 1000 w_ex] in
  snd (step [] s (OTransferWithdraw w_u1 w_ex 10)) = RPanic /\
  sub_total (fst (step [] s (OTransferWithdraw w_u1 w_ex 10))) = 990 /\ sub_total s = 1000.
Proof. vm_compute. repeat split; reflexivity. Qed.

(** findings 3 and 5: nothing ever becomes negative (no guard) *)
Definition nonneg_full : Prop :=
  forall miners s ops, ledger_ok s = true -> ledger_ok (run miners s ops) = true.

Lemma nonneg_refuted : ~ nonneg_full.
Proof.
  intro H. specialize (H [] [] [OGenesisInit w_u1 (-5)] eq_refl).
  vm_compute in H. discriminate.
Qed.

(** [n] equal deposits in closed form, so that the 93 steps of the witness
    below need not be run *)
Lemma deposits_again : forall miners a x m n u,
  bytes_eqb a x = false -> check_amount m = true ->
  run miners [(SubK x (norm a), mkAcct a (wrap64 u) 0)] (repeat (OExecDeposit a x m) n)
  = [(SubK x (norm a), mkAcct a (wrap64 (u + Z.of_nat n * m)) 0)].
Proof.
  intros miners a x m n u E C. revert u. induction n as [|n IH]; intro u.
  - simpl. rewrite Z.add_0_r. reflexivity.
  - cbn [repeat]. rewrite run_cons. cbn [step]. unfold exec_deposit, load_sub, save_sub.
    rewrite E, C. cbn [negb get fst put]. rewrite key_eqb_refl. cbn [set_bal a_addr a_bal].
    rewrite key_eqb_refl, wrap64_add_l. etransitivity; [exact (IH (u + m))|].
    rewrite Nat2Z.inj_succ. do 4 f_equal. lia.
Qed.

Lemma deposits_run : forall miners a x m n,
  bytes_eqb a x = false -> check_amount m = true ->
  run miners [] (repeat (OExecDeposit a x m) (S n))
  = [(SubK x (norm a), mkAcct a (wrap64 (Z.of_nat (S n) * m)) 0)].
Proof.
  intros miners a x m n E C. cbn [repeat]. rewrite run_cons. cbn [step].
  unfold exec_deposit, load_sub, save_sub. rewrite E, C. cbn [negb get put a_bal].
  etransitivity; [exact (deposits_again miners a x m n (0 + m) E C)|].
  rewrite Nat2Z.inj_succ. do 4 f_equal. lia.
Qed.

(* 93 raw ExecDeposit calls wrap the int64 balance of one sub-account:
   93 * (1e17 - 1) > 2^63 *)
Example sub_overflow_witness :
  let ops := repeat (OExecDeposit w_u1 w_ex (max_amount - 1)) 93 in
  forallb op_guard ops = true /\ ledger_ok (run [] [] ops) = false /\
  answer (run [] [] ops) (QSub w_u1 w_ex) = (-9146744073709551709, 0).
Proof.
  cbv zeta. rewrite deposits_run by reflexivity. vm_compute. repeat split; reflexivity.
Qed.

(** finding 4: case variants of one address are one account — false in the
    executor position *)
Definition same_account_full : Prop :=
  forall s a a' x x', norm a = norm a' -> norm x = norm x' ->
  answer s (QSub a x) = answer s (QSub a' x').

Lemma same_account_refuted : ~ same_account_full.
Proof.
  intro H.
  specialize (H (run [] [] [OGenesisInitExec w_u1 1000 w_hx0]) w_u1 w_u1 w_hx0 w_hx1
                eq_refl eq_refl).
  vm_compute in H. discriminate.
Qed.

(** non-vacuity: a history over several spellings that satisfies every guard
    and in which every operation succeeds *)
Definition plain_history : list op :=
  [OGenesisInit w_u1 1000; OTransfer w_u1 w_u2 300; OTransferToExec w_u2 w_miner 200;
   OExecFrozen w_u2 w_miner 150; OExecTransferFrozen w_u2 w_u1 w_miner 100;
   OExecActive w_u2 w_miner 50; OTransferWithdraw w_u1 w_miner 100;
   OExecDepositFrozen w_u1 w_miner 77; OMint w_lo 5; OBurn w_up 3; OTransfer w_mix w_u1 1;
   OExecTransfer w_u2 w_lo w_miner 20; OExecTransfer w_up w_u1 w_miner 5].

(* the history is run once; the totals are read off its final ledger *)
Definition plain_final : ledger :=
  [(MainK w_u1, mkAcct w_u1 801 0); (MainK w_u2, mkAcct w_u2 100 0);
   (MainK w_miner, mkAcct w_miner 177 0); (SubK w_miner w_u2, mkAcct w_u2 80 0);
   (SubK w_miner w_u1, mkAcct w_u1 5 77); (MainK w_lo, mkAcct w_lo 1 0);
   (SubK w_miner w_lo, mkAcct w_lo 15 0)].

Lemma plain_history_run : run [w_miner] [] plain_history = plain_final.
Proof. vm_compute. reflexivity. Qed.

Example plain_history_guard :
  hist_guard [] plain_history = true /\
  forallb (fun o => gap_delta w_miner o =? 0) plain_history = true /\
  deltas [w_miner] main_delta [] plain_history = 1079 /\
  main_total (run [w_miner] [] plain_history) = 1079 /\
  sub_total (run [w_miner] [] plain_history) = 177 /\
  gap w_miner (run [w_miner] [] plain_history) = 0.
Proof.
  assert (hist_guard [] plain_history = true) as G by (vm_compute; reflexivity).
  (* the granted amount is what the conservation theorem makes of the final ledger *)
  destruct (invariants_partial [w_miner] [] plain_history eq_refl G) as (_ & M & _).
  rewrite plain_history_run in *. split; [exact G|].
  split; [vm_compute; reflexivity|]. split; [|vm_compute; repeat split; reflexivity].
  apply (Z.add_reg_l (main_total [])). rewrite <- M. vm_compute. reflexivity.
Qed.

(* a non-empty well-formed start state with head-room *)
Example start_state_guard :
  let s := run [w_miner] [] plain_history in
  ledger_ok s = true /\ hist_guard s [OExecTransfer w_lo w_u2 w_miner 7; OGenesisInit w_up 5] = true.
Proof. rewrite plain_history_run. vm_compute. split; reflexivity. Qed.

Example norm_examples :
  norm w_up = w_lo /\ norm w_mix = w_lo /\ norm w_u1 = w_u1 /\ norm w_hx1 = w_hx0.
Proof. vm_compute. repeat split; reflexivity. Qed.
