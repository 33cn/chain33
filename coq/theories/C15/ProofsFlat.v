(** C15 — ledgers of different (execer, symbol) on one store share nothing;
    the frame theorem [gstep_frame] of a step over an abstract store. *)
From Coq Require Import List ZArith NArith Bool Lia String.
From C33 Require Import Lib.Harness C15.Model C15.ModelFlat C15.ProofsBase.
Import ListNotations.
Open Scope Z_scope.

Lemma new_account_db_ok : forall l, new_account_db l = NOk <-> lid_ok l = true.
Proof.
  intros [e s]. unfold new_account_db, lid_ok. simpl.
  destruct (has_dash e); simpl; [split; discriminate|].
  destruct (has_dash s); simpl; split; try discriminate; reflexivity.
Qed.

Lemma split_at_sep : forall c a a' b b',
  existsb (N.eqb c) a = false -> existsb (N.eqb c) a' = false ->
  a ++ c :: b = a' ++ c :: b' -> a = a' /\ b = b'.
Proof.
  intro c. induction a as [|d a IH]; intros a' b b' Ha Ha' E.
  - destruct a' as [|d' a']; simpl in E.
    + injection E as E. split; [reflexivity|exact E].
    + injection E as E1 E2. subst d'. simpl in Ha'. rewrite N.eqb_refl in Ha'. discriminate Ha'.
  - destruct a' as [|d' a']; simpl in E.
    + injection E as E1 E2. subst d. simpl in Ha. rewrite N.eqb_refl in Ha. discriminate Ha.
    + injection E as E1 E2. subst d'. simpl in Ha, Ha'.
      apply orb_false_iff in Ha as [_ Ha]. apply orb_false_iff in Ha' as [_ Ha'].
      destruct (IH a' b b' Ha Ha' E2) as [-> ->]. split; reflexivity.
Qed.

Theorem flat_key_lid_inj : forall l1 l2 k1 k2,
  lid_ok l1 = true -> lid_ok l2 = true ->
  flat_key l1 k1 = flat_key l2 k2 -> l1 = l2 /\ key_rest k1 = key_rest k2.
Proof.
  intros [e1 s1] [e2 s2] k1 k2 H1 H2 E.
  unfold lid_ok in H1, H2. simpl in H1, H2.
  apply andb_true_iff in H1 as [He1 Hs1]. apply andb_true_iff in H2 as [He2 Hs2].
  apply negb_true_iff in He1, Hs1, He2, Hs2.
  unfold flat_key, lid_prefix in E. simpl fst in E. simpl snd in E.
  rewrite <- !app_assoc in E. apply app_inv_head in E.
  change ([dash] ++ s1 ++ [dash] ++ key_rest k1) with (dash :: (s1 ++ dash :: key_rest k1)) in E.
  change ([dash] ++ s2 ++ [dash] ++ key_rest k2) with (dash :: (s2 ++ dash :: key_rest k2)) in E.
  destruct (split_at_sep dash _ _ _ _ He1 He2 E) as [-> E'].
  destruct (split_at_sep dash _ _ _ _ Hs1 Hs2 E') as [-> E''].
  split; [reflexivity|exact E''].
Qed.

(** the check of NewAccountDB is needed: with a '-' two ledgers share keys *)
Example dash_collision :
  let l1 := (bs "a-b"%string, bs "c"%string) in let l2 := (bs "a"%string, bs "b-c"%string) in
  l1 <> l2 /\ new_account_db l1 = NExecName /\ new_account_db l2 = NSymbol /\
  forall k, flat_key l1 k = flat_key l2 k.
Proof.
  simpl. split; [discriminate|]. split; [reflexivity|]. split; [reflexivity|].
  intro k. reflexivity.
Qed.

Lemma fget_fput_same : forall k r w, fget k (fput k r w) = Some r.
Proof.
  intros k r w. induction w as [|[k' r'] tl IH]; simpl.
  - rewrite bytes_eqb_refl. reflexivity.
  - destruct (bytes_eqb k k') eqn:E; simpl.
    + rewrite bytes_eqb_refl. reflexivity.
    + rewrite E. exact IH.
Qed.

Lemma fget_fput_other : forall k k' r w, k <> k' -> fget k' (fput k r w) = fget k' w.
Proof.
  intros k k' r w Hne. induction w as [|[k0 r0] tl IH]; simpl.
  - assert (bytes_eqb k' k = false) as -> by (apply bytes_eqb_neq; congruence). reflexivity.
  - destruct (bytes_eqb k k0) eqn:E; simpl.
    + apply bytes_eqb_eq in E. subst k0.
      assert (bytes_eqb k' k = false) as -> by (apply bytes_eqb_neq; congruence). reflexivity.
    + destruct (bytes_eqb k' k0); [reflexivity|exact IH].
Qed.

Section Frame.
  Variable St : Type.
  Variable sget : key -> St -> option acct.
  Variable sput : key -> acct -> St -> St.

  Lemma gtransfer_to_exec_then : forall s f t m,
    gtransfer_to_exec St sget sput s f t m
    = then_ s (gtransfer St sget sput s f t m) (fun s1 => gexec_deposit St sget sput s1 f t m) true.
  Proof. reflexivity. Qed.

  Lemma gtransfer_withdraw_then : forall s f t m,
    gtransfer_withdraw St sget sput s f t m =
    match gcheck_transfer St sget s t m with
    | ROk => then_ s (gexec_withdraw St sget sput s t f m)
                     (fun s1 => gtransfer St sget sput s1 t f m) true
    | e => (s, e)
    end.
  Proof. reflexivity. Qed.

  Lemma gexec_deposit_frozen_then : forall miners s a x m,
    gexec_deposit_frozen St sget sput miners s a x m =
    if bytes_eqb a x then (s, ESameToRecv) else
    then_ s (gexec_issue St sget sput miners s x m)
            (fun s1 => gexec_deposit_frozen_inner St sget sput s1 a x m) false.
  Proof. reflexivity. Qed.

  Lemma ggenesis_init_exec_then : forall s a m x,
    ggenesis_init_exec St sget sput s a m x
    = then_ s (ggenesis_init St sget sput s x m) (fun s1 => gexec_deposit St sget sput s1 a x m) true.
  Proof. reflexivity. Qed.

  (** an operation changes its store through the two save functions only: a
      reflexive, transitive relation that every save respects holds between
      the state before and the state after a step *)
  Variable P : St -> St -> Prop.
  Hypothesis P_refl : forall s, P s s.
  Hypothesis P_trans : forall a b c, P a b -> P b c -> P a c.
  Hypothesis P_main : forall s r, P s (gsave_main St sput s r).
  Hypothesis P_sub : forall s x r, P s (gsave_sub St sput s x r).

  Local Notation gs := (gstep St sget sput).

  Ltac fr_ifs :=
    repeat match goal with
    | |- context [if ?c then _ else _] => destruct c
    | |- context [match safe_add ?a ?b with _ => _ end] => destruct (safe_add a b)
    end; simpl;
    repeat first [ apply P_refl
                 | eapply P_trans; [|first [apply P_main | apply P_sub]] ].

  Lemma fr_transfer : forall s f t m, P s (fst (gtransfer St sget sput s f t m)).
  Proof. intros. unfold gtransfer. fr_ifs. Qed.
  Lemma fr_deposit_balance : forall s x m, P s (fst (gdeposit_balance St sget sput s x m)).
  Proof. intros. unfold gdeposit_balance. fr_ifs. Qed.
  Lemma fr_genesis_init : forall s a m, P s (fst (ggenesis_init St sget sput s a m)).
  Proof. intros. unfold ggenesis_init. fr_ifs. Qed.
  Lemma fr_exec_deposit : forall s a x m, P s (fst (gexec_deposit St sget sput s a x m)).
  Proof. intros. unfold gexec_deposit. fr_ifs. Qed.
  Lemma fr_exec_withdraw : forall s x a m, P s (fst (gexec_withdraw St sget sput s x a m)).
  Proof. intros. unfold gexec_withdraw. fr_ifs. Qed.
  Lemma fr_exec_deposit_frozen_inner : forall s a x m,
    P s (fst (gexec_deposit_frozen_inner St sget sput s a x m)).
  Proof. intros. unfold gexec_deposit_frozen_inner. fr_ifs. Qed.
  Lemma fr_exec_issue : forall miners s x m, P s (fst (gexec_issue St sget sput miners s x m)).
  Proof.
    intros. unfold gexec_issue. destruct (existsb (bytes_eqb x) miners); [|apply P_refl].
    apply fr_deposit_balance.
  Qed.

  Lemma fr_then : forall s p q panic,
    P s (fst p) -> (forall s1, P s1 (fst (q s1))) -> P s (fst (then_ s p q panic)).
  Proof.
    intros s [s1 r1] q panic H1 H2. unfold then_. destruct r1; try apply P_refl.
    specialize (H2 s1). destruct (q s1) as [s2 r2]. destruct r2; try exact H1.
    exact (P_trans _ _ _ H1 H2).
  Qed.

  Theorem gstep_frame : forall miners s o, P s (fst (gs miners s o)).
  Proof.
    intros miners s o. destruct o; cbn [gstep].
    - apply fr_transfer.
    - rewrite gtransfer_to_exec_then.
      apply fr_then; [apply fr_transfer|intro; apply fr_exec_deposit].
    - rewrite gtransfer_withdraw_then.
      destruct (gcheck_transfer St sget s to amt); try apply P_refl.
      apply fr_then; [apply fr_exec_withdraw|intro; apply fr_transfer].
    - unfold gexec_frozen. fr_ifs.
    - unfold gexec_active. fr_ifs.
    - unfold gexec_transfer. fr_ifs.
    - unfold gexec_transfer_frozen. fr_ifs.
    - apply fr_exec_deposit.
    - apply fr_exec_withdraw.
    - rewrite gexec_deposit_frozen_then. destruct (bytes_eqb a x); [apply P_refl|].
      apply fr_then; [apply fr_exec_issue|intro; apply fr_exec_deposit_frozen_inner].
    - apply fr_exec_issue.
    - apply fr_deposit_balance.
    - unfold gburn. fr_ifs.
    - apply fr_genesis_init.
    - rewrite ggenesis_init_exec_then.
      apply fr_then; [apply fr_genesis_init|intro; apply fr_exec_deposit].
  Qed.
End Frame.

Definition outside (l : lid) (fk : bytes) : Prop := forall k, fk <> flat_key l k.

Definition same_outside (l : lid) (w w' : flat) : Prop :=
  forall fk, outside l fk -> fget fk w' = fget fk w.

Theorem fstep_frame : forall l miners w o, same_outside l w (fst (fstep l miners w o)).
Proof.
  intros l miners w o. unfold fstep.
  apply (gstep_frame flat (fun k => fget (flat_key l k)) (fun k => fput (flat_key l k))
           (same_outside l)).
  - intros s fk _. reflexivity.
  - intros a b c H1 H2 fk Ho. rewrite (H2 fk Ho). apply H1. exact Ho.
  - intros s r fk Ho. apply fget_fput_other. intro E. symmetry in E. exact (Ho _ E).
  - intros s x r fk Ho. apply fget_fput_other. intro E. symmetry in E. exact (Ho _ E).
Qed.

Lemma other_ledger_outside : forall l l' k',
  lid_ok l = true -> lid_ok l' = true -> l <> l' -> outside l (flat_key l' k').
Proof.
  intros l l' k' H H' Hne k E.
  destruct (flat_key_lid_inj l' l k' k H' H E) as [El _]. congruence.
Qed.

Theorem ledgers_independent : forall l l' miners w o,
  lid_ok l = true -> lid_ok l' = true -> l <> l' ->
  (forall k', fget (flat_key l' k') (fst (fstep l miners w o)) = fget (flat_key l' k') w) /\
  (forall q, fanswer l' (fst (fstep l miners w o)) q = fanswer l' w q).
Proof.
  intros l l' miners w o H H' Hne.
  assert (forall k', fget (flat_key l' k') (fst (fstep l miners w o)) = fget (flat_key l' k') w) as F.
  { intro k'. apply fstep_frame. apply other_ledger_outside; assumption. }
  split; [exact F|].
  intro q. unfold fanswer, ganswer, gload_main, gload_sub. destruct q; rewrite F; reflexivity.
Qed.

Theorem history_independent : forall l' miners h w,
  lid_ok l' = true ->
  forallb (fun lo => lid_ok (fst lo)) h = true ->
  Forall (fun lo => fst lo <> l') h ->
  (forall k', fget (flat_key l' k') (frun miners w h) = fget (flat_key l' k') w) /\
  (forall q, fanswer l' (frun miners w h) q = fanswer l' w q).
Proof.
  intros l' miners h. induction h as [|[l o] tl IH]; intros w H' Hok Hne.
  - split; reflexivity.
  - simpl in Hok. apply andb_true_iff in Hok as [Hl Hok].
    inversion Hne as [|x y Hx Hy]. subst. simpl in Hx.
    change (frun miners w ((l, o) :: tl)) with (frun miners (fst (fstep l miners w o)) tl).
    destruct (IH (fst (fstep l miners w o)) H' Hok Hy) as [I1 I2].
    destruct (ledgers_independent l l' miners w o Hl H' Hx) as (F1 & F2).
    split.
    + intro k'. rewrite I1. apply F1.
    + intro q. rewrite I2. apply F2.
Qed.
