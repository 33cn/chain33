(** C15 — every operation of the ledger: a call that does not succeed returns
    an error value and changes nothing; a successful call keeps the ledger
    invariant and moves every linear weighted sum by the tabulated amount.
    Then one step, whole histories, and [error_changes_nothing]. *)
From Coq Require Import List ZArith NArith Bool Lia.
From C33 Require Import Lib.Harness C15.Model C15.Spec C15.ModelReceipt C15.ProofsBase.
Import ListNotations.
Open Scope Z_scope.

Definition dfun : Type := (bytes -> Z) -> (bytes -> Z) -> Z.

Definition okfacts (s : ledger) (p : ledger * res) (d : dfun) : Prop :=
  snd p = ROk ->
  ledger_ok (fst p) = true /\
  forall cm cf cs, wsum (lw cm cf cs) (fst p) = wsum (lw cm cf cs) s + d cm cs.

(** [pre] (invariant and head-room of the state the call runs in) is needed
    for the successful case only: the primitives fail atomically in any state *)
Definition pfacts (pre : Prop) (s : ledger) (p : ledger * res) (d : dfun) : Prop :=
  (snd p <> ROk -> fst p = s) /\ snd p <> RPanic /\ (pre -> okfacts s p d).

Lemma pfacts_fail : forall pre s e d, e <> ROk -> e <> RPanic -> pfacts pre s (s, e) d.
Proof.
  intros pre s e d H1 H2. split; [reflexivity|]. split; [exact H2|].
  intros _ H. contradiction.
Qed.

Ltac pf_fail := apply pfacts_fail; discriminate.

Lemma pfacts_ok : forall (pre : Prop) s s' d, (pre -> okfacts s (s', ROk) d) -> pfacts pre s (s', ROk) d.
Proof.
  intros pre s s' d H. split; [intro X; contradiction|]. split; [discriminate|exact H].
Qed.

Lemma pfacts_okfacts : forall (pre : Prop) s p d, pfacts pre s p d -> pre -> okfacts s p d.
Proof. intros pre s p d (_ & _ & H). exact H. Qed.

Lemma pfacts_error : forall pre s p d,
  pfacts pre s p d -> is_error (snd p) = true -> fst p = s.
Proof. intros pre s p d (H & _) E. apply H. intro X. rewrite X in E. discriminate. Qed.

Lemma pfacts_pre : forall (pre : Prop) s p d, pfacts pre s p d -> pre -> pfacts True s p d.
Proof. intros pre s p d (H1 & H2 & H3) Hp. split; [exact H1|]. split; [exact H2|]. intros _. exact (H3 Hp). Qed.

Lemma okfacts_totals : forall s s' d,
  okfacts s (s', ROk) d ->
  ledger_ok s' = true /\ main_total s' = main_total s + d c1 c0 /\
  sub_total s' = sub_total s + d c0 c1.
Proof.
  intros s s' d H. destruct (H eq_refl) as [H1 H2]. split; [exact H1|]. split; apply H2.
Qed.

Lemma okfacts_seq : forall s s1 p (d1 d2 : dfun),
  okfacts s (s1, ROk) d1 -> okfacts s1 p d2 ->
  okfacts s p (fun cm cs => d1 cm cs + d2 cm cs).
Proof.
  intros s s1 p d1 d2 H1 H2 Hok.
  destruct (H1 eq_refl) as [_ W1]. destruct (H2 Hok) as [L2 W2]. simpl in *.
  split; [exact L2|]. intros cm cf cs. rewrite W2, W1. lia.
Qed.

Lemma okfacts_then : forall s p q panic (d1 d2 : dfun),
  okfacts s p d1 ->
  (forall s1, p = (s1, ROk) -> ledger_ok s1 = true ->
     main_total s1 = main_total s + d1 c1 c0 -> sub_total s1 = sub_total s + d1 c0 c1 ->
     okfacts s1 (q s1) d2) ->
  okfacts s (then_ s p q panic) (fun cm cs => d1 cm cs + d2 cm cs).
Proof.
  intros s p q panic d1 d2 F1 F2 Hok.
  destruct (then_ s p q panic) as [s' r] eqn:T. simpl in Hok. subst r.
  apply then_ok_inv in T as (s1 & P & Q). rewrite P in F1.
  destruct (okfacts_totals _ _ _ F1) as (L1 & M1 & S1).
  specialize (F2 s1 P L1 M1 S1). rewrite Q in F2. exact (okfacts_seq _ _ _ _ _ F1 F2 eq_refl).
Qed.

(** [then_] keeps what the first part wrote when the second fails, so the
    composite fails atomically only if the second part cannot fail there *)
Lemma pfacts_then : forall (pre : Prop) s p q panic (d1 d : dfun),
  pfacts pre s p d1 -> pre ->
  (forall s1, p = (s1, ROk) -> ledger_ok s1 = true ->
     main_total s1 = main_total s + d1 c1 c0 -> sub_total s1 = sub_total s + d1 c0 c1 ->
     snd (q s1) = ROk) ->
  okfacts s (then_ s p q panic) d -> pfacts True s (then_ s p q panic) d.
Proof.
  intros pre s p q panic d1 d F Hp H2 Fo. pose proof (pfacts_okfacts _ _ _ _ F Hp) as F1.
  destruct F as (_ & Fp & _). destruct p as [s1 r1]. unfold then_ in *. simpl in Fp.
  destruct r1; try (apply pfacts_fail; [discriminate|exact Fp]).
  destruct (okfacts_totals _ _ _ F1) as (L1 & M1 & S1).
  specialize (H2 s1 eq_refl L1 M1 S1). destruct (q s1) as [s2 r2]. simpl in H2. subst r2.
  apply pfacts_ok. intros _. exact Fo.
Qed.

Lemma max_token_lt : max_token < two63. Proof. unfold max_token, two63. lia. Qed.
Lemma max_amount_lt : max_amount < max_token. Proof. unfold max_token, max_amount. lia. Qed.

Lemma save_main_facts : forall s a nb,
  ledger_ok s = true -> 0 <= nb ->
  okfacts s (save_main s (set_bal (load_main s a) nb), ROk)
    (fun cm _ => cm (norm a) * (nb - a_bal (load_main s a))).
Proof.
  intros s a nb Hs Hb _. destruct (load_main_ok s a Hs) as (Hn & _ & Hf).
  unfold save_main. cbn [set_bal a_addr fst]. rewrite Hn. split.
  - apply forallb_put; [exact Hs|]. apply rec_okb_saved; assumption.
  - intros cm cf cs. rewrite (wsum_put _ _ _ _ a) by (simpl; lia).
    change (load_key s (MainK (norm a)) a) with (load_main s a). simpl. lia.
Qed.

Lemma save_sub_facts : forall s a x nb nf,
  ledger_ok s = true -> 0 <= nb -> 0 <= nf ->
  okfacts s (save_sub s x (set_bf (load_sub s a x) nb nf), ROk)
    (fun _ cs => cs x * (nb + nf - val (load_sub s a x))).
Proof.
  intros s a x nb nf Hs Hb Hf _. destruct (load_sub_ok s a x Hs) as (Hn & _ & _).
  unfold save_sub. cbn [set_bf a_addr fst]. rewrite Hn. split.
  - apply forallb_put; [exact Hs|]. apply rec_okb_saved; assumption.
  - intros cm cf cs. rewrite (wsum_put _ _ _ _ a) by (unfold lw, val; simpl; lia).
    change (load_key s (SubK x (norm a)) a) with (load_sub s a x). unfold lw, val. simpl. lia.
Qed.

Lemma save_main2_facts : forall s f t bf bt,
  ledger_ok s = true -> norm f <> norm t -> 0 <= bf -> 0 <= bt ->
  okfacts s (save_main (save_main s (set_bal (load_main s f) bf)) (set_bal (load_main s t) bt), ROk)
    (fun cm _ => cm (norm f) * (bf - a_bal (load_main s f))
                 + cm (norm t) * (bt - a_bal (load_main s t))).
Proof.
  intros s f t bf bt Hs Hne Hbf Hbt.
  pose proof (save_main_facts s f bf Hs Hbf) as F1.
  set (s1 := save_main s (set_bal (load_main s f) bf)) in *.
  assert (load_main s1 t = load_main s t) as <-.
  { apply load_main_save_main_other. simpl. destruct (load_main_ok s f Hs) as [-> _]. exact Hne. }
  apply (okfacts_seq _ _ _ _ _ F1). apply save_main_facts; [apply (F1 eq_refl)|exact Hbt].
Qed.

Lemma save_sub2_facts : forall s f t x bf ff bt ft,
  ledger_ok s = true -> norm f <> norm t -> 0 <= bf -> 0 <= ff -> 0 <= bt -> 0 <= ft ->
  okfacts s (save_sub (save_sub s x (set_bf (load_sub s f x) bf ff)) x
                      (set_bf (load_sub s t x) bt ft), ROk)
    (fun _ cs => cs x * (bf + ff - val (load_sub s f x))
                 + cs x * (bt + ft - val (load_sub s t x))).
Proof.
  intros s f t x bf ff bt ft Hs Hne Hbf Hff Hbt Hft.
  pose proof (save_sub_facts s f x bf ff Hs Hbf Hff) as F1.
  set (s1 := save_sub s x (set_bf (load_sub s f x) bf ff)) in *.
  assert (load_sub s1 t x = load_sub s t x) as <-.
  { apply load_sub_save_sub_other. simpl. destruct (load_sub_ok s f x Hs) as [-> _]. exact Hne. }
  apply (okfacts_seq _ _ _ _ _ F1). apply save_sub_facts; [apply (F1 eq_refl)|exact Hbt|exact Hft].
Qed.

Lemma okfacts_ext : forall s p (d d' : dfun),
  okfacts s p d -> (forall cm cs, d cm cs = d' cm cs) -> okfacts s p d'.
Proof.
  intros s p d d' H Hd Hok. destruct (H Hok) as [L W]. split; [exact L|].
  intros cm cf cs. rewrite W, Hd. reflexivity.
Qed.

Lemma genesis_init_facts : forall s a m,
  pfacts (ledger_ok s = true /\ main_total s <= max_token /\ 0 <= m < two63)
    s (genesis_init s a m) (fun cm _ => cm (norm a) * m).
Proof.
  intros s a m. unfold genesis_init.
  destruct (safe_add (a_bal (load_main s a)) m) as [nb|] eqn:SA; [|pf_fail].
  apply pfacts_ok. intros (Hs & Hm & Hr).
  destruct (load_main_le s a Hs) as (Hb & Hf & Hle). apply safe_add_some in SA as [-> _]; [|lia|lia].
  eapply okfacts_ext; [apply save_main_facts; [exact Hs|lia]|]. intros; simpl; f_equal; lia.
Qed.

Lemma deposit_balance_facts : forall s x m,
  pfacts (ledger_ok s = true /\ main_total s <= max_token)
    s (deposit_balance s x m) (fun cm _ => cm (norm x) * m).
Proof.
  intros s x m. unfold deposit_balance.
  destruct (check_amount m) eqn:C; simpl; [|pf_fail]. apply check_amount_inv in C.
  destruct (genesis_init_facts s x m) as (H1 & H2 & H3).
  split; [exact H1|]. split; [exact H2|]. intros [Hs Hm]. apply H3.
  pose proof max_token_lt. pose proof max_amount_lt. repeat split; (assumption || lia).
Qed.

Lemma burn_facts : forall s a m,
  pfacts (ledger_ok s = true /\ main_total s <= max_token)
    s (burn s a m) (fun cm _ => - (cm (norm a) * m)).
Proof.
  intros s a m. unfold burn.
  destruct (check_amount m) eqn:C; simpl; [|pf_fail]. apply check_amount_inv in C.
  destruct (a_bal (load_main s a) <? m) eqn:B; [pf_fail|]. apply Z.ltb_ge in B.
  apply pfacts_ok. intros [Hs Hm].
  destruct (load_main_le s a Hs) as (Hb & Hf & Hle). pose proof max_token_lt.
  rewrite wrap64_id by lia.
  eapply okfacts_ext; [apply save_main_facts; [exact Hs|lia]|]. intros; simpl; lia.
Qed.

(** two spellings that pass the stored-address comparison and the balance
    check of Transfer have different storage keys: with one key both loads
    return the same record, or each an empty one, whose balance 0 is below [m] *)
Lemma transfer_keys_differ : forall s f t m,
  0 < m < max_amount ->
  bytes_eqb (a_addr (load_main s f)) (a_addr (load_main s t)) = false ->
  (0 <=? wrap64 (a_bal (load_main s f) - m)) = true ->
  norm f <> norm t.
Proof.
  intros s f t m Hm E B Heq. unfold load_main in *. rewrite Heq in *.
  destruct (get (MainK (norm t)) s) as [r|].
  - rewrite bytes_eqb_refl in E. discriminate.
  - simpl in B. rewrite wrap64_id in B by (unfold two63, max_amount in *; lia).
    apply Z.leb_le in B. lia.
Qed.

Lemma transfer_facts : forall s f t m,
  pfacts (ledger_ok s = true /\ main_total s <= max_token)
    s (transfer s f t m) (fun cm _ => (cm (norm t) - cm (norm f)) * m).
Proof.
  intros s f t m. unfold transfer.
  destruct (check_amount m) eqn:C; simpl; [|pf_fail]. apply check_amount_inv in C.
  destruct (bytes_eqb (a_addr (load_main s f)) (a_addr (load_main s t))) eqn:E; [pf_fail|].
  destruct (0 <=? wrap64 (a_bal (load_main s f) - m)) eqn:B; [|pf_fail].
  pose proof (transfer_keys_differ s f t m C E B) as Hne.
  destruct (safe_add (a_bal (load_main s t)) m) as [nb|] eqn:SA; [|pf_fail].
  apply pfacts_ok. intros [Hs Hm].
  destruct (load_main_le s f Hs) as (Hbf & Hff & Hlf).
  destruct (load_main_le s t Hs) as (Hbt & Hft & Hlt). pose proof max_token_lt. pose proof max_amount_lt.
  rewrite wrap64_id in * by lia. apply Z.leb_le in B.
  apply safe_add_some in SA as [-> _]; [|lia|lia].
  eapply okfacts_ext; [apply save_main2_facts; [exact Hs|exact Hne|lia|lia]|]. intros; simpl; lia.
Qed.

Lemma transfer_ok_inv : forall s f t m s',
  transfer s f t m = (s', ROk) -> check_amount m = true /\ bytes_eqb f t = false.
Proof.
  intros s f t m s' H. unfold transfer in H.
  destruct (check_amount m) eqn:C; simpl in H; [|discriminate]. split; [reflexivity|].
  destruct (bytes_eqb f t) eqn:E; [|reflexivity]. apply bytes_eqb_eq in E. subst t.
  rewrite bytes_eqb_refl in H. discriminate.
Qed.

Lemma transfer_succeeds : forall s f t m,
  ledger_ok s = true -> main_total s <= max_token ->
  check_amount m = true -> norm f <> norm t -> m <= a_bal (load_main s f) ->
  snd (transfer s f t m) = ROk.
Proof.
  intros s f t m Hs Hm C Hne Hb. unfold transfer. rewrite C. simpl.
  apply check_amount_inv in C.
  destruct (load_main_ok s f Hs) as (Hnf & Hbf & Hff).
  destruct (load_main_ok s t Hs) as (Hnt & Hbt & Hft).
  pose proof (load_main2_le s f t Hs Hne) as Hl2. unfold val in Hl2.
  pose proof max_token_lt.
  destruct (bytes_eqb (a_addr (load_main s f)) (a_addr (load_main s t))) eqn:E.
  { apply bytes_eqb_eq in E. rewrite E in Hnf. congruence. }
  rewrite wrap64_id by lia.
  assert (0 <=? a_bal (load_main s f) - m = true) as -> by (apply Z.leb_le; lia).
  rewrite safe_add_ok by lia. reflexivity.
Qed.

Lemma exec_frozen_facts : forall s a x m,
  pfacts (ledger_ok s = true /\ sub_total s < two63) s (exec_frozen s a x m) (fun _ _ => 0).
Proof.
  intros s a x m. unfold exec_frozen.
  destruct (bytes_eqb a x); [pf_fail|].
  destruct (check_amount m) eqn:C; simpl; [|pf_fail]. apply check_amount_inv in C.
  destruct (wrap64 (a_bal (load_sub s a x) - m) <? 0) eqn:B; [pf_fail|].
  apply pfacts_ok. intros [Hs Hm]. destruct (load_sub_le s a x Hs) as (Hb & Hf & Hle).
  pose proof max_amount_lt. pose proof max_token_lt.
  rewrite !wrap64_id in * by lia. apply Z.ltb_ge in B.
  eapply okfacts_ext; [apply save_sub_facts; [exact Hs|lia|lia]|]. intros; unfold val; lia.
Qed.

Lemma exec_active_facts : forall s a x m,
  pfacts (ledger_ok s = true /\ sub_total s < two63) s (exec_active s a x m) (fun _ _ => 0).
Proof.
  intros s a x m. unfold exec_active.
  destruct (bytes_eqb a x); [pf_fail|].
  destruct (check_amount m) eqn:C; simpl; [|pf_fail]. apply check_amount_inv in C.
  destruct (wrap64 (a_frz (load_sub s a x) - m) <? 0) eqn:B; [pf_fail|].
  apply pfacts_ok. intros [Hs Hm]. destruct (load_sub_le s a x Hs) as (Hb & Hf & Hle).
  pose proof max_amount_lt. pose proof max_token_lt.
  rewrite !wrap64_id in * by lia. apply Z.ltb_ge in B.
  eapply okfacts_ext; [apply save_sub_facts; [exact Hs|lia|lia]|]. intros; unfold val; lia.
Qed.

Lemma exec_deposit_facts : forall s a x m,
  pfacts (ledger_ok s = true /\ sub_total s + Z.max 0 m < two63)
    s (exec_deposit s a x m) (fun _ cs => cs x * m).
Proof.
  intros s a x m. unfold exec_deposit.
  destruct (bytes_eqb a x); [pf_fail|].
  destruct (check_amount m) eqn:C; simpl; [|pf_fail]. apply check_amount_inv in C.
  apply pfacts_ok. intros [Hs Hm]. destruct (load_sub_le s a x Hs) as (Hb & Hf & Hle).
  rewrite wrap64_id by lia.
  eapply okfacts_ext; [apply (save_sub_facts s a x); [exact Hs|lia|exact Hf]|].
  intros; unfold val; f_equal; lia.
Qed.

Lemma exec_deposit_succeeds : forall s a x m,
  bytes_eqb a x = false -> check_amount m = true -> snd (exec_deposit s a x m) = ROk.
Proof. intros s a x m E C. unfold exec_deposit. rewrite E, C. reflexivity. Qed.

Lemma exec_deposit_frozen_inner_facts : forall s a x m,
  pfacts (ledger_ok s = true /\ sub_total s + Z.max 0 m < two63)
    s (exec_deposit_frozen_inner s a x m) (fun _ cs => cs x * m).
Proof.
  intros s a x m. unfold exec_deposit_frozen_inner.
  destruct (bytes_eqb a x); [pf_fail|].
  destruct (check_amount m) eqn:C; simpl; [|pf_fail]. apply check_amount_inv in C.
  apply pfacts_ok. intros [Hs Hm]. destruct (load_sub_le s a x Hs) as (Hb & Hf & Hle).
  rewrite wrap64_id by lia.
  eapply okfacts_ext; [apply save_sub_facts; [exact Hs|exact Hb|lia]|].
  intros; unfold val; f_equal; lia.
Qed.

Lemma exec_deposit_frozen_inner_succeeds : forall s a x m,
  bytes_eqb a x = false -> check_amount m = true ->
  snd (exec_deposit_frozen_inner s a x m) = ROk.
Proof. intros s a x m E C. unfold exec_deposit_frozen_inner. rewrite E, C. reflexivity. Qed.

Lemma exec_withdraw_facts : forall s x a m,
  pfacts (ledger_ok s = true /\ sub_total s < two63)
    s (exec_withdraw s x a m) (fun _ cs => - (cs x * m)).
Proof.
  intros s x a m. unfold exec_withdraw.
  destruct (bytes_eqb a x); [pf_fail|].
  destruct (check_amount m) eqn:C; simpl; [|pf_fail]. apply check_amount_inv in C.
  destruct (wrap64 (a_bal (load_sub s a x) - m) <? 0) eqn:B; [pf_fail|].
  apply pfacts_ok. intros [Hs Hm]. destruct (load_sub_le s a x Hs) as (Hb & Hf & Hle).
  pose proof max_amount_lt. pose proof max_token_lt.
  rewrite !wrap64_id in * by lia. apply Z.ltb_ge in B.
  eapply okfacts_ext; [apply (save_sub_facts s a x); [exact Hs|lia|exact Hf]|].
  intros; unfold val; simpl; lia.
Qed.

Lemma exec_withdraw_ok_inv : forall s x a m s',
  exec_withdraw s x a m = (s', ROk) ->
  bytes_eqb a x = false /\ check_amount m = true /\
  s' = save_sub s x (set_bal (load_sub s a x) (wrap64 (a_bal (load_sub s a x) - m))).
Proof.
  intros s x a m s' H. unfold exec_withdraw in H.
  destruct (bytes_eqb a x); [discriminate|].
  destruct (check_amount m); simpl in H; [|discriminate].
  destruct (wrap64 (a_bal (load_sub s a x) - m) <? 0); [discriminate|].
  inversion H. repeat split; reflexivity.
Qed.

Lemma norm_distinct_neq : forall f t,
  norm_distinct f t = true -> bytes_eqb f t = false -> norm f <> norm t.
Proof.
  intros f t H E. unfold norm_distinct in H. rewrite E in H. simpl in H.
  apply negb_true_iff in H. apply bytes_eqb_neq in H. exact H.
Qed.

Lemma exec_transfer_facts : forall s f t x m,
  pfacts (ledger_ok s = true /\ sub_total s < two63 /\ norm_distinct f t = true)
    s (exec_transfer s f t x m) (fun _ _ => 0).
Proof.
  intros s f t x m. unfold exec_transfer.
  destruct (bytes_eqb f t) eqn:E; [pf_fail|].
  destruct (check_amount m) eqn:C; simpl; [|pf_fail]. apply check_amount_inv in C.
  destruct (wrap64 (a_bal (load_sub s f x) - m) <? 0) eqn:B; [pf_fail|].
  apply pfacts_ok. intros (Hs & Hm & G). pose proof (norm_distinct_neq f t G E) as Hne.
  destruct (load_sub_le s f x Hs) as (Hbf & Hff & _). destruct (load_sub_le s t x Hs) as (Hbt & Hft & _).
  pose proof (load_sub2_le s f t x Hs Hne) as Hl2. unfold val in Hl2.
  pose proof max_amount_lt. pose proof max_token_lt.
  rewrite !wrap64_id in * by lia. apply Z.ltb_ge in B.
  eapply okfacts_ext; [apply (save_sub2_facts s f t x); [exact Hs|exact Hne|lia|exact Hff|lia|exact Hft]|].
  intros; unfold val; simpl; lia.
Qed.

Lemma exec_transfer_frozen_facts : forall s f t x m,
  pfacts (ledger_ok s = true /\ sub_total s < two63 /\ norm_distinct f t = true)
    s (exec_transfer_frozen s f t x m) (fun _ _ => 0).
Proof.
  intros s f t x m. unfold exec_transfer_frozen.
  destruct (bytes_eqb f t) eqn:E; [pf_fail|].
  destruct (check_amount m) eqn:C; simpl; [|pf_fail]. apply check_amount_inv in C.
  destruct (wrap64 (a_frz (load_sub s f x) - m) <? 0) eqn:B; [pf_fail|].
  apply pfacts_ok. intros (Hs & Hm & G). pose proof (norm_distinct_neq f t G E) as Hne.
  destruct (load_sub_le s f x Hs) as (Hbf & Hff & _). destruct (load_sub_le s t x Hs) as (Hbt & Hft & _).
  pose proof (load_sub2_le s f t x Hs Hne) as Hl2. unfold val in Hl2.
  pose proof max_amount_lt. pose proof max_token_lt.
  rewrite !wrap64_id in * by lia. apply Z.ltb_ge in B.
  eapply okfacts_ext; [apply (save_sub2_facts s f t x); [exact Hs|exact Hne|exact Hbf|lia|lia|exact Hft]|].
  intros; unfold val; simpl; lia.
Qed.

(** composites: the sums hold without, the atomicity only with the guard that
    makes the second part succeed *)

Lemma transfer_to_exec_facts : forall s f t m,
  ledger_ok s = true -> main_total s <= max_token -> sub_total s + Z.max 0 m < two63 ->
  pfacts True s (transfer_to_exec s f t m)
    (fun cm cs => (cm (norm t) - cm (norm f)) * m + cs t * m).
Proof.
  intros s f t m Hs Hm Hd. rewrite transfer_to_exec_then.
  pose proof (transfer_facts s f t m) as F.
  apply (pfacts_then _ _ _ _ _ _ _ F (conj Hs Hm)).
  - intros s1 T _ _ _. destruct (transfer_ok_inv _ _ _ _ _ T) as [C E].
    exact (exec_deposit_succeeds s1 f t m E C).
  - apply okfacts_then; [exact (pfacts_okfacts _ _ _ _ F (conj Hs Hm))|]. intros s1 _ L1 _ S1.
    apply (pfacts_okfacts _ _ _ _ (exec_deposit_facts s1 f t m)). unfold c0 in S1. split; [exact L1|lia].
Qed.

Lemma check_transfer_cases : forall s a m,
  check_transfer s a m = EAmount \/ check_transfer s a m = ENoBalance \/
  (check_transfer s a m = ROk /\ check_amount m = true /\
   (wrap64 (a_bal (load_main s a) - m) <? 0) = false).
Proof.
  intros s a m. unfold check_transfer.
  destruct (check_amount m); simpl; [|left; reflexivity].
  destruct (wrap64 (a_bal (load_main s a) - m) <? 0); [right; left; reflexivity|].
  right; right. repeat split; reflexivity.
Qed.

Lemma transfer_withdraw_okfacts : forall s f t m,
  ledger_ok s = true -> main_total s <= max_token -> sub_total s < two63 ->
  okfacts s (transfer_withdraw s f t m)
    (fun cm cs => (cm (norm f) - cm (norm t)) * m - cs t * m).
Proof.
  intros s f t m Hs Hm Hd. rewrite transfer_withdraw_then.
  destruct (check_transfer s t m); try (intro X; discriminate X).
  eapply okfacts_ext.
  - apply okfacts_then; [exact (pfacts_okfacts _ _ _ _ (exec_withdraw_facts s t f m) (conj Hs Hd))|].
    intros s1 _ L1 M1 _. apply (pfacts_okfacts _ _ _ _ (transfer_facts s1 t f m)).
    unfold c0 in M1. split; [exact L1|lia].
  - intros; simpl; lia.
Qed.

Lemma transfer_withdraw_facts : forall s f t m,
  ledger_ok s = true -> main_total s <= max_token -> sub_total s < two63 ->
  norm_distinct f t = true ->
  pfacts True s (transfer_withdraw s f t m)
    (fun cm cs => (cm (norm f) - cm (norm t)) * m - cs t * m).
Proof.
  intros s f t m Hs Hm Hd G. pose proof (transfer_withdraw_okfacts s f t m Hs Hm Hd) as Fo.
  rewrite transfer_withdraw_then in *.
  destruct (check_transfer_cases s t m) as [CT|[CT|(CT & C & B)]]; rewrite CT in *; try pf_fail.
  apply (pfacts_then _ _ _ _ _ _ _ (exec_withdraw_facts s t f m) (conj Hs Hd)); [|exact Fo].
  intros s1 W L1 M1 _. destruct (exec_withdraw_ok_inv _ _ _ _ _ W) as (E & _ & Hs1).
  pose proof (norm_distinct_neq f t G E) as Hne. unfold c0 in M1.
  apply transfer_succeeds; [exact L1|lia|exact C|congruence|].
  rewrite Hs1, load_main_save_sub. destruct (load_main_le s t Hs) as (Hbt & Hft & Hle).
  pose proof (check_amount_inv m C). pose proof max_token_lt. pose proof max_amount_lt.
  rewrite wrap64_id in B by lia. apply Z.ltb_ge in B. lia.
Qed.

Lemma exec_issue_facts : forall miners s x m,
  pfacts (ledger_ok s = true /\ main_total s <= max_token)
    s (exec_issue miners s x m) (fun cm _ => cm (norm x) * m).
Proof.
  intros miners s x m. unfold exec_issue.
  destruct (existsb (bytes_eqb x) miners); [|pf_fail]. apply deposit_balance_facts.
Qed.

Lemma exec_issue_ok_inv : forall miners s x m s',
  exec_issue miners s x m = (s', ROk) -> check_amount m = true.
Proof.
  intros miners s x m s' H. unfold exec_issue, deposit_balance in H.
  destruct (existsb (bytes_eqb x) miners); [|discriminate].
  destruct (check_amount m); [reflexivity|discriminate].
Qed.

Lemma exec_deposit_frozen_facts : forall miners s a x m,
  ledger_ok s = true -> main_total s <= max_token -> sub_total s + Z.max 0 m < two63 ->
  pfacts True s (exec_deposit_frozen miners s a x m) (fun cm cs => cm (norm x) * m + cs x * m).
Proof.
  intros miners s a x m Hs Hm Hd. rewrite exec_deposit_frozen_then.
  destruct (bytes_eqb a x) eqn:E; [pf_fail|].
  pose proof (exec_issue_facts miners s x m) as F.
  apply (pfacts_then _ _ _ _ _ _ _ F (conj Hs Hm)).
  - intros s1 I _ _ _.
    exact (exec_deposit_frozen_inner_succeeds s1 a x m E (exec_issue_ok_inv _ _ _ _ _ I)).
  - apply okfacts_then; [exact (pfacts_okfacts _ _ _ _ F (conj Hs Hm))|]. intros s1 _ L1 _ S1.
    apply (pfacts_okfacts _ _ _ _ (exec_deposit_frozen_inner_facts s1 a x m)).
    unfold c0 in S1. split; [exact L1|lia].
Qed.

Lemma genesis_init_exec_okfacts : forall s a m x,
  ledger_ok s = true -> main_total s <= max_token -> sub_total s + Z.max 0 m < two63 ->
  0 <= m < two63 ->
  okfacts s (genesis_init_exec s a m x) (fun cm cs => cm (norm x) * m + cs x * m).
Proof.
  intros s a m x Hs Hm Hd Hr. rewrite genesis_init_exec_then.
  apply okfacts_then; [exact (pfacts_okfacts _ _ _ _ (genesis_init_facts s x m) (conj Hs (conj Hm Hr)))|].
  intros s1 _ L1 _ S1. apply (pfacts_okfacts _ _ _ _ (exec_deposit_facts s1 a x m)).
  unfold c0 in S1. split; [exact L1|lia].
Qed.

Lemma genesis_init_exec_facts : forall s a m x,
  ledger_ok s = true -> main_total s <= max_token -> sub_total s + Z.max 0 m < two63 ->
  check_amount m = true -> bytes_eqb a x = false ->
  pfacts True s (genesis_init_exec s a m x) (fun cm cs => cm (norm x) * m + cs x * m).
Proof.
  intros s a m x Hs Hm Hd C E.
  pose proof (check_amount_inv m C). pose proof max_token_lt. pose proof max_amount_lt.
  assert (0 <= m < two63) as Hr by lia.
  pose proof (genesis_init_exec_okfacts s a m x Hs Hm Hd Hr) as Fo. rewrite genesis_init_exec_then in *.
  apply (pfacts_then _ _ _ _ _ _ _ (genesis_init_facts s x m) (conj Hs (conj Hm Hr))); [|exact Fo].
  intros s1 _ _ _ _. exact (exec_deposit_succeeds s1 a x m E C).
Qed.

Lemma step_facts : forall miners s o,
  ledger_ok s = true -> main_total s + mint_budget o <= max_token ->
  sub_total s + dep_budget o < two63 -> op_guard o = true ->
  pfacts True s (step miners s o) (fun cm cs => gdelta cm cs o).
Proof.
  intros miners s o Hs Hm Hd G.
  destruct o; simpl in *.
  - apply (pfacts_pre _ _ _ _ (transfer_facts s from to amt)). split; [assumption|lia].
  - apply transfer_to_exec_facts; [assumption|lia|lia].
  - apply transfer_withdraw_facts; [assumption|lia|lia|assumption].
  - apply (pfacts_pre _ _ _ _ (exec_frozen_facts s a x amt)). split; [assumption|lia].
  - apply (pfacts_pre _ _ _ _ (exec_active_facts s a x amt)). split; [assumption|lia].
  - apply (pfacts_pre _ _ _ _ (exec_transfer_facts s from to x amt)). repeat split; (assumption || lia).
  - apply (pfacts_pre _ _ _ _ (exec_transfer_frozen_facts s from to x amt)). repeat split; (assumption || lia).
  - apply (pfacts_pre _ _ _ _ (exec_deposit_facts s a x amt)). split; [assumption|lia].
  - apply (pfacts_pre _ _ _ _ (exec_withdraw_facts s x a amt)). split; [assumption|lia].
  - apply exec_deposit_frozen_facts; [assumption|lia|lia].
  - apply (pfacts_pre _ _ _ _ (exec_issue_facts miners s x amt)). split; [assumption|lia].
  - apply (pfacts_pre _ _ _ _ (deposit_balance_facts s a amt)). split; [assumption|lia].
  - apply (pfacts_pre _ _ _ _ (burn_facts s a amt)). split; [assumption|lia].
  - apply andb_true_iff in G as [G1 G2]. apply Z.leb_le in G1. apply Z.ltb_lt in G2.
    apply (pfacts_pre _ _ _ _ (genesis_init_facts s a amt)). repeat split; (assumption || lia).
  - apply andb_true_iff in G as [G1 G2]. apply negb_true_iff in G2.
    apply genesis_init_exec_facts; (assumption || lia).
Qed.

Lemma gdelta_main : forall o, gdelta c1 c0 o = main_delta o.
Proof. intro o. destruct o; cbn [gdelta main_delta]; unfold c0, c1; lia. Qed.

Lemma gdelta_sub : forall o, gdelta c0 c1 o = sub_delta o.
Proof. intro o. destruct o; cbn [gdelta sub_delta]; unfold c0, c1; lia. Qed.

Lemma budget_nonneg : forall o, 0 <= mint_budget o /\ 0 <= dep_budget o.
Proof. intro o. destruct o; simpl; lia. Qed.

(** withdrawals and burns succeed with a positive amount only *)
Lemma ok_delta_le_budget : forall miners s o s',
  step miners s o = (s', ROk) -> main_delta o <= mint_budget o /\ sub_delta o <= dep_budget o.
Proof.
  intros miners s o s' H. destruct o; simpl in *; try lia.
  - rewrite transfer_withdraw_then in H.
    destruct (check_transfer_cases s to amt) as [CT|[CT|(CT & C & _)]]; rewrite CT in H;
      try discriminate.
    apply check_amount_inv in C. lia.
  - apply exec_withdraw_ok_inv in H. destruct H as (_ & C & _).
    apply check_amount_inv in C. lia.
  - unfold burn in H. destruct (check_amount amt) eqn:C; simpl in H; [|discriminate].
    apply check_amount_inv in C. lia.
Qed.

Lemma ok_step_within_budget : forall miners s o s',
  step miners s o = (s', ROk) -> okfacts s (s', ROk) (fun cm cs => gdelta cm cs o) ->
  ledger_ok s' = true /\
  main_total s' <= main_total s + mint_budget o /\ sub_total s' <= sub_total s + dep_budget o.
Proof.
  intros miners s o s' St F. destruct (okfacts_totals _ _ _ F) as (L & M & S).
  rewrite gdelta_main in M. rewrite gdelta_sub in S.
  destruct (ok_delta_le_budget _ _ _ _ St). split; [exact L|lia].
Qed.

Fixpoint all_steps (P : ledger -> op -> ledger -> res -> Prop)
  (miners : list bytes) (s : ledger) (ops : list op) : Prop :=
  match ops with
  | [] => True
  | o :: tl => let (s', r) := step miners s o in P s o s' r /\ all_steps P miners s' tl
  end.

Definition good_step (s : ledger) (o : op) (s' : ledger) (r : res) : Prop :=
  r <> RPanic /\ (r <> ROk -> s' = s) /\
  ledger_ok s' = true /\ main_total s' <= max_token /\ sub_total s' < two63.

Lemma run_cons : forall miners s o tl,
  run miners s (o :: tl) = run miners (fst (step miners s o)) tl.
Proof. reflexivity. Qed.

Lemma zsum_nonneg : forall f ops, (forall o, 0 <= f o) -> 0 <= zsum f ops.
Proof. intros f ops H. induction ops as [|o tl IH]; simpl; [lia|]. specialize (H o). lia. Qed.

Lemma zsum_app : forall f a b, zsum f (a ++ b) = zsum f a + zsum f b.
Proof. intros f a b. induction a as [|o tl IH]; simpl; [reflexivity|]. rewrite IH. lia. Qed.

Lemma headroom_app : forall s pre ops, headroom s (pre ++ ops) = true ->
  main_total s + zsum mint_budget pre <= max_token /\
  sub_total s + zsum dep_budget pre < two63 /\
  forall s', main_total s' <= main_total s + zsum mint_budget pre ->
             sub_total s' <= sub_total s + zsum dep_budget pre -> headroom s' ops = true.
Proof.
  intros s pre ops H. unfold headroom in *. rewrite !zsum_app in H.
  apply andb_true_iff in H as [Hm Hd]. apply Z.leb_le in Hm. apply Z.ltb_lt in Hd.
  pose proof (zsum_nonneg mint_budget ops (fun o => proj1 (budget_nonneg o))).
  pose proof (zsum_nonneg dep_budget ops (fun o => proj2 (budget_nonneg o))).
  split; [lia|]. split; [lia|]. intros s' Bm Bd.
  apply andb_true_iff. split; [apply Z.leb_le|apply Z.ltb_lt]; lia.
Qed.

Theorem history_invariants : forall miners ops s,
  ledger_ok s = true -> hist_guard s ops = true ->
  ledger_ok (run miners s ops) = true /\
  (forall cm cf cs,
     wsum (lw cm cf cs) (run miners s ops)
     = wsum (lw cm cf cs) s + deltas miners (gdelta cm cs) s ops) /\
  all_steps good_step miners s ops.
Proof.
  intros miners ops. induction ops as [|o tl IH]; intros s Hs G.
  - simpl. split; [exact Hs|]. split; [intros; lia|exact I].
  - unfold hist_guard in G. apply andb_true_iff in G as [G1 G2].
    simpl in G1. apply andb_true_iff in G1 as [Go Gtl].
    destruct (headroom_app s [o] tl G2) as (Gm & Gd & Gs'). simpl in Gm, Gd, Gs'.
    destruct (step_facts miners s o Hs ltac:(lia) ltac:(lia) Go) as (Ff & Fp & Fo).
    rewrite run_cons. simpl deltas. simpl all_steps.
    destruct (step miners s o) as [s' r] eqn:St. cbn [fst snd] in *.
    (* the state after the step: [s] itself unless the step succeeded *)
    assert (ledger_ok s' = true /\ main_total s' <= main_total s + mint_budget o /\
            sub_total s' <= sub_total s + dep_budget o) as (L' & M' & S').
    { destruct (budget_nonneg o).
      destruct r; try (rewrite Ff by discriminate; split; [exact Hs|lia]).
      exact (ok_step_within_budget _ _ _ _ St (Fo I)). }
    assert (hist_guard s' tl = true) as G'.
    { unfold hist_guard. rewrite Gtl. apply Gs'; lia. }
    destruct (IH s' L' G') as (IL & IW & IA).
    split; [exact IL|]. split.
    + intros cm cf cs. rewrite IW.
      destruct r; try (rewrite Ff by discriminate; lia).
      destruct (Fo I eq_refl) as [_ W]. rewrite W. lia.
    + split; [|exact IA]. unfold good_step.
      split; [exact Fp|]. split; [exact Ff|]. split; [exact L'|]. split; lia.
Qed.

Lemma deltas_ext : forall miners f g, (forall o, f o = g o) ->
  forall ops s, deltas miners f s ops = deltas miners g s ops.
Proof.
  intros miners f g H ops. induction ops as [|o tl IH]; intro s; simpl; [reflexivity|].
  destruct (step miners s o) as [s' r]. rewrite IH, H. reflexivity.
Qed.

Lemma deltas_zero : forall miners f ops s,
  forallb (fun o => f o =? 0) ops = true -> deltas miners f s ops = 0.
Proof.
  intros miners f ops. induction ops as [|o tl IH]; intros s H; simpl; [reflexivity|].
  simpl in H. apply andb_true_iff in H as [H1 H2]. apply Z.eqb_eq in H1.
  destruct (step miners s o) as [s' r]. rewrite (IH s' H2). destruct r; lia.
Qed.

(** with [panic] a failure of the second part is a panic, not a returned error *)
Lemma then_error : forall (s : ledger) p q panic,
  (panic = false -> forall s1, p = (s1, ROk) -> snd (q s1) = ROk) ->
  is_error (snd (then_ s p q panic)) = true -> fst (then_ s p q panic) = s.
Proof.
  intros s [s1 r1] q panic H. unfold then_. destruct r1; try (intros _; reflexivity).
  destruct panic.
  - destruct (q s1) as [s2 r2]. destruct r2; intro X; discriminate X.
  - specialize (H eq_refl s1 eq_refl). destruct (q s1) as [s2 r2]. simpl in H. subst r2.
    intro X. discriminate X.
Qed.

Theorem error_changes_nothing : forall miners s o,
  is_error (snd (step miners s o)) = true -> fst (step miners s o) = s.
Proof.
  intros miners s o. destruct o; simpl.
  - exact (pfacts_error _ _ _ _ (transfer_facts s from to amt)).
  - rewrite transfer_to_exec_then. apply then_error. discriminate.
  - rewrite transfer_withdraw_then. destruct (check_transfer s to amt); try (intros _; reflexivity).
    apply then_error. discriminate.
  - exact (pfacts_error _ _ _ _ (exec_frozen_facts s a x amt)).
  - exact (pfacts_error _ _ _ _ (exec_active_facts s a x amt)).
  - exact (pfacts_error _ _ _ _ (exec_transfer_facts s from to x amt)).
  - exact (pfacts_error _ _ _ _ (exec_transfer_frozen_facts s from to x amt)).
  - exact (pfacts_error _ _ _ _ (exec_deposit_facts s a x amt)).
  - exact (pfacts_error _ _ _ _ (exec_withdraw_facts s x a amt)).
  - rewrite exec_deposit_frozen_then. destruct (bytes_eqb a x) eqn:E; [intros _; reflexivity|].
    apply then_error. intros _ s1 I.
    exact (exec_deposit_frozen_inner_succeeds s1 a x amt E (exec_issue_ok_inv _ _ _ _ _ I)).
  - exact (pfacts_error _ _ _ _ (exec_issue_facts miners s x amt)).
  - exact (pfacts_error _ _ _ _ (deposit_balance_facts s a amt)).
  - exact (pfacts_error _ _ _ _ (burn_facts s a amt)).
  - exact (pfacts_error _ _ _ _ (genesis_init_facts s a amt)).
  - rewrite genesis_init_exec_then. apply then_error. discriminate.
Qed.
