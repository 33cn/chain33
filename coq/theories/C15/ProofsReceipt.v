(** C15 — receipts: the KV list of a receipt is exactly what the operation did
    to the ledger, and the logs are the accounts before / after; composite
    operations, the per-step receipt theorem and the distinct-key condition. *)
From Coq Require Import List ZArith NArith Bool Lia.
From C33 Require Import Lib.Harness C15.Model C15.Spec C15.ModelReceipt C15.ModelFlat
  C15.ProofsBase C15.ProofsFlat.
Import ListNotations.
Open Scope Z_scope.

(** key consistency alone, [ledger_ok] without the sign conditions: kept by
    every operation, guarded or not *)

Definition key_okb (kr : key * acct) : bool :=
  match fst kr with
  | MainK a => bytes_eqb (norm (a_addr (snd kr))) a
  | SubK _ a => bytes_eqb (norm (a_addr (snd kr))) a
  end.

Definition keys_ok (s : ledger) : bool := forallb key_okb s.

Lemma ledger_ok_keys_ok : forall s, ledger_ok s = true -> keys_ok s = true.
Proof.
  induction s as [|[k r] tl IH]; simpl; intro H; [reflexivity|].
  apply andb_true_iff in H as [H1 H2]. rewrite (IH H2), andb_true_r.
  unfold rec_okb in H1. apply andb_true_iff in H1 as [H1 _]. apply andb_true_iff in H1 as [H1 _].
  unfold key_okb. simpl. exact H1.
Qed.

Lemma keys_ok_save_main : forall s r, keys_ok s = true -> keys_ok (save_main s r) = true.
Proof.
  intros s r Hs. apply forallb_put; [exact Hs|]. apply bytes_eqb_refl.
Qed.

Lemma keys_ok_save_sub : forall s x r, keys_ok s = true -> keys_ok (save_sub s x r) = true.
Proof.
  intros s x r Hs. apply forallb_put; [exact Hs|]. apply bytes_eqb_refl.
Qed.

Lemma load_main_norm : forall s a, keys_ok s = true -> norm (a_addr (load_main s a)) = norm a.
Proof.
  intros s a Hs. unfold load_main. destruct (get (MainK (norm a)) s) eqn:G; [|reflexivity].
  apply (forallb_get _ _ _ _ Hs) in G.
  apply bytes_eqb_eq in G. exact G.
Qed.

Lemma load_sub_norm : forall s a x, keys_ok s = true -> norm (a_addr (load_sub s a x)) = norm a.
Proof.
  intros s a x Hs. unfold load_sub. destruct (get (SubK x (norm a)) s) eqn:G; [|reflexivity].
  apply (forallb_get _ _ _ _ Hs) in G.
  apply bytes_eqb_eq in G. exact G.
Qed.

Theorem step_keys_ok : forall miners s o,
  keys_ok s = true -> keys_ok (fst (step miners s o)) = true.
Proof.
  intros miners s o. rewrite <- gstep_ledger.
  apply (gstep_frame ledger get put (fun s s' => keys_ok s = true -> keys_ok s' = true)); auto.
  - intros s0 r. apply keys_ok_save_main.
  - intros s0 x r. apply keys_ok_save_sub.
Qed.

Lemma step_to_keys_ok : forall miners s o s1 r,
  keys_ok s = true -> step miners s o = (s1, r) -> keys_ok s1 = true.
Proof. intros miners s o s1 r K St. pose proof (step_keys_ok miners s o K) as H. rewrite St in H. exact H. Qed.

Lemma run_keys_ok : forall miners ops s, keys_ok s = true -> keys_ok (run miners s ops) = true.
Proof.
  intros miners ops. induction ops as [|o tl IH]; intros s Hs; [exact Hs|].
  change (run miners s (o :: tl)) with (run miners (fst (step miners s o)) tl).
  apply IH. apply step_keys_ok. exact Hs.
Qed.

Definition kv_log_aligned (kv : key * acct) (l : rlog) : Prop :=
  fst kv = log_key l /\ snd kv = l_cur l.

Definition logs_before (s : ledger) (rc : receipt) : Prop :=
  Forall (fun l => l_prev l = load_key s (log_key l) (a_addr (l_prev l))) (r_logs rc).

Definition logs_after (s' : ledger) (rc : receipt) : Prop :=
  Forall (fun l => get (log_key l) s' = Some (l_cur l)) (r_logs rc).

Definition rprim (s s' : ledger) (rc : receipt) : Prop :=
  s' = apply_kv (r_kv rc) s /\ r_ty rc = ty_exec_ok /\
  Forall2 kv_log_aligned (r_kv rc) (r_logs rc) /\ logs_before s rc.

Lemma load_key_main : forall s a, keys_ok s = true ->
  load_key s (MainK (norm (a_addr (load_main s a)))) (a_addr (load_main s a)) = load_main s a.
Proof.
  intros s a Hs. rewrite (load_main_norm s a Hs). unfold load_key, load_main.
  destruct (get (MainK (norm a)) s); reflexivity.
Qed.

Lemma load_key_sub : forall s a x, keys_ok s = true ->
  load_key s (SubK x (norm (a_addr (load_sub s a x)))) (a_addr (load_sub s a x)) = load_sub s a x.
Proof.
  intros s a x Hs. rewrite (load_sub_norm s a x Hs). unfold load_key, load_sub.
  destruct (get (SubK x (norm a)) s); reflexivity.
Qed.

Lemma rprim_main : forall ty s a nb, keys_ok s = true ->
  rprim s (save_main s (set_bal (load_main s a) nb)) (rc_main ty s a nb).
Proof.
  intros ty s a nb Hs. unfold rprim, rc_main, rc1. cbn [r_kv r_ty r_logs].
  split; [reflexivity|]. split; [reflexivity|]. split.
  - constructor; [|constructor]. split; reflexivity.
  - constructor; [|constructor]. cbn [l_prev log_key l_exec l_cur set_bal a_addr].
    symmetry. apply load_key_main. exact Hs.
Qed.

Lemma rprim_sub : forall ty s a x nb nf, keys_ok s = true ->
  rprim s (save_sub s x (set_bf (load_sub s a x) nb nf)) (rc_sub ty s a x nb nf).
Proof.
  intros ty s a x nb nf Hs. unfold rprim, rc_sub, rc1. cbn [r_kv r_ty r_logs].
  split; [reflexivity|]. split; [reflexivity|]. split.
  - constructor; [|constructor]. split; reflexivity.
  - constructor; [|constructor]. cbn [l_prev log_key l_exec l_cur set_bf a_addr].
    symmetry. apply load_key_sub. exact Hs.
Qed.

Lemma set_bal_bf : forall r b, set_bal r b = set_bf r b (a_frz r).
Proof. reflexivity. Qed.

Ltac prim_ok H :=
  repeat match type of H with
  | context [if ?c then _ else _] => destruct c eqn:?; simpl in H
  | context [match safe_add ?a ?b with _ => _ end] => destruct (safe_add a b) eqn:?; simpl in H
  end; try discriminate; injection H as <-.

(* GenesisInit, and DepositBalance / Mint behind CheckAmount, write the same
   record under three log types *)
Lemma rprim_added : forall ty s a m s', keys_ok s = true ->
  genesis_init s a m = (s', ROk) ->
  rprim s s' (rc_main ty s a (added (a_bal (load_main s a)) m)).
Proof.
  intros ty s a m s' Hs H. unfold genesis_init in H. prim_ok H.
  unfold added. rewrite Heqo. apply rprim_main. exact Hs.
Qed.

Lemma rprim_deposit_balance : forall ty s x m s', keys_ok s = true ->
  deposit_balance s x m = (s', ROk) ->
  rprim s s' (rc_main ty s x (added (a_bal (load_main s x)) m)).
Proof.
  intros ty s x m s' Hs H. apply rprim_added; [exact Hs|]. unfold deposit_balance in H.
  destruct (check_amount m); [exact H|discriminate].
Qed.

Lemma rprim_exec_deposit : forall s a x m s', keys_ok s = true ->
  exec_deposit s a x m = (s', ROk) -> rprim s s' (rc_exec_deposit s a x m).
Proof.
  intros s a x m s' Hs H. unfold exec_deposit in H. prim_ok H.
  rewrite set_bal_bf. apply rprim_sub. exact Hs.
Qed.

Lemma rprim_exec_deposit_frozen_inner : forall s a x m s', keys_ok s = true ->
  exec_deposit_frozen_inner s a x m = (s', ROk) -> rprim s s' (rc_exec_deposit_frozen_inner s a x m).
Proof.
  intros s a x m s' Hs H. unfold exec_deposit_frozen_inner in H. prim_ok H.
  apply rprim_sub. exact Hs.
Qed.

Lemma rprim_exec_withdraw : forall s x a m s', keys_ok s = true ->
  exec_withdraw s x a m = (s', ROk) -> rprim s s' (rc_exec_withdraw s x a m).
Proof.
  intros s x a m s' Hs H. unfold exec_withdraw in H. prim_ok H.
  rewrite set_bal_bf. apply rprim_sub. exact Hs.
Qed.

Lemma rprim_exec_issue : forall miners s x m s', keys_ok s = true ->
  exec_issue miners s x m = (s', ROk) -> rprim s s' (rc_deposit_balance s x m).
Proof.
  intros miners s x m s' Hs H. unfold exec_issue in H.
  destruct (existsb (bytes_eqb x) miners); [|discriminate].
  apply (rprim_deposit_balance ty_deposit); assumption.
Qed.

(** two writes: both records are loaded in [s] *)
Lemma rprim_transfer : forall s f t m s', keys_ok s = true ->
  transfer s f t m = (s', ROk) -> rprim s s' (rc_transfer s f t m).
Proof.
  intros s f t m s' Hs H. unfold transfer in H. prim_ok H.
  unfold rprim, rc_transfer. rewrite Heqo. cbn [r_kv r_ty r_logs].
  split; [reflexivity|]. split; [reflexivity|]. split.
  - repeat constructor.
  - constructor; [|constructor; [|constructor]];
      cbn [l_prev log_key l_exec l_cur set_bal a_addr]; symmetry; apply load_key_main; exact Hs.
Qed.

Lemma rprim_exec2 : forall s f t x rf' rt', keys_ok s = true ->
  a_addr rf' = a_addr (load_sub s f x) -> a_addr rt' = a_addr (load_sub s t x) ->
  rprim s (save_sub (save_sub s x rf') x rt') (rc_exec2 x (load_sub s f x) rf' (load_sub s t x) rt').
Proof.
  intros s f t x rf' rt' Hs Hf Ht. unfold rprim, rc_exec2. cbn [r_kv r_ty r_logs].
  split; [reflexivity|]. split; [reflexivity|]. split.
  - repeat constructor.
  - constructor; [|constructor; [|constructor]]; cbn [l_prev log_key l_exec l_cur].
    + rewrite Hf. symmetry. apply load_key_sub. exact Hs.
    + rewrite Ht. symmetry. apply load_key_sub. exact Hs.
Qed.

Lemma apply_kv_app : forall kv1 kv2 s, apply_kv (kv1 ++ kv2) s = apply_kv kv2 (apply_kv kv1 s).
Proof. intros. unfold apply_kv. apply fold_left_app. Qed.

Lemma get_apply_kv_other : forall kv k s, key_in k kv = false -> get k (apply_kv kv s) = get k s.
Proof.
  induction kv as [|[k0 r0] tl IH]; intros k s H; [reflexivity|].
  simpl in H. apply orb_false_iff in H as [H1 H2].
  change (apply_kv ((k0, r0) :: tl) s) with (apply_kv tl (put k0 r0 s)).
  rewrite (IH k _ H2). apply get_put_other. apply key_eqb_neq in H1. congruence.
Qed.

Lemma rprim_merge : forall s s1 s2 rc1 rc2,
  rprim s s1 rc1 -> rprim s1 s2 rc2 ->
  Forall (fun l => key_in (log_key l) (r_kv rc1) = false) (r_logs rc2) ->
  rprim s s2 (rc_merge rc1 rc2).
Proof.
  intros s s1 s2 rc1 rc2 (E1 & T1 & A1 & B1) (E2 & T2 & A2 & B2) Hfr.
  unfold rprim, rc_merge. cbn [r_kv r_ty r_logs].
  split; [rewrite apply_kv_app, <- E1; exact E2|]. split; [exact T1|]. split.
  - apply Forall2_app; assumption.
  - unfold logs_before in *. cbn [r_logs]. apply Forall_app. split; [exact B1|].
    rewrite Forall_forall in *. intros l Hl. rewrite (B2 l Hl) at 1.
    unfold load_key. rewrite E1. rewrite get_apply_kv_other by (apply Hfr; exact Hl).
    reflexivity.
Qed.

(** the parts of a composite: the first is a step of its own, so its state keeps
    [keys_ok]; main-account and sub-account keys never coincide, so the logs of
    the second part speak of records the first did not write *)
Lemma rprim_transfer_to_exec : forall s f t m s', keys_ok s = true ->
  transfer_to_exec s f t m = (s', ROk) -> rprim s s' (rc_transfer_to_exec s f t m).
Proof.
  intros s f t m s' Hs H. rewrite transfer_to_exec_then in H.
  apply then_ok_inv in H as (s1 & T & D). unfold rc_transfer_to_exec. rewrite T.
  pose proof (step_to_keys_ok [] s (OTransfer f t m) s1 ROk Hs T) as K1.
  eapply rprim_merge; [apply rprim_transfer; eassumption|apply rprim_exec_deposit; eassumption|].
  repeat constructor.
Qed.

Lemma rprim_transfer_withdraw : forall s f t m s', keys_ok s = true ->
  transfer_withdraw s f t m = (s', ROk) -> rprim s s' (rc_transfer_withdraw s f t m).
Proof.
  intros s f t m s' Hs H. rewrite transfer_withdraw_then in H.
  destruct (check_transfer s t m); try discriminate.
  apply then_ok_inv in H as (s1 & W & T). unfold rc_transfer_withdraw. rewrite W.
  pose proof (step_to_keys_ok [] s (OExecWithdraw t f m) s1 ROk Hs W) as K1.
  eapply rprim_merge; [apply rprim_exec_withdraw; eassumption|apply rprim_transfer; eassumption|].
  repeat constructor.
Qed.

Lemma rprim_exec_deposit_frozen : forall miners s a x m s', keys_ok s = true ->
  exec_deposit_frozen miners s a x m = (s', ROk) ->
  rprim s s' (rc_exec_deposit_frozen miners s a x m).
Proof.
  intros miners s a x m s' Hs H. rewrite exec_deposit_frozen_then in H.
  destruct (bytes_eqb a x); try discriminate.
  apply then_ok_inv in H as (s1 & I & D). unfold rc_exec_deposit_frozen. rewrite I.
  pose proof (step_to_keys_ok miners s (OExecIssueCoins x m) s1 ROk Hs I) as K1.
  eapply rprim_merge; [eapply rprim_exec_issue; eassumption
                      |apply rprim_exec_deposit_frozen_inner; eassumption|].
  repeat constructor.
Qed.

Lemma rprim_genesis_init_exec : forall s a m x s', keys_ok s = true ->
  genesis_init_exec s a m x = (s', ROk) -> rprim s s' (rc_genesis_init_exec s a m x).
Proof.
  intros s a m x s' Hs H. rewrite genesis_init_exec_then in H.
  apply then_ok_inv in H as (s1 & G & D). unfold rc_genesis_init_exec. rewrite G.
  pose proof (step_to_keys_ok [] s (OGenesisInit x m) s1 ROk Hs G) as K1.
  eapply rprim_merge; [apply (rprim_added ty_genesis_transfer); eassumption|apply rprim_exec_deposit; eassumption|].
  repeat constructor.
Qed.

Theorem step_rprim : forall miners s o s', keys_ok s = true ->
  step miners s o = (s', ROk) -> rprim s s' (receipt_of miners s o).
Proof.
  intros miners s o s' Hs H. destruct o; cbn [step receipt_of] in *.
  - apply rprim_transfer; assumption.
  - apply rprim_transfer_to_exec; assumption.
  - apply rprim_transfer_withdraw; assumption.
  - unfold exec_frozen in H. prim_ok H. apply rprim_sub. exact Hs.
  - unfold exec_active in H. prim_ok H. apply rprim_sub. exact Hs.
  - unfold exec_transfer in H. prim_ok H. apply rprim_exec2; [exact Hs|reflexivity|reflexivity].
  - unfold exec_transfer_frozen in H. prim_ok H. apply rprim_exec2; [exact Hs|reflexivity|reflexivity].
  - apply rprim_exec_deposit; assumption.
  - apply rprim_exec_withdraw; assumption.
  - apply rprim_exec_deposit_frozen; assumption.
  - eapply rprim_exec_issue; eassumption.
  - apply (rprim_deposit_balance ty_mint); assumption.
  - unfold burn in H. prim_ok H. apply rprim_main. exact Hs.
  - apply (rprim_added ty_genesis_transfer); assumption.
  - apply rprim_genesis_init_exec; assumption.
Qed.

(** the Current of a log is the account after only when no key is written twice *)

Lemma get_apply_kv_in : forall kv k r s,
  keys_distinct (map fst kv) = true -> In (k, r) kv -> get k (apply_kv kv s) = Some r.
Proof.
  induction kv as [|[k0 r0] tl IH]; intros k r s Hd Hin; [contradiction|].
  cbn [map fst keys_distinct] in Hd. apply andb_true_iff in Hd as [Hn Hd].
  apply negb_true_iff in Hn.
  change (apply_kv ((k0, r0) :: tl) s) with (apply_kv tl (put k0 r0 s)).
  destruct Hin as [Heq|Hin].
  - injection Heq as <- <-. rewrite get_apply_kv_other.
    + apply get_put_same.
    + unfold key_in. rewrite <- Hn. clear. induction tl as [|e tl IH]; [reflexivity|].
      simpl. rewrite IH. reflexivity.
  - apply IH; assumption.
Qed.

Lemma aligned_after : forall kv logs s,
  Forall2 kv_log_aligned kv logs -> keys_distinct (map fst kv) = true ->
  Forall (fun l => get (log_key l) (apply_kv kv s) = Some (l_cur l)) logs.
Proof.
  intros kv logs s A Hd. rewrite Forall_forall. intros l Hl.
  assert (exists e, In e kv /\ kv_log_aligned e l) as (e & He & Ha & Hc).
  { clear Hd. induction A as [|e l0 kv' logs' Ha A IH]; [contradiction|].
    destruct Hl as [->|Hl]; [exists e; split; [left; reflexivity|exact Ha]|].
    destruct (IH Hl) as (e' & H1 & H2). exists e'. split; [right; exact H1|exact H2]. }
  rewrite <- Ha, <- Hc. apply get_apply_kv_in; [exact Hd|]. destruct e; exact He.
Qed.

Theorem receipt_matches_state : forall miners s o s',
  keys_ok s = true -> step miners s o = (s', ROk) ->
  let rc := receipt_of miners s o in
  s' = apply_kv (r_kv rc) s /\ r_ty rc = ty_exec_ok /\
  Forall2 kv_log_aligned (r_kv rc) (r_logs rc) /\
  logs_before s rc /\
  (keys_distinct (map fst (r_kv rc)) = true -> logs_after s' rc).
Proof.
  intros miners s o s' Hs H rc. destruct (step_rprim miners s o s' Hs H) as (E & T & A & B).
  fold rc in E, T, A, B. repeat split; try assumption.
  intro Hd. unfold logs_after. rewrite E. apply aligned_after; assumption.
Qed.
