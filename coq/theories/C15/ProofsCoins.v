(** C15 — the coins executor conserves supply except at genesis; its state is
    the fold of the KV lists of its receipts. *)
From Coq Require Import List ZArith NArith Bool Lia.
From C33 Require Import Lib.Harness C15.Model C15.Spec C15.ModelReceipt C15.ModelCoins
  C15.ProofsBase C15.Proofs C15.ProofsReceipt.
Import ListNotations.
Open Scope Z_scope.

Definition tx_ops (env : cenv) (tx : ctx) : list op := coins_ops env [tx].

Definition coins_delta (env : cenv) (f : op -> Z) (s : ledger) (tx : ctx) : Z :=
  if coins_check_tx tx then
    match coins_op env tx with
    | inr o => match step [] s o with (_, ROk) => f o | _ => 0 end
    | inl _ => 0
    end
  else 0.

Fixpoint coins_deltas (env : cenv) (f : op -> Z) (s : ledger) (txs : list ctx) : Z :=
  match txs with
  | [] => 0
  | tx :: tl => coins_delta env f s tx + coins_deltas env f (fst (fst (coins_tx env s tx))) tl
  end.

Definition tx_granted (env : cenv) (s : ledger) (tx : ctx) : Z :=
  match coins_tx env s tx with
  | (_, COk, _) => match t_act tx with CGenesis _ m => m | _ => 0 end
  | _ => 0
  end.

Fixpoint coins_granted (env : cenv) (s : ledger) (txs : list ctx) : Z :=
  match txs with
  | [] => 0
  | tx :: tl => tx_granted env s tx + coins_granted env (fst (fst (coins_tx env s tx))) tl
  end.

Lemma coins_op_facts : forall env tx o s,
  coins_check_tx tx = true -> tx_wf tx = true -> coins_op env tx = inr o ->
  ledger_ok s = true -> main_total s + mint_budget o <= max_token ->
  sub_total s + dep_budget o < two63 ->
  okfacts s (step [] s o) (fun cm cs => gdelta cm cs o) /\
  main_delta o = match t_act tx with CGenesis _ m => m | _ => 0 end.
Proof.
  intros env tx o s C W O Hs Hm Hd. unfold coins_op in O.
  unfold coins_check_tx in C. apply Z.leb_le in C.
  unfold tx_wf in W. apply andb_true_iff in W as [_ W]. apply Z.ltb_lt in W.
  (* Transfer, TransferToExec have no guard; TransferWithdraw and GenesisInitExec
     are taken without theirs: a panic is not a success *)
  pose proof (fun G => pfacts_okfacts _ _ _ _ (step_facts [] s o Hs Hm Hd G) I) as plain.
  destruct (t_act tx) as [m p|name m p|name m p|ret m|g]; cbn [act_amount] in *.
  - destruct (is_driver env (real_to env tx) (t_h tx)); injection O as <-;
      (split; [apply plain|]; reflexivity).
  - destruct (negb (is_fork (t_h tx) (e_ftexec env))); [discriminate|].
    destruct (negb (exec_addr_match env name (real_to env tx))); [discriminate|].
    injection O as <-. split; [apply plain|]; reflexivity.
  - destruct (is_driver env (real_to env tx) (t_h tx) ||
              exec_addr_match env (if is_fork (t_h tx) (e_fwithdraw env) then name else [])
                (real_to env tx)); [|discriminate].
    injection O as <-. cbn [mint_budget dep_budget] in *. split; [|reflexivity].
    apply transfer_withdraw_okfacts; [assumption|lia|lia].
  - destruct (t_h tx =? 0); [|discriminate].
    destruct (is_driver env (real_to env tx) (t_h tx)); injection O as <-;
      cbn [mint_budget dep_budget] in *; (split; [|reflexivity]).
    + apply genesis_init_exec_okfacts; [assumption|lia|lia|lia].
    + apply (pfacts_okfacts _ _ _ _ (genesis_init_facts s (real_to env tx) m)).
      repeat split; (assumption || lia).
  - destruct (g && negb (t_h tx =? 0)); discriminate.
Qed.

Lemma coins_ops_cons : forall env tx tl, coins_ops env (tx :: tl) = tx_ops env tx ++ coins_ops env tl.
Proof. intros. unfold tx_ops, coins_ops. simpl. rewrite app_nil_r. reflexivity. Qed.

Lemma coins_run_cons : forall env s tx tl,
  coins_run env s (tx :: tl) = coins_run env (fst (fst (coins_tx env s tx))) tl.
Proof. reflexivity. Qed.

Lemma coins_op_inl_not_ok : forall env tx, coins_op env tx <> inl COk.
Proof.
  intros env tx. unfold coins_op.
  destruct (t_act tx) as [m p|name m p|name m p|ret m|g];
    repeat match goal with |- context [if ?c then _ else _] => destruct c end; discriminate.
Qed.

Lemma coins_tx_inv : forall env s tx,
  (exists o s1, coins_check_tx tx = true /\ coins_op env tx = inr o /\ step [] s o = (s1, ROk) /\
     coins_tx env s tx = (s1, COk, Some (receipt_of [] s o)) /\ tx_ops env tx = [o] /\
     forall f, coins_delta env f s tx = f o) \/
  (exists c, c <> COk /\ coins_tx env s tx = (s, c, None) /\ forall f, coins_delta env f s tx = 0).
Proof.
  intros env s tx. unfold coins_tx, coins_delta, tx_ops, coins_ops, flat_map.
  destruct (coins_check_tx tx); cbn [negb].
  2:{ right. eexists. split; [|split; [reflexivity|reflexivity]]. discriminate. }
  pose proof (coins_op_inl_not_ok env tx) as Hne.
  destruct (coins_op env tx) as [e|o].
  { right. exists e. split; [congruence|]. split; reflexivity. }
  destruct (step [] s o) as [s1 r1] eqn:St. destruct r1;
    try (right; eexists; split; [|split; reflexivity]; discriminate).
  left. exists o, s1. rewrite St. repeat split; reflexivity.
Qed.

Lemma coins_tx_facts : forall env s tx,
  ledger_ok s = true -> tx_wf tx = true ->
  main_total s + zsum mint_budget (tx_ops env tx) <= max_token ->
  sub_total s + zsum dep_budget (tx_ops env tx) < two63 ->
  let s' := fst (fst (coins_tx env s tx)) in
  ledger_ok s' = true /\
  (forall cm cf cs, wsum (lw cm cf cs) s'
     = wsum (lw cm cf cs) s + coins_delta env (gdelta cm cs) s tx) /\
  coins_delta env (gdelta c1 c0) s tx = tx_granted env s tx /\
  main_total s' <= main_total s + zsum mint_budget (tx_ops env tx) /\
  sub_total s' <= sub_total s + zsum dep_budget (tx_ops env tx).
Proof.
  intros env s tx Hs W Hm Hd. unfold tx_granted.
  destruct (coins_tx_inv env s tx) as [(o & s1 & C & O & St & -> & T & D)|(c & Hc & -> & D)];
    cbn [fst snd] in *.
  - rewrite T in *. cbn [zsum fold_right] in *. rewrite Z.add_0_r in *.
    destruct (coins_op_facts env tx o s C W O Hs Hm Hd) as [F Hg]. rewrite St in F.
    destruct (ok_step_within_budget _ _ _ _ St F) as (L & Bm & Bd).
    split; [exact L|]. split; [|split; [rewrite D, gdelta_main; exact Hg|lia]].
    intros cm cf cs. rewrite D. apply (F eq_refl).
  - pose proof (zsum_nonneg mint_budget (tx_ops env tx) (fun o => proj1 (budget_nonneg o))).
    pose proof (zsum_nonneg dep_budget (tx_ops env tx) (fun o => proj2 (budget_nonneg o))).
    split; [exact Hs|]. split; [intros; rewrite D; lia|]. split; [|lia].
    rewrite D. destruct c; try reflexivity. contradiction.
Qed.

Theorem coins_actions_conserve : forall env txs s,
  ledger_ok s = true -> coins_guard env s txs = true ->
  let s' := coins_run env s txs in
  ledger_ok s' = true /\
  main_total s' = main_total s + coins_granted env s txs /\
  (forall cm cf cs, wsum (lw cm cf cs) s'
     = wsum (lw cm cf cs) s + coins_deltas env (gdelta cm cs) s txs).
Proof.
  intros env txs. induction txs as [|tx tl IH]; intros s Hs G.
  - simpl. split; [exact Hs|]. split; [lia|intros; lia].
  - unfold coins_guard in G. apply andb_true_iff in G as [G1 G2].
    simpl in G1. apply andb_true_iff in G1 as [Gw Gtl].
    rewrite coins_ops_cons in G2. destruct (headroom_app s _ _ G2) as (Gm & Gd & Gs').
    destruct (coins_tx_facts env s tx Hs Gw Gm Gd) as (L & Wg & Hg & Bm & Bd).
    rewrite coins_run_cons. cbn [coins_granted coins_deltas].
    set (s1 := fst (fst (coins_tx env s tx))) in *.
    assert (coins_guard env s1 tl = true) as G'.
    { unfold coins_guard. rewrite Gtl. exact (Gs' s1 Bm Bd). }
    destruct (IH s1 L G') as (IL & IM & IW).
    split; [exact IL|]. split.
    + rewrite IM, <- Hg. unfold main_total. rewrite Wg. lia.
    + intros cm cf cs. rewrite IW, Wg. lia.
Qed.

(** no Genesis action succeeds above height 0: supply is constant *)
Lemma tx_granted_later : forall env s tx, (t_h tx =? 0) = false -> tx_granted env s tx = 0.
Proof.
  intros env s tx H. unfold tx_granted.
  destruct (coins_tx_inv env s tx) as [(o & s1 & _ & O & _ & -> & _)|(c & Hc & -> & _)].
  - unfold coins_op in O. destruct (t_act tx); try reflexivity. rewrite H in O. discriminate.
  - destruct c; try reflexivity. contradiction.
Qed.

Lemma coins_granted_later : forall env txs s,
  forallb (fun tx => negb (t_h tx =? 0)) txs = true -> coins_granted env s txs = 0.
Proof.
  intros env txs. induction txs as [|tx tl IH]; intros s H; [reflexivity|].
  simpl in H. apply andb_true_iff in H as [H1 H2]. apply negb_true_iff in H1.
  cbn [coins_granted]. rewrite (tx_granted_later env s tx H1), (IH _ H2). reflexivity.
Qed.

(** a failed transaction writes nothing: what its operation wrote is rolled back *)
Lemma coins_tx_failed_same : forall env s tx,
  snd (fst (coins_tx env s tx)) <> COk -> fst (fst (coins_tx env s tx)) = s.
Proof.
  intros env s tx.
  destruct (coins_tx_inv env s tx) as [(o & s1 & _ & _ & _ & -> & _)|(c & _ & -> & _)];
    [intro X; contradiction X; reflexivity|reflexivity].
Qed.

Theorem coins_actions_conserve_all : forall env txs s,
  ledger_ok s = true -> coins_guard env s txs = true ->
  let s' := coins_run env s txs in
  ledger_ok s' = true /\
  main_total s' = main_total s + coins_granted env s txs /\
  (forallb (fun tx => negb (t_h tx =? 0)) txs = true -> main_total s' = main_total s) /\
  (forall cm cf cs, wsum (lw cm cf cs) s'
     = wsum (lw cm cf cs) s + coins_deltas env (gdelta cm cs) s txs) /\
  (forall s0 tx, snd (fst (coins_tx env s0 tx)) <> COk -> fst (fst (coins_tx env s0 tx)) = s0).
Proof.
  intros env txs s Hs G s'.
  destruct (coins_actions_conserve env txs s Hs G) as (L & M & W).
  split; [exact L|]. split; [exact M|]. split.
  - intro H. fold s' in M. rewrite M, (coins_granted_later env txs s H). lia.
  - split; [exact W|]. intros s0 tx. apply coins_tx_failed_same.
Qed.

(** the KV lists of the receipts are what the chain stores *)

Fixpoint coins_kvs (env : cenv) (s : ledger) (txs : list ctx) : list (key * acct) :=
  match txs with
  | [] => []
  | tx :: tl =>
      (match snd (coins_tx env s tx) with Some rc => r_kv rc | None => [] end)
      ++ coins_kvs env (fst (fst (coins_tx env s tx))) tl
  end.

Lemma coins_tx_keys_ok : forall env s tx, keys_ok s = true ->
  keys_ok (fst (fst (coins_tx env s tx))) = true /\
  fst (fst (coins_tx env s tx))
  = apply_kv (match snd (coins_tx env s tx) with Some rc => r_kv rc | None => [] end) s.
Proof.
  intros env s tx Hs.
  destruct (coins_tx_inv env s tx) as [(o & s1 & _ & _ & St & -> & _)|(c & _ & -> & _)];
    cbn [fst snd]; [|split; [exact Hs|reflexivity]].
  pose proof (step_keys_ok [] s o Hs) as K. rewrite St in K.
  split; [exact K|]. apply (step_rprim [] s o s1 Hs St).
Qed.

Theorem coins_state_from_receipts : forall env txs s, keys_ok s = true ->
  keys_ok (coins_run env s txs) = true /\
  coins_run env s txs = apply_kv (coins_kvs env s txs) s.
Proof.
  intros env txs. induction txs as [|tx tl IH]; intros s Hs; [split; [exact Hs|reflexivity]|].
  rewrite coins_run_cons. cbn [coins_kvs]. destruct (coins_tx_keys_ok env s tx Hs) as [K E].
  destruct (IH _ K) as [IK IE]. split; [exact IK|].
  rewrite apply_kv_app, <- E. exact IE.
Qed.
