(** C15 — basic lemmas: keys, get/put, weighted sums, loads and saves, int64,
    and the shape the composite operations share. *)
From Coq Require Import List ZArith NArith Bool Lia.
From C33 Require Import Lib.Harness C15.Model C15.Spec C15.ModelReceipt.
Import ListNotations.
Open Scope Z_scope.

Arguments rec_okb : simpl never.

Lemma key_eqb_eq : forall k k', key_eqb k k' = true <-> k = k'.
Proof.
  intros [a|x a] [b|y b]; simpl; split; intro H; try discriminate.
  - apply bytes_eqb_eq in H. congruence.
  - inversion H. apply bytes_eqb_refl.
  - apply andb_true_iff in H as [H1 H2]. apply bytes_eqb_eq in H1, H2. congruence.
  - inversion H. rewrite !bytes_eqb_refl. reflexivity.
Qed.

Lemma key_eqb_refl : forall k, key_eqb k k = true.
Proof. intro k. apply key_eqb_eq. reflexivity. Qed.

Lemma key_eqb_neq : forall k k', key_eqb k k' = false <-> k <> k'.
Proof.
  intros k k'. rewrite <- key_eqb_eq. destruct (key_eqb k k'); split; congruence.
Qed.

Lemma get_put_same : forall k r s, get k (put k r s) = Some r.
Proof.
  intros k r s. induction s as [|[k' r'] tl IH]; simpl.
  - rewrite key_eqb_refl. reflexivity.
  - destruct (key_eqb k k') eqn:E; simpl.
    + rewrite key_eqb_refl. reflexivity.
    + rewrite E. exact IH.
Qed.

Lemma get_put_other : forall k k' r s, k <> k' -> get k' (put k r s) = get k' s.
Proof.
  intros k k' r s Hne. assert (key_eqb k' k = false) as N by (apply key_eqb_neq; congruence).
  induction s as [|[k0 r0] tl IH]; simpl.
  - rewrite N. reflexivity.
  - destruct (key_eqb k k0) eqn:E; simpl.
    + apply key_eqb_eq in E. subst k0. rewrite N. reflexivity.
    + destruct (key_eqb k' k0); [reflexivity|exact IH].
Qed.

(** the hypothesis: the empty record a load makes up for a missing key weighs
    nothing *)
Lemma wsum_put : forall w k r s d, w k (mkAcct d 0 0) = 0 ->
  wsum w (put k r s) = wsum w s - w k (load_key s k d) + w k r.
Proof.
  intros w k r s d H0. unfold load_key. induction s as [|[k' r'] tl IH]; simpl.
  - lia.
  - destruct (key_eqb k k') eqn:E; simpl.
    + apply key_eqb_eq in E. subst k'. lia.
    + rewrite IH. lia.
Qed.

(** used with [ledger_ok] and with [keys_ok] *)
Lemma forallb_put : forall (f : key * acct -> bool) k r s,
  forallb f s = true -> f (k, r) = true -> forallb f (put k r s) = true.
Proof.
  intros f k r s Hs Hr. induction s as [|[k' r'] tl IH]; simpl.
  - rewrite Hr. reflexivity.
  - simpl in Hs. apply andb_true_iff in Hs as [H1 H2].
    destruct (key_eqb k k'); simpl.
    + rewrite Hr. exact H2.
    + rewrite H1. apply IH. exact H2.
Qed.

Lemma forallb_get : forall (f : key * acct -> bool) k r s,
  forallb f s = true -> get k s = Some r -> f (k, r) = true.
Proof.
  intros f k r s Hs Hg. induction s as [|[k' r'] tl IH]; simpl in *.
  - discriminate.
  - apply andb_true_iff in Hs as [H1 H2].
    destruct (key_eqb k k') eqn:E.
    + apply key_eqb_eq in E. subst k'. inversion Hg. subst r'. exact H1.
    + apply IH; assumption.
Qed.

Definition w_nonneg (w : key -> acct -> Z) (s : ledger) : Prop :=
  Forall (fun kr => 0 <= w (fst kr) (snd kr)) s.

Lemma wsum_nonneg : forall w s, w_nonneg w s -> 0 <= wsum w s.
Proof.
  intros w s H. induction H as [|[k r] tl Hx Htl IH]; simpl in *; lia.
Qed.

Lemma get_le_wsum : forall w s k r,
  w_nonneg w s -> get k s = Some r -> w k r <= wsum w s.
Proof.
  intros w s k r H. induction H as [|[k' r'] tl Hx Htl IH]; simpl; intro Hg.
  - discriminate.
  - pose proof (wsum_nonneg w tl Htl) as Hn. simpl in Hx.
    destruct (key_eqb k k') eqn:E.
    + apply key_eqb_eq in E. subst k'. inversion Hg. subst r'. lia.
    + specialize (IH Hg). lia.
Qed.

Lemma get2_le_wsum : forall w s k1 r1 k2 r2,
  w_nonneg w s -> k1 <> k2 -> get k1 s = Some r1 -> get k2 s = Some r2 ->
  w k1 r1 + w k2 r2 <= wsum w s.
Proof.
  intros w s k1 r1 k2 r2 H Hne. induction H as [|[k' r'] tl Hx Htl IH]; simpl; intros G1 G2.
  - discriminate.
  - simpl in Hx.
    destruct (key_eqb k1 k') eqn:E1; destruct (key_eqb k2 k') eqn:E2.
    + apply key_eqb_eq in E1, E2. congruence.
    + apply key_eqb_eq in E1. subst k'. inversion G1. subst r'.
      pose proof (get_le_wsum w tl k2 r2 Htl G2). lia.
    + apply key_eqb_eq in E2. subst k'. inversion G2. subst r'.
      pose proof (get_le_wsum w tl k1 r1 Htl G1). lia.
    + specialize (IH G1 G2). lia.
Qed.

Lemma load_key_le : forall w s k d,
  w_nonneg w s -> w k (mkAcct d 0 0) = 0 -> w k (load_key s k d) <= wsum w s.
Proof.
  intros w s k d Hn H0. unfold load_key. destruct (get k s) eqn:G.
  - exact (get_le_wsum _ _ _ _ Hn G).
  - rewrite H0. exact (wsum_nonneg _ _ Hn).
Qed.

Lemma load_key2_le : forall w s k1 d1 k2 d2,
  w_nonneg w s -> k1 <> k2 -> w k1 (mkAcct d1 0 0) = 0 -> w k2 (mkAcct d2 0 0) = 0 ->
  w k1 (load_key s k1 d1) + w k2 (load_key s k2 d2) <= wsum w s.
Proof.
  intros w s k1 d1 k2 d2 Hn Hne H1 H2.
  pose proof (load_key_le w s k1 d1 Hn H1) as L1. pose proof (load_key_le w s k2 d2 Hn H2) as L2.
  pose proof (wsum_nonneg _ _ Hn) as L0. unfold load_key in *.
  destruct (get k1 s) eqn:G1; destruct (get k2 s) eqn:G2; rewrite ?H1, ?H2 in *; try lia.
  exact (get2_le_wsum _ _ _ _ _ _ Hn Hne G1 G2).
Qed.

Lemma rec_okb_inv : forall k r, rec_okb (k, r) = true ->
  norm (a_addr r) = (match k with MainK a => a | SubK _ a => a end) /\ 0 <= a_bal r /\ 0 <= a_frz r.
Proof.
  intros k r H. unfold rec_okb in H.
  apply andb_true_iff in H as [H Hf]. apply andb_true_iff in H as [Hk Hb].
  apply Z.leb_le in Hb, Hf. split; [|split; assumption].
  destruct k; apply bytes_eqb_eq in Hk; exact Hk.
Qed.

Lemma ledger_ok_nonneg : forall s cm cf cs,
  ledger_ok s = true ->
  (forall a, 0 <= cm a) -> (forall a, 0 <= cf a) -> (forall a, 0 <= cs a) ->
  w_nonneg (lw cm cf cs) s.
Proof.
  intros s cm cf cs Hs Hm Hf Hc. apply Forall_forall. intros [k r] Hin.
  unfold ledger_ok in Hs. rewrite forallb_forall in Hs.
  destruct (rec_okb_inv k r (Hs _ Hin)) as (_ & Hb & Hfr).
  destruct k as [a|x a]; unfold lw, val; simpl.
  - specialize (Hm a). specialize (Hf a). nia.
  - specialize (Hc x). nia.
Qed.

Lemma load_main_ok : forall s a, ledger_ok s = true ->
  norm (a_addr (load_main s a)) = norm a /\ 0 <= a_bal (load_main s a) /\ 0 <= a_frz (load_main s a).
Proof.
  intros s a Hs. unfold load_main. destruct (get (MainK (norm a)) s) eqn:G.
  - exact (rec_okb_inv _ _ (forallb_get _ _ _ _ Hs G)).
  - simpl. repeat split; lia.
Qed.

Lemma load_sub_ok : forall s a x, ledger_ok s = true ->
  norm (a_addr (load_sub s a x)) = norm a /\ 0 <= a_bal (load_sub s a x) /\ 0 <= a_frz (load_sub s a x).
Proof.
  intros s a x Hs. unfold load_sub. destruct (get (SubK x (norm a)) s) eqn:G.
  - exact (rec_okb_inv _ _ (forallb_get _ _ _ _ Hs G)).
  - simpl. repeat split; lia.
Qed.

Lemma rec_okb_saved : forall k r, 0 <= a_bal r -> 0 <= a_frz r ->
  norm (a_addr r) = (match k with MainK a => a | SubK _ a => a end) -> rec_okb (k, r) = true.
Proof.
  intros k r Hb Hf Hk. unfold rec_okb.
  rewrite (proj2 (Z.leb_le _ _) Hb), (proj2 (Z.leb_le _ _) Hf), !andb_true_r.
  destruct k; apply bytes_eqb_eq; exact Hk.
Qed.

Lemma load_main_save_main_other : forall s r' a,
  norm (a_addr r') <> norm a -> load_main (save_main s r') a = load_main s a.
Proof.
  intros s r' a Hne. unfold load_main, save_main.
  rewrite get_put_other; [reflexivity|]. congruence.
Qed.

Lemma load_main_save_sub : forall s x r' a, load_main (save_sub s x r') a = load_main s a.
Proof.
  intros. unfold load_main, save_sub. rewrite get_put_other; [reflexivity|discriminate].
Qed.

Lemma load_sub_save_main : forall s r' a x, load_sub (save_main s r') a x = load_sub s a x.
Proof.
  intros. unfold load_sub, save_main. rewrite get_put_other; [reflexivity|discriminate].
Qed.

Lemma load_sub_save_sub_other : forall s x r' a,
  norm (a_addr r') <> norm a -> load_sub (save_sub s x r') a x = load_sub s a x.
Proof.
  intros s x r' a Hne. unfold load_sub, save_sub.
  rewrite get_put_other; [reflexivity|]. congruence.
Qed.

Lemma main_total_nonneg : forall s, ledger_ok s = true -> w_nonneg (lw c1 c1 c0) s.
Proof. intros s Hs. apply ledger_ok_nonneg; [exact Hs| | |]; intro; unfold c0, c1; lia. Qed.

Lemma sub_total_nonneg : forall s, ledger_ok s = true -> w_nonneg (lw c0 c0 c1) s.
Proof. intros s Hs. apply ledger_ok_nonneg; [exact Hs| | |]; intro; unfold c0, c1; lia. Qed.

Lemma load_main_le : forall s a, ledger_ok s = true ->
  0 <= a_bal (load_main s a) /\ 0 <= a_frz (load_main s a) /\
  a_bal (load_main s a) + a_frz (load_main s a) <= main_total s.
Proof.
  intros s a Hs. destruct (load_main_ok s a Hs) as (_ & Hb & Hf).
  pose proof (load_key_le _ s (MainK (norm a)) a (main_total_nonneg s Hs) eq_refl) as H.
  change (1 * a_bal (load_main s a) + 1 * a_frz (load_main s a) <= main_total s) in H. lia.
Qed.

Lemma load_main2_le : forall s a b, ledger_ok s = true -> norm a <> norm b ->
  val (load_main s a) + val (load_main s b) <= main_total s.
Proof.
  intros s a b Hs Hne. assert (MainK (norm a) <> MainK (norm b)) as Hk by congruence.
  pose proof (load_key2_le _ s _ a _ b (main_total_nonneg s Hs) Hk eq_refl eq_refl) as H.
  change (1 * a_bal (load_main s a) + 1 * a_frz (load_main s a)
          + (1 * a_bal (load_main s b) + 1 * a_frz (load_main s b)) <= main_total s) in H.
  unfold val. lia.
Qed.

Lemma load_sub_le : forall s a x, ledger_ok s = true ->
  0 <= a_bal (load_sub s a x) /\ 0 <= a_frz (load_sub s a x) /\
  a_bal (load_sub s a x) + a_frz (load_sub s a x) <= sub_total s.
Proof.
  intros s a x Hs. destruct (load_sub_ok s a x Hs) as (_ & Hb & Hf).
  pose proof (load_key_le _ s (SubK x (norm a)) a (sub_total_nonneg s Hs) eq_refl) as H.
  change (1 * val (load_sub s a x) <= sub_total s) in H. unfold val in H. lia.
Qed.

Lemma load_sub2_le : forall s a b x, ledger_ok s = true -> norm a <> norm b ->
  val (load_sub s a x) + val (load_sub s b x) <= sub_total s.
Proof.
  intros s a b x Hs Hne. assert (SubK x (norm a) <> SubK x (norm b)) as Hk by congruence.
  pose proof (load_key2_le _ s _ a _ b (sub_total_nonneg s Hs) Hk eq_refl eq_refl) as H.
  change (1 * val (load_sub s a x) + 1 * val (load_sub s b x) <= sub_total s) in H. lia.
Qed.

Lemma wrap64_id : forall z, - two63 <= z < two63 -> wrap64 z = z.
Proof.
  intros z H. unfold wrap64. rewrite Z.mod_small; [lia|].
  unfold two63, two64 in *. lia.
Qed.

Lemma wrap64_add_l : forall u m, wrap64 (wrap64 u + m) = wrap64 (u + m).
Proof.
  intros u m. unfold wrap64.
  replace ((u + two63) mod two64 - two63 + m + two63) with ((u + two63) mod two64 + m) by lia.
  rewrite Zplus_mod_idemp_l. do 2 f_equal. lia.
Qed.

Lemma safe_add_some : forall b a n,
  0 <= b <= max_token -> 0 <= a < two63 -> safe_add b a = Some n -> n = b + a /\ n <= max_token.
Proof.
  intros b a n Hb Ha H. unfold safe_add in H.
  destruct (Z_lt_dec (b + a) two63) as [Hlt|Hge].
  - rewrite wrap64_id in H by (unfold two63 in *; lia).
    destruct ((b + a <? a) || (max_token <? b + a)) eqn:E; [discriminate|].
    apply orb_false_iff in E as [_ E]. apply Z.ltb_ge in E. inversion H. lia.
  - exfalso.
    assert (wrap64 (b + a) = b + a - two64) as Hw.
    { unfold wrap64.
      replace (b + a + two63) with ((b + a + two63 - two64) + 1 * two64) by lia.
      rewrite Z.mod_add by (unfold two64; lia).
      rewrite Z.mod_small; unfold two63, two64, max_token in *; lia. }
    rewrite Hw in H.
    assert (b + a - two64 <? a = true) as Hc
      by (apply Z.ltb_lt; unfold two64, max_token in *; lia).
    rewrite Hc in H. discriminate.
Qed.

Lemma safe_add_ok : forall b a, 0 <= b -> 0 <= a -> b + a <= max_token -> safe_add b a = Some (b + a).
Proof.
  intros b a Hb Ha H. unfold safe_add.
  rewrite wrap64_id by (unfold two63, max_token in *; lia).
  assert (b + a <? a = false) as -> by (apply Z.ltb_ge; lia).
  assert (max_token <? b + a = false) as -> by (apply Z.ltb_ge; lia).
  reflexivity.
Qed.

Lemma check_amount_inv : forall m, check_amount m = true -> 0 < m < max_amount.
Proof.
  intros m H. unfold check_amount in H. apply andb_true_iff in H as [H1 H2].
  apply Z.ltb_lt in H1, H2. lia.
Qed.

(** TransferToExec, TransferWithdraw, ExecDepositFrozen and GenesisInitExec run
    a first part [p] from [s], then a second part [q] in the state [p] left.
    An error of [p] is returned with [s]; a failure of [q] is returned with the
    state after [p] — as a panic, or (ExecDepositFrozen) as the error it is. *)
Definition then_ {St : Type} (s : St) (p : St * res) (q : St -> St * res) (panic : bool) : St * res :=
  match p with
  | (s1, ROk) =>
      match q s1 with
      | (s2, ROk) => (s2, ROk)
      | (_, r) => (s1, if panic then RPanic else r)
      end
  | (_, r) => (s, r)
  end.

Lemma then_ok_inv : forall St (s : St) p q panic s',
  then_ s p q panic = (s', ROk) -> exists s1, p = (s1, ROk) /\ q s1 = (s', ROk).
Proof.
  intros St s [s1 r1] q panic s' H. unfold then_ in H.
  destruct r1; try discriminate. destruct (q s1) as [s2 r2] eqn:Q.
  destruct r2; try (destruct panic; discriminate).
  injection H as <-. exists s1. split; [reflexivity|exact Q].
Qed.

Lemma transfer_to_exec_then : forall s f t m,
  transfer_to_exec s f t m = then_ s (transfer s f t m) (fun s1 => exec_deposit s1 f t m) true.
Proof. reflexivity. Qed.

Lemma transfer_withdraw_then : forall s f t m,
  transfer_withdraw s f t m =
  match check_transfer s t m with
  | ROk => then_ s (exec_withdraw s t f m) (fun s1 => transfer s1 t f m) true
  | e => (s, e)
  end.
Proof. reflexivity. Qed.

Lemma exec_deposit_frozen_then : forall miners s a x m,
  exec_deposit_frozen miners s a x m =
  if bytes_eqb a x then (s, ESameToRecv) else
  then_ s (exec_issue miners s x m) (fun s1 => exec_deposit_frozen_inner s1 a x m) false.
Proof. reflexivity. Qed.

Lemma genesis_init_exec_then : forall s a m x,
  genesis_init_exec s a m x = then_ s (genesis_init s x m) (fun s1 => exec_deposit s1 a x m) true.
Proof. reflexivity. Qed.
