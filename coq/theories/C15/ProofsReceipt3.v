(** C15 — when a receipt writes every key once (so that each log's Current is
    the account after the operation), and the refutation of the unguarded
    statement (finding 1). *)
From Coq Require Import List ZArith NArith Bool Lia.
From C33 Require Import Lib.Harness C15.Model C15.Spec C15.ModelReceipt C15.ProofsBase
  C15.ProofsReceipt C15.Proofs C15.ProofsRefute.
Import ListNotations.
Open Scope Z_scope.

Lemma sub_key_neq : forall (x a b : bytes), a <> b -> bytes_eqb x x && bytes_eqb a b = false.
Proof. intros x a b H. rewrite (proj2 (bytes_eqb_neq a b) H). apply andb_false_r. Qed.

Lemma transfer_ok_keys : forall s f t m s', keys_ok s = true ->
  transfer s f t m = (s', ROk) -> norm f <> norm t.
Proof.
  intros s f t m s' Hs H. unfold transfer in H.
  destruct (check_amount m) eqn:C; simpl in H; [|discriminate].
  destruct (bytes_eqb (a_addr (load_main s f)) (a_addr (load_main s t))) eqn:E; [discriminate|].
  destruct (0 <=? wrap64 (a_bal (load_main s f) - m)) eqn:B; [|discriminate].
  apply check_amount_inv in C. eapply transfer_keys_differ; eassumption.
Qed.

Ltac kd_norm Hs :=
  cbn [r_kv rc_transfer rc_main rc_sub rc1 rc_merge rc_exec2 app map fst kv_main kv_sub
       set_bal set_bf a_addr keys_distinct existsb key_eqb orb negb andb];
  repeat rewrite (load_main_norm _ _ Hs); repeat rewrite (load_sub_norm _ _ _ Hs).

Lemma kd_transfer : forall s f t m, keys_ok s = true -> norm f <> norm t ->
  keys_distinct (map fst (r_kv (rc_transfer s f t m))) = true.
Proof.
  intros s f t m Hs Hne. unfold rc_transfer. kd_norm Hs.
  rewrite (proj2 (bytes_eqb_neq _ _) Hne). reflexivity.
Qed.

Theorem receipt_keys_distinct : forall miners s o s',
  keys_ok s = true -> step miners s o = (s', ROk) -> rcpt_guard o = true ->
  keys_distinct (map fst (r_kv (receipt_of miners s o))) = true.
Proof.
  intros miners s o s' Hs H G. destruct o; cbn [step receipt_of rcpt_guard] in *;
    try reflexivity.
  - (* Transfer *)
    apply kd_transfer; [exact Hs|]. eapply transfer_ok_keys; eassumption.
  - (* TransferToExec *)
    rewrite transfer_to_exec_then in H. apply then_ok_inv in H as (s1 & T & _).
    pose proof (transfer_ok_keys _ _ _ _ _ Hs T) as Hne.
    unfold rc_transfer_to_exec, rc_transfer, rc_exec_deposit. kd_norm Hs.
    rewrite (proj2 (bytes_eqb_neq _ _) Hne). reflexivity.
  - (* TransferWithdraw *)
    rewrite transfer_withdraw_then in H. destruct (check_transfer s to amt); try discriminate.
    apply then_ok_inv in H as (s1 & W & T).
    pose proof (step_to_keys_ok [] s (OExecWithdraw to from amt) s1 ROk Hs W) as K1.
    pose proof (transfer_ok_keys _ _ _ _ _ K1 T) as Hne.
    unfold rc_transfer_withdraw, rc_transfer, rc_exec_withdraw. rewrite W. cbn [fst].
    kd_norm K1. rewrite (proj2 (bytes_eqb_neq _ _) Hne). reflexivity.
  - (* ExecTransfer *)
    unfold exec_transfer in H. destruct (bytes_eqb from to) eqn:E; [discriminate|].
    simpl in G. apply negb_true_iff in G. apply bytes_eqb_neq in G.
    unfold rc_exec_transfer. kd_norm Hs. rewrite (sub_key_neq _ _ _ G). reflexivity.
  - (* ExecTransferFrozen *)
    unfold exec_transfer_frozen in H. destruct (bytes_eqb from to) eqn:E; [discriminate|].
    simpl in G. apply negb_true_iff in G. apply bytes_eqb_neq in G.
    unfold rc_exec_transfer_frozen. kd_norm Hs. rewrite (sub_key_neq _ _ _ G). reflexivity.
Qed.

Theorem receipt_logs_after_guarded : forall miners s o s',
  keys_ok s = true -> step miners s o = (s', ROk) -> rcpt_guard o = true ->
  keys_distinct (map fst (r_kv (receipt_of miners s o))) = true /\
  logs_after s' (receipt_of miners s o).
Proof.
  intros miners s o s' Hs H G.
  pose proof (receipt_keys_distinct miners s o s' Hs H G) as Hd. split; [exact Hd|].
  destruct (receipt_matches_state miners s o s' Hs H) as (_ & _ & _ & _ & Ha). exact (Ha Hd).
Qed.

Lemma op_guard_rcpt_guard : forall o, op_guard o = true -> rcpt_guard o = true.
Proof. intros o H. destruct o; try reflexivity; exact H. Qed.

(** unguarded: refuted by the finding-1 witness *)
Definition receipt_logs_after_full : Prop :=
  forall miners s o s', keys_ok s = true -> step miners s o = (s', ROk) ->
  logs_after s' (receipt_of miners s o).

Definition rw_state : ledger := run [] [] [OGenesisInitExec w_lo 1000 w_ex].
Definition rw_op : op := OExecTransfer w_lo w_up w_ex 100.

(** the witness is the alias history of finding 1: the state before, the step
    and its receipt are each evaluated once *)
Lemma rw_state_value : rw_state = alias_ledger 1000.
Proof. unfold rw_state, run. cbn [fold_left]. rewrite alias_grant. reflexivity. Qed.

Definition rw_rcpt : receipt :=
  let r b := mkAcct w_lo b 0 in
  mkRcpt ty_exec_ok [(SubK w_ex w_lo, r 900); (SubK w_ex w_lo, r 1100)]
    [mkLog ty_exec_transfer (Some w_ex) (r 1000) (r 900);
     mkLog ty_exec_transfer (Some w_ex) (r 1000) (r 1100)].

Lemma rw_receipt_value : receipt_of [] (alias_ledger 1000) rw_op = rw_rcpt.
Proof. vm_compute. reflexivity. Qed.

Example rw_receipt :
  (* the receipt writes the one record twice (900, then 1100) and its first
     log says "current 900" while the ledger holds 1100 *)
  map (fun e => a_bal (snd e)) (r_kv (receipt_of [] rw_state rw_op)) = [900; 1100] /\
  map (fun l => (a_bal (l_prev l), a_bal (l_cur l))) (r_logs (receipt_of [] rw_state rw_op))
    = [(1000, 900); (1000, 1100)] /\
  answer (fst (step [] rw_state rw_op)) (QSub w_lo w_ex) = (1100, 0) /\
  keys_distinct (map fst (r_kv (receipt_of [] rw_state rw_op))) = false /\
  rcpt_guard rw_op = false.
Proof.
  rewrite rw_state_value, rw_receipt_value. unfold rw_op at 1. rewrite alias_transfer.
  vm_compute. repeat split; reflexivity.
Qed.

Lemma receipt_logs_after_refuted : ~ receipt_logs_after_full.
Proof.
  intro H.
  specialize (H [] rw_state rw_op (alias_ledger 1100) (run_keys_ok [] _ [] eq_refl)).
  rewrite rw_state_value, rw_receipt_value in H. specialize (H alias_transfer).
  (* the first log's Current against the ledger *)
  apply Forall_inv in H. vm_compute in H. discriminate H.
Qed.

(** non-vacuity: a composite operation on a populated ledger, all parts of the theorem *)
Example receipt_plain :
  let s := run [w_miner] [] [OGenesisInit w_u1 1000; OTransferToExec w_u1 w_miner 300] in
  let o := OTransferWithdraw w_u1 w_miner 120 in
  let rc := receipt_of [w_miner] s o in
  keys_ok s = true /\ snd (step [w_miner] s o) = ROk /\ rcpt_guard o = true /\
  length (r_kv rc) = 3%nat /\ keys_distinct (map fst (r_kv rc)) = true /\
  map l_ty (r_logs rc) = [ty_exec_withdraw; ty_transfer; ty_transfer] /\
  map (fun l => (a_bal (l_prev l), a_bal (l_cur l))) (r_logs rc)
    = [(300, 180); (300, 180); (700, 820)].
Proof. vm_compute. repeat split; reflexivity. Qed.
