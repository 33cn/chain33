(** C01 — proofs, part 3: [remove] (node.go remove, tree.go Remove / DelKVPair).
    Removing a key keeps the search-tree order (including the re-keying of
    inner nodes through [newKey]), the stored heights/sizes and the AVL
    balance, never panics, and acts on the in-order leaves as deletion from
    the association list. *)
From Coq Require Import List ZArith NArith Lia Bool.
From C33 Require Import C01.Keys C01.KeysFacts C01.Model C01.Store C01.Spec C01.Inv C01.Proofs.
Import ListNotations.
Open Scope Z_scope.

Lemma sdel_notin : forall k m, ~ In k (map fst m) -> sdel k m = m.
Proof.
  intros k m. induction m as [|[k' v'] m IH]; intros H; simpl; [reflexivity|].
  destruct (beq k k') eqn:E.
  - apply beq_iff in E. subst. exfalso. apply H. simpl; auto.
  - f_equal. apply IH. intro. apply H. simpl; auto.
Qed.

Lemma sdel_app_l : forall k a b, In k (map fst a) -> sdel k (a ++ b) = sdel k a ++ b.
Proof.
  intros k a b. induction a as [|[k' v'] a IH]; intros H; simpl in *; [destruct H|].
  destruct (beq k k') eqn:E; [reflexivity|].
  destruct H as [H|H]; [subst; rewrite beq_refl in E; discriminate|].
  simpl. f_equal. apply IH. exact H.
Qed.

Lemma sdel_app_r : forall k a b, ~ In k (map fst a) -> sdel k (a ++ b) = a ++ sdel k b.
Proof.
  intros k a b. induction a as [|[k' v'] a IH]; intros H; simpl in *; [reflexivity|].
  destruct (beq k k') eqn:E.
  - apply beq_iff in E. subst. exfalso. apply H. auto.
  - f_equal. apply IH. intro. apply H. auto.
Qed.

Lemma sdel_incl : forall k m, incl (sdel k m) m.
Proof.
  intros k m x. induction m as [|[k' v'] m IH]; cbn [sdel]; [exact (fun H => H)|].
  destruct (beq k k'); intros H; [right; exact H|].
  destruct H as [H|H]; [left; exact H|right; exact (IH H)].
Qed.

Lemma sget_in : forall m k, In k (map fst m) -> exists v, sget m k = Some v.
Proof.
  induction m as [|[k' v'] m IH]; intros k H; simpl in *; [destruct H|].
  destruct (beq k k') eqn:E; [eauto|].
  destruct H as [H|H]; [subst; rewrite beq_refl in E; discriminate|]. apply IH. exact H.
Qed.

Lemma leftmost_min : forall t x, ordered t -> In x (keys t) -> blt x (leftmost t) = false.
Proof.
  induction t as [k v|nk h s l IHl r IHr]; intros x HO Hx.
  - unfold keys in Hx. simpl in Hx. destruct Hx as [Hx|[]]. subst. apply blt_irrefl.
  - destruct HO as [HOl [HOr [Hl [Hr Hk]]]]. rewrite keys_node in Hx. cbn [leftmost].
    apply in_app_or in Hx. destruct Hx as [Hx|Hx]; [apply IHl; auto|].
    destruct (blt x (leftmost l)) eqn:C; [|reflexivity].
    assert (H1 : blt (leftmost l) nk = true) by (apply Hl, leftmost_in).
    pose proof (blt_trans _ _ _ C H1) as C2. rewrite (Hr x Hx) in C2. discriminate.
Qed.

(** What [remove t k] may return.  [rm_newkey] is Go's newKey: when the leftmost
    leaf went, the new leftmost key, for the ancestor that carried the old one
    as its node key. *)
Definition rm_ok (t : tree) (k : bytes) (res : rm_result) : Prop :=
  if rm_removed res then
    In k (keys t) /\ rm_value res = sget (elements t) k /\
    match rm_node res with
    | None => exists v, t = Leaf k v /\ rm_newkey res = None
    | Some t' =>
        ordered t' /\ sized t' /\ elements t' = sdel k (elements t) /\
        match rm_newkey res with
        | Some x => x = leftmost t'
        | None => leftmost t' = leftmost t
        end
    end
  else
    rm_node res = Some t /\ ~ In k (keys t) /\ rm_value res = None /\ rm_newkey res = None.

Theorem remove_spec : forall t k,
  ordered t -> sized t ->
  exists res, remove t k = Some res /\ rm_ok t k res /\
    (balanced t ->
     match rm_node res with
     | Some t' => balanced t' /\ height t - 1 <= height t' <= height t
     | None => True
     end).
Proof.
  induction t as [lk lv|nk h s l IHl r IHr]; intros k HO HS.
  - cbn [remove]. destruct (beq k lk) eqn:E.
    + apply beq_iff in E. subst lk. eexists. split; [reflexivity|]. split; [|exact (fun _ => I)].
      unfold rm_ok. cbn. rewrite beq_refl. repeat split; eauto.
    + eexists. split; [reflexivity|]. split; [|cbn; intros _; split; [exact I|lia]].
      unfold rm_ok. cbn. repeat split; auto.
      intros [H|[]]. subst. rewrite beq_refl in E. discriminate.
  - pose proof HO as [HOl [HOr [Hl [Hr Hk]]]]. pose proof HS as [HSl [HSr [Hh Hs]]].
    pose proof (sized_height_nonneg l HSl). pose proof (sized_height_nonneg r HSr).
    cbn [remove]. destruct (blt k nk) eqn:B.
    + assert (NR : ~ In k (keys r)) by (intro Hx; rewrite (Hr k Hx) in B; discriminate).
      destruct (IHl k HOl HSl) as [rl [E [OK HBl']]]. rewrite E. unfold rm_ok in OK.
      destruct (rm_removed rl) eqn:RM; cbn [negb].
      * destruct OK as [INl [VAL ND]].
        assert (VALt : rm_value rl = sget (elements l ++ elements r) k).
        { rewrite sget_app, VAL. destruct (sget_in _ _ INl) as [v0 ->]. reflexivity. }
        destruct (rm_node rl) as [l'|] eqn:RN.
        -- destruct ND as [HOl' [HSl' [HEl' NK]]].
           assert (HO2 : ordered (Node nk h s l' r)).
           { simpl. repeat split; auto. intros x Hx. apply Hl. unfold keys in *. rewrite HEl' in Hx.
             exact (incl_map fst (sdel_incl k _) x Hx). }
           destruct (rebalance nk h s l' r (height l) (height r) HO2 HSl' HSr) as [t' [E2 [HO3 [HS3 [HE3 HA]]]]].
           rewrite E2. eexists. split; [reflexivity|].
           cbn [rm_ok rm_removed rm_value rm_node rm_newkey elements]. split.
           ++ split; [rewrite keys_node; apply in_or_app; auto|]. split; [exact VALt|].
              split; [exact HO3|]. split; [exact HS3|]. split.
              ** rewrite HE3, HEl'. symmetry. apply sdel_app_l. exact INl.
              ** rewrite (leftmost_of_elements (Node nk h s l' r) t' HE3). exact NK.
           ++ intros [HBl [HBr HD]]. destruct (HBl' HBl) as [HBl2 Hb]. cbn [height]. apply HA; auto; lia.
        -- destruct ND as [v0 [EL NK]]. subst l.
           eexists. split; [reflexivity|].
           cbn [rm_ok rm_removed rm_value rm_node rm_newkey elements]. split.
           ++ split; [rewrite keys_node; apply in_or_app; left; exact INl|].
              split; [exact VALt|]. split; [exact HOr|]. split; [exact HSr|]. split; [|exact Hk].
              simpl. rewrite beq_refl. reflexivity.
           ++ intros [_ [HBr HD]]. split; [exact HBr|]. cbn [height] in *. lia.
      * destruct OK as [RN [NI [VAL NK]]].
        eexists. split; [reflexivity|].
        cbn [rm_ok rm_removed rm_value rm_node rm_newkey elements]. split.
        -- split; [reflexivity|]. split; [|auto].
           rewrite keys_node. intro Hx.
           destruct (in_app_or _ _ _ Hx) as [H1|H1]; [exact (NI H1)|exact (NR H1)].
        -- intros HB. split; [exact HB|]. lia.
    + assert (NL : ~ In k (keys l)) by (intro Hx; rewrite (Hl k Hx) in B; discriminate).
      destruct (IHr k HOr HSr) as [rr [E [OK HBr']]]. rewrite E. unfold rm_ok in OK.
      destruct (rm_removed rr) eqn:RM; cbn [negb].
      * destruct OK as [INr [VAL ND]].
        assert (VALt : rm_value rr = sget (elements l ++ elements r) k).
        { rewrite sget_app, (sget_notin _ _ NL). exact VAL. }
        destruct (rm_node rr) as [r'|] eqn:RN.
        -- destruct ND as [HOr' [HSr' [HEr' NK]]].
           set (nk' := match rm_newkey rr with Some k' => k' | None => nk end).
           assert (HNK : nk' = leftmost r').
           { unfold nk'. destruct (rm_newkey rr); [exact NK|]. rewrite NK. exact Hk. }
           assert (SUB : forall x, In x (keys r') -> In x (keys r)).
           { intros x Hx. unfold keys in *. rewrite HEr' in Hx.
             exact (incl_map fst (sdel_incl k _) x Hx). }
           assert (GE : blt nk' nk = false).
           { apply Hr, SUB. rewrite HNK. apply leftmost_in. }
           assert (HO2 : ordered (Node nk' h s l r')).
           { simpl. repeat split; auto.
             - intros x Hx. apply (blt_le_trans x nk nk'); [apply Hl; exact Hx|exact GE].
             - intros x Hx. rewrite HNK. apply leftmost_min; auto. }
           destruct (rebalance nk' h s l r' (height l) (height r) HO2 HSl HSr') as [t' [E2 [HO3 [HS3 [HE3 HA]]]]].
           rewrite E2. eexists. split; [reflexivity|].
           cbn [rm_ok rm_removed rm_value rm_node rm_newkey elements]. split.
           ++ split; [rewrite keys_node; apply in_or_app; auto|]. split; [exact VALt|].
              split; [exact HO3|]. split; [exact HS3|]. split.
              ** rewrite HE3, HEr'. symmetry. apply sdel_app_r. exact NL.
              ** exact (leftmost_of_elements (Node nk' h s l r') t' HE3).
           ++ intros [HBl [HBr HD]]. destruct (HBr' HBr) as [HBr2 Hb]. cbn [height]. apply HA; auto; lia.
        -- destruct ND as [v0 [EL NK]]. subst r.
           eexists. split; [reflexivity|].
           cbn [rm_ok rm_removed rm_value rm_node rm_newkey elements]. split.
           ++ split; [rewrite keys_node; apply in_or_app; right; unfold keys; simpl; auto|].
              split; [exact VALt|]. split; [exact HOl|]. split; [exact HSl|]. split; [|reflexivity].
              rewrite sdel_app_r by exact NL. simpl. rewrite beq_refl. rewrite app_nil_r. reflexivity.
           ++ intros [HBl [_ HD]]. split; [exact HBl|]. cbn [height] in *. lia.
      * destruct OK as [RN [NI [VAL NK]]].
        eexists. split; [reflexivity|].
        cbn [rm_ok rm_removed rm_value rm_node rm_newkey elements]. split.
        -- split; [reflexivity|]. split; [|auto].
           rewrite keys_node. intro Hx.
           destruct (in_app_or _ _ _ Hx) as [H1|H1]; [exact (NL H1)|exact (NI H1)].
        -- intros HB. split; [exact HB|]. lia.
Qed.

Theorem t_remove_inv : forall o k,
  o_good o ->
  exists o' v b, t_remove o k = Some (o', v, b) /\ o_good o' /\
                 o_elements o' = sdel k (o_elements o) /\ v = sget (o_elements o) k.
Proof.
  intros [t|] k G; simpl.
  - destruct G as [HO HS]. destruct (remove_spec t k HO HS) as [res [E [OK _]]]. rewrite E.
    unfold rm_ok in OK. destruct (rm_removed res).
    + destruct OK as [IN [VAL ND]]. eexists _, _, _. split; [reflexivity|].
      destruct (rm_node res) as [t'|].
      * destruct ND as [HO' [HS' [HE' _]]]. simpl. repeat split; auto.
      * destruct ND as [v0 [EL _]]. subst t. simpl in *. rewrite beq_refl in *. repeat split; auto.
    + destruct OK as [RN [NI [VAL NK]]]. eexists _, _, _. split; [reflexivity|].
      simpl. split; [auto|]. split; [symmetry; apply sdel_notin; exact NI|].
      symmetry. apply sget_notin. exact NI.
  - eexists _, _, _. split; [reflexivity|]. simpl. repeat split; auto.
Qed.
