(** C01 — proofs, part 5: the node database (tree.go) and histories of
    committed batches.  [save] only adds bindings and never changes the content
    of an existing one; a saved version loads back unchanged from any later
    database; hence every version a history committed stays readable, with the
    specification's state as its in-order leaves. *)
From Coq Require Import List ZArith NArith Lia Bool.
From C33 Require Import C01.Keys C01.KeysFacts C01.Model C01.Store C01.Spec C01.Inv C01.Proofs
  C01.ProofsRemove.
Import ListNotations.
Open Scope Z_scope.

Lemma hash_eqb_refl : forall a, hash_eqb a a = true.
Proof.
  induction a as [k v|h s l IHl r IHr]; simpl.
  - rewrite !beq_refl. reflexivity.
  - rewrite !Z.eqb_refl, IHl, IHr. reflexivity.
Qed.

Lemma hash_eqb_eq : forall a b, hash_eqb a b = true -> a = b.
Proof.
  induction a as [k v|h s l IHl r IHr]; intros [k' v'|h' s' l' r'] H; simpl in H; try discriminate.
  - apply andb_true_iff in H as [H1 H2]. apply beq_iff in H1, H2. congruence.
  - apply andb_true_iff in H as [H H4]. apply andb_true_iff in H as [H H3].
    apply andb_true_iff in H as [H1 H2].
    apply Z.eqb_eq in H1, H2. apply IHl in H3. apply IHr in H4. congruence.
Qed.

Lemma hash_eqb_neq : forall a b, hash_eqb a b = false -> a <> b.
Proof. intros a b H E. subst. rewrite hash_eqb_refl in H. discriminate. Qed.

Lemma db_get_put : forall d h r h',
  db_get (db_put d h r) h' = if hash_eqb h' h then Some r else db_get d h'.
Proof. reflexivity. Qed.

(** The inner node's key is not hashed, but it is determined by the right
    sub-tree; so on keyed trees the symbolic hash is injective. *)
Lemma thash_inj : forall t1 t2, keyed t1 -> keyed t2 -> thash t1 = thash t2 -> t1 = t2.
Proof.
  induction t1 as [k v|k h s l IHl r IHr]; intros [k' v'|k' h' s' l' r'] K1 K2 H; simpl in H;
    try discriminate.
  - congruence.
  - destruct K1 as [Kl [Kr Kk]]. destruct K2 as [Kl' [Kr' Kk']].
    inversion H. subst h' s'.
    assert (l = l') by (apply IHl; auto). assert (r = r') by (apply IHr; auto).
    subst. reflexivity.
Qed.

Lemma db_extends_refl : forall d, db_extends d d.
Proof. intros d h r H. exact H. Qed.

Lemma db_extends_trans : forall a b c, db_extends a b -> db_extends b c -> db_extends a c.
Proof. intros a b c H1 H2 h r H. apply H2, H1, H. Qed.

Lemma stored_ext : forall d d' t, db_extends d d' -> stored d t -> stored d' t.
Proof.
  intros d d' t HX. induction t as [k v|k h s l IHl r IHr]; simpl.
  - apply HX.
  - intros [H [Hl Hr]]. auto.
Qed.

Lemma stored_get : forall d t, stored d t -> db_get d (thash t) = Some (rec_of t).
Proof. intros d [k v|k h s l r]; simpl; intuition. Qed.

Lemma db_wf_empty : db_wf [].
Proof. intros h r H. discriminate. Qed.

Lemma bound_stored : forall d t r, db_wf d -> keyed t -> db_get d (thash t) = Some r -> stored d t.
Proof.
  intros d t r WF K G. destruct (WF _ _ G) as [t0 [K0 [H0 S0]]].
  rewrite <- (thash_inj t0 t K0 K H0). exact S0.
Qed.

(** Adding the record of [t] under its own hash on top of a database that
    already stores the children. *)
Lemma put_node_spec : forall d t,
  db_wf d -> keyed t ->
  match t with Leaf _ _ => True | Node _ _ _ l r => stored d l /\ stored d r end ->
  let d' := db_put d (thash t) (rec_of t) in
  db_wf d' /\ stored d' t /\ db_extends d d'.
Proof.
  intros d t WF K HC d'.
  assert (X : db_extends d d').
  { intros h r H. unfold d'. rewrite db_get_put.
    destruct (hash_eqb h (thash t)) eqn:E; [|exact H].
    apply hash_eqb_eq in E. subst h.
    rewrite (stored_get _ _ (bound_stored d t r WF K H)) in H. exact H. }
  assert (S : stored d' t).
  { destruct t as [k v|k h s l r].
    - cbn [stored]. unfold d'. rewrite db_get_put. rewrite hash_eqb_refl. reflexivity.
    - destruct HC as [Sl Sr]. cbn [stored]. split; [|split; eapply stored_ext; eauto].
      unfold d'. rewrite db_get_put. rewrite hash_eqb_refl. reflexivity. }
  split; [|split; assumption].
  intros h r H. unfold d' in H. rewrite db_get_put in H.
  destruct (hash_eqb h (thash t)) eqn:E.
  - apply hash_eqb_eq in E. subst h. exists t. auto.
  - destruct (WF _ _ H) as [t0 [K0 [H0 S0]]]. exists t0. split; [exact K0|].
    split; [exact H0|]. eapply stored_ext; eauto.
Qed.

Theorem save_spec : forall t d,
  db_wf d -> keyed t ->
  db_wf (save d t) /\ stored (save d t) t /\ db_extends d (save d t).
Proof.
  induction t as [k v|k h s l IHl r IHr]; intros d WF K; cbn [save]; unfold db_has;
    (destruct (db_get d (thash _)) eqn:G;
     [exact (conj WF (conj (bound_stored d _ _ WF K G) (db_extends_refl d)))|]).
  - apply (put_node_spec d (Leaf k v)); auto.
  - destruct K as [Kl [Kr Kk]].
    destruct (IHl d WF Kl) as [WF1 [S1 X1]].
    destruct (IHr (save d l) WF1 Kr) as [WF2 [S2 X2]].
    assert (K : keyed (Node k h s l r)) by (simpl; auto).
    destruct (put_node_spec (save (save d l) r) (Node k h s l r) WF2 K) as [WF3 [S3 X3]].
    { split; [eapply stored_ext; eauto|exact S2]. }
    split; [exact WF3|]. split; [exact S3|].
    eapply db_extends_trans; [exact X1|]. eapply db_extends_trans; [exact X2|exact X3].
Qed.

Lemma load_stored : forall t d fuel,
  stored d t -> sized t -> height t < Z.of_nat fuel -> load d fuel (thash t) = Some t.
Proof.
  induction t as [k v|k h s l IHl r IHr]; intros d fuel ST SZ F.
  - destruct fuel as [|f]; [cbn in F; lia|]. cbn [load]. cbn [stored] in ST. rewrite ST. reflexivity.
  - destruct fuel as [|f]; [pose proof (sized_node_height_pos _ _ _ _ _ SZ); cbn in F; lia|]. cbn [load].
    destruct ST as [G [Sl Sr]]. rewrite G. cbn [rec_of].
    destruct SZ as [SZl [SZr [Hh Hs]]]. cbn [height] in F.
    rewrite (IHl d f Sl SZl), (IHr d f Sr SZr) by lia. reflexivity.
Qed.

Theorem load_root_stored : forall t d, stored d t -> sized t -> load_root d (thash t) = Some t.
Proof.
  intros t d ST SZ. unfold load_root. rewrite (stored_get _ _ ST).
  apply load_stored; auto. pose proof (sized_height_nonneg t SZ).
  replace (rec_height (rec_of t)) with (height t) by (destruct t; reflexivity). lia.
Qed.

Theorem load_save : forall t d,
  db_wf d -> ordered t -> sized t -> load_root (save d t) (thash t) = Some t.
Proof.
  intros t d WF HO HS. apply load_root_stored; [|exact HS].
  apply save_spec; auto. apply ordered_keyed. exact HO.
Qed.

Lemma load_tree_stored : forall d o, o_stored d o -> o_good o -> load_tree d (tree_root o) = Some o.
Proof.
  intros d [t|] ST G; simpl; [|reflexivity].
  destruct G as [_ SZ]. rewrite (load_root_stored t d ST SZ). reflexivity.
Qed.

Lemma o_stored_ext : forall d d' o, db_extends d d' -> o_stored d o -> o_stored d' o.
Proof. intros d d' [t|] X S; simpl in *; [eapply stored_ext; eauto|exact I]. Qed.

(** [version d o]: the database [d] is well formed and holds the good tree [o]
    completely; this is what every committed batch re-establishes. *)
Definition version (d : db) (o : otree) : Prop := db_wf d /\ o_good o /\ o_stored d o.

Lemma commit_inv : forall d o,
  db_wf d -> o_good o ->
  exists d', save_tree d o = (d', tree_root o) /\ version d' o /\ db_extends d d'.
Proof.
  intros d [t|] WF G; simpl.
  - destruct (save_spec t d WF (ordered_keyed _ (proj1 G))) as [WF' [ST' X]].
    exists (save d t). unfold version. auto.
  - exists d. unfold version. auto using db_extends_refl.
Qed.

Lemma t_set_inv : forall o k v,
  o_good o -> exists o' u, t_set o k v = Some (o', u) /\ o_good o' /\
                           o_elements o' = ins k v (o_elements o).
Proof.
  intros [t|] k v G; simpl.
  - destruct G as [HO HS].
    destruct (set_spec t k v HO HS) as [t' [u [E [HO' HS' HE _ _]]]].
    rewrite E. exists (Some t'), u. simpl. auto.
  - exists (Some (Leaf k v)), false. simpl. auto.
Qed.

Lemma t_set_all_inv : forall kvs o,
  o_good o -> exists o', t_set_all o kvs = Some o' /\ o_good o' /\
                         o_elements o' = apply_writes (o_elements o) kvs.
Proof.
  induction kvs as [|[k v] kvs IH]; intros o G.
  - exists o. simpl. auto.
  - destruct (t_set_inv o k v G) as [o1 [u [E [G1 HE1]]]].
    destruct (IH o1 G1) as [o2 [E2 [G2 HE2]]].
    exists o2. cbn [t_set_all]. rewrite E. split; [exact E2|]. split; [exact G2|].
    rewrite HE2, HE1. reflexivity.
Qed.

Lemma t_remove_all_inv : forall ks o,
  o_good o -> exists o' vs, t_remove_all o ks = Some (o', vs) /\ o_good o' /\
                            o_elements o' = apply_dels (o_elements o) ks.
Proof.
  unfold apply_dels. induction ks as [|k ks IH]; intros o G.
  - exists o, []. simpl. auto.
  - destruct (t_remove_inv o k G) as [o1 [v [b [E [G1 [HE1 _]]]]]].
    destruct (IH o1 G1) as [o2 [vs [E2 [G2 HE2]]]].
    exists o2, (v :: vs). cbn [t_remove_all]. rewrite E, E2. split; [reflexivity|].
    split; [exact G2|]. simpl. rewrite HE2, HE1. reflexivity.
Qed.

Lemma apply_op_inv : forall d o p,
  version d o ->
  exists d' o', apply_op d (tree_root o) p = Some (d', tree_root o') /\
                version d' o' /\ db_extends d d' /\
                o_elements o' = spec_op (o_elements o) p.
Proof.
  intros d o [kvs|ks] [WF [G ST]]; cbn [apply_op spec_op]; unfold set_kv_pair, del_kv_pair;
    rewrite (load_tree_stored d o ST G).
  - destruct (t_set_all_inv kvs o G) as [o' [E [G' HE]]]. rewrite E.
    destruct (commit_inv d o' WF G') as [d' [ES [V X]]]. rewrite ES. exists d', o'. auto.
  - destruct (t_remove_all_inv ks o G) as [o' [vs [E [G' HE]]]]. rewrite E.
    destruct (commit_inv d o' WF G') as [d' [ES [V X]]]. rewrite ES. exists d', o'. auto.
Qed.

Lemma run_ops_inv : forall ops d o,
  version d o ->
  exists d' o', run_ops d (tree_root o) ops = Some (d', tree_root o') /\
                version d' o' /\ db_extends d d' /\
                o_elements o' = fold_left spec_op ops (o_elements o).
Proof.
  induction ops as [|p ops IH]; intros d o V.
  - exists d, o. auto using db_extends_refl.
  - destruct (apply_op_inv d o p V) as [d1 [o1 [E [V1 [X1 HE1]]]]].
    destruct (IH d1 o1 V1) as [d2 [o2 [E2 [V2 [X2 HE2]]]]].
    exists d2, o2. cbn [run_ops]. rewrite E. split; [exact E2|]. split; [exact V2|].
    split; [eapply db_extends_trans; eauto|]. simpl. rewrite HE2, HE1. reflexivity.
Qed.

Lemma run_ops_app : forall a b d r,
  run_ops d r (a ++ b) = match run_ops d r a with
                         | Some (d', r') => run_ops d' r' b
                         | None => None
                         end.
Proof.
  induction a as [|x a IH]; intros b d r; simpl; [reflexivity|].
  destruct (apply_op d r x) as [[d' r']|]; [apply IH|reflexivity].
Qed.

(** The version committed by the first [i] batches, seen from the database
    after [j >= i] batches. *)
Lemma history_ops_versions : forall ops i j, (i <= j)%nat ->
  exists di dj oi oj,
    history_ops (firstn i ops) = Some (di, tree_root oi) /\
    history_ops (firstn j ops) = Some (dj, tree_root oj) /\
    o_good oi /\ o_stored dj oi /\ o_elements oi = state_ops (firstn i ops).
Proof.
  intros ops i j Hij. unfold history_ops.
  destruct (run_ops_inv (firstn i ops) [] None (conj db_wf_empty (conj I I)))
    as [di [oi [Ei [Vi [_ HEi]]]]].
  assert (SPLIT : firstn j ops = firstn i ops ++ skipn i (firstn j ops)).
  { rewrite <- (firstn_skipn i (firstn j ops)) at 1. rewrite firstn_firstn.
    rewrite Nat.min_l by exact Hij. reflexivity. }
  destruct (run_ops_inv (skipn i (firstn j ops)) di oi Vi) as [dj [oj [Ej [_ [Xj _]]]]].
  destruct Vi as [_ [Gi STi]].
  exists di, dj, oi, oj. simpl tree_root in Ei.
  split; [exact Ei|]. split.
  - rewrite SPLIT, run_ops_app. simpl tree_root. rewrite Ei. exact Ej.
  - split; [exact Gi|]. split; [eapply o_stored_ext; eauto|]. exact HEi.
Qed.

Lemma history_ops_sets : forall bs, history_ops (map OSet bs) = history bs.
Proof.
  intros bs. unfold history_ops, history. generalize (@nil (hash * noderec)) (@None hash).
  induction bs as [|b bs IH]; intros d r; simpl; [reflexivity|].
  destruct (set_kv_pair d r b) as [[d' r']|]; [apply IH|reflexivity].
Qed.

Lemma state_ops_sets : forall bs, state_ops (map OSet bs) = state bs.
Proof.
  intros bs. unfold state_ops, state. generalize (@nil (bytes * bytes)).
  induction bs as [|b bs IH]; intros m; simpl; [reflexivity|apply IH].
Qed.

Lemma history_versions : forall bs i j, (i <= j)%nat ->
  exists di dj oi oj,
    history (firstn i bs) = Some (di, tree_root oi) /\
    history (firstn j bs) = Some (dj, tree_root oj) /\
    o_good oi /\ o_stored dj oi /\ o_elements oi = state (firstn i bs).
Proof.
  intros bs i j Hij.
  destruct (history_ops_versions (map OSet bs) i j Hij) as [di [dj [oi [oj H]]]].
  rewrite !firstn_map, !history_ops_sets, state_ops_sets in H. eauto.
Qed.

Lemma t_get_elements : forall o k, o_good o -> snd (t_get o k) = sget (o_elements o) k.
Proof.
  intros [t|] k G; simpl; [|reflexivity]. destruct G as [HO _]. apply get_elements. exact HO.
Qed.

Lemma get_at_stored : forall d o k,
  o_stored d o -> o_good o -> get_at d (tree_root o) k = Some (sget (o_elements o) k).
Proof.
  intros d o k ST G. unfold get_at. rewrite (load_tree_stored d o ST G), (t_get_elements o k G).
  reflexivity.
Qed.

Theorem versioned_map_get : forall bs i j, (i <= j)%nat ->
  exists di ri dj rj,
    history (firstn i bs) = Some (di, ri) /\
    history (firstn j bs) = Some (dj, rj) /\
    forall k, get_at dj ri k = Some (sget (state (firstn i bs)) k).
Proof.
  intros bs i j Hij.
  destruct (history_versions bs i j Hij) as [di [dj [oi [oj [Ei [Ej [Gi [STi HEi]]]]]]]].
  exists di, (tree_root oi), dj, (tree_root oj). split; [exact Ei|]. split; [exact Ej|].
  intros k. rewrite <- HEi. apply get_at_stored; assumption.
Qed.
