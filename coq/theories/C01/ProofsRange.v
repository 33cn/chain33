(** C01 — proofs, part 4: range traversal (node.go traverseInRange, tree.go
    IterateRange / IterateRangeInclusive).  On an ordered tree the callback
    sees exactly the in-range leaves, each once, ascending or descending, and
    the sub-tree pruning tests never cut off an in-range leaf; a callback that
    asks to stop ends the traversal at once. *)
From Coq Require Import List ZArith NArith Lia Bool.
From C33 Require Import C01.Keys C01.KeysFacts C01.Model C01.Store C01.Spec C01.Inv C01.Proofs.
Import ListNotations.
Open Scope Z_scope.

Section Fold.
  Context {S : Type}.
  Variable fn : S -> bytes -> bytes -> S * bool.

  (** Feeding a list of leaves to the callback until it asks to stop. *)
  Fixpoint fold_stop (l : list (bytes * bytes)) (s : S) : S * bool :=
    match l with
    | [] => (s, false)
    | (k, v) :: tl =>
        let '(s', b) := fn s k v in
        if b then (s', true) else fold_stop tl s'
    end.

  Lemma fold_stop_app : forall a b s,
    fold_stop (a ++ b) s =
    let '(s', st) := fold_stop a s in if st then (s', true) else fold_stop b s'.
  Proof.
    induction a as [|[k v] a IH]; intros b s; simpl.
    - reflexivity.
    - destruct (fn s k v) as [s' st]. destruct st; [reflexivity|apply IH].
  Qed.

  (** Two guarded visits in sequence, each a [fold_stop] over its own part. *)
  Lemma fold_stop_seq : forall (f g : S -> S * bool) (ga gb : bool) a b s,
    (forall s, f s = fold_stop a s) -> (forall s, g s = fold_stop b s) ->
    (ga = false -> a = []) -> (gb = false -> b = []) ->
    (let '(s2, st) := if ga then f s else (s, false) in
     if st then (s2, true) else if gb then g s2 else (s2, false)) = fold_stop (a ++ b) s.
  Proof.
    intros f g ga gb a b s Hf Hg Ha Hb. rewrite fold_stop_app.
    destruct ga; [rewrite Hf|rewrite (Ha eq_refl)]; cbn [fold_stop].
    - destruct (fold_stop a s) as [s2 st]. destruct st; [reflexivity|].
      destruct gb; [apply Hg|rewrite (Hb eq_refl); reflexivity].
    - destruct gb; [apply Hg|rewrite (Hb eq_refl); reflexivity].
  Qed.

  Lemma in_keys : forall (x : bytes * bytes) t, In x (elements t) -> In (fst x) (keys t).
  Proof. intros x t H. unfold keys. apply in_map. exact H. Qed.

  Theorem traverse_spec : forall t start endk asc incl s,
    ordered t ->
    traverse_in_range (leaf_cb fn) start endk asc incl t s =
    fold_stop (srange (elements t) start endk asc incl) s.
  Proof.
    induction t as [k v|nk h sz l IHl r IHr]; intros start endk asc incl s HO.
    - cbn [traverse_in_range elements]. unfold srange. cbn [filter fst].
      change (in_range start endk incl k)
        with (after_start start (Leaf k v) && before_end endk incl (Leaf k v)).
      destruct (after_start start (Leaf k v) && before_end endk incl (Leaf k v)).
      + destruct asc; cbn [rev app leaf_cb fold_stop]; destruct (fn s k v) as [s' st]; destruct st; reflexivity.
      + destruct asc; reflexivity.
    - destruct HO as [HOl [HOr [Hl [Hr Hk]]]].
      cbn [traverse_in_range elements].
      set (a := after_start start (Node nk h sz l r)).
      set (b := before_end endk incl (Node nk h sz l r)).
      assert (CB : (if a && b then leaf_cb fn s (Node nk h sz l r) else (s, false)) = (s, false))
        by (destruct (a && b); reflexivity).
      rewrite CB.
      (* pruning is exact *)
      assert (PL : a = false ->
                   filter (fun kv => in_range start endk incl (fst kv)) (elements l) = []).
      { intros Ha. apply filter_none. intros x Hx. unfold in_range.
        unfold a, after_start in Ha. cbn [nkey] in Ha.
        destruct start as [st|]; [|discriminate].
        rewrite ble_nlt in Ha. apply negb_false_iff in Ha.
        assert (Hxk : blt (fst x) nk = true) by (apply Hl, in_keys, Hx).
        rewrite ble_nlt. rewrite (blt_trans _ _ _ Hxk Ha). reflexivity. }
      assert (PR : b = false ->
                   filter (fun kv => in_range start endk incl (fst kv)) (elements r) = []).
      { intros Hb. apply filter_none. intros x Hx. unfold in_range.
        unfold b, before_end in Hb. cbn [nkey] in Hb.
        destruct endk as [e|]; [|discriminate].
        assert (Hxk : blt (fst x) nk = false) by (apply Hr, in_keys, Hx).
        apply andb_false_iff. right. destruct incl.
        - rewrite ble_nlt in Hb. apply negb_false_iff in Hb.
          rewrite ble_nlt. apply negb_false_iff.
          apply (blt_le_trans e nk (fst x)); assumption.
        - destruct (blt (fst x) e) eqn:C; [|reflexivity].
          (* x < e and not nk < e, so x < nk: contradiction *)
          assert (blt (fst x) nk = true) by (apply (blt_le_trans (fst x) e nk); assumption).
          congruence. }
      unfold srange. rewrite filter_app.
      destruct asc; [|rewrite rev_app_distr]; cbn beta iota; apply fold_stop_seq.
      + intros s0. exact (IHl start endk true incl s0 HOl).
      + intros s0. exact (IHr start endk true incl s0 HOr).
      + exact PL.
      + exact PR.
      + intros s0. exact (IHr start endk false incl s0 HOr).
      + intros s0. exact (IHl start endk false incl s0 HOl).
      + intros Hb. rewrite (PR Hb). reflexivity.
      + intros Ha. rewrite (PL Ha). reflexivity.
  Qed.
End Fold.

Lemma collect_none : forall l acc n,
  fold_stop (collect_fn None) l (acc, n) = ((acc ++ l, (n + N.of_nat (length l))%N), false).
Proof.
  induction l as [|[k v] l IH]; intros acc n.
  - simpl. rewrite app_nil_r, N.add_0_r. reflexivity.
  - cbn [fold_stop collect_fn]. rewrite IH. rewrite <- app_assoc. simpl app.
    f_equal. f_equal. cbn [length]. lia.
Qed.

Lemma collect_some : forall m l acc n,
  (n < N.max m 1)%N ->
  fold_stop (collect_fn (Some m)) l (acc, n) =
  if (n + N.of_nat (length l) <? N.max m 1)%N
  then ((acc ++ l, (n + N.of_nat (length l))%N), false)
  else ((acc ++ firstn (N.to_nat (N.max m 1 - n)) l, N.max m 1), true).
Proof.
  intros m. induction l as [|[k v] l IH]; intros acc n Hn.
  - cbn [fold_stop length]. rewrite N.add_0_r.
    destruct (N.ltb_spec n (N.max m 1)); [|lia]. rewrite app_nil_r. reflexivity.
  - cbn [fold_stop collect_fn].
    destruct (N.leb_spec m (n + 1)) as [Hs|Hs].
    + (* stops here: n + 1 = max m 1 *)
      assert (E : N.max m 1 = (n + 1)%N) by lia.
      destruct (N.ltb_spec (n + N.of_nat (length ((k, v) :: l))) (N.max m 1)) as [C|C];
        [cbn [length] in C; lia|].
      rewrite E. replace (N.to_nat (n + 1 - n)) with 1%nat by lia. reflexivity.
    + rewrite IH by lia.
      replace (n + 1 + N.of_nat (length l))%N with (n + N.of_nat (length ((k, v) :: l)))%N
        by (cbn [length]; lia).
      destruct (N.ltb_spec (n + N.of_nat (length ((k, v) :: l))) (N.max m 1)) as [C|C].
      * rewrite <- app_assoc. reflexivity.
      * rewrite <- app_assoc. simpl app.
        replace (N.to_nat (N.max m 1 - n)) with (Datatypes.S (N.to_nat (N.max m 1 - (n + 1)))) by lia.
        reflexivity.
Qed.

Theorem collect_range_spec : forall t lim start endk asc incl,
  ordered t ->
  collect_range lim start endk asc incl t = srange_lim lim (elements t) start endk asc incl.
Proof.
  intros t lim start endk asc incl HO. unfold collect_range, iterate_range.
  rewrite (traverse_spec (collect_fn lim) t start endk asc incl ([], 0%N) HO).
  unfold srange_lim. set (L := srange (elements t) start endk asc incl).
  destruct lim as [m|].
  - rewrite collect_some by lia. rewrite N.add_0_l, N.sub_0_r.
    destruct (N.of_nat (length L) <? N.max m 1)%N; reflexivity.
  - rewrite collect_none. reflexivity.
Qed.

Lemma t_collect_range_spec : forall o lim start endk asc incl,
  o_good o ->
  t_collect_range lim start endk asc incl o = srange_lim lim (o_elements o) start endk asc incl.
Proof.
  intros [t|] lim start endk asc incl G; simpl.
  - destruct G as [HO _]. apply collect_range_spec. exact HO.
  - unfold srange_lim, srange. destruct asc; simpl;
      (destruct lim as [n|]; [|reflexivity]);
      (destruct (N.ltb_spec 0 (N.max n 1)); [reflexivity|lia]).
Qed.
