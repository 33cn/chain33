(** C01 — order facts about [bcmp]. *)
From Coq Require Import List NArith Bool.
From C33 Require Import C01.Keys.
Import ListNotations.

Lemma bcmp_refl : forall a, bcmp a a = Eq.
Proof. induction a as [|x a IH]; simpl; [reflexivity|]. rewrite N.compare_refl. exact IH. Qed.

Lemma bcmp_eq : forall a b, bcmp a b = Eq -> a = b.
Proof.
  induction a as [|x a IH]; intros [|y b] H; simpl in H; try discriminate; [reflexivity|].
  destruct (N.compare x y) eqn:E; try discriminate.
  apply N.compare_eq in E. subst. f_equal. apply IH. exact H.
Qed.

Lemma bcmp_eq_iff : forall a b, bcmp a b = Eq <-> a = b.
Proof. intros a b; split; [apply bcmp_eq|intros ->; apply bcmp_refl]. Qed.

Lemma bcmp_antisym : forall a b, bcmp b a = CompOpp (bcmp a b).
Proof.
  induction a as [|x a IH]; intros [|y b]; simpl; try reflexivity.
  rewrite (N.compare_antisym x y). destruct (N.compare x y); simpl; auto.
Qed.

Lemma bcmp_lt_gt : forall a b, bcmp a b = Lt <-> bcmp b a = Gt.
Proof. intros a b. rewrite (bcmp_antisym a b). destruct (bcmp a b); simpl; split; congruence. Qed.

Lemma bcmp_lt_trans : forall a b c, bcmp a b = Lt -> bcmp b c = Lt -> bcmp a c = Lt.
Proof.
  induction a as [|x a IH]; intros [|y b] [|z c] H1 H2; simpl in *; try discriminate; try reflexivity.
  destruct (N.compare x y) eqn:E1; try discriminate;
  destruct (N.compare y z) eqn:E2; try discriminate.
  - apply N.compare_eq in E1, E2. subst. rewrite N.compare_refl. eapply IH; eauto.
  - apply N.compare_eq in E1. subst. rewrite E2. reflexivity.
  - apply N.compare_eq in E2. subst. rewrite E1. reflexivity.
  - apply N.compare_lt_iff in E1, E2.
    rewrite (proj2 (N.compare_lt_iff x z) (N.lt_trans x y z E1 E2)). reflexivity.
Qed.

Lemma blt_iff : forall a b, blt a b = true <-> bcmp a b = Lt.
Proof. intros a b; unfold blt; destruct (bcmp a b); split; congruence. Qed.

Lemma blt_false_iff : forall a b, blt a b = false <-> bcmp a b <> Lt.
Proof. intros a b; unfold blt; destruct (bcmp a b); split; congruence. Qed.

Lemma blt_irrefl : forall a, blt a a = false.
Proof. intros a. unfold blt. rewrite bcmp_refl. reflexivity. Qed.

Lemma blt_trans : forall a b c, blt a b = true -> blt b c = true -> blt a c = true.
Proof.
  intros a b c H1 H2. apply blt_iff. apply (bcmp_lt_trans a b c); apply blt_iff; assumption.
Qed.

Lemma blt_asym : forall a b, blt a b = true -> blt b a = false.
Proof.
  intros a b H. apply blt_iff in H. apply blt_false_iff.
  rewrite (bcmp_antisym a b), H. discriminate.
Qed.

Lemma ble_nlt : forall a b, ble a b = negb (blt b a).
Proof.
  intros a b. unfold ble, blt. rewrite (bcmp_antisym a b). destruct (bcmp a b); reflexivity.
Qed.

Lemma blt_total : forall a b, blt a b = false -> blt b a = false -> a = b.
Proof.
  intros a b H1 H2. apply bcmp_eq.
  apply blt_false_iff in H1. apply blt_false_iff in H2.
  rewrite (bcmp_antisym a b) in H2. destruct (bcmp a b); simpl in *; congruence.
Qed.

(** Negative transitivity; with [blt b a = false] read as [a <= b] it gives
    the two mixed transitivity laws. *)
Lemma blt_cotrans : forall a b c, blt a c = true -> blt a b = true \/ blt b c = true.
Proof.
  intros a b c H. destruct (bcmp a b) eqn:E.
  - apply bcmp_eq in E. subst b. auto.
  - left. apply blt_iff. exact E.
  - right. apply (blt_trans b a c); [apply blt_iff, bcmp_lt_gt; exact E|exact H].
Qed.

Lemma blt_le_trans : forall a b c, blt a b = true -> blt c b = false -> blt a c = true.
Proof. intros a b c H1 H2. destruct (blt_cotrans a c b H1) as [H|H]; congruence. Qed.

Lemma le_blt_trans : forall a b c, blt b a = false -> blt b c = true -> blt a c = true.
Proof. intros a b c H1 H2. destruct (blt_cotrans b a c H2) as [H|H]; congruence. Qed.

Lemma beq_iff : forall a b, beq a b = true <-> a = b.
Proof.
  intros a b. unfold beq. split.
  - destruct (bcmp a b) eqn:E; try discriminate. intros _. apply bcmp_eq. exact E.
  - intros ->. rewrite bcmp_refl. reflexivity.
Qed.

Lemma beq_refl : forall a, beq a a = true.
Proof. intros a. apply beq_iff. reflexivity. Qed.

Lemma beq_sym : forall a b, beq a b = beq b a.
Proof. intros a b. unfold beq. rewrite (bcmp_antisym a b). destruct (bcmp a b); reflexivity. Qed.

Lemma bytes_eq_dec : forall a b : bytes, {a = b} + {a <> b}.
Proof. apply list_eq_dec. apply N.eq_dec. Qed.
