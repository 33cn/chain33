(** C01 — proofs, part 6: the specification side (the state is a strictly
    sorted map whose lookup is "last write wins") and the versioned-map theorem
    with point reads and range reads, for histories of write batches and
    DelKVPair batches. *)
From Coq Require Import List ZArith NArith Lia Bool Sorted.
From C33 Require Import C01.Keys C01.KeysFacts C01.Model C01.Store C01.Spec C01.Inv
  C01.Proofs C01.ProofsRemove C01.ProofsStore C01.ProofsRange.
Import ListNotations.
Open Scope Z_scope.

Definition klt (a b : bytes * bytes) : Prop := blt (fst a) (fst b) = true.
Definition ksorted (m : smap) : Prop := StronglySorted klt m.

Lemma ins_sorted : forall k v m, ksorted m -> ksorted (ins k v m).
Proof.
  intros k v m. induction m as [|[k' v'] m IH]; intros HS; simpl.
  - constructor; constructor.
  - inversion HS as [|x l HS' HF]; subst.
    destruct (bcmp k k') eqn:C.
    + apply bcmp_eq in C. subst k'. constructor; [exact HS'|exact HF].
    + constructor; [exact HS|]. constructor.
      * apply blt_iff. exact C.
      * eapply Forall_impl; [|exact HF]. intros a Ha. unfold klt in *. simpl in *.
        apply (blt_trans k k' (fst a)); [apply blt_iff; exact C|exact Ha].
    + constructor; [apply IH; exact HS'|].
      apply Forall_forall. intros x Hx. apply ins_incl in Hx. destruct Hx as [Hx|Hx].
      * subst x. unfold klt. simpl. apply blt_iff. apply bcmp_lt_gt. exact C.
      * rewrite Forall_forall in HF. apply HF. exact Hx.
Qed.

Lemma sdel_sorted : forall k m, ksorted m -> ksorted (sdel k m).
Proof.
  intros k m. induction m as [|[k' v'] m IH]; intros HS; simpl; [exact HS|].
  inversion HS as [|x l HS' HF]; subst.
  destruct (beq k k'); [exact HS'|].
  constructor; [apply IH; exact HS'|].
  apply Forall_forall. intros x Hx. rewrite Forall_forall in HF. apply HF.
  exact (sdel_incl k m x Hx).
Qed.

Lemma fold_left_inv : forall {A B : Type} (P : A -> Prop) (f : A -> B -> A),
  (forall a b, P a -> P (f a b)) -> forall l a, P a -> P (fold_left f l a).
Proof. intros A B P f H. induction l as [|b l IH]; intros a Ha; simpl; auto. Qed.

Theorem state_ops_sorted : forall ops, ksorted (state_ops ops).
Proof.
  intros ops. apply (fold_left_inv ksorted); [|constructor].
  intros m [kvs|ks] HS; apply (fold_left_inv ksorted); auto using ins_sorted, sdel_sorted.
Qed.

Theorem state_sorted : forall bs, ksorted (state bs).
Proof. intros bs. rewrite <- state_ops_sets. apply state_ops_sorted. Qed.

Definition last_write (ws : list (bytes * bytes)) (k : bytes) (init : option bytes) : option bytes :=
  fold_left (fun acc kv => if beq (fst kv) k then Some (snd kv) else acc) ws init.

Lemma sget_apply_writes : forall b m k,
  sget (apply_writes m b) k = last_write b k (sget m k).
Proof.
  unfold apply_writes, last_write. induction b as [|[k0 v0] b IH]; intros m k; simpl; [reflexivity|].
  rewrite IH. rewrite sget_ins. reflexivity.
Qed.

Theorem state_last_write : forall bs k, sget (state bs) k = last_write (concat bs) k None.
Proof.
  intros bs k. unfold state.
  assert (G : forall bs m, sget (fold_left apply_writes bs m) k = last_write (concat bs) k (sget m k)).
  { induction bs0 as [|b bs0 IH]; intros m; simpl; [reflexivity|].
    rewrite IH. rewrite sget_apply_writes. unfold last_write. rewrite fold_left_app. reflexivity. }
  apply G.
Qed.

Lemma range_at_stored : forall d o lim start endk asc incl,
  o_stored d o -> o_good o ->
  range_at d (tree_root o) lim start endk asc incl =
  Some (srange_lim lim (o_elements o) start endk asc incl).
Proof.
  intros d o lim start endk asc incl ST G. unfold range_at.
  rewrite (load_tree_stored d o ST G), (t_collect_range_spec o lim start endk asc incl G).
  reflexivity.
Qed.

Theorem versioned_map_ops : forall ops i j, (i <= j)%nat ->
  exists di ri dj rj,
    history_ops (firstn i ops) = Some (di, ri) /\
    history_ops (firstn j ops) = Some (dj, rj) /\
    (forall k, get_at dj ri k = Some (sget (state_ops (firstn i ops)) k)) /\
    (forall lim start endk asc incl,
        range_at dj ri lim start endk asc incl =
        Some (srange_lim lim (state_ops (firstn i ops)) start endk asc incl)).
Proof.
  intros ops i j Hij.
  destruct (history_ops_versions ops i j Hij) as [di [dj [oi [oj [Ei [Ej [Gi [STi HEi]]]]]]]].
  exists di, (tree_root oi), dj, (tree_root oj). split; [exact Ei|]. split; [exact Ej|].
  rewrite <- HEi. split.
  - intros k. apply get_at_stored; assumption.
  - intros lim start endk asc incl. apply range_at_stored; assumption.
Qed.

Theorem versioned_map : forall bs i j, (i <= j)%nat ->
  exists di ri dj rj,
    history (firstn i bs) = Some (di, ri) /\
    history (firstn j bs) = Some (dj, rj) /\
    (forall k, get_at dj ri k = Some (sget (state (firstn i bs)) k)) /\
    (forall lim start endk asc incl,
        range_at dj ri lim start endk asc incl =
        Some (srange_lim lim (state (firstn i bs)) start endk asc incl)).
Proof.
  intros bs i j Hij. pose proof (versioned_map_ops (map OSet bs) i j Hij) as H.
  rewrite !firstn_map, !history_ops_sets, state_ops_sets in H. exact H.
Qed.
