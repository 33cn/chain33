(** C01 — proofs, part 2: the other read functions against the in-order
    leaves: [has], the index returned by [get], [getByIndex]. *)
From Coq Require Import List ZArith NArith Lia Bool.
From C33 Require Import C01.Keys C01.KeysFacts C01.Model C01.Store C01.Spec C01.Inv C01.Proofs.
Import ListNotations.
Open Scope Z_scope.

Theorem has_spec : forall t k, ordered t -> (has t k = true <-> In k (keys t)).
Proof.
  induction t as [lk lv|nk h s l IHl r IHr]; intros k HO.
  - cbn [has nkey]. unfold keys. simpl. destruct (beq lk k) eqn:E.
    + apply beq_iff in E. split; [auto|reflexivity].
    + split; [discriminate|]. intros [H|[]]. subst. rewrite beq_refl in E. discriminate.
  - destruct HO as [HOl [HOr [Hl [Hr Hk]]]]. cbn [has nkey]. rewrite keys_node.
    destruct (beq nk k) eqn:E.
    + apply beq_iff in E. subst k. split; [|reflexivity]. intros _.
      apply in_or_app. right. rewrite Hk. apply leftmost_in.
    + destruct (blt k nk) eqn:B.
      * split; [intro H; apply in_or_app; left; apply (IHl k HOl); exact H|].
        intros H. apply (IHl k HOl). apply in_app_or in H. destruct H as [H|H]; [exact H|].
        rewrite (Hr k H) in B. discriminate.
      * split; [intro H; apply in_or_app; right; apply (IHr k HOr); exact H|].
        intros H. apply (IHr k HOr). apply in_app_or in H. destruct H as [H|H]; [|exact H].
        rewrite (Hl k H) in B. discriminate.
Qed.

Lemma size_elements : forall t, sized t -> size t = Z.of_nat (length (elements t)).
Proof.
  induction t as [|k h s l IHl r IHr]; simpl; [reflexivity|].
  intros [Hl [Hr [_ Hs]]]. rewrite app_length, Nat2Z.inj_add, <- IHl, <- IHr; auto.
Qed.

(** The index returned by [get] is the number of keys below the wanted one. *)
Definition rank (k : bytes) (l : list bytes) : nat := length (filter (fun x => blt x k) l).

Lemma rank_app : forall k a b, rank k (a ++ b) = (rank k a + rank k b)%nat.
Proof. intros. unfold rank. rewrite filter_app, app_length. reflexivity. Qed.

Lemma rank_all : forall k l, (forall x, In x l -> blt x k = true) -> rank k l = length l.
Proof.
  intros k l. unfold rank. induction l as [|x l IH]; intros H; simpl; [reflexivity|].
  rewrite (H x) by (simpl; auto). simpl. f_equal. apply IH. intros y Hy. apply H. simpl; auto.
Qed.

Lemma rank_none : forall k l, (forall x, In x l -> blt x k = false) -> rank k l = 0%nat.
Proof.
  intros k l H. unfold rank. rewrite filter_none by exact H. reflexivity.
Qed.

Theorem get_index : forall t k, ordered t -> sized t -> fst (get t k) = Z.of_nat (rank k (keys t)).
Proof.
  induction t as [lk lv|nk h s l IHl r IHr]; intros k HO HS.
  - cbn [get]. unfold keys, rank. simpl. unfold blt. destruct (bcmp lk k); reflexivity.
  - destruct HO as [HOl [HOr [Hl [Hr Hk]]]]. pose proof HS as [HSl [HSr [Hh Hs]]].
    cbn [get]. rewrite keys_node, rank_app.
    destruct (blt k nk) eqn:B.
    + rewrite (IHl k HOl HSl). rewrite (rank_none k (keys r)); [lia|].
      intros x Hx. destruct (blt x k) eqn:C; [|reflexivity].
      pose proof (blt_trans x k nk C B) as C2. rewrite (Hr x Hx) in C2. discriminate.
    + destruct (get r k) as [i v] eqn:G. cbn [fst].
      assert (Hi : i = Z.of_nat (rank k (keys r))) by (rewrite <- (IHr k HOr HSr), G; reflexivity).
      rewrite (rank_all k (keys l)).
      * unfold keys at 1. rewrite map_length. rewrite (size_elements l HSl) in Hs. lia.
      * intros x Hx. apply (blt_le_trans x nk k); [apply Hl; exact Hx|exact B].
Qed.

Theorem get_by_index_spec : forall t i, sized t ->
  get_by_index t i =
  if (0 <=? i) && (i <? size t) then nth_error (elements t) (Z.to_nat i) else None.
Proof.
  induction t as [k v|k h s l IHl r IHr]; intros i HS.
  - cbn [get_by_index size elements].
    destruct (Z.eqb_spec i 0) as [E|E].
    + subst. reflexivity.
    + destruct (Z.leb_spec 0 i); destruct (Z.ltb_spec i 1); simpl; try reflexivity. lia.
  - pose proof HS as [HSl [HSr [Hh Hs]]].
    pose proof (sized_size_pos l HSl). pose proof (sized_size_pos r HSr).
    pose proof (size_elements l HSl) as Ll.
    cbn [get_by_index size elements].
    destruct (Z.ltb_spec i (size l)) as [C|C].
    + rewrite (IHl i HSl).
      destruct (Z.leb_spec 0 i) as [P|P]; cbn [andb].
      * destruct (Z.ltb_spec i (size l)); [|lia]. destruct (Z.ltb_spec i s); [|lia].
        rewrite nth_error_app1 by lia. reflexivity.
      * reflexivity.
    + rewrite (IHr (i - size l) HSr).
      destruct (Z.leb_spec 0 i); [|lia]. destruct (Z.leb_spec 0 (i - size l)); [|lia]. cbn [andb].
      destruct (Z.ltb_spec (i - size l) (size r)); destruct (Z.ltb_spec i s); try lia; [|reflexivity].
      rewrite nth_error_app2 by lia. f_equal.
      rewrite Ll, Z2Nat.inj_sub, Nat2Z.id by apply Nat2Z.is_nonneg. reflexivity.
Qed.
