(** C01 — proofs, part 1: the tree (node.go).
    [set] keeps the search-tree order, the stored heights/sizes and the AVL
    balance, never panics, and acts on the in-order leaves as insertion into a
    sorted association list; [get] is lookup in the in-order leaves. *)
From Coq Require Import List ZArith NArith Lia Bool.
From C33 Require Import C01.Keys C01.KeysFacts C01.Model C01.Store C01.Spec C01.Inv.
Import ListNotations.
Open Scope Z_scope.

Lemma filter_none : forall {A} (f : A -> bool) l,
  (forall x, In x l -> f x = false) -> filter f l = [].
Proof.
  intros A f l. induction l as [|x l IH]; intros H; simpl; [reflexivity|].
  rewrite (H x) by (simpl; auto). apply IH. intros y Hy. apply H. simpl; auto.
Qed.

Lemma ins_app_l : forall k v a b,
  (forall x, In x (map fst b) -> blt k x = true) -> ins k v (a ++ b) = ins k v a ++ b.
Proof.
  intros k v a b Hb. induction a as [|[k' v'] a IH]; simpl.
  - destruct b as [|[k' v'] b]; [reflexivity|]. simpl.
    assert (H : blt k k' = true) by (apply Hb; simpl; auto).
    apply blt_iff in H. rewrite H. reflexivity.
  - destruct (bcmp k k'); simpl; try reflexivity. rewrite IH. reflexivity.
Qed.

Lemma ins_app_r : forall k v a b,
  (forall x, In x (map fst a) -> blt x k = true) -> ins k v (a ++ b) = a ++ ins k v b.
Proof.
  intros k v a b. induction a as [|[k' v'] a IH]; intros Ha; simpl; [reflexivity|].
  assert (H : blt k' k = true) by (apply Ha; simpl; auto).
  apply blt_iff in H. apply bcmp_lt_gt in H. rewrite H. f_equal. apply IH.
  intros x Hx. apply Ha. simpl; auto.
Qed.

Lemma ins_incl : forall k v m, incl (ins k v m) ((k, v) :: m).
Proof.
  intros k v m x. induction m as [|[k' v'] m IH]; cbn [ins]; [exact (fun H => H)|].
  destruct (bcmp k k'); intros H.
  - destruct H as [H|H]; [left; exact H|right; right; exact H].
  - exact H.
  - destruct H as [H|H]; [right; left; exact H|].
    destruct (IH H) as [H'|H']; [left; exact H'|right; right; exact H'].
Qed.

Lemma sget_app : forall a b k,
  sget (a ++ b) k = match sget a k with Some v => Some v | None => sget b k end.
Proof.
  intros a b k. induction a as [|[k' v'] a IH]; simpl; [reflexivity|].
  destruct (beq k k'); [reflexivity|exact IH].
Qed.

Lemma sget_notin : forall m k, ~ In k (map fst m) -> sget m k = None.
Proof.
  induction m as [|[k' v'] m IH]; intros k H; simpl; [reflexivity|].
  destruct (beq k k') eqn:E.
  - apply beq_iff in E. subst. exfalso. apply H. simpl; auto.
  - apply IH. intro. apply H. simpl; auto.
Qed.

Lemma sget_ins : forall m k v k',
  sget (ins k v m) k' = if beq k k' then Some v else sget m k'.
Proof.
  induction m as [|[k0 v0] m IH]; intros k v k'; simpl.
  - rewrite (beq_sym k' k). reflexivity.
  - destruct (bcmp k k0) eqn:E; simpl.
    + apply bcmp_eq in E. subst k0. rewrite (beq_sym k' k). destruct (beq k k'); reflexivity.
    + rewrite (beq_sym k' k). reflexivity.
    + rewrite IH. destruct (beq k k') eqn:E2; [|reflexivity].
      apply beq_iff in E2. subst k'. unfold beq. rewrite E. reflexivity.
Qed.

Lemma keys_node : forall k h s l r, keys (Node k h s l r) = keys l ++ keys r.
Proof. intros. unfold keys. simpl. apply map_app. Qed.

Lemma elements_hd : forall t, exists v rest, elements t = (leftmost t, v) :: rest.
Proof.
  induction t as [k v|k h s l [vl [restl IHl]] r _]; simpl.
  - eauto.
  - rewrite IHl. simpl. eauto.
Qed.

Lemma leftmost_in : forall t, In (leftmost t) (keys t).
Proof.
  intros t. destruct (elements_hd t) as [v [rest H]]. unfold keys. rewrite H. simpl; auto.
Qed.

Lemma leftmost_of_elements : forall t t', elements t' = elements t -> leftmost t' = leftmost t.
Proof.
  intros t t' H. destruct (elements_hd t) as [v [rest E]]. destruct (elements_hd t') as [v' [rest' E']].
  rewrite E, E' in H. congruence.
Qed.

Lemma ordered_keyed : forall t, ordered t -> keyed t.
Proof.
  induction t as [|k h s l IHl r IHr]; [exact (fun H => H)|].
  intros [Hl [Hr [_ [_ Hk]]]]. exact (conj (IHl Hl) (conj (IHr Hr) Hk)).
Qed.

Lemma sized_height_nonneg : forall t, sized t -> 0 <= height t.
Proof.
  induction t as [|k h s l IHl r IHr]; simpl; [lia|].
  intros [Hl [Hr [Hh Hs]]]. specialize (IHl Hl). specialize (IHr Hr). lia.
Qed.

Lemma sized_size_pos : forall t, sized t -> 1 <= size t.
Proof.
  induction t as [|k h s l IHl r IHr]; simpl; [lia|].
  intros [Hl [Hr [Hh Hs]]]. specialize (IHl Hl). specialize (IHr Hr). lia.
Qed.

Lemma sized_node_height_pos : forall k h s l r, sized (Node k h s l r) -> 1 <= h.
Proof.
  intros k h s l r [Hl [Hr [Hh _]]].
  pose proof (sized_height_nonneg l Hl). pose proof (sized_height_nonneg r Hr). lia.
Qed.

Lemma calc_hs_elements : forall t, elements (calc_hs t) = elements t.
Proof. destruct t; reflexivity. Qed.

Lemma rotate_right_ordered : forall t t',
  ordered t -> rotate_right t = Some t' -> ordered t' /\ elements t' = elements t.
Proof.
  intros [|k h s [|lk lh ls ll lr] r] t' HO E; try discriminate. injection E as <-.
  destruct HO as [[HOll [HOlr [Hll [Hlr Hlk]]]] [HOr [Hl [Hr Hk]]]].
  rewrite keys_node in Hl.
  assert (Hlkk : blt lk k = true).
  { apply Hl, in_or_app. right. rewrite Hlk. apply leftmost_in. }
  split; [|apply app_assoc]. cbn [calc_hs ordered leftmost]. repeat split; auto.
  - intros x Hx. apply Hl, in_or_app. auto.
  - intros x Hx. rewrite keys_node in Hx. apply in_app_or in Hx as [Hx|Hx]; [auto|].
    destruct (blt x lk) eqn:C; [|reflexivity].
    rewrite <- (Hr x Hx). symmetry. exact (blt_trans x lk k C Hlkk).
Qed.

Lemma rotate_left_ordered : forall t t',
  ordered t -> rotate_left t = Some t' -> ordered t' /\ elements t' = elements t.
Proof.
  intros [|k h s l [|rk rh rs rl rr]] t' HO E; try discriminate. injection E as <-.
  destruct HO as [HOl [[HOrl [HOrr [Hrl [Hrr Hrk]]]] [Hl [Hr Hk]]]].
  rewrite keys_node in Hr. cbn [leftmost] in Hk.
  split; [|symmetry; apply app_assoc]. cbn [calc_hs ordered leftmost]. repeat split; auto.
  - intros x Hx. apply Hr, in_or_app. auto.
  - intros x Hx. rewrite keys_node in Hx. apply in_app_or in Hx as [Hx|Hx]; [|auto].
    (* x < k, and k = leftmost rl < rk *)
    apply (blt_trans x k rk); [auto|]. apply Hrl. rewrite Hk. apply leftmost_in.
Qed.

Lemma ordered_same_elements : forall k h s l r h' s' l' r',
  ordered (Node k h s l r) -> ordered l' -> ordered r' ->
  elements l' = elements l -> elements r' = elements r ->
  ordered (Node k h' s' l' r').
Proof.
  intros k h s l r h' s' l' r' [_ [_ [Hl [Hr Hk]]]] HOl' HOr' HEl HEr. simpl.
  unfold keys. rewrite HEl, HEr, (leftmost_of_elements r r' HEr). auto.
Qed.

Lemma balance_ordered : forall t t',
  ordered t -> balance t = Some t' -> ordered t' /\ elements t' = elements t.
Proof.
  intros [|k h s l r] t' HO E; [discriminate|]. pose proof HO as [HOl [HOr _]].
  cbn [balance] in E.
  destruct (height l - height r >? 1).
  - destruct (calc_balance l) as [bl|]; [|discriminate].
    destruct (bl >=? 0); [exact (rotate_right_ordered _ _ HO E)|].
    destruct (rotate_left l) as [l'|] eqn:El; [|discriminate].
    destruct (rotate_left_ordered _ _ HOl El) as [HOl' HEl].
    destruct (rotate_right_ordered _ _
                (ordered_same_elements _ _ _ _ _ h s _ _ HO HOl' HOr HEl eq_refl) E) as [HO' HE].
    split; [exact HO'|]. rewrite HE. cbn [elements]. rewrite HEl. reflexivity.
  - destruct (height l - height r <? -1).
    + destruct (calc_balance r) as [br|]; [|discriminate].
      destruct (br <=? 0); [exact (rotate_left_ordered _ _ HO E)|].
      destruct (rotate_right r) as [r'|] eqn:Er; [|discriminate].
      destruct (rotate_right_ordered _ _ HOr Er) as [HOr' HEr].
      destruct (rotate_left_ordered _ _
                  (ordered_same_elements _ _ _ _ _ h s _ _ HO HOl HOr' eq_refl HEr) E) as [HO' HE].
      split; [exact HO'|]. rewrite HE. cbn [elements]. rewrite HEr. reflexivity.
    + injection E as <-. auto.
Qed.

(** With correct stored heights the sub-tree a rotation descends into is never
    a leaf (it is the strictly higher one), so [balance] does not panic. *)

Lemma balance_sized : forall k h s l r,
  sized l -> sized r ->
  exists t', balance (calc_hs (Node k h s l r)) = Some t' /\ sized t' /\
    (balanced l -> balanced r -> -2 <= height l - height r <= 2 ->
     balanced t' /\
     Z.max (height l) (height r) <= height t' <= Z.max (height l) (height r) + 1 /\
     (-1 <= height l - height r <= 1 -> height t' = Z.max (height l) (height r) + 1)).
Proof.
  intros k h s l r HSl HSr.
  pose proof (sized_height_nonneg l HSl) as Hl0. pose proof (sized_height_nonneg r HSr) as Hr0.
  cbn [calc_hs balance].
  destruct (Z.gtb_spec (height l - height r) 1) as [B1|B1].
  - destruct l as [|lk lh ls ll lr]; [cbn [height] in B1; lia|].
    destruct HSl as [HSll [HSlr [Hlh _]]]. cbn [height] in *. cbn [calc_balance].
    destruct (Z.geb_spec (height ll - height lr) 0) as [B2|B2].
    + eexists. split; [reflexivity|]. split; [repeat split; auto|].
      intros [HBll [HBlr HDl]] HBr HD. rewrite Z.max_l in Hlh by lia.
      cbn [calc_hs balanced height].
      rewrite (Z.max_l (height lr) (height r)), (Z.max_r (height ll) (height lr + 1)),
        (Z.max_l lh (height r)) by lia.
      repeat split; auto; lia.
    + pose proof (sized_height_nonneg ll HSll).
      destruct lr as [|lrk lrh lrs lrl lrr]; [cbn [height] in B2; lia|].
      destruct HSlr as [HSlrl [HSlrr [Hlrh _]]]. cbn [height] in *.
      eexists. split; [reflexivity|]. split; [repeat split; auto|].
      intros [HBll [[HBlrl [HBlrr HDlr]] HDl]] HBr HD. rewrite Z.max_r in Hlh by lia.
      cbn [calc_hs balanced height] in *.
      rewrite (Z.max_l (height ll) (height lrl)), (Z.max_r (height lrr) (height r)),
        (Z.max_l (height ll + 1) (height r + 1)), (Z.max_l lh (height r)) by lia.
      repeat split; auto; lia.
  - destruct (Z.ltb_spec (height l - height r) (-1)) as [B3|B3].
    + destruct r as [|rk rh rs rl rr]; [cbn [height] in B3; lia|].
      destruct HSr as [HSrl [HSrr [Hrh _]]]. cbn [height] in *. cbn [calc_balance].
      destruct (Z.leb_spec (height rl - height rr) 0) as [B4|B4].
      * eexists. split; [reflexivity|]. split; [repeat split; auto|].
        intros HBl [HBrl [HBrr HDr]] HD. rewrite Z.max_r in Hrh by lia.
        cbn [calc_hs balanced height].
        rewrite (Z.max_r (height l) (height rl)), (Z.max_l (height rl + 1) (height rr)),
          (Z.max_r (height l) rh) by lia.
        repeat split; auto; lia.
      * pose proof (sized_height_nonneg rr HSrr).
        destruct rl as [|rlk rlh rls rll rlr]; [cbn [height] in B4; lia|].
        destruct HSrl as [HSrll [HSrlr [Hrlh _]]]. cbn [height] in *.
        eexists. split; [reflexivity|]. split; [repeat split; auto|].
        intros HBl [[HBrll [HBrlr HDrl]] [HBrr HDr]] HD. rewrite Z.max_l in Hrh by lia.
        cbn [calc_hs balanced height] in *.
        rewrite (Z.max_l (height l) (height rll)), (Z.max_r (height rlr) (height rr)),
          (Z.max_l (height l + 1) (height rr + 1)), (Z.max_r (height l) rh) by lia.
        repeat split; auto; lia.
    + eexists. split; [reflexivity|]. split; [repeat split; auto|].
      intros HBl HBr HD. cbn [balanced height]. repeat split; auto; lia.
Qed.

(** What the four call sites in [set] and [remove] need: [Node k h s] stood over
    balanced children of heights [a] and [b] and is rebuilt over [l] and [r], of
    which one has changed its height by at most one. *)
Lemma rebalance : forall k h s l r a b,
  ordered (Node k h s l r) -> sized l -> sized r ->
  exists t', balance (calc_hs (Node k h s l r)) = Some t' /\
    ordered t' /\ sized t' /\ elements t' = elements l ++ elements r /\
    (balanced l -> balanced r -> h = Z.max a b + 1 -> -1 <= a - b <= 1 ->
     (a <= height l -> b <= height r -> height l + height r <= a + b + 1 ->
      balanced t' /\ h <= height t' <= h + 1) /\
     (height l <= a -> height r <= b -> a + b - 1 <= height l + height r ->
      balanced t' /\ h - 1 <= height t' <= h)).
Proof.
  intros k h s l r a b HO HSl HSr.
  destruct (balance_sized k h s l r HSl HSr) as [t' [E [HS' HA]]].
  destruct (balance_ordered (calc_hs (Node k h s l r)) t' HO E) as [HO' HE].
  exists t'. split; [exact E|]. split; [exact HO'|]. split; [exact HS'|]. split; [exact HE|].
  intros HBl HBr Hh HD.
  split; intros H1 H2 H3; (destruct (HA HBl HBr) as [HB' Hb]; [lia|]); (split; [exact HB'|lia]).
Qed.

Lemma leftmost_after_ins : forall r r' k v,
  elements r' = ins k v (elements r) -> blt k (leftmost r) = false -> leftmost r' = leftmost r.
Proof.
  intros r r' k v HE HB.
  destruct (elements_hd r) as [v0 [rest E]]. destruct (elements_hd r') as [v1 [rest' E']].
  rewrite E in HE. rewrite E' in HE. simpl in HE.
  destruct (bcmp k (leftmost r)) eqn:C.
  - apply bcmp_eq in C. inversion HE. congruence.
  - apply blt_iff in C. congruence.
  - inversion HE. reflexivity.
Qed.

Record set_ok (t : tree) (k v : bytes) (t' : tree) (u : bool) : Prop := {
  so_ordered : ordered t';
  so_sized : sized t';
  so_elements : elements t' = ins k v (elements t);
  so_update : u = true -> height t' = height t /\ size t' = size t;
  so_avl : balanced t -> balanced t' /\ height t <= height t' <= height t + 1 }.

Theorem set_spec : forall t k v,
  ordered t -> sized t -> exists t' u, set t k v = Some (t', u) /\ set_ok t k v t' u.
Proof.
  induction t as [lk lv|nk h s l IHl r IHr]; intros k v HO HS.
  - cbn [set].
    destruct (bcmp k lk) eqn:C.
    + apply bcmp_eq in C. subst lk. exists (Leaf k v), true. split; [reflexivity|].
      constructor; simpl; auto; [rewrite bcmp_refl; reflexivity|lia].
    + exists (Node lk 1 2 (Leaf k v) (Leaf lk lv)), false. split; [reflexivity|].
      constructor; simpl; auto; [|rewrite C; reflexivity|discriminate|intros _; lia].
      repeat split; auto.
      * intros x [Hx|[]]. subst x. apply blt_iff. exact C.
      * intros x [Hx|[]]. subst x. apply blt_irrefl.
    + exists (Node k 1 2 (Leaf lk lv) (Leaf k v)), false. split; [reflexivity|].
      constructor; simpl; auto; [|rewrite C; reflexivity|discriminate|intros _; lia].
      repeat split; auto.
      * intros x [Hx|[]]. subst x. apply blt_iff. apply bcmp_lt_gt. exact C.
      * intros x [Hx|[]]. subst x. apply blt_irrefl.
  - pose proof HO as [HOl [HOr [Hl [Hr Hk]]]]. pose proof HS as [HSl [HSr [Hh Hs]]].
    cbn [set].
    destruct (blt k nk) eqn:B.
    + destruct (IHl k v HOl HSl) as [l' [u [E [HOl' HSl' HEl' Hu HBl']]]]. rewrite E.
      assert (HO2 : ordered (Node nk h s l' r)).
      { simpl. repeat split; auto. intros x Hx. unfold keys in Hx. rewrite HEl' in Hx.
        apply (incl_map fst (ins_incl k v _)) in Hx. destruct Hx as [Hx|Hx]; [|apply Hl; exact Hx].
        simpl in Hx. subst x. exact B. }
      assert (HEt : elements l' ++ elements r = ins k v (elements l ++ elements r)).
      { rewrite HEl'. symmetry. apply ins_app_l. intros x Hx.
        apply (blt_le_trans k nk x); [exact B|apply Hr; exact Hx]. }
      destruct u.
      * destruct (Hu eq_refl) as [Hh' Hs'].
        exists (Node nk h s l' r), true. split; [reflexivity|].
        constructor; [exact HO2|simpl; repeat split; auto; congruence|exact HEt|intros _; split; reflexivity|].
        intros [HBl [HBr HD]]. cbn [balanced height]. rewrite Hh'.
        split; [split; [apply HBl'; exact HBl|auto]|lia].
      * destruct (rebalance nk h s l' r (height l) (height r) HO2 HSl' HSr) as [t' [E2 [HO3 [HS3 [HE3 HA]]]]].
        rewrite E2. exists t', false. split; [reflexivity|].
        constructor; [exact HO3|exact HS3|rewrite HE3; exact HEt|discriminate|].
        intros [HBl [HBr HD]]. destruct (HBl' HBl) as [HBl2 Hb]. cbn [height]. apply HA; auto; lia.
    + destruct (IHr k v HOr HSr) as [r' [u [E [HOr' HSr' HEr' Hu HBr']]]]. rewrite E.
      assert (HO2 : ordered (Node nk h s l r')).
      { simpl. repeat split; auto.
        - intros x Hx. unfold keys in Hx. rewrite HEr' in Hx.
          apply (incl_map fst (ins_incl k v _)) in Hx. destruct Hx as [Hx|Hx]; [|apply Hr; exact Hx].
          simpl in Hx. subst x. exact B.
        - rewrite Hk. symmetry. eapply leftmost_after_ins; [exact HEr'|]. rewrite <- Hk. exact B. }
      assert (HEt : elements l ++ elements r' = ins k v (elements l ++ elements r)).
      { rewrite HEr'. symmetry. apply ins_app_r. intros x Hx.
        apply (blt_le_trans x nk k); [apply Hl; exact Hx|exact B]. }
      destruct u.
      * destruct (Hu eq_refl) as [Hh' Hs'].
        exists (Node nk h s l r'), true. split; [reflexivity|].
        constructor; [exact HO2|simpl; repeat split; auto; congruence|exact HEt|intros _; split; reflexivity|].
        intros [HBl [HBr HD]]. cbn [balanced height]. rewrite Hh'.
        split; [split; [exact HBl|split; [apply HBr'; exact HBr|exact HD]]|lia].
      * destruct (rebalance nk h s l r' (height l) (height r) HO2 HSl HSr') as [t' [E2 [HO3 [HS3 [HE3 HA]]]]].
        rewrite E2. exists t', false. split; [reflexivity|].
        constructor; [exact HO3|exact HS3|rewrite HE3; exact HEt|discriminate|].
        intros [HBl [HBr HD]]. destruct (HBr' HBr) as [HBr2 Hb]. cbn [height]. apply HA; auto; lia.
Qed.

Lemma get_elements : forall t k, ordered t -> snd (get t k) = sget (elements t) k.
Proof.
  induction t as [lk lv|nk h s l IHl r IHr]; intros k HO.
  - simpl. unfold beq. rewrite (bcmp_antisym lk k). destruct (bcmp lk k); reflexivity.
  - destruct HO as [HOl [HOr [Hl [Hr Hk]]]]. cbn [get elements]. rewrite sget_app.
    destruct (blt k nk) eqn:B.
    + rewrite (IHl k HOl).
      assert (N : sget (elements r) k = None).
      { apply sget_notin. intro Hx. rewrite (Hr k Hx) in B. discriminate. }
      rewrite N. destruct (sget (elements l) k); reflexivity.
    + assert (N : sget (elements l) k = None).
      { apply sget_notin. intro Hx. rewrite (Hl k Hx) in B. discriminate. }
      rewrite N. rewrite <- (IHr k HOr). destruct (get r k). reflexivity.
Qed.

Theorem get_set : forall t k v t' u k',
  ordered t -> sized t -> set t k v = Some (t', u) ->
  snd (get t' k') = if beq k k' then Some v else snd (get t k').
Proof.
  intros t k v t' u k' HO HS E.
  destruct (set_spec t k v HO HS) as [t2 [u2 [E2 [HO2 _ HE _ _]]]].
  rewrite E in E2. inversion E2; subst t2 u2.
  rewrite (get_elements t' k' HO2), (get_elements t k' HO), HE. apply sget_ins.
Qed.
