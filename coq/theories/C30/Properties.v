(** C30 — property theorems only. *)
From Coq Require Import List ZArith NArith Bool.
From C33 Require Import C30.Model C30.Spec C30.Proofs C30.ProofsExpire C30.ProofsRefute.
Import ListNotations.
Open Scope Z_scope.

(** What AddTxsToBlock appends: the units (single transactions / whole groups) of a
    prefix of the pool output, minus the units with a blocked member when the fork is active. *)
Theorem C30_taken_is_unblocked_prefix : forall fork_on maxtx max pool cnt size, exists k,
  add_loop fork_on maxtx max cnt size pool
  = concat (filter (fun u => negb (fork_on && unit_blocked u)) (firstn k (units pool))).
Proof. exact add_loop_char. Qed.
Print Assumptions C30_taken_is_unblocked_prefix.

Theorem C30_count_le : forall e height init_count init_size pool,
  (init_count <=? max_tx_at e height) = true ->
  init_count + Z.of_nat (length (add_txs_to_block e height init_count init_size pool)) <= max_tx_at e height.
Proof. intros *. apply count_le. Qed.
Print Assumptions C30_count_le.

Theorem C30_count_le_any_limits : forall fork_on maxtx max pool cnt size,
  (cnt <=? maxtx) = true ->
  cnt + Z.of_nat (length (add_loop fork_on maxtx max cnt size pool)) <= maxtx.
Proof. exact count_le. Qed.
Print Assumptions C30_count_le_any_limits.

Theorem C30_count_over_limit_adds_nothing : forall e height init_count init_size pool,
  (init_count <=? max_tx_at e height) = false ->
  add_txs_to_block e height init_count init_size pool = [].
Proof. intros *. apply count_over_nothing. Qed.
Print Assumptions C30_count_over_limit_adds_nothing.

Theorem C30_count_le_unguarded_refuted : ~ count_le_unguarded.
Proof. exact count_le_unguarded_refuted. Qed.
Print Assumptions C30_count_le_unguarded_refuted.

Theorem C30_size_le : forall e height init_count init_size pool,
  (init_size <=? max_block_size - size_margin) = true ->
  init_size + sum_sizes (add_txs_to_block e height init_count init_size pool)
  <= max_block_size - size_margin.
Proof. intros *. apply size_le. Qed.
Print Assumptions C30_size_le.

Theorem C30_size_le_any_limits : forall fork_on maxtx max pool cnt size,
  add_loop fork_on maxtx max cnt size pool = [] \/
  size + sum_sizes (add_loop fork_on maxtx max cnt size pool) <= max.
Proof. exact add_loop_size. Qed.
Print Assumptions C30_size_le_any_limits.

Theorem C30_size_le_encoded_partial : forall e height init_count init_size pool,
  (0 <=? init_count) && (init_count <=? max_tx_at e height) = true ->
  (0 <=? init_size) && (init_size <=? max_block_size - size_margin) = true ->
  sizes_nonneg pool = true ->
  (5 * max_tx_at e height <=? size_margin) = true ->
  enc_size init_size (add_txs_to_block e height init_count init_size pool) <= max_block_size.
Proof. exact atb_enc_le. Qed.
Print Assumptions C30_size_le_encoded_partial.

Theorem C30_size_le_encoded_unguarded_refuted : ~ enc_le_unguarded.
Proof. exact enc_le_unguarded_refuted. Qed.
Print Assumptions C30_size_le_encoded_unguarded_refuted.

Theorem C30_groups_atomic : forall fork_on maxtx max pool cnt size,
  exists us, subseq us (units pool) /\ add_loop fork_on maxtx max cnt size pool = concat us.
Proof. exact groups_atomic. Qed.
Print Assumptions C30_groups_atomic.

Theorem C30_order_preserved : forall fork_on maxtx max pool cnt size,
  subseq (add_loop fork_on maxtx max cnt size pool) (expanded pool).
Proof. exact order_preserved. Qed.
Print Assumptions C30_order_preserved.

Theorem C30_blocked_skipped : forall fork_on maxtx max pool cnt size,
  fork_on = true ->
  exists us, subseq us (units pool)
    /\ add_loop fork_on maxtx max cnt size pool = concat us
    /\ forall u, In u us -> unit_blocked u = false.
Proof. exact blocked_skipped. Qed.
Print Assumptions C30_blocked_skipped.

Theorem C30_blocked_member_never_taken : forall fork_on maxtx max pool cnt size x,
  fork_on = true -> In x (add_loop fork_on maxtx max cnt size pool) -> i_blocked x = false.
Proof. exact no_blocked_member. Qed.
Print Assumptions C30_blocked_member_never_taken.

Theorem C30_expire_removes_whole_groups : forall e h bt ss,
  forallb wf_seg ss = true ->
  check_tx_expire e h bt (concat ss)
  = Some (concat (filter (fun s => negb (is_expire e h bt s)) ss)).
Proof. exact expire_whole_groups. Qed.
Print Assumptions C30_expire_removes_whole_groups.

Theorem C30_expire_complete_partial : forall e h bt ss,
  forallb wf_seg ss = true -> forallb (forallb plain_hdr) ss = true ->
  check_tx_expire e h bt (concat ss)
  = Some (concat (filter (fun s => negb (existsb (spec_expired e h bt) s)) ss)).
Proof. exact expire_whole_groups_spec. Qed.
Print Assumptions C30_expire_complete_partial.

Theorem C30_expire_subseq : forall e h bt l out,
  check_tx_expire e h bt l = Some out -> subseq out l.
Proof. exact expire_subseq. Qed.
Print Assumptions C30_expire_subseq.

Theorem C30_expire_fuel_enough : forall e h bt l, cte_loop (length l) e h bt l <> CteFuel.
Proof. exact expire_no_fuel. Qed.
Print Assumptions C30_expire_fuel_enough.

Theorem C30_expire_trailing_group_refuted : ~ expire_complete_full.
Proof. exact expire_complete_refuted. Qed.
Print Assumptions C30_expire_trailing_group_refuted.

Theorem C30_expire_parsable_header_refuted : ~ expire_complete_wf_full.
Proof. exact expire_parsable_header_refuted. Qed.
Print Assumptions C30_expire_parsable_header_refuted.

Theorem C30_expire_negative_groupcount_refuted : ~ expire_total_full.
Proof. exact expire_total_refuted. Qed.
Print Assumptions C30_expire_negative_groupcount_refuted.
