(** C30 — proofs about AddTxsToBlock (Model.add_loop). *)
From Coq Require Import List ZArith NArith Bool Lia.
From C33 Require Import C30.Model C30.Spec.
Import ListNotations.
Open Scope Z_scope.

Lemma subseq_refl {A} (l : list A) : subseq l l.
Proof. induction l; [apply ss_nil|apply ss_take; assumption]. Qed.

Lemma subseq_nil_l {A} (l : list A) : subseq [] l.
Proof. induction l; [apply ss_nil|apply ss_skip; assumption]. Qed.

Lemma subseq_trans {A} (a b c : list A) : subseq a b -> subseq b c -> subseq a c.
Proof.
  intros Hab Hbc. revert a Hab.
  induction Hbc as [|x l1 l2 H IH|x l1 l2 H IH]; intros a Hab.
  - exact Hab.
  - apply ss_skip. apply IH. exact Hab.
  - inversion Hab; subst.
    + apply ss_skip. apply IH. assumption.
    + apply ss_take. apply IH. assumption.
Qed.

Lemma subseq_filter {A} (f : A -> bool) (l : list A) : subseq (filter f l) l.
Proof.
  induction l as [|x l IH]; simpl.
  - apply ss_nil.
  - destruct (f x); [apply ss_take|apply ss_skip]; exact IH.
Qed.

Lemma subseq_firstn {A} (k : nat) (l : list A) : subseq (firstn k l) l.
Proof.
  revert l. induction k as [|k IH]; intros l; simpl.
  - apply subseq_nil_l.
  - destruct l as [|x l]; [apply ss_nil|]. apply ss_take. apply IH.
Qed.

Lemma subseq_app_skip {A} (p a b : list A) : subseq a b -> subseq a (p ++ b).
Proof. induction p; simpl; intros H; [exact H|]. apply ss_skip. auto. Qed.

Lemma subseq_app_take {A} (p a b : list A) : subseq a b -> subseq (p ++ a) (p ++ b).
Proof. induction p; simpl; intros H; [exact H|]. apply ss_take. auto. Qed.

Lemma subseq_concat {A} (a b : list (list A)) : subseq a b -> subseq (concat a) (concat b).
Proof.
  induction 1; simpl.
  - apply ss_nil.
  - apply subseq_app_skip. assumption.
  - apply subseq_app_take. assumption.
Qed.

Lemma subseq_In {A} (a b : list A) x : subseq a b -> In x a -> In x b.
Proof.
  induction 1; simpl; intros Hin; auto.
  destruct Hin; auto.
Qed.

Lemma subseq_length {A} (a b : list A) : subseq a b -> (length a <= length b)%nat.
Proof. induction 1; simpl; lia. Qed.

Lemma sum_sizes_app a b : sum_sizes (a ++ b) = sum_sizes a + sum_sizes b.
Proof. induction a; simpl; [reflexivity|]. unfold sum_sizes in *. simpl. lia. Qed.

Lemma sum_sizes_cons x l : sum_sizes (x :: l) = i_size x + sum_sizes l.
Proof. reflexivity. Qed.

Lemma units_cons t rest : units (t :: rest) = unit_of t ++ units rest.
Proof. reflexivity. Qed.

Lemma expanded_cons t rest : expanded (t :: rest) = concat (unit_of t) ++ expanded rest.
Proof. unfold expanded. rewrite units_cons. apply concat_app. Qed.

Lemma In_expanded_cons x t rest : In x (expanded rest) -> In x (expanded (t :: rest)).
Proof. intros H. rewrite expanded_cons. apply in_or_app. right. exact H. Qed.

(** [add_loop] sees the pool only through its units, and treats a single transaction as a unit of
    one: it is this loop over [units pool].  Everything below is proved of [take]. *)
Fixpoint take (fork_on : bool) (maxtx max cnt size : Z) (us : list (list itx)) : list itx :=
  match us with
  | [] => []
  | u :: rest =>
      if fork_on && unit_blocked u then take fork_on maxtx max cnt size rest
      else if cnt + Z.of_nat (length u) >? maxtx then []
      else if size + sum_sizes u >? max then []
      else u ++ take fork_on maxtx max (cnt + Z.of_nat (length u)) (size + sum_sizes u) rest
  end.

Lemma add_loop_take fork_on maxtx max pool : forall cnt size,
  add_loop fork_on maxtx max cnt size pool = take fork_on maxtx max cnt size (units pool).
Proof.
  induction pool as [|t rest IH]; intros cnt size; [reflexivity|].
  cbn [add_loop]. rewrite units_cons. unfold unit_of.
  destruct (get_tx_group t) as [| |l]; cbn [app take]; rewrite !IH.
  - reflexivity.
  - unfold unit_blocked. cbn [existsb sum_sizes fold_right].
    rewrite orb_false_r, Z.add_0_r. reflexivity.
  - reflexivity.
Qed.

Definition keep_unit (fork_on : bool) (u : list itx) : bool := negb (fork_on && unit_blocked u).

Lemma take_char fork_on maxtx max us : forall cnt size, exists k,
  take fork_on maxtx max cnt size us = concat (filter (keep_unit fork_on) (firstn k us)).
Proof.
  induction us as [|u us IH]; intros cnt size; [exists O; reflexivity|].
  cbn [take]. destruct (fork_on && unit_blocked u) eqn:B.
  - destruct (IH cnt size) as [k Hk]. exists (S k).
    cbn [firstn filter]. unfold keep_unit at 1. rewrite B. exact Hk.
  - destruct (_ >? maxtx); [exists O; reflexivity|].
    destruct (_ >? max); [exists O; reflexivity|].
    destruct (IH (cnt + Z.of_nat (length u)) (size + sum_sizes u)) as [k Hk]. exists (S k).
    cbn [firstn filter]. unfold keep_unit at 1. rewrite B. cbn [negb concat]. rewrite Hk. reflexivity.
Qed.

(** both limits hold of whatever is taken; an over-full initial block takes nothing *)
Lemma take_limits fork_on maxtx max us : forall cnt size,
  take fork_on maxtx max cnt size us = [] \/
  cnt + Z.of_nat (length (take fork_on maxtx max cnt size us)) <= maxtx
  /\ size + sum_sizes (take fork_on maxtx max cnt size us) <= max.
Proof.
  induction us as [|u us IH]; intros cnt size; [left; reflexivity|].
  cbn [take]. destruct (fork_on && unit_blocked u); [apply IH|].
  destruct (_ >? maxtx) eqn:C; [left; reflexivity|].
  destruct (_ >? max) eqn:S; [left; reflexivity|].
  right. rewrite app_length, sum_sizes_app, Nat2Z.inj_add.
  destruct (IH (cnt + Z.of_nat (length u)) (size + sum_sizes u)) as [->|E]; cbn [length sum_sizes fold_right]; lia.
Qed.

Lemma add_loop_char fork_on maxtx max pool cnt size : exists k,
  add_loop fork_on maxtx max cnt size pool
  = concat (filter (keep_unit fork_on) (firstn k (units pool))).
Proof. rewrite add_loop_take. apply take_char. Qed.

Lemma add_loop_limits fork_on maxtx max pool cnt size :
  add_loop fork_on maxtx max cnt size pool = [] \/
  cnt + Z.of_nat (length (add_loop fork_on maxtx max cnt size pool)) <= maxtx
  /\ size + sum_sizes (add_loop fork_on maxtx max cnt size pool) <= max.
Proof. rewrite add_loop_take. apply take_limits. Qed.

Lemma add_loop_size fork_on maxtx max pool cnt size :
  add_loop fork_on maxtx max cnt size pool = [] \/
  size + sum_sizes (add_loop fork_on maxtx max cnt size pool) <= max.
Proof. destruct (add_loop_limits fork_on maxtx max pool cnt size) as [E|[_ E]]; auto. Qed.

Lemma count_le fork_on maxtx max pool cnt size :
  (cnt <=? maxtx) = true ->
  cnt + Z.of_nat (length (add_loop fork_on maxtx max cnt size pool)) <= maxtx.
Proof.
  intros H. destruct (add_loop_limits fork_on maxtx max pool cnt size) as [->|[E _]]; [cbn; lia|exact E].
Qed.

Lemma count_over_nothing fork_on maxtx max pool cnt size :
  (cnt <=? maxtx) = false -> add_loop fork_on maxtx max cnt size pool = [].
Proof.
  intros H. destruct (add_loop_limits fork_on maxtx max pool cnt size) as [E|[E _]]; [exact E|lia].
Qed.

Lemma size_le fork_on maxtx max pool cnt size :
  (size <=? max) = true ->
  size + sum_sizes (add_loop fork_on maxtx max cnt size pool) <= max.
Proof.
  intros H. destruct (add_loop_limits fork_on maxtx max pool cnt size) as [->|[_ E]]; [cbn; lia|exact E].
Qed.

Lemma taken_units fork_on maxtx max pool cnt size :
  exists us, subseq us (units pool)
    /\ add_loop fork_on maxtx max cnt size pool = concat us
    /\ forall u, In u us -> keep_unit fork_on u = true.
Proof.
  destruct (add_loop_char fork_on maxtx max pool cnt size) as [k Hk].
  exists (filter (keep_unit fork_on) (firstn k (units pool))). split; [|split].
  - eapply subseq_trans; [apply subseq_filter|apply subseq_firstn].
  - exact Hk.
  - intros u Hu. apply filter_In in Hu. apply Hu.
Qed.

Lemma groups_atomic fork_on maxtx max pool cnt size :
  exists us, subseq us (units pool) /\ add_loop fork_on maxtx max cnt size pool = concat us.
Proof.
  destruct (taken_units fork_on maxtx max pool cnt size) as [us [Hs [E _]]]. exists us. split; assumption.
Qed.

Lemma order_preserved fork_on maxtx max pool cnt size :
  subseq (add_loop fork_on maxtx max cnt size pool) (expanded pool).
Proof.
  destruct (groups_atomic fork_on maxtx max pool cnt size) as [us [Hs ->]].
  apply subseq_concat. exact Hs.
Qed.

Lemma blocked_skipped fork_on maxtx max pool cnt size :
  fork_on = true ->
  exists us, subseq us (units pool)
    /\ add_loop fork_on maxtx max cnt size pool = concat us
    /\ forall u, In u us -> unit_blocked u = false.
Proof.
  intros ->. destruct (taken_units true maxtx max pool cnt size) as [us [Hs [E Hk]]].
  exists us. split; [exact Hs|split; [exact E|]].
  intros u Hu. apply Hk, negb_true_iff in Hu. exact Hu.
Qed.

Lemma no_blocked_member fork_on maxtx max pool cnt size x :
  fork_on = true -> In x (add_loop fork_on maxtx max cnt size pool) -> i_blocked x = false.
Proof.
  intros Hf Hx. destruct (blocked_skipped fork_on maxtx max pool cnt size Hf) as [us [_ [E Hb]]].
  rewrite E in Hx. apply in_concat in Hx as [u [Hu Hxu]].
  specialize (Hb u Hu). unfold unit_blocked in Hb.
  destruct (i_blocked x) eqn:Bx; [|reflexivity].
  assert (existsb i_blocked u = true) by (apply existsb_exists; exists x; auto). congruence.
Qed.

(** encoded size: at most 5 bytes of framing per transaction while sizes stay below 2^28 *)
Lemma frame_le5 s : 0 <= s < 268435456 -> frame s <= 5.
Proof.
  intros H. unfold frame, varint_len.
  destruct (s <? 128); [lia|]. destruct (s <? 16384); [lia|]. destruct (s <? 2097152); [lia|].
  destruct (s <? 268435456) eqn:E; lia.
Qed.

Lemma sum_sizes_nonneg l : Forall (fun x => 0 <= i_size x) l -> 0 <= sum_sizes l.
Proof. induction 1; [reflexivity|]. rewrite sum_sizes_cons. lia. Qed.

Lemma enc_size_le init l :
  Forall (fun x => 0 <= i_size x) l -> sum_sizes l < 268435456 ->
  enc_size init l <= init + sum_sizes l + 5 * Z.of_nat (length l).
Proof.
  unfold enc_size. induction 1 as [|x l Hx Hl IH]; [cbn; lia|].
  rewrite sum_sizes_cons. cbn [fold_right length]. intros Hs.
  pose proof (sum_sizes_nonneg l Hl). pose proof (frame_le5 (i_size x)). lia.
Qed.

Lemma enc_le fork_on maxtx max margin pool cnt size :
  0 <= cnt -> (cnt <=? maxtx) = true ->
  0 <= size -> (size <=? max) = true ->
  max < 268435456 ->
  sizes_nonneg pool = true ->
  (5 * maxtx <=? margin) = true ->
  enc_size size (add_loop fork_on maxtx max cnt size pool) <= max + margin.
Proof.
  intros Hc0 Hc Hs0 Hs Hmax Hnn Hg.
  pose proof (count_le fork_on maxtx max pool cnt size Hc) as Hcount.
  pose proof (size_le fork_on maxtx max pool cnt size Hs) as Hsum.
  pose proof (order_preserved fork_on maxtx max pool cnt size) as Hsub.
  set (added := add_loop fork_on maxtx max cnt size pool) in *.
  assert (Hpos : Forall (fun x => 0 <= i_size x) added).
  { apply Forall_forall. intros x Hx. apply Z.leb_le.
    apply (proj1 (forallb_forall _ _) Hnn), (subseq_In _ _ _ Hsub), Hx. }
  pose proof (enc_size_le size added Hpos). lia.
Qed.

Lemma atb_enc_le e height ic isz pool :
  (0 <=? ic) && (ic <=? max_tx_at e height) = true ->
  (0 <=? isz) && (isz <=? max_block_size - size_margin) = true ->
  sizes_nonneg pool = true ->
  (5 * max_tx_at e height <=? size_margin) = true ->
  enc_size isz (add_txs_to_block e height ic isz pool) <= max_block_size.
Proof.
  intros Hc Hs Hn Hg. apply andb_true_iff in Hc as [Hc0 Hc]. apply andb_true_iff in Hs as [Hs0 Hs].
  apply Z.leb_le in Hc0, Hs0.
  pose proof (enc_le (is_fork height (e_blfork e)) (max_tx_at e height) (max_block_size - size_margin)
                size_margin pool ic isz Hc0 Hc Hs0 Hs) as E.
  unfold add_txs_to_block.
  assert (max_block_size - size_margin < 268435456) as Hm by (unfold max_block_size, size_margin; lia).
  specialize (E Hm Hn Hg). lia.
Qed.
