(** C30 — refutation witnesses, non-vacuity examples. *)
From Coq Require Import List ZArith NArith Bool Lia.
From C33 Require Import C30.Model C30.Spec C30.Proofs C30.ProofsExpire.
Import ListNotations.
Open Scope Z_scope.

Definition env0 (maxtx : Z) : env := mk_env maxtx [] 0 false true 0 200 600.

Definition plain (id : N) (size : Z) : tx := mk_tx (mk_itx id size 0 false 0) false HNil.

(** an initial block already over the count limit stays over it *)
Definition count_le_unguarded : Prop :=
  forall e height ic isz pool,
    ic + Z.of_nat (length (add_txs_to_block e height ic isz pool)) <= max_tx_at e height.

Lemma count_le_unguarded_refuted : ~ count_le_unguarded.
Proof. intros H. specialize (H (env0 3) 1 5 100 [plain 1%N 10]). vm_compute in H. apply H. reflexivity. Qed.

(** without the guard 5*MaxTxNumber <= 100000 the encoded block can exceed MaxBlockSize *)
Definition enc_le_unguarded : Prop :=
  forall e height ic isz pool,
    (0 <=? ic) && (ic <=? max_tx_at e height) = true ->
    (0 <=? isz) && (isz <=? max_block_size - size_margin) = true ->
    sizes_nonneg pool = true ->
    enc_size isz (add_txs_to_block e height ic isz pool) <= max_block_size.

(** [n] copies of [x]; a pool of copies of one plain transaction is taken whole while the limits allow,
    so its encoded size is known without building it. *)
Definition many {A} (x : A) (n : N) : list A := N.iter n (cons x) [].

Lemma many_succ {A} (x : A) n : many x (N.succ n) = x :: many x n.
Proof. apply N.iter_succ. Qed.

Lemma forallb_many {A} (f : A -> bool) x n : f x = true -> forallb f (many x n) = true.
Proof.
  intros Hx. induction n as [|n IH] using N.peano_ind; [reflexivity|].
  rewrite many_succ. cbn [forallb]. rewrite Hx, IH. reflexivity.
Qed.

Lemma expanded_many t n : get_tx_group t = GNone -> expanded (many t n) = many (t_in t) n.
Proof.
  intros G. induction n as [|n IH] using N.peano_ind; [reflexivity|].
  rewrite !many_succ, expanded_cons, IH. unfold unit_of. rewrite G. reflexivity.
Qed.

Lemma add_loop_many fork_on maxtx max t :
  get_tx_group t = GNone -> fork_on && i_blocked (t_in t) = false -> 0 <= i_size (t_in t) ->
  forall n cnt size,
    cnt + Z.of_N n <= maxtx -> size + Z.of_N n * i_size (t_in t) <= max ->
    add_loop fork_on maxtx max cnt size (many t n) = many (t_in t) n.
Proof.
  intros G B S0 n. induction n as [|n IH] using N.peano_ind; intros cnt size Hc Hs; [reflexivity|].
  rewrite !many_succ. cbn [add_loop]. rewrite G, B. rewrite N2Z.inj_succ in Hc, Hs.
  assert (0 <= Z.of_N n * i_size (t_in t)) by (apply Z.mul_nonneg_nonneg; lia).
  assert ((cnt + 1 >? maxtx) = false) as -> by lia.
  assert ((size + i_size (t_in t) >? max) = false) as -> by lia.
  f_equal. apply IH; lia.
Qed.

Lemma enc_size_many init x n :
  enc_size init (many x n) = init + Z.of_N n * (frame (i_size x) + i_size x).
Proof.
  unfold enc_size. f_equal. induction n as [|n IH] using N.peano_ind; [reflexivity|].
  rewrite many_succ, N2Z.inj_succ. cbn [fold_right]. rewrite IH. lia.
Qed.

Lemma sizes_nonneg_many t n :
  get_tx_group t = GNone -> 0 <= i_size (t_in t) -> sizes_nonneg (many t n) = true.
Proof.
  intros G S0. unfold sizes_nonneg. rewrite expanded_many by exact G.
  apply forallb_many, Z.leb_le, S0.
Qed.

Lemma atb_many e height ic isz t n :
  get_tx_group t = GNone -> is_fork height (e_blfork e) && i_blocked (t_in t) = false ->
  0 <= i_size (t_in t) ->
  ic + Z.of_N n <= max_tx_at e height ->
  isz + Z.of_N n * i_size (t_in t) <= max_block_size - size_margin ->
  add_txs_to_block e height ic isz (many t n) = many (t_in t) n.
Proof. intros G B S0. apply add_loop_many; assumption. Qed.

(** 40000 transactions of 497 bytes (3 bytes of framing each) on a 2-byte block: the sizes add up to
    19880002, the encoding to 20000002.  Only the arithmetic is evaluated; the pool stays folded
    (unfolding [add_txs_to_block] around the closed pool would make the kernel run the loop to
    compare the two forms, hence [atb_many]). *)
Lemma enc_le_unguarded_refuted : ~ enc_le_unguarded.
Proof.
  intros H. specialize (H (env0 40000) 3 0 2 (many (plain 1%N 497) 40000) eq_refl eq_refl).
  rewrite atb_many, enc_size_many in H by (reflexivity || apply Z.leb_le; reflexivity).
  apply H; [apply sizes_nonneg_many|]; reflexivity || apply Z.leb_le; reflexivity.
Qed.

(** CheckTxExpire: expired members of a trailing group that runs past the end stay *)
Definition expire_complete_full : Prop :=
  forall e h bt l out, check_tx_expire e h bt l = Some out ->
    forall t, In t out -> spec_expired e h bt t = false.

Definition gtx (id : N) (gc exp : Z) (hd : hdr) : tx := mk_tx (mk_itx id 10 gc false exp) true hd.

Lemma expire_complete_refuted : ~ expire_complete_full.
Proof.
  intros H.
  specialize (H (env0 10) 10 10 [gtx 1%N 3 5 HBad] [gtx 1%N 3 5 HBad] eq_refl (gtx 1%N 3 5 HBad) (or_introl eq_refl)).
  vm_compute in H. discriminate.
Qed.

(** ... and on well-formed input, expired members whose Header parses as protobuf stay *)
Definition expire_complete_wf_full : Prop :=
  forall e h bt ss, forallb wf_seg ss = true ->
    check_tx_expire e h bt (concat ss)
    = Some (concat (filter (fun s => negb (existsb (spec_expired e h bt) s)) ss)).

Lemma expire_parsable_header_refuted : ~ expire_complete_wf_full.
Proof.
  intros H.
  specialize (H (env0 10) 1000 1000 [[gtx 1%N 2 999 (HTxs []); gtx 2%N 2 0 (HTxs [])]] eq_refl).
  vm_compute in H. discriminate.
Qed.

(** negative GroupCount panics *)
Definition expire_total_full : Prop := forall e h bt l, check_tx_expire e h bt l <> None.

Lemma expire_total_refuted : ~ expire_total_full.
Proof. intros H. apply (H (env0 10) 10 10 [gtx 1%N (-1) 0 HNil]). reflexivity. Qed.

Definition grp2 (a b : N) (sa sb : Z) (blk : bool) : tx :=
  mk_tx (mk_itx a sa 2 false 0) true
        (HTxs [mk_itx a sa 2 false 0; mk_itx b sb 2 blk 0]).

(** a group straddling the count limit is left out as a whole, and ends the block *)
Example ex_count_straddle :
  map i_id (add_txs_to_block (env0 3) 1 0 2 [plain 1%N 10; plain 2%N 10; grp2 3%N 4%N 10 10 false; plain 5%N 10])
  = [1%N; 2%N].
Proof. reflexivity. Qed.

(** the limits are reached exactly *)
Example ex_count_exact :
  map i_id (add_txs_to_block (env0 4) 1 0 2 [plain 1%N 10; plain 2%N 10; grp2 3%N 4%N 10 10 false; plain 5%N 10])
  = [1%N; 2%N; 3%N; 4%N].
Proof. reflexivity. Qed.

Example ex_size_exact :
  map i_id (add_txs_to_block (env0 100) 1 0 19899970 [plain 1%N 10; grp2 2%N 3%N 10 10 false; plain 4%N 1]) = [1%N; 2%N; 3%N]
  /\ map i_id (add_txs_to_block (env0 100) 1 0 19899971 [plain 1%N 10; grp2 2%N 3%N 10 10 false; plain 4%N 1]) = [1%N].
Proof. split; reflexivity. Qed.

(** blocked member: whole group skipped, later entries still taken (fork active); taken before the fork *)
Example ex_blocked :
  map i_id (add_txs_to_block (mk_env 10 [] 5 false true 0 200 600) 5 0 2 [grp2 1%N 2%N 10 10 true; plain 3%N 10]) = [3%N]
  /\ map i_id (add_txs_to_block (mk_env 10 [] 5 false true 0 200 600) 4 0 2 [grp2 1%N 2%N 10 10 true; plain 3%N 10]) = [1%N; 2%N; 3%N].
Proof. split; reflexivity. Qed.

(** the guards of the encoded-size theorem are satisfiable by a non-trivial state *)
Example ex_enc_guard :
  let e := env0 10000 in
  let pool := [plain 1%N 300; grp2 2%N 3%N 200 100 false] in
  (0 <=? 1) && (1 <=? max_tx_at e 7) = true /\
  (0 <=? 19899000) && (19899000 <=? max_block_size - size_margin) = true /\
  sizes_nonneg pool = true /\ (5 * max_tx_at e 7 <=? size_margin) = true /\
  length (add_txs_to_block e 7 1 19899000 pool) = 3%nat.
Proof. repeat split; reflexivity. Qed.

(** MaxTxNumber by height *)
Example ex_max_tx_at :
  let e := mk_env 3 [(10, 5); (20, 7)] 0 false true 0 200 600 in
  map (max_tx_at e) [0; 9; 10; 19; 20; 21] = [3; 3; 5; 5; 7; 7].
Proof. reflexivity. Qed.

(** expiry: a well-formed list; the expired group goes as a whole, the rest stays in order *)
Example ex_expire :
  let ss := [[mk_tx (mk_itx 1%N 10 0 false 0) false HNil];
             [gtx 2%N 2 0 HBad; gtx 3%N 2 999 HBad];
             [gtx 4%N 2 0 HBad; gtx 5%N 2 1001 HBad];
             [mk_tx (mk_itx 6%N 10 0 false 1000) false HNil]] in
  forallb wf_seg ss = true /\ forallb (forallb plain_hdr) ss = true /\
  option_map tx_ids (check_tx_expire (env0 10) 1000 1600000000 (concat ss)) = Some [1%N; 4%N; 5%N].
Proof. repeat split; reflexivity. Qed.
