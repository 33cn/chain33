(** C30 — proofs about CheckTxExpire (Model.cte_loop / check_tx_expire). *)
From Coq Require Import List ZArith NArith Bool Lia.
From C33 Require Import C30.Model C30.Spec C30.Proofs.
Import ListNotations.
Open Scope Z_scope.

Definition mark_seg (e : env) (h bt : Z) (s : list tx) : list (option tx) :=
  if is_expire e h bt s then map (fun _ => None) s else map Some s.

Lemma firstn_len_app {A} (s r : list A) : firstn (length s) (s ++ r) = s.
Proof. induction s; simpl; [destruct r; reflexivity|]. f_equal. assumption. Qed.

Lemma skipn_len_app {A} (s r : list A) : skipn (length s) (s ++ r) = r.
Proof. induction s; simpl; auto. Qed.

Lemma compact_app a b : compact (a ++ b) = compact a ++ compact b.
Proof.
  induction a as [|[x|] a IH]; simpl; [reflexivity| |]; rewrite ?IH; reflexivity.
Qed.

Lemma compact_some s : compact (map Some s) = s.
Proof. induction s; simpl; congruence. Qed.

Lemma compact_none {A} (s : list A) : compact (map (fun _ => None) s) = [].
Proof. induction s; simpl; auto. Qed.

(** one iteration on a well-formed segment followed by anything marks exactly that segment *)
Lemma cte_loop_seg fuel e h bt s r : wf_seg s = true ->
  cte_loop (S fuel) e h bt (s ++ r) = cte_cons (mark_seg e h bt s) (cte_loop fuel e h bt r).
Proof.
  destruct s as [|t tl]; [discriminate|]. intros Hs.
  cbn [app cte_loop]. unfold wf_seg in Hs.
  destruct (i_gc (t_in t) =? 0) eqn:G0; cbn [andb orb] in Hs.
  - assert (tl = []) as ->.
    { destruct tl; [reflexivity|]. cbn [orb] in Hs. apply Z.eqb_eq in G0, Hs.
      cbn [length] in Hs. lia. }
    unfold mark_seg. destruct (is_expire e h bt [t]); reflexivity.
  - apply Z.eqb_eq in Hs.
    change (t :: tl ++ r) with ((t :: tl) ++ r).
    assert ((Z.of_nat (length ((t :: tl) ++ r)) <? i_gc (t_in t)) = false) as ->
      by (apply Z.ltb_ge; rewrite Hs, app_length; lia).
    assert ((i_gc (t_in t) <? 0) = false) as -> by (apply Z.ltb_ge; lia).
    rewrite Hs, Nat2Z.id, firstn_len_app, skipn_len_app. reflexivity.
Qed.

Lemma cte_loop_wf e h bt ss : forallb wf_seg ss = true ->
  forall fuel, (length (concat ss) <= fuel)%nat ->
  cte_loop fuel e h bt (concat ss) = CteOk (concat (map (mark_seg e h bt) ss)).
Proof.
  induction ss as [|s ss IH]; intros Hwf fuel Hf.
  - destruct fuel; reflexivity.
  - cbn [forallb] in Hwf. apply andb_true_iff in Hwf as [Hs Hss].
    cbn [concat map] in *. rewrite app_length in Hf.
    assert (1 <= length s)%nat by (destruct s; [discriminate|cbn; lia]).
    destruct fuel as [|fuel]; [lia|].
    rewrite (cte_loop_seg fuel e h bt s _ Hs), IH; [reflexivity|exact Hss|lia].
Qed.

Lemma compact_marks e h bt ss :
  compact (concat (map (mark_seg e h bt) ss))
  = concat (filter (fun s => negb (is_expire e h bt s)) ss).
Proof.
  induction ss as [|s ss IH]; [reflexivity|].
  cbn [map concat filter]. rewrite compact_app, IH. unfold mark_seg.
  destruct (is_expire e h bt s); cbn [negb].
  - rewrite compact_none. reflexivity.
  - rewrite compact_some. reflexivity.
Qed.

Lemma expire_whole_groups e h bt ss : forallb wf_seg ss = true ->
  check_tx_expire e h bt (concat ss)
  = Some (concat (filter (fun s => negb (is_expire e h bt s)) ss)).
Proof.
  intros Hwf. unfold check_tx_expire.
  rewrite (cte_loop_wf e h bt ss Hwf); [|lia]. rewrite compact_marks. reflexivity.
Qed.

Definition plain_hdr (t : tx) : bool :=
  match get_tx_group t with GSome _ => false | _ => true end.

(** with undecodable headers (the normal case for expanded groups) the model's
    expiry is the spec's expiry *)
Lemma is_expire_spec e h bt s : forallb plain_hdr s = true ->
  is_expire e h bt s = existsb (spec_expired e h bt) s.
Proof.
  induction s as [|t s IH]; intros Hp; [reflexivity|].
  cbn [forallb] in Hp. apply andb_true_iff in Hp as [Ht Hs].
  unfold is_expire in *. cbn [existsb]. rewrite IH by exact Hs. f_equal.
  unfold spec_expired, tx_expired. unfold plain_hdr in Ht.
  destruct (get_tx_group t); [reflexivity|reflexivity|discriminate].
Qed.

Lemma expire_whole_groups_spec e h bt ss :
  forallb wf_seg ss = true -> forallb (forallb plain_hdr) ss = true ->
  check_tx_expire e h bt (concat ss)
  = Some (concat (filter (fun s => negb (existsb (spec_expired e h bt) s)) ss)).
Proof.
  intros Hwf Hp. rewrite expire_whole_groups by exact Hwf. f_equal. f_equal.
  apply filter_ext_in. intros s Hs. rewrite forallb_forall in Hp.
  rewrite is_expire_spec; [reflexivity|]. apply Hp. exact Hs.
Qed.

(** positional marking: every entry kept or set to nil *)
Inductive marks : list tx -> list (option tx) -> Prop :=
| mk_nil : marks [] []
| mk_keep t l m : marks l m -> marks (t :: l) (Some t :: m)
| mk_drop t l m : marks l m -> marks (t :: l) (None :: m).

Lemma marks_app a ma b mb : marks a ma -> marks b mb -> marks (a ++ b) (ma ++ mb).
Proof. induction 1; intros Hb; cbn; [exact Hb|apply mk_keep; auto|apply mk_drop; auto]. Qed.

Lemma marks_some s : marks s (map Some s).
Proof. induction s; cbn; [apply mk_nil|apply mk_keep; assumption]. Qed.

Lemma marks_none s : marks s (map (fun _ => None) s).
Proof. induction s; cbn; [apply mk_nil|apply mk_drop; assumption]. Qed.

Lemma marks_subseq l m : marks l m -> subseq (compact m) l.
Proof. induction 1; cbn; [apply ss_nil|apply ss_take; assumption|apply ss_skip; assumption]. Qed.

(** One iteration on a non-empty list: unless it panics, it marks a non-empty prefix and goes on
    with the rest. *)
Lemma cte_loop_step fuel e h bt t rest :
  cte_loop (S fuel) e h bt (t :: rest) = CtePanic \/
  exists s r pre, t :: rest = s ++ r /\ (length r <= length rest)%nat /\ marks s pre
    /\ cte_loop (S fuel) e h bt (t :: rest) = cte_cons pre (cte_loop fuel e h bt r).
Proof.
  cbn [cte_loop].
  destruct (i_gc (t_in t) =? 0) eqn:G0.
  { right. exists [t], rest. eexists. repeat split; [lia|].
    destruct (is_expire e h bt [t]); [apply marks_none with (s := [t])|apply marks_some with (s := [t])]. }
  destruct (Z.of_nat (length (t :: rest)) <? i_gc (t_in t)).
  { right. exists [t], rest. eexists. repeat split; [lia|]. apply marks_some with (s := [t]). }
  destruct (i_gc (t_in t) <? 0) eqn:GN; [left; reflexivity|].
  right. set (n := Z.to_nat (i_gc (t_in t))).
  exists (firstn n (t :: rest)), (skipn n (t :: rest)). eexists.
  split; [symmetry; apply firstn_skipn|]. split; [|split; [|reflexivity]].
  - rewrite skipn_length. cbn [length]. lia.
  - destruct (is_expire e h bt (firstn n (t :: rest))); [apply marks_none|apply marks_some].
Qed.

Lemma cte_fuel_enough e h bt : forall fuel l, (length l <= fuel)%nat -> cte_loop fuel e h bt l <> CteFuel.
Proof.
  induction fuel as [|fuel IH]; intros [|t rest] Hl; cbn [length] in Hl.
  1-3: cbn; congruence || lia.
  destruct (cte_loop_step fuel e h bt t rest) as [->|(s & r & pre & _ & Hr & _ & ->)]; [congruence|].
  assert (cte_loop fuel e h bt r <> CteFuel) by (apply IH; lia).
  destruct (cte_loop fuel e h bt r); cbn; congruence.
Qed.

Lemma cte_loop_marks e h bt : forall fuel l m, cte_loop fuel e h bt l = CteOk m -> marks l m.
Proof.
  induction fuel as [|fuel IH]; intros [|t rest] m H.
  1-3: cbn in H; inversion H; apply mk_nil.
  destruct (cte_loop_step fuel e h bt t rest) as [E|(s & r & pre & Hl & _ & Hs & E)]; rewrite E in H; [discriminate|].
  destruct (cte_loop fuel e h bt r) as [| |m'] eqn:R; cbn [cte_cons] in H; try discriminate.
  injection H as <-. rewrite Hl. apply marks_app; [exact Hs|apply IH, R].
Qed.

Lemma expire_subseq e h bt l out : check_tx_expire e h bt l = Some out -> subseq out l.
Proof.
  unfold check_tx_expire. destruct (cte_loop (length l) e h bt l) as [| |m] eqn:R; try discriminate.
  intros H. inversion H; subst. apply marks_subseq. eapply cte_loop_marks. exact R.
Qed.

Lemma expire_no_fuel e h bt l : cte_loop (length l) e h bt l <> CteFuel.
Proof. apply cte_fuel_enough. lia. Qed.
