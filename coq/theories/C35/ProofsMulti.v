(** C35 — invariants of the transition system under every schedule, for any
    number of height goroutines on the shared array and on their own lists.
    [Inv]: what is asked and handed over is always justified by the inputs,
    and a goroutine that returned successfully has handed a block over.
    [NoRe]: "a peer that failed a height is not asked for it again" within
    phase one.  Since downloadBlock drops a failed task by identity from a
    list of its own (tasks.without), the requests of one goroutine go to
    pairwise different tasks; with a pid list that names every peer once, no
    (height, peer) pair is requested twice in phase one. *)
From Coq Require Import List ZArith NArith Bool Arith Lia Permutation FinFun.
From C33 Require Import C35.Model C35.Spec C35.ProofsTerm C35.ProofsSolo C35.ProofsSingle.
Import ListNotations.
Open Scope nat_scope.

Definition log_ok (c : config) (o : obs) : Prop :=
  match o with
  | OInit l => l = job_peers c
  | OReq h p => In h (heights c) /\ In p (job_peers c) /\ (h <=? c_adv c p)%Z = true
  | ODeliver bh p =>
      In bh (heights c) /\ In p (job_peers c) /\ (bh <=? c_adv c p)%Z = true
      /\ accepted (c_beh c p bh) = true
  end.

Definition has_delivery (c : config) (h : Z) (log : list obs) : Prop :=
  exists p, In p (job_peers c) /\ accepted (c_beh c p h) = true /\ In (ODeliver h p) log.

(** what its pc promises about a goroutine of height [h]: the task it waits
    for is one of the table and its peer is high enough; once it has handed a
    block over, the log holds the delivery *)
Definition pc_ok (c : config) (h : Z) (log : list obs) (p : pc) : Prop :=
  match p with
  | PReq t => t < ntasks c /\ (h <=? c_adv c (task_peer (init_job c) t))%Z = true
  | POkRel _ | PDone true => has_delivery c h log
  | _ => True
  end.

Record Inv (c : config) (s : state) : Prop := mkInv {
  inv_hs : incl (map g_h (s_gs s)) (heights c);
  inv_view : forall g, Forall (fun t => t < ntasks c) (view s (nth g (s_gs s) dummy_g));
  inv_log : forall o, In o (s_log s) -> log_ok c o;
  inv_pc : forall g, pc_ok c (g_h (nth g (s_gs s) dummy_g)) (s_log s) (g_pc (nth g (s_gs s) dummy_g))
}.

Lemma in_firstn {A} (x : A) n l : In x (firstn n l) -> In x l.
Proof. intro H. rewrite <- (firstn_skipn n l). apply in_or_app. left. exact H. Qed.

Lemma in_skipn {A} (x : A) n l : In x (skipn n l) -> In x l.
Proof. intro H. rewrite <- (firstn_skipn n l). apply in_or_app. right. exact H. Qed.

Lemma heights_in_range c h : In h (heights c) -> in_range c h = true.
Proof.
  unfold heights, in_range. intro H. apply in_map_iff in H. destruct H as [i [<- Hi]].
  apply in_seq in Hi. apply andb_true_iff. split; apply Z.leb_le; lia.
Qed.

Lemma has_delivery_incl c h log log' : incl log log' -> has_delivery c h log -> has_delivery c h log'.
Proof. intros Hi [p [H1 [H2 H3]]]. exists p. auto. Qed.

Lemma has_delivery_mono c h log o : has_delivery c h log -> has_delivery c h (o :: log).
Proof. apply has_delivery_incl, incl_tl, incl_refl. Qed.

Lemma pc_ok_incl c h log log' p : incl log log' -> pc_ok c h log p -> pc_ok c h log' p.
Proof. intro Hi. destruct p as [| | | | | | |[|]]; cbn; auto; apply has_delivery_incl, Hi. Qed.

Lemma init_goroutine ts hs g :
  let G := nth g (s_gs (init_state ts hs)) dummy_g in
  g_own G = None /\ (g_pc G = PStart \/ g_pc G = PDone false).
Proof. cbn. revert g. induction hs as [|h hs IH]; intros [|g]; cbn; auto. Qed.

Lemma init_heights ts hs : map g_h (s_gs (init_state ts hs)) = hs.
Proof. cbn. rewrite map_map. apply map_id. Qed.

Lemma inv_init c hs : incl hs (heights c) -> Inv c (init_state (init_job c) hs).
Proof.
  intro Hsub. constructor.
  - rewrite init_heights. exact Hsub.
  - intro g. unfold view. rewrite (proj1 (init_goroutine _ hs g)).
    apply Forall_forall. intros t Ht. apply in_seq in Ht. exact (proj2 Ht).
  - intros o Ho. cbn in Ho. pose proof (init_job_peers c) as Hp.
    destruct (init_job c); [inversion Ho|]. destruct Ho as [<-|[]]. exact Hp.
  - intro g. destruct (proj2 (init_goroutine (init_job c) hs g)) as [-> | ->]; exact I.
Qed.

Lemma g_h_in c s g : Inv c s -> g < length (s_gs s) -> In (g_h (nth g (s_gs s) dummy_g)) (heights c).
Proof.
  intros HI Hg. apply (inv_hs _ _ HI). rewrite <- (map_nth g_h (s_gs s) dummy_g g).
  apply nth_In. rewrite map_length. exact Hg.
Qed.

Lemma gstep_ok c tn h v r p v' r' p' new log :
  gstep c (init_job c) tn h v r p v' r' p' new ->
  In h (heights c) -> Forall (fun t => t < ntasks c) v -> pc_ok c h log p ->
  (forall o, In o new -> log_ok c o) /\ pc_ok c h (new ++ log) p'.
Proof.
  intros Hg Hh Hv Hp.
  (* nothing logged and nothing promised, except by a request and by a block;
     Release after the block passes the delivery on *)
  destruct Hg as [| | | |t i _ Hs| |t Ha| | | |]; cbn [pc_ok app] in *;
    try (split; [intros o Ho; contradiction|exact I || exact Hp]).
  - (* a request: availbTask took a task of the list whose peer is high enough *)
    destruct (scan_some _ _ _ _ _ _ _ _ _ Hs) as (Ht & Hadv & _).
    apply (proj1 (Forall_forall _ _) Hv) in Ht. apply Z.ltb_ge, Z.leb_le in Hadv.
    split; [intros o [<-|[]]; cbn|]; auto using task_peer_in.
  - (* a block *)
    destruct Hp as [Ht Hadv]. apply task_peer_in in Ht.
    split; [intros o [<-|[]]; cbn; auto|].
    exists (task_peer (init_job c) t). cbn. auto.
Qed.

Lemma step_inv c s e s' : Inv c s -> step c (init_job c) s e = Some s' -> Inv c s'.
Proof.
  intros HI H.
  destruct (step_effect _ _ _ _ _ H) as (Hlt & _ & _ & G' & new & Hgs & Hh & Hg & Hlog).
  destruct (gstep_ok _ _ _ _ _ _ _ _ _ _ (s_log s) Hg (g_h_in _ _ _ HI Hlt)
                     (inv_view _ _ HI _) (inv_pc _ _ HI _)) as [Hnew Hpc].
  constructor.
  - rewrite (step_heights _ _ _ _ _ H). apply (inv_hs _ _ HI).
  - intro g. apply (incl_Forall (step_views _ _ _ _ _ H g)), (inv_view _ _ HI).
  - rewrite Hlog. intros o Ho. apply in_app_or in Ho.
    destruct Ho as [Ho|Ho]; [apply Hnew|apply (inv_log _ _ HI)]; exact Ho.
  - intro g. rewrite Hlog, Hgs, (nth_upd _ _ _ _ _ Hlt). destruct (Nat.eqb_spec (ev_g e) g) as [<-|_].
    + rewrite Hh. exact Hpc.
    + apply (pc_ok_incl _ _ (s_log s)); [apply incl_appr, incl_refl|apply (inv_pc _ _ HI)].
Qed.

Lemma exec_inv c sched s : Inv c s -> Inv c (exec c (init_job c) s sched).
Proof. apply exec_preserves, step_inv. Qed.

Lemma phase_one_inv c sched : Inv c (phase_one c sched).
Proof. unfold phase_one. apply exec_inv. apply inv_init. apply incl_refl. Qed.

Lemma recheck_inv c h : In h (heights c) -> Inv c (recheck c h).
Proof.
  intro Hh. unfold recheck.
  destruct (run_g_exec g_fuel c (init_job c) 0 (init_state (init_job c) [h])) as [sched ->].
  apply exec_inv, inv_init. intros x [<-|[]]. exact Hh.
Qed.

Lemma exec_heights c ts sched s : map g_h (s_gs (exec c ts s sched)) = map g_h (s_gs s).
Proof.
  apply (exec_preserves c ts (fun s' => map g_h (s_gs s') = map g_h (s_gs s))); [|reflexivity].
  intros s1 e s2 H1 H. rewrite (step_heights _ _ _ _ _ H). exact H1.
Qed.

Lemma height_goroutine c sched h :
  In h (heights c) ->
  exists g, g < length (s_gs (phase_one c sched)) /\ g_h (nth g (s_gs (phase_one c sched)) dummy_g) = h.
Proof.
  intro Hh. pose proof (exec_heights c (init_job c) sched (init_state (init_job c) (heights c))) as E.
  fold (phase_one c sched) in E. rewrite init_heights in E. rewrite <- E in Hh.
  apply (In_nth _ _ (g_h dummy_g)) in Hh. destruct Hh as [g [Hg Hn]].
  rewrite map_length in Hg. exists g. split; [exact Hg|].
  rewrite <- Hn. symmetry. apply (map_nth g_h _ dummy_g g).
Qed.

Lemma failed_in s g : g < length (s_gs s) -> g_pc (nth g (s_gs s) dummy_g) = PDone false ->
  In (g_h (nth g (s_gs s) dummy_g)) (failed_heights s).
Proof.
  intros Hg Hpc. unfold failed_heights. apply in_map. apply filter_In.
  split; [apply nth_In; exact Hg|]. rewrite Hpc. reflexivity.
Qed.

Definition req_pairs (l : list obs) : list (Z * nat) :=
  flat_map (fun o => match o with OReq h p => [(h, p)] | _ => [] end) l.

(** the only task of its list a goroutine may already have asked is the one
    it is busy with *)
Definition blocks (p : pc) (t : nat) : Prop :=
  match p with
  | PReq t' | PFailRel t' | PRemove t' | POkRel t' => t' = t
  | PDone _ => True
  | PStart | PLoop | PSleep => False
  end.

Record NoRe (c : config) (s : state) : Prop := mkNoRe {
  nr_nodup : NoDup (req_pairs (s_log s));
  nr_hs : NoDup (map g_h (s_gs s));
  nr_view : forall g t, g < length (s_gs s) ->
      In t (view s (nth g (s_gs s) dummy_g)) ->
      In (g_h (nth g (s_gs s) dummy_g), task_peer (init_job c) t) (req_pairs (s_log s)) ->
      blocks (g_pc (nth g (s_gs s) dummy_g)) t
}.

Lemma heights_nodup c : NoDup (heights c).
Proof.
  unfold heights. apply Injective_map_NoDup; [|apply seq_NoDup].
  intros i j H. lia.
Qed.

Lemma task_peer_inj c t t' :
  distinct_peers c = true -> t < ntasks c -> t' < ntasks c ->
  task_peer (init_job c) t = task_peer (init_job c) t' -> t = t'.
Proof.
  intros Hd Ht Ht' He. rewrite !task_peer_nth in He.
  rewrite ntasks_peers in Ht, Ht'.
  apply (proj1 (NoDup_nth (job_peers c) 0) (nodup_nat_spec _ Hd) t t' Ht Ht' He).
Qed.

Lemma nodup_map_nth {A B} (f : A -> B) (l : list A) d i j :
  NoDup (map f l) -> i < length l -> j < length l -> f (nth i l d) = f (nth j l d) -> i = j.
Proof.
  intros Hnd Hi Hj He.
  apply (proj1 (NoDup_nth (map f l) (f d)) Hnd i j); try (rewrite map_length; assumption).
  rewrite !map_nth. exact He.
Qed.

Lemma req_pairs_app l1 l2 : req_pairs (l1 ++ l2) = req_pairs l1 ++ req_pairs l2.
Proof. unfold req_pairs. apply flat_map_app. Qed.

Lemma nore_init c : NoRe c (init_state (init_job c) (heights c)).
Proof.
  assert (Hlog : req_pairs (s_log (init_state (init_job c) (heights c))) = []).
  { unfold init_state. cbn [s_log]. destruct (init_job c); reflexivity. }
  constructor.
  - rewrite Hlog. constructor.
  - rewrite init_heights. apply heights_nodup.
  - intros g t _ _ Hin. rewrite Hlog in Hin. inversion Hin.
Qed.

(** the event of a goroutine of height [h], [old] being the pairs requested
    so far: the only request it can add is new, and [blocks] keeps describing
    its list *)
Lemma gstep_nore c tn h v r p v' r' p' new old :
  gstep c (init_job c) tn h v r p v' r' p' new ->
  distinct_peers c = true -> Forall (fun t => t < ntasks c) v ->
  (forall t, In t v -> In (h, task_peer (init_job c) t) old -> blocks p t) ->
  (NoDup old -> NoDup (req_pairs new ++ old))
  /\ (forall x, In x (req_pairs new) -> fst x = h)
  /\ (forall t, In t v' -> In (h, task_peer (init_job c) t) (req_pairs new ++ old) -> blocks p' t).
Proof.
  intros Hg Hd Hv Hold.
  destruct Hg as [| | | |t i _ Hs| | | | | |]; cbn [req_pairs flat_map app blocks] in *.
  5: { (* a request: the task is in the list and the pc does not block it, so
          the pair is new; another task of the list has another peer *)
       destruct (scan_some _ _ _ _ _ _ _ _ _ Hs) as [Ht _]. split; [|split].
       - intro Hnd. constructor; [exact (Hold t Ht)|exact Hnd].
       - intros x [<-|[]]. reflexivity.
       - intros t' Hin [Heq|Hl]; [|destruct (Hold t' Hin Hl)].
         injection Heq as Heq. pose proof (proj1 (Forall_forall _ _) Hv) as Hlt.
         apply (task_peer_inj c t t' Hd); auto. }
  (* no other event logs a request, and [blocks] follows the pc *)
  all: (split; [exact (fun H => H)|split; [intros x Hx; contradiction|]]);
    try exact Hold; try (intros; exact I).
  - intros t Hin. apply sort_tasks_in in Hin. exact (Hold t Hin).
  - intros t' Hin Hl. apply without_in in Hin. destruct Hin as [Hin Hne].
    apply Hne. symmetry. exact (Hold t' Hin Hl).
Qed.

Lemma step_nore c s e s' :
  distinct_peers c = true -> Inv c s -> NoRe c s ->
  step c (init_job c) s e = Some s' -> NoRe c s'.
Proof.
  intros Hd HI HN H.
  destruct (step_effect _ _ _ _ _ H) as (Hlt & _ & _ & G' & new & Hgs & Hh & Hg & Hlog).
  destruct (gstep_nore _ _ _ _ _ _ _ _ _ _ (req_pairs (s_log s)) Hg Hd (inv_view _ _ HI _)
                       (fun t => nr_view _ _ HN _ t Hlt)) as (Hnd & Hfst & Hown).
  constructor.
  - rewrite Hlog, req_pairs_app. apply Hnd, (nr_nodup _ _ HN).
  - rewrite (step_heights _ _ _ _ _ H). apply (nr_hs _ _ HN).
  - intros g t Hg' Hin Hl. rewrite Hlog, req_pairs_app in Hl.
    pose proof (step_views _ _ _ _ _ H g t Hin) as Hin0.
    rewrite Hgs in *. rewrite upd_length in Hg'. rewrite (nth_upd _ _ _ _ _ Hlt) in *.
    destruct (Nat.eqb_spec (ev_g e) g) as [<-|Hne].
    + rewrite Hh in Hl. exact (Hown t Hin Hl).
    + apply in_app_or in Hl. destruct Hl as [Hl|Hl]; [|exact (nr_view _ _ HN g t Hg' Hin0 Hl)].
      (* another goroutine's request is for another height *)
      destruct Hne. apply Hfst in Hl. symmetry in Hl.
      exact (nodup_map_nth g_h (s_gs s) dummy_g _ _ (nr_hs _ _ HN) Hlt Hg' Hl).
Qed.

Lemma phase_one_nore c sched : distinct_peers c = true -> NoRe c (phase_one c sched).
Proof.
  intro Hd. apply (exec_preserves c (init_job c) (fun s => Inv c s /\ NoRe c s)).
  - intros s e s' [HI HN] H. split; [apply (step_inv _ _ _ _ HI H)|apply (step_nore _ _ _ _ Hd HI HN H)].
  - split; [apply inv_init, incl_refl|apply nore_init].
Qed.

Lemma req_pairs_rev l : req_pairs (rev l) = rev (req_pairs l).
Proof.
  induction l as [|o l IH]; [reflexivity|]. simpl rev. rewrite req_pairs_app, IH.
  destruct o; cbn [req_pairs flat_map app]; fold (req_pairs l); try (rewrite app_nil_r; reflexivity).
  reflexivity.
Qed.

Lemma pair_mem_cons h p h' p' seen :
  pair_mem h' p' ((h, p) :: seen) = ((h =? h')%Z && (p =? p')) || pair_mem h' p' seen.
Proof. reflexivity. Qed.

Lemma no_reask_nodup c : forall tr seen,
  NoDup (req_pairs tr) ->
  (forall h p, In (h, p) (req_pairs tr) -> pair_mem h p seen = false) ->
  no_reask_from c seen tr = true.
Proof.
  induction tr as [|o tr IH]; intros seen Hnd Hseen; [reflexivity|].
  destruct o as [l|h p|bh p]; cbn [no_reask_from].
  - apply IH; assumption.
  - cbn [req_pairs flat_map app] in Hnd, Hseen. fold (req_pairs tr) in Hnd, Hseen.
    inversion Hnd as [|? ? Hnotin Hnd']; subst.
    rewrite (Hseen h p (or_introl eq_refl)). rewrite andb_false_r.
    apply IH; [exact Hnd'|].
    intros h' p' Hin. rewrite pair_mem_cons. rewrite (Hseen h' p' (or_intror Hin)). rewrite orb_false_r.
    destruct (Z.eqb_spec h h') as [->|Hne]; [|reflexivity].
    destruct (Nat.eqb_spec p p') as [->|Hne]; [contradiction|reflexivity].
  - apply IH; assumption.
Qed.

(** the clause holds on every prefix of a trace on which it holds *)
Lemma no_reask_phase_one_part c : forall tr seen b,
  no_reask_from c seen tr = true -> no_reask_from c seen (phase_one_part b tr) = true.
Proof.
  induction tr as [|o tr IH]; intros seen b H; [reflexivity|].
  destruct o as [l|h p|bh p]; cbn [phase_one_part no_reask_from] in *.
  - destruct b; [reflexivity|]. cbn [no_reask_from]. apply IH. exact H.
  - destruct (failing c p h && pair_mem h p seen); [discriminate|]. apply IH. exact H.
  - apply IH. exact H.
Qed.

(** no (height, peer) pair is requested twice in phase one *)
Lemma phase_one_no_reask c sched :
  distinct_peers c = true -> no_reask_from c [] (rev (s_log (phase_one c sched))) = true.
Proof.
  intro Hd. apply no_reask_nodup; [|reflexivity].
  rewrite req_pairs_rev. apply NoDup_rev. apply (nr_nodup _ _ (phase_one_nore c sched Hd)).
Qed.
