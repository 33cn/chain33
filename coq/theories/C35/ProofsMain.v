(** C35 — the whole task (both phases) for the repaired download code:
    delivery for all schedules (at most 50 given peers: the retry bound),
    soundness of everything handed over, the single-goroutine core, the
    refutation that remains (the second phase asks again) with its witness,
    and the examples that show the hypotheses can be met. *)
From Coq Require Import List ZArith NArith Bool Arith Lia Permutation.
From C33 Require Import C35.Model C35.Spec C35.ProofsTerm C35.ProofsSolo C35.ProofsSingle
     C35.ProofsMulti.
Import ListNotations.
Open Scope nat_scope.

Definition complete_run (c : config) (sched : list event) (order : list Z) : Prop :=
  all_done (phase_one c sched) = true /\ Permutation order (failed_heights (phase_one c sched)).

Definition not_reasked_in_task_full : Prop :=
  forall c sched order, complete_run c sched order -> spec_no_reask_task c (task_log c sched order) = true.

Lemma in_task_log_one c sched order o :
  In o (rev (s_log (phase_one c sched))) -> In o (task_log c sched order).
Proof. intro H. unfold task_log. apply in_or_app. left. exact H. Qed.

Lemma in_task_log_two c sched order h o :
  In h order -> In o (recheck_log c h) -> In o (task_log c sched order).
Proof.
  intros Hh Ho. unfold task_log, phase_two_log. apply in_or_app. right.
  apply in_flat_map. exists h. split; assumption.
Qed.

Lemma delivered_in tr h p : In (ODeliver h p) tr -> memZ h (delivered tr) = true.
Proof.
  intro H. unfold memZ. apply existsb_exists. exists h. split; [|apply Z.eqb_refl].
  unfold delivered. apply in_flat_map. exists (ODeliver h p). split; [exact H|left; reflexivity].
Qed.

Lemma delivered_app tr tr' : delivered (tr ++ tr') = delivered tr ++ delivered tr'.
Proof. apply flat_map_app. Qed.

Lemma delivers c sched order :
  few_peers c = true -> complete_run c sched order ->
  spec_delivers c (task_log c sched order) = true.
Proof.
  intros Hfew [Hd Hperm].
  unfold spec_delivers. apply forallb_forall. intros h Hh.
  destruct (servable c h) eqn:Hs; [simpl|reflexivity].
  destruct (height_goroutine c sched h Hh) as [g [Hg Hgh]].
  destruct (all_done_nth _ g Hd) as [b Hpc].
  destruct b.
  - (* delivered in phase one *)
    pose proof (inv_pc _ _ (phase_one_inv c sched) g) as Hok. rewrite Hpc, Hgh in Hok.
    destruct Hok as [p [_ [_ Hin]]].
    apply (delivered_in _ h p). apply in_task_log_one. apply in_rev in Hin. exact Hin.
  - (* failed in phase one: downloaded again in phase two *)
    pose proof (failed_in _ g Hg Hpc) as Hf. rewrite Hgh in Hf.
    apply (Permutation_in _ (Permutation_sym Hperm)) in Hf.
    destruct (recheck_delivers c h Hs Hfew) as [p Hp].
    apply (delivered_in _ h p). apply (in_task_log_two c sched order h _ Hf Hp).
Qed.

Lemma recheck_log_ok c h o : In h (heights c) -> In o (recheck_log c h) -> log_ok c o.
Proof.
  intros Hh Ho. unfold recheck_log in Ho. apply in_rev in Ho.
  apply (inv_log _ _ (recheck_inv c h Hh) o Ho).
Qed.

Lemma task_log_ok c sched order o :
  (forall h, In h order -> In h (heights c)) -> In o (task_log c sched order) -> log_ok c o.
Proof.
  intros Hord Ho. unfold task_log in Ho. apply in_app_or in Ho. destruct Ho as [Ho|Ho].
  - apply (inv_log _ _ (phase_one_inv c sched)). apply in_rev. exact Ho.
  - unfold phase_two_log in Ho. apply in_flat_map in Ho. destruct Ho as [h [Hh Ho]].
    apply (recheck_log_ok c h o (Hord h Hh) Ho).
Qed.

Lemma failed_heights_in c sched h :
  In h (failed_heights (phase_one c sched)) -> In h (heights c).
Proof.
  intro H. apply (inv_hs _ _ (phase_one_inv c sched)).
  unfold failed_heights in H. apply in_map_iff in H. destruct H as [G [<- HG]].
  apply in_map. apply filter_In in HG. exact (proj1 HG).
Qed.

Lemma log_ok_serves c bh p : log_ok c (ODeliver bh p) -> In p (job_peers c) /\ serves c p bh = true.
Proof.
  intros (_ & Hp & He & Ha). split; [exact Hp|]. unfold serves. rewrite He.
  destruct (c_beh c p bh); try discriminate Ha. reflexivity.
Qed.

Lemma sound c sched order :
  complete_run c sched order -> spec_sound c (task_log c sched order) = true.
Proof.
  intros [_ Hperm]. unfold spec_sound. apply forallb_forall. intros o Ho.
  assert (Hord : forall h, In h order -> In h (heights c)).
  { intros h Hh. apply (failed_heights_in c sched). apply (Permutation_in _ Hperm Hh). }
  pose proof (task_log_ok c sched order o Hord Ho) as Hok.
  destruct o as [l|h' p|bh p]; cbn; auto.
  rewrite (heights_in_range c bh (proj1 Hok)). exact (proj2 (log_ok_serves c bh p Hok)).
Qed.

(** the first and the third clause hold for any number of heights and every
    schedule, complete or not; only delivery needs the goroutine to be alone *)
Lemma single_goroutine_correct c h sched :
  heights c = [h] -> all_done (phase_one c sched) = true ->
  let tr := rev (s_log (phase_one c sched)) in
  (distinct_peers c = true -> no_reask_from c [] tr = true)
  /\ (few_peers c = true -> memZ h (delivered tr) = servable c h)
  /\ (forall o, In o tr -> log_ok c o).
Proof.
  intros Hh Hd. cbn zeta.
  assert (Hok : forall o, In o (rev (s_log (phase_one c sched))) -> log_ok c o).
  { intros o Ho. apply in_rev in Ho. exact (inv_log _ _ (phase_one_inv c sched) o Ho). }
  split; [apply phase_one_no_reask|]. split; [|exact Hok].
  intros Hfew. destruct (servable c h) eqn:Hs.
  - rewrite (single_height_phase_one c h sched Hh Hd).
    destruct (recheck_delivers c h Hs Hfew) as [p Hp]. unfold recheck_log in Hp.
    apply (delivered_in _ h p Hp).
  - apply not_true_is_false. intro Hm. unfold memZ in Hm. apply existsb_exists in Hm.
    destruct Hm as [bh [Hbh Heq]]. apply Z.eqb_eq in Heq. subst bh.
    unfold delivered in Hbh. apply in_flat_map in Hbh.
    destruct Hbh as [[l|h' p|bh p] [Ho Hbh]]; try contradiction. destruct Hbh as [->|[]].
    destruct (log_ok_serves c h p (Hok _ Ho)) as [Hp Hsv].
    assert (servable c h = true) by (apply existsb_exists; exists p; auto). congruence.
Qed.

Lemma task_log_single c h sched :
  heights c = [h] -> all_done (phase_one c sched) = true ->
  task_log c sched [h] = rev (s_log (phase_one c sched)) ++ rev (s_log (phase_one c sched)).
Proof.
  intros Hh Hd. unfold task_log, phase_two_log, recheck_log. cbn [flat_map].
  rewrite <- (single_height_phase_one c h sched Hh Hd), app_nil_r. reflexivity.
Qed.

Definition tcfg (pids : list pid_entry) (adv : list Z) (beh : list (list resp)) (st en : Z) : config :=
  mkConfig pids [] (fun _ => 0%N) (fun p => nth p adv (-1)%Z)
           (fun p h => nth (Z.to_nat (h - st)) (nth p beh []) RRefuse) st en.

Lemma complete_run_eq c sched order :
  all_done (phase_one c sched) = true -> failed_heights (phase_one c sched) = order ->
  complete_run c sched order.
Proof. intros Hd <-. split; [exact Hd|apply Permutation_refl]. Qed.

(** one refusing peer: asked in phase one, and again by checkTask *)
Definition cfg_again : config := tcfg [PPeer 0] [5]%Z [[RRefuse]] 1 1.
Definition sched_again : list event := [Sort 0; Pick 0; Result 0; Release 0; Remove 0; Pick 0].

Lemma not_reasked_in_task_refuted : ~ not_reasked_in_task_full.
Proof.
  intro H. specialize (H cfg_again sched_again [1%Z]).
  assert (Hc : complete_run cfg_again sched_again [1%Z])
    by (apply complete_run_eq; vm_compute; reflexivity).
  specialize (H Hc).
  assert (E : spec_no_reask_task cfg_again (task_log cfg_again sched_again [1%Z]) = false)
    by (vm_compute; reflexivity).
  rewrite E in H. clear E. discriminate H.
Qed.

(** the former aliasing witnesses (two heights, interleaved removals): every
    servable height is now delivered in phase one and nobody is asked twice *)
Definition cfg_reask : config :=
  tcfg [PPeer 0; PPeer 1] [1; 2]%Z [[RRefuse; ROk]; [ROk; RRefuse]] 1 2.
Definition sched_reask : list event :=
  [Sort 0; Pick 0; Sort 1; Pick 1;
   Result 0; Release 0; Remove 0; Pick 0;
   Result 1; Release 1; Remove 1; Pick 1;
   Result 0; Release 0]
  ++ flat_map (fun _ => [Sleep 1; Pick 1]) (seq 0 51).

Definition cfg_lost : config :=
  tcfg [PPeer 0; PPeer 1; PPeer 2] [1; 2; 0]%Z [[RRefuse; ROk]; [ROk; RRefuse]; [ROk; ROk]] 1 2.
Definition sched_lost : list event :=
  [Sort 0; Pick 0; Sort 1; Pick 1;
   Result 1; Release 1; Remove 1; Pick 1;
   Result 0; Release 0; Remove 0; Pick 0;
   Result 0; Release 0]
  ++ flat_map (fun _ => [Sleep 1; Pick 1]) (seq 0 51).

Example lost_is_complete : complete_run cfg_lost sched_lost [2]%Z.
Proof. apply complete_run_eq; vm_compute; reflexivity. Qed.

Example lost_no_longer_lost :
  few_peers cfg_lost = true /\ servable cfg_lost 1 = true /\ servable cfg_lost 2 = false
  /\ rev (s_log (phase_one cfg_lost sched_lost))
     = [OInit [0; 1; 2]; OReq 1%Z 0; OReq 2%Z 1; OReq 1%Z 1; ODeliver 1%Z 1].
Proof. repeat apply conj; vm_compute; reflexivity. Qed.

Example reask_no_longer :
  all_done (phase_one cfg_reask sched_reask) = true
  /\ rev (s_log (phase_one cfg_reask sched_reask))
     = [OInit [0; 1]; OReq 1%Z 0; OReq 2%Z 1; OReq 1%Z 1; ODeliver 1%Z 1].
Proof. split; vm_compute; reflexivity. Qed.

(** a wrong-height answer and a silent peer are failures like any other: the
    healthy second peer is asked and the height is delivered *)
Definition cfg_wrong : config := tcfg [PPeer 0; PPeer 1] [5; 5]%Z [[RWrong 2]; [ROk]] 1 1.
Definition cfg_stall : config := tcfg [PPeer 0; PPeer 1] [5; 5]%Z [[RStall]; [ROk]] 1 1.
Definition sched_two : list event :=
  [Sort 0; Pick 0; Result 0; Release 0; Remove 0; Pick 0; Result 0; Release 0].

Example wrong_and_stall_tolerated :
  complete_run cfg_wrong sched_two [] /\ complete_run cfg_stall sched_two []
  /\ task_log cfg_wrong sched_two [] = [OInit [0; 1]; OReq 1%Z 0; OReq 1%Z 1; ODeliver 1%Z 1]
  /\ task_log cfg_stall sched_two [] = [OInit [0; 1]; OReq 1%Z 0; OReq 1%Z 1; ODeliver 1%Z 1].
Proof.
  split; [|split; [|split]]; try apply complete_run_eq; vm_compute; reflexivity.
Qed.

Definition cfg_single : config :=
  tcfg [PPeer 0; PPeer 1; PPeer 2] [9; 0; 9]%Z [[RMalformed]; [ROk]; [ROk]] 3 3.
Definition sched_single : list event :=
  [Sort 0; Pick 0; Result 0; Release 0; Remove 0; Pick 0; Result 0; Release 0].

Example single_hypotheses :
  heights cfg_single = [3%Z] /\ all_done (phase_one cfg_single sched_single) = true
  /\ distinct_peers cfg_single = true /\ few_peers cfg_single = true
  /\ servable cfg_single 3 = true
  /\ rev (s_log (phase_one cfg_single sched_single))
     = [OInit [0; 1; 2]; OReq 3%Z 0; OReq 3%Z 2; ODeliver 3%Z 2].
Proof. repeat apply conj; vm_compute; reflexivity. Qed.

(** the guard [few_peers] cannot be dropped: the retry bound of downloadBlock
    is 50 in both phases.  51 task entries, the first 50 refuse: the servable
    height is asked 50 times in phase one, 50 times in phase two, and is not
    delivered. *)
Definition cfg_many : config :=
  mkConfig (map PPeer (seq 0 51)) [] (fun _ => 0%N) (fun _ => 5%Z)
           (fun p _ => if p =? 50 then ROk else RRefuse) 1 1.
Definition sched_many : list event :=
  Sort 0 :: flat_map (fun _ => [Pick 0; Result 0; Release 0; Remove 0]) (seq 0 51).

Example few_peers_needed :
  few_peers cfg_many = false /\ servable cfg_many 1 = true
  /\ all_done (phase_one cfg_many sched_many) = true
  /\ failed_heights (phase_one cfg_many sched_many) = [1%Z]
  /\ spec_delivers cfg_many (task_log cfg_many sched_many [1%Z]) = false.
Proof.
  (* the run is evaluated once; the re-download of the one height in phase two
     is the same run ([single_height_phase_one]) *)
  assert (E : let s := phase_one cfg_many sched_many in
              all_done s = true /\ failed_heights s = [1%Z] /\ delivered (rev (s_log s)) = [])
    by (vm_compute; repeat split).
  cbv zeta in E. destruct E as (Hd & Hf & Hl).
  assert (Hh : heights cfg_many = [1%Z]) by (vm_compute; reflexivity).
  split; [vm_compute; reflexivity|]. split; [vm_compute; reflexivity|].
  split; [exact Hd|]. split; [exact Hf|].
  rewrite (task_log_single _ _ _ Hh Hd). unfold spec_delivers. rewrite delivered_app, Hl.
  vm_compute. reflexivity.
Qed.

Example steps_example :
  steps_taken cfg_lost (init_job cfg_lost) (init_state (init_job cfg_lost) (heights cfg_lost)) sched_lost = 112.
Proof. vm_compute. reflexivity. Qed.

Lemma servable_iff c h :
  servable c h = true <->
  exists p, In p (job_peers c) /\ (h <= c_adv c p)%Z /\ c_beh c p h = ROk.
Proof.
  unfold servable. rewrite existsb_exists. split.
  - intros [p [Hin Hs]]. exists p. unfold serves in Hs.
    apply andb_true_iff in Hs. destruct Hs as [Hle Hb].
    apply Z.leb_le in Hle. split; [exact Hin|]. split; [exact Hle|].
    destruct (c_beh c p h); try discriminate Hb. reflexivity.
  - intros [p [Hin [Hle Hb]]]. exists p. split; [exact Hin|].
    unfold serves. rewrite Hb. apply Z.leb_le in Hle. rewrite Hle. reflexivity.
Qed.

(** mixed reported heights, the peer that is behind sorts first: "near" (1 ms)
    reports 5, "far" (5 ms) reports 8, heights 4..6, near refuses 6 (it is not
    asked for it).  availbTask passes over near for height 6. *)
Definition cfg_behind : config :=
  mkConfig [PPeer 0; PPeer 1] []
           (fun p => nth p [1000000; 5000000]%N 0%N) (fun p => nth p [5; 8]%Z (-1)%Z)
           (fun p h => nth (Z.to_nat (h - 4)) (nth p [[ROk; ROk; RRefuse]; [ROk; ROk; ROk]] []) RRefuse)
           4 6.
Definition sched_behind : list event :=
  [Sort 0; Pick 0; Sort 1; Pick 1; Sort 2; Pick 2;
   Result 2; Release 2; Result 1; Release 1; Result 0; Release 0].

Example behind_peer_first :
  few_peers cfg_behind = true /\ complete_run cfg_behind sched_behind []
  /\ forallb (servable cfg_behind) (heights cfg_behind) = true
  /\ sort_tasks (init_job cfg_behind) [0; 1] = [0; 1]
  /\ (c_adv cfg_behind 0 <? 6)%Z = true
  /\ task_log cfg_behind sched_behind []
     = [OInit [0; 1]; OReq 4%Z 0; OReq 5%Z 0; OReq 6%Z 1; ODeliver 6%Z 1; ODeliver 5%Z 0; ODeliver 4%Z 0].
Proof.
  split; [|split; [apply complete_run_eq|repeat apply conj]]; vm_compute; reflexivity.
Qed.
