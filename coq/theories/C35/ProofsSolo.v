(** C35 — one goroutine alone (a task with one height, and every re-download
    of phase two): the loop of downloadBlock as a plain recursive function
    [solo] over the goroutine's view, when it delivers, and the simulation: a
    goroutine running alone in the transition system computes [solo]. *)
From Coq Require Import List ZArith NArith Bool Arith Lia Permutation.
From C33 Require Import C35.Model C35.Spec C35.ProofsTerm.
Import ListNotations.
Open Scope nat_scope.

Definition zeros (n : nat) : list Z := repeat 0%Z n.

(** the loop: [k] bounds the number of iterations, [n] is the number of tasks *)
Fixpoint solo (c : config) (ts : list task) (n : nat) (h : Z) (k : nat) (view : list nat) (retry : nat)
  : list obs * bool :=
  match k with
  | O => ([], false)
  | S k' =>
      match view with
      | [] => ([], false)
      | _ :: _ =>
          if max_retry <? S retry then ([], false)
          else match scan c ts (zeros n) h (limit_of (length view)) view 0 with
               | None => solo c ts n h k' view (S retry)
               | Some (t, _) =>
                   let p := task_peer ts t in
                   if accepted (c_beh c p h) then ([OReq h p; ODeliver h p], true)
                   else let r := solo c ts n h k' (without t view) (S retry) in
                        (OReq h p :: fst r, snd r)
               end
      end
  end.

Lemma limit_ge_20 v : (20 <= limit_of v)%Z.
Proof.
  unfold limit_of. destruct (128 / Z.of_nat v <? 20)%Z eqn:H1; [lia|].
  destruct (50 <? 128 / Z.of_nat v)%Z eqn:H2; [lia|]. apply Z.ltb_ge in H1. exact H1.
Qed.

Lemma nth_zeros n t : nth t (zeros n) 0%Z = 0%Z.
Proof.
  unfold zeros. destruct (Nat.lt_ge_cases t n) as [Hl|Hl].
  - apply nth_repeat.
  - apply nth_overflow. rewrite repeat_length. exact Hl.
Qed.

Lemma scan_none_zeros c ts n h v view : forall i0,
  scan c ts (zeros n) h (limit_of v) view i0 = None ->
  forallb (fun t => (c_adv c (task_peer ts t) <? h)%Z) view = true.
Proof.
  induction view as [|x view IH]; intros i0 H; simpl in *; [reflexivity|].
  destruct (c_adv c (task_peer ts x) <? h)%Z; simpl.
  - apply (IH _ H).
  - rewrite nth_zeros in H. pose proof (limit_ge_20 v).
    destruct (0 <? limit_of v)%Z eqn:Hz; [discriminate|]. apply Z.ltb_ge in Hz. lia.
Qed.

Lemma without_length_le t l : length (without t l) <= length l.
Proof.
  unfold without. induction l as [|y l IH]; simpl; [lia|].
  destruct (negb (y =? t)); simpl; lia.
Qed.

Lemma without_length_lt t l : In t l -> length (without t l) < length l.
Proof.
  unfold without. induction l as [|y l IH]; intro H; [inversion H|]. simpl.
  destruct (Nat.eqb_spec y t) as [->|Hne]; simpl.
  - pose proof (without_length_le t l) as Hle. unfold without in Hle. lia.
  - destruct H as [H|H]; [congruence|]. specialize (IH H). lia.
Qed.

Lemma existsb_without (f : nat -> bool) (l : list nat) t :
  existsb f l = true -> f t = false -> existsb f (without t l) = true.
Proof.
  intros He Hf. apply existsb_exists in He. destruct He as [x [Hin Hx]].
  apply existsb_exists. exists x. split; [|exact Hx].
  apply without_in. split; [exact Hin|]. intro Heq. rewrite Heq in Hx. congruence.
Qed.

Lemma solo_true_delivers c ts n h : forall k view retry,
  snd (solo c ts n h k view retry) = true ->
  exists p, In (ODeliver h p) (fst (solo c ts n h k view retry)).
Proof.
  induction k as [|k IH]; intros view retry H; [discriminate|].
  cbn [solo] in *. destruct view as [|x view'] eqn:Hv; [discriminate|]. rewrite <- Hv in *. clear Hv.
  destruct (max_retry <? S retry); [discriminate|].
  destruct (scan c ts (zeros n) h (limit_of (length view)) view 0) as [[t i]|].
  - destruct (accepted (c_beh c (task_peer ts t) h)).
    + eexists. right. left. reflexivity.
    + cbn [fst snd] in *. destruct (IH _ _ H) as [p Hp]. exists p. right. exact Hp.
  - apply (IH _ _ H).
Qed.

(** every failed request costs one retry and takes one task off the list, so
    [retry + length view] stays within the budget until a serving task is picked *)
Lemma solo_delivers c ts n h : forall k view retry,
  existsb (fun t => serves c (task_peer ts t) h) view = true ->
  retry + length view <= max_retry -> 51 - retry <= k ->
  snd (solo c ts n h k view retry) = true.
Proof.
  induction k as [|k IH]; intros view retry Hex Hlen Hk; [unfold max_retry in *; lia|].
  cbn [solo]. destruct view as [|x view'] eqn:Hv; [discriminate|]. rewrite <- Hv in *.
  assert (Hpos : 0 < length view) by (rewrite Hv; simpl; lia). clear Hv.
  destruct (max_retry <? S retry) eqn:Hr; [apply Nat.ltb_lt in Hr; lia|].
  destruct (scan c ts (zeros n) h (limit_of (length view)) view 0) as [[t i]|] eqn:Hs.
  - destruct (scan_some _ _ _ _ _ _ _ _ _ Hs) as [Ht _].
    destruct (accepted (c_beh c (task_peer ts t) h)) eqn:Ha.
    + reflexivity.
    + assert (Hng : serves c (task_peer ts t) h = false).
      { unfold serves. destruct (c_beh c (task_peer ts t) h); simpl in Ha; try discriminate;
          apply andb_false_r. }
      apply (IH (without t view) (S retry) (existsb_without _ _ _ Hex Hng)); [|lia].
      pose proof (without_length_lt t view Ht). lia.
  - exfalso. pose proof (scan_none_zeros _ _ _ _ _ _ _ Hs) as Hall.
    apply existsb_exists in Hex. destruct Hex as [t [Hin Hg]].
    pose proof (proj1 (forallb_forall _ _) Hall t Hin) as Hlow. cbv beta in Hlow.
    unfold serves in Hg. apply andb_true_iff in Hg. destruct Hg as [Hg _].
    apply Z.leb_le in Hg. apply Z.ltb_lt in Hlow. lia.
Qed.

Lemma upd_upd {A} (l : list A) i a b : upd (upd l i a) i b = upd l i b.
Proof. revert i; induction l as [|x l IH]; intros [|i]; simpl; auto. rewrite IH. reflexivity. Qed.

Lemma upd_repeat {A} (x : A) n i : upd (repeat x n) i x = repeat x n.
Proof. revert i; induction n as [|n IH]; intros [|i]; simpl; auto. rewrite IH. reflexivity. Qed.

Lemma release_zeros n t :
  t < n -> release (upd (zeros n) t (nth t (zeros n) 0 + 1)%Z) t = zeros n.
Proof.
  intro H. unfold release. rewrite nth_zeros.
  rewrite nth_upd, Nat.eqb_refl by (unfold zeros; rewrite repeat_length; exact H).
  simpl. rewrite upd_upd. apply upd_repeat.
Qed.

Definition solo_state (h : Z) (arr : list nat) (tn : list Z) (own : option (list nat))
           (retry : nat) (p : pc) (log : list obs) : state :=
  mkState arr tn [mkG h own retry p] log.

Definition view_of (arr : list nat) (own : option (list nat)) : list nat :=
  match own with Some l => l | None => arr end.

Lemma run_g_at_done f c ts h arr tn own retry b log :
  run_g f c ts (solo_state h arr tn own retry (PDone b) log) 0
  = solo_state h arr tn own retry (PDone b) log.
Proof. destruct f; reflexivity. Qed.

(** one event of the goroutine alone, by pc *)

Lemma run_sort f c ts h arr tn retry log :
  run_g (S f) c ts (solo_state h arr tn None retry PStart log) 0
  = run_g f c ts (solo_state h (sort_tasks ts arr) tn None retry PLoop log) 0.
Proof. reflexivity. Qed.

Lemma run_pick f c ts h arr tn own retry log :
  run_g (S f) c ts (solo_state h arr tn own retry PLoop log) 0 =
  let v := view_of arr own in
  if length v =? 0 then solo_state h arr tn own retry (PDone false) log
  else if max_retry <? S retry then solo_state h arr tn own (S retry) (PDone false) log
  else match scan c ts tn h (limit_of (length v)) v 0 with
       | None => run_g f c ts (solo_state h arr tn own (S retry) PSleep log) 0
       | Some (t, _) =>
           run_g f c ts (solo_state h arr (upd tn t (nth t tn 0 + 1)%Z) own (S retry) (PReq t)
                                    (OReq h (task_peer ts t) :: log)) 0
       end.
Proof.
  unfold solo_state. cbn [run_g s_gs nth next_event g_pc]. unfold step, set_g, view, view_of.
  cbn [ev_g s_gs s_arr s_tnum s_log length nth g_pc g_own g_retry g_h upd]. simpl (negb (0 <? 1)).
  cbn zeta iota.
  destruct (length (match own with Some l => l | None => arr end) =? 0);
    [apply (run_g_at_done f)|].
  destruct (max_retry <? S retry); [apply (run_g_at_done f)|].
  destruct (scan c ts tn h (limit_of (length (match own with Some l => l | None => arr end)))
                 (match own with Some l => l | None => arr end) 0) as [[t i]|]; reflexivity.
Qed.

Lemma run_sleep f c ts h arr tn own retry log :
  run_g (S f) c ts (solo_state h arr tn own retry PSleep log) 0
  = run_g f c ts (solo_state h arr tn own retry PLoop log) 0.
Proof. reflexivity. Qed.

Lemma run_result f c ts h arr tn own retry t log :
  run_g (S f) c ts (solo_state h arr tn own retry (PReq t) log) 0 =
  if accepted (c_beh c (task_peer ts t) h)
  then run_g f c ts (solo_state h arr tn own retry (POkRel t) (ODeliver h (task_peer ts t) :: log)) 0
  else run_g f c ts (solo_state h arr tn own retry (PFailRel t) log) 0.
Proof.
  unfold solo_state. cbn [run_g s_gs nth next_event g_pc]. unfold step, set_g.
  cbn [ev_g s_gs s_arr s_tnum s_log length nth g_pc g_own g_retry g_h upd]. simpl (negb (0 <? 1)).
  cbn iota.
  destruct (accepted (c_beh c (task_peer ts t) h)); reflexivity.
Qed.

Lemma run_release_ok f c ts h arr tn own retry t log :
  run_g (S f) c ts (solo_state h arr tn own retry (POkRel t) log) 0
  = solo_state h arr (release tn t) own retry (PDone true) log.
Proof. apply (run_g_at_done f). Qed.

Lemma run_release_fail f c ts h arr tn own retry t log :
  run_g (S f) c ts (solo_state h arr tn own retry (PFailRel t) log) 0
  = run_g f c ts (solo_state h arr (release tn t) own retry (PRemove t) log) 0.
Proof. reflexivity. Qed.

Lemma run_remove f c ts h arr tn own retry t log :
  run_g (S f) c ts (solo_state h arr tn own retry (PRemove t) log) 0
  = run_g f c ts (solo_state h arr tn (Some (without t (view_of arr own))) retry PLoop log) 0.
Proof. reflexivity. Qed.

Lemma sim c ts n h : forall k fuel arr own retry log,
  Forall (fun t => t < n) (view_of arr own) -> 51 - retry < k -> 4 * k <= fuel ->
  let r := solo c ts n h k (view_of arr own) retry in
  exists tn' own' retry',
    run_g fuel c ts (solo_state h arr (zeros n) own retry PLoop log) 0
    = solo_state h arr tn' own' retry' (PDone (snd r)) (rev (fst r) ++ log).
Proof.
  induction k as [|k IH]; intros fuel arr own retry log Hview Hk Hfuel; [lia|].
  destruct fuel as [|[|[|[|f]]]]; try lia.
  cbn zeta. cbn [solo]. rewrite run_pick. cbn zeta.
  set (view := view_of arr own) in *.
  destruct view as [|x view'] eqn:Hv; [repeat eexists|]. rewrite <- Hv in *.
  assert (Hpos : (length view =? 0) = false) by (rewrite Hv; reflexivity). rewrite Hpos. clear Hv Hpos.
  destruct (max_retry <? S retry) eqn:Hr; [repeat eexists|].
  apply Nat.ltb_ge in Hr. unfold max_retry in Hr.
  destruct (scan c ts (zeros n) h (limit_of (length view)) view 0) as [[t i]|] eqn:Hs.
  - assert (Ht : t < n)
      by apply (proj1 (Forall_forall _ _) Hview), (scan_some _ _ _ _ _ _ _ _ _ Hs).
    rewrite run_result. destruct (accepted (c_beh c (task_peer ts t) h)).
    + rewrite run_release_ok. repeat eexists.
    + (* the counter is back at zero before the next Pick *)
      rewrite run_release_fail, release_zeros, run_remove by exact Ht. fold view.
      destruct (IH f arr (Some (without t view)) (S retry) (OReq h (task_peer ts t) :: log))
        as [tn' [own' [retry' Hrun]]]; [exact (incl_Forall (incl_filter _ _) Hview)|lia|lia|].
      cbn zeta in Hrun. cbn [view_of] in Hrun. rewrite Hrun. cbn [fst snd rev]. rewrite <- app_assoc.
      repeat eexists.
  - rewrite run_sleep.
    destruct (IH (S (S f)) arr own (S retry) log Hview ltac:(lia) ltac:(lia))
      as [tn' [own' [retry' Hrun]]].
    cbn zeta in Hrun. fold view in Hrun. rewrite Hrun. repeat eexists.
Qed.
