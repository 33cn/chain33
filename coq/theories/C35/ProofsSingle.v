(** C35 — facts about the task table; every re-download of phase two
    ([recheck]) computes [solo], returns, and delivers a servable height; a
    goroutine run alone is a run of the transition system, and with one height
    every complete schedule of phase one ends in the state of [recheck]. *)
From Coq Require Import List ZArith NArith Bool Arith Lia Permutation.
From C33 Require Import C35.Model C35.Spec C35.ProofsTerm C35.ProofsSolo.
Import ListNotations.
Open Scope nat_scope.

Definition ntasks (c : config) : nat := length (init_job c).
Definition view0 (c : config) : list nat := sort_tasks (init_job c) (seq 0 (ntasks c)).
Definition init_log (c : config) : list obs :=
  match init_job c with [] => [] | _ :: _ => [OInit (map t_peer (init_job c))] end.

Lemma init_job_peers c : map t_peer (init_job c) = job_peers c.
Proof. unfold init_job. rewrite map_map. simpl. apply map_id. Qed.

Lemma ntasks_peers c : ntasks c = length (job_peers c).
Proof. unfold ntasks, init_job. apply map_length. Qed.

Lemma map_nth_seq {A} (l : list A) d : map (fun t => nth t l d) (seq 0 (length l)) = l.
Proof.
  induction l as [|x l IH]; simpl; [reflexivity|]. f_equal.
  rewrite <- seq_shift, map_map. simpl. exact IH.
Qed.

Lemma task_peer_nth c t : task_peer (init_job c) t = nth t (job_peers c) 0.
Proof.
  unfold task_peer. rewrite <- init_job_peers.
  change 0 with (t_peer (mkTask 0 0%N)). symmetry. apply map_nth.
Qed.

Lemma view0_perm c : Permutation (view0 c) (seq 0 (ntasks c)).
Proof. apply isort_perm. Qed.

Lemma view0_length c : length (view0 c) = ntasks c.
Proof. rewrite (Permutation_length (view0_perm c)). apply seq_length. Qed.

Lemma view0_valid c : Forall (fun t => t < ntasks c) (view0 c).
Proof.
  apply Forall_forall. intros t Ht.
  apply (Permutation_in _ (view0_perm c)) in Ht. apply in_seq in Ht. lia.
Qed.

Lemma view0_peers c : Permutation (map (task_peer (init_job c)) (view0 c)) (job_peers c).
Proof.
  eapply Permutation_trans; [apply Permutation_map; apply view0_perm|].
  rewrite (map_ext _ _ (task_peer_nth c)), ntasks_peers, map_nth_seq. apply Permutation_refl.
Qed.

Lemma task_peer_in c t : t < ntasks c -> In (task_peer (init_job c) t) (job_peers c).
Proof. intro H. rewrite task_peer_nth. apply nth_In. rewrite <- ntasks_peers. exact H. Qed.

Lemma nodup_nat_spec l : nodup_nat l = true -> NoDup l.
Proof.
  induction l as [|x l IH]; simpl; intro H; [constructor|].
  apply andb_true_iff in H. destruct H as [H1 H2]. constructor; [|apply IH; exact H2].
  intro Hin. apply negb_true_iff in H1.
  assert (existsb (Nat.eqb x) l = true) by (apply existsb_exists; exists x; split; [exact Hin|apply Nat.eqb_refl]).
  congruence.
Qed.

Definition solo0 (c : config) (h : Z) : list obs * bool :=
  solo c (init_job c) (ntasks c) h 52 (view0 c) 0.

Lemma recheck_solo c h :
  exists arr tn own retry,
    recheck c h = solo_state h arr tn own retry (PDone (snd (solo0 c h)))
                             (rev (fst (solo0 c h)) ++ init_log c).
Proof.
  unfold recheck.
  assert (Hinit : init_state (init_job c) [h]
                  = solo_state h (seq 0 (ntasks c)) (zeros (ntasks c)) None 0 PStart (init_log c)).
  { unfold init_state, solo_state, init_log, ntasks, zeros. destruct (init_job c); reflexivity. }
  rewrite Hinit. change g_fuel with (S 317). rewrite run_sort. fold (view0 c).
  destruct (sim c (init_job c) (ntasks c) h 52 317 (view0 c) None 0 (init_log c) (view0_valid c))
    as (tn & own & retry & Hrun); [lia|lia|].
  do 4 eexists. exact Hrun.
Qed.

Lemma recheck_log_solo c h : recheck_log c h = init_log c ++ fst (solo0 c h).
Proof.
  unfold recheck_log. destruct (recheck_solo c h) as [arr [tn [own [retry H]]]]. rewrite H.
  unfold solo_state. cbn [s_log]. rewrite rev_app_distr, rev_involutive.
  unfold init_log. destruct (init_job c); reflexivity.
Qed.

Lemma recheck_done c h : all_done (recheck c h) = true.
Proof.
  destruct (recheck_solo c h) as [arr [tn [own [retry H]]]]. rewrite H. reflexivity.
Qed.

(** at most 50 given peers: the retry bound of downloadBlock is 50 *)
Definition few_peers (c : config) : bool := length (job_peers c) <=? max_retry.

Lemma recheck_delivers c h :
  servable c h = true -> few_peers c = true -> exists p, In (ODeliver h p) (recheck_log c h).
Proof.
  intros Hs Hf. unfold few_peers in Hf. apply Nat.leb_le in Hf. rewrite (recheck_log_solo c h). unfold solo0.
  destruct (solo_true_delivers c (init_job c) (ntasks c) h 52 (view0 c) 0) as [p Hp].
  apply solo_delivers.
  - unfold servable in Hs. apply existsb_exists in Hs. destruct Hs as [p [Hin Hp]].
    apply (Permutation_in _ (Permutation_sym (view0_peers c))) in Hin.
    apply in_map_iff in Hin. destruct Hin as [t [Ht Hin]].
    apply existsb_exists. exists t. split; [exact Hin|]. rewrite Ht. exact Hp.
  - rewrite view0_length, ntasks_peers. simpl. exact Hf.
  - lia.
  - exists p. apply in_or_app. right. exact Hp.
Qed.

Lemma run_g_exec fuel c ts g : forall s, exists sched, run_g fuel c ts s g = exec c ts s sched.
Proof.
  induction fuel as [|f IH]; intro s; [exists []; reflexivity|]. cbn [run_g].
  destruct (next_event (nth g (s_gs s) dummy_g) g) as [e|]; [|exists []; reflexivity].
  destruct (step c ts s e) as [s'|] eqn:Hs; [|exists []; reflexivity].
  destruct (IH s') as [sched E]. exists (e :: sched). cbn [exec]. rewrite Hs. exact E.
Qed.

Lemma all_done_run_g c ts s g : all_done s = true -> forall f, run_g f c ts s g = s.
Proof.
  intros Hd [|f]; [reflexivity|]. cbn [run_g]. destruct (all_done_nth s g Hd) as [b Hb].
  unfold next_event. rewrite Hb. reflexivity.
Qed.

Lemma exec_single c ts sched : forall s fuel,
  length (s_gs s) = 1 -> all_done (exec c ts s sched) = true -> mu s <= fuel ->
  run_g fuel c ts s 0 = exec c ts s sched.
Proof.
  induction sched as [|e tl IH]; intros s fuel Hl Hd Hf; simpl in *.
  - apply all_done_run_g, Hd.
  - destruct (step c ts s e) as [s'|] eqn:Hs.
    + pose proof (step_decreases _ _ _ _ _ Hs) as Hmu.
      destruct fuel as [|f]; [lia|]. cbn [run_g].
      destruct (step_effect _ _ _ _ _ Hs) as (Hlt & Hn & _). rewrite Hl in Hlt.
      assert (He : ev_g e = 0) by lia. rewrite He in Hn. rewrite Hn, Hs.
      apply IH; [rewrite (step_length _ _ _ _ _ Hs); exact Hl|exact Hd|lia].
    + apply IH; assumption.
Qed.

Lemma mu_single ts h : mu (init_state ts [h]) <= g_fuel.
Proof. rewrite mu_init. unfold per_height_bound, g_fuel. cbn [length]. lia. Qed.

Lemma single_height_phase_one c h sched :
  heights c = [h] -> all_done (phase_one c sched) = true -> phase_one c sched = recheck c h.
Proof.
  intros Hh Hd. unfold phase_one in *. rewrite Hh in *. unfold recheck. symmetry.
  apply exec_single; [reflexivity|exact Hd|apply mu_single].
Qed.
