(** C35 — Block download delivers every servable height. *)
From Coq Require Import List ZArith NArith Bool Arith Permutation.
From C33 Require Import C35.Model C35.Spec C35.ProofsTerm C35.ProofsSolo C35.ProofsSingle
     C35.ProofsMulti C35.ProofsMain.
Import ListNotations.

(** Under every schedule of the height goroutines at most 313 events per
    height happen (no livelock) ... *)
Theorem C35_terminates : forall c sched,
  (steps_taken c (init_job c) (init_state (init_job c) (heights c)) sched
   <= length (heights c) * per_height_bound)%nat.
Proof. exact terminates. Qed.
Print Assumptions C35_terminates.

(** ... and no reachable state is stuck before every goroutine has returned:
    every request ends (block, error, or the 10 s stream deadline) ... *)
Theorem C35_no_deadlock : forall c sched,
  all_done (phase_one c sched) = false ->
  exists e s', step c (init_job c) (phase_one c sched) e = Some s'.
Proof. intros c sched. apply progress. Qed.
Print Assumptions C35_no_deadlock.

(** ... and every re-download of the second phase returns. *)
Theorem C35_second_phase_terminates : forall c h, all_done (recheck c h) = true.
Proof. exact recheck_done. Qed.
Print Assumptions C35_second_phase_terminates.

(** One height: for every complete schedule a failed peer is never asked
    again, the height is delivered iff some given peer serves it (at most 50
    peers), and everything asked or handed over is justified by the inputs. *)
Theorem C35_single_goroutine_correct : forall c h sched,
  heights c = [h] -> all_done (phase_one c sched) = true ->
  let tr := rev (s_log (phase_one c sched)) in
  (distinct_peers c = true -> no_reask_from c [] tr = true)
  /\ (few_peers c = true -> memZ h (delivered tr) = servable c h)
  /\ (forall o, In o tr -> log_ok c o).
Proof. exact single_goroutine_correct. Qed.
Print Assumptions C35_single_goroutine_correct.

(** Delivery of every servable height, all schedules, both phases, whatever
    the other peers do (refuse, malformed, wrong height, silence).  The only
    guard is the retry bound of downloadBlock: at most 50 given peers. *)
Theorem C35_delivers_if_servable : forall c sched order,
  few_peers c = true -> complete_run c sched order ->
  spec_delivers c (task_log c sched order) = true.
Proof. exact delivers. Qed.
Print Assumptions C35_delivers_if_servable.

(** The same with the guard written out: a height of the range is delivered as
    soon as SOME listed peer reports a height >= it (PeerInfoManager.PeerHeight,
    the value availbTask filters on) and serves it - for every latency function
    (the order in which availbTask walks the list) and whatever heights the
    other peers report: a peer that is behind may sort before every peer that
    has the block. *)
Theorem C35_delivers_guard_explicit : forall c sched order h,
  few_peers c = true -> complete_run c sched order -> In h (heights c) ->
  (exists p, In p (job_peers c) /\ (h <= c_adv c p)%Z /\ c_beh c p h = ROk) ->
  memZ h (delivered (task_log c sched order)) = true.
Proof.
  intros c sched order h Hfew Hrun Hh Hex.
  pose proof (delivers c sched order Hfew Hrun) as Hd.
  unfold spec_delivers in Hd. rewrite forallb_forall in Hd. specialize (Hd h Hh).
  apply servable_iff in Hex. rewrite Hex in Hd. exact Hd.
Qed.
Print Assumptions C35_delivers_guard_explicit.

(** Non-vacuity for that class: the fastest peer reports 5, the slow one 8,
    heights 4..6 - 6 is asked of (and delivered by) the slow peer only. *)
Theorem C35_behind_peer_first_example :
  few_peers cfg_behind = true /\ complete_run cfg_behind sched_behind []
  /\ forallb (servable cfg_behind) (heights cfg_behind) = true
  /\ sort_tasks (init_job cfg_behind) [0; 1]%nat = [0; 1]%nat
  /\ (c_adv cfg_behind 0 <? 6)%Z = true
  /\ task_log cfg_behind sched_behind []
     = [OInit [0; 1]; OReq 4%Z 0; OReq 5%Z 0; OReq 6%Z 1; ODeliver 6%Z 1; ODeliver 5%Z 0; ODeliver 4%Z 0]%nat.
Proof. exact behind_peer_first. Qed.
Print Assumptions C35_behind_peer_first_example.

(** Only blocks of the range from peers that serve them are handed over. *)
Theorem C35_delivered_only_served : forall c sched order,
  complete_run c sched order -> spec_sound c (task_log c sched order) = true.
Proof. exact sound. Qed.
Print Assumptions C35_delivered_only_served.

(** Whatever is asked or handed over under any schedule is justified by the
    inputs (a peer of the list, high enough, that answered with the block). *)
Theorem C35_trace_justified : forall c sched order o,
  (forall h, In h order -> In h (heights c)) -> In o (task_log c sched order) -> log_ok c o.
Proof. exact task_log_ok. Qed.
Print Assumptions C35_trace_justified.

(** A failed peer is not asked again within phase one: any number of heights,
    every schedule, complete or not. *)
Theorem C35_failed_peer_not_reasked : forall c sched,
  spec_no_reask_phase_one c (rev (s_log (phase_one c sched))) = true.
Proof.
  intros c sched. unfold spec_no_reask_phase_one. destruct (distinct_peers c) eqn:Hd; [|reflexivity].
  apply no_reask_phase_one_part, phase_one_no_reask, Hd.
Qed.
Print Assumptions C35_failed_peer_not_reasked.

(** Within the whole task it is: the second phase rebuilds the peer list and
    asks again (open finding) ... *)
Theorem C35_not_reasked_in_task_refuted : ~ not_reasked_in_task_full.
Proof. exact not_reasked_in_task_refuted. Qed.
Print Assumptions C35_not_reasked_in_task_refuted.

(** ... so the clause holds for the task when no height fails in phase one. *)
Theorem C35_not_reasked_in_task_partial : forall c sched,
  complete_run c sched [] -> spec_no_reask_task c (task_log c sched []) = true.
Proof.
  intros c sched _. unfold spec_no_reask_task, task_log, phase_two_log. cbn [flat_map]. rewrite app_nil_r.
  destruct (distinct_peers c) eqn:Hd; [|reflexivity].
  apply phase_one_no_reask, Hd.
Qed.
Print Assumptions C35_not_reasked_in_task_partial.

(** The hypotheses above are satisfiable by non-trivial runs. *)
Theorem C35_hypotheses_satisfiable :
  (few_peers cfg_lost = true /\ complete_run cfg_lost sched_lost [2]%Z)
  /\ (complete_run cfg_wrong sched_two [] /\ complete_run cfg_stall sched_two []
      /\ task_log cfg_wrong sched_two [] = [OInit [0; 1]; OReq 1%Z 0; OReq 1%Z 1; ODeliver 1%Z 1]%nat
      /\ task_log cfg_stall sched_two [] = [OInit [0; 1]; OReq 1%Z 0; OReq 1%Z 1; ODeliver 1%Z 1]%nat)
  /\ (heights cfg_single = [3%Z] /\ all_done (phase_one cfg_single sched_single) = true
      /\ distinct_peers cfg_single = true /\ few_peers cfg_single = true
      /\ servable cfg_single 3 = true
      /\ rev (s_log (phase_one cfg_single sched_single))
         = [OInit [0; 1; 2]; OReq 3%Z 0; OReq 3%Z 2; ODeliver 3%Z 2]%nat).
Proof.
  exact (conj (conj (proj1 lost_no_longer_lost) lost_is_complete)
              (conj wrong_and_stall_tolerated single_hypotheses)).
Qed.
Print Assumptions C35_hypotheses_satisfiable.
