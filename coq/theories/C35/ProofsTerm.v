(** C35 — what one event does to the state ([step_effect]); from it,
    termination of phase one under every schedule, the bound on the number of
    events, and progress (no deadlock). *)
From Coq Require Import List ZArith NArith Bool Arith Lia Permutation.
From C33 Require Import C35.Model.
Import ListNotations.
Open Scope nat_scope.

Lemma upd_length {A} (l : list A) i v : length (upd l i v) = length l.
Proof. revert i; induction l as [|x l IH]; intros [|i]; simpl; auto. Qed.

Lemma nth_upd {A} (l : list A) i j v d :
  i < length l -> nth j (upd l i v) d = if i =? j then v else nth j l d.
Proof.
  revert i j; induction l as [|x l IH]; intros [|i] [|j] H; simpl in *; try lia; auto.
  apply IH. lia.
Qed.

Lemma map_upd {A B} (f : A -> B) (l : list A) i v d :
  f v = f (nth i l d) -> map f (upd l i v) = map f l.
Proof.
  revert i; induction l as [|x l IH]; intros [|i] H; simpl in *; auto; try congruence.
  rewrite (IH i H). reflexivity.
Qed.

Definition sum_by {A} (f : A -> nat) (l : list A) : nat := fold_right (fun x acc => f x + acc) 0 l.

Lemma sum_by_upd {A} (f : A -> nat) (l : list A) i v d :
  i < length l -> sum_by f (upd l i v) + f (nth i l d) = sum_by f l + f v.
Proof.
  revert i; induction l as [|x l IH]; intros [|i]; simpl; intros; try lia.
  specialize (IH i ltac:(lia)). lia.
Qed.

Lemma insert_by_perm lat x l : Permutation (insert_by lat x l) (x :: l).
Proof.
  induction l as [|y l IH]; simpl; [apply Permutation_refl|].
  destruct (lat x <? lat y)%N; [apply Permutation_refl|].
  eapply Permutation_trans; [apply perm_skip; exact IH|apply perm_swap].
Qed.

Lemma isort_perm lat l : Permutation (isort lat l) l.
Proof.
  unfold isort.
  assert (H : forall acc, Permutation (fold_left (fun a x => insert_by lat x a) l acc) (l ++ acc)).
  { induction l as [|x l IH]; intro acc; simpl; [apply Permutation_refl|].
    eapply Permutation_trans; [apply IH|].
    eapply Permutation_trans; [apply Permutation_app_head; apply insert_by_perm|].
    apply Permutation_sym. apply Permutation_middle. }
  specialize (H []). rewrite app_nil_r in H. exact H.
Qed.

Lemma sort_tasks_in ts l x : In x (sort_tasks ts l) <-> In x l.
Proof.
  unfold sort_tasks. split; intro H.
  - apply (Permutation_in _ (isort_perm _ _) H).
  - apply (Permutation_in _ (Permutation_sym (isort_perm _ _)) H).
Qed.

Lemma without_in t l x : In x (without t l) <-> In x l /\ x <> t.
Proof.
  unfold without. rewrite filter_In, negb_true_iff, Nat.eqb_neq. reflexivity.
Qed.

Lemma scan_some c ts tnum h lim view : forall i0 t i,
  scan c ts tnum h lim view i0 = Some (t, i) ->
  In t view /\ (c_adv c (task_peer ts t) <? h)%Z = false /\ (nth t tnum 0%Z <? lim)%Z = true.
Proof.
  induction view as [|x view IH]; intros i0 t i H; simpl in H; [discriminate|].
  destruct (c_adv c (task_peer ts x) <? h)%Z eqn:Ha; [|destruct (nth x tnum 0%Z <? lim)%Z eqn:Hl].
  2: { injection H as <- _. split; [left; reflexivity|split; assumption]. }
  all: destruct (IH _ _ _ H) as [H1 H2]; split; [right; exact H1|exact H2].
Qed.

(** One event, seen from the goroutine that takes it.
    [gstep c ts tn h v r p v' r' p' new]: at height [h], with the counters [tn],
    the goroutine goes from list [v], retry count [r] and pc [p] to [v'], [r'],
    [p'], and [new] is what it puts on the log. *)

Inductive gstep (c : config) (ts : list task) (tn : list Z) (h : Z) (v : list nat) (r : nat) :
  pc -> list nat -> nat -> pc -> list obs -> Prop :=
| GSort : gstep c ts tn h v r PStart (sort_tasks ts v) r PLoop []
| GEmpty : length v = 0 -> gstep c ts tn h v r PLoop v r (PDone false) []
| GGiveUp : max_retry < S r -> gstep c ts tn h v r PLoop v (S r) (PDone false) []
| GWait : S r <= max_retry -> scan c ts tn h (limit_of (length v)) v 0 = None ->
    gstep c ts tn h v r PLoop v (S r) PSleep []
| GAsk t i : S r <= max_retry -> scan c ts tn h (limit_of (length v)) v 0 = Some (t, i) ->
    gstep c ts tn h v r PLoop v (S r) (PReq t) [OReq h (task_peer ts t)]
| GWake : gstep c ts tn h v r PSleep v r PLoop []
| GBlock t : accepted (c_beh c (task_peer ts t) h) = true ->
    gstep c ts tn h v r (PReq t) v r (POkRel t) [ODeliver h (task_peer ts t)]
| GError t : accepted (c_beh c (task_peer ts t) h) = false ->
    gstep c ts tn h v r (PReq t) v r (PFailRel t) []
| GReleaseOk t : gstep c ts tn h v r (POkRel t) v r (PDone true) []
| GReleaseFail t : gstep c ts tn h v r (PFailRel t) v r (PRemove t) []
| GRemove t : gstep c ts tn h v r (PRemove t) (without t v) r PLoop [].

(** every step replaces exactly the goroutine it belongs to, by [gstep]; the
    shared array is at most permuted *)
Lemma step_effect c ts s e s' :
  step c ts s e = Some s' ->
  let g := ev_g e in
  let G := nth g (s_gs s) dummy_g in
  g < length (s_gs s) /\ next_event G g = Some e /\ incl (s_arr s') (s_arr s) /\
  exists G' new,
    s_gs s' = upd (s_gs s) g G' /\ g_h G' = g_h G /\
    gstep c ts (s_tnum s) (g_h G) (view s G) (g_retry G) (g_pc G)
          (view s' G') (g_retry G') (g_pc G') new /\
    s_log s' = new ++ s_log s.
Proof.
  unfold step. destruct (ev_g e <? length (s_gs s)) eqn:Hlt; cbn [negb]; [|discriminate].
  apply Nat.ltb_lt in Hlt. cbn zeta. set (G := nth (ev_g e) (s_gs s) dummy_g).
  intro H. split; [exact Hlt|]. unfold next_event, view in *.
  destruct e; cbn [ev_g] in *; destruct (g_pc G) eqn:Hpc; try discriminate.
  (* the tests of Sort, Pick and Result *)
  1: destruct (g_own G) as [l|] eqn:Hown.
  3: destruct (Nat.eqb_spec (length match g_own G with Some l => l | None => s_arr s end) 0) as [Hv|Hv];
       [|destruct (Nat.ltb_spec max_retry (S (g_retry G))) as [Hr|Hr];
         [|destruct (scan c ts (s_tnum s) (g_h G) _ _ 0) as [[t i]|] eqn:Hs]].
  7: destruct (accepted (c_beh c (task_peer ts t) (g_h G))) eqn:Ha.
  all: injection H as <-; (split; [reflexivity|]); cbn [s_arr s_gs s_log set_g].
  all: (split; [try apply incl_refl|]).
  2: intro x; apply sort_tasks_in.
  all: eexists _, _; (split; [reflexivity|]); cbn [g_h g_own g_retry g_pc]; try rewrite Hown.
  all: (split; [reflexivity|split; [econstructor; eassumption|reflexivity]]).
Qed.

Lemma gstep_view c ts tn h v r p v' r' p' new : gstep c ts tn h v r p v' r' p' new -> incl v' v.
Proof.
  destruct 1; try apply incl_refl; intros x Hx.
  - apply sort_tasks_in in Hx. exact Hx.
  - apply without_in in Hx. exact (proj1 Hx).
Qed.

Lemma step_views c ts s e s' :
  step c ts s e = Some s' ->
  forall g, incl (view s' (nth g (s_gs s') dummy_g)) (view s (nth g (s_gs s) dummy_g)).
Proof.
  intros H g. destruct (step_effect _ _ _ _ _ H) as (Hlt & _ & Harr & G' & new & Hgs & _ & Hg & _).
  rewrite Hgs, (nth_upd _ _ _ _ _ Hlt). destruct (Nat.eqb_spec (ev_g e) g) as [<-|_].
  - exact (gstep_view _ _ _ _ _ _ _ _ _ _ _ Hg).
  - unfold view. destruct (g_own _); [apply incl_refl|exact Harr].
Qed.

Lemma step_heights c ts s e s' : step c ts s e = Some s' -> map g_h (s_gs s') = map g_h (s_gs s).
Proof.
  intro H. destruct (step_effect _ _ _ _ _ H) as (_ & _ & _ & G' & new & -> & Hh & _).
  apply (map_upd g_h _ _ _ dummy_g Hh).
Qed.

Lemma step_length c ts s e s' : step c ts s e = Some s' -> length (s_gs s') = length (s_gs s).
Proof.
  intro H. destruct (step_effect _ _ _ _ _ H) as (_ & _ & _ & G' & new & -> & _). apply upd_length.
Qed.

Lemma exec_preserves c ts (P : state -> Prop) :
  (forall s e s', P s -> step c ts s e = Some s' -> P s') ->
  forall sched s, P s -> P (exec c ts s sched).
Proof.
  intros Hstep. induction sched as [|e tl IH]; intros s Hs; simpl; [exact Hs|].
  destruct (step c ts s e) as [s'|] eqn:E; apply IH; [apply (Hstep _ _ _ Hs E)|exact Hs].
Qed.

Definition rank (p : pc) : nat :=
  match p with
  | PStart => 6 | PReq _ => 5 | PFailRel _ => 4 | POkRel _ => 4 | PRemove _ => 3
  | PSleep => 1 | PLoop => 0 | PDone _ => 0
  end.

(** six events per attempt, at most 51 attempts: Pick raises the retry count,
    which pays for the at most five ranks it climbs; every other event lowers
    the rank of the pc *)
Definition weight (r : nat) (p : pc) : nat :=
  match p with
  | PDone _ => 0
  | _ => 6 * (51 - r) + rank p + 1
  end.

Lemma gstep_weight c ts tn h v r p v' r' p' new :
  gstep c ts tn h v r p v' r' p' new -> weight r' p' < weight r p.
Proof. destruct 1; unfold max_retry in *; cbn [weight rank]; lia. Qed.

Definition mu_g (G : gstate) : nat := weight (g_retry G) (g_pc G).

Definition mu (s : state) : nat := sum_by mu_g (s_gs s).

Lemma step_decreases c ts s e s' : step c ts s e = Some s' -> mu s' < mu s.
Proof.
  intro H. destruct (step_effect _ _ _ _ _ H) as (Hlt & _ & _ & G' & new & Hgs & _ & Hg & _).
  apply gstep_weight in Hg. change (mu_g G' < mu_g (nth (ev_g e) (s_gs s) dummy_g)) in Hg.
  unfold mu. rewrite Hgs. pose proof (sum_by_upd mu_g (s_gs s) (ev_g e) G' dummy_g Hlt). lia.
Qed.

(** number of events of a schedule that are enabled when their turn comes *)
Fixpoint steps_taken (c : config) (ts : list task) (s : state) (sched : list event) : nat :=
  match sched with
  | [] => 0
  | e :: tl => match step c ts s e with
               | Some s' => S (steps_taken c ts s' tl)
               | None => steps_taken c ts s tl
               end
  end.

Lemma steps_bounded c ts sched : forall s, steps_taken c ts s sched + mu (exec c ts s sched) <= mu s.
Proof.
  induction sched as [|e tl IH]; intro s; simpl; [lia|].
  destruct (step c ts s e) as [s'|] eqn:Hs.
  - pose proof (step_decreases _ _ _ _ _ Hs). specialize (IH s'). lia.
  - apply IH.
Qed.

Definition per_height_bound : nat := 6 * 51 + 7.

Lemma mu_init ts hs : mu (init_state ts hs) = length hs * per_height_bound.
Proof.
  unfold mu, init_state; cbn [s_gs].
  induction hs as [|h hs IH]; [reflexivity|].
  cbn [map sum_by fold_right length Nat.mul]. fold (sum_by mu_g (map (fun h => mkG h None 0 PStart) hs)).
  rewrite IH. reflexivity.
Qed.

Lemma heights_length c : length (heights c) = Z.to_nat (c_end c - c_start c + 1).
Proof. unfold heights. rewrite map_length, seq_length. reflexivity. Qed.

Lemma terminates c sched :
  steps_taken c (init_job c) (init_state (init_job c) (heights c)) sched
  <= length (heights c) * per_height_bound.
Proof.
  pose proof (steps_bounded c (init_job c) sched (init_state (init_job c) (heights c))).
  rewrite mu_init in H. lia.
Qed.

(** a goroutine that has not returned can always take its next event (every
    request ends: with a block, an error, or the stream deadline) *)
Lemma next_event_enabled c ts s g e :
  g < length (s_gs s) ->
  next_event (nth g (s_gs s) dummy_g) g = Some e ->
  exists s', step c ts s e = Some s'.
Proof.
  intros Hlt Hn. apply Nat.ltb_lt in Hlt. unfold next_event in Hn.
  destruct (g_pc (nth g (s_gs s) dummy_g)) eqn:Hpc; inversion Hn; subst; clear Hn;
    unfold step; cbn [ev_g]; rewrite Hlt; cbn [negb]; rewrite Hpc; try (eexists; reflexivity).
  - destruct (g_own _); eexists; reflexivity.
  - destruct (length _ =? 0); [|destruct (max_retry <? _); [|destruct (scan _ _ _ _ _ _ _) as [[t i]|]]];
      eexists; reflexivity.
  - destruct (accepted _); eexists; reflexivity.
Qed.

Lemma not_all_done_has_next s :
  all_done s = false ->
  exists g e, g < length (s_gs s) /\ next_event (nth g (s_gs s) dummy_g) g = Some e.
Proof.
  unfold all_done. intro H.
  assert (Hex : exists g, g < length (s_gs s) /\ is_done (nth g (s_gs s) dummy_g) = false).
  { induction (s_gs s) as [|G l IH]; simpl in H; [discriminate|].
    destruct (is_done G) eqn:HG; simpl in H.
    - destruct (IH H) as [g [Hg Hd]]. exists (S g). simpl. split; [lia|exact Hd].
    - exists 0. simpl. split; [lia|exact HG]. }
  destruct Hex as [g [Hg Hd]]. exists g.
  unfold is_done in Hd. unfold next_event.
  destruct (g_pc (nth g (s_gs s) dummy_g)); try discriminate; eexists; (split; [exact Hg|reflexivity]).
Qed.

(** also beyond the list: [dummy_g] has returned *)
Lemma all_done_nth s g : all_done s = true -> exists b, g_pc (nth g (s_gs s) dummy_g) = PDone b.
Proof.
  unfold all_done. intro H. destruct (nth_in_or_default g (s_gs s) dummy_g) as [Hin| ->]; [|exists false; reflexivity].
  apply (proj1 (forallb_forall _ _) H) in Hin. unfold is_done in Hin.
  destruct (g_pc (nth g (s_gs s) dummy_g)); try discriminate. eexists; reflexivity.
Qed.

Lemma progress c ts s :
  all_done s = false -> exists e s', step c ts s e = Some s'.
Proof.
  intros H. destruct (not_all_done_has_next s H) as [g [e [Hg Hn]]].
  destruct (next_event_enabled c ts s g e Hg Hn) as [s' Hs]. exists e, s'. exact Hs.
Qed.
