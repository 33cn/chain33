(** C32 — the registration / start-up transition system of ModelReg.v: what
    one step does ([effect], [ystep_effect]), and the invariant under
    the guard (ModelReg.gev): one goroutine refers to the push.tasks entry, and
    the acknowledged list is gap-free. *)
From Coq Require Import List ZArith Bool Lia.
From C33 Require Import C32.Model C32.ProofsGpd C32.ModelReg C32.ProofsRegL.
Import ListNotations.
Open Scope Z_scope.

Section RegInv.
  Variable fx : bool.
  Variable c : cfg.
  Variable st : store.
  Variable r0 : Z.

  Let M := matching (c_kind c) st.

  (** [scanned], and at a post also [batch], of ProofsGpd, by program counter. *)
  Definition kt (rcd : Z) (t : task) : Prop :=
    match t_pc t with
    | PRead | PIdle => 0 < rcd -> rcd <= t_lp t /\ rf M rcd (t_lp t) = []
    | PPost seqs upd =>
        (0 < rcd -> rcd <= t_lp t /\ rf M rcd (t_lp t) = []) /\
        0 < t_lp t /\ t_lp t <= upd /\ seqs <> [] /\ seqs = rf M (t_lp t) upd
    | _ => True
    end.

  Record rinv (y : sys) : Prop := mkRinv {
    v_cnt : (cnt owner (y_ts y) <= 1)%nat;
    v_own : forall i t, nth_error (y_ts y) i = Some t -> owner t = true -> y_entry y = Some (t_n t);
    v_nrun : forall n f, y_entry y = Some n -> nth_error (y_ns y) n = Some f -> n_run f = false ->
             fx = false /\ exists i t, nth_error (y_ts y) i = Some t /\ t_n t = n /\ in_window t = true;
    v_nil : y_acked y = [] -> y_rcd y = r0;
    v_acked : y_acked y <> [] ->
              0 < y_rcd y /\ exists r, (0 < r0 -> r = r0) /\ r <= y_rcd y /\ y_acked y = rf M r (y_rcd y);
    v_task : forall i t, nth_error (y_ts y) i = Some t -> kt (y_rcd y) t
  }.

  Inductive tmove (rcd : Z) (t : task) : task -> Prop :=
  | tm_read : t_pc t = PStart -> tmove rcd t (mkT (t_n t) PRead rcd (t_fc t))
  | tm_run : t_pc t = PRead -> tmove rcd t (with_pc t PIdle)
  | tm_skip lp' fc' : t_pc t = PIdle -> t_lp t <= 0 \/ t_lp t <= lp' /\ rf M (t_lp t) lp' = [] ->
      tmove rcd t (mkT (t_n t) PIdle lp' fc')
  | tm_post seqs upd : t_pc t = PIdle -> batch M (t_lp t) seqs upd -> tmove rcd t (with_pc t (PPost seqs upd))
  | tm_retry seqs upd : t_pc t = PPost seqs upd -> tmove rcd t (mkT (t_n t) PIdle (t_lp t) (t_fc t + 1))
  | tm_end b : t_pc t = PIdle \/ t_pc t = PDeact2 -> tmove rcd t (with_pc t (PDead b)).

  Lemma tmove_facts : forall rcd t t', tmove rcd t t' ->
    t_n t' = t_n t /\ is_dead t = false /\ (owner t' = true -> owner t = true) /\
    (in_window t = true -> in_window t' = false -> t_pc t = PRead).
  Proof.
    intros rcd t t' [E|E|? ? E _|? ? E _|? ? E|? [E|E]]; unfold is_dead, owner, in_window; rewrite E; cbn;
      repeat split; auto; discriminate.
  Qed.

  Lemma tmove_kt : forall rcd t t', tmove rcd t t' -> kt rcd t -> kt rcd t'.
  Proof.
    intros rcd t t' [E|E|? ? E Hs|? ? E Hb|? ? E|? _]; unfold kt; cbn [t_pc t_lp with_pc]; try rewrite E; intros Hk.
    - apply scanned_refl.
    - exact Hk.
    - exact (scanned_skip M _ _ _ Hk Hs).
    - exact (conj Hk Hb).
    - exact (proj1 Hk).
    - exact I.
  Qed.

  Definition stored (y y' : sys) : Prop := y_rcd y' = y_rcd y /\ y_acked y' = y_acked y.
  Definition like (y y' : sys) : Prop := y_ts y' = y_ts y /\ y_entry y' = y_entry y /\ stored y y'.
  Definition keeps_run (y y' : sys) : Prop :=
    forall n f', nth_error (y_ns y') n = Some f' -> n_run f' = false ->
                 exists f, nth_error (y_ns y) n = Some f /\ n_run f = false.
  (** [y'] differs from [y] in pushNotify fields that the invariant does not read, at most. *)
  Definition near (y y' : sys) : Prop := like y y' /\ keeps_run y y'.

  (** The last three classes of steps are the ones the guard excludes.
      A [destruct] of an [effect] brings the premises in under the names they have here. *)
  Inductive effect (y : sys) : yev -> sys -> Prop :=
  | ef_quiet e y' (Hn : near y y') : effect y e y'
  | ef_clear e y' (Hd : forallb is_dead (y_ts y) = true) (Ets : y_ts y' = y_ts y) (Est : stored y y')
      (Een : y_entry y' = None) : effect y e y'
  | ef_task e y' i t t' (Hi : nth_error (y_ts y) i = Some t) (Ets : y_ts y' = upd_nth (y_ts y) i t')
      (Een : y_entry y' = y_entry y) (Est : stored y y') (Hns : keeps_run y y') (Hm : tmove (y_rcd y) t t')
      (Hr : t_pc t = PRead -> forall f, nth_error (y_ns y') (t_n t) = Some f -> n_run f = true) : effect y e y'
  | ef_leave e y' i t t' (Hi : nth_error (y_ts y) i = Some t) (Ets : y_ts y' = upd_nth (y_ts y) i t')
      (Est : stored y y') (Ho : owner t = true) (Ho' : owner t' = false)
      (Een : y_entry y = Some (t_n t) -> y_entry y' = None) : effect y e y'
  | ef_fail3 e y' i t (Hfx : fx = false) (Hi : nth_error (y_ts y) i = Some t) (Ho : owner t = true)
      (Ets : y_ts y' = upd_nth (y_ts y) i (mkT (t_n t) PDeact1 (t_lp t) (t_fc t + 1)))
      (Een : y_entry y' = y_entry y) (Est : stored y y') : effect y e y'
  | ef_ack e y' i t seqs upd (Hi : nth_error (y_ts y) i = Some t) (Hpc : t_pc t = PPost seqs upd)
      (Ets : y_ts y' = upd_nth (y_ts y) i (mkT (t_n t) PIdle upd 0)) (Er : y_rcd y' = upd)
      (Ea : y_acked y' = y_acked y ++ seqs) (Een : y_entry y' = y_entry y) (Hns : keeps_run y y') : effect y e y'
  | ef_fresh e y' n (Hno : y_entry y = None \/ forallb is_dead (y_ts y) = true)
      (Ets : y_ts y' = y_ts y ++ [mkT n PStart 0 0]) (Est : stored y y') (Een : y_entry y' = Some n)
      (Hn : forall f, nth_error (y_ns y') n = Some f -> n_run f = fx) : effect y e y'
  | ef_respawn y' n f (He : y_entry y = Some n) (Hf : nth_error (y_ns y) n = Some f) (Hrun : n_run f = false)
      (Ets : y_ts y' = y_ts y ++ [mkT n PStart 0 0]) (Est : stored y y') : effect y VReg y'
  | ef_addtask y' n (Ets : y_ts y' = y_ts y ++ [mkT n PStart 0 0]) (Est : stored y y') : effect y VAddTask y'
  | ef_setlast v y' (Ets : y_ts y' = y_ts y) (Er : y_rcd y' = v) (Ea : y_acked y' = y_acked y) : effect y (VSetLast v) y'.

  Lemma ns_id : forall (y : sys) m f',
    nth_error (y_ns y) m = Some f' -> n_run f' = false ->
    exists f0, nth_error (y_ns y) m = Some f0 /\ n_run f0 = false.
  Proof. intros y m f' H Hr. exists f'. split; assumption. Qed.

  Lemma like_refl : forall y, like y y.
  Proof. repeat split. Qed.

  Lemma near_refl : forall y, near y y.
  Proof. intros y. exact (conj (like_refl y) (ns_id y)). Qed.

  Lemma ns_keep_upd : forall (y : sys) n f g,
    nth_error (y_ns y) n = Some f -> (n_run g = false -> n_run f = false) -> keeps_run y (set_notif y n g).
  Proof.
    intros y n f g Hn Hg m f' Hm Hr. apply nth_upd_inv in Hm as [(-> & -> & _)|(Hne & Hm)].
    - exists f. split; [assumption|auto].
    - exists f'. split; assumption.
  Qed.

  Lemma near_sl : forall y n v, near y (set_sl_of y n v).
  Proof.
    intros y n v. unfold set_sl_of. destruct (nth_error (y_ns y) n) as [f|] eqn:E; [|apply near_refl].
    split; [exact (like_refl y)|]. apply (ns_keep_upd y n f); auto.
  Qed.

  Lemma set_run_like : forall y n b, like y (set_run_of y n b).
  Proof. intros y n b. unfold set_run_of. destruct (nth_error (y_ns y) n); exact (like_refl y). Qed.

  Lemma near_run : forall y n, near y (set_run_of y n true).
  Proof.
    intros y n. split; [apply set_run_like|]. unfold set_run_of.
    destruct (nth_error (y_ns y) n) as [f|] eqn:E; [|exact (ns_id y)]. apply (ns_keep_upd y n f); [exact E|discriminate].
  Qed.

  Lemma set_run_at : forall y n b f, nth_error (y_ns (set_run_of y n b)) n = Some f -> n_run f = b.
  Proof.
    intros y n b f. unfold set_run_of. destruct (nth_error (y_ns y) n) as [f0|] eqn:E; [|congruence].
    cbn [set_notif set_ns y_ns]. rewrite (nth_upd_same _ _ _ _ _ E). intros [= <-]. reflexivity.
  Qed.

  (** runTask: a goroutine is appended; with the repair its pushNotify says "running" at once. *)
  Lemma spawn_fields : forall y n,
    y_ts (spawn fx y n) = y_ts y ++ [mkT n PStart 0 0] /\ y_entry (spawn fx y n) = y_entry y /\
    stored y (spawn fx y n) /\ forall f, nth_error (y_ns y) n = Some f ->
    forall f', nth_error (y_ns (spawn fx y n)) n = Some f' -> n_run f' = fx || n_run f.
  Proof.
    intros y n. unfold spawn. destruct fx; cbn [set_ts y_ts y_entry y_ns orb].
    - destruct (set_run_like y n true) as (-> & -> & Hs). repeat split; try apply Hs. intros _ _. apply set_run_at.
    - repeat split. congruence.
  Qed.

  Lemma fresh_fields : forall y, let n := length (y_ns y) in
    y_ts (fresh_task fx y) = y_ts y ++ [mkT n PStart 0 0] /\ stored y (fresh_task fx y) /\
    y_entry (fresh_task fx y) = Some n /\ forall f, nth_error (y_ns (fresh_task fx y)) n = Some f -> n_run f = fx.
  Proof.
    intros y n. unfold fresh_task. fold n.
    destruct (spawn_fields (set_entry (set_ns y (y_ns y ++ [mkN false 0 false])) (Some n)) n) as (-> & -> & Hs & Hn).
    repeat split; try apply Hs. intros f Hf. rewrite (Hn _ (nth_snoc_new _ _ _) _ Hf). apply orb_false_r.
  Qed.

  Lemma set_task_effect : forall e y y1 i t t',
    near y y1 -> nth_error (y_ts y) i = Some t -> tmove (y_rcd y) t t' ->
    (t_pc t = PRead -> forall f, nth_error (y_ns y1) (t_n t) = Some f -> n_run f = true) ->
    effect y e (set_task y1 i t').
  Proof.
    intros e y y1 i t t' ((Ets & Een & Est) & Hk) Hi Hm Hr. apply (ef_task y e _ i t t'); try assumption.
    cbn [set_task set_ts y_ts]. rewrite Ets. reflexivity.
  Qed.

  Lemma process_effect : forall e y y1 i t latest,
    near y y1 -> nth_error (y_ts y) i = Some t -> t_pc t = PIdle ->
    effect y e (fst (yprocess c st y1 i t latest)).
  Proof.
    intros e y y1 i t latest Hn Hi Hpc. unfold yprocess.
    assert (Hr : t_pc t = PRead -> forall f, nth_error (y_ns y1) (t_n t) = Some f -> n_run f = true) by congruence.
    destruct (t_lp t >=? latest); [exact (ef_quiet y e y1 Hn)|].
    destruct (t_lp t <=? 0) eqn:E2.
    { apply (set_task_effect e y y1 i t); try assumption. apply tm_skip; [exact Hpc|left; lia]. }
    destruct (gpd (c_kind c) st (t_lp t + 1) (Z.min (c_maxcnt c) (latest - t_lp t)) (c_maxsize c))
      as [| |seqs upd] eqn:Eg; try exact (ef_quiet y e y1 Hn).
    apply gpd_round in Eg; [|lia].
    destruct seqs as [|x seqs]; cbn [fst]; apply (set_task_effect e y y1 i t); try assumption.
    - apply tm_skip; [exact Hpc|right; exact Eg].
    - apply tm_post; [exact Hpc|exact Eg].
  Qed.

  (** Every event falls in its class of [effect]; at a task event only the goroutine at the
      matching program counter moves. *)
  Lemma ystep_effect : forall y e, effect y e (fst (ystep fx c st y e)).
  Proof.
    intros y e. pose proof (fun e => ef_quiet y e y (near_refl y)) as Hq.
    pose proof (fun e n v => ef_quiet y e _ (near_sl y n v)) as Hsl.
    destruct e as [| |v| |i|i|i latest|i|i|i|i|i|i| |i|]; cbn [ystep];
      try (destruct (nth_error (y_ts y) i) as [t|] eqn:Hi; [destruct (t_pc t) as [| | |seqs upd| | |d] eqn:Hpc|];
           try apply Hq).
    - (* VReg *)
      destruct (y_entry y) as [n|] eqn:He;
        [destruct (nth_error (y_ns y) n) as [f|] eqn:Hf; [destruct (n_run f) eqn:Hr|]|]; cbn [fst].
      + apply Hsl.
      + destruct (spawn_fields y n) as (Ets & _ & Est & _). exact (ef_respawn y _ n f He Hf Hr Ets Est).
      + apply Hq.
      + destruct (fresh_fields y) as (Ets & Est & Een & Hn). exact (ef_fresh y _ _ _ (or_introl He) Ets Est Een Hn).
    - (* VActive *)
      destruct (y_act y); [apply Hq|]. exact (ef_quiet y _ (set_act y true) (near_refl y)).
    - (* VSetLast *) apply ef_setlast; reflexivity.
    - (* VAddTask *) destruct (fresh_fields y) as (Ets & Est & _). apply (ef_addtask y _ (length (y_ns y))); [exact Ets|exact Est].
    - (* VRead *)
      apply (set_task_effect _ y y i t); [apply near_refl | exact Hi | apply tm_read, Hpc | congruence].
    - (* VRun *)
      apply (set_task_effect _ y _ i t); [apply near_run | exact Hi | apply tm_run, Hpc | intros _ f; apply set_run_at].
    - (* VSeq *)
      destruct (sl_of y (t_n t) >? 0); [destruct (sl_of y (t_n t) - 1 >? 0)|]; cbn [fst].
      + apply Hsl.
      + apply process_effect; [apply near_sl | exact Hi | exact Hpc].
      + apply process_effect; [apply near_refl | exact Hi | exact Hpc].
    - (* VSeqErr *)
      assert (Hm : tmove (y_rcd y) t (with_pc t (PDead false))) by (apply tm_end; left; exact Hpc).
      destruct (sl_of y (t_n t) >? 0); [destruct (sl_of y (t_n t) - 1 >? 0)|]; cbn [fst].
      + apply Hsl.
      + apply (set_task_effect _ y _ i t); [apply near_sl | exact Hi | exact Hm | congruence].
      + apply (set_task_effect _ y y i t); [apply near_refl | exact Hi | exact Hm | congruence].
    - (* VTick *)
      destruct (sl_of y (t_n t) >? 0); [apply Hsl|apply Hq].
    - (* VPostOk *)
      apply (ef_ack y _ _ i t seqs upd Hi Hpc); try reflexivity. exact (ns_id y).
    - (* VPostFail *)
      assert (Ho : owner t = true) by (unfold owner; rewrite Hpc; reflexivity).
      destruct (t_fc t + 1 >=? 3); [destruct (set_run_like y (t_n t) false) as (Ets & Een & Est); destruct fx eqn:Efx|];
        cbn [fst].
      + apply (ef_leave y _ _ i t (mkT (t_n t) PDeact2 (t_lp t) (t_fc t + 1)) Hi); try assumption; try reflexivity.
        * cbn [set_task set_ts set_entry y_ts]. rewrite Ets. reflexivity.
        * intros E. cbn [set_task set_ts set_entry y_entry]. rewrite Een, E. cbn [drop_own]. rewrite Nat.eqb_refl. reflexivity.
      + apply (ef_fail3 y _ _ i t Efx Hi Ho); try assumption.
        cbn [set_task set_ts y_ts]. rewrite Ets. reflexivity.
      + apply (set_task_effect _ y _ i t); [apply near_sl | exact Hi | exact (tm_retry _ t seqs upd Hpc) | congruence].
    - (* VDel *)
      apply (ef_leave y _ _ i t (with_pc t PDeact2) Hi); try reflexivity; [split; reflexivity|].
      unfold owner. rewrite Hpc. reflexivity.
    - (* VDeact *)
      apply (set_task_effect _ y (set_act y false) i t);
        [exact (near_refl y) | exact Hi | apply tm_end; right; exact Hpc | congruence].
    - (* VClose *)
      destruct (y_entry y) as [n|] eqn:He; [destruct (nth_error (y_ns y) n) as [f|] eqn:Hf; [destruct (n_closed f)|]|];
        try apply Hq; cbn [fst]; apply ef_quiet; (split; [repeat split; cbn; congruence|]); [exact (ns_id y)|].
      apply (ns_keep_upd y n f); auto.
    - (* VExit *)
      destruct (nth_error (y_ns y) (t_n t)) as [f|]; [destruct (n_closed f)|]; try apply Hq. cbn [fst].
      apply (set_task_effect _ y y i t); [apply near_refl | exact Hi | apply tm_end; left; exact Hpc | congruence].
    - (* VRestart *)
      destruct (forallb is_dead (y_ts y)) eqn:Hd; [destruct (y_act y)|]; cbn [fst]; [| |apply Hq].
      + destruct (fresh_fields (set_entry y None)) as (Ets & Est & Een & Hn).
        exact (ef_fresh y _ _ _ (or_intror Hd) Ets Est Een Hn).
      + apply ef_clear; [exact Hd | reflexivity | split; reflexivity | reflexivity].
  Qed.

  Lemma rinv_init0 : rinv (init_sys0 fx r0).
  Proof.
    constructor; cbn [init_sys0 y_ts y_entry y_ns y_rcd y_acked].
    - cbn. lia.
    - intros [|[|i]] t H Ho; cbn [nth_error] in H; try discriminate. inversion H; subst. reflexivity.
    - intros n f He Hn Hr. inversion He; subst n. cbn [nth_error] in Hn. inversion Hn; subst f.
      cbn [n_run] in Hr. split; [assumption|]. exists O, (mkT O PStart 0 0). repeat split.
    - reflexivity.
    - congruence.
    - intros [|[|i]] t H; cbn [nth_error] in H; try discriminate. inversion H; subst. exact I.
  Qed.

  Lemma kt_not_owner : forall rcd t, owner t = false -> kt rcd t.
  Proof. intros rcd t H. unfold kt, owner in *. destruct (t_pc t); try discriminate; exact I. Qed.

  Lemma no_owner_cnt : forall y, rinv y -> y_entry y = None \/ forallb is_dead (y_ts y) = true ->
    cnt owner (y_ts y) = 0%nat.
  Proof.
    intros y I H. apply cnt_none. intros i t Hi. destruct (owner t) eqn:Eo; [|reflexivity]. destruct H as [He|Hd].
    - rewrite (v_own y I i t Hi Eo) in He. discriminate.
    - pose proof (forallb_nth _ _ _ _ _ Hd Hi) as E. unfold is_dead in E. unfold owner in Eo.
      destruct (t_pc t); discriminate.
  Qed.

  (** A goroutine that changes without becoming the one that refers to the entry
      leaves the first two clauses of the invariant as they are. *)
  Lemma owner_upd : forall (ts : list task) (en : option nat) i t t',
    (cnt owner ts <= 1)%nat -> (forall j z, nth_error ts j = Some z -> owner z = true -> en = Some (t_n z)) ->
    nth_error ts i = Some t -> t_n t' = t_n t -> (owner t' = true -> owner t = true) ->
    (cnt owner (upd_nth ts i t') <= 1)%nat /\
    forall j z, nth_error (upd_nth ts i t') j = Some z -> owner z = true -> en = Some (t_n z).
  Proof.
    intros ts en i t t' H1 H2 Hi Hn Ho. split.
    - exact (Nat.le_trans _ _ _ (cnt_upd_le _ owner _ _ _ t' Hi Ho) H1).
    - apply (upd_all _ (fun z => owner z = true -> en = Some (t_n z))); [exact H2|].
      rewrite Hn. intros Ho'. exact (H2 i t Hi (Ho Ho')).
  Qed.

  Lemma rinv_task : forall y y' i t t',
    rinv y -> nth_error (y_ts y) i = Some t -> y_ts y' = upd_nth (y_ts y) i t' ->
    y_entry y' = y_entry y -> stored y y' -> keeps_run y y' -> tmove (y_rcd y) t t' ->
    (t_pc t = PRead -> forall f, nth_error (y_ns y') (t_n t) = Some f -> n_run f = true) -> rinv y'.
  Proof.
    intros y y' i t t' [H1 H2 H3 H4 H5 H6] Hi Ets Een (Er & Ea) Hns Hm Hrun.
    destruct (tmove_facts _ _ _ Hm) as (Hn & _ & Ho & Hw).
    destruct (owner_upd _ _ i t t' H1 H2 Hi Hn Ho) as [H1' H2'].
    constructor; rewrite ?Ets, ?Een, ?Er, ?Ea; try assumption.
    - intros n f' Hen Hf' Hr. destruct (Hns n f' Hf' Hr) as (f & Hf & Hfr).
      destruct (H3 n f Hen Hf Hfr) as (Hfx & j & tj & Hj & Hjn & Hjw). split; [exact Hfx|].
      destruct (Nat.eq_dec j i) as [->|Hne].
      + rewrite Hi in Hj. injection Hj as <-. destruct (in_window t') eqn:Ew.
        * exists i, t'. split; [eapply nth_upd_same; eassumption|]. split; [congruence|exact Ew].
        * rewrite <- Hjn in Hf'. rewrite (Hrun (Hw Hjw eq_refl) f' Hf') in Hr. discriminate.
      + exists j, tj. split; [rewrite nth_upd_other by congruence; exact Hj|]. split; assumption.
    - apply (upd_all _ (kt (y_rcd y))); [exact H6|]. exact (tmove_kt _ _ _ Hm (H6 i t Hi)).
  Qed.

  Lemma rinv_leave : forall y y' i t t',
    rinv y -> nth_error (y_ts y) i = Some t -> y_ts y' = upd_nth (y_ts y) i t' -> stored y y' ->
    owner t = true -> owner t' = false -> (y_entry y = Some (t_n t) -> y_entry y' = None) -> rinv y'.
  Proof.
    intros y y' i t t' [H1 H2 H3 H4 H5 H6] Hi Ets (Er & Ea) Ho Ho' Een. specialize (Een (H2 i t Hi Ho)).
    assert (Hno : forall j tj, nth_error (upd_nth (y_ts y) i t') j = Some tj -> owner tj = false).
    { intros j tj Hj. apply nth_upd_inv in Hj as [(-> & -> & _)|(Hne & Hj)]; [exact Ho'|].
      exact (cnt_sole _ owner _ i t H1 Hi Ho j tj Hne Hj). }
    constructor; rewrite ?Ets, ?Een, ?Er, ?Ea; try assumption.
    - rewrite (cnt_none _ owner _ Hno). lia.
    - intros j tj Hj Hoj. rewrite (Hno j tj Hj) in Hoj. discriminate.
    - discriminate.
    - apply (upd_all _ (kt (y_rcd y))); [exact H6|]. apply kt_not_owner, Ho'.
  Qed.

  (** Before the repair, third failure: status "not running" written, the entry still there. *)
  Lemma rinv_fail3 : forall y y' i t,
    rinv y -> fx = false -> nth_error (y_ts y) i = Some t -> owner t = true ->
    y_ts y' = upd_nth (y_ts y) i (mkT (t_n t) PDeact1 (t_lp t) (t_fc t + 1)) ->
    y_entry y' = y_entry y -> stored y y' -> rinv y'.
  Proof.
    intros y y' i t [H1 H2 H3 H4 H5 H6] Hfx Hi Ho Ets Een (Er & Ea).
    destruct (owner_upd _ _ i t (mkT (t_n t) PDeact1 (t_lp t) (t_fc t + 1)) H1 H2 Hi eq_refl (fun _ => Ho)) as [H1' H2'].
    constructor; rewrite ?Ets, ?Een, ?Er, ?Ea; try assumption.
    - intros n f Hn _ _. split; [exact Hfx|]. exists i, (mkT (t_n t) PDeact1 (t_lp t) (t_fc t + 1)).
      split; [eapply nth_upd_same; eassumption|]. split; [|reflexivity].
      rewrite (H2 i t Hi Ho) in Hn. now injection Hn.
    - apply (upd_all _ (kt (y_rcd y))); [exact H6|exact I].
  Qed.

  (** An acknowledgement: the only write of the stored sequence under the guard. *)
  Lemma rinv_ack : forall y y' i t seqs upd,
    rinv y -> nth_error (y_ts y) i = Some t -> t_pc t = PPost seqs upd ->
    y_ts y' = upd_nth (y_ts y) i (mkT (t_n t) PIdle upd 0) -> y_rcd y' = upd -> y_acked y' = y_acked y ++ seqs ->
    y_entry y' = y_entry y -> keeps_run y y' -> y_rcd y <= upd /\ rinv y'.
  Proof.
    intros y y' i t seqs upd [H1 H2 H3 H4 H5 H6] Hi Hpc Ets Er Ea Een Hns.
    pose proof (H6 i t Hi) as Hk. unfold kt in Hk. rewrite Hpc in Hk. destruct Hk as [Hsc Hb].
    destruct (delivered_ack M r0 _ _ _ _ _ (conj H4 H5) Hsc Hb) as [Hle [D1 D2]]. split; [exact Hle|].
    assert (Ho : owner t = true) by (unfold owner; now rewrite Hpc).
    destruct (owner_upd _ _ i t (mkT (t_n t) PIdle upd 0) H1 H2 Hi eq_refl (fun _ => Ho)) as [H1' H2'].
    constructor; rewrite ?Ets, ?Een, ?Er, ?Ea; try assumption.
    - intros n f' Hn Hf' Hr. destruct (Hns n f' Hf' Hr) as (f & Hf & Hfr).
      destruct (H3 n f Hn Hf Hfr) as (Hfx & j & tj & Hj & Hjn & Hjw).
      split; [exact Hfx|]. exists j, tj. split; [|split; assumption].
      rewrite nth_upd_other; [exact Hj|]. intros ->. rewrite Hi in Hj. injection Hj as <-.
      unfold in_window in Hjw. rewrite Hpc in Hjw. discriminate.
    - intros j tj Hj. apply nth_upd_inv in Hj as [(-> & -> & _)|(Hne & Hj)]; [apply scanned_refl|].
      exact (kt_not_owner _ _ (cnt_sole _ owner _ i t H1 Hi Ho j tj Hne Hj)).
  Qed.

  Lemma rinv_fresh : forall y y' n,
    rinv y -> y_entry y = None \/ forallb is_dead (y_ts y) = true ->
    y_ts y' = y_ts y ++ [mkT n PStart 0 0] -> stored y y' -> y_entry y' = Some n ->
    (forall f, nth_error (y_ns y') n = Some f -> n_run f = fx) -> rinv y'.
  Proof.
    intros y y' n I Hno Ets (Er & Ea) Een Hn. pose proof (no_owner_cnt y I Hno) as H0.
    destruct I as [H1 H2 H3 H4 H5 H6]. constructor; rewrite ?Ets, ?Een, ?Er, ?Ea; try assumption.
    - rewrite cnt_app, H0. cbn. lia.
    - apply (snoc_all _ (fun z => owner z = true -> Some n = Some (t_n z))); [|reflexivity]. intros j tj Hj Ho. rewrite (cnt_zero_nth _ owner _ _ _ H0 Hj) in Ho. discriminate.
    - intros m f Hm Hf Hr. injection Hm as <-. split; [rewrite <- (Hn f Hf); exact Hr|].
      exists (length (y_ts y)), (mkT n PStart 0 0). split; [apply nth_snoc_new|]. split; reflexivity.
    - apply (snoc_all _ (kt (y_rcd y))); [exact H6|exact I].
  Qed.

  Lemma rinv_effect : forall y e y',
    rinv y -> effect y e y' -> gev fx y e = true -> rinv y' /\ y_rcd y <= y_rcd y'.
  Proof.
    intros y e y' I Hef G.
    assert (Hst : forall y', stored y y' -> y_rcd y <= y_rcd y') by (intros ? [-> _]; lia).
    destruct Hef; try discriminate G; try (split; [|exact (Hst _ Est)]).
    - destruct Hn as ((Ets & Een & Est) & Hns). split; [|exact (Hst _ Est)].
      destruct I as [H1 H2 H3 H4 H5 H6]. destruct Est as [Er Ea].
      constructor; rewrite ?Ets, ?Een, ?Er, ?Ea; try assumption.
      intros n f' Hen Hf' Hrun. destruct (Hns n f' Hf' Hrun) as (f & Hf & Hfr). exact (H3 n f Hen Hf Hfr).
    - pose proof (no_owner_cnt y I (or_intror Hd)) as H0. destruct I as [H1 H2 H3 H4 H5 H6]. destruct Est as [Er Ea].
      constructor; rewrite ?Ets, ?Een, ?Er, ?Ea; try assumption; [|discriminate].
      intros i t Hi Ho. rewrite (cnt_zero_nth _ owner _ _ _ H0 Hi) in Ho. discriminate.
    - exact (rinv_task y y' i t t' I Hi Ets Een Est Hns Hm Hr).
    - exact (rinv_leave y y' i t t' I Hi Ets Est Ho Ho' Een).
    - exact (rinv_fail3 y y' i t I Hfx Hi Ho Ets Een Est).
    - rewrite Er. apply and_comm. exact (rinv_ack y y' i t seqs upd I Hi Hpc Ets Er Ea Een Hns).
    - exact (rinv_fresh y y' n I Hno Ets Est Een Hn).
    - (* a running goroutine of a pushNotify that says "not running" is in a window *)
      destruct (v_nrun y I n f He Hf Hrun) as (-> & i & t & Hi & _ & Hw). cbn [gev orb] in G. unfold no_window in G.
      pose proof (forallb_nth _ _ _ _ _ G Hi) as E. cbn beta in E. rewrite Hw in E. discriminate.
  Qed.

  Lemma rinv_run : forall es y, rinv y -> guard_run fx c st y es = true ->
    rinv (yrun fx c st y es) /\ y_rcd y <= y_rcd (yrun fx c st y es).
  Proof.
    induction es as [|e es IH]; intros y I G; cbn [yrun guard_run] in *; [split; [exact I|lia]|].
    apply andb_true_iff in G as [G1 G2]. destruct (rinv_effect y e _ I (ystep_effect y e) G1) as [I' Hle].
    destruct (IH _ I' G2) as [I'' Hle']. split; [exact I''|lia].
  Qed.

  (** The state Model.init_state describes is the registration state after the
      start-up steps of its goroutine. *)
  Lemma rinv_init : fx = false -> rinv (init_sys r0).
  Proof. intros _. exact (proj1 (rinv_run [VRead 0; VRun 0] _ rinv_init0 eq_refl)). Qed.
End RegInv.
