(** C32 — the property theorems, each derived in a few lines from the lemmas of the Proofs*.v files. *)
From Coq Require Import List ZArith Bool Lia Sorted.
From C33 Require Import C32.Model C32.Spec C32.ProofsGpd C32.ProofsExamples.
From C33 Require Import C32.ModelReg C32.SpecReg C32.ProofsRegL C32.ProofsRegMain C32.ProofsRegRec C32.ProofsRegExamples.
Import ListNotations.
Open Scope Z_scope.

(** ONE task goroutine whose start is atomic (Model.v): full strength, every
    push type, store and size limit: for every event sequence the acknowledged
    list is exactly the deliverable sequence numbers after the resume point, in
    increasing order.  For several goroutines of one name and the start-up /
    shutdown steps see the C32_reg_… theorems below: there the same statement
    needs the guard "no second concurrent first registration". *)
Theorem C32_acked_contiguous_increasing : forall c st r0 es,
  let s := run_events c st (init_state r0) es in
  exists r, (0 < r0 -> r = r0) /\
            contiguous_from (c_kind c) st r (acked s) /\
            StronglySorted Z.lt (acked s).
Proof. intros c st r0 es. exact (delivered_contiguous _ _ _ _ _ (task_delivered c st r0 es)). Qed.
Print Assumptions C32_acked_contiguous_increasing.

Theorem C32_acked_contiguous_increasing_holds : C32_acked_contiguous_increasing_full.
Proof. exact C32_acked_contiguous_increasing. Qed.
Print Assumptions C32_acked_contiguous_increasing_holds.

(** Full strength: the stored last push sequence is the registration value or
    is covered by acknowledgements. *)
Theorem C32_recorded_le_acked : forall c st r0 es,
  let s := run_events c st (init_state r0) es in
  recorded_justified (c_kind c) st r0 (rcd s) (acked s).
Proof. intros c st r0 es. exact (delivered_justified _ _ _ _ _ (task_delivered c st r0 es)). Qed.
Print Assumptions C32_recorded_le_acked.

Theorem C32_recorded_le_acked_holds : C32_recorded_le_acked_full.
Proof. exact C32_recorded_le_acked. Qed.
Print Assumptions C32_recorded_le_acked_holds.

(** Block, header and result pushes: consecutive integers from the resume
    point, and the stored sequence is the last acknowledged one. *)
Theorem C32_block_kinds_consecutive : forall c st r0 es,
  c_kind c <> KRecv ->
  let s := run_events c st (init_state r0) es in
  exists r n, (0 < r0 -> r = r0) /\ acked s = zrange (r + 1) n /\
              (rcd s = r0 \/ (acked s <> [] /\ rcd s = last (acked s) 0)).
Proof.
  intros c st r0 es Hk.
  exact (delivered_consecutive _ _ _ _ (fun x => matching_all _ st x Hk) (task_delivered c st r0 es)).
Qed.
Print Assumptions C32_block_kinds_consecutive.

(** getPushData: the payload is exactly the deliverable part of start .. updateSeq. *)
Theorem C32_getPushData_exact : forall k st start cnt max seqs upd,
  gpd k st start cnt max = GData seqs upd ->
  start - 1 <= upd /\ seqs = rf (matching k st) (start - 1) upd.
Proof. exact gpd_spec. Qed.
Print Assumptions C32_getPushData_exact.

Theorem C32_getPushData_no_panic : forall k st start cnt max,
  1 <= cnt -> gpd k st start cnt max <> GPanic.
Proof. exact gpd_no_panic. Qed.
Print Assumptions C32_getPushData_no_panic.

(** Liveness remark: a block whose message is not smaller than the size limit is
    never passed by a receipt-type subscriber. *)
Theorem C32_oversize_block_stalls : forall c st s latest size has,
  c_kind c = KRecv -> 1 <= c_maxcnt c ->
  run s = true -> pend s = None -> sl s <= 0 -> 0 < lp s ->
  lookup st (lp s + 1) = Some (size, has) -> c_maxsize c <= size ->
  let r := step c st s (ESeq latest) in
  lp (fst r) = lp s /\ rcd (fst r) = rcd s /\ acked (fst r) = acked s /\
  pend (fst r) = None /\ run (fst r) = true /\ snd r = [].
Proof.
  intros c st s latest size has Hk Hc Hr Hp Hsl Hlp Hl Hsz. rewrite step_awake by assumption.
  destruct (Z_le_gt_dec latest (lp s)) as [H|H]; [rewrite process_idle by exact H; auto 7|].
  rewrite process_round, Hk, (gpd_recv_oversize _ _ _ _ _ _ Hl Hsz) by lia.
  cbn [fst snd lp rcd acked pend run]. repeat split; try assumption. lia.
Qed.
Print Assumptions C32_oversize_block_stalls.

(** The stored last push sequence never moves backwards. *)
Theorem C32_recorded_monotone : forall c st r0 es1 es2,
  rcd (run_events c st (init_state r0) es1) <= rcd (run_events c st (init_state r0) (es1 ++ es2)).
Proof. exact rcd_mono. Qed.
Print Assumptions C32_recorded_monotone.

(** The repaired receipt loop: what it counts it delivers, and a deliverable
    first entry below the size limit is always taken. *)
Theorem C32_fix_no_skip : forall max n l seq total a it,
  rcv_loop max n l seq total = Some (a, it) ->
  exists m : nat, it = Z.of_nat m /\ a = filter (hasl l seq) (zrange seq m).
Proof. exact rcv_loop_spec. Qed.
Print Assumptions C32_fix_no_skip.

Theorem C32_fix_progress : forall max n size tl seq a it,
  size < max ->
  rcv_loop max (S n) ((size, true) :: tl) seq 0 = Some (a, it) ->
  1 <= it /\ exists a', a = seq :: a'.
Proof. exact rcv_loop_progress. Qed.
Print Assumptions C32_fix_progress.

(** Task-level progress: a deliverable next block below the size limit is
    posted by the next round. *)
Theorem C32_deliverable_block_posted : forall c st s latest size,
  c_kind c = KRecv -> 1 <= c_maxcnt c ->
  run s = true -> pend s = None -> sl s <= 0 -> 0 < lp s ->
  lp s < latest -> latest < Z.of_nat (length st) ->
  lookup st (lp s + 1) = Some (size, true) -> size < c_maxsize c ->
  let r := step c st s (ESeq latest) in
  exists seqs upd,
    snd r = [OPost (lp s + 1 :: seqs) upd] /\
    pend (fst r) = Some (lp s + 1 :: seqs, upd) /\ lp s + 1 <= upd /\
    lp (fst r) = lp s /\ rcd (fst r) = rcd s /\ acked (fst r) = acked s.
Proof.
  intros c st s latest size Hk Hc Hr Hp Hsl Hlp Hlt Hlen Hl Hsz. rewrite step_awake by assumption.
  destruct (gpd_recv_first _ _ (Z.min (c_maxcnt c) (latest - lp s)) _ _ Hl Hsz) as (seqs & upd & E & Hle); [lia..|].
  rewrite process_round, Hk, E by lia. exists seqs, upd. auto 7.
Qed.
Print Assumptions C32_deliverable_block_posted.

(** * Registration and task start-up / shutdown as a transition system over
    several goroutines of one subscriber name (ModelReg.v), the code in /repo
    (with the repair of the start-up and shutdown windows, [fx = true]). *)

(** "One task per subscriber" is still false in one shape: a second first
    registration of the same name that passed hasSubscriberExist before the
    first one stored the record replaces the task entry (addTask) and starts a
    second goroutine. *)
Theorem C32_single_task_per_subscriber_refuted : ~ C32_single_task_per_subscriber_full.
Proof. exact single_task_refuted. Qed.
Print Assumptions C32_single_task_per_subscriber_refuted.

(** Guard (boolean): the event sequence has no step of a second concurrent
    first registration (VSetLast, VAddTask).  Then at most one goroutine can
    post, for every interleaving of re-registrations, start-up, rounds,
    answers, shutdown, close and restart steps. *)
Theorem C32_single_task_per_subscriber_partial : forall c st r0 es,
  forallb fixed_guard es = true ->
  (live_tasks (yrun true c st (init_sys0 true r0) es) <= 1)%nat.
Proof.
  intros c st r0 es G. rewrite <- (guard_fixed_is c st es (init_sys0 true r0)) in G.
  exact (reg_single_task true c st r0 es G).
Qed.
Print Assumptions C32_single_task_per_subscriber_partial.

(** Delivery on the transition system: with a second first registration the
    acknowledged list has duplicates and is out of order ... *)
Theorem C32_reg_acked_contiguous_increasing_refuted : ~ C32_reg_acked_contiguous_increasing_full.
Proof. exact reg_acked_refuted. Qed.
Print Assumptions C32_reg_acked_contiguous_increasing_refuted.

(** ... without one it is gap-free and increasing. *)
Theorem C32_reg_acked_contiguous_increasing_partial : forall c st r0 es,
  forallb fixed_guard es = true ->
  let y := yrun true c st (init_sys0 true r0) es in
  exists r, (0 < r0 -> r = r0) /\
            contiguous_from (c_kind c) st r (y_acked y) /\
            StronglySorted Z.lt (y_acked y).
Proof.
  intros c st r0 es G. rewrite <- (guard_fixed_is c st es (init_sys0 true r0)) in G.
  exact (delivered_contiguous _ _ _ _ _ (reg_delivered true c st r0 es G)).
Qed.
Print Assumptions C32_reg_acked_contiguous_increasing_partial.

Theorem C32_reg_recorded_le_acked_partial : forall c st r0 es,
  forallb fixed_guard es = true ->
  let y := yrun true c st (init_sys0 true r0) es in
  recorded_justified (c_kind c) st r0 (y_rcd y) (y_acked y).
Proof.
  intros c st r0 es G. rewrite <- (guard_fixed_is c st es (init_sys0 true r0)) in G.
  exact (delivered_justified _ _ _ _ _ (reg_delivered true c st r0 es G)).
Qed.
Print Assumptions C32_reg_recorded_le_acked_partial.

(** The stored last push sequence can still move backwards with a second first
    registration (the slower of the two goroutines overwrites it) ... *)
Theorem C32_reg_recorded_monotone_refuted : ~ C32_reg_recorded_monotone_full.
Proof. exact reg_rcd_mono_refuted. Qed.
Print Assumptions C32_reg_recorded_monotone_refuted.

(** ... and never does without one. *)
Theorem C32_reg_recorded_monotone_partial : forall c st r0 es1 es2,
  forallb fixed_guard (es1 ++ es2) = true ->
  y_rcd (yrun true c st (init_sys0 true r0) es1) <= y_rcd (yrun true c st (init_sys0 true r0) (es1 ++ es2)).
Proof.
  intros c st r0 es1 es2 G. rewrite <- (guard_fixed_is c st (es1 ++ es2) (init_sys0 true r0)) in G.
  exact (reg_rcd_mono true c st r0 es1 es2 G).
Qed.
Print Assumptions C32_reg_recorded_monotone_partial.

(** The code before the repair (chain33 up to the commit named in
    known_findings/C32.json, [fx = false]) needed the larger guard [guard_run
    false]: also no check2ResumePush while a goroutine of the name was in a
    start-up window (spawned, status not yet written) or shutdown window (status
    "not running" written, entry not yet deleted).  This is what a
    revert of the repair would bring back; ProofsRegExamples.v has the
    interleavings that then delivered twice. *)
Theorem C32_before_repair_guard_needed : forall c st r0 es,
  guard_run false c st (init_sys0 false r0) es = true ->
  let y := yrun false c st (init_sys0 false r0) es in
  (live_tasks y <= 1)%nat /\
  exists r, (0 < r0 -> r = r0) /\ contiguous_from (c_kind c) st r (y_acked y) /\
            StronglySorted Z.lt (y_acked y).
Proof.
  intros c st r0 es G y. split; [exact (reg_single_task false c st r0 es G)|].
  exact (delivered_contiguous _ _ _ _ _ (reg_delivered false c st r0 es G)).
Qed.
Print Assumptions C32_before_repair_guard_needed.

(** The second sentence of the property — a sequence is recorded as delivered
    only after the subscriber acknowledged it — holds WITHOUT the guard, for
    every interleaving of registrations, start-ups and goroutines, unchanged and
    repaired code (only the setLastPushSeq of a second concurrent first
    registration is excluded): the stored sequence is the registration value,
    or some acknowledged number s <= it with nothing deliverable in between. *)
Theorem C32_reg_recorded_only_after_ack : forall fx c st r0 es,
  forallb no_setlast es = true ->
  let y := yrun fx c st (init_sys0 fx r0) es in
  y_rcd y = r0 \/
  exists s, In s (y_acked y) /\ s <= y_rcd y /\
            forall x, s < x <= y_rcd y -> matching (c_kind c) st x = false.
Proof. exact recorded_only_after_ack. Qed.
Print Assumptions C32_reg_recorded_only_after_ack.

(** The consequence of a second goroutine, for every state: two goroutines in
    the select at the same position deliver the same batch twice. *)
Theorem C32_second_task_replays : forall fx c st y i j ti tj latest seqs upd,
  i <> j ->
  nth_error (y_ts y) i = Some ti -> nth_error (y_ts y) j = Some tj ->
  t_pc ti = PIdle -> t_pc tj = PIdle -> t_lp tj = t_lp ti ->
  0 < t_lp ti -> t_lp ti < latest ->
  sl_of y (t_n ti) <= 0 -> sl_of y (t_n tj) <= 0 ->
  gpd (c_kind c) st (t_lp ti + 1) (Z.min (c_maxcnt c) (latest - t_lp ti)) (c_maxsize c) = GData seqs upd ->
  seqs <> [] ->
  let y' := yrun fx c st y [VSeq i latest; VPostOk i; VSeq j latest; VPostOk j] in
  y_acked y' = y_acked y ++ seqs ++ seqs /\ y_rcd y' = upd.
Proof.
  intros fx c st y i j ti tj latest seqs upd Hij Hi Hj Hpi Hpj Hlp Hpos Hlt Hsi Hsj Hg Hne. cbv zeta.
  change [VSeq i latest; VPostOk i; VSeq j latest; VPostOk j]
    with ([VSeq i latest; VPostOk i] ++ [VSeq j latest; VPostOk j]). rewrite yrun_app.
  destruct (round_acked fx c st y i ti latest seqs upd Hi Hpi Hsi (conj Hpos Hlt) Hg Hne) as (Hts & Hns & Ha & _).
  rewrite <- Hlp in Hpos, Hlt, Hg. rewrite <- (Hts j Hij) in Hj. unfold sl_of in Hsj. rewrite <- Hns in Hsj.
  destruct (round_acked fx c st _ j tj latest seqs upd Hj Hpj Hsj (conj Hpos Hlt) Hg Hne) as (_ & _ & Ha' & Hr).
  rewrite Ha', Ha, <- app_assoc. now split.
Qed.
Print Assumptions C32_second_task_replays.

(** What the guard of the larger transition relation is for the repaired code:
    exactly "no step of a second first registration". *)
Theorem C32_fix2_guard : forall c st es y,
  guard_run true c st y es = forallb fixed_guard es.
Proof. exact guard_fixed_is. Qed.
Print Assumptions C32_fix2_guard.

(** Remarks on Close (not part of the property): a goroutine that returns
    through the LoadBlockLastSequence error path never calls Done, so Close can
    never return again; a second Close panics. *)
Theorem C32_error_exit_blocks_close : forall fx c st y i t es,
  nth_error (y_ts y) i = Some t -> t_pc t = PIdle -> sl_of y (t_n t) <= 0 ->
  all_done (yrun fx c st y (VSeqErr i :: es)) = false.
Proof.
  intros fx c st y i t es Hi Hp Hs. cbn [yrun].
  apply (leaked_never_done fx c st es _ i (with_pc t (PDead false))); [|reflexivity].
  cbn [ystep]. rewrite Hi, Hp. destruct (sl_of y (t_n t) >? 0) eqn:E; [lia|].
  cbn [fst set_task set_ts y_ts]. exact (nth_upd_same _ _ _ _ _ Hi).
Qed.
Print Assumptions C32_error_exit_blocks_close.

Theorem C32_close_twice_panics : forall fx c st y n f,
  y_entry y = Some n -> nth_error (y_ns y) n = Some f ->
  y_panic (yrun fx c st y [VClose; VClose]) = true.
Proof.
  intros fx c st y n f He Hf. cbn [yrun ystep]. rewrite He, Hf.
  destruct (n_closed f) eqn:Ec; cbn [fst y_entry y_ns set_notif set_ns]; rewrite ?He.
  - now rewrite Hf, Ec.
  - now rewrite (nth_upd_same _ _ _ _ _ Hf).
Qed.
Print Assumptions C32_close_twice_panics.
