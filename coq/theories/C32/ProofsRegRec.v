(** C32 — "recorded only after acknowledged" on the transition system WITHOUT
    the guard: whatever the interleaving of registrations, start-ups and
    goroutines (only the setLastPushSeq of a second concurrent first
    registration excluded), the stored last push sequence is the registration
    value or is covered by an acknowledged sequence number. *)
From Coq Require Import List ZArith Bool Lia.
From C33 Require Import C32.Model C32.ProofsGpd C32.ModelReg C32.ProofsRegL C32.ProofsRegInv.
Import ListNotations.
Open Scope Z_scope.

Definition no_setlast (e : yev) : bool :=
  match e with VSetLast _ => false | _ => true end.

Section Rec.
  Variable fx : bool.
  Variable c : cfg.
  Variable st : store.
  Variable r0 : Z.

  Let M := matching (c_kind c) st.

  (** Without the guard a goroutine's position says nothing about the stored
      sequence (another goroutine may have moved it); what stays true is that a
      post in flight is the next batch after the position. *)
  Definition pk (t : task) : Prop :=
    match t_pc t with PPost seqs upd => batch M (t_lp t) seqs upd | _ => True end.

  Definition covered (rcd : Z) (acked : list Z) : Prop :=
    rcd = r0 \/ exists s, In s acked /\ s <= rcd /\ forall x, s < x <= rcd -> M x = false.

  Definition winv (y : sys) : Prop :=
    (forall i t, nth_error (y_ts y) i = Some t -> pk t) /\ covered (y_rcd y) (y_acked y).

  Lemma tmove_pk : forall rcd t t', tmove c st rcd t t' -> pk t'.
  Proof. intros rcd t t' [| | |? ? _ Hb| |]; try exact I. exact Hb. Qed.

  Lemma not_owner_pk : forall t, owner t = false -> pk t.
  Proof. intros t H. unfold pk, owner in *. destruct (t_pc t); try discriminate; exact I. Qed.

  Lemma winv_effect : forall y e y',
    winv y -> effect fx c st y e y' -> no_setlast e = true -> winv y'.
  Proof.
    intros y e y' [Hp Hc] Hef G.
    assert (Hst : forall y', stored y y' -> covered (y_rcd y') (y_acked y')) by (intros ? [-> ->]; exact Hc).
    destruct Hef as [e y' ((Ets & _ & Est) & _)| | | | | | | | |]; try discriminate G;
      (split; [rewrite Ets | try exact (Hst _ Est)]).
    - exact Hp.
    - exact Hp.
    - apply (upd_all _ pk); [exact Hp | exact (tmove_pk _ _ _ Hm)].
    - apply (upd_all _ pk); [exact Hp | exact (not_owner_pk _ Ho')].
    - apply (upd_all _ pk); [exact Hp | exact I].
    - apply (upd_all _ pk); [exact Hp | exact I].
    - (* the acknowledged batch ends with a number that covers its updateSeq *)
      rewrite Er, Ea. right. pose proof (Hp i t Hi) as Hb. unfold pk in Hb. rewrite Hpc in Hb.
      destruct Hb as (_ & _ & Hne & ->). destruct (rf_last M (t_lp t) upd Hne) as [Hl Hnone].
      exists (last (rf M (t_lp t) upd) 0). split; [apply in_or_app; right; apply last_In, Hne|].
      split; [lia|exact Hnone].
    - apply (snoc_all _ pk); [exact Hp | exact I].
    - apply (snoc_all _ pk); [exact Hp | exact I].
    - apply (snoc_all _ pk); [exact Hp | exact I].
  Qed.

  Lemma winv_init0 : winv (init_sys0 fx r0).
  Proof.
    split; cbn [init_sys0 y_ts y_rcd y_acked].
    - intros [|[|i]] t H; cbn [nth_error] in H; try discriminate. inversion H; subst. exact I.
    - left. reflexivity.
  Qed.

  Lemma recorded_only_after_ack : forall es,
    forallb no_setlast es = true ->
    let y := yrun fx c st (init_sys0 fx r0) es in
    y_rcd y = r0 \/
    exists s, In s (y_acked y) /\ s <= y_rcd y /\ forall x, s < x <= y_rcd y -> matching (c_kind c) st x = false.
  Proof.
    intros es G. cbv zeta.
    assert (H : winv (yrun fx c st (init_sys0 fx r0) es)).
    { generalize winv_init0. generalize (init_sys0 fx r0). revert G.
      induction es as [|e es IH]; intros G y I; cbn [yrun forallb] in *; [exact I|].
      apply andb_true_iff in G as [G1 G2]. apply IH; [exact G2|].
      exact (winv_effect y e _ I (ystep_effect fx c st y e) G1). }
    exact (proj2 H).
  Qed.
End Rec.
