(** C32 — concrete runs of the registration / start-up transition system:
    the guard is satisfiable by a run with failures, deactivation,
    re-registration, close and restart; before the repair ([fx = false]) the
    three overlap shapes (start-up window, shutdown window, second first
    registration) each delivered sequence numbers twice; with the repair
    ([fx = true], the code in /repo) the first two start one goroutine, the
    third is the open part of finding C32-F2. *)
From Coq Require Import List ZArith Bool.
From C33 Require Import C32.Model C32.ModelReg C32.ProofsRegMain C32.ProofsRegRec.
Import ListNotations.
Open Scope Z_scope.

Definition fixed_guard (e : yev) : bool :=
  match e with VSetLast _ | VAddTask => false | _ => true end.

Lemma guard_fixed_is : forall c st es y,
  guard_run true c st y es = forallb fixed_guard es.
Proof.
  induction es as [|e es IH]; intros y; cbn [guard_run forallb]; [reflexivity|].
  rewrite IH. destruct e; reflexivity.
Qed.

(** A guarded run: start-up, three failed posts, the shutdown steps, a
    re-registration with its start-up, delivery, a re-registration of the
    running task, close, exit, restart, delivery. *)
Definition w_guarded : list yev :=
  [VRead 0; VRun 0; VSeq 0 3; VPostFail 0; VTick 0; VSeq 0 3; VPostFail 0; VSeq 0 3; VPostFail 0;
   VDel 0; VDeact 0; VReg; VActive; VRead 1; VRun 1; VSeq 1 5; VPostOk 1; VReg; VActive;
   VSeq 1 5; VPostOk 1; VClose; VExit 1; VRestart; VRead 2; VRun 2; VSeq 2 6; VPostOk 2].

Example guarded_run_nontrivial :
  guard_run false wcfg wstore (init_sys0 false 1) w_guarded = true /\
  let y := yrun false wcfg wstore (init_sys0 false 1) w_guarded in
  y_acked y = [2; 3; 4; 5; 6] /\ y_rcd y = 6 /\ live_tasks y = 1%nat /\ length (y_ts y) = 3%nat /\ y_act y = true.
Proof. vm_compute. repeat split; reflexivity. Qed.

(** The same run on the code with the repair: the guard of the _partial
    theorems (no step of a second first registration) holds for it. *)
Example guarded_run_repaired :
  forallb fixed_guard w_guarded = true /\
  let y := yrun true wcfg wstore (init_sys0 true 1) w_guarded in
  y_acked y = [2; 3; 4; 5; 6] /\ y_rcd y = 6 /\ live_tasks y = 1%nat /\ length (y_ts y) = 3%nat /\ y_act y = true.
Proof. vm_compute. repeat split; reflexivity. Qed.

(** Start-up window, before the repair. *)
Example startup_overlap_duplicates :
  guard_run false wcfg wstore (init_sys0 false 1) w_old_dup = false /\
  let y := yrun false wcfg wstore (init_sys0 false 1) w_old_dup in
  y_acked y = [2; 3; 4; 5; 2; 3] /\ y_rcd y = 3 /\ live_tasks y = 2%nat.
Proof. vm_compute. repeat split; reflexivity. Qed.

(** Shutdown window: goroutine 0 has written "not running" and not yet deleted
    the entry; a registration starts goroutine 1 on the old pushNotify; the
    entry is deleted; the next registration starts goroutine 2 on a new one. *)
Definition w_shutdown : list yev :=
  [VRead 0; VRun 0; VSeq 0 3; VPostFail 0; VSeq 0 3; VPostFail 0; VSeq 0 3; VPostFail 0;
   VReg; VActive; VDel 0; VDeact 0; VRead 1; VRun 1; VReg; VActive; VRead 2; VRun 2;
   VSeq 1 5; VPostOk 1; VSeq 2 5; VPostOk 2].

Example shutdown_overlap_duplicates :
  guard_run false wcfg wstore (init_sys0 false 1) w_shutdown = false /\
  let y := yrun false wcfg wstore (init_sys0 false 1) w_shutdown in
  y_acked y = [2; 3; 2; 3] /\ live_tasks y = 2%nat /\ y_act y = true /\
  (* Close closes only the entry's channel: goroutine 1 cannot leave *)
  all_done (yrun false wcfg wstore y [VClose; VExit 0; VExit 1; VExit 2]) = false.
Proof. vm_compute. repeat split; reflexivity. Qed.

(** A second first registration of the same name (it passed
    hasSubscriberExist before the first one stored the record). *)
Definition w_addtask : list yev :=
  [VSetLast 1; VAddTask; VRead 0; VRun 0; VRead 1; VRun 1; VSeq 0 5; VPostOk 0; VSeq 1 5; VPostOk 1].

Example addtask_overlap_duplicates :
  forallb fixed_guard w_addtask = false /\
  let y := yrun true wcfg wstore (init_sys0 true 1) w_addtask in
  y_acked y = [2; 3; 2; 3] /\ live_tasks y = 2%nat /\ y_entry y = Some 1%nat.
Proof. vm_compute. repeat split; reflexivity. Qed.

(** The hypotheses of [C32_second_task_replays] are satisfiable. *)
Example replay_state :
  let y := yrun false wcfg wstore (init_sys0 false 1) [VReg; VRead 0; VRun 0; VRead 1; VRun 1] in
  exists ti tj,
    nth_error (y_ts y) 0 = Some ti /\ nth_error (y_ts y) 1 = Some tj /\
    t_pc ti = PIdle /\ t_pc tj = PIdle /\ t_lp tj = t_lp ti /\ 0 < t_lp ti /\ t_lp ti < 5 /\
    sl_of y (t_n ti) <= 0 /\ sl_of y (t_n tj) <= 0 /\
    gpd (c_kind wcfg) wstore (t_lp ti + 1) (Z.min (c_maxcnt wcfg) (5 - t_lp ti)) (c_maxsize wcfg) = GData [2; 3] 3.
Proof.
  exists (mkT 0 PIdle 1 0), (mkT 0 PIdle 1 0). vm_compute. repeat split; try reflexivity; discriminate.
Qed.

(** With the repair the same event lists start one goroutine and deliver once. *)
Example fixed_startup :
  let y := yrun true wcfg wstore (init_sys0 true 1) w_old_dup in
  y_acked y = [2; 3; 4; 5] /\ y_rcd y = 5 /\ live_tasks y = 1%nat /\ length (y_ts y) = 1%nat.
Proof. vm_compute. repeat split; reflexivity. Qed.

Example fixed_shutdown :
  let y := yrun true wcfg wstore (init_sys0 true 1) w_shutdown in
  y_acked y = [2; 3] /\ live_tasks y = 1%nat /\ length (y_ts y) = 2%nat.
Proof. vm_compute. repeat split; reflexivity. Qed.

(** The hypotheses of [C32_error_exit_blocks_close] are satisfiable, and
    without the error exit Close does return. *)
Example error_exit_state :
  let y := yrun false wcfg wstore (init_sys0 false 1) [VRead 0; VRun 0] in
  exists t, nth_error (y_ts y) 0 = Some t /\ t_pc t = PIdle /\ sl_of y (t_n t) <= 0 /\
            all_done (yrun false wcfg wstore y [VClose; VExit 0]) = true /\
            all_done (yrun false wcfg wstore y [VSeqErr 0; VClose; VExit 0]) = false.
Proof. vm_compute. eexists. repeat split; try reflexivity; discriminate. Qed.

(** The unguarded "recorded only after acknowledged" theorem applies to the
    overlapping runs (they contain no VSetLast) and is not vacuous there. *)
Example rec_after_ack_on_overlap :
  forallb no_setlast w_old_dup = true /\ forallb no_setlast w_shutdown = true /\
  let y := yrun false wcfg wstore (init_sys0 false 1) w_old_dup in
  y_rcd y = 3 /\ In 3 (y_acked y).
Proof. vm_compute. repeat split; try reflexivity. right. left. reflexivity. Qed.
