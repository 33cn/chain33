(** C32 — results on the registration / start-up transition system:
    under the guard one goroutine, gap-free delivery, monotone record;
    without it the interleaving witnesses; what a second goroutine delivers. *)
From Coq Require Import List ZArith Bool Lia Sorted.
From C33 Require Import C32.Model C32.ProofsGpd C32.ModelReg C32.SpecReg
  C32.ProofsRegL C32.ProofsRegInv.
Import ListNotations.
Open Scope Z_scope.

Lemma yrun_app : forall fx c st es1 es2 y,
  yrun fx c st y (es1 ++ es2) = yrun fx c st (yrun fx c st y es1) es2.
Proof. induction es1 as [|e es1 IH]; intros es2 y; cbn [app yrun]; [reflexivity|apply IH]. Qed.

Lemma guard_app : forall fx c st es1 es2 y,
  guard_run fx c st y (es1 ++ es2) = true ->
  guard_run fx c st y es1 = true /\ guard_run fx c st (yrun fx c st y es1) es2 = true.
Proof.
  induction es1 as [|e es1 IH]; intros es2 y H; cbn [app yrun guard_run] in *; [split; [reflexivity|exact H]|].
  apply andb_true_iff in H as [H1 H2]. destruct (IH es2 _ H2) as [H3 H4]. rewrite H1, H3. split; [reflexivity|exact H4].
Qed.

Lemma posting_owner : forall t, posting t = true -> owner t = true.
Proof. intros t. unfold posting, owner. destruct (t_pc t); intros H; try discriminate; reflexivity. Qed.

Section Guarded.
  Variable fx : bool.
  Variable c : cfg.
  Variable st : store.
  Variable r0 : Z.

  Let y0 := init_sys0 fx r0.

  Lemma reg_inv_reachable : forall es,
    guard_run fx c st y0 es = true -> rinv fx c st r0 (yrun fx c st y0 es).
  Proof. intros es G. exact (proj1 (rinv_run fx c st r0 es _ (rinv_init0 fx c st r0) G)). Qed.

  Lemma reg_single_task : forall es,
    guard_run fx c st y0 es = true -> (live_tasks (yrun fx c st y0 es) <= 1)%nat.
  Proof.
    intros es G. pose proof (v_cnt _ _ _ _ _ (reg_inv_reachable es G)) as H.
    unfold live_tasks. pose proof (cnt_mono _ posting owner (y_ts (yrun fx c st y0 es)) posting_owner). lia.
  Qed.

  Lemma reg_delivered : forall es,
    guard_run fx c st y0 es = true ->
    let y := yrun fx c st y0 es in delivered (matching (c_kind c) st) r0 (y_rcd y) (y_acked y).
  Proof. intros es G. destruct (reg_inv_reachable es G) as [_ _ _ H1 H2 _]. exact (conj H1 H2). Qed.

  Lemma reg_rcd_mono : forall es1 es2,
    guard_run fx c st y0 (es1 ++ es2) = true ->
    y_rcd (yrun fx c st y0 es1) <= y_rcd (yrun fx c st y0 (es1 ++ es2)).
  Proof.
    intros es1 es2 G. rewrite yrun_app. apply guard_app in G as [G1 G2].
    exact (proj2 (rinv_run fx c st r0 es2 _ (reg_inv_reachable es1 G1) G2)).
  Qed.
End Guarded.

Definition wcfg : cfg := mkCfg KBlock 2 100 1.
Definition wstore : store := [(1, true); (1, true); (1, true); (1, true); (1, true); (1, true); (1, true)].

(** A second first registration of the same name (it passed hasSubscriberExist
    before the first one stored the record): its addTask replaces the entry and
    starts a second goroutine. *)
Definition w_two : list yev := [VAddTask].
(** Both goroutines then deliver the backlog: 2 3 | 4 5 by the first, 2 3 again by the second. *)
Definition w_dup : list yev :=
  [VSetLast 1; VAddTask; VRead 0; VRun 0; VRead 1; VRun 1;
   VSeq 0 5; VPostOk 0; VSeq 0 5; VPostOk 0; VSeq 1 5; VPostOk 1].

(** Before the repair a plain re-registration inside the start-up window was
    enough: with [fx = false] these lists give the duplicates, with [fx = true]
    they do not (ProofsRegExamples.v). *)
Definition w_old_two : list yev := [VReg].
Definition w_old_dup : list yev :=
  [VReg; VRead 0; VRun 0; VRead 1; VRun 1;
   VSeq 0 5; VPostOk 0; VSeq 0 5; VPostOk 0; VSeq 1 5; VPostOk 1].

Lemma single_task_refuted : ~ C32_single_task_per_subscriber_full.
Proof.
  intros H. specialize (H wcfg wstore 1 w_two). vm_compute in H. lia.
Qed.

Lemma reg_acked_refuted : ~ C32_reg_acked_contiguous_increasing_full.
Proof.
  intros H. destruct (H wcfg wstore 1 w_dup) as (r & _ & _ & Hs).
  assert (E : y_acked (yrun true wcfg wstore (init_sys0 true 1) w_dup) = [2; 3; 4; 5; 2; 3])
    by (vm_compute; reflexivity).
  rewrite E in Hs. apply StronglySorted_inv in Hs as [_ Hs]. rewrite Forall_forall in Hs.
  assert (2 < 2); [apply Hs; cbn; tauto|lia].
Qed.

Lemma reg_rcd_mono_refuted : ~ C32_reg_recorded_monotone_full.
Proof.
  intros H. specialize (H wcfg wstore 1 (firstn 10 w_dup) (skipn 10 w_dup)).
  assert (E1 : y_rcd (yrun true wcfg wstore (init_sys0 true 1) (firstn 10 w_dup)) = 5) by (vm_compute; reflexivity).
  assert (E2 : y_rcd (yrun true wcfg wstore (init_sys0 true 1) (firstn 10 w_dup ++ skipn 10 w_dup)) = 3)
    by (vm_compute; reflexivity).
  rewrite E1, E2 in H. lia.
Qed.

Lemma round_acked : forall fx c st y i t latest seqs upd,
  nth_error (y_ts y) i = Some t -> t_pc t = PIdle -> sl_of y (t_n t) <= 0 -> 0 < t_lp t < latest ->
  gpd (c_kind c) st (t_lp t + 1) (Z.min (c_maxcnt c) (latest - t_lp t)) (c_maxsize c) = GData seqs upd ->
  seqs <> [] ->
  let y' := yrun fx c st y [VSeq i latest; VPostOk i] in
  (forall j, i <> j -> nth_error (y_ts y') j = nth_error (y_ts y) j) /\ y_ns y' = y_ns y /\
  y_acked y' = y_acked y ++ seqs /\ y_rcd y' = upd.
Proof.
  intros fx c st y i t latest seqs upd Hi Hpc Hs Hlp Hg Hne. cbn [yrun].
  assert (E : fst (ystep fx c st y (VSeq i latest)) = set_task y i (with_pc t (PPost seqs upd))).
  { cbn [ystep]. rewrite Hi, Hpc. destruct (sl_of y (t_n t) >? 0) eqn:E0; [lia|]. unfold yprocess.
    destruct (t_lp t >=? latest) eqn:E1; [lia|]. destruct (t_lp t <=? 0) eqn:E2; [lia|].
    rewrite Hg. destruct seqs; [congruence|reflexivity]. }
  rewrite E. cbn [ystep set_task set_ts y_ts]. rewrite (nth_upd_same _ _ _ _ _ Hi).
  cbn [with_pc t_pc fst y_ts y_ns y_acked y_rcd]. repeat split.
  intros j Hj. now rewrite !nth_upd_other.
Qed.

Lemma dead_stays : forall fx c st y e k d,
  nth_error (y_ts y) k = Some d -> is_dead d = true ->
  nth_error (y_ts (fst (ystep fx c st y e))) k = Some d.
Proof.
  intros fx c st y e k d Hk Hd.
  assert (Hu : forall i t t', nth_error (y_ts y) i = Some t -> is_dead t = false ->
                              nth_error (upd_nth (y_ts y) i t') k = Some d).
  { intros i t t' Hi Hn. rewrite nth_upd_other; [exact Hk|]. intros ->. congruence. }
  assert (Hlive : forall t, owner t = true -> is_dead t = false)
    by (intros t; unfold owner, is_dead; destruct (t_pc t); easy).
  pose proof (ystep_effect fx c st y e) as H. revert H. generalize (fst (ystep fx c st y e)).
  intros y' [e' y1 ((Ets & _) & _)| | | | | | | | |]; rewrite Ets.
  - exact Hk.
  - exact Hk.
  - apply (Hu i t _ Hi), (tmove_facts _ _ _ _ _ Hm).
  - apply (Hu i t _ Hi), Hlive, Ho.
  - apply (Hu i t _ Hi), Hlive, Ho.
  - apply (Hu i t _ Hi). unfold is_dead. now rewrite Hpc.
  - apply nth_snoc_old, Hk.
  - apply nth_snoc_old, Hk.
  - apply nth_snoc_old, Hk.
  - exact Hk.
Qed.

(** A goroutine that returned through the LoadBlockLastSequence error path never
    calls Done: Push.Close cannot return any more, whatever happens next. *)
Lemma leaked_never_done : forall fx c st es y i t,
  nth_error (y_ts y) i = Some t -> t_pc t = PDead false ->
  all_done (yrun fx c st y es) = false.
Proof.
  induction es as [|e es IH]; intros y i t Hi Hp; cbn [yrun].
  - unfold all_done. destruct (forallb _ (y_ts y)) eqn:E; [|reflexivity].
    pose proof (forallb_nth _ _ _ _ _ E Hi) as H. cbn beta in H. rewrite Hp in H. discriminate.
  - apply (IH _ i t); [|exact Hp]. apply dead_stays; [exact Hi|]. unfold is_dead. rewrite Hp. reflexivity.
Qed.
