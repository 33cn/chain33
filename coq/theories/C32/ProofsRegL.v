(** C32 — list lemmas for the transition system of ModelReg.v. *)
From Coq Require Import List ZArith Bool Lia.
From C33 Require Import C32.Model C32.ModelReg.
Import ListNotations.
Open Scope nat_scope.

Lemma nth_upd : forall (A : Type) (l : list A) i j y,
  nth_error (upd_nth l i y) j =
  if Nat.eqb i j then option_map (fun _ => y) (nth_error l j) else nth_error l j.
Proof.
  induction l as [|a l IH]; intros [|i] [|j] y; cbn [upd_nth nth_error Nat.eqb option_map]; try reflexivity.
  - now destruct (Nat.eqb i j).
  - apply IH.
Qed.

Lemma nth_upd_same : forall (A : Type) (l : list A) i x y,
  nth_error l i = Some x -> nth_error (upd_nth l i y) i = Some y.
Proof. intros A l i x y H. now rewrite nth_upd, Nat.eqb_refl, H. Qed.

Lemma nth_upd_other : forall (A : Type) (l : list A) i j y,
  i <> j -> nth_error (upd_nth l i y) j = nth_error l j.
Proof. intros A l i j y H. rewrite nth_upd. now apply Nat.eqb_neq in H as ->. Qed.

Lemma nth_upd_inv : forall (A : Type) (l : list A) i j y z,
  nth_error (upd_nth l i y) j = Some z ->
  (j = i /\ z = y /\ nth_error l i <> None) \/ (j <> i /\ nth_error l j = Some z).
Proof.
  intros A l i j y z H. rewrite nth_upd in H. destruct (Nat.eqb_spec i j) as [->|Hne].
  - left. destruct (nth_error l j); [|discriminate]. injection H as <-. now repeat split.
  - right. split; [congruence|exact H].
Qed.

Lemma upd_nth_id : forall (A : Type) (l : list A) i x,
  nth_error l i = Some x -> upd_nth l i x = l.
Proof.
  induction l as [|a l IH]; intros [|i] x H; cbn [upd_nth nth_error] in *; try discriminate.
  - inversion H. reflexivity.
  - f_equal. apply IH. assumption.
Qed.

Lemma nth_snoc_inv : forall (A : Type) (l : list A) x j z,
  nth_error (l ++ [x]) j = Some z ->
  (j = length l /\ z = x) \/ (j < length l /\ nth_error l j = Some z).
Proof.
  intros A l x j z H. destruct (Nat.lt_ge_cases j (length l)) as [Hlt|Hge].
  - right. split; [assumption|]. rewrite nth_error_app1 in H by assumption. assumption.
  - left. rewrite nth_error_app2 in H by assumption.
    destruct (j - length l) as [|k] eqn:E; cbn [nth_error] in H.
    + inversion H. split; [lia|reflexivity].
    + destruct k; discriminate.
Qed.

Lemma nth_snoc_old : forall (A : Type) (l : list A) x j z,
  nth_error l j = Some z -> nth_error (l ++ [x]) j = Some z.
Proof.
  intros A l x j z H. rewrite nth_error_app1; [assumption|].
  apply nth_error_Some. congruence.
Qed.

Lemma nth_snoc_new : forall (A : Type) (l : list A) x,
  nth_error (l ++ [x]) (length l) = Some x.
Proof.
  intros A l x. rewrite nth_error_app2 by lia. rewrite Nat.sub_diag. reflexivity.
Qed.

Lemma upd_all : forall (A : Type) (P : A -> Prop) (l : list A) i y,
  (forall j z, nth_error l j = Some z -> P z) -> P y ->
  forall j z, nth_error (upd_nth l i y) j = Some z -> P z.
Proof.
  intros A P l i y H Hy j z Hj. apply nth_upd_inv in Hj as [(_ & -> & _)|(_ & Hj)]; [exact Hy|exact (H j z Hj)].
Qed.

Lemma snoc_all : forall (A : Type) (P : A -> Prop) (l : list A) y,
  (forall j z, nth_error l j = Some z -> P z) -> P y ->
  forall j z, nth_error (l ++ [y]) j = Some z -> P z.
Proof.
  intros A P l y H Hy j z Hj. apply nth_snoc_inv in Hj as [(_ & ->)|(_ & Hj)]; [exact Hy|exact (H j z Hj)].
Qed.

Definition b2n (b : bool) : nat := if b then 1 else 0.

Lemma cnt_cons : forall (A : Type) (p : A -> bool) x l, cnt p (x :: l) = b2n (p x) + cnt p l.
Proof. reflexivity. Qed.

Lemma cnt_upd : forall (A : Type) (p : A -> bool) (l : list A) i x y,
  nth_error l i = Some x ->
  cnt p (upd_nth l i y) + b2n (p x) = cnt p l + b2n (p y).
Proof.
  induction l as [|a l IH]; intros [|i] x y H; cbn [upd_nth nth_error] in *; try discriminate.
  - inversion H; subst. rewrite !cnt_cons. lia.
  - rewrite !cnt_cons. specialize (IH i x y H). lia.
Qed.

Lemma cnt_upd_le : forall (A : Type) (p : A -> bool) (l : list A) i x y,
  nth_error l i = Some x -> (p y = true -> p x = true) -> cnt p (upd_nth l i y) <= cnt p l.
Proof.
  intros A p l i x y H Hp. pose proof (cnt_upd A p l i x y H) as E.
  destruct (p y); [rewrite (Hp eq_refl) in E|]; unfold b2n in E; lia.
Qed.

Lemma cnt_app : forall (A : Type) (p : A -> bool) (l : list A) x,
  cnt p (l ++ [x]) = cnt p l + b2n (p x).
Proof.
  induction l as [|a l IH]; intros x; cbn [app]; rewrite ?cnt_cons.
  - cbn [cnt]. lia.
  - rewrite IH. lia.
Qed.

Lemma cnt_none : forall (A : Type) (p : A -> bool) (l : list A),
  (forall i x, nth_error l i = Some x -> p x = false) -> cnt p l = 0.
Proof.
  induction l as [|a l IH]; intros H; [reflexivity|].
  rewrite cnt_cons. rewrite (H 0 a eq_refl). cbn [b2n]. rewrite IH; [reflexivity|].
  intros i x Hx. apply (H (S i) x). exact Hx.
Qed.

Lemma cnt_pos : forall (A : Type) (p : A -> bool) (l : list A) i x,
  nth_error l i = Some x -> p x = true -> 1 <= cnt p l.
Proof.
  induction l as [|a l IH]; intros [|i] x Hx Hp; cbn [nth_error] in Hx; try discriminate; rewrite cnt_cons.
  - inversion Hx; subst. rewrite Hp. cbn [b2n]. lia.
  - specialize (IH i x Hx Hp). lia.
Qed.

Lemma cnt_zero_nth : forall (A : Type) (p : A -> bool) (l : list A) i x,
  cnt p l = 0 -> nth_error l i = Some x -> p x = false.
Proof.
  intros A p l i x H Hx. destruct (p x) eqn:E; [|reflexivity]. pose proof (cnt_pos A p l i x Hx E). lia.
Qed.

Lemma cnt_sole : forall (A : Type) (p : A -> bool) (l : list A) i x,
  cnt p l <= 1 -> nth_error l i = Some x -> p x = true ->
  forall j z, j <> i -> nth_error l j = Some z -> p z = false.
Proof.
  induction l as [|a l IH]; intros [|i] x H Hx Hp [|j] z Hne Hz; cbn [nth_error] in *; try discriminate;
    rewrite cnt_cons in H.
  - now destruct Hne.
  - inversion Hx; subst. rewrite Hp in H. cbn [b2n] in H. apply (cnt_zero_nth _ p l j z); [lia|exact Hz].
  - inversion Hz; subst. pose proof (cnt_pos _ p l i x Hx Hp). destruct (p z); [cbn [b2n] in H; lia|reflexivity].
  - apply (IH i x ltac:(lia) Hx Hp j z); [congruence|exact Hz].
Qed.

Lemma cnt_mono : forall (A : Type) (p q : A -> bool) (l : list A),
  (forall x, p x = true -> q x = true) -> cnt p l <= cnt q l.
Proof.
  induction l as [|a l IH]; intros H; [reflexivity|].
  rewrite !cnt_cons. specialize (IH H).
  destruct (p a) eqn:E; [rewrite (H a E)|]; cbn [b2n]; lia.
Qed.

Lemma forallb_nth : forall (A : Type) (p : A -> bool) (l : list A) i x,
  forallb p l = true -> nth_error l i = Some x -> p x = true.
Proof.
  intros A p l i x H Hx. rewrite forallb_forall in H. apply H. eapply nth_error_In; eassumption.
Qed.
