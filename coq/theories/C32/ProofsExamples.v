(** C32 — the size boundary after the repair of getTxReceipts / getEVMEvent
    (break on totalSize+size >= maxSize): concrete runs.  They show that the
    hypotheses of the theorems are satisfiable and what now happens on the
    inputs where the unrepaired loop lost a sequence number. *)
From Coq Require Import List ZArith Bool.
From C33 Require Import C32.Model.
Import ListNotations.
Open Scope Z_scope.

(** Receipt push, size limit 10.  Sequence 2 has size 4, sequence 3 has size 6:
    4 + 6 = 10 is not < 10, so the batch ends in front of 3 (the old loop
    counted 3 without sending it: payload [2; 4], updateSeq 4); 3 then opens
    the next batch. *)
Definition gap_cfg : cfg := mkCfg KRecv 100 10 1.
Definition gap_store : store := [(1, true); (1, true); (4, true); (6, true); (1, true)].

Example gap_first_batch :
  step gap_cfg gap_store (init_state 1) (ESeq 4) =
  (mkSt 1 0 true true 0 1 true (Some ([2], 2)) [], [OPost [2] 2]).
Proof. vm_compute. reflexivity. Qed.

Example gap_closed :
  let s := run_events gap_cfg gap_store (init_state 1) [ESeq 4; EPostOk; ESeq 4; EPostOk] in
  acked s = [2; 3; 4] /\ rcd s = 4.
Proof. vm_compute. split; reflexivity. Qed.

(** The same boundary at the end of the log: the stored last push sequence
    stays on the last acknowledged number (the old loop stored 3 after
    delivering only [2]). *)
Definition gap_store2 : store := [(1, true); (1, true); (4, true); (6, true)].

Example gap2_closed :
  let s1 := run_events gap_cfg gap_store2 (init_state 1) [ESeq 3; EPostOk] in
  let s2 := run_events gap_cfg gap_store2 (init_state 1) [ESeq 3; EPostOk; ESeq 3; EPostOk] in
  acked s1 = [2] /\ rcd s1 = 2 /\ acked s2 = [2; 3] /\ rcd s2 = 3.
Proof. vm_compute. repeat split; reflexivity. Qed.

(** An entry that fills the limit on its own is not skipped any more; like a
    larger one it is not passed (liveness remark [C32_oversize_block_stalls]). *)
Definition full_store : store := [(1, true); (1, true); (1, true); (10, true); (1, true)].

Example full_not_skipped :
  let s := run_events gap_cfg full_store (init_state 1) [ESeq 4; EPostOk; ESeq 4; ESeq 4] in
  acked s = [2] /\ rcd s = 2 /\ lp s = 2 /\ pend s = None.
Proof. vm_compute. repeat split; reflexivity. Qed.

(** A run with a failed post, three failures in a row, deactivation and
    re-registration acknowledges [2; 3; 5] (4 carries nothing). *)
Definition ok_store : store := [(1, true); (1, true); (4, true); (3, true); (0, false); (4, true)].

Example run_nontrivial :
  let s := run_events gap_cfg ok_store (init_state 1)
             [ESeq 3; EPostFail; ETick; ESeq 3; EPostOk; ESeq 5; EPostFail; ESeq 5; EPostFail; ESeq 5; EPostFail;
              ESeq 5; EResume; ESeq 5; EPostOk; EClose; ERestart; ESeq 5] in
  acked s = [2; 3; 5] /\ rcd s = 5 /\ run s = true /\ act s = true.
Proof. vm_compute. repeat split; reflexivity. Qed.

(** The hypotheses of [C32_oversize_block_stalls] and of [C32_deliverable_block_posted] are satisfiable. *)
Example stall_state :
  let s := init_state 1 in
  let st := [(1, true); (1, true); (10, true); (1, true)] in
  run s = true /\ pend s = None /\ sl s <= 0 /\ 0 < lp s /\
  lookup st (lp s + 1) = Some (10, true) /\ c_maxsize gap_cfg <= 10.
Proof. vm_compute. repeat split; try reflexivity; discriminate. Qed.

Example progress_state :
  let s := init_state 1 in
  let st := [(1, true); (1, true); (9, true); (1, true)] in
  c_kind gap_cfg = KRecv /\ 1 <= c_maxcnt gap_cfg /\
  run s = true /\ pend s = None /\ sl s <= 0 /\ 0 < lp s /\ lp s < 3 /\ 3 < Z.of_nat (length st) /\
  lookup st (lp s + 1) = Some (9, true) /\ 9 < c_maxsize gap_cfg.
Proof. vm_compute. repeat split; try reflexivity; discriminate. Qed.
