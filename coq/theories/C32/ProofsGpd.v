(** C32 — proofs about Model.v: ranges, getPushData, the arithmetic of the
    delivery frontier (shared with the transition system of ModelReg.v), and the
    task of one goroutine with its invariant. *)
From Coq Require Import List ZArith Bool Lia Sorted.
From C33 Require Import C32.Model C32.Spec.
Import ListNotations.
Open Scope Z_scope.

Lemma zrange_app : forall n m a,
  zrange a (n + m) = zrange a n ++ zrange (a + Z.of_nat n) m.
Proof.
  induction n as [|n IH]; intros m a.
  - cbn [zrange Nat.add app]. f_equal. lia.
  - cbn [zrange Nat.add app]. rewrite IH.
    replace (a + Z.of_nat (S n)) with (a + 1 + Z.of_nat n) by lia. reflexivity.
Qed.

Lemma zrange_In : forall n a x, In x (zrange a n) <-> a <= x < a + Z.of_nat n.
Proof.
  induction n as [|n IH]; intros a x; cbn [zrange In].
  - lia.
  - rewrite IH. lia.
Qed.

Lemma zrange_length : forall n a, length (zrange a n) = n.
Proof. induction n as [|n IH]; intros a; cbn [zrange length]; [reflexivity | now rewrite IH]. Qed.

Lemma zrange_sorted : forall n a, StronglySorted Z.lt (zrange a n).
Proof.
  induction n as [|n IH]; intros a; cbn [zrange]; constructor.
  - apply IH.
  - apply Forall_forall. intros x Hx. apply zrange_In in Hx. lia.
Qed.

Lemma filter_sorted : forall (f : Z -> bool) l,
  StronglySorted Z.lt l -> StronglySorted Z.lt (filter f l).
Proof.
  intros f l H. induction H as [|a l Hs IH Hf]; cbn [filter].
  - constructor.
  - destruct (f a); [|exact IH]. constructor; [exact IH|].
    apply Forall_forall. intros x Hx. apply filter_In in Hx as [Hx _].
    rewrite Forall_forall in Hf. now apply Hf.
Qed.

Lemma filter_all : forall (f : Z -> bool) l, (forall x, f x = true) -> filter f l = l.
Proof. intros f l H. induction l as [|a l IH]; cbn [filter]; [reflexivity | now rewrite H, IH]. Qed.

Lemma last_In : forall (l : list Z) d, l <> [] -> In (last l d) l.
Proof.
  induction l as [|a [|b l] IH]; intros d H; [congruence | now left | right].
  apply IH. discriminate.
Qed.

Lemma sorted_le_last : forall l x d, StronglySorted Z.lt l -> In x l -> x <= last l d.
Proof.
  intros l x d H. induction H as [|a [|b l] Hs IH Hf]; intros Hx; [destruct Hx | destruct Hx as [->|[]]; cbn; lia |].
  destruct Hx as [->|Hx]; [|exact (IH Hx)].
  rewrite Forall_forall in Hf. apply Z.lt_le_incl, (Hf (last (b :: l) d)), last_In. discriminate.
Qed.

Definition rf (f : Z -> bool) (a b : Z) : list Z :=
  filter f (zrange (a + 1) (Z.to_nat (b - a))).

Lemma rf_split : forall f a b c, a <= b -> b <= c -> rf f a c = rf f a b ++ rf f b c.
Proof.
  intros f a b c Hab Hbc. unfold rf.
  replace (Z.to_nat (c - a)) with (Z.to_nat (b - a) + Z.to_nat (c - b))%nat by lia.
  rewrite zrange_app, filter_app. do 3 f_equal. lia.
Qed.

Lemma rf_same : forall f a, rf f a a = [].
Proof. intros f a. unfold rf. now replace (Z.to_nat (a - a)) with O by lia. Qed.

Lemma rf_In : forall f a b x, In x (rf f a b) <-> (a < x <= b /\ f x = true).
Proof.
  intros f a b x. unfold rf. rewrite filter_In, zrange_In. split; intros [H1 H2]; split; try assumption; lia.
Qed.

Lemma rf_nil_none : forall f a b, rf f a b = [] -> forall s, a < s <= b -> f s = false.
Proof.
  intros f a b H s Hs. destruct (f s) eqn:E; [|reflexivity].
  assert (In s (rf f a b)) by (apply rf_In; auto). rewrite H in H0. destruct H0.
Qed.

Lemma rf_true : forall f a b, (forall x, f x = true) -> rf f a b = zrange (a + 1) (Z.to_nat (b - a)).
Proof. intros f a b H. apply filter_all, H. Qed.

(** The list is increasing, so its last element is its largest. *)
Lemma rf_last : forall f a b, rf f a b <> [] ->
  a < last (rf f a b) 0 <= b /\ forall s, last (rf f a b) 0 < s <= b -> f s = false.
Proof.
  intros f a b Hne. split; [apply (rf_In f), last_In, Hne|].
  intros s Hs. destruct (f s) eqn:E; [|reflexivity].
  assert (s <= last (rf f a b) 0); [|lia].
  apply sorted_le_last; [apply filter_sorted, zrange_sorted | apply rf_In; split; [|exact E]].
  pose proof (proj1 (rf_In f a b _) (last_In _ 0 Hne)). lia.
Qed.

Lemma blk_loop_spec : forall max n l seq total r,
  blk_loop max n l seq total = Some r -> r = zrange seq (length r).
Proof.
  induction n as [|n IH]; intros l seq total r H; cbn [blk_loop] in H.
  - inversion H. reflexivity.
  - destruct l as [|[size has] tl]; [discriminate|].
    destruct ((total =? 0) || (total + size <? max)).
    + destruct (blk_loop max n tl (seq + 1) (total + size)) as [r'|] eqn:E; [|discriminate].
      cbn [option_map] in H. inversion H; subst. cbn [length zrange]. f_equal. eapply IH; eauto.
    + inversion H. reflexivity.
Qed.

Lemma res_loop_spec : forall n l seq r,
  res_loop n l seq = Some r -> r = zrange seq (length r).
Proof.
  induction n as [|n IH]; intros l seq r H; cbn [res_loop] in H.
  - inversion H. reflexivity.
  - destruct l as [|e tl]; [discriminate|].
    destruct (res_loop n tl (seq + 1)) as [r'|] eqn:E; [|discriminate].
    cbn [option_map] in H. inversion H; subst. cbn [length zrange]. f_equal. eapply IH; eauto.
Qed.

Definition hasl (l : store) (base s : Z) : bool :=
  match nth_error l (Z.to_nat (s - base)) with Some (_, h) => h | None => false end.

Lemma hasl_hd : forall sz h tl base, hasl ((sz, h) :: tl) base base = h.
Proof. intros. unfold hasl. now replace (Z.to_nat (base - base)) with O by lia. Qed.

Lemma filter_hasl_tl : forall e tl base n,
  filter (hasl (e :: tl) base) (zrange (base + 1) n) = filter (hasl tl (base + 1)) (zrange (base + 1) n).
Proof.
  intros. apply filter_ext_in. intros x Hx. apply zrange_In in Hx. unfold hasl.
  replace (Z.to_nat (x - base)) with (S (Z.to_nat (x - (base + 1)))) by lia. reflexivity.
Qed.

(** The receipt loop never counts a deliverable entry without appending it:
    the payload is exactly the deliverable part of the [it] entries it counted. *)
Lemma rcv_loop_spec : forall max n l seq total a it,
  rcv_loop max n l seq total = Some (a, it) ->
  exists m : nat, it = Z.of_nat m /\ a = filter (hasl l seq) (zrange seq m).
Proof.
  induction n as [|n IH]; intros l seq total a it H; cbn [rcv_loop] in H.
  - injection H as <- <-. exists O. split; reflexivity.
  - destruct l as [|[size has] tl]; [discriminate|].
    assert (step : forall tot' a' it', rcv_loop max n tl (seq + 1) tot' = Some (a', it') ->
              exists m : nat, it' + 1 = Z.of_nat m /\
                (if has then seq :: a' else a') = filter (hasl ((size, has) :: tl) seq) (zrange seq m)).
    { intros tot' a' it' E. destruct (IH _ _ _ _ _ E) as (m & -> & ->). exists (S m). split; [lia|].
      cbn [zrange filter]. rewrite hasl_hd, filter_hasl_tl. reflexivity. }
    destruct (has && (total + size <? max)) eqn:E1.
    + destruct (rcv_loop max n tl (seq + 1) (total + size)) as [[a' it']|] eqn:E; [|discriminate].
      injection H as <- <-. apply andb_true_iff in E1 as [-> _]. exact (step _ _ _ E).
    + destruct (total + size >=? max) eqn:E2.
      * injection H as <- <-. exists O. split; reflexivity.
      * assert (has = false) as -> by (destruct has; [cbn [andb] in E1; lia | reflexivity]).
        destruct (rcv_loop max n tl (seq + 1) total) as [[a' it']|] eqn:E; [|discriminate].
        injection H as <- <-. exact (step _ _ _ E).
Qed.

Lemma rcv_loop_progress : forall max n size tl seq a it,
  size < max ->
  rcv_loop max (S n) ((size, true) :: tl) seq 0 = Some (a, it) ->
  1 <= it /\ exists a', a = seq :: a'.
Proof.
  intros max n size tl seq a it Hsz H. cbn [rcv_loop] in H.
  replace (0 + size <? max) with true in H by lia. cbn [andb] in H.
  destruct (rcv_loop max n tl (seq + 1) (0 + size)) as [[a' it']|] eqn:E; [|discriminate].
  inversion H; subst. destruct (rcv_loop_spec _ _ _ _ _ _ _ E) as (m & -> & _).
  split; [lia|now exists a'].
Qed.

Lemma rcv_loop_some : forall max n l seq total,
  (n <= length l)%nat -> rcv_loop max n l seq total <> None.
Proof.
  induction n as [|n IH]; intros l seq total Hn; cbn [rcv_loop]; [discriminate|].
  destruct l as [|[size has] tl]; cbn [length] in Hn; [lia|].
  assert (IH' : forall tot, rcv_loop max n tl (seq + 1) tot <> None) by (intros tot; apply IH; lia).
  destruct (has && (total + size <? max)); [specialize (IH' (total + size))|
    destruct (total + size >=? max); [discriminate|specialize (IH' total)]];
    destruct (rcv_loop max n tl (seq + 1) _) as [[a it]|]; congruence.
Qed.

Lemma nth_error_skipn' : forall (A : Type) (n : nat) (l : list A) (m : nat),
  nth_error (skipn n l) m = nth_error l (n + m).
Proof.
  induction n as [|n IH]; intros l m; [reflexivity|].
  destruct l as [|x l]; [now destruct m|]. cbn [skipn Nat.add nth_error]. apply IH.
Qed.

Lemma skipn_nth : forall (A : Type) (n : nat) (l : list A) e,
  nth_error l n = Some e -> exists tl, skipn n l = e :: tl.
Proof.
  intros A n l e H. pose proof (nth_error_skipn' A n l 0) as H0. rewrite Nat.add_0_r, H in H0.
  destruct (skipn n l) as [|x tl]; [discriminate|]. injection H0 as ->. now exists tl.
Qed.

Lemma hasl_matching : forall st start s, 0 <= start -> start <= s ->
  hasl (skipn (Z.to_nat start) st) start s = matching KRecv st s.
Proof.
  intros st start s H0 Hs. unfold hasl, matching, lookup.
  destruct (s <? 0) eqn:E; [lia|].
  rewrite nth_error_skipn'. replace (Z.to_nat start + Z.to_nat (s - start))%nat with (Z.to_nat s) by lia.
  reflexivity.
Qed.

Lemma matching_all : forall k st x, k <> KRecv -> matching k st x = true.
Proof. intros [] st x H; [reflexivity | congruence | reflexivity]. Qed.

Lemma gpd_spec : forall k st start cnt max seqs upd,
  gpd k st start cnt max = GData seqs upd ->
  start - 1 <= upd /\ seqs = rf (matching k st) (start - 1) upd.
Proof.
  intros k st start cnt max seqs upd H.
  assert (plain : k <> KRecv -> seqs = zrange start (length seqs) -> upd = start + Z.of_nat (length seqs) - 1 ->
                  start - 1 <= upd /\ seqs = rf (matching k st) (start - 1) upd).
  { intros Hk E ->. split; [lia|]. rewrite rf_true by (intro; apply matching_all, Hk).
    rewrite E at 1. f_equal; lia. }
  unfold gpd in H. destruct k.
  - destruct (Z.to_nat cnt); [discriminate|]. destruct (suffix st start) as [l|]; [|discriminate].
    destruct (blk_loop max (S n) l start 0) as [[|x r]|] eqn:E; try discriminate.
    injection H as <- <-. apply plain; [discriminate | exact (blk_loop_spec _ _ _ _ _ _ E) | reflexivity].
  - destruct (Z.to_nat cnt).
    { injection H as <- <-. split; [lia|]. symmetry. apply rf_same. }
    unfold suffix in H. destruct (start <? 0) eqn:E0; [discriminate|].
    destruct (rcv_loop max (S n) (skipn (Z.to_nat start) st) start 0) as [[a it]|] eqn:E; [|discriminate].
    injection H as <- <-. destruct (rcv_loop_spec _ _ _ _ _ _ _ E) as (m & -> & ->).
    split; [lia|]. unfold rf.
    replace (start - 1 + 1) with start by lia.
    replace (Z.to_nat (start + Z.of_nat m - 1 - (start - 1))) with m by lia.
    apply filter_ext_in. intros x Hx. apply zrange_In in Hx. apply hasl_matching; lia.
  - destruct (Z.to_nat cnt); [discriminate|]. destruct (suffix st start) as [l|]; [|discriminate].
    destruct (res_loop (S n) l start) as [r|] eqn:E; [|discriminate].
    injection H as <- <-. apply plain; [discriminate | exact (res_loop_spec _ _ _ _ E) | reflexivity].
Qed.

(** The task never calls getPushData with a count below 1, so the index panic
    of getBlockSeqs / getTxResults on an empty batch cannot happen there. *)
Lemma gpd_no_panic : forall k st start cnt max, 1 <= cnt -> gpd k st start cnt max <> GPanic.
Proof.
  intros k st start cnt max Hc. unfold gpd.
  destruct (Z.to_nat cnt) as [|n] eqn:En; [lia|].
  destruct k.
  - destruct (suffix st start) as [l|]; [|discriminate].
    cbn [blk_loop]. destruct l as [|[size has] tl]; [discriminate|].
    replace (0 =? 0) with true by reflexivity. cbn [orb].
    destruct (blk_loop max n tl (start + 1) (0 + size)); cbn [option_map]; discriminate.
  - destruct (suffix st start) as [l|]; [|discriminate].
    destruct (rcv_loop max (S n) l start 0) as [[a it]|]; discriminate.
  - destruct (suffix st start) as [l|]; [|discriminate].
    destruct (res_loop (S n) l start); discriminate.
Qed.

(** Receipt pushes, first entry of the requested range.  An entry whose message
    is not smaller than the size limit ends the batch in front of itself
    (push_test.go Test_PostEVMEvent_bigsize expects this) ... *)
Lemma gpd_recv_oversize : forall st start cnt max size has,
  lookup st start = Some (size, has) -> max <= size -> 1 <= cnt ->
  gpd KRecv st start cnt max = GData [] (start - 1).
Proof.
  intros st start cnt max size has Hl Hsz Hc. unfold gpd, suffix. unfold lookup in Hl.
  destruct (Z.to_nat cnt) as [|n] eqn:En; [lia|]. destruct (start <? 0); [discriminate|].
  destruct (skipn_nth _ _ _ _ Hl) as [tl ->]. cbn [rcv_loop].
  replace (0 + size <? max) with false by lia. rewrite andb_false_r.
  replace (0 + size >=? max) with true by lia. f_equal. lia.
Qed.

(** ... and a deliverable smaller one opens the payload, when the log covers the range. *)
Lemma gpd_recv_first : forall st start cnt max size,
  lookup st start = Some (size, true) -> size < max -> 1 <= cnt -> start + cnt <= Z.of_nat (length st) ->
  exists seqs upd, gpd KRecv st start cnt max = GData (start :: seqs) upd /\ start <= upd.
Proof.
  intros st start cnt max size Hl Hsz Hc Hlen. unfold gpd, suffix. unfold lookup in Hl.
  destruct (Z.to_nat cnt) as [|n] eqn:En; [lia|]. destruct (start <? 0) eqn:E0; [discriminate|].
  destruct (rcv_loop max (S n) (skipn (Z.to_nat start) st) start 0) as [[a it]|] eqn:E.
  - destruct (skipn_nth _ _ _ _ Hl) as [tl Etl]. rewrite Etl in E.
    destruct (rcv_loop_progress _ _ _ _ _ _ _ Hsz E) as (Hit & a' & ->).
    exists a', (start + it - 1). split; [reflexivity|lia].
  - apply rcv_loop_some in E; [destruct E|]. rewrite skipn_length. lia.
Qed.

(** The delivery frontier: [M] says which sequence numbers carry something,
    [r0] is the registration value of the stored sequence. *)
Section Frontier.
  Variable M : Z -> bool.
  Variable r0 : Z.

  (** [r] is the resume point: [r0] when that is positive, else the position
      of the task at its first batch ("start from the newest"). *)
  Definition delivered (rcd : Z) (acked : list Z) : Prop :=
    (acked = [] -> rcd = r0) /\
    (acked <> [] -> 0 < rcd /\ exists r, (0 < r0 -> r = r0) /\ r <= rcd /\ acked = rf M r rcd).

  Definition scanned (rcd lp : Z) : Prop := 0 < rcd -> rcd <= lp /\ rf M rcd lp = [].

  Definition batch (lp : Z) (seqs : list Z) (upd : Z) : Prop :=
    0 < lp /\ lp <= upd /\ seqs <> [] /\ seqs = rf M lp upd.

  Lemma scanned_refl : forall rcd, scanned rcd rcd.
  Proof. intros rcd _. split; [lia|apply rf_same]. Qed.

  (** The position moves: "start from the newest" (nothing is stored then), or
      over numbers that carry nothing. *)
  Lemma scanned_skip : forall rcd lp lp',
    scanned rcd lp -> lp <= 0 \/ lp <= lp' /\ rf M lp lp' = [] -> scanned rcd lp'.
  Proof.
    intros rcd lp lp' H Hs Hpos. destruct (H Hpos) as [Hle Hnil]. destruct Hs as [Hn|[Hl Hn]]; [lia|].
    split; [lia|]. rewrite (rf_split M rcd lp lp'), Hnil, Hn by lia. reflexivity.
  Qed.

  Lemma delivered_ack : forall rcd acked lp seqs upd,
    delivered rcd acked -> scanned rcd lp -> batch lp seqs upd ->
    rcd <= upd /\ delivered upd (acked ++ seqs).
  Proof.
    intros rcd acked lp seqs upd [Hnil Hack] Hsc (Hlp & Hle & Hne & ->).
    assert (Hpos : 0 < rcd -> rcd <= lp /\ rf M rcd upd = rf M lp upd).
    { intros Hp. destruct (Hsc Hp) as [Hl Hn]. split; [exact Hl|].
      rewrite (rf_split M rcd lp upd), Hn by lia. reflexivity. }
    split; [destruct (Z_lt_le_dec 0 rcd) as [Hp|]; [destruct (Hpos Hp)|]; lia|].
    split; [intros E; apply app_eq_nil in E as [_ E]; congruence|]. intros _. split; [lia|].
    destruct acked as [|a al].
    - specialize (Hnil eq_refl). subst rcd. destruct (Z_lt_le_dec 0 r0) as [Hp|Hn].
      + exists r0. destruct (Hpos Hp) as [Hl E]. split; [reflexivity|]. split; [lia|]. symmetry. exact E.
      + exists lp. split; [lia|]. split; [lia|reflexivity].
    - destruct (Hack ltac:(discriminate)) as (Hp & r & Hr0 & Hrle & E1). destruct (Hpos Hp) as [Hl E].
      exists r. split; [exact Hr0|]. split; [lia|]. rewrite E1, (rf_split M r rcd upd), E by lia. reflexivity.
  Qed.
End Frontier.

Lemma gpd_round : forall k st lp cnt max seqs upd,
  0 < lp -> gpd k st (lp + 1) cnt max = GData seqs upd ->
  match seqs with
  | [] => lp <= upd /\ rf (matching k st) lp upd = []
  | _ => batch (matching k st) lp seqs upd
  end.
Proof.
  intros k st lp cnt max seqs upd Hpos H. apply gpd_spec in H as [Hupd Hseqs].
  replace (lp + 1 - 1) with lp in * by lia.
  destruct seqs; [split; [lia|now symmetry] | repeat split; [exact Hpos | lia | discriminate | exact Hseqs]].
Qed.

Lemma delivered_contiguous : forall k st r0 rcd acked,
  delivered (matching k st) r0 rcd acked ->
  exists r, (0 < r0 -> r = r0) /\ contiguous_from k st r acked /\ StronglySorted Z.lt acked.
Proof.
  intros k st r0 rcd acked [Hnil Hack]. destruct acked as [|a al].
  - exists r0. split; [reflexivity|]. split; [exists O; reflexivity|constructor].
  - destruct (Hack ltac:(discriminate)) as (_ & r & Hr0 & _ & E). exists r. split; [exact Hr0|]. rewrite E.
    split; [exists (Z.to_nat (rcd - r)); reflexivity | apply filter_sorted, zrange_sorted].
Qed.

Lemma delivered_justified : forall k st r0 rcd acked,
  delivered (matching k st) r0 rcd acked -> recorded_justified k st r0 rcd acked.
Proof.
  intros k st r0 rcd acked [Hnil Hack]. destruct acked as [|a al]; [left; now apply Hnil|right].
  destruct (Hack ltac:(discriminate)) as (_ & r & _ & Hle & E). split; [discriminate|]. rewrite E.
  destruct (rf_last (matching k st) r rcd) as [Hl Hnone]; [rewrite <- E; discriminate|]. split; [lia|exact Hnone].
Qed.

Lemma delivered_consecutive : forall (M : Z -> bool) r0 rcd acked,
  (forall x, M x = true) -> delivered M r0 rcd acked ->
  exists r n, (0 < r0 -> r = r0) /\ acked = zrange (r + 1) n /\
              (rcd = r0 \/ (acked <> [] /\ rcd = last acked 0)).
Proof.
  intros M r0 rcd acked HM [Hnil Hack]. destruct acked as [|a al].
  - exists r0, O. split; [reflexivity|]. split; [reflexivity|]. left. now apply Hnil.
  - destruct (Hack ltac:(discriminate)) as (_ & r & Hr0 & Hle & E). rewrite rf_true in E by exact HM.
    exists r, (Z.to_nat (rcd - r)). split; [exact Hr0|]. split; [exact E|]. right. split; [discriminate|].
    rewrite E. destruct (Z.to_nat (rcd - r)) as [|n] eqn:En; [discriminate|].
    replace (S n) with (n + 1)%nat by lia. rewrite zrange_app. cbn [zrange]. rewrite last_last. lia.
Qed.

Section Task.
  Variable c : cfg.
  Variable st : store.
  Variable r0 : Z.

  Let M := matching (c_kind c) st.

  (** Every step of the task is one of three moves ([step_moves]); the invariant
      is checked against these ([inv_moves]), not against [step]. *)
  Inductive moves (s s' : state) : Prop :=
  | mv_quiet : rcd s' = rcd s -> acked s' = acked s ->
      (scanned M (rcd s) (lp s) -> scanned M (rcd s) (lp s')) ->
      pend s' = None \/ pend s' = pend s /\ lp s' = lp s -> moves s s'
  | mv_post seqs upd : rcd s' = rcd s -> acked s' = acked s -> lp s' = lp s ->
      pend s' = Some (seqs, upd) -> batch M (lp s) seqs upd -> moves s s'
  | mv_ack seqs upd : pend s = Some (seqs, upd) -> rcd s' = upd -> lp s' = upd ->
      acked s' = acked s ++ seqs -> pend s' = None -> moves s s'.

  Lemma moves_same : forall s s',
    rcd s' = rcd s -> acked s' = acked s -> lp s' = lp s -> pend s' = None \/ pend s' = pend s -> moves s s'.
  Proof.
    intros s s' Hr Ha Hl Hp. apply mv_quiet; try assumption; [now rewrite Hl|]. destruct Hp; auto.
  Qed.

  Lemma moves_start : forall s s',
    rcd s' = rcd s -> acked s' = acked s -> lp s' = rcd s -> pend s' = None -> moves s s'.
  Proof. intros s s' Hr Ha Hl Hp. apply mv_quiet; auto. intros _. rewrite Hl. apply scanned_refl. Qed.

  Lemma moves_refl : forall s, moves s s.
  Proof. intros s. apply moves_same; auto. Qed.

  Lemma moves_sl : forall s v s', moves (set_sl s v) s' -> moves s s'.
  Proof. intros s v s' []; [eapply mv_quiet | eapply mv_post | eapply mv_ack]; eassumption. Qed.

  Lemma process_moves : forall s latest, pend s = None -> moves s (fst (process c st s latest)).
  Proof.
    intros s latest Hp. unfold process.
    destruct (lp s >=? latest); [apply moves_refl|].
    destruct (lp s <=? 0) eqn:E2.
    { apply mv_quiet; auto. intros H. apply (scanned_skip M _ _ _ H). left. lia. }
    destruct (gpd (c_kind c) st (lp s + 1) (Z.min (c_maxcnt c) (latest - lp s)) (c_maxsize c))
      as [| |seqs upd] eqn:Eg; try apply moves_refl.
    apply gpd_round in Eg; [|lia]. destruct seqs as [|x seqs]; cbn [fst].
    - apply mv_quiet; auto. intros H. apply (scanned_skip M _ _ _ H). right. exact Eg.
    - eapply mv_post; try reflexivity. exact Eg.
  Qed.

  Lemma step_moves : forall s e, moves s (fst (step c st s e)).
  Proof.
    intros s e. destruct e as [latest| | | | | |]; cbn [step].
    - destruct (run s); cbn [negb]; [|apply moves_refl].
      destruct (pend s) eqn:Hp; [apply moves_refl|].
      destruct (sl s >? 0); [destruct (sl (set_sl s (sl s - 1)) >? 0)|].
      + apply moves_same; auto.
      + apply (moves_sl s (sl s - 1)), process_moves, Hp.
      + apply process_moves, Hp.
    - destruct (run s); cbn [negb]; [|apply moves_refl].
      destruct (pend s); [apply moves_refl|].
      destruct (sl s >? 0); [apply moves_same; auto|apply moves_refl].
    - destruct (pend s) as [[seqs upd]|] eqn:Hp; [|apply moves_refl].
      now apply (mv_ack _ _ seqs upd).
    - destruct (pend s); [|apply moves_refl].
      destruct (fc s + 1 >=? 3); apply moves_same; auto.
    - destruct (intask s).
      + destruct (act (set_sl s 0)); apply moves_same; auto.
      + destruct (act (new_task s)); now apply moves_start.
    - destruct (pend s); [apply moves_refl|]. apply moves_same; auto.
    - destruct (run s); [apply moves_refl|].
      destruct (pend s); [apply moves_refl|].
      destruct (act s); [now apply moves_start|apply moves_same; auto].
  Qed.

  (** [scanned] is kept by a stopped task too: nothing is stored while it is stopped. *)
  Definition inv (s : state) : Prop :=
    delivered M r0 (rcd s) (acked s) /\ scanned M (rcd s) (lp s) /\
    forall seqs upd, pend s = Some (seqs, upd) -> batch M (lp s) seqs upd.

  Lemma inv_init : inv (init_state r0).
  Proof.
    split; [split; [reflexivity | now intros H; elim H]|]. split; [apply scanned_refl|discriminate].
  Qed.

  Lemma inv_moves : forall s s', inv s -> moves s s' -> inv s' /\ rcd s <= rcd s'.
  Proof.
    unfold inv. intros s s' (Hd & Hs & Hp) [Er Ea Hsc Hq | seqs upd Er Ea El Eq Hb | seqs upd Eq Er El Ea Eq'];
      rewrite Er, Ea.
    - split; [|lia]. split; [exact Hd|]. split; [exact (Hsc Hs)|].
      intros q u E. destruct Hq as [Hq|[Hq ->]]; [congruence|]. apply Hp. congruence.
    - rewrite El. split; [|lia]. split; [exact Hd|]. split; [exact Hs|].
      intros q u E. rewrite Eq in E. injection E as <- <-. exact Hb.
    - rewrite El, Eq'. destruct (delivered_ack M r0 _ _ _ _ _ Hd Hs (Hp _ _ Eq)) as [Hle Hd'].
      split; [|exact Hle]. split; [exact Hd'|]. split; [apply scanned_refl|discriminate].
  Qed.

  Lemma inv_run : forall es s, inv s -> inv (run_events c st s es) /\ rcd s <= rcd (run_events c st s es).
  Proof.
    induction es as [|e es IH]; intros s I; cbn [run_events]; [split; [exact I|lia]|].
    destruct (inv_moves s _ I (step_moves s e)) as [I' Hle]. destruct (IH _ I') as [I'' Hle']. split; [exact I''|lia].
  Qed.

  Lemma inv_reachable : forall es, inv (run_events c st (init_state r0) es).
  Proof. intros es. exact (proj1 (inv_run es _ inv_init)). Qed.

  Lemma task_delivered : forall es,
    let s := run_events c st (init_state r0) es in delivered M r0 (rcd s) (acked s).
  Proof. intros es. apply inv_reachable. Qed.

  Lemma run_events_app : forall es1 es2 s,
    run_events c st s (es1 ++ es2) = run_events c st (run_events c st s es1) es2.
  Proof. induction es1 as [|e es1 IH]; intros es2 s; cbn [app run_events]; [reflexivity|apply IH]. Qed.

  Lemma rcd_mono : forall es1 es2,
    rcd (run_events c st (init_state r0) es1) <= rcd (run_events c st (init_state r0) (es1 ++ es2)).
  Proof.
    intros es1 es2. rewrite run_events_app. exact (proj2 (inv_run es2 _ (inv_reachable es1))).
  Qed.
End Task.

Lemma process_idle : forall c st s latest, latest <= lp s -> process c st s latest = (s, []).
Proof. intros c st s latest H. unfold process. destruct (lp s >=? latest) eqn:E; [reflexivity|lia]. Qed.

Lemma process_round : forall c st s latest, 0 < lp s < latest ->
  process c st s latest =
  match gpd (c_kind c) st (lp s + 1) (Z.min (c_maxcnt c) (latest - lp s)) (c_maxsize c) with
  | GData [] upd => (mkSt upd 0 (run s) (intask s) (sl s) (rcd s) (act s) None (acked s), [])
  | GData seqs upd =>
      (mkSt (lp s) (fc s) (run s) (intask s) (sl s) (rcd s) (act s) (Some (seqs, upd)) (acked s), [OPost seqs upd])
  | _ => (s, [])
  end.
Proof.
  intros c st s latest H. unfold process.
  destruct (lp s >=? latest) eqn:E; [lia|]. destruct (lp s <=? 0) eqn:E'; [lia|reflexivity].
Qed.

Lemma step_awake : forall c st s latest,
  run s = true -> pend s = None -> sl s <= 0 -> step c st s (ESeq latest) = process c st s latest.
Proof.
  intros c st s latest Hr Hp Hs. cbn [step]. rewrite Hr, Hp. cbn [negb].
  destruct (sl s >? 0) eqn:E; [lia|reflexivity].
Qed.
