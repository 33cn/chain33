(** C03 — an injective "ideal hash" with 32-element digests exists in the model
    (byte strings are [list N] and [N] is infinite): the hypotheses of the
    injective-hash theorems are satisfiable.

    [H_ideal a b h s] = the Goedel number of (a, b, h, s) (stdpp's [encode])
    followed by 31 zeros. *)
From stdpp Require Import countable list numbers.
From Coq Require Import List ZArith NArith.
From C33 Require Import C01.Keys.
Import ListNotations.

Definition H_ideal (a b : bytes) (h s : Z) : bytes :=
  Npos (encode (a, b, h, s)) :: repeat 0%N 31.

Lemma H_ideal_len : forall a b h s, length (H_ideal a b h s) = 32%nat.
Proof. reflexivity. Qed.

Lemma H_ideal_inj : forall a b h s a' b' h' s',
  H_ideal a b h s = H_ideal a' b' h' s' -> a = a' /\ b = b' /\ h = h' /\ s = s'.
Proof.
  intros a b h s a' b' h' s' E. unfold H_ideal in E.
  inversion E as [E1]. apply encode_inj in E1. inversion E1. auto.
Qed.
