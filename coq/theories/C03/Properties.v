(** C03 — State proofs are complete, sound and crash-free: the theorems.
    [H] is the hash of the 4-field node message (SHA-256 over its protobuf
    encoding); [hashfn] / [len32] / [collision] / [injective4] / [heights_ok]
    are in Proofs.v / ProofsTop.v, the model in Model.v.  The model is the verifier
    as repaired by chain33 commit c3a108e (Proof.Verify rejects supplied nodes with
    Height < 1; finding C03-leaf-inner-confusion). *)
From Coq Require Import List ZArith NArith Bool.
From C33 Require Import C01.Keys C01.Model C01.Spec C01.Store C01.Inv
                        C03.Model C03.Spec C03.Proofs C03.Ideal C03.ProofsTop C03.ProofsE2E.
Import ListNotations.
Local Open Scope Z_scope.

(** Completeness: what ConstructProof returns verifies, through both entry
    points, against the root of the tree, with the stored value. *)
Theorem C03_complete : forall (H : hashfn), len32 H ->
  forall pf t k v p, sized t ->
    t_construct H pf (Some t) k = Some (v, p) ->
    In (k, v) (elements t) /\
    pf_root p = root_hash H pf t /\
    verify H p k v (root_hash H pf t) = true /\
    verify_kv H (root_hash H pf t) k v (pf_inner p) = true.
Proof. exact complete_tree. Qed.
Print Assumptions C03_complete.

(** ... and every key of an ordered tree gets one; an absent key gets none. *)
Theorem C03_complete_present : forall (H : hashfn), len32 H ->
  forall pf t k v, ordered t -> sized t -> In (k, v) (elements t) ->
    exists p, t_construct H pf (Some t) k = Some (v, p) /\
              verify_kv H (root_hash H pf t) k v (pf_inner p) = true.
Proof. exact complete_present. Qed.
Print Assumptions C03_complete_present.

Theorem C03_absent_no_proof : forall (H : hashfn) pf t k,
  ~ In k (keys t) -> get_kv_pair_proof H pf (Some t) k = None.
Proof. exact absent_no_proof. Qed.
Print Assumptions C03_absent_no_proof.

(** Soundness, for every sized tree and every supplied list of nodes (for
    SHA-256 itself: either the pair is in the tree or the proof exhibits a
    collision). *)
Theorem C03_sound : forall (H : hashfn), len32 H ->
  forall t pf k v pi, sized t ->
    verify_kv H (digest H pf t) k v pi = true ->
    In (k, v) (elements t) \/ collision H.
Proof. exact sound. Qed.
Print Assumptions C03_sound.

Theorem C03_sound_struct : forall (H : hashfn), len32 H ->
  forall t pf p k v, sized t ->
    verify H p k v (digest H pf t) = true ->
    In (k, v) (elements t) \/ collision H.
Proof. exact sound_struct. Qed.
Print Assumptions C03_sound_struct.

Theorem C03_sound_injective : forall (H : hashfn), len32 H -> injective4 H ->
  forall pf t k v pi, sized t ->
    verify_kv H (root_hash H pf t) k v pi = true -> In (k, v) (elements t).
Proof. exact sound_inj. Qed.
Print Assumptions C03_sound_injective.

(** The test added by the repair costs nothing: every node of an honest proof
    passes it (inner nodes of a sized tree have height >= 1) ... *)
Theorem C03_honest_heights_ok : forall (H : hashfn) t, sized t -> forall pf k v lh pi,
  construct H pf t k = Some (v, lh, pi) -> heights_ok pi = true.
Proof. intros H t Hs pf k v lh pi C. exact (construct_heights_ok H t pf k v lh pi C Hs). Qed.
Print Assumptions C03_honest_heights_ok.

(** ... and a supplied node with height < 1, in any position, for any root,
    is rejected; in particular both forgeries of the fixed finding (a node
    {height 0, size 1} that makes a stored leaf hash like an inner node). *)
Theorem C03_bad_height_rejected : forall (H : hashfn), len32 H ->
  forall root k v pi,
    existsb (fun n => pn_height n <? 1) pi = true -> verify_kv H root k v pi = false.
Proof. exact bad_height_rejected. Qed.
Print Assumptions C03_bad_height_rejected.

Theorem C03_leaf_inner_confusion_rejected : forall (H : hashfn), len32 H ->
  forall pf k v front back,
    (forall k0, verify_kv H (digest H pf (Leaf k0 (leaf_hash H k v))) k v
                  (front ++ mk_pnode 0 1 k0 [] :: back) = false) /\
    (forall v0, verify_kv H (digest H pf (Leaf (leaf_hash H k v) v0)) k v
                  (front ++ mk_pnode 0 1 [] v0 :: back) = false).
Proof. exact confusion_rejected. Qed.
Print Assumptions C03_leaf_inner_confusion_rejected.

(** Another value fails: an accepted value is the one the tree holds. *)
Theorem C03_sound_value : forall (H : hashfn), len32 H ->
  forall t pf k v v' pi,
    ordered t -> sized t ->
    snd (get t k) = Some v ->
    verify_kv H (digest H pf t) k v' pi = true ->
    v' = v \/ collision H.
Proof. exact sound_value. Qed.
Print Assumptions C03_sound_value.

(** Another key fails: the proof produced for k accepts no other pair. *)
Theorem C03_proof_binds : forall (H : hashfn), len32 H ->
  forall pf t k v lh pi k' v',
    construct H pf t k = Some (v, lh, pi) ->
    verify_kv H (digest H pf t) k' v' pi = true ->
    (k' = k /\ v' = v) \/ collision H.
Proof. exact proof_binds. Qed.
Print Assumptions C03_proof_binds.

(** Another root fails. *)
Theorem C03_root_unique : forall (H : hashfn), len32 H ->
  forall r r' k v pi,
    verify_kv H r k v pi = true -> verify_kv H r' k v pi = true -> r = r'.
Proof. exact root_unique. Qed.
Print Assumptions C03_root_unique.

(** Verify is total on every list of records and decides exactly
    "every height >= 1 and root = recomputed chain" (nothing else of the list matters). *)
Theorem C03_verify_total : forall (H : hashfn), len32 H ->
  forall root k v pi,
    verify_kv H root k v pi = heights_ok pi && beq root (chain H (leaf_hash H k v) pi).
Proof. exact verify_kv_char. Qed.
Print Assumptions C03_verify_total.

Theorem C03_verify_struct_total : forall (H : hashfn) p k v root,
  verify H p k v root =
  beq (pf_root p) root && beq (leaf_hash H k v) (trim32 (pf_leaf p)) &&
  heights_ok (pf_inner p) &&
  beq (pf_root p) (chain H (leaf_hash H k v) (pf_inner p)).
Proof. exact verify_char. Qed.
Print Assumptions C03_verify_struct_total.

(** The byte root is the interpretation of C01's symbolic root; stored-hash
    prefixes (EnableMavlPrefix) never influence it. *)
Theorem C03_root_of_symbolic : forall (H : hashfn), len32 H ->
  forall t pf, digest H pf t = interp H (thash t).
Proof. exact digest_of_symbolic. Qed.
Print Assumptions C03_root_of_symbolic.

(** End to end with C01's store theorem: for every history of committed write
    batches [bs] and every committed version i seen from a later database j,
    every pair of the abstract state [state (firstn i bs)] has a proof that
    verifies against the version's root, absent keys get no proof, and
    whatever verifies against that root is a pair of the abstract state. *)
Theorem C03_state_proofs : forall (H : hashfn), len32 H ->
  forall bs i j, (i <= j)%nat ->
    exists di ri dj rj oi,
      history (firstn i bs) = Some (di, ri) /\
      history (firstn j bs) = Some (dj, rj) /\
      load_tree dj ri = Some oi /\
      (forall pf k v, sget (state (firstn i bs)) k = Some v ->
         exists pi, get_kv_pair_proof H pf oi k = Some pi /\
                    verify_kv H (byte_root H ri) k v pi = true) /\
      (forall pf k, sget (state (firstn i bs)) k = None -> get_kv_pair_proof H pf oi k = None) /\
      (forall k v pi, verify_kv H (byte_root H ri) k v pi = true ->
         sget (state (firstn i bs)) k = Some v \/ collision H).
Proof. exact state_proofs. Qed.
Print Assumptions C03_state_proofs.

(** The hypotheses on [H] are satisfiable. *)
Theorem C03_ideal_hash : len32 H_ideal /\ injective4 H_ideal.
Proof. split; [exact H_ideal_len|exact H_ideal_inj]. Qed.
Print Assumptions C03_ideal_hash.
