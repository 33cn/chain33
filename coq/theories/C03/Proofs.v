(** C03 — proofs about the state-proof model, for an arbitrary hash function
    [H] with 32-byte digests.  Injectivity of [H] is NOT assumed here: every
    statement that needs it concludes "... or [H] has a collision" (with the
    colliding inputs), so the theorems say something about SHA-256 itself. *)
From Coq Require Import List ZArith NArith Bool Lia.
From C33 Require Import C01.Keys C01.KeysFacts C01.Model C01.Spec C01.Store C01.Inv C01.Proofs
                        C03.Model C03.Spec.
Import ListNotations.
Local Open Scope Z_scope.

Lemma trim32_short : forall b, (length b <= 32)%nat -> trim32 b = b.
Proof.
  intros b L. unfold trim32. destruct (Nat.ltb 32 (length b)) eqn:E; auto.
  apply Nat.ltb_lt in E. lia.
Qed.

Lemma trim32_full : forall b, length b = 32%nat -> trim32 b = b.
Proof. intros b L. apply trim32_short. lia. Qed.

Lemma trim32_app : forall p d, length d = 32%nat -> trim32 (p ++ d) = d.
Proof.
  intros p d L. unfold trim32. rewrite app_length, L.
  destruct (Nat.ltb 32 (length p + 32)) eqn:E.
  - rewrite Nat.add_sub, skipn_app, skipn_all, Nat.sub_diag. reflexivity.
  - apply Nat.ltb_ge in E. destruct p; simpl in *; [reflexivity|lia].
Qed.

Lemma trim32_length : forall b, length (trim32 b) = Nat.min (length b) 32.
Proof.
  intro b. unfold trim32. destruct (Nat.ltb 32 (length b)) eqn:E.
  - apply Nat.ltb_lt in E. rewrite skipn_length. lia.
  - apply Nat.ltb_ge in E. lia.
Qed.

Lemma trim32_nonempty : forall b, b <> [] -> trim32 b <> [].
Proof.
  intros b Hb E. apply (f_equal (@length N)) in E. rewrite trim32_length in E.
  destruct b; [congruence|simpl in E; lia].
Qed.

Lemma sized_node_inv : forall k h s l r, sized (Node k h s l r) -> sized l /\ sized r /\ 1 <= h.
Proof.
  intros k h s l r Hs. pose proof (sized_node_height_pos _ _ _ _ _ Hs).
  simpl in Hs. tauto.
Qed.

Lemma in_keys : forall (k v : bytes) l, In (k, v) l -> In k (map fst l).
Proof. intros k v l I. apply (in_map fst) in I. exact I. Qed.

Section WithHash.
  Variable H : bytes -> bytes -> Z -> Z -> bytes.
  Hypothesis H_len : forall a b h s, length (H a b h s) = 32%nat.

  Definition collision : Prop :=
    exists a b h s a' b' h' s',
      (a, b, h, s) <> (a', b', h', s') /\ H a b h s = H a' b' h' s'.

  Lemma H_cases : forall a b h s a' b' h' s',
    H a b h s = H a' b' h' s' ->
    (a = a' /\ b = b' /\ h = h' /\ s = s') \/ collision.
  Proof.
    intros a b h s a' b' h' s' E.
    assert (C : (a, b, h, s) <> (a', b', h', s') -> collision)
      by (intro Ne; exists a, b, h, s, a', b', h', s'; auto).
    destruct (bytes_eq_dec a a'); [|right; apply C; congruence].
    destruct (bytes_eq_dec b b'); [|right; apply C; congruence].
    destruct (Z.eq_dec h h'); [|right; apply C; congruence].
    destruct (Z.eq_dec s s'); [|right; apply C; congruence].
    left; auto.
  Qed.

  Lemma leaf_hash_len : forall k v, length (leaf_hash H k v) = 32%nat.
  Proof. intros; apply H_len. Qed.

  Lemma inner_hash_len : forall l r h s, length (inner_hash H l r h s) = 32%nat.
  Proof. intros; apply H_len. Qed.

  Lemma digest_len : forall pf t, length (digest H pf t) = 32%nat.
  Proof. intros pf [k v|k h s l r]; simpl; [apply leaf_hash_len|apply inner_hash_len]. Qed.

  Lemma digest_node : forall pf k h s l r,
    digest H pf (Node k h s l r) = H (digest H (sub pf false) l) (digest H (sub pf true) r) h s.
  Proof.
    intros. simpl. unfold inner_hash. rewrite !trim32_app by apply digest_len. reflexivity.
  Qed.

  (** link with C01's symbolic hash: the byte root is a function of the
      symbolic root *)
  Fixpoint interp (x : hash) : bytes :=
    match x with
    | HLeaf k v => H k v 0 1
    | HInner h s l r => H (interp l) (interp r) h s
    end.

  Theorem digest_of_symbolic : forall t pf, digest H pf t = interp (thash t).
  Proof.
    induction t as [k v|k h s l IHl r IHr]; intro pf; [reflexivity|].
    rewrite digest_node, IHl, IHr. reflexivity.
  Qed.

  Lemma digest_pfx_irrelevant : forall t pf pf', digest H pf t = digest H pf' t.
  Proof. intros. rewrite !digest_of_symbolic. reflexivity. Qed.

  Lemma stored_hash_nonempty : forall pf t, stored_hash H pf t <> [].
  Proof.
    intros pf t E. apply (f_equal (@length N)) in E. unfold stored_hash in E.
    rewrite app_length, digest_len in E. simpl in E. lia.
  Qed.

  Lemma trim_stored_hash : forall pf t, trim32 (stored_hash H pf t) = digest H pf t.
  Proof. intros. unfold stored_hash. apply trim32_app, digest_len. Qed.

  Lemma iph_left : forall child h s r,
    inner_proof_hash H child (mk_pnode h s [] r) = inner_hash H child r h s.
  Proof. reflexivity. Qed.

  Lemma iph_right : forall child h s l r, l <> [] ->
    inner_proof_hash H child (mk_pnode h s l r) = inner_hash H l child h s.
  Proof. intros child h s [|x l] r Hl; [congruence|reflexivity]. Qed.

  Lemma iph_len : forall c n, length (inner_proof_hash H c n) = 32%nat.
  Proof. intros c [h s [|x l] r]; apply H_len. Qed.

  Lemma chain_snoc : forall x a n, chain H x (a ++ [n]) = inner_proof_hash H (chain H x a) n.
  Proof. intros. unfold chain. rewrite fold_left_app. reflexivity. Qed.

  Lemma chain_len : forall pi x, length x = 32%nat -> length (chain H x pi) = 32%nat.
  Proof.
    induction pi as [|n pi IH]; intros x Lx; simpl; auto.
    apply IH, iph_len.
  Qed.

  (** the test the verifier makes on every supplied node: Height >= 1 *)
  Definition heights_ok (pi : list pnode) : bool :=
    forallb (fun n => 1 <=? pn_height n) pi.

  Lemma heights_ok_snoc : forall pi n,
    heights_ok (pi ++ [n]) = heights_ok pi && (1 <=? pn_height n).
  Proof. intros. unfold heights_ok. rewrite forallb_app. simpl. rewrite andb_true_r. reflexivity. Qed.

  Lemma heights_ok_existsb : forall pi,
    heights_ok pi = negb (existsb (fun n => pn_height n <? 1) pi).
  Proof.
    induction pi as [|n pi IH]; [reflexivity|]. cbn [heights_ok forallb existsb]. fold (heights_ok pi).
    rewrite IH, negb_orb, Z.ltb_antisym, negb_involutive. reflexivity.
  Qed.

  Lemma chain_chk_char : forall pi x,
    chain_chk H x pi = if heights_ok pi then Some (chain H x pi) else None.
  Proof.
    induction pi as [|n pi IH]; intro x; [reflexivity|].
    cbn [chain_chk heights_ok forallb]. fold (heights_ok pi).
    rewrite Z.ltb_antisym. destruct (1 <=? pn_height n); simpl; [|reflexivity].
    rewrite IH. reflexivity.
  Qed.

  Lemma verify_char : forall p k v root,
    verify H p k v root =
    beq (pf_root p) root && beq (leaf_hash H k v) (trim32 (pf_leaf p)) &&
    heights_ok (pf_inner p) &&
    beq (pf_root p) (chain H (leaf_hash H k v) (pf_inner p)).
  Proof.
    intros. unfold verify.
    destruct (beq (pf_root p) root); simpl; [|reflexivity].
    destruct (beq (leaf_hash H k v) (trim32 (pf_leaf p))); simpl; [|reflexivity].
    rewrite chain_chk_char. destruct (heights_ok (pf_inner p)); reflexivity.
  Qed.

  (** through VerifyKVPairProof the LeafHash and RootHash fields are the
      recomputed leaf hash and the given root: their two tests always pass *)
  Lemma verify_kv_char : forall root k v pi,
    verify_kv H root k v pi = heights_ok pi && beq root (chain H (leaf_hash H k v) pi).
  Proof.
    intros. unfold verify_kv, read_proof. rewrite verify_char. cbn [pf_root pf_leaf pf_inner].
    rewrite trim32_full by apply leaf_hash_len. rewrite !beq_refl. reflexivity.
  Qed.

  Lemma verify_kv_true : forall root k v pi,
    verify_kv H root k v pi = true <->
    heights_ok pi = true /\ root = chain H (leaf_hash H k v) pi.
  Proof. intros. rewrite verify_kv_char, andb_true_iff, beq_iff. reflexivity. Qed.

  Lemma bad_height_rejected : forall root k v pi,
    existsb (fun n => pn_height n <? 1) pi = true -> verify_kv H root k v pi = false.
  Proof. intros root k v pi E. rewrite verify_kv_char, heights_ok_existsb, E. reflexivity. Qed.

  (** Induction over a successful search: it ends in the leaf that holds the
      key, and every node passed on the way appends the stored hash of the
      child it did not enter, on that child's side. *)
  Lemma construct_ind : forall P : pfx -> tree -> bytes -> bytes -> bytes -> list pnode -> Prop,
    (forall pf k v, P pf (Leaf k v) k v (stored_hash H pf (Leaf k v)) []) ->
    (forall pf nk h s l r k v lh pi, P (sub pf false) l k v lh pi ->
       P pf (Node nk h s l r) k v lh (pi ++ [mk_pnode h s [] (stored_hash H (sub pf true) r)])) ->
    (forall pf nk h s l r k v lh pi, P (sub pf true) r k v lh pi ->
       P pf (Node nk h s l r) k v lh (pi ++ [mk_pnode h s (stored_hash H (sub pf false) l) []])) ->
    forall t pf k v lh pi, construct H pf t k = Some (v, lh, pi) -> P pf t k v lh pi.
  Proof.
    intros P Pleaf Pl Pr.
    induction t as [lk lv|nk h s l IHl r IHr]; intros pf k v lh pi C; cbn [construct] in C.
    - destruct (beq lk k) eqn:E; [|discriminate]. apply beq_iff in E.
      inversion C; subst. apply Pleaf.
    - destruct (blt k nk).
      + destruct (construct H (sub pf false) l k) as [[[v0 lh0] pi0]|] eqn:Cl; [|discriminate].
        inversion C; subst. apply Pl, IHl, Cl.
      + destruct (construct H (sub pf true) r k) as [[[v0 lh0] pi0]|] eqn:Cr; [|discriminate].
        inversion C; subst. apply Pr, IHr, Cr.
  Qed.

  (** honest proofs pass the verifier's test: every inner node of a sized tree has height >= 1 *)
  Lemma construct_heights_ok : forall t pf k v lh pi,
    construct H pf t k = Some (v, lh, pi) -> sized t -> heights_ok pi = true.
  Proof.
    apply (construct_ind (fun _ t _ _ _ pi => sized t -> heights_ok pi = true)); [reflexivity| |];
      intros pf nk h s l r k v lh pi IH Hs;
      destruct (sized_node_inv _ _ _ _ _ Hs) as (Hsl & Hsr & Hpos);
      rewrite heights_ok_snoc, IH by assumption; apply Z.leb_le, Hpos.
  Qed.

  Lemma construct_chain : forall t pf k v lh pi,
    construct H pf t k = Some (v, lh, pi) ->
    chain H (leaf_hash H k v) pi = digest H pf t /\ trim32 lh = leaf_hash H k v.
  Proof.
    apply (construct_ind (fun pf t k v lh pi =>
      chain H (leaf_hash H k v) pi = digest H pf t /\ trim32 lh = leaf_hash H k v)).
    - intros pf k v. split; [reflexivity|apply trim_stored_hash].
    - intros pf nk h s l r k v lh pi [Ch Tl]. split; [|exact Tl].
      rewrite chain_snoc, Ch, iph_left, digest_node. unfold inner_hash.
      rewrite trim_stored_hash, trim32_full by apply digest_len. reflexivity.
    - intros pf nk h s l r k v lh pi [Ch Tl]. split; [|exact Tl].
      rewrite chain_snoc, Ch, iph_right, digest_node by apply stored_hash_nonempty. unfold inner_hash.
      rewrite trim_stored_hash, trim32_full by apply digest_len. reflexivity.
  Qed.

  Theorem complete : forall pf t k v lh pi,
    sized t ->
    construct H pf t k = Some (v, lh, pi) ->
    verify_kv H (digest H pf t) k v pi = true /\
    verify H (mk_proof lh pi (digest H pf t)) k v (digest H pf t) = true.
  Proof.
    intros pf t k v lh pi Hs C. destruct (construct_chain _ _ _ _ _ _ C) as [Ch Tl].
    pose proof (construct_heights_ok _ _ _ _ _ _ C Hs) as Hh. split.
    - apply verify_kv_true. split; [exact Hh|]. symmetry. exact Ch.
    - rewrite verify_char. simpl. rewrite Tl, Ch, Hh, !beq_refl. reflexivity.
  Qed.

  Lemma construct_in : forall t pf k v lh pi,
    construct H pf t k = Some (v, lh, pi) -> In (k, v) (elements t).
  Proof.
    apply (construct_ind (fun _ t k v _ _ => In (k, v) (elements t))); simpl; intros.
    - left. reflexivity.
    - apply in_or_app. left. assumption.
    - apply in_or_app. right. assumption.
  Qed.

  Lemma construct_present : forall t, ordered t -> forall pf k v,
    In (k, v) (elements t) -> exists lh pi, construct H pf t k = Some (v, lh, pi).
  Proof.
    induction t as [lk lv|nk h s l IHl r IHr]; intros Ho pf k v I.
    - simpl in I. destruct I as [E|[]]. inversion E; subst. simpl. rewrite beq_refl. eauto.
    - simpl in Ho. destruct Ho as (Hol & Hor & Hl & Hr & _).
      simpl in I. apply in_app_or in I. cbn [construct]. destruct I as [I|I].
      + rewrite (Hl k) by (eapply in_keys; eauto).
        destruct (IHl Hol (sub pf false) k v I) as (lh & pi & C). rewrite C. eauto.
      + rewrite (Hr k) by (eapply in_keys; eauto).
        destruct (IHr Hor (sub pf true) k v I) as (lh & pi & C). rewrite C. eauto.
  Qed.

  (** the search is the search of [get]: same comparisons, same leaf *)
  Lemma construct_value : forall t pf k,
    option_map (fun x => fst (fst x)) (construct H pf t k) = snd (get t k).
  Proof.
    induction t as [lk lv|nk h s l IHl r IHr]; intros pf k; cbn [construct get].
    - unfold beq. destruct (bcmp lk k); reflexivity.
    - destruct (blt k nk).
      + rewrite <- (IHl (sub pf false)).
        destruct (construct H (sub pf false) l k) as [[[v lh] pi]|]; reflexivity.
      + specialize (IHr (sub pf true) k). destruct (get r k) as [i o]. simpl in *. rewrite <- IHr.
        destruct (construct H (sub pf true) r k) as [[[v lh] pi]|]; reflexivity.
  Qed.

  Lemma construct_get : forall t pf k v lh pi,
    construct H pf t k = Some (v, lh, pi) -> snd (get t k) = Some v.
  Proof. intros t pf k v lh pi C. rewrite <- (construct_value t pf), C. reflexivity. Qed.

  Lemma iph_unfold : forall c n,
    inner_proof_hash H c n =
    match pn_left n with
    | [] => H (trim32 c) (trim32 (pn_right n)) (pn_height n) (pn_size n)
    | _ :: _ => H (trim32 (pn_left n)) (trim32 c) (pn_height n) (pn_size n)
    end.
  Proof. intros c n. unfold inner_proof_hash, inner_hash. destruct (pn_left n); reflexivity. Qed.

  Lemma step_eq : forall c n a b h s,
    inner_proof_hash H c n = H a b h s ->
    (pn_height n = h /\ (trim32 c = a \/ trim32 c = b)) \/ collision.
  Proof.
    intros c n a b h s E. rewrite iph_unfold in E.
    destruct (pn_left n);
      (destruct (H_cases _ _ _ _ _ _ _ _ E) as [(A & B & Eh & _)|C]; [left; auto|right; exact C]).
  Qed.

  (** A chain of accepted nodes (all heights >= 1) that ends in the digest of a
      sized tree starts at one of its leaves - or exhibits a collision.  The last
      node of the chain has height >= 1, so it cannot be the hash input of a
      leaf (height 0): no condition on the stored keys and values is needed. *)
  Lemma sound_aux : forall t, sized t ->
    forall pf k v pi, heights_ok pi = true ->
      chain H (leaf_hash H k v) pi = digest H pf t ->
      In (k, v) (elements t) \/ collision.
  Proof.
    induction t as [k0 v0|nk h s l IHl r IHr]; intros Hs pf k v pi Hh E.
    - change (digest H pf (Leaf k0 v0)) with (H k0 v0 0 1) in E.
      destruct pi as [|n pi' _] using rev_ind.
      + destruct (H_cases _ _ _ _ _ _ _ _ E) as [(-> & -> & _)|C]; [left; left; reflexivity|right; exact C].
      + rewrite chain_snoc in E. rewrite heights_ok_snoc in Hh.
        apply andb_true_iff in Hh as [_ Hn]. apply Z.leb_le in Hn.
        destruct (step_eq _ _ _ _ _ _ E) as [(Eh & _)|C]; [lia|right; exact C].
    - destruct (sized_node_inv _ _ _ _ _ Hs) as (Hsl & Hsr & Hpos).
      rewrite digest_node in E.
      destruct pi as [|n pi' _] using rev_ind.
      + destruct (H_cases _ _ _ _ _ _ _ _ E) as [(_ & _ & Eh & _)|C]; [lia|right; exact C].
      + rewrite chain_snoc in E. rewrite heights_ok_snoc in Hh. apply andb_true_iff in Hh as [Hh' _].
        destruct (step_eq _ _ _ _ _ _ E) as [(_ & P)|C]; [|right; exact C].
        rewrite trim32_full in P by apply chain_len, leaf_hash_len.
        simpl. rewrite in_app_iff.
        destruct P as [P|P]; [destruct (IHl Hsl _ _ _ _ Hh' P)|destruct (IHr Hsr _ _ _ _ Hh' P)]; tauto.
  Qed.

  (** through Proof.Verify with arbitrary LeafHash / RootHash fields *)
  Theorem sound_struct : forall t pf p k v,
    sized t ->
    verify H p k v (digest H pf t) = true ->
    In (k, v) (elements t) \/ collision.
  Proof.
    intros t pf p k v Hs V. rewrite verify_char, !andb_true_iff, !beq_iff in V.
    destruct V as [[[V1 _] Vh] V3]. rewrite V1 in V3.
    eapply sound_aux; eauto.
  Qed.

  (** VerifyKVPairProof is Proof.Verify on the proof that ReadProof builds *)
  Theorem sound : forall t pf k v pi,
    sized t ->
    verify_kv H (digest H pf t) k v pi = true ->
    In (k, v) (elements t) \/ collision.
  Proof. intros t pf k v pi. apply sound_struct. Qed.

  Lemma chain_inj : forall pi x y,
    length x = 32%nat -> length y = 32%nat ->
    chain H x pi = chain H y pi -> x = y \/ collision.
  Proof.
    induction pi as [|n pi IH]; intros x y Lx Ly E; [left; exact E|].
    simpl in E. destruct (IH _ _ (iph_len x n) (iph_len y n) E) as [E1|C]; [|right; exact C].
    rewrite (iph_unfold x), (iph_unfold y) in E1.
    destruct (pn_left n) as [|b l'];
      (destruct (H_cases _ _ _ _ _ _ _ _ E1) as [(A & B & _)|C]; [|right; exact C]);
      rewrite !trim32_full in * by assumption; left; assumption.
  Qed.

  Theorem proof_binds : forall pf t k v lh pi k' v',
    construct H pf t k = Some (v, lh, pi) ->
    verify_kv H (digest H pf t) k' v' pi = true ->
    (k' = k /\ v' = v) \/ collision.
  Proof.
    intros pf t k v lh pi k' v' C V. apply verify_kv_true in V as [_ V].
    destruct (construct_chain _ _ _ _ _ _ C) as [Ch _]. rewrite <- Ch in V.
    destruct (chain_inj _ _ _ (leaf_hash_len k v) (leaf_hash_len k' v') V) as [E|Cl]; [|right; exact Cl].
    unfold leaf_hash in E.
    destruct (H_cases _ _ _ _ _ _ _ _ E) as [(-> & -> & _)|Cl]; [left; auto|right; exact Cl].
  Qed.

  Theorem root_unique : forall r r' k v pi,
    verify_kv H r k v pi = true -> verify_kv H r' k v pi = true -> r = r'.
  Proof.
    intros r r' k v pi V V'. apply verify_kv_true in V as [_ V]. apply verify_kv_true in V' as [_ V'].
    congruence.
  Qed.

  Theorem sound_value : forall t pf k v v' pi,
    ordered t -> sized t ->
    snd (get t k) = Some v ->
    verify_kv H (digest H pf t) k v' pi = true ->
    v' = v \/ collision.
  Proof.
    intros t pf k v v' pi Ho Hs G V.
    destruct (sound _ _ _ _ _ Hs V) as [I|C]; [left|right; exact C].
    destruct (construct_present _ Ho pf _ _ I) as (lh & pi0 & Cn).
    apply construct_get in Cn. congruence.
  Qed.

  (** The leaf / inner-node confusion (finding C03-leaf-inner-confusion,
      fixed): a tree holding a leaf (k0, d) - or (d, v0) - with d the leaf digest
      of a pair (k, v) used to accept (k, v) with the one-node proof
      {height 0, size 1, k0 / v0}, because that node makes the chain hash the
      stored leaf's own message.  The chain still ends in the root; the verifier
      now rejects both forgeries by [bad_height_rejected]. *)

  Lemma confusion_chain_value : forall pf k v k0,
    k0 <> [] -> (length k0 <= 32)%nat ->
    chain H (leaf_hash H k v) [mk_pnode 0 1 k0 []] = digest H pf (Leaf k0 (leaf_hash H k v)).
  Proof.
    intros pf k v k0 Hne Hl. simpl.
    rewrite iph_right by exact Hne. unfold inner_hash.
    rewrite (trim32_short k0), trim32_full by (exact Hl || apply leaf_hash_len). reflexivity.
  Qed.

  Lemma confusion_chain_key : forall pf k v v0,
    (length v0 <= 32)%nat ->
    chain H (leaf_hash H k v) [mk_pnode 0 1 [] v0] = digest H pf (Leaf (leaf_hash H k v) v0).
  Proof.
    intros pf k v v0 Hl. simpl.
    rewrite iph_left. unfold inner_hash.
    rewrite (trim32_short v0), trim32_full by (exact Hl || apply leaf_hash_len). reflexivity.
  Qed.

  Definition injective4 : Prop :=
    forall a b h s a' b' h' s',
      H a b h s = H a' b' h' s' -> a = a' /\ b = b' /\ h = h' /\ s = s'.

  Lemma injective_no_collision : injective4 -> ~ collision.
  Proof.
    intros Inj (a & b & h & s & a' & b' & h' & s' & Ne & E).
    destruct (Inj _ _ _ _ _ _ _ _ E) as (-> & -> & -> & ->). congruence.
  Qed.
End WithHash.
