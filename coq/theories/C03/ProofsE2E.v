(** C03 — composition with C01's store theorem: for every history of committed
    write batches, at every committed root (seen from any later database),
    every pair of the abstract state has a verifying proof, absent keys have
    none, and only pairs of the abstract state verify (no condition on the state). *)
From Coq Require Import List ZArith NArith Bool Lia.
From C33 Require Import C01.Keys C01.KeysFacts C01.Model C01.Spec C01.Store C01.Inv C01.Proofs
                        C01.ProofsStore C03.Model C03.Spec C03.Proofs C03.ProofsTop.
Import ListNotations.
Local Open Scope Z_scope.

Section WithHash.
  Variable H : hashfn.
  Hypothesis H_len : len32 H.

  (** the state root as bytes: nil for the empty state *)
  Definition byte_root (r : root) : bytes :=
    match r with None => [] | Some h => interp H h end.

  (** the proof search reads the abstract state *)
  Lemma construct_sget : forall t pf k, ordered t ->
    option_map (fun x => fst (fst x)) (construct H pf t k) = sget (elements t) k.
  Proof. intros t pf k Ho. rewrite construct_value. apply get_elements, Ho. Qed.

  Lemma verify_empty_root : forall k v pi, verify_kv H [] k v pi = false.
  Proof.
    intros. rewrite (verify_kv_char H H_len).
    destruct (beq [] (chain H (leaf_hash H k v) pi)) eqn:B; [|apply andb_false_r].
    apply beq_iff in B. apply (f_equal (@length N)) in B.
    rewrite (chain_len H H_len) in B by apply (leaf_hash_len H H_len). discriminate.
  Qed.

  Theorem state_proofs : forall bs i j, (i <= j)%nat ->
    exists di ri dj rj oi,
      history (firstn i bs) = Some (di, ri) /\
      history (firstn j bs) = Some (dj, rj) /\
      load_tree dj ri = Some oi /\
      (forall pf k v, sget (state (firstn i bs)) k = Some v ->
         exists pi, get_kv_pair_proof H pf oi k = Some pi /\
                    verify_kv H (byte_root ri) k v pi = true) /\
      (forall pf k, sget (state (firstn i bs)) k = None -> get_kv_pair_proof H pf oi k = None) /\
      (forall k v pi, verify_kv H (byte_root ri) k v pi = true ->
         sget (state (firstn i bs)) k = Some v \/ collision H).
  Proof.
    intros bs i j Hij.
    destruct (history_versions bs i j Hij) as [di [dj [oi [oj [Ei [Ej [Gi [STi HEi]]]]]]]].
    exists di, (tree_root oi), dj, (tree_root oj), oi.
    split; [exact Ei|]. split; [exact Ej|]. split; [apply load_tree_stored; assumption|].
    rewrite <- HEi. destruct oi as [t|]; simpl in *.
    - destruct Gi as [Ho Hs]. split; [|split].
      + intros pf k v G. rewrite <- (construct_sget t (at_root pf) k Ho) in G.
        unfold get_kv_pair_proof, t_construct.
        destruct (construct H (at_root pf) t k) as [[[v0 lh] pi]|] eqn:C; [|discriminate].
        injection G as ->. exists pi. split; [reflexivity|].
        rewrite <- (digest_of_symbolic H H_len t (at_root pf)). apply (complete H H_len _ _ _ _ _ _ Hs C).
      + intros pf k G. rewrite <- (construct_sget t (at_root pf) k Ho) in G.
        unfold get_kv_pair_proof, t_construct.
        destruct (construct H (at_root pf) t k) as [[[v0 lh] pi]|]; [discriminate|reflexivity].
      + intros k v pi V. rewrite <- (digest_of_symbolic H H_len t no_pfx) in V.
        destruct (sound H H_len _ _ _ _ _ Hs V) as [I|C]; [left|right; exact C].
        destruct (construct_present H t Ho no_pfx k v I) as (lh & pi0 & C).
        rewrite <- (construct_sget t no_pfx k Ho), C. reflexivity.
    - split; [|split].
      + intros pf k v G. discriminate.
      + intros pf k _. reflexivity.
      + intros k v pi V. rewrite verify_empty_root in V. discriminate.
  Qed.
End WithHash.

(** non-vacuity of [state_proofs]: a two-batch history whose state holds a leaf
    of the shape the fixed finding needed (short key, 32-byte value) *)
Example ex_history :
  let bs := [[([97%N], [1%N]); ([98%N], repeat 9%N 32)]; [([97%N], [3%N]); ([99%N], [4%N])]] in
  length (state bs) = 3%nat /\ sget (state bs) [97%N] = Some [3%N] /\
  sget (state bs) [98%N] = Some (repeat 9%N 32).
Proof. vm_compute. repeat split. Qed.
