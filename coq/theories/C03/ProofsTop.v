(** C03 — top-level statements: user-facing forms over [root_hash] /
    [t_construct], the injective-hash corollary, the rejection of the former
    forgeries, non-vacuity examples on the ideal hash. *)
From Coq Require Import List ZArith NArith Bool Lia.
From C33 Require Import C01.Keys C01.KeysFacts C01.Model C01.Spec C01.Store C01.Inv C01.Proofs
                        C03.Model C03.Spec C03.Proofs C03.Ideal.
Import ListNotations.
Local Open Scope Z_scope.

Definition hashfn := bytes -> bytes -> Z -> Z -> bytes.
Definition len32 (H : hashfn) : Prop := forall a b h s, length (H a b h s) = 32%nat.

Theorem complete_tree : forall (H : hashfn), len32 H ->
  forall pf t k v p, sized t ->
    t_construct H pf (Some t) k = Some (v, p) ->
    In (k, v) (elements t) /\
    pf_root p = root_hash H pf t /\
    verify H p k v (root_hash H pf t) = true /\
    verify_kv H (root_hash H pf t) k v (pf_inner p) = true.
Proof.
  intros H HL pf t k v p Hs C. unfold t_construct in C.
  destruct (construct H (at_root pf) t k) as [[[v0 lh] pi]|] eqn:Cn; [|discriminate].
  inversion C; subst; clear C. simpl.
  destruct (complete H HL _ _ _ _ _ _ Hs Cn) as [V1 V2].
  split; [eapply construct_in; eauto|]. split; [reflexivity|]. split; assumption.
Qed.

Theorem complete_present : forall (H : hashfn), len32 H ->
  forall pf t k v, ordered t -> sized t -> In (k, v) (elements t) ->
    exists p, t_construct H pf (Some t) k = Some (v, p) /\
              verify_kv H (root_hash H pf t) k v (pf_inner p) = true.
Proof.
  intros H HL pf t k v Ho Hs I.
  destruct (construct_present H t Ho (at_root pf) k v I) as (lh & pi & C).
  exists (mk_proof lh pi (root_hash H pf t)). unfold t_construct. rewrite C. split; [reflexivity|].
  simpl. apply (complete H HL _ _ _ _ _ _ Hs C).
Qed.

Theorem absent_no_proof : forall (H : hashfn) pf t k,
  ~ In k (keys t) -> get_kv_pair_proof H pf (Some t) k = None.
Proof.
  intros H pf t k NI. unfold get_kv_pair_proof, t_construct.
  destruct (construct H (at_root pf) t k) as [[[v lh] pi]|] eqn:C; [|reflexivity].
  exfalso. apply NI. apply construct_in, in_keys in C. exact C.
Qed.

Theorem sound_inj : forall (H : hashfn), len32 H -> injective4 H ->
  forall pf t k v pi, sized t ->
    verify_kv H (root_hash H pf t) k v pi = true -> In (k, v) (elements t).
Proof.
  intros H HL Inj pf t k v pi Hs V.
  destruct (sound H HL _ _ _ _ _ Hs V) as [I|C]; [exact I|].
  exfalso. eapply injective_no_collision; eauto.
Qed.

(** both forgeries of the fixed finding C03-leaf-inner-confusion, in any
    position of a supplied proof: rejected *)
Theorem confusion_rejected : forall (H : hashfn), len32 H ->
  forall pf k v front back,
    (forall k0, verify_kv H (digest H pf (Leaf k0 (leaf_hash H k v))) k v
                  (front ++ mk_pnode 0 1 k0 [] :: back) = false) /\
    (forall v0, verify_kv H (digest H pf (Leaf (leaf_hash H k v) v0)) k v
                  (front ++ mk_pnode 0 1 [] v0 :: back) = false).
Proof.
  intros H HL pf k v front back.
  assert (R : forall root n, pn_height n = 0 ->
            verify_kv H root k v (front ++ n :: back) = false).
  { intros root n Hn. apply (bad_height_rejected H HL).
    rewrite existsb_app. simpl. rewrite Hn. apply orb_true_r. }
  split; intros; apply R; reflexivity.
Qed.

(** Examples: the hypotheses are satisfiable by non-trivial states. *)

Definition ex_tree : tree :=
  Node [98%N] 2 3 (Leaf [97%N] [1%N])
       (Node [99%N] 1 2 (Leaf [98%N] [2%N]) (Leaf [99%N] [3%N; 4%N])).

Example ex_tree_good : ordered ex_tree /\ sized ex_tree.
Proof.
  split.
  - cbn [ordered ex_tree keys elements map app fst leftmost].
    split; [exact I|]. split.
    { split; [exact I|]. split; [exact I|]. split.
      { intros x [<-|[]]. reflexivity. }
      split; [|reflexivity]. intros x [<-|[]]. reflexivity. }
    split. { intros x [<-|[]]. reflexivity. }
    split; [|reflexivity]. intros x [<-|[<-|[]]]; reflexivity.
  - cbn [sized ex_tree height size]. repeat split; try exact I; reflexivity.
Qed.

Definition ex_pfx : pfx := fun p => match p with [] => [] | _ => [95%N; 109%N; 104%N; 45%N] end.

(** for every hash the search for "b" goes right, then left, and returns two nodes *)
Lemma ex_construct : forall (H : hashfn) pf, exists lh n1 n2,
  t_construct H pf (Some ex_tree) [98%N] =
  Some ([2%N], mk_proof lh [n1; n2] (root_hash H pf ex_tree)).
Proof. intros. do 3 eexists. reflexivity. Qed.

(** On the ideal hash no digest is evaluated (its Goedel numbers are huge):
    acceptance comes from [complete_tree], the two rejections from [sound_inj]. *)
Example ex_proof_verifies :
  match t_construct H_ideal ex_pfx (Some ex_tree) [98%N] with
  | Some (v, p) =>
      beq v [2%N] && Nat.eqb (length (pf_inner p)) 2 &&
      verify H_ideal p [98%N] [2%N] (root_hash H_ideal ex_pfx ex_tree) &&
      verify_kv H_ideal (root_hash H_ideal ex_pfx ex_tree) [98%N] [2%N] (pf_inner p) &&
      negb (verify_kv H_ideal (root_hash H_ideal ex_pfx ex_tree) [98%N] [3%N] (pf_inner p)) &&
      negb (verify_kv H_ideal (root_hash H_ideal ex_pfx ex_tree) [97%N] [2%N] (pf_inner p))
  | None => false
  end = true.
Proof.
  destruct (ex_construct H_ideal ex_pfx) as (lh & n1 & n2 & C).
  destruct ex_tree_good as [_ Hs].
  destruct (complete_tree H_ideal H_ideal_len _ _ _ _ _ Hs C) as (_ & _ & V1 & V2).
  assert (R : forall k v pi, ~ In (k, v) (elements ex_tree) ->
            verify_kv H_ideal (root_hash H_ideal ex_pfx ex_tree) k v pi = false).
  { intros k v pi NI. apply not_true_is_false. intro V. apply NI.
    exact (sound_inj H_ideal H_ideal_len H_ideal_inj _ _ _ _ _ Hs V). }
  rewrite C, V1, V2, !R; [reflexivity| |]; intros [E|[E|[E|[]]]]; discriminate E.
Qed.

(** the former witness of the finding: the single leaf ("cfg-hash"-like short
    key, value = leaf digest of the forged pair) is a sized tree, the forged
    chain does end in its root, and the verifier rejects the forged proof *)
Example ex_confusion_rejected :
  let k := [1%N] in let v := [2%N] in let k0 := [3%N] in
  let t := Leaf k0 (leaf_hash H_ideal k v) in
  sized t /\ ~ In (k, v) (elements t) /\
  chain H_ideal (leaf_hash H_ideal k v) [mk_pnode 0 1 k0 []] = root_hash H_ideal no_pfx t /\
  verify_kv H_ideal (root_hash H_ideal no_pfx t) k v [mk_pnode 0 1 k0 []] = false.
Proof.
  cbv zeta. split; [exact I|]. split.
  { simpl. intros [E|[]]. inversion E. }
  split.
  - apply (confusion_chain_value H_ideal H_ideal_len); [discriminate|simpl; lia].
  - apply (bad_height_rejected H_ideal H_ideal_len). reflexivity.
Qed.
