(** C31 — property theorems only. *)
From Coq Require Import List ZArith NArith Bool.
From C33 Require Import Lib.Harness C31.Model C31.Spec C31.Proofs C31.ProofsMain C31.ProofsRefute C31.ProofsHist.
Import ListNotations.
Open Scope N_scope.

(** Spelling clause: two strings that name the same account (hex addresses equal
    up to letter case and the optional 0x / 0X prefix; otherwise the identical
    string) parse to the same blacklist key. *)
Theorem C31_spelling : forall cks a b,
  same_account a b = true -> parse_blocked cks a = parse_blocked cks b.
Proof. exact spelling. Qed.
Print Assumptions C31_spelling.

(** Hex spellings: any two hex addresses whose 40 digits agree up to case are the same account. *)
Theorem C31_spelling_hex : forall a b,
  is_eth_address a = true -> is_eth_address b = true ->
  map lower (strip0x a) = map lower (strip0x b) -> same_account a b = true.
Proof.
  intros a b Ea Eb Hn. unfold same_account. rewrite Ea, Eb. apply bytes_eqb_eq. exact Hn.
Qed.
Print Assumptions C31_spelling_hex.

(** Base58: the account is the literal string; there is no second spelling. *)
Theorem C31_spelling_base58_literal : forall a b,
  is_eth_address a = false -> same_account a b = true -> a = b.
Proof. unfold same_account. intros a b ->. apply bytes_eqb_eq. Qed.
Print Assumptions C31_spelling_base58_literal.

(** Base58, precisely: a string is accepted exactly when its base58 decoding is
    version byte (any value) ++ 20-byte key ++ first four bytes of the double
    SHA-256 of (version ++ key); the key is what is compared. *)
Theorem C31_base58_accepted_shape : forall cks s raw,
  is_eth_address s = false -> parse_blocked cks s = Some raw ->
  exists v c, b58_decode s = v :: raw ++ c /\ len raw = 20 /\ c = cks (v :: raw).
Proof.
  intros cks s raw NE P. apply (base58_accepted cks s raw NE) in P as (v & D & L20 & _).
  exists v, (cks (v :: raw)). repeat split; assumption.
Qed.
Print Assumptions C31_base58_accepted_shape.

Theorem C31_base58_any_version_accepted : forall cks s v raw,
  is_eth_address s = false -> len raw = 20 ->
  b58_decode s = v :: raw ++ cks (v :: raw) -> len (cks (v :: raw)) = 4 ->
  parse_blocked cks s = Some raw.
Proof.
  intros cks s v raw NE L20 D L4. apply (base58_accepted cks s raw NE). exists v. repeat split; assumption.
Qed.
Print Assumptions C31_base58_any_version_accepted.

(** Hex spellings always yield a 20-byte key (the length panic of
    parseBlockedAccounts cannot fire for them). *)
Theorem C31_hex_key_total : forall cks s,
  is_eth_address s = true -> exists raw, parse_blocked cks s = Some raw /\ len raw = 20.
Proof.
  intros cks s E. unfold parse_blocked. rewrite E, (from_hex_eth s E).
  pose proof (eth_len s E) as L40. apply (len_length _ 40%nat) in L40.
  unfold is_eth_address in E. apply andb_true_iff in E as [_ F].
  destruct (hex_decode_total 20 (strip0x s) L40 F) as (r & Hr & Lr).
  exists r. split; [exact Hr|]. unfold len. rewrite Lr. reflexivity.
Qed.
Print Assumptions C31_hex_key_total.

(** Any listed account in any spelling is found in the parsed set. *)
Theorem C31_listed_is_blocked : forall cks L set s,
  parse_list cks L = Some set -> listed L s = true -> is_blocked cks set s = true.
Proof. exact listed_blocked. Qed.
Print Assumptions C31_listed_is_blocked.

(** A transaction touching the list in any position is hit by the core check. *)
Theorem C31_core_covers_positions : forall cks L set t,
  parse_list cks L = Some set -> tx_touches cks L t = true -> hit cks set t = true.
Proof. exact touches_hit. Qed.
Print Assumptions C31_core_covers_positions.

(** Strongest statement for all submissions: every enforcement point rejects
    what it looks at (executor: the unwrapped inner transaction of a proxied
    one, all members of a group; producer, pool and delay entry points: the
    outer transaction, all members). *)
Theorem C31_blocked_position_rejected_partial : forall cks L set e b,
  parse_list cks L = Some set ->
  ((e_h e <> 0)%Z -> active e = true -> exec_view_touches cks L e b = true ->
     exec_rejects cks set e b = true /\
     forall base r, In r (exec_receipts cks set e b base) -> r = 0) /\
  (active e = true -> outer_touches cks L b = true ->
     prod_rejects cks set e b = true /\ forall bs, ~ In b (prod_out cks set e bs)) /\
  (outer_touches cks L b = true ->
     pool_rejects cks set b = true /\ forall base, pool_reply cks set b base <> ROk) /\
  (outer_touches cks L b = true ->
     delay_rejects cks set b = true /\ forall base, delay_reply cks set b base = RBlocked).
Proof.
  intros cks L set e b HP. split; [|split; [|split]].
  - intros H0 A HT. pose proof (exec_rejects_view cks L set e b HP H0 A HT) as R.
    split; [exact R|]. intro base. apply exec_receipts_err. exact R.
  - intros A HT. pose proof (prod_rejects_outer cks L set e b HP A HT) as R.
    split; [exact R|]. intro bs. apply prod_out_excludes. exact R.
  - intro HT. split; [exact (pool_rejects_outer cks L set b HP HT)|].
    intro base. exact (pool_reply_never_ok cks L set b base HP HT).
  - intro HT. pose proof (delay_rejects_outer cks L set b HP HT) as R.
    split; [exact R|]. intro base. apply delay_reply_blocked. exact R.
Qed.
Print Assumptions C31_blocked_position_rejected_partial.

(** Plain (not proxied) submissions, single transactions and groups alike:
    every enforcement point rejects; error receipts only; never packed; both
    delay entry points refuse (a group is expanded and every member checked). *)
Theorem C31_blocked_position_rejected : forall cks L set e b,
  parse_list cks L = Some set -> (e_h e <> 0)%Z -> plain e b = true ->
  touches cks L e b = true ->
  (active e = true ->
     exec_rejects cks set e b = true /\ prod_rejects cks set e b = true /\
     (forall base r, In r (exec_receipts cks set e b base) -> r = 0) /\
     (forall bs, ~ In b (prod_out cks set e bs))) /\
  pool_rejects cks set b = true /\
  (forall base, pool_reply cks set b base <> ROk) /\
  delay_rejects cks set b = true /\
  (forall base, delay_reply cks set b base = RBlocked).
Proof.
  intros cks L set e b HP H0 PL HT.
  destruct (plain_views cks L e b PL) as [E1 E2]. rewrite E1 in HT.
  destruct (C31_blocked_position_rejected_partial cks L set e b HP) as (PE & PP & PR & PD).
  rewrite E2 in PE. split; [|split; [apply PR|split; [apply PR|split; apply PD]]]; try exact HT.
  intro A. split; [apply PE|split; [apply PP|split; [apply PE|apply PP]]]; assumption.
Qed.
Print Assumptions C31_blocked_position_rejected.

(** Full strength (proxied submissions included) fails. *)
Theorem C31_blocked_position_rejected_refuted : ~ C31_blocked_position_rejected_full.
Proof. exact position_full_refuted. Qed.
Print Assumptions C31_blocked_position_rejected_refuted.

(** The pool clause at full strength fails for proxied transactions ... *)
Theorem C31_pool_rejects_at_every_height_refuted : ~ C31_pool_rejects_at_every_height_full.
Proof. exact pool_full_refuted. Qed.
Print Assumptions C31_pool_rejects_at_every_height_refuted.

(** ... and holds for what the pool looks at, independently of fork height and block height. *)
Theorem C31_pool_rejects_at_every_height_partial : forall cks L set (e : env) b,
  parse_list cks L = Some set -> outer_touches cks L b = true ->
  pool_rejects cks set b = true /\ (forall base, pool_reply cks set b base <> ROk) /\
  delay_rejects cks set b = true.
Proof.
  intros cks L set e b HP HT. split; [exact (pool_rejects_outer cks L set b HP HT)|].
  split; [intro base; exact (pool_reply_never_ok cks L set b base HP HT)|].
  exact (delay_rejects_outer cks L set b HP HT).
Qed.
Print Assumptions C31_pool_rejects_at_every_height_partial.

(** Delay entry points (eventAddDelayTx, addDelayTx): the blacklist verdict is
    the pool's per-member check over the submission itself and every member of
    its group - exactly what the pool looks at when the cache releases it. *)
Theorem C31_delay_entry_all_members : forall cks set b,
  delay_rejects cks set b = chk_txs_imm cks set (members b).
Proof. exact delay_rejects_members. Qed.
Print Assumptions C31_delay_entry_all_members.

(** Proxied transactions: the executor does not look at the outer transaction. *)
Theorem C31_executor_outer_refuted : ~ C31_executor_rejects_full.
Proof. exact executor_full_refuted. Qed.
Print Assumptions C31_executor_outer_refuted.

(** Proxied transactions: the executor checks the unwrapped transaction. *)
Theorem C31_proxy_inner_rejected_by_executor : forall cks L set e t i,
  parse_list cks L = Some set -> (e_h e <> 0)%Z -> active e = true ->
  is_proxy e t = true -> tx_touches cks L i = true ->
  exec_rejects cks set e (BSingle t (Some i)) = true /\
  forall base r, In r (exec_receipts cks set e (BSingle t (Some i)) base) -> r = 0.
Proof.
  intros cks L set e t i HP H0 A PX HT.
  apply (C31_blocked_position_rejected_partial cks L set e _ HP); [exact H0|exact A|].
  simpl. rewrite PX. exact HT.
Qed.
Print Assumptions C31_proxy_inner_rejected_by_executor.

(** The gate is exactly "height -1 or height >= fork height" ... *)
Theorem C31_gate_exact : forall H h, is_fork H h = true <-> (h = -1 \/ H <= h)%Z.
Proof. intros H h. unfold is_fork. rewrite orb_true_iff, Z.eqb_eq, Z.leb_le. reflexivity. Qed.
Print Assumptions C31_gate_exact.

(** ... and below it the consensus-level points behave as without a blacklist. *)
Theorem C31_inactive_no_effect : forall cks set e,
  is_fork (e_H e) (e_h e) = false ->
  (forall b base, exec_receipts cks set e b base = base) /\
  (forall bs, prod_out cks set e bs = bs).
Proof.
  intros cks set e F. apply never_checked_no_effect. intro t. apply inactive_chk. exact F.
Qed.
Print Assumptions C31_inactive_no_effect.

(** A blocked answer always comes from a parsed key that is in the set. *)
Theorem C31_rejection_sound : forall cks set s,
  is_blocked cks set s = true -> exists raw, parse_blocked cks s = Some raw /\ In raw set.
Proof.
  intros cks set s. rewrite is_blocked_parse. destruct (parse_blocked cks s) as [raw|]; [|discriminate].
  intro B. apply blocked_raw_iff in B as [_ HI]. exists raw. split; [reflexivity|exact HI].
Qed.
Print Assumptions C31_rejection_sound.

(** Witness facts used by the refutations: before the activation height the
    proxied payment to a listed account passes pool, producer and executor,
    and the delay entry at every height. *)
Theorem C31_proxy_inner_before_fork_witness :
  touches nock wL env9 w_proxy_inner = true /\
  pool_rejects nock wset w_proxy_inner = false /\
  prod_rejects nock wset env9 w_proxy_inner = false /\
  exec_receipts nock wset env9 w_proxy_inner [2] = [2] /\
  delay_rejects nock wset w_proxy_inner = false.
Proof.
  destruct proxy_inner_passes as (T & P & D).
  assert (N : forall t, chk_tx nock wset (e_H env9) (e_h env9) t = false)
    by (intro t; apply inactive_chk; reflexivity).
  split; [exact T|]. split; [exact P|]. split; [apply (never_checked nock wset env9 N)|].
  split; [apply (never_checked_no_effect nock wset env9 N)|exact D].
Qed.
Print Assumptions C31_proxy_inner_before_fork_witness.

(** The height-0 hypothesis of the executor clauses is needed (genesis path of execTx). *)
Theorem C31_height0_hypothesis_needed :
  active env0 = true /\ plain env0 (BSingle tx_to_X None) = true /\
  touches nock wL env0 (BSingle tx_to_X None) = true /\
  exec_rejects nock wset env0 (BSingle tx_to_X None) = false.
Proof. vm_compute. repeat split. Qed.
Print Assumptions C31_height0_hypothesis_needed.

(** Histories of one process (blacklist loads and submissions asked at the
    enforcement points in any order): the answer to a question is the pure
    function [answer] of the transaction facts, the fork configuration, the
    height and the set left by the loads that precede it; the questions asked
    before it (same body, other signer, other enforcement point, ...) are
    irrelevant. *)
Theorem C31_verdict_history_independent : forall cks pre st e b,
  last (p_run cks st (pre ++ [OAsk e b])) None =
  Some (answer cks (set_after cks st (loads_of pre)) e b).
Proof. exact history_independent. Qed.
Print Assumptions C31_verdict_history_independent.

(** The same for every position of a history. *)
Theorem C31_verdict_history_independent_nth : forall cks ops st n e b,
  nth_error ops n = Some (OAsk e b) ->
  nth_error (p_run cks st ops) n =
  Some (Some (answer cks (set_after cks st (loads_of (firstn n ops))) e b)).
Proof.
  intros cks ops. induction ops as [|o tl IH]; intros st n e b HN.
  - destruct n; discriminate HN.
  - destruct n as [|n].
    + simpl in HN. injection HN as ->. reflexivity.
    + simpl in HN. cbn [p_run nth_error firstn]. rewrite (IH _ _ _ _ HN).
      destruct o as [L|e' b']; reflexivity.
Qed.
Print Assumptions C31_verdict_history_independent_nth.

(** Consequence: a plain submission touching the most recently loaded list is
    rejected at every enforcement point whatever was loaded or asked before. *)
Theorem C31_history_blocked_rejected : forall cks st pre L set asks e b,
  parse_list cks L = Some set -> loads_of asks = [] ->
  (e_h e <> 0)%Z -> plain e b = true -> touches cks L e b = true ->
  exists a, last (p_run cks st (pre ++ OLoad L :: asks ++ [OAsk e b])) None = Some a /\
    (active e = true ->
       a_prod a = true /\ (forall base r, In r (a_exec a base) -> r = 0) /\ a_txs a = true) /\
    a_txsimm a = true /\
    (forall base, a_pool a base <> ROk) /\
    (forall base, a_delay a base = RBlocked).
Proof.
  intros cks st pre L set asks e b HP HA H0 PL HT.
  change (pre ++ OLoad L :: asks ++ [OAsk e b]) with (pre ++ (OLoad L :: asks) ++ [OAsk e b]).
  rewrite app_assoc, history_independent, (set_after_last_load cks st pre L set asks HP HA).
  eexists. split; [reflexivity|]. cbn [a_prod a_exec a_txs a_txsimm a_pool a_delay answer].
  destruct (C31_blocked_position_rejected cks L set e b HP H0 PL HT) as (PA & _ & PR & _ & PD).
  destruct (plain_views cks L e b PL) as [E1 _]. rewrite E1 in HT.
  pose proof (exists_touch_hit cks L set _ HP HT) as HH.
  split; [|split; [exact HH|split; [exact PR|exact PD]]].
  intro A. destruct (PA A) as (_ & PP & PE & _). split; [exact PP|]. split; [exact PE|].
  rewrite chk_txs_gate, (active_fork e A). exact HH.
Qed.
Print Assumptions C31_history_blocked_rejected.

(** Its hypotheses are satisfiable: the same body from a clean signer, then from the listed one. *)
Theorem C31_history_witness :
  parse_list nock wL = Some wset /\ loads_of [OAsk env10 (BSingle tx_clean None)] = [] /\
  (e_h env10 <> 0)%Z /\ plain env10 (BSingle tx_from_X None) = true /\
  touches nock wL env10 (BSingle tx_from_X None) = true /\
  map (option_map a_imm) (p_run nock [] (w_hist ++ [OAsk env10 (BSingle tx_from_X None)])) =
    [None; Some [false]; None; Some [false]; Some [true]] /\
  map (option_map (fun a => a_pool a ROk)) (p_run nock [] (w_hist ++ [OAsk env10 (BSingle tx_from_X None)])) =
    [None; Some ROk; None; Some ROk; Some RBlocked].
Proof.
  split; [exact wL_parses|]. split; [reflexivity|]. split; [discriminate|]. vm_compute. repeat split.
Qed.
Print Assumptions C31_history_witness.
