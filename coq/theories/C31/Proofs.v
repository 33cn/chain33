(** C31 — proofs: hex and base58 spellings, from the configured list to the
    parsed set, the core check covers every position.  The enforcement points
    are in ProofsMain.v, refutations in ProofsRefute.v. *)
From Coq Require Import List ZArith NArith Bool Lia.
From C33 Require Import Lib.Harness C31.Model C31.Spec.
Import ListNotations.
Open Scope N_scope.

Definition small_codes : list N := map N.of_nat (seq 0 128).

Lemma small_codes_all :
  forallb (fun c => option_eqb N.eqb (hex_val (lower c)) (hex_val c)) small_codes = true.
Proof. vm_compute. reflexivity. Qed.

Lemma option_eqb_N_eq (a b : option N) : option_eqb N.eqb a b = true -> a = b.
Proof.
  destruct a, b; simpl; intro E; try discriminate; try reflexivity.
  apply N.eqb_eq in E. congruence.
Qed.

Lemma hex_val_lower c : hex_val (lower c) = hex_val c.
Proof.
  destruct (N.ltb_spec c 128) as [Hlt|Hge].
  - apply option_eqb_N_eq.
    pose proof small_codes_all as A. rewrite forallb_forall in A. apply A.
    unfold small_codes. apply in_map_iff. exists (N.to_nat c). split.
    + apply N2Nat.id.
    + apply in_seq. lia.
  - unfold lower.
    replace ((65 <=? c) && (c <=? 90)) with false; [reflexivity|].
    symmetry. apply andb_false_iff. right. apply N.leb_gt. lia.
Qed.

Lemma hex_decode_lower : forall s, hex_decode (map lower s) = hex_decode s.
Proof.
  fix IH 1. intros [|a [|b tl]]; [reflexivity|reflexivity|].
  cbn [map hex_decode]. rewrite !hex_val_lower, (IH tl). reflexivity.
Qed.

Lemma eth_len s : is_eth_address s = true -> len (strip0x s) = 40.
Proof.
  unfold is_eth_address. intro E. apply andb_true_iff in E as [E _]. apply N.eqb_eq in E. exact E.
Qed.

Lemma from_hex_eth s : is_eth_address s = true -> from_hex s = hex_decode (strip0x s).
Proof.
  intro E. pose proof (eth_len s E) as L40.
  destruct s as [|a [|b tl]].
  - vm_compute in L40. discriminate.
  - vm_compute in L40. discriminate.
  - unfold from_hex. cbv zeta. rewrite L40. reflexivity.
Qed.

Lemma parse_eth cks s :
  is_eth_address s = true -> parse_blocked cks s = hex_decode (norm_eth s).
Proof.
  intro E. unfold parse_blocked. rewrite E, (from_hex_eth s E).
  unfold norm_eth. rewrite hex_decode_lower. reflexivity.
Qed.

Lemma hex_val_some c : is_hex_char c = true -> exists v, hex_val c = Some v.
Proof.
  unfold is_hex_char, hex_val. intro E.
  destruct (is_digit c); [eexists; reflexivity|].
  destruct (is_lhex c); [eexists; reflexivity|].
  destruct (is_uhex c); [eexists; reflexivity|discriminate].
Qed.

Lemma hex_decode_total : forall (n : nat) s,
  length s = (2 * n)%nat -> forallb is_hex_char s = true ->
  exists r, hex_decode s = Some r /\ length r = n.
Proof.
  induction n as [|n IH]; intros s L F.
  - destruct s; [|discriminate]. exists []. split; reflexivity.
  - destruct s as [|a [|b tl]]; try discriminate.
    { simpl in L. lia. }
    simpl in F. apply andb_true_iff in F as [Fa F]. apply andb_true_iff in F as [Fb F].
    destruct (hex_val_some a Fa) as [x Hx]. destruct (hex_val_some b Fb) as [y Hy].
    assert (L' : length tl = (2 * n)%nat) by (simpl in L; lia).
    destruct (IH tl L' F) as (r & Hr & Lr).
    exists (16 * x + y :: r). cbn [hex_decode]. rewrite Hx, Hy, Hr. split; [reflexivity|simpl; lia].
Qed.

(** the spelling clause *)
Lemma spelling cks a b : same_account a b = true -> parse_blocked cks a = parse_blocked cks b.
Proof.
  unfold same_account. destruct (is_eth_address a && is_eth_address b) eqn:E.
  - apply andb_true_iff in E as [Ea Eb]. intro Hn. apply bytes_eqb_eq in Hn.
    rewrite (parse_eth cks a Ea), (parse_eth cks b Eb), Hn. reflexivity.
  - intro Hn. apply bytes_eqb_eq in Hn. subst. reflexivity.
Qed.

Lemma len_length (l : list N) (n : nat) : len l = N.of_nat n -> length l = n.
Proof. unfold len. intro E. apply Nat2N.inj in E. exact E. Qed.

(* NewBtcAddress on a decoding of 25 bytes *)
Lemma btc_parse_25 cks s v rest :
  b58_decode s = v :: rest -> length rest = 24%nat ->
  btc_parse cks s =
  if bytes_eqb (cks (v :: firstn 20 rest)) (skipn 20 rest) then Some (firstn 20 rest) else None.
Proof. intros D L. unfold btc_parse, len. rewrite D. cbn [length]. rewrite L. reflexivity. Qed.

(** accepted base58 strings: 25 decoded bytes = version byte (any), the key,
    the first four bytes of the double SHA-256 of version ++ key *)
Lemma base58_accepted cks s raw :
  is_eth_address s = false ->
  (parse_blocked cks s = Some raw <->
   exists v, b58_decode s = v :: raw ++ cks (v :: raw) /\ len raw = 20 /\ len (cks (v :: raw)) = 4).
Proof.
  intro NE. unfold parse_blocked. rewrite NE. split.
  - intro P.
    assert (L25 : len (b58_decode s) = 25).
    { unfold btc_parse in P.
      destruct (len (b58_decode s) =? 25) eqn:E; [apply N.eqb_eq; exact E|discriminate]. }
    apply (len_length _ 25%nat) in L25.
    destruct (b58_decode s) as [|v rest] eqn:D; [discriminate|].
    assert (L24 : length rest = 24%nat) by (simpl in L25; lia).
    rewrite (btc_parse_25 cks s v rest D L24) in P.
    destruct (bytes_eqb (cks (v :: firstn 20 rest)) (skipn 20 rest)) eqn:CK; [|discriminate].
    apply bytes_eqb_eq in CK. assert (ER : raw = firstn 20 rest) by congruence. subst raw.
    exists v. rewrite CK, firstn_skipn.
    unfold len. rewrite firstn_length, skipn_length, L24. repeat split.
  - intros (v & D & L20 & L4).
    apply (len_length _ 20%nat) in L20. apply (len_length _ 4%nat) in L4.
    rewrite (btc_parse_25 cks s v _ D) by (rewrite app_length, L20, L4; reflexivity).
    rewrite <- L20, firstn_app, skipn_app, Nat.sub_diag, firstn_all, skipn_all.
    cbn [firstn skipn app]. rewrite app_nil_r, bytes_eqb_refl. reflexivity.
Qed.

Lemma in_not_nil {A} (x : A) l : In x l -> is_nil l = false.
Proof. destruct l; [intros []|reflexivity]. Qed.

Lemma blocked_raw_iff (set : list bytes) (raw : bytes) :
  is_blocked_raw set raw = true <-> len raw = 20 /\ In raw set.
Proof.
  unfold is_blocked_raw, mem_raw. rewrite !andb_true_iff, N.eqb_eq, existsb_exists. split.
  - intros [[L20 _] (x & HI & HE)]. apply bytes_eqb_eq in HE. subst x. split; assumption.
  - intros [L20 HI]. rewrite (in_not_nil raw set HI). repeat split; [exact L20|].
    exists raw. split; [exact HI|apply bytes_eqb_refl].
Qed.

(* the emptiness test of IsBlockedAccount is repeated by IsBlockedAccountRaw *)
Lemma is_blocked_parse cks set s :
  is_blocked cks set s =
  match parse_blocked cks s with Some raw => is_blocked_raw set raw | None => false end.
Proof.
  unfold is_blocked, is_blocked_raw. destruct (is_nil set); [|reflexivity].
  destruct (parse_blocked cks s); [cbn [negb]; rewrite andb_false_r|]; reflexivity.
Qed.

Lemma parse_list_in cks : forall L set l,
  parse_list cks L = Some set -> In l L ->
  exists raw, parse_blocked cks l = Some raw /\ is_blocked_raw set raw = true.
Proof.
  induction L as [|a tl IH]; intros set l HP HI; [destruct HI|].
  cbn [parse_list] in HP.
  destruct (parse_blocked cks a) as [raw|] eqn:Pa; [|discriminate].
  destruct (len raw =? 20) eqn:L20; [|discriminate].
  destruct (parse_list cks tl) as [r|] eqn:Pt; [|discriminate].
  injection HP as <-. destruct HI as [->|HI].
  - exists raw. split; [exact Pa|]. apply blocked_raw_iff. split; [apply N.eqb_eq; exact L20|left; reflexivity].
  - destruct (IH r l eq_refl HI) as (raw' & P1 & B). apply blocked_raw_iff in B as [P2 P3].
    exists raw'. split; [exact P1|]. apply blocked_raw_iff. split; [exact P2|right; exact P3].
Qed.

Lemma listed_blocked cks L set s :
  parse_list cks L = Some set -> listed L s = true -> is_blocked cks set s = true.
Proof.
  intros HP HL. unfold listed in HL. apply existsb_exists in HL as (l & HI & HS).
  destruct (parse_list_in cks L set l HP HI) as (raw & P & B).
  rewrite is_blocked_parse, (spelling cks s l HS), P. exact B.
Qed.

Lemma raw_listed_blocked cks L set raw :
  parse_list cks L = Some set -> raw_listed cks L raw = true -> is_blocked_raw set raw = true.
Proof.
  intros HP HL. unfold raw_listed in HL. apply existsb_exists in HL as (l & HI & HS).
  destruct (parse_list_in cks L set l HP HI) as (raw' & P & B).
  rewrite P in HS. simpl in HS. apply bytes_eqb_eq in HS. subst raw'. exact B.
Qed.

(* the empty contract address never parses, so the guard of checkEVMTxBlockedTarget drops out *)
Lemma evm_target_hit cks set t :
  match evm_target cks set t with Some _ => true | None => false end =
  is_evm t &&
  match t_evm t with
  | Some (ca, para) => is_blocked cks set ca || is_blocked_raw set para
  | None => false
  end.
Proof.
  unfold evm_target. destruct (is_evm t); [|reflexivity].
  destruct (t_evm t) as [[[|c ca] para]|]; [| |reflexivity]; cbn [negb is_nil andb orb].
  - rewrite is_blocked_parse. change (parse_blocked cks []) with (@None bytes).
    destruct (is_blocked_raw set para); reflexivity.
  - destruct (is_blocked cks set (c :: ca)); [reflexivity|].
    destruct (is_blocked_raw set para); reflexivity.
Qed.

(* The first position that hits, read as "some position hits"; the test
   realto <> to of checkTxBlockedAccountCore only saves a lookup. *)
Lemma hit_positions cks set t :
  hit cks set t =
  is_blocked cks set (t_from t) || is_blocked cks set (t_to t) || is_blocked cks set (t_realto t) ||
  (is_evm t &&
   match t_evm t with
   | Some (ca, para) => is_blocked cks set ca || is_blocked_raw set para
   | None => false
   end).
Proof.
  unfold hit, core.
  destruct (is_nil set) eqn:NS.
  { unfold is_blocked, is_blocked_raw. rewrite NS.
    destruct (is_evm t); [destruct (t_evm t) as [[ca para]|]|];
      cbn [negb]; rewrite ?andb_false_r; reflexivity. }
  rewrite <- evm_target_hit.
  destruct (is_blocked cks set (t_from t)); [reflexivity|].
  destruct (is_blocked cks set (t_to t)) eqn:BT; [reflexivity|].
  destruct (bytes_eqb (t_realto t) (t_to t)) eqn:RT.
  - apply bytes_eqb_eq in RT. rewrite RT, BT. reflexivity.
  - destruct (is_blocked cks set (t_realto t)); reflexivity.
Qed.

(** a transaction that touches the list is hit by the core check *)
Lemma touches_hit cks L set t :
  parse_list cks L = Some set -> tx_touches cks L t = true -> hit cks set t = true.
Proof.
  intros HP HT. rewrite hit_positions. unfold tx_touches in HT.
  pose proof (listed_blocked cks L set) as LB.
  apply orb_true_iff in HT as [HT|HT].
  - apply orb_true_iff in HT as [HT|HT]; [apply orb_true_iff in HT as [HT|HT]|];
      rewrite (LB _ HP HT), ?orb_true_r; reflexivity.
  - apply andb_true_iff in HT as [-> HT]. destruct (t_evm t) as [[ca para]|]; [|discriminate].
    apply orb_true_iff in HT as [HT|HT];
      [rewrite (LB _ HP HT)|rewrite (raw_listed_blocked cks L set para HP HT)];
      rewrite ?orb_true_r; reflexivity.
Qed.

(** ** the views of the statements *)

(* what the executor looks at *)
Definition exec_view_touches cks L e (b : bundle) : bool :=
  match b with
  | BSingle t inner =>
      if is_proxy e t then match inner with Some i => tx_touches cks L i | None => false end
      else tx_touches cks L t
  | BGroup ts => existsb (tx_touches cks L) ts
  end.

(** the plain case: a group, or a single transaction that is not a proxy-exec call *)
Definition plain (e : env) (b : bundle) : bool :=
  match b with
  | BSingle t _ => negb (is_proxy e t)
  | BGroup _ => true
  end.
