(** C31 — the enforcement points: each one is the gate (or no gate) in front of
    the core check over the transactions it looks at. *)
From Coq Require Import List ZArith NArith Bool.
From C33 Require Import Lib.Harness C31.Model C31.Spec C31.Proofs.
Import ListNotations.
Open Scope N_scope.

Lemma chk_txs_gate cks set H h ts :
  chk_txs cks set H h ts = is_fork H h && existsb (hit cks set) ts.
Proof.
  unfold chk_txs, chk_tx. destruct (is_fork H h); [reflexivity|].
  induction ts as [|t tl IH]; [reflexivity|exact IH].
Qed.

Lemma prod_rejects_members cks set e b :
  prod_rejects cks set e b = chk_txs cks set (e_H e) (e_h e) (members b).
Proof. destruct b as [t inner|ts]; [symmetry; apply orb_false_r|reflexivity]. Qed.

(* the delay entry points look at the transaction itself and at every member of its group *)
Lemma delay_rejects_members cks set b :
  delay_rejects cks set b = chk_txs_imm cks set (members b).
Proof.
  unfold delay_rejects, chk_txs_imm. destruct b as [t inner|[|t tl]]; simpl.
  - reflexivity.
  - reflexivity.
  - destruct (chk_imm cks set t); reflexivity.
Qed.

(** ** a gated check that never fires: executor and producer behave as without a blacklist
    (below the activation height; with an empty set) *)
Lemma never_checked cks set e :
  (forall t, chk_tx cks set (e_H e) (e_h e) t = false) ->
  forall b, exec_rejects cks set e b = false /\ prod_rejects cks set e b = false.
Proof.
  intros N b.
  assert (NS : forall ts, chk_txs cks set (e_H e) (e_h e) ts = false).
  { induction ts as [|t tl IH]; [reflexivity|]. unfold chk_txs. cbn [existsb]. rewrite N. exact IH. }
  rewrite prod_rejects_members, NS. split; [|reflexivity].
  destruct b as [t inner|ts]; [|apply NS]. unfold exec_rejects.
  destruct (e_h e =? 0)%Z; [reflexivity|].
  destruct (is_proxy e t); [destruct inner as [i|]; [apply N|reflexivity]|apply N].
Qed.

Lemma never_checked_no_effect cks set e :
  (forall t, chk_tx cks set (e_H e) (e_h e) t = false) ->
  (forall b base, exec_receipts cks set e b base = base) /\
  (forall bs, prod_out cks set e bs = bs).
Proof.
  intro N. pose proof (never_checked cks set e N) as NR. split.
  - intros b base. unfold exec_receipts. rewrite (proj1 (NR b)). reflexivity.
  - unfold prod_out. induction bs as [|b tl IH]; [reflexivity|].
    cbn [filter]. rewrite (proj2 (NR b)), IH. reflexivity.
Qed.

Lemma inactive_chk cks set H h t : is_fork H h = false -> chk_tx cks set H h t = false.
Proof. unfold chk_tx. intros ->. reflexivity. Qed.

Lemma empty_chk cks H h t : chk_tx cks [] H h t = false.
Proof. apply andb_false_r. Qed.

(** an empty blacklist changes nothing anywhere *)
Lemma empty_no_effect :
  forall cks e b base,
    exec_receipts cks [] e b base = base /\ prod_rejects cks [] e b = false /\
    delay_rejects cks [] b = false.
Proof.
  intros cks e b base.
  split; [apply (never_checked_no_effect cks [] e (empty_chk cks _ _))|].
  split; [apply (never_checked cks [] e (empty_chk cks _ _))|].
  rewrite delay_rejects_members. unfold chk_txs_imm.
  induction (members b) as [|t tl IH]; [reflexivity|exact IH].
Qed.

(** ** every enforcement point rejects what it looks at *)
Lemma active_fork e : active e = true -> is_fork (e_H e) (e_h e) = true.
Proof. unfold active, is_fork. intro A. rewrite A. apply orb_true_r. Qed.

Lemma exists_touch_hit cks L set ts :
  parse_list cks L = Some set -> existsb (tx_touches cks L) ts = true -> existsb (hit cks set) ts = true.
Proof.
  intros HP HE. apply existsb_exists in HE as (t & HI & HT).
  apply existsb_exists. exists t. split; [exact HI|exact (touches_hit cks L set t HP HT)].
Qed.

Lemma exec_rejects_view cks L set e b :
  parse_list cks L = Some set -> (e_h e <> 0)%Z -> active e = true ->
  exec_view_touches cks L e b = true -> exec_rejects cks set e b = true.
Proof.
  intros HP H0 A HT. pose proof (active_fork e A) as F.
  unfold exec_rejects. destruct b as [t inner|ts]; simpl in HT.
  - apply Z.eqb_neq in H0. rewrite H0. unfold chk_tx. rewrite F.
    destruct (is_proxy e t); [destruct inner as [i|]; [|discriminate]|];
      exact (touches_hit cks L set _ HP HT).
  - rewrite chk_txs_gate, F. exact (exists_touch_hit cks L set ts HP HT).
Qed.

Lemma exec_receipts_err cks set e b base :
  exec_rejects cks set e b = true -> forall r, In r (exec_receipts cks set e b base) -> r = 0.
Proof.
  intros R r HI. unfold exec_receipts in HI. rewrite R in HI.
  apply in_map_iff in HI as (x & <- & _). reflexivity.
Qed.

Lemma prod_rejects_outer cks L set e b :
  parse_list cks L = Some set -> active e = true ->
  outer_touches cks L b = true -> prod_rejects cks set e b = true.
Proof.
  intros HP A HT. rewrite prod_rejects_members, chk_txs_gate, (active_fork e A).
  exact (exists_touch_hit cks L set _ HP HT).
Qed.

Lemma prod_out_excludes cks set e b bs :
  prod_rejects cks set e b = true -> ~ In b (prod_out cks set e bs).
Proof.
  intros R HI. unfold prod_out in HI. apply filter_In in HI as [_ HI].
  rewrite R in HI. discriminate.
Qed.

Lemma pool_members_rejects cks set ts base :
  existsb (hit cks set) ts = true -> pool_members cks set ts base <> ROk.
Proof.
  induction ts as [|t tl IH]; simpl; [discriminate|].
  intro HE. destruct (negb (t_tovalid t)); [discriminate|].
  unfold chk_imm. destruct (hit cks set t); [discriminate|].
  simpl in HE. apply IH. exact HE.
Qed.

Lemma pool_reply_never_ok cks L set b base :
  parse_list cks L = Some set -> outer_touches cks L b = true -> pool_reply cks set b base <> ROk.
Proof.
  intros HP HT. apply pool_members_rejects. exact (exists_touch_hit cks L set _ HP HT).
Qed.

Lemma pool_rejects_outer cks L set b :
  parse_list cks L = Some set -> outer_touches cks L b = true -> pool_rejects cks set b = true.
Proof.
  intros HP HT. pose proof (pool_reply_never_ok cks L set b ROk HP HT) as NE.
  unfold pool_rejects. destruct (pool_reply cks set b ROk); [contradiction|reflexivity|reflexivity].
Qed.

Lemma delay_rejects_outer cks L set b :
  parse_list cks L = Some set -> outer_touches cks L b = true -> delay_rejects cks set b = true.
Proof.
  intros HP HT. rewrite delay_rejects_members. exact (exists_touch_hit cks L set _ HP HT).
Qed.

Lemma delay_reply_blocked cks set b base :
  delay_rejects cks set b = true -> delay_reply cks set b base = RBlocked.
Proof. unfold delay_reply. intros ->. reflexivity. Qed.

(** ** plain submissions: every point looks at all there is *)
Lemma plain_views cks L e b :
  plain e b = true -> touches cks L e b = outer_touches cks L b /\
                      exec_view_touches cks L e b = outer_touches cks L b.
Proof.
  unfold plain, touches, inner_touches, inner_of, exec_view_touches, outer_touches.
  destruct b as [t inner|ts]; simpl.
  - intro P. apply negb_true_iff in P. rewrite P.
    destruct inner; rewrite !orb_false_r; split; reflexivity.
  - intros _. rewrite orb_false_r. split; reflexivity.
Qed.
