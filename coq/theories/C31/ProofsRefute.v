(** C31 — full-strength statements, their refutations (witnesses reproduced on
    the Go code by the harness streams w-proxy-inner, w-proxy-outer) and
    non-vacuity examples. *)
From Coq Require Import List ZArith NArith Bool String.
From C33 Require Import Lib.Harness C31.Model C31.Spec C31.Proofs C31.ProofsMain.
Import ListNotations.
Open Scope N_scope.

(** full strength: a submission that touches the blacklist anywhere (members,
    or the inner transaction of a proxied one) is rejected by every
    enforcement point (the consensus-level ones from the activation height) *)
Definition C31_blocked_position_rejected_full : Prop :=
  forall cks L set e b,
    parse_list cks L = Some set -> (e_h e <> 0)%Z -> touches cks L e b = true ->
    (active e = true -> exec_rejects cks set e b = true /\ prod_rejects cks set e b = true) /\
    pool_rejects cks set b = true /\ delay_rejects cks set b = true.

Definition C31_pool_rejects_at_every_height_full : Prop :=
  forall cks L set e b,
    parse_list cks L = Some set -> touches cks L e b = true -> pool_rejects cks set b = true.

Definition C31_executor_rejects_full : Prop :=
  forall cks L set e b,
    parse_list cks L = Some set -> (e_h e <> 0)%Z -> active e = true ->
    touches cks L e b = true -> exec_rejects cks set e b = true.

(** witnesses (hex addresses only, so the checksum function is irrelevant) *)
Definition nock : bytes -> bytes := fun _ => [].
Definition aX : str := bs "0x1111111111111111111111111111111111111111"%string.  (* blacklisted *)
Definition aXup : str := bs "0X1111111111111111111111111111111111111111"%string.
Definition aA : str := bs "0x2222222222222222222222222222222222222222"%string.  (* sender *)
Definition aC : str := bs "0x3333333333333333333333333333333333333333"%string.  (* clean recipient *)
Definition aP : str := bs "0x0000000000000000000000000000000000200005"%string.  (* proxy-exec address *)
Definition aN : str := bs "1Nq1qeMGFAWHXRRLZKLr8RDjHc4Ab9sG4T"%string.           (* an exec address *)
Definition env10 : env := mkEnv 10 0 aP 10.
Definition env9 : env := mkEnv 10 0 aP 9.
Definition wL : list str := [aXup].

Definition tx_to_X : txf := mkTx aA aX aX (bs "coins"%string) None false true.
Definition tx_clean : txf := mkTx aA aC aC (bs "coins"%string) None false true.
Definition tx_none : txf := mkTx aA aN aN (bs "none"%string) None false true.
(* proxied: outer to the proxy address with an eth-style signature, inner pays the blacklisted account *)
Definition outer_clean : txf := mkTx aA aP aP (bs "evm"%string) (Some (aP, [10; 3; 1; 2; 3])) true true.
Definition w_proxy_inner : bundle := BSingle outer_clean (Some (mkTx aA aX aX (bs "coins"%string) None true true)).
(* proxied: outer names the blacklisted account as contract address, inner is clean *)
Definition outer_X : txf := mkTx aA aP aP (bs "evm"%string) (Some (aX, [10; 3; 1; 2; 3])) true true.
Definition w_proxy_outer : bundle := BSingle outer_X (Some (mkTx aA aC aC (bs "coins"%string) None true true)).
(* group whose second member pays the blacklisted account *)
Definition w_group : bundle := BGroup [tx_none; tx_to_X].

Definition wset : list bytes := [hx "1111111111111111111111111111111111111111"].

Lemma wL_parses : parse_list nock wL = Some wset.
Proof. vm_compute. reflexivity. Qed.

(* under [nock] no base58 string is accepted: its four checksum bytes would be none *)
Lemma nock_no_base58 s : is_eth_address s = false -> parse_blocked nock s = None.
Proof.
  intro E. destruct (parse_blocked nock s) as [raw|] eqn:P; [|reflexivity].
  apply (base58_accepted nock s raw E) in P as (v & _ & _ & L4). discriminate L4.
Qed.

(** the proxied payment to the listed account touches the list, yet pool and
    delay entry let it pass, at every height *)
Lemma proxy_inner_passes :
  touches nock wL env9 w_proxy_inner = true /\
  pool_rejects nock wset w_proxy_inner = false /\ delay_rejects nock wset w_proxy_inner = false.
Proof. vm_compute. repeat split; reflexivity. Qed.

Lemma pool_full_refuted : ~ C31_pool_rejects_at_every_height_full.
Proof.
  intro F. destruct proxy_inner_passes as (T & P & _).
  rewrite (F nock wL wset env9 w_proxy_inner wL_parses T) in P. discriminate P.
Qed.

Lemma position_full_refuted : ~ C31_blocked_position_rejected_full.
Proof.
  intro F. destruct proxy_inner_passes as (T & P & _).
  destruct (F nock wL wset env9 w_proxy_inner wL_parses ltac:(discriminate) T) as (_ & R & _).
  rewrite R in P. discriminate P.
Qed.

Lemma proxy_outer_executes :
  touches nock wL env10 w_proxy_outer = true /\ exec_rejects nock wset env10 w_proxy_outer = false.
Proof. vm_compute. split; reflexivity. Qed.

Lemma executor_full_refuted : ~ C31_executor_rejects_full.
Proof.
  intro F. destruct proxy_outer_executes as (T & R).
  rewrite (F nock wL wset env10 w_proxy_outer wL_parses ltac:(discriminate) eq_refl T) in R.
  discriminate R.
Qed.

(** non-vacuity: the hypotheses of the positive theorems are satisfiable *)
Example ex_spelling : same_account aX aXup = true /\ aX <> aXup.
Proof. split; [vm_compute; reflexivity|discriminate]. Qed.

Example ex_plain_single :
  parse_list nock wL = Some wset /\ plain env10 (BSingle tx_to_X None) = true /\
  touches nock wL env10 (BSingle tx_to_X None) = true /\ active env10 = true /\ (e_h env10 <> 0)%Z.
Proof. split; [exact wL_parses|]. vm_compute. repeat split. discriminate. Qed.

(* the group whose second member alone touches the list: every point looks at it,
   the delay entry points included (checkDelayTxBlocked expands the group) *)
Example ex_group_view :
  exec_view_touches nock wL env10 w_group = true /\ outer_touches nock wL w_group = true /\
  hit nock wset tx_none = false /\ delay_rejects nock wset w_group = true /\
  delay_reply nock wset w_group ROk = RBlocked.
Proof.
  assert (OT : outer_touches nock wL w_group = true) by (vm_compute; reflexivity).
  pose proof (delay_rejects_outer nock wL wset w_group wL_parses OT) as R.
  split; [rewrite (proj2 (plain_views nock wL env10 w_group eq_refl)); exact OT|]. split; [exact OT|]. split; [|split; [exact R|apply delay_reply_blocked, R]].
  (* the base58 recipient is not decoded *)
  rewrite hit_positions. cbn [tx_none t_from t_to t_realto].
  rewrite !(is_blocked_parse nock wset aN), (nock_no_base58 aN eq_refl). vm_compute. reflexivity.
Qed.

Example ex_proxy_view :
  is_proxy env10 outer_clean = true /\ exec_view_touches nock wL env10 w_proxy_inner = true /\
  outer_touches nock wL w_proxy_inner = false.
Proof. vm_compute. repeat split; reflexivity. Qed.

Example ex_inactive : is_fork (e_H env9) (e_h env9) = false /\ hit nock wset tx_to_X = true.
Proof. vm_compute. split; reflexivity. Qed.

Example ex_evm_para :
  tx_touches nock wL (mkTx aA aN aN (bs "user.p.para.evm"%string)
                        (Some (aN, hx "1111111111111111111111111111111111111111")) false true) = true.
Proof. vm_compute. reflexivity. Qed.

(* height 0, where execTx runs single transactions without checkTx (genesis path) *)
Definition env0 : env := mkEnv 0 0 aP 0.
