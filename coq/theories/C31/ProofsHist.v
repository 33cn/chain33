(** C31 — histories of checks in one process: every answer is the pure
    function of the transaction facts, the set left by the loads before it,
    the fork configuration and the height; the checks asked before it do not
    matter. *)
From Coq Require Import List ZArith NArith Bool String.
From C33 Require Import Lib.Harness C31.Model C31.Spec C31.Proofs C31.ProofsMain C31.ProofsRefute.
Import ListNotations.
Open Scope N_scope.

Lemma set_after_cons : forall cks st L Ls,
  set_after cks st (L :: Ls) = set_after cks (p_load cks st L) Ls.
Proof. reflexivity. Qed.

(* all that a history leaves behind is the set of its loads *)
Lemma p_run_app cks : forall pre st ops,
  p_run cks st (pre ++ ops) =
  p_run cks st pre ++ p_run cks (set_after cks st (loads_of pre)) ops.
Proof.
  induction pre as [|o tl IH]; intros st ops; [reflexivity|].
  cbn [app p_run]. rewrite IH. destruct o; reflexivity.
Qed.

(** the last answer of a history that ends with a question *)
Lemma history_independent :
  forall cks pre st e b,
    last (p_run cks st (pre ++ [OAsk e b])) None =
    Some (answer cks (set_after cks st (loads_of pre)) e b).
Proof. intros cks pre st e b. rewrite p_run_app. apply last_last. Qed.

(** two histories with the same loads give the same answer to the same question *)
Lemma history_same_loads :
  forall cks pre1 pre2 st e b,
    loads_of pre1 = loads_of pre2 ->
    last (p_run cks st (pre1 ++ [OAsk e b])) None = last (p_run cks st (pre2 ++ [OAsk e b])) None.
Proof. intros cks pre1 pre2 st e b E. rewrite !history_independent, E. reflexivity. Qed.

Lemma loads_of_app : forall a b, loads_of (a ++ b) = loads_of a ++ loads_of b.
Proof.
  intros a b. induction a as [|o tl IH]; [reflexivity|].
  destruct o; simpl; rewrite IH; reflexivity.
Qed.

(* the set after a history whose last load is a list that parses *)
Lemma set_after_last_load cks st pre L set asks :
  parse_list cks L = Some set -> loads_of asks = [] ->
  set_after cks st (loads_of (pre ++ OLoad L :: asks)) = set.
Proof.
  intros HP HA. rewrite loads_of_app. cbn [loads_of]. rewrite HA.
  unfold set_after. rewrite fold_left_app. cbn [fold_left]. unfold p_load at 1. rewrite HP. reflexivity.
Qed.

(** non-vacuity: the same body signed by a clean account, then by the listed account *)
Definition tx_from_X : txf := mkTx aX aC aC (bs "coins"%string) None false true.
Definition w_hist : list pop :=
  [OLoad []; OAsk env10 (BSingle tx_from_X None); OLoad wL; OAsk env10 (BSingle tx_clean None)].
