(** C34 — buildPendBlock's two loops: a build that succeeds leaves no nil
    slot; the loops on a block made of units (single transactions and groups),
    some of them already filled. *)
From Coq Require Import List ZArith NArith Bool Lia.
From C33 Require Import C33.Model C33.ProofsBase C34.Model C34.Spec.
Import ListNotations.
Open Scope Z_scope.

Definition no_nil (txs : list (option txid)) : Prop := forall j, nth_error txs j <> Some None.

(** a block handed to the blockchain module has no nil slot *)
Definition whole (x : eff) : Prop :=
  match x with Post _ blk => no_nil (b_txs blk) | _ => True end.

(** the second loop only fills slots, and it reports success only if it was
    handed [true] and every slot it was asked for is filled at the end *)
Lemma fill_true : forall p nd txs ok txs' ok',
  fill p nd txs ok = Ok (txs', ok') ->
  nil_mono txs' txs
  /\ (ok' = true -> ok = true /\ forall ih, In ih nd -> nth_error txs' (fst ih) <> Some None).
Proof.
  induction nd as [|[i h] nd IH]; intros txs ok txs' ok' H; cbn [fill] in H.
  { injection H as <- <-. split; [intros j Hj; exact Hj|]. intros T. split; [exact T|intros ih []]. }
  destruct (nth_error txs i) as [[t|]|] eqn:En; [| |discriminate].
  - destruct (IH _ _ _ _ H) as [M O]. split; [exact M|]. intros T. destruct (O T) as [T' A].
    split; [exact T'|]. intros ih [<-|Hin]; [|exact (A ih Hin)]. intros C. apply M in C. cbn [fst] in C. rewrite En in C. discriminate C.
  - assert (Miss : fill p nd txs false = Ok (txs', ok') ->
                   nil_mono txs' txs
                   /\ (ok' = true -> ok = true /\ forall ih, In ih ((i, h) :: nd) -> nth_error txs' (fst ih) <> Some None)).
    { intros H'. destruct (IH _ _ _ _ H') as [M O]. split; [exact M|]. intros T. destruct (O T) as [T' _]. discriminate T'. }
    destruct (pool_get h p) as [e|]; [|exact (Miss H)].
    destruct (length txs <? i + length (members e))%nat; [exact (Miss H)|].
    destruct (set_nth txs i (Some (px_id e))) as [t1|] eqn:E1; [|discriminate].
    pose proof (put_members_spec (members e) t1 i) as P.
    destruct (put_members t1 i (members e)) as [t2| |]; try discriminate. destruct P as [_ M2].
    destruct (IH _ _ _ _ H) as [M O].
    assert (M1 : nil_mono txs' t1) by (intros j Hj; apply M2, M, Hj).
    split; [intros j Hj; exact (set_nth_nil_mono _ _ _ _ _ E1 (M1 j Hj))|].
    intros T. destruct (O T) as [T' A]. split; [exact T'|]. intros ih [<-|Hin]; [|exact (A ih Hin)].
    intros C. apply M1 in C. cbn [fst] in C. rewrite (set_nth_same _ _ _ _ _ E1) in C. discriminate C.
Qed.

(** the first loop lists every nil slot *)
Lemma need_from_complete : forall txs i shs nd,
  need_from i txs shs = Ok nd ->
  forall j, nth_error txs j = Some None -> exists h, In ((i + j)%nat, h) nd.
Proof.
  induction txs as [|[t|] txs IH]; intros i shs nd H j Hj; cbn [need_from] in H.
  - destruct j; discriminate.
  - destruct j as [|j]; simpl in Hj; [discriminate|].
    rewrite <- Nat.add_succ_comm. exact (IH _ _ _ H j Hj).
  - destruct (nth_error shs i) as [h0|]; [|discriminate].
    destruct (need_from (S i) txs shs) as [r| |] eqn:E; try discriminate. injection H as <-.
    destruct j as [|j]; simpl in Hj.
    + exists h0. left. rewrite Nat.add_0_r. reflexivity.
    + rewrite <- Nat.add_succ_comm. destruct (IH _ _ _ E j Hj) as [h Hh]. exists h. right. exact Hh.
Qed.

(** a slot still nil after a successful second loop was nil before, so the
    first loop listed it, so the second loop filled it *)
Lemma build_whole : forall p pd,
  match build p pd with Ok (_, _, e) => Forall whole e | _ => True end.
Proof.
  intros p pd. unfold build. destruct (pd_sh pd) as [|s0 shs'] eqn:Es; [constructor|]. rewrite <- Es.
  destruct (need_from 0 (pd_txs pd) (pd_sh pd)) as [nd| |] eqn:En; [|exact I|exact I].
  destruct (fill p nd (pd_txs pd) true) as [[txs' ok]| |] eqn:Ef; [|exact I|exact I].
  destruct ok; [|constructor]. constructor; [|constructor]. intros j C. simpl in C.
  destruct (fill_true _ _ _ _ _ _ Ef) as [M O].
  destruct (need_from_complete _ _ _ _ En j (M j C)) as [h Hh].
  exact (proj2 (O eq_refl) _ Hh C).
Qed.

Lemma unit_txs_nonempty : forall e, exists t0 us, unit_txs e = t0 :: us.
Proof.
  intros e. unfold unit_txs. destruct (members e) as [|m ms]; eauto.
Qed.

Lemma set_nth_app : forall A (pre : list A) x tl v,
  set_nth (pre ++ x :: tl) (length pre) v = Some (pre ++ v :: tl).
Proof.
  induction pre as [|a pre IH]; intros x tl v; simpl; [reflexivity|]. rewrite IH. reflexivity.
Qed.

Lemma nth_error_app_at : forall A (pre : list A) x tl, nth_error (pre ++ x :: tl) (length pre) = Some x.
Proof. intros. rewrite nth_error_app2 by apply Nat.le_refl. rewrite Nat.sub_diag. reflexivity. Qed.

(** a position inside [mid] *)
Lemma nth_error_mid : forall A (pre mid post : list A) i,
  (length pre <= i < length pre + length mid)%nat ->
  nth_error (pre ++ mid ++ post) i = nth_error mid (i - length pre) /\ nth_error mid (i - length pre) <> None.
Proof.
  intros A pre mid post i H. rewrite nth_error_app2, nth_error_app1 by lia.
  split; [reflexivity|]. apply nth_error_Some. lia.
Qed.

(** writing [ms] over [|ms|] slots that follow [pre] *)
Lemma put_members_at : forall ms (pre slots post : list (option txid)),
  length slots = length ms ->
  put_members (pre ++ slots ++ post) (length pre) ms = Ok (pre ++ map Some ms ++ post).
Proof.
  induction ms as [|m ms IH]; intros pre slots post L; simpl.
  - destruct slots; [reflexivity|discriminate].
  - destruct slots as [|s slots]; [discriminate|]. simpl in L.
    simpl app. rewrite set_nth_app.
    replace (pre ++ Some m :: slots ++ post) with ((pre ++ [Some m]) ++ slots ++ post)
      by (rewrite <- app_assoc; reflexivity).
    replace (S (length pre)) with (length (pre ++ [Some m])) by apply last_length.
    rewrite IH by exact (eq_add_S _ _ L). rewrite <- app_assoc. reflexivity.
Qed.

Lemma fill_skip_filled : forall p es rest txs ok,
  Forall (fun ih => exists t, nth_error txs (fst ih) = Some (Some t)) es ->
  fill p (es ++ rest) txs ok = fill p rest txs ok.
Proof.
  induction es as [|[i h] es IH]; intros rest txs ok F; cbn [app fill]; [reflexivity|].
  destruct (Forall_inv F) as [t Ht]. cbn [fst] in Ht. rewrite Ht. exact (IH _ _ _ (Forall_inv_tail F)).
Qed.

Lemma fill_all_missing : forall p es rest txs ok,
  Forall (fun ih => nth_error txs (fst ih) = Some None /\ pool_get (snd ih) p = None) es ->
  fill p (es ++ rest) txs ok = fill p rest txs (ok && match es with [] => true | _ => false end).
Proof.
  induction es as [|[i h] es IH]; intros rest txs ok F; cbn [app fill].
  - rewrite andb_true_r. reflexivity.
  - destruct (Forall_inv F) as [A B]. cbn [fst snd] in A, B. rewrite A, B.
    rewrite IH by exact (Forall_inv_tail F). rewrite andb_false_r. destruct es; reflexivity.
Qed.

(** Blocks made of units: single transactions and groups, some already filled. *)
Section Units.
Variable shh : txid -> N.     (* short hash of a transaction's hash *)
Variable p : pool.

Definition ulen (e : ptx) : nat := length (unit_txs e).
Definition uhead (e : ptx) : txid := hd 0%N (unit_txs e).

(** the slots of a unit: filled or still nil *)
Definition uslots (ef : ptx * bool) : list (option txid) :=
  if snd ef then map Some (unit_txs (fst ef)) else repeat None (ulen (fst ef)).
Definition slots_of (us : list (ptx * bool)) : list (option txid) := flat_map uslots us.
Definition txs_of (us : list (ptx * bool)) : list txid := flat_map (fun ef => unit_txs (fst ef)) us.

Definition fnd (e : ptx) : bool :=
  match pool_get (shh (uhead e)) p with Some _ => true | None => false end.
Definition upd1 (ef : ptx * bool) : ptx * bool := (fst ef, snd ef || fnd (fst ef)).

(** nil-slot entries of an unfilled unit at offset [o] *)
Definition und (o : nat) (e : ptx) : list (nat * N) :=
  combine (seq o (ulen e)) (map shh (unit_txs e)).
Fixpoint nd_of (o : nat) (us : list (ptx * bool)) : list (nat * N) :=
  match us with
  | [] => []
  | ef :: tl => (if snd ef then [] else und o (fst ef)) ++ nd_of (o + ulen (fst ef)) tl
  end.

(** what the pool may answer for an unfilled unit: under the head's short hash
    the unit's own pool-level transaction or nothing; nothing under the other
    members' short hashes *)
Definition honest1 (ef : ptx * bool) : Prop :=
  snd ef = false ->
  pool_get (shh (uhead (fst ef))) p = Some (fst ef)
  \/ (pool_get (shh (uhead (fst ef))) p = None
      /\ Forall (fun m => pool_get (shh m) p = None) (tl (unit_txs (fst ef)))).

Lemma slots_len : forall ef, length (uslots ef) = ulen (fst ef).
Proof.
  intros [e f]. unfold uslots, ulen. simpl. destruct f; [apply map_length|apply repeat_length].
Qed.

(** the entries of a unit point into its slots and carry its short hashes *)
Lemma und_in : forall o e i h,
  In (i, h) (und o e) -> (o <= i < o + ulen e)%nat /\ exists t, In t (unit_txs e) /\ h = shh t.
Proof.
  intros o e i h Hin. unfold und in Hin. split.
  - apply in_combine_l, in_seq in Hin. exact Hin.
  - apply in_combine_r, in_map_iff in Hin as [t [Et Ht]]. eauto.
Qed.

(** the unit's pool-level transaction stored over the unit's nil slots: it
    fits, and the slots become the unit's transactions *)
Lemma write_unit : forall e (pre post : list (option txid)),
  (length (pre ++ repeat None (ulen e) ++ post) <? length pre + length (members e))%nat = false
  /\ exists t1, set_nth (pre ++ repeat None (ulen e) ++ post) (length pre) (Some (px_id e)) = Some t1
      /\ put_members t1 (length pre) (members e) = Ok (pre ++ map Some (unit_txs e) ++ post).
Proof.
  intros e pre post. unfold ulen, unit_txs.
  destruct (members e) as [|m ms]; cbn [length repeat map app]; (split; [apply Nat.ltb_ge; rewrite app_length; cbn [length]; rewrite ?app_length, ?repeat_length; lia|]).
  - exists (pre ++ Some (px_id e) :: post). split; [apply set_nth_app|reflexivity].
  - exists (pre ++ (Some (px_id e) :: repeat None (length ms)) ++ post). split; [apply set_nth_app|].
    apply put_members_at. cbn [length]. rewrite repeat_length. reflexivity.
Qed.

(** the unit's pool-level transaction is found: the whole unit is written by
    the first entry, the others find their slots filled *)
Lemma fill_unit_found : forall e pre post rest ok,
  pool_get (shh (uhead e)) p = Some e ->
  fill p (und (length pre) e ++ rest) (pre ++ repeat None (ulen e) ++ post) ok
  = fill p rest (pre ++ map Some (unit_txs e) ++ post) ok.
Proof.
  intros e pre post rest ok H. destruct (write_unit e pre post) as [FIT [t1 [E1 PM]]].
  assert (F : Forall (fun ih => exists t, nth_error (pre ++ map Some (unit_txs e) ++ post) (fst ih) = Some (Some t))
                (und (length pre) e)).
  { apply Forall_forall. intros [i h] Hin. apply und_in in Hin as [Hi _]. unfold ulen in Hi. cbn [fst].
    destruct (nth_error_mid _ pre (map Some (unit_txs e)) post i) as [-> Hn]; [rewrite map_length; exact Hi|].
    rewrite nth_error_map in *. destruct (nth_error (unit_txs e) (i - length pre)) as [t|]; [exists t|destruct Hn]; reflexivity. }
  unfold und, uhead, ulen in *. destruct (unit_txs_nonempty e) as [t0 [us E]]. rewrite E in *.
  cbn [length seq map combine repeat app hd fill] in *.
  rewrite nth_error_app_at, H, FIT, E1, PM. apply fill_skip_filled. exact (Forall_inv_tail F).
Qed.

(** nothing is found for the unit: its slots stay nil and the build fails *)
Lemma fill_unit_missing : forall e pre post rest ok,
  pool_get (shh (uhead e)) p = None ->
  Forall (fun m => pool_get (shh m) p = None) (tl (unit_txs e)) ->
  fill p (und (length pre) e ++ rest) (pre ++ repeat None (ulen e) ++ post) ok
  = fill p rest (pre ++ repeat None (ulen e) ++ post) false.
Proof.
  intros e pre post rest ok H HT. rewrite fill_all_missing.
  - unfold und, ulen. destruct (unit_txs_nonempty e) as [t0 [us E]]. rewrite E. simpl.
    rewrite andb_false_r. reflexivity.
  - apply Forall_forall. intros [i h] Hin. apply und_in in Hin as [Hi [t [Ht ->]]]. cbn [fst snd]. split.
    + destruct (nth_error_mid _ pre (repeat None (ulen e)) post i) as [-> _]; [rewrite repeat_length; exact Hi|].
      apply nth_error_repeat. lia.
    + unfold uhead in H. destruct (unit_txs e) as [|t0 us]; [destruct Ht|]. simpl in H, HT.
      destruct Ht as [<-|Ht]; [exact H|]. rewrite Forall_forall in HT. exact (HT t Ht).
Qed.

(** one unit in front of the entries [rest], [post] behind its slots *)
Lemma fill_unit : forall ef pre post rest ok,
  honest1 ef ->
  fill p ((if snd ef then [] else und (length pre) (fst ef)) ++ rest) (pre ++ uslots ef ++ post) ok
  = fill p rest (pre ++ uslots (upd1 ef) ++ post) (ok && snd (upd1 ef)).
Proof.
  intros [e f] pre post rest ok H. unfold upd1, uslots, fnd. cbn [fst snd]. destruct f; cbn [orb app].
  - rewrite andb_true_r. reflexivity.
  - destruct (H eq_refl) as [Hf|[Hn HT]]; cbn [fst] in *.
    + rewrite Hf, andb_true_r. apply fill_unit_found. exact Hf.
    + rewrite Hn, andb_false_r. apply fill_unit_missing; assumption.
Qed.

Lemma fill_units : forall us pre ok,
  Forall honest1 us ->
  fill p (nd_of (length pre) us) (pre ++ slots_of us) ok
  = Ok (pre ++ slots_of (map upd1 us), ok && forallb (fun ef => snd (upd1 ef)) us).
Proof.
  induction us as [|ef us IH]; intros pre ok F.
  - simpl. rewrite andb_true_r. reflexivity.
  - cbn [nd_of slots_of flat_map map forallb]. rewrite fill_unit by exact (Forall_inv F).
    rewrite app_assoc.
    replace (length pre + ulen (fst ef))%nat with (length (pre ++ uslots (upd1 ef)))
      by (rewrite app_length, slots_len; reflexivity).
    rewrite IH by exact (Forall_inv_tail F). rewrite <- app_assoc, andb_assoc. reflexivity.
Qed.

Lemma need_from_somes : forall (u : list txid) i rest shs,
  need_from i (map Some u ++ rest) shs = need_from (i + length u) rest shs.
Proof.
  induction u as [|t u IH]; intros i rest shs; simpl.
  - rewrite Nat.add_0_r. reflexivity.
  - rewrite IH. f_equal. apply Nat.add_succ_comm.
Qed.

Lemma need_from_nones : forall (u : list txid) pre_s rest_s rest r,
  need_from (length pre_s + length u) rest (pre_s ++ map shh u ++ rest_s) = Ok r ->
  need_from (length pre_s) (repeat None (length u) ++ rest) (pre_s ++ map shh u ++ rest_s)
  = Ok (combine (seq (length pre_s) (length u)) (map shh u) ++ r).
Proof.
  induction u as [|t u IH]; intros pre_s rest_s rest r H; simpl in *.
  - rewrite Nat.add_0_r in H. exact H.
  - rewrite nth_error_app_at.
    replace (pre_s ++ shh t :: map shh u ++ rest_s) with ((pre_s ++ [shh t]) ++ map shh u ++ rest_s) in *
      by (rewrite <- app_assoc; reflexivity).
    replace (S (length pre_s)) with (length (pre_s ++ [shh t])) by apply last_length.
    rewrite (IH (pre_s ++ [shh t]) rest_s rest r).
    + rewrite last_length. reflexivity.
    + rewrite last_length, Nat.add_succ_comm. exact H.
Qed.

Lemma need_from_units : forall us pre_s,
  need_from (length pre_s) (slots_of us) (pre_s ++ map shh (txs_of us)) = Ok (nd_of (length pre_s) us).
Proof.
  induction us as [|[e f] us IH]; intros pre_s; simpl; [reflexivity|].
  unfold slots_of, txs_of in *. simpl flat_map. rewrite map_app.
  specialize (IH (pre_s ++ map shh (unit_txs e))).
  rewrite app_length, map_length in IH. rewrite <- app_assoc in IH.
  destruct f; simpl.
  - unfold uslots; simpl. rewrite need_from_somes. exact IH.
  - unfold uslots, und, ulen; simpl. apply need_from_nones. exact IH.
Qed.

Lemma slots_all_filled : forall us,
  forallb (fun ef => snd ef) us = true -> slots_of us = map Some (txs_of us).
Proof.
  induction us as [|[e f] us IH]; intros H; simpl in *; [reflexivity|].
  apply andb_true_iff in H as [H1 H2]. subst f. unfold slots_of, txs_of in *. simpl.
  rewrite map_app. f_equal. apply IH. exact H2.
Qed.

End Units.
