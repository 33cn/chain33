(** C34 — the mempool's short-hash index after arrivals, blocks all of whose
    units are found, the witnesses of Properties.v, and the blocks the
    receiving node posts. *)
From Coq Require Import List ZArith NArith Bool Lia.
From C33 Require Import C33.Model C33.ProofsBase C34.Model C34.Spec C34.ProofsFill C34.ProofsLife.
Import ListNotations.
Open Scope Z_scope.

Section Index.
Variable hs : txid -> N.
Variable sh : N -> N.
Variable cap : Z.

Definition key (t : ptx) : N := sh (hs (px_id t)).
Definition idx_of (ts : list ptx) : pool := map (fun t => (key t, t)) ts.

Definition push_all (ts : list ptx) (m : mpool) : mpool :=
  fold_left (fun m t => fst (mp_push hs sh cap t m)) ts m.

Lemma pool_get_idx_none : forall ts k, ~ In k (map key ts) -> pool_get k (idx_of ts) = None.
Proof.
  induction ts as [|t ts IH]; intros k H; simpl; [reflexivity|].
  destruct (N.eqb_spec k (key t)) as [->|N]; [exfalso; apply H; left; reflexivity|].
  apply IH. intros C. apply H. right. exact C.
Qed.

Lemma pool_get_idx_some : forall ts t, NoDup (map key ts) -> In t ts -> pool_get (key t) (idx_of ts) = Some t.
Proof.
  induction ts as [|t0 ts IH]; intros t ND Hin; [destruct Hin|]. simpl in *.
  inversion ND as [|x l Hn ND']; subst.
  destruct Hin as [->|Hin]; [rewrite N.eqb_refl; reflexivity|].
  destruct (N.eqb_spec (key t) (key t0)) as [E|N]; [|apply IH; assumption].
  exfalso. apply Hn. rewrite <- E. apply in_map. exact Hin.
Qed.

Lemma pooled_false : forall ts t, ~ In (key t) (map key ts) -> pooled hs (hs (px_id t)) ts = false.
Proof.
  induction ts as [|t0 ts IH]; intros t H; simpl; [reflexivity|].
  destruct (N.eqb_spec (hs (px_id t0)) (hs (px_id t))) as [E|N].
  - exfalso. apply H. left. unfold key. rewrite E. reflexivity.
  - simpl. apply IH. intros C. apply H. right. exact C.
Qed.

Lemma push_all_idx : forall ts acc,
  NoDup (map key (acc ++ ts)) -> Z.of_nat (length (acc ++ ts)) <= cap ->
  push_all ts (mkMp acc (idx_of acc)) = mkMp (acc ++ ts) (idx_of (acc ++ ts)).
Proof.
  induction ts as [|t ts IH]; intros acc ND L; simpl.
  - rewrite app_nil_r. reflexivity.
  - assert (Hn : ~ In (key t) (map key acc)).
    { rewrite map_app in ND. apply NoDup_remove_2 in ND. intros C. apply ND. apply in_or_app. left; exact C. }
    unfold mp_push. cbn [mp_txs mp_idx]. rewrite (pooled_false acc t Hn). cbn [fst].
    unfold idx_push. fold (key t). rewrite (pool_get_idx_none acc (key t) Hn).
    replace (cap <=? Z.of_nat (length (idx_of acc))) with false.
    2:{ symmetry. apply Z.leb_gt. unfold idx_of. rewrite map_length. rewrite app_length in L. simpl in L. lia. }
    replace (idx_of acc ++ [(key t, t)]) with (idx_of (acc ++ [t])) by (unfold idx_of; rewrite map_app; reflexivity).
    rewrite (IH (acc ++ [t])); rewrite <- app_assoc; simpl; auto.
Qed.

Lemma push_all_empty : forall ts,
  NoDup (map key ts) -> Z.of_nat (length ts) <= cap -> push_all ts mp_empty = mkMp ts (idx_of ts).
Proof. intros ts ND L. exact (push_all_idx ts [] ND L). Qed.
End Index.

Section Rebuild.
Variable hs : txid -> N.
Variable sh : N -> N.

(** every unit's pool-level transaction is found under the short hash of the unit's first transaction *)
Definition all_found (p : pool) (es : list ptx) : Prop :=
  Forall (fun e => pool_get (shh hs sh (uhead e)) p = Some e) es.

Lemma all_found_honest : forall p es, all_found p es -> Forall (honest1 (shh hs sh) p) (fresh es).
Proof.
  intros p es H. induction H as [|e es He _ IH]; constructor; [|exact IH]. intros _. left. exact He.
Qed.

Lemma all_found_done : forall p es from pub now b miner,
  all_found p es -> ub_done hs sh p (mkUb from pub now b miner (fresh es)) = true.
Proof.
  intros p es from pub now b miner H. unfold ub_done, fresh. cbn [ub_us].
  induction H as [|e es He _ IH]; [reflexivity|]. cbn [map forallb]. rewrite IH.
  unfold upd1, fnd. cbn [fst snd]. rewrite He. reflexivity.
Qed.

Lemma exact0_full : forall b, ob_main b = 0%N -> exact0 b = full_block b.
Proof. intros b H. unfold exact0, full_block. rewrite H. reflexivity. Qed.
End Rebuild.

Definition hs_id (t : txid) : N := t.
(** a group carrier (id 9) hashes like its first member (id 3) *)
Definition hs_w (t : txid) : N := if N.eqb t 9 then 3%N else t.
Definition sh_id (h : N) : N := h.
Definition cfg1 : config := mkCfg 2147483648 1000 [] false.

Definition grp : ptx := mkPtx 9%N 2 [3; 4]%N.
Definition pl (i : N) : ptx := mkPtx i 0 [].
(** miner 1, plain 2, group (3,4), plain 5; the para variant carries MainHash *)
Definition blk_w (main : N) : oblock := mkOb 7 1%N main 1%N 500 [1; 2; 3; 4; 5]%N.
Definition es_w : list ptx := [pl 2; grp; pl 5].
Definition mp_w : mpool := push_all hs_w sh_id 100 es_w mp_empty.

Lemma main_dropped :
  add_lt cfg1 (mp_idx mp_w) 0 1%N 2%N (build_lt hs_w sh_id (blk_w 3)) init
  = Ok (init, [Post 2%N (exact0 (blk_w 3))])
  /\ exact0 (blk_w 3) <> full_block (blk_w 3).
Proof. split; [vm_compute; reflexivity|vm_compute; discriminate]. Qed.

(** the group of [blk_w] is missing: the block waits, then is requested from the sender *)
Definition mp_miss : mpool := push_all hs_w sh_id 100 [pl 2; pl 5] mp_empty.
Definition u_miss : ublock := mkUb 1%N 2%N 0 (blk_w 0) 1%N (fresh [pl 2; grp; pl 5]).

(** nothing the receiving node posts has a nil slot *)
Lemma scan_whole : forall p now timeout l,
  match scan p now timeout l with Ok (_, _, e) => Forall whole e | _ => True end.
Proof.
  intros p now timeout l. induction l as [|pd l IH]; cbn [scan]; [constructor|].
  pose proof (build_whole p pd) as B. destruct (build p pd) as [[[pd' b] e]| |]; [|exact I|exact I].
  destruct (scan p now timeout l) as [[[k t] e']| |]; [|exact I|exact I].
  assert (A : Forall whole (e ++ e')) by (apply Forall_app; split; assumption).
  destruct b; [exact A|]. destruct (timeout <=? _); exact A.
Qed.

Lemma requests_whole : forall h t, Forall whole (requests h t).
Proof.
  induction t as [|pd t IH]; simpl; [constructor|].
  destruct (h <? pd_height pd); [constructor; [exact I|]|]; exact IH.
Qed.

Lemma add_lt_whole : forall c p now from pub lb st,
  match add_lt c p now from pub lb st with Ok (_, e) => Forall whole e | _ => True end.
Proof.
  intros c p now from pub lb st. unfold add_lt.
  destruct ((lt_txcount lb <=? 0) || (Z.of_nat (length (lt_sh lb)) <? lt_txcount lb)); [constructor|].
  destruct (lt_hdr lb) as [h|]; [|exact I].
  destruct (go_make (c_cap c) (h_txcount h)) as [txs0| |]; [|exact I|exact I].
  destruct (set_nth txs0 0 (lt_miner lb)) as [txs1|]; [|exact I].
  match goal with |- context [build p ?pd] =>
    pose proof (build_whole p pd) as B; destruct (build p pd) as [[[pd' []] e]| |] end; exact B.
Qed.

(** a full block arrives whole; the mempool events post nothing *)
Lemma astep_whole : forall hs sh c shcap w a,
  match astep hs sh c shcap w a with AAlive _ e _ => Forall whole e | ACrashed _ => True end.
Proof.
  intros hs sh c shcap w a. destruct a; simpl.
  - unfold recv_lt_raw. destruct (mem_n (lt_hash lb) (st_filter (w_st w))); [constructor|].
    match goal with |- context [add_lt ?a ?b ?c0 ?d ?e ?f ?g] =>
      pose proof (add_lt_whole a b c0 d e f g) as A; destruct (add_lt a b c0 d e f g) as [[s e0]| |] end;
      simpl; [exact A|constructor|exact I].
  - constructor; [|constructor]. intros j C. simpl in C.
    apply nth_error_In, in_map_iff in C as [t [C _]]. discriminate.
  - destruct (mp_push hs sh shcap t (w_mp w)). constructor.
  - constructor.
  - unfold tick_raw. pose proof (scan_whole (mp_idx (w_mp w)) now (c_timeout c) (st_pend (w_st w))) as S.
    destruct (scan (mp_idx (w_mp w)) now (c_timeout c) (st_pend (w_st w))) as [[[k t] e0]| |]; simpl; [|exact I|exact I].
    apply Forall_app. split; [exact S|apply requests_whole].
  - constructor.
Qed.
