(** C34 — light blocks of an honest sender on the receiving node, as lists of
    units: one build, one iteration of the pending loop, what arrival needs. *)
From Coq Require Import List ZArith NArith Bool Lia.
From C33 Require Import C33.Model C33.ProofsBase C34.Model C34.Spec C34.ProofsFill.
Import ListNotations.
Open Scope Z_scope.

Section Life.
Variable hs : txid -> N.
Variable sh : N -> N.
Definition shh (t : txid) : N := sh (hs t).

(** a block in reconstruction: where it came from, when, the original block,
    its miner transaction and its units with their fill flags *)
Record ublock := mkUb {
  ub_from : N; ub_pub : N; ub_ts : Z; ub_b : oblock; ub_miner : txid; ub_us : list (ptx * bool)
}.

(** the original block is the miner transaction followed by the units *)
Definition ub_wf (u : ublock) : Prop := ob_txs (ub_b u) = ub_miner u :: txs_of (ub_us u).

Definition pd_of (u : ublock) : pend :=
  mkPend (ub_from u) (ub_pub u) (ub_ts u) (ob_height (ub_b u)) (ob_rest (ub_b u)) (ob_hash (ub_b u))
         (Some (ub_miner u) :: slots_of (ub_us u))
         (shh (ub_miner u) :: map shh (txs_of (ub_us u))).

Definition ub_upd (p : pool) (u : ublock) : ublock :=
  mkUb (ub_from u) (ub_pub u) (ub_ts u) (ub_b u) (ub_miner u) (map (upd1 shh p) (ub_us u)).

(** every unit is filled or found now *)
Definition ub_done (p : pool) (u : ublock) : bool :=
  forallb (fun ef => snd (upd1 shh p ef)) (ub_us u).

Definition ub_honest (p : pool) (u : ublock) : Prop := Forall (honest1 shh p) (ub_us u).

(** the block as the sender had it, without MainHash/MainHeight *)
Definition exact0 (b : oblock) : block := mkBlk (ob_height b) (ob_rest b) 0%N (map Some (ob_txs b)).

Lemma txs_of_upd : forall p us, txs_of (map (upd1 shh p) us) = txs_of us.
Proof.
  intros p us. unfold txs_of. induction us as [|[e f] us IH]; simpl; [reflexivity|]. rewrite IH. reflexivity.
Qed.

Lemma all_flags_upd : forall p us,
  forallb (fun ef => snd (upd1 shh p ef)) us = forallb (fun ef => snd ef) (map (upd1 shh p) us).
Proof. intros p us. induction us as [|ef us IH]; cbn [forallb map]; [reflexivity|]. rewrite IH. reflexivity. Qed.

Lemma build_units : forall p u,
  ub_wf u -> ub_honest p u ->
  build p (pd_of u) =
  Ok (pd_of (ub_upd p u), ub_done p u,
      if ub_done p u then [Post (ub_pub u) (exact0 (ub_b u))] else []).
Proof.
  intros p u W H. unfold build. cbn [pd_of pd_sh pd_txs need_from].
  (* the miner transaction is what precedes the units, in the slots and in the hash list *)
  pose proof (need_from_units shh (ub_us u) [shh (ub_miner u)]) as NF.
  pose proof (fill_units shh p (ub_us u) [Some (ub_miner u)] true H) as FU. cbn [length app andb] in NF, FU.
  rewrite NF, FU. fold (ub_done p u).
  assert (E : pd_set_txs (pd_of u) (Some (ub_miner u) :: slots_of (map (upd1 shh p) (ub_us u))) = pd_of (ub_upd p u)).
  { unfold pd_set_txs, pd_of, ub_upd. cbn. rewrite txs_of_upd. reflexivity. }
  rewrite E. destruct (ub_done p u) eqn:D; [|reflexivity].
  unfold ub_done in D. rewrite all_flags_upd in D.
  pose proof (slots_all_filled _ D) as SA. rewrite txs_of_upd in SA.
  unfold pd_block, exact0, pd_of, ub_upd. cbn [pd_height pd_rest pd_txs ub_from ub_pub ub_ts ub_b ub_miner ub_us].
  rewrite SA, W. reflexivity.
Qed.

(** one iteration of the pending loop over blocks of honest senders: kept, timed out, posted *)
Fixpoint uscan (p : pool) (now timeout : Z) (l : list ublock) : list ublock * list ublock * list eff :=
  match l with
  | [] => ([], [], [])
  | u :: tl =>
      match uscan p now timeout tl with
      | (k, t, e) =>
          if ub_done p u then (k, t, Post (ub_pub u) (exact0 (ub_b u)) :: e)
          else if timeout <=? Z.quot (now - ub_ts u) 1000000 then (k, ub_upd p u :: t, e)
               else (ub_upd p u :: k, t, e)
      end
  end.

Lemma scan_units : forall p now timeout l,
  Forall ub_wf l -> Forall (ub_honest p) l ->
  scan p now timeout (map pd_of l) =
  match uscan p now timeout l with (k, t, e) => Ok (map pd_of k, map pd_of t, e) end.
Proof.
  intros p now timeout l. induction l as [|u l IH]; intros W H; cbn [map scan uscan]; [reflexivity|].
  rewrite (build_units p u (Forall_inv W) (Forall_inv H)), (IH (Forall_inv_tail W) (Forall_inv_tail H)).
  destruct (uscan p now timeout l) as [[k t] e].
  destruct (ub_done p u); [reflexivity|].
  cbn [pd_of pd_ts]. destruct (timeout <=? Z.quot (now - ub_ts u) 1000000); reflexivity.
Qed.

Definition ureq (height : Z) (u : ublock) : list eff :=
  if height <? ob_height (ub_b u) then [Req (ub_from u) (ob_height (ub_b u))] else [].

Lemma requests_units : forall height t,
  requests height (map pd_of t) = flat_map (ureq height) t.
Proof.
  induction t as [|u t IH]; simpl; [reflexivity|]. unfold ureq at 1. cbn [pd_of pd_height pd_from].
  destruct (height <? ob_height (ub_b u)); simpl; rewrite IH; reflexivity.
Qed.

Lemma go_make_ok : forall A cap n,
  0 <= n <= max_len -> n <= cap -> @go_make A cap n = Ok (repeat None (Z.to_nat n)).
Proof.
  intros A cap n H C. unfold go_make.
  rewrite (proj2 (Z.ltb_ge n 0)), (proj2 (Z.ltb_ge max_len n)), (proj2 (Z.ltb_ge cap n)) by lia. reflexivity.
Qed.

Definition fresh (es : list ptx) : list (ptx * bool) := map (fun e => (e, false)) es.

Lemma txs_of_fresh : forall es, txs_of (fresh es) = flat_map unit_txs es.
Proof. induction es as [|e es IH]; [reflexivity|]. unfold txs_of, fresh in *. simpl. rewrite IH. reflexivity. Qed.

Lemma slots_fresh : forall es, slots_of (fresh es) = repeat None (length (txs_of (fresh es))).
Proof.
  induction es as [|e es IH]; [reflexivity|]. unfold slots_of, txs_of, fresh in *. simpl.
  rewrite IH, app_length, repeat_app. reflexivity.
Qed.

End Life.
