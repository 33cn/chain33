(** C17 — property theorems only. *)
From Coq Require Import List NArith ZArith Bool.
From C33 Require Import C16.Proto C16.Model C16.Spec C17.Model C17.Spec C17.Proofs C17.ProofsFee.
Import ListNotations.

(** CreateTxGroup produces the hash structure that Check demands; the last
    member carries no Next, whatever the last input carried. *)
Theorem C17_created_group_chained :
  forall (H : list N -> list N) txs rate G,
    create_group H txs rate = inr G ->
    chained H G /\ last_next G = [] /\ length G = length txs /\
    others_fee_free G = true /\ (2 <= length G)%nat.
Proof. exact create_group_spec. Qed.
Print Assumptions C17_created_group_chained.

(** A created group, its members signed in any way, passes Check (for every
    input list, a last input taken from an earlier group included). *)
Theorem C17_created_group_checks :
  forall (H : list N -> list N) txs rate G L e tot,
    create_group H txs rate = inr G ->
    map unsig L = map unsig G ->
    (Z.of_nat (length G) <= max_group)%Z ->
    existsb (chain_bad e) L = false ->
    (is_fork (e_height e) (e_para e) = true -> para_ok L = true) ->
    sum_fees L (e_minfee e) 0 = Some tot -> (tot <= head_fee L)%Z ->
    ((head_fee L >? e_maxfee e)%Z && (e_maxfee e >? 0)%Z && is_fork (e_height e) (e_block e) = false) ->
    check_group H e L = EOk.
Proof. exact created_group_checks. Qed.
Print Assumptions C17_created_group_checks.

(** The fee CreateTxGroup puts on the head covers what Check asks of the signed
    group at the creation rate: unsigned inputs (300 bytes are budgeted per
    signature), signature fields of at most 300 encoded bytes, no wrap-around. *)
Theorem C17_created_fee_sufficient :
  forall (H : list N -> list N) txs rate G L,
    (forall a b, length (H a) = length (H b)) ->
    create_group H txs rate = inr G ->
    Forall (fun t => signature t = None) txs ->
    (0 <= rate)%Z -> (101 * rate * Z.of_nat (length txs) < 2 ^ 63)%Z ->
    map unsig L = map unsig G ->
    Forall sig_small L ->
    exists tot, sum_fees L rate 0 = Some tot /\ (tot <= head_fee L)%Z.
Proof. exact created_fee_sufficient. Qed.
Print Assumptions C17_created_fee_sufficient.

(** Created from unsigned inputs, signed, presented at the creation rate: accepted. *)
Theorem C17_created_group_passes :
  forall (H : list N -> list N) txs rate G L e,
    (forall a b, length (H a) = length (H b)) ->
    create_group H txs rate = inr G ->
    Forall (fun t => signature t = None) txs ->
    (0 <= rate)%Z -> (101 * rate * Z.of_nat (length txs) < 2 ^ 63)%Z ->
    (Z.of_nat (length txs) <= max_group)%Z ->
    map unsig L = map unsig G -> Forall sig_small L ->
    e_minfee e = rate ->
    existsb (chain_bad e) L = false ->
    (is_fork (e_height e) (e_para e) = true -> para_ok L = true) ->
    ((head_fee L >? e_maxfee e)%Z && (e_maxfee e >? 0)%Z && is_fork (e_height e) (e_block e) = false) ->
    check_group H e L = EOk.
Proof. exact created_group_passes. Qed.
Print Assumptions C17_created_group_passes.

(** What passes Check and shares the header of a chained (created) group has
    the same members, field by field, signatures aside. *)
Theorem C17_same_header_same_content :
  forall (H : list N -> list N), (forall a b, H a = H b -> a = b) ->
  forall e L G,
    chained H G ->
    Forall (fun t => wf_txb t = true) G -> Forall (fun t => wf_txb t = true) L ->
    check_group H e L = EOk ->
    header (hd dtx L) = header (hd dtx G) ->
    map unsig L = map unsig G.
Proof. exact same_header_same_content. Qed.
Print Assumptions C17_same_header_same_content.

(** An accepted list that starts with any member of a chained group is that
    group: reordering, dropping, duplicating, inserting, substituting detected. *)
Theorem C17_member_first_detected :
  forall (H : list N -> list N), (forall a b, H a = H b -> a = b) ->
  forall e L G g,
    chained H G ->
    Forall (fun t => wf_txb t = true) G -> Forall (fun t => wf_txb t = true) L ->
    In g G -> unsig (hd dtx L) = unsig g ->
    check_group H e L = EOk ->
    map unsig L = map unsig G.
Proof. exact member_first_detected. Qed.
Print Assumptions C17_member_first_detected.

(** What passes Check and CheckSign, when only members of G were ever signed,
    is G member by member, and every signature on it is an issued one (up to
    the scheme's malleability relation). *)
Theorem C17_tamper_detected_partial :
  forall (H : list N -> list N), (forall a b, H a = H b -> a = b) ->
  forall ds verify mall issued G L e h,
    ideal_scheme verify mall issued ->
    chained H G ->
    Forall (fun t => wf_txb t = true) G -> Forall (fun t => wf_txb t = true) L ->
    (forall id p m s, issued id p m s -> exists g, In g G /\ m = sign_msg g) ->
    check_group H e L = EOk -> group_check_sign ds verify L h = true ->
    map unsig L = map unsig G /\
    Forall (fun l => exists s s0, signature l = Some s /\
                       issued (crypto_id (s_ty s)) (s_pub s) (sign_msg l) s0 /\
                       mall (crypto_id (s_ty s)) s0 (s_sig s) = true) L.
Proof. exact tamper_detected. Qed.
Print Assumptions C17_tamper_detected_partial.

Theorem C17_tamper_detected_refuted : ~ C17_tamper_detected_full.
Proof. exact tamper_detected_refuted. Qed.
Print Assumptions C17_tamper_detected_refuted.

(** Fee clauses: acceptance implies fee-free other members and a head fee that
    covers the sum Check computes; without wrap-around that sum is the required
    fee of the property text. *)
Theorem C17_fee_rules :
  forall (H : list N -> list N) e L,
    check_group H e L = EOk ->
    others_fee_free L = true /\
    exists tot, sum_fees L (e_minfee e) 0 = Some tot /\ (tot <= head_fee L)%Z.
Proof. exact fee_rules. Qed.
Print Assumptions C17_fee_rules.

Theorem C17_fee_sum_exact :
  forall m, (0 <= m)%Z -> forall L acc,
    (0 <= acc)%Z -> sizes_ok L = true -> (acc + required_fee m L < 2 ^ 63)%Z ->
    sum_fees L m acc = Some (acc + required_fee m L)%Z.
Proof. exact sum_fees_exact. Qed.
Print Assumptions C17_fee_sum_exact.

(** Tx() / GetTxGroup: the encoded group in the head's header decodes to the group. *)
Theorem C17_decode_txs_encode :
  forall L, Forall (fun t => wf_txb t = true) L -> decode_txs (encode_txs L) = Some L.
Proof. exact decode_txs_encode. Qed.
Print Assumptions C17_decode_txs_encode.

(** Checking the head that carries the encoded group is checking the group. *)
Theorem C17_tx_path_equiv :
  forall (H : list N -> list N) e L t,
    Forall (fun t => wf_txb t = true) L -> group_tx L = Some t ->
    (2 <= groupCount (hd dtx L) <= 20)%Z ->
    tx_check H e t = check_group H e L.
Proof. exact tx_path_equiv. Qed.
Print Assumptions C17_tx_path_equiv.

(** RebuiltGroup restores the hash structure (it does not touch the counts);
    the last member carries no Next afterwards. *)
Theorem C17_rebuilt_group_chained :
  forall (H : list N -> list N) L M,
    rebuilt_group H L = Some M ->
    Forall (fun t => groupCount t = Z.of_nat (length L)) L ->
    chained H M /\ last_next M = [].
Proof. exact rebuilt_group_chained. Qed.
Print Assumptions C17_rebuilt_group_chained.

(** Transactions.CheckSign with the members' sender gate (chain33 909acb0)
    implies the gate-free check the theorems above assume, and gives every
    member a sender address derived by an address driver. *)
Theorem C17_checksign_gate_weakens :
  forall adrv ds verify L h,
    group_check_sign_tx adrv ds verify L h = true ->
    group_check_sign ds verify L h = true /\
    Forall (fun t => usable adrv (sig_ty t) (sig_pub t) = true) L.
Proof. exact group_check_sign_tx_weaken. Qed.
Print Assumptions C17_checksign_gate_weakens.
