(** C17 — proofs. *)
From Coq Require Import List NArith ZArith Lia Bool.
From C33 Require Import Lib.Harness Lib.Bytes C16.Proto C16.Model C16.Spec C16.Proofs C16.ProofsFrom.
From C33 Require Import C17.Model C17.Spec.
Import ListNotations.
Open Scope list_scope.

Definition dtx : tx := mk_tx [] [] None 0 0 0 [] 0 [] [] 0.

(** * What does not look at the signature
    Every projection [p] but [signature] computes on [unsig t] to [p t], so
    [f_equal p] carries [unsig a = unsig b] to [p a = p b]. *)
Lemma thash_set_header H hd t : thash H (set_header hd t) = thash H t.
Proof. unfold thash. destruct t; reflexivity. Qed.
Lemma thash_unsig H t : thash H (unsig t) = thash H t.
Proof. unfold thash. destruct t; reflexivity. Qed.
Lemma thash_of_unsig H a b : unsig a = unsig b -> thash H a = thash H b.
Proof. intro E. rewrite <- (thash_unsig H a), <- (thash_unsig H b), E. reflexivity. Qed.

Lemma map_unsig_cons_inv l L G :
  map unsig (l :: L) = map unsig G -> exists g G', G = g :: G' /\ unsig l = unsig g /\ map unsig L = map unsig G'.
Proof.
  destruct G as [|g G']; intro E; [discriminate|]. exists g, G'.
  split; [reflexivity|]. split; [exact (f_equal (hd dtx) E) | exact (f_equal (@tl tx) E)].
Qed.

Lemma map_unsig_length L G : map unsig L = map unsig G -> length L = length G.
Proof. intro E. rewrite <- (map_length unsig L), E, map_length. reflexivity. Qed.

Lemma existsb_negb {A : Type} (p : A -> bool) l :
  existsb (fun x => negb (p x)) l = false <-> forallb p l = true.
Proof.
  induction l as [|x l IH]; [split; reflexivity|]. cbn [existsb forallb].
  destruct (p x); [exact IH | split; discriminate].
Qed.

(** * [linked], [chained], [last_next] and [others_fee_free] hold of a list
      when they hold of its unsigned content *)
Section Chain.
Variable H : list N -> list N.

Lemma linked_map_unsig : forall L, linked H (map unsig L) <-> linked H L.
Proof.
  induction L as [|l L IH]; [reflexivity|]. destruct L as [|l1 L1]; [reflexivity|].
  cbn [map linked] in IH |- *. rewrite (thash_unsig H l1).
  split; intros [Nx Lk]; (split; [exact Nx | apply IH; exact Lk]).
Qed.

Lemma chained_map_unsig L : chained H (map unsig L) <-> chained H L.
Proof.
  destruct L as [|l L']; [reflexivity|]. set (L := l :: L').
  change (chained H (map unsig L)) with
    (header l = thash H (unsig l) /\
     Forall (fun t => header t = header l /\ groupCount t = Z.of_nat (length (map unsig L))) (map unsig L) /\
     linked H (map unsig L)).
  rewrite thash_unsig, map_length, Forall_map, linked_map_unsig. reflexivity.
Qed.

Lemma last_next_map_unsig : forall L, last_next (map unsig L) = last_next L.
Proof. induction L as [|l [|l1 L1] IH]; [reflexivity..|exact IH]. Qed.

Lemma others_fee_free_map_unsig L : others_fee_free (map unsig L) = others_fee_free L.
Proof.
  destruct L as [|l L]; [reflexivity|]. unfold others_fee_free. cbn [map tl].
  induction L as [|a L IH]; [reflexivity|]. cbn [map forallb]. rewrite IH. reflexivity.
Qed.

(** * The hash loop of Check accepts exactly the chained lists *)
Lemma hash_loop_ok : forall L hdr0 n first,
  Forall (fun t => header t = hdr0 /\ groupCount t = n) L ->
  (first = true -> match L with t :: _ => thash H t = hdr0 | [] => True end) ->
  (n <= max_group)%Z -> linked H L -> last_next L = [] ->
  hash_loop H hdr0 n first L = EOk.
Proof.
  induction L as [|t rest IH]; intros hdr0 n first Fa Hf Hn Lk Ln; [reflexivity|].
  inversion Fa as [|? ? [Eh Eg] Fa']; subst. cbn [hash_loop].
  assert (E1 : beqb (if first then thash H t else header t) (header t) = true).
  { destruct first; [rewrite Hf by reflexivity|]; apply beqb_refl. }
  rewrite E1. cbn [negb].
  destruct (Z.gtb_spec (groupCount t) max_group) as [G|G]; [lia|].
  rewrite Z.eqb_refl. cbn [negb].
  destruct rest as [|t1 rest'].
  - cbn [last_next] in Ln. rewrite Ln. reflexivity.
  - cbn [linked] in Lk. destruct Lk as [Nx Lk]. rewrite Nx, beqb_refl.
    apply IH; try assumption. discriminate.
Qed.

Lemma hash_loop_inv : forall L hdr0 n first,
  hash_loop H hdr0 n first L = EOk ->
  (first = true -> match L with t :: _ => header t = hdr0 | [] => True end) ->
  Forall (fun t => header t = hdr0 /\ groupCount t = n) L /\ linked H L /\ last_next L = [] /\
  (first = true -> match L with t :: _ => thash H t = hdr0 | [] => True end) /\
  (L <> [] -> (n <= max_group)%Z).
Proof.
  induction L as [|t rest IH]; intros hdr0 n first E Hf.
  - repeat split; try constructor; try reflexivity; intros; try exact I. congruence.
  - cbn [hash_loop] in E.
    destruct (beqb (if first then thash H t else hdr0) (header t)) eqn:E1; [|discriminate].
    cbn [negb] in E.
    destruct (Z.gtb_spec (groupCount t) max_group) as [G|G]; [discriminate|].
    destruct (Z.eqb_spec (groupCount t) n) as [Eg|Eg]; [|discriminate]. cbn [negb] in E.
    apply beqb_eq in E1.
    assert (Eh : header t = hdr0).
    { destruct first; [apply Hf; reflexivity | symmetry; exact E1]. }
    destruct rest as [|t1 rest'].
    + destruct (next t) eqn:Nx; [|discriminate].
      repeat split; try (constructor; [auto|constructor]); try exact I; cbn [last_next]; auto.
      * intros ->. rewrite <- Eh. exact E1.
      * intros _. lia.
    + destruct (beqb (next t) (thash H t1)) eqn:E2; [|discriminate]. apply beqb_eq in E2.
      destruct (IH hdr0 n false E) as (Fa & Lk & Ln & _ & _); [discriminate|].
      repeat split; auto.
      * intros ->. rewrite <- Eh. exact E1.
      * intros _. lia.
Qed.

(** what a successful Check means *)
Lemma check_group_ok_inv e L :
  check_group H e L = EOk ->
  (2 <= length L)%nat /\
  existsb (chain_bad e) L = false /\
  (is_fork (e_height e) (e_para e) = true -> para_ok L = true) /\
  others_fee_free L = true /\
  (exists tot, sum_fees L (e_minfee e) 0 = Some tot /\ (tot <= head_fee L)%Z) /\
  ((head_fee L >? e_maxfee e)%Z && (e_maxfee e >? 0)%Z && is_fork (e_height e) (e_block e) = false) /\
  hash_loop H (header (hd dtx L)) (Z.of_nat (length L)) true L = EOk.
Proof.
  unfold check_group. destruct L as [|t0 [|t1 rest]]; try discriminate.
  set (L := t0 :: t1 :: rest).
  destruct (existsb (chain_bad e) L) eqn:Cb; [discriminate|].
  destruct (is_fork (e_height e) (e_para e) && multi_title (titles_of L)) eqn:P1; [discriminate|].
  destruct (is_fork (e_height e) (e_para e) &&
            negb match titles_of L with [] => true | _ :: _ => false end &&
            existsb (fun t => negb (is_para (execer t))) L) eqn:P2; [discriminate|].
  destruct (existsb (fun t => negb (fee t =? 0)%Z) (t1 :: rest)) eqn:Fz; [discriminate|].
  destruct (sum_fees L (e_minfee e) 0) as [tot|] eqn:Sf; [|discriminate].
  destruct (Z.ltb_spec (fee t0) tot) as [Lt|Ge]; [discriminate|].
  destruct ((fee t0 >? e_maxfee e)%Z && (e_maxfee e >? 0)%Z && is_fork (e_height e) (e_block e)) eqn:Th;
    [discriminate|].
  intro E. repeat split.
  - cbn. lia.
  - intro Pf. rewrite Pf in P1, P2. cbn [andb] in P1, P2. unfold para_ok. fold L.
    rewrite P1. cbn [negb andb].
    destruct (titles_of L) eqn:Ts; [reflexivity|]. cbn [negb andb] in P2.
    exact (proj1 (existsb_negb (fun t => is_para (execer t)) L) P2).
  - exact (proj1 (existsb_negb (fun t => (fee t =? 0)%Z) (t1 :: rest)) Fz).
  - exists tot. cbn [head_fee]. auto.
  - exact Th.
  - exact E.
Qed.

Lemma check_group_ok_chained e L :
  check_group H e L = EOk ->
  chained H L /\ last_next L = [] /\ (Z.of_nat (length L) <= max_group)%Z.
Proof.
  intro E. apply check_group_ok_inv in E as (Len & _ & _ & _ & _ & _ & HL).
  destruct L as [|t0 rest]; [cbn in Len; lia|]. cbn [hd] in HL.
  apply hash_loop_inv in HL as (Fa & Lk & Ln & Hf & Hn); [|reflexivity].
  repeat split; auto.
  - symmetry. apply Hf. reflexivity.
  - apply Hn. discriminate.
Qed.

(** * Tamper evidence of the hash structure *)
Hypothesis Hinj : forall a b, H a = H b -> a = b.

Lemma same_hash_same_unsig a b :
  wf_txb a = true -> wf_txb b = true -> thash H a = thash H b -> header a = header b ->
  unsig a = unsig b.
Proof.
  intros Wa Wb E Eh.
  destruct (hash_binds (list N) H Hinj a b Wa Wb E) as (E1&E2&E3&E4&E5&E6&E7&E8&E9).
  clear Wa Wb E. destruct a, b. cbn in *. subst. reflexivity.
Qed.

Lemma linked_same_len h : forall L G,
  length L = length G ->
  Forall (fun t => wf_txb t = true) L -> Forall (fun t => wf_txb t = true) G ->
  linked H L -> linked H G ->
  Forall (fun t => header t = h) L -> Forall (fun t => header t = h) G ->
  match L, G with l :: _, g :: _ => thash H l = thash H g | _, _ => True end ->
  map unsig L = map unsig G.
Proof.
  induction L as [|l L IH]; intros G Len WL WG LL LG HL HG Hd.
  - destruct G; [reflexivity|discriminate].
  - destruct G as [|g G]; [discriminate|].
    inversion WL; subst. inversion WG; subst. inversion HL; subst. inversion HG; subst.
    assert (El : unsig l = unsig g) by (apply same_hash_same_unsig; congruence).
    cbn [map]. f_equal; [exact El|].
    apply IH; try assumption.
    + cbn in Len. lia.
    + destruct L; [exact I|]. cbn [linked] in LL. tauto.
    + destruct G; [exact I|]. cbn [linked] in LG. tauto.
    + destruct L as [|l1 L1]; destruct G as [|g1 G1]; try exact I.
      cbn [linked] in LL, LG. destruct LL as [N1 _]. destruct LG as [N2 _].
      pose proof (f_equal next El : next l = next g). congruence.
Qed.

Lemma chained_same_header L G :
  chained H L -> chained H G ->
  Forall (fun t => wf_txb t = true) L -> Forall (fun t => wf_txb t = true) G ->
  header (hd dtx L) = header (hd dtx G) ->
  map unsig L = map unsig G.
Proof.
  intros CL CG WL WG Eh.
  destruct L as [|l0 L']; [contradiction|]. destruct G as [|g0 G']; [contradiction|].
  cbn [hd] in Eh. destruct CL as (HdL & FaL & LkL). destruct CG as (HdG & FaG & LkG).
  assert (Eth : thash H l0 = thash H g0) by congruence.
  inversion WL; subst. inversion WG; subst.
  destruct (hash_binds (list N) H Hinj l0 g0 ltac:(assumption) ltac:(assumption) Eth)
    as (_&_&_&_&_&_&Egc&_).
  assert (Len : length (l0 :: L') = length (g0 :: G')).
  { inversion FaL as [|? ? [_ G1] _]; subst. inversion FaG as [|? ? [_ G2] _]; subst.
    apply Nat2Z.inj. congruence. }
  apply (linked_same_len (header l0)); try assumption.
  - revert FaL. apply Forall_impl. tauto.
  - revert FaG. apply Forall_impl. intros a [A _]. congruence.
Qed.

End Chain.

(** * CreateTxGroup builds a chained group *)
(** the wrap-around sum of the creation-time real fees, last member first *)
Fixpoint cfold (rate : Z) (C : list tx) : option Z :=
  match C with
  | [] => Some 0%Z
  | c :: r => match cfold rate r, real_fee c rate with
              | Some m, Some rf => Some (wrap64 (m + rf))
              | _, _ => None
              end
  end.

Lemma cfold_cons rate c r m rf :
  cfold rate r = Some m -> real_fee c rate = Some rf -> cfold rate (c :: r) = Some (wrap64 (m + rf)).
Proof. intros Cf Rf. cbn [cfold]. rewrite Cf, Rf. reflexivity. Qed.

Section Create.
Variable H : list N -> list N.

Lemma create_tail_inv n hdr0 rate : forall txs rest' tot mn,
  create_tail H n hdr0 rate txs = Some (rest', tot, mn) ->
  map signature rest' = map signature txs /\
  Forall (fun c => groupCount c = n /\ header c = hdr0 /\ fee c = 0%Z) rest' /\
  linked H rest' /\ last_next rest' = [] /\ cfold rate rest' = Some mn.
Proof.
  induction txs as [|t rest IH]; intros rest' tot mn E.
  - cbn in E. injection E as <- <- <-. repeat split; constructor.
  - cbn [create_tail] in E.
    destruct (create_tail H n hdr0 rate rest) as [[[r' tot'] mn']|] eqn:Ct; [|discriminate].
    destruct (real_fee _ rate) as [rf|] eqn:Rf; [|discriminate].
    injection E as <- <- <-.
    destruct (IH r' tot' mn' eq_refl) as (Sg & Fa & Lk & Ln & Cf).
    split; [cbn [map]; rewrite Sg; reflexivity|].
    split; [constructor; [repeat split|exact Fa]|].
    split; [destruct r'; [exact I|split; [reflexivity|exact Lk]]|].
    split; [destruct r'; [reflexivity|exact Ln]|].
    exact (cfold_cons _ _ _ _ _ Cf Rf).
Qed.

(** the creation-time list: the head [c0 (2 ^ 62)] and the tail [c1 :: Cr] that [create_tail]
    made; the group is that list with the final fee on the head and the head's hash in every
    header *)
Lemma create_group_inv txs rate G :
  create_group H txs rate = inr G ->
  exists t0 rest c1 Cr tot mn rf,
    txs = t0 :: rest /\
    create_tail H (Z.of_nat (length txs)) (thash H t0) rate rest = Some (c1 :: Cr, tot, mn) /\
    let c0 fl := upd t0 fl (Z.of_nat (length txs)) (thash H t0) (thash H c1) in
    let f := Z.max (wrap64 (tot + fee t0)) (wrap64 (mn + rf)) in
    real_fee (c0 (2 ^ 62)%Z) rate = Some rf /\
    G = map (set_header (thash H (c0 f))) (c0 f :: c1 :: Cr).
Proof.
  unfold create_group. destruct txs as [|t0 [|t1 rest]]; try discriminate.
  destruct (create_tail H _ (thash H t0) rate (t1 :: rest)) as [[[rest' tot] mn]|] eqn:Ct; [|discriminate].
  destruct (create_tail_inv _ _ _ _ _ _ _ Ct) as (Sg & _).
  destruct rest' as [|c1 Cr]; [discriminate|].
  destruct (real_fee _ rate) as [rf|] eqn:Rf; [|discriminate].
  intro E. cbv zeta in E. injection E as <-.
  exists t0, (t1 :: rest), c1, Cr, tot, mn, rf.
  split; [reflexivity|]. split; [exact Ct|]. split; [exact Rf|].
  unfold Z.max, Z.ltb. destruct (wrap64 (tot + fee t0) ?= wrap64 (mn + rf))%Z; reflexivity.
Qed.

Lemma linked_map_set_header hdr : forall M, linked H M -> linked H (map (set_header hdr) M).
Proof.
  induction M as [|m M IH]; intro Lk; [exact I|].
  destruct M as [|m1 M1]; [exact I|].
  cbn [linked map] in Lk |- *. destruct Lk as [Nx Lk]. split.
  - rewrite thash_set_header. destruct m; exact Nx.
  - apply IH. exact Lk.
Qed.

Lemma last_next_map_set_header hdr : forall M, last_next (map (set_header hdr) M) = last_next M.
Proof.
  induction M as [|m M IH]; [reflexivity|].
  cbn [map last_next]. destruct M as [|m1 M1]; [destruct m; reflexivity|exact IH].
Qed.

Lemma chained_intro L t0 rest :
  L = t0 :: rest -> header t0 = thash H t0 ->
  Forall (fun t => header t = header t0 /\ groupCount t = Z.of_nat (length L)) L ->
  linked H L -> chained H L.
Proof. intros ->. cbn [chained]. auto. Qed.

Lemma create_group_spec txs rate G :
  create_group H txs rate = inr G ->
  chained H G /\ last_next G = [] /\ length G = length txs /\
  others_fee_free G = true /\ (2 <= length G)%nat.
Proof.
  intro E.
  destruct (create_group_inv _ _ _ E) as (t0 & rest & c1 & Cr & tot & mn & rf & -> & Ct & _ & ->).
  destruct (create_tail_inv _ _ _ _ _ _ _ Ct) as (Sg & Fa & Lk & Ln & _).
  apply (f_equal (@length _)) in Sg. rewrite !map_length in Sg.
  set (n := Z.of_nat (length (t0 :: rest))) in *.
  set (t0' := upd t0 _ n (thash H t0) (thash H c1)).
  set (G := map (set_header (thash H t0')) (t0' :: c1 :: Cr)).
  assert (LenG : length G = length (t0 :: rest))
    by (unfold G; rewrite map_length; cbn [length] in *; lia).
  rewrite Forall_forall in Fa.
  split; [|split; [|split; [exact LenG|split]]].
  - apply chained_intro with (t0 := set_header (thash H t0') t0')
                             (rest := map (set_header (thash H t0')) (c1 :: Cr)).
    + reflexivity.
    + rewrite thash_set_header. reflexivity.
    + rewrite LenG. fold n. apply Forall_forall. intros x Hx. apply in_map_iff in Hx as (y & <- & Hy).
      split; [destruct y; reflexivity|].
      destruct Hy as [<-|Hy]; [reflexivity|].
      destruct (Fa y Hy) as [Gc _]. destruct y; exact Gc.
    + apply linked_map_set_header. split; [reflexivity|exact Lk].
  - unfold G. rewrite last_next_map_set_header. exact Ln.
  - unfold others_fee_free. apply forallb_forall. intros x Hx.
    assert (Hx' : In x (map (set_header (thash H t0')) (c1 :: Cr))) by exact Hx.
    apply in_map_iff in Hx' as (y & <- & Hy).
    destruct (Fa y Hy) as (_ & _ & Fz). destruct y. cbn in *. rewrite Fz. reflexivity.
  - rewrite LenG. cbn [length] in *. lia.
Qed.

(** * A created group passes Check *)
Lemma check_group_intro e L tot :
  (2 <= length L)%nat ->
  existsb (chain_bad e) L = false ->
  (is_fork (e_height e) (e_para e) = true -> para_ok L = true) ->
  others_fee_free L = true ->
  sum_fees L (e_minfee e) 0 = Some tot -> (tot <= head_fee L)%Z ->
  ((head_fee L >? e_maxfee e)%Z && (e_maxfee e >? 0)%Z && is_fork (e_height e) (e_block e) = false) ->
  hash_loop H (header (hd dtx L)) (Z.of_nat (length L)) true L = EOk ->
  check_group H e L = EOk.
Proof.
  intros Len Cb Pa Ff Sf Le Th HL. unfold check_group.
  destruct L as [|t0 [|t1 rest]]; [cbn in Len; lia|cbn in Len; lia|].
  set (L := t0 :: t1 :: rest) in *.
  rewrite Cb.
  assert (P1 : is_fork (e_height e) (e_para e) && multi_title (titles_of L) = false).
  { destruct (is_fork (e_height e) (e_para e)); [|reflexivity]. specialize (Pa eq_refl).
    unfold para_ok in Pa. apply andb_true_iff in Pa as [Pa _].
    cbn [andb]. destruct (multi_title (titles_of L)); [discriminate|reflexivity]. }
  rewrite P1.
  assert (P2 : is_fork (e_height e) (e_para e) &&
               negb match titles_of L with [] => true | _ :: _ => false end &&
               existsb (fun t => negb (is_para (execer t))) L = false).
  { destruct (is_fork (e_height e) (e_para e)); [|reflexivity]. specialize (Pa eq_refl).
    unfold para_ok in Pa. apply andb_true_iff in Pa as [_ Pa]. cbn [andb].
    destruct (titles_of L); [reflexivity|]. cbn [negb andb].
    apply (existsb_negb (fun t => is_para (execer t))). exact Pa. }
  rewrite P2.
  assert (Fz : existsb (fun t => negb (fee t =? 0)%Z) (t1 :: rest) = false)
    by (apply (existsb_negb (fun t => (fee t =? 0)%Z)); exact Ff).
  rewrite Fz.
  rewrite Sf. unfold L in Le, Th. cbn [head_fee] in Le, Th.
  destruct (Z.ltb_spec (fee t0) tot) as [Lt|Ge]; [lia|].
  rewrite Th. exact HL.
Qed.

Lemma created_group_checks :
  forall txs rate G L e tot,
    create_group H txs rate = inr G ->
    map unsig L = map unsig G ->
    (Z.of_nat (length G) <= max_group)%Z ->
    existsb (chain_bad e) L = false ->
    (is_fork (e_height e) (e_para e) = true -> para_ok L = true) ->
    sum_fees L (e_minfee e) 0 = Some tot -> (tot <= head_fee L)%Z ->
    ((head_fee L >? e_maxfee e)%Z && (e_maxfee e >? 0)%Z && is_fork (e_height e) (e_block e) = false) ->
    check_group H e L = EOk.
Proof.
  intros txs rate G L e tot Cr E Hn Cb Pa Sf Le Th.
  destruct (create_group_spec _ _ _ Cr) as (Ch & LnG & LenG & Ff & Len2).
  pose proof (map_unsig_length _ _ E) as LenL.
  rewrite <- (chained_map_unsig H), <- E, chained_map_unsig in Ch.
  rewrite <- last_next_map_unsig, <- E, last_next_map_unsig in LnG.
  rewrite <- others_fee_free_map_unsig, <- E, others_fee_free_map_unsig in Ff.
  apply check_group_intro with tot; try assumption; [lia|].
  destruct L as [|l0 L']; [contradiction|]. cbn [hd].
  destruct Ch as (Hd & Fa & Lk).
  apply hash_loop_ok; try assumption.
  - intros _. symmetry. exact Hd.
  - rewrite LenL. exact Hn.
Qed.

End Create.

(** example inputs; [ex_t2_stale]: the second input still carries the Next it
    had as a non-last member of an earlier group (the former finding 1) *)
Definition ex_t1 : tx :=
  mk_tx [99; 111; 105; 110; 115]%N [1; 2; 3]%N None 100000 0 7 [49; 74]%N 0 [] [] 0.
Definition ex_t2 : tx :=
  mk_tx [99; 111; 105; 110; 115]%N [4; 5]%N None 0 0 8 [49; 75]%N 0 [] [] 0.
Definition ex_t2_stale : tx := set_next [9%N] ex_t2.
Definition ex_env : env := mk_env 0 10 100 0 0 0 0.
Definition idH (x : list N) : list N := x.

Definition ex_G : list tx :=
  Eval vm_compute in match create_group idH [ex_t1; ex_t2] 0 with inr G => G | inl _ => [] end.

Lemma ex_G_created : create_group idH [ex_t1; ex_t2] 0 = inr ex_G.
Proof. vm_compute. reflexivity. Qed.

(** the theorem says something: a group is created and passes; the stale Next
    of the last input is dropped, the group is the one built from the clean input *)
Example ex_created_checks :
  exists G, create_group idH [ex_t1; ex_t2] 0 = inr G /\ check_group idH ex_env G = EOk /\
            create_group idH [ex_t1; ex_t2_stale] 0 = inr G.
Proof. exists ex_G. split; [exact ex_G_created|]. split; vm_compute; reflexivity. Qed.

(** RebuiltGroup drops a stale Next of the last member as well *)
Example ex_rebuilt_stale :
  exists G, create_group idH [ex_t1; ex_t2] 0 = inr G /\
            rebuilt_group idH (map (set_next [9%N]) G) = Some G.
Proof. exists ex_G. split; [exact ex_G_created|]. vm_compute. reflexivity. Qed.

(** * Tamper evidence *)
Section Tamper.
Variable H : list N -> list N.
Hypothesis Hinj : forall a b, H a = H b -> a = b.

Theorem same_header_same_content e L G :
  chained H G ->
  Forall (fun t => wf_txb t = true) G -> Forall (fun t => wf_txb t = true) L ->
  check_group H e L = EOk ->
  header (hd dtx L) = header (hd dtx G) ->
  map unsig L = map unsig G.
Proof.
  intros CG WG WL Ck Eh. destruct (check_group_ok_chained H e L Ck) as (CL & _ & _).
  apply (chained_same_header H Hinj); assumption.
Qed.

Lemma check_sign_issued ds verify mall issued l h :
  ideal_scheme verify mall issued -> check_sign ds verify l h = true ->
  exists s s0, signature l = Some s /\
               issued (crypto_id (s_ty s)) (s_pub s) (sign_msg l) s0 /\
               mall (crypto_id (s_ty s)) s0 (s_sig s) = true.
Proof.
  intros [Mr Vi] C. unfold check_sign in C. destruct (signature l) as [s|] eqn:Sg; [|discriminate].
  destruct (load ds (crypto_id (s_ty s)) h) as [d|] eqn:Ld; [|discriminate].
  apply load_id in Ld. rewrite Ld in C. apply Vi in C as (s0 & I & M).
  exists s, s0. unfold signed_bytes in I. rewrite clone_tx_id in I. auto.
Qed.

Theorem tamper_detected ds verify mall issued G L e h :
  ideal_scheme verify mall issued ->
  chained H G ->
  Forall (fun t => wf_txb t = true) G -> Forall (fun t => wf_txb t = true) L ->
  (forall id p m s, issued id p m s -> exists g, In g G /\ m = sign_msg g) ->
  check_group H e L = EOk -> group_check_sign ds verify L h = true ->
  map unsig L = map unsig G /\
  Forall (fun l => exists s s0, signature l = Some s /\
                     issued (crypto_id (s_ty s)) (s_pub s) (sign_msg l) s0 /\
                     mall (crypto_id (s_ty s)) s0 (s_sig s) = true) L.
Proof.
  intros Id CG WG WL Only Ck Cs.
  assert (Fs : Forall (fun l => exists s s0, signature l = Some s /\
                     issued (crypto_id (s_ty s)) (s_pub s) (sign_msg l) s0 /\
                     mall (crypto_id (s_ty s)) s0 (s_sig s) = true) L).
  { apply Forall_forall. intros l Hl. unfold group_check_sign in Cs.
    rewrite forallb_forall in Cs. eapply check_sign_issued; eauto. }
  split; [|exact Fs].
  apply same_header_same_content with e; try assumption.
  destruct (check_group_ok_inv H e L Ck) as (Len & _).
  destruct L as [|l0 L']; [cbn in Len; lia|]. cbn [hd].
  inversion Fs as [|? ? (s & s0 & Sg & Is & _) _]; subst.
  destruct (Only _ _ _ _ Is) as (g & Hg & Em).
  rewrite Forall_forall in WG. inversion WL; subst.
  unfold sign_msg in Em.
  apply encode_tx_injective in Em; [| apply wf_cleared; assumption | apply wf_cleared; apply WG; assumption].
  rewrite (f_equal header Em : header l0 = header g).
  destruct G as [|g0 G']; [contradiction|]. cbn [hd].
  destruct CG as (_ & Fa & _). rewrite Forall_forall in Fa. apply Fa. exact Hg.
Qed.

End Tamper.

(** * The full-strength statement fails: signature fields are not bound *)
Definition issuedG (G : list tx) (id : Z) (p m s : list N) : Prop :=
  exists g sg, In g G /\ signature g = Some sg /\ id = crypto_id (s_ty sg) /\
               p = s_pub sg /\ m = sign_msg g /\ s = s_sig sg.
Definition verifyG (G : list tx) (id : Z) (m p s : list N) : bool :=
  existsb (fun g => match signature g with
                    | Some sg => Z.eqb id (crypto_id (s_ty sg)) && bytes_eqb p (s_pub sg) &&
                                 bytes_eqb m (sign_msg g) && toy_mall id (s_sig sg) s
                    | None => false
                    end) G.

(** every signed member of [G] contributes the functionality that issued its
    one signature ([C16.Proofs.once_ideal]); [verifyG] / [issuedG] are their union *)
Lemma ideal_G G : ideal_scheme (verifyG G) toy_mall (issuedG G).
Proof.
  split; [apply toy_mall_refl|].
  intros id m p s. unfold verifyG, issuedG. rewrite existsb_exists. split.
  - intros (g & Hg & C). destruct (signature g) as [sg|] eqn:Sg; [|discriminate].
    apply (once_ideal toy_mall (crypto_id (s_ty sg)) (s_pub sg) (sign_msg g) (s_sig sg) toy_mall_refl)
      in C as (s0 & (-> & -> & -> & ->) & M).
    exists (s_sig sg). split; [|exact M]. exists g, sg. repeat split; assumption.
  - intros (s0 & (g & sg & Hg & Sg & -> & -> & -> & ->) & M).
    exists g. split; [exact Hg|]. rewrite Sg.
    apply (once_ideal toy_mall (crypto_id (s_ty sg)) (s_pub sg) (sign_msg g) (s_sig sg) toy_mall_refl).
    exists (s_sig sg). split; [repeat split|exact M].
Qed.

Definition ex_Gs : list tx := map (set_sig (Some (mk_sig 1 toy_pub toy_sg))) ex_G.
(** the second member's signature replaced by its twin / its type id changed outside the driver bits *)
Definition ex_Ls : list tx :=
  match ex_Gs with a :: b :: _ => [a; set_sig (Some (mk_sig 1 toy_pub toy_sg')) b] | _ => [] end.
Definition ex_Lty : list tx :=
  match ex_Gs with a :: b :: _ => [a; set_sig (Some (mk_sig 4097 toy_pub toy_sg)) b] | _ => [] end.

Lemma ex_Gs_chained : chained idH ex_Gs.
Proof.
  destruct (create_group_spec idH _ _ _ ex_G_created) as (Ch & _).
  apply chained_map_unsig. unfold ex_Gs. rewrite map_map. exact (proj2 (chained_map_unsig idH ex_G) Ch).
Qed.

Lemma ex_Gs_wf : Forall (fun t => wf_txb t = true) ex_Gs.
Proof. repeat constructor. Qed.

Lemma tamper_detected_refuted : ~ C17_tamper_detected_full.
Proof.
  intro F.
  specialize (F idH (fun a b E => E) toy_ds (verifyG ex_Gs) toy_mall (issuedG ex_Gs) ex_Gs ex_Ls ex_env 20%Z
                (ideal_G ex_Gs) ex_Gs_chained).
  assert (E : ex_Ls = ex_Gs).
  { apply F.
    - exact ex_Gs_wf.
    - repeat constructor.
    - intros id p m s I. exact I.
    - vm_compute. reflexivity.
    - vm_compute. reflexivity. }
  vm_compute in E. discriminate.
Qed.

(** the same for the bits of Signature.ty that do not select the driver *)
Example ex_ty_bits_accepted :
  check_group idH ex_env ex_Lty = EOk /\ group_check_sign toy_ds (verifyG ex_Gs) ex_Lty 20 = true /\
  ex_Lty <> ex_Gs.
Proof. split; [vm_compute; reflexivity|]. split; [vm_compute; reflexivity|]. vm_compute. discriminate. Qed.

(** non-vacuity of [tamper_detected]: its hypotheses hold for the signed example group itself *)
Example ex_tamper_hyps :
  chained idH ex_Gs /\ Forall (fun t => wf_txb t = true) ex_Gs /\
  check_group idH ex_env ex_Gs = EOk /\ group_check_sign toy_ds (verifyG ex_Gs) ex_Gs 20 = true /\
  (forall id p m s, issuedG ex_Gs id p m s -> exists g, In g ex_Gs /\ m = sign_msg g).
Proof.
  split; [exact ex_Gs_chained|]. split; [exact ex_Gs_wf|].
  split; [vm_compute; reflexivity|]. split; [vm_compute; reflexivity|].
  intros id p m s (g & sg & Hg & _ & _ & _ & -> & _). exists g. auto.
Qed.

(** * Fee clauses as decision rules *)
Theorem fee_rules H e L :
  check_group H e L = EOk ->
  others_fee_free L = true /\
  exists tot, sum_fees L (e_minfee e) 0 = Some tot /\ (tot <= head_fee L)%Z.
Proof. intro E. apply check_group_ok_inv in E. tauto. Qed.

(* in the proof the bound is made a variable, so that [lia] does not carry the numerals *)
Lemma wrap64_id z : (- 2 ^ 63 <= z < 2 ^ 63)%Z -> wrap64 z = z.
Proof.
  unfold wrap64. change (2 ^ 64)%Z with (2 * 2 ^ 63)%Z. generalize (2 ^ 63)%Z. intros b R.
  rewrite Z.mod_small; lia.
Qed.

Lemma fee_size_nonneg t : (0 <= fee_size t)%Z.
Proof. unfold fee_size, tx_size. destruct (signature t); lia. Qed.

(** the fee required of one member at rate [m]: a summand of [required_fee],
    and what [real_fee] answers before it wraps *)
Definition fee1 (m : Z) (t : tx) : Z := ((fee_size t / 1000 + 1) * m)%Z.

Lemma required_fee_cons m t L : required_fee m (t :: L) = (fee1 m t + required_fee m L)%Z.
Proof. reflexivity. Qed.

Lemma real_fee_some t m rf :
  real_fee t m = Some rf <-> (fee_size t <= max_tx_size)%Z /\ rf = wrap64 (fee1 m t).
Proof.
  unfold real_fee. fold (fee1 m t). destruct (Z.gtb_spec (fee_size t) max_tx_size); split.
  - discriminate.
  - intros [G _]. lia.
  - intros [= <-]. split; [lia|reflexivity].
  - intros [_ ->]. reflexivity.
Qed.

Lemma fee1_nonneg m t : (0 <= m)%Z -> (0 <= fee1 m t)%Z.
Proof.
  intro Hm. apply Z.mul_nonneg_nonneg; [|exact Hm].
  pose proof (Z.div_pos (fee_size t) 1000 (fee_size_nonneg t)). lia.
Qed.

Lemma required_fee_nonneg m L : (0 <= m)%Z -> (0 <= required_fee m L)%Z.
Proof.
  intro Hm. induction L as [|t L IH]; [reflexivity|].
  rewrite required_fee_cons. pose proof (fee1_nonneg m t Hm). lia.
Qed.

(** without wrap-around the sum that Check computes is the required fee of the text *)
Theorem sum_fees_exact m : (0 <= m)%Z -> forall L acc,
  (0 <= acc)%Z -> sizes_ok L = true -> (acc + required_fee m L < 2 ^ 63)%Z ->
  sum_fees L m acc = Some (acc + required_fee m L)%Z.
Proof.
  intros Hm. induction L as [|t L IH]; intros acc Ha So Bd.
  - cbn. f_equal. lia.
  - rewrite required_fee_cons in Bd |- *. cbn [sum_fees].
    cbn [sizes_ok forallb] in So. apply andb_true_iff in So as [S1 S2]. apply Z.leb_le in S1.
    pose proof (fee1_nonneg m t Hm). pose proof (required_fee_nonneg m L Hm).
    rewrite (proj2 (real_fee_some t m _) (conj S1 eq_refl)).
    rewrite (wrap64_id (fee1 m t)), (wrap64_id (acc + fee1 m t)) by lia.
    rewrite IH; [f_equal; lia | lia | exact S2 | lia].
Qed.

(** * Tx() / GetTxGroup: the encoded group in the head's header decodes to the group *)
Lemma dec_rep_enc : forall bs fuel,
  (length (enc_rep_msg 1 bs) <= fuel)%nat -> dec_rep fuel (enc_rep_msg 1 bs) = Some bs.
Proof.
  induction bs as [|b bs IH]; intros fuel Hf; [destruct fuel; reflexivity|].
  change (enc_rep_msg 1 (b :: bs)) with (len_delim 1 b ++ enc_rep_msg 1 bs) in *.
  unfold len_delim in *. change (key 1 2) with [10%N] in *.
  cbn [app] in *. destruct fuel as [|f]; [cbn in Hf; lia|].
  cbn [dec_rep get_varint]. change (10 <? 128)%N with true. cbn iota.
  change (10 =? 10)%N with true. cbn iota.
  rewrite <- app_assoc, take_len_ok. rewrite IH; [reflexivity|].
  cbn [length] in Hf. rewrite !app_length in Hf. lia.
Qed.

Lemma map_opt_decode L :
  Forall (fun t => wf_txb t = true) L -> map_opt decode_tx (map encode_tx L) = Some L.
Proof.
  induction 1 as [|t L Wt _ IH]; [reflexivity|].
  cbn [map map_opt]. rewrite (decode_tx_encode t Wt), IH. reflexivity.
Qed.

Theorem decode_txs_encode L :
  Forall (fun t => wf_txb t = true) L -> decode_txs (encode_txs L) = Some L.
Proof.
  intro W. unfold decode_txs, encode_txs. rewrite dec_rep_enc by lia. apply map_opt_decode, W.
Qed.

Theorem tx_path_equiv H e L t :
  Forall (fun t => wf_txb t = true) L -> group_tx L = Some t ->
  (2 <= groupCount (hd dtx L) <= 20)%Z ->
  tx_check H e t = check_group H e L.
Proof.
  intros W Gt Gc. unfold group_tx in Gt. destruct L as [|t0 [|t1 rest]]; try discriminate.
  injection Gt as <-. cbn [hd] in Gc. unfold tx_check, get_tx_group.
  rewrite clone_tx_id.
  replace (groupCount (set_header (encode_txs (t0 :: t1 :: rest)) t0)) with (groupCount t0)
    by (destruct t0; reflexivity).
  destruct (Z.ltb_spec (groupCount t0) 0); [lia|].
  destruct (Z.eqb_spec (groupCount t0) 1); [lia|].
  destruct (Z.gtb_spec (groupCount t0) 20); [lia|]. cbn [orb].
  destruct (Z.gtb_spec (groupCount t0) 0); [|lia].
  replace (header (set_header (encode_txs (t0 :: t1 :: rest)) t0)) with (encode_txs (t0 :: t1 :: rest))
    by (destruct t0; reflexivity).
  rewrite (decode_txs_encode _ W). reflexivity.
Qed.

(** * RebuiltGroup *)
Section Rebuild.
Variable H : list N -> list N.

Lemma relink_spec : forall L,
  length (relink H L) = length L /\ linked H (relink H L) /\
  map groupCount (relink H L) = map groupCount L /\ last_next (relink H L) = [].
Proof.
  induction L as [|t L IH]; [repeat split|].
  destruct IH as (Len & Lk & Gc & Ln). cbn [relink].
  destruct (relink H L) as [|t1 r1] eqn:R.
  - destruct L; [|discriminate]. repeat split.
  - cbn [length map] in *. split; [lia|]. split; [|split].
    + split; [destruct t; reflexivity|exact Lk].
    + rewrite <- Gc. destruct t; reflexivity.
    + cbn [last_next] in Ln |- *. exact Ln.
Qed.

Theorem rebuilt_group_chained L M :
  rebuilt_group H L = Some M ->
  Forall (fun t => groupCount t = Z.of_nat (length L)) L ->
  chained H M /\ last_next M = [].
Proof.
  unfold rebuilt_group. destruct (relink_spec L) as (Len & Lk & Gc & Ln).
  destruct (relink H L) as [|t0 r] eqn:R; [discriminate|]. intro E. injection E as <-.
  intro Fa. split;
    [|change (last_next (map (set_header (thash H t0)) (t0 :: r)) = []);
      rewrite last_next_map_set_header; exact Ln].
  apply chained_intro with (t0 := set_header (thash H t0) t0) (rest := map (set_header (thash H t0)) r).
  - reflexivity.
  - rewrite thash_set_header. destruct t0; reflexivity.
  - assert (LenM : length (map (set_header (thash H t0)) (t0 :: r)) = length L)
      by (rewrite map_length; exact Len).
    apply Forall_forall. intros x Hx.
    change (In x (map (set_header (thash H t0)) (t0 :: r))) in Hx.
    apply in_map_iff in Hx as (y & <- & Hy). split; [destruct y, t0; reflexivity|].
    change (groupCount (set_header (thash H t0) y) =
            Z.of_nat (length (map (set_header (thash H t0)) (t0 :: r)))).
    rewrite LenM.
    assert (G1 : In (groupCount y) (map groupCount L)) by (rewrite <- Gc; apply in_map; exact Hy).
    apply in_map_iff in G1 as (z & Ez & Hz). rewrite Forall_forall in Fa.
    destruct y. cbn in *. rewrite <- Ez. apply Fa. exact Hz.
  - apply (linked_map_set_header H (thash H t0) (t0 :: r)). exact Lk.
Qed.
End Rebuild.

(** an accepted list that starts with any member of a chained group is that group:
    reordering, dropping, duplicating, inserting or substituting members is detected *)
Theorem member_first_detected (H : list N -> list N) (Hinj : forall a b, H a = H b -> a = b) e L G g :
  chained H G ->
  Forall (fun t => wf_txb t = true) G -> Forall (fun t => wf_txb t = true) L ->
  In g G -> unsig (hd dtx L) = unsig g ->
  check_group H e L = EOk ->
  map unsig L = map unsig G.
Proof.
  intros CG WG WL Hg El Ck.
  apply (same_header_same_content H Hinj e); try assumption.
  rewrite (f_equal header El : header (hd dtx L) = header g).
  destruct G as [|g0 G']; [contradiction|]. cbn [hd].
  destruct CG as (_ & Fa & _). rewrite Forall_forall in Fa. apply Fa. exact Hg.
Qed.

(** * The members' sender gate (chain33 909acb0) *)
(** every group that Transactions.CheckSign accepts is accepted by the part of
    it the theorems above speak about, and every member has a sender address
    derived by an address driver *)
Lemma group_check_sign_tx_weaken adrv ds verify L h :
  group_check_sign_tx adrv ds verify L h = true ->
  group_check_sign ds verify L h = true /\
  Forall (fun t => usable adrv (sig_ty t) (sig_pub t) = true) L.
Proof.
  unfold group_check_sign_tx, group_check_sign. intro C.
  rewrite forallb_forall in C. split.
  - apply forallb_forall. intros t Ht. exact (proj2 (check_sign_tx_true _ _ _ _ _ (C t Ht))).
  - apply Forall_forall. intros t Ht. exact (proj1 (check_sign_tx_true _ _ _ _ _ (C t Ht))).
Qed.
