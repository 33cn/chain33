(** C17 — the fee that CreateTxGroup puts on the head covers what Check will
    ask of the signed group at the same rate (signatures of at most 300
    encoded bytes, no int64 wrap-around). *)
From Coq Require Import List NArith ZArith Lia Bool.
From C33 Require Import Lib.Harness Lib.Bytes C16.Proto C16.Model C16.Spec C16.Proofs.
From C33 Require Import C17.Model C17.Spec C17.Proofs.
Import ListNotations.
Open Scope list_scope.

(** * Lengths of varints and of the fee field *)
Lemma varint_aux_len : forall f n k,
  (n < 128 ^ N.of_nat (S k))%N -> (length (varint_aux f n) <= S k)%nat.
Proof.
  induction f as [|f IH]; intros n k Hn; cbn [varint_aux]; [cbn; lia|].
  destruct (N.ltb_spec n 128) as [L|G]; [cbn; lia|].
  cbn [length]. destruct k as [|k].
  - change (128 ^ N.of_nat 1)%N with 128%N in Hn. lia.
  - apply le_n_S. apply IH. rewrite Nat2N.inj_succ, N.pow_succ_r' in Hn.
    apply N.div_lt_upper_bound; lia.
Qed.

Lemma varint_len_63 n : (n < 2 ^ 63)%N -> (length (varint n) <= 9)%nat.
Proof.
  intro Hn. unfold varint. apply (varint_aux_len _ n 8).
  change (128 ^ N.of_nat 9)%N with (2 ^ 63)%N. exact Hn.
Qed.

Lemma enc_int4_len z : (0 <= z < 2 ^ 63)%Z -> (length (enc_int 4 z) <= 10)%nat.
Proof.
  intro R. unfold enc_int. destruct (z =? 0)%Z; [cbn; lia|].
  rewrite app_length. change (key 4 0) with [32%N]. cbn [length].
  assert (E : u64 z = Z.to_N z) by (unfold u64; rewrite Z.mod_small by lia; reflexivity).
  rewrite E. assert (length (varint (Z.to_N z)) <= 9)%nat; [|lia].
  apply varint_len_63. apply N2Z.inj_lt. rewrite Z2N.id by lia.
  change (Z.of_N (2 ^ 63)) with (2 ^ 63)%Z. lia.
Qed.

Example enc_int4_len_62 : length (enc_int 4 (2 ^ 62)) = 10%nat.
Proof. vm_compute. reflexivity. Qed.

Lemma enc_bytes_len_eq fn a b : length a = length b -> length (enc_bytes fn a) = length (enc_bytes fn b).
Proof.
  destruct a as [|x a]; destruct b as [|y b]; try discriminate; [reflexivity|].
  intro E. unfold enc_bytes, len_delim. rewrite !app_length, E. reflexivity.
Qed.

Lemma wrap64_range z : (- 2 ^ 63 <= wrap64 z < 2 ^ 63)%Z.
Proof.
  unfold wrap64. change (2 ^ 64)%Z with (2 * 2 ^ 63)%Z.
  assert (P : (0 < 2 ^ 63)%Z) by reflexivity. revert P. generalize (2 ^ 63)%Z. intros b P.
  pose proof (Z.mod_pos_bound (z + b) (2 * b) ltac:(lia)). lia.
Qed.

(** * A signed member is no larger (for the fee) than its creation-time form *)
Definition sig_small (l : tx) : Prop :=
  exists s, signature l = Some s /\ (length (enc_msg 3 (Some (encode_sig s))) <= 300)%nat.

(** [g] is the unsigned creation-time member [c] with the group header (of the length of the
    one [c] had) and a fee whose encoding is no longer than that of [c] *)
Definition made_from (hdr : list N) (c g : tx) : Prop :=
  signature c = None /\ length hdr = length (header c) /\
  exists fl, (length (enc_int 4 fl) <= length (enc_int 4 (fee c)))%nat /\
             g = set_header hdr (upd c fl (groupCount c) (header c) (next c)).

Lemma made_from_self hdr c :
  signature c = None -> length hdr = length (header c) -> made_from hdr c (set_header hdr c).
Proof.
  intros Sc Hl. split; [exact Sc|]. split; [exact Hl|].
  exists (fee c). split; [lia|]. destruct c; reflexivity.
Qed.

Lemma made_from_map hdr Cs :
  Forall (fun c => signature c = None /\ length hdr = length (header c)) Cs ->
  Forall2 (made_from hdr) Cs (map (set_header hdr) Cs).
Proof.
  induction 1 as [|c Cs [Sc Hl] _ IH]; constructor; [apply made_from_self; assumption|exact IH].
Qed.

Lemma fee_size_member hdr c g l :
  made_from hdr c g -> unsig l = unsig g -> sig_small l -> (fee_size l <= fee_size c)%Z.
Proof.
  destruct c as [ce cp cs cf cx cn co cg chd cnx cc].
  destruct l as [le lp ls lf lx ln lo lg lhd lnx lc].
  unfold made_from. cbn [signature groupCount header next fee].
  intros (-> & Hl & fl & Hf & ->) E (s & Es & Hs).
  cbn [signature] in Es. subst ls.
  unfold unsig, set_sig, set_header, upd in E. cbn in E. injection E; intros; subst.
  unfold fee_size, tx_size, encode_tx.
  cbn [execer payload signature fee expire nonce to_ groupCount header next chainID option_map].
  pose proof (enc_bytes_len_eq 9 hdr chd Hl) as Eh.
  change (enc_msg 3 None) with (@nil N).
  rewrite !app_length. cbn [length]. lia.
Qed.

Lemma fee_size_members hdr : forall C G,
  Forall2 (made_from hdr) C G ->
  forall L, map unsig L = map unsig G -> Forall sig_small L ->
  Forall2 (fun l c => (fee_size l <= fee_size c)%Z) L C.
Proof.
  induction 1 as [|c g C G M _ IH]; intros L E Sm.
  - destruct L; [constructor|discriminate].
  - destruct L as [|l L]; [discriminate|].
    apply map_unsig_cons_inv in E as (g' & G' & Eq & El & Er). injection Eq as <- <-.
    inversion Sm; subst.
    constructor; [exact (fee_size_member hdr c g l M El ltac:(assumption))|apply IH; assumption].
Qed.

(** * No wrap-around: the accumulated sum is the required fee *)
Lemma fee1_le rate c : (0 <= rate)%Z -> (fee_size c <= max_tx_size)%Z -> (fee1 rate c <= 101 * rate)%Z.
Proof.
  intros Hr Sz. unfold fee1.
  apply Z.mul_le_mono_nonneg_r; [exact Hr|].
  assert (fee_size c / 1000 <= 100)%Z; [|lia].
  apply Z.div_le_upper_bound; [lia|]. unfold max_tx_size in Sz. lia.
Qed.

Lemma fee1_mono rate l c : (0 <= rate)%Z -> (fee_size l <= fee_size c)%Z -> (fee1 rate l <= fee1 rate c)%Z.
Proof.
  intros Hr Le. apply Z.mul_le_mono_nonneg_r; [exact Hr|].
  apply Z.add_le_mono_r, Z.div_le_mono; [lia|exact Le].
Qed.

Lemma required_fee_bound rate C :
  (0 <= rate)%Z -> sizes_ok C = true ->
  (required_fee rate C <= 101 * rate * Z.of_nat (length C))%Z.
Proof.
  intros Hr. induction C as [|c C IH]; intro So; [cbn; lia|].
  cbn [sizes_ok forallb] in So. apply andb_true_iff in So as [S1 S2]. apply Z.leb_le in S1.
  specialize (IH S2). rewrite required_fee_cons. cbn [length]. rewrite Nat2Z.inj_succ.
  pose proof (fee1_le rate c Hr S1). lia.
Qed.

Lemma cfold_exact rate : (0 <= rate)%Z -> forall C mn,
  cfold rate C = Some mn ->
  (101 * rate * Z.of_nat (length C) < 2 ^ 63)%Z ->
  sizes_ok C = true /\ mn = required_fee rate C.
Proof.
  intros Hr. induction C as [|c C IH]; intros mn E Bd.
  - cbn in E. injection E as <-. split; reflexivity.
  - cbn [cfold] in E. destruct (cfold rate C) as [m|] eqn:Cf; [|discriminate].
    destruct (real_fee c rate) as [rf|] eqn:Rf; [|discriminate]. injection E as <-.
    cbn [length] in Bd. rewrite Nat2Z.inj_succ in Bd.
    destruct (IH m eq_refl ltac:(lia)) as (So & ->).
    apply real_fee_some in Rf as (Sz & ->).
    assert (So' : sizes_ok (c :: C) = true).
    { cbn [sizes_ok forallb]. apply andb_true_iff. split; [apply Z.leb_le; exact Sz|exact So]. }
    split; [exact So'|].
    pose proof (required_fee_bound rate C Hr So) as B. rewrite required_fee_cons.
    pose proof (required_fee_nonneg rate C Hr). pose proof (fee1_nonneg rate c Hr).
    pose proof (fee1_le rate c Hr Sz).
    rewrite (wrap64_id (fee1 rate c)), wrap64_id by lia. lia.
Qed.

Lemma required_fee_mono rate : (0 <= rate)%Z -> forall L C,
  Forall2 (fun l c => (fee_size l <= fee_size c)%Z) L C ->
  (required_fee rate L <= required_fee rate C)%Z /\ (sizes_ok C = true -> sizes_ok L = true).
Proof.
  intros Hr. induction 1 as [|l c L C Le _ IH]; [split; [lia|auto]|].
  destruct IH as [IH1 IH2]. rewrite !required_fee_cons. cbn [sizes_ok forallb]. split.
  - pose proof (fee1_mono rate l c Hr Le). lia.
  - rewrite !andb_true_iff, !Z.leb_le. intros [A B]. split; [lia|]. apply IH2. exact B.
Qed.

(** * The theorem *)
Theorem created_fee_sufficient :
  forall (H : list N -> list N) txs rate G L,
    (forall a b, length (H a) = length (H b)) ->
    create_group H txs rate = inr G ->
    Forall (fun t => signature t = None) txs ->
    (0 <= rate)%Z -> (101 * rate * Z.of_nat (length txs) < 2 ^ 63)%Z ->
    map unsig L = map unsig G ->
    Forall sig_small L ->
    exists tot, sum_fees L rate 0 = Some tot /\ (tot <= head_fee L)%Z.
Proof.
  intros H txs rate G L Hlen Cr Uns Hr Bd E Sm.
  destruct (create_group_inv H _ _ _ Cr) as (t0 & rest & c1 & Cs & tot & mn & rf & -> & Ct & Rf & ->).
  destruct (create_tail_inv _ _ _ _ _ _ _ _ Ct) as (Sg & Fa & _ & _ & Cf).
  set (n := Z.of_nat (length (t0 :: rest))) in *.
  set (c0 := fun fl => upd t0 fl n (thash H t0) (thash H c1)) in *.
  set (f := Z.max (wrap64 (tot + fee t0)) (wrap64 (mn + rf))) in *.
  set (C := c0 (2 ^ 62)%Z :: c1 :: Cs).
  assert (LenC : length C = length (t0 :: rest)).
  { apply (f_equal (@length _)) in Sg. rewrite !map_length in Sg. unfold C. cbn [length] in *. lia. }
  destruct (cfold_exact rate Hr C _ (cfold_cons _ _ _ _ _ Cf Rf) ltac:(rewrite LenC; exact Bd)) as (SoC & Emn).
  pose proof (required_fee_nonneg rate C Hr) as NnC.
  pose proof (wrap64_range (tot + fee t0)) as Rt. pose proof (wrap64_range (mn + rf)) as Rm.
  inversion Uns as [|? ? U0 Ur]; subst.
  assert (F2 : Forall2 (fun l c => (fee_size l <= fee_size c)%Z) L C).
  { apply (fee_size_members (thash H (c0 f)) C (map (set_header (thash H (c0 f))) (c0 f :: c1 :: Cs)));
      [|exact E|exact Sm].
    constructor.
    - split; [exact U0|]. split; [apply Hlen|].
      exists f. split; [|reflexivity].
      change (fee (c0 (2 ^ 62)%Z)) with (2 ^ 62)%Z. rewrite enc_int4_len_62. apply enc_int4_len. lia.
    - (* the tail keeps its fee; its signatures are those of the unsigned inputs *)
      rewrite <- (Forall_map signature (fun s => s = None)), <- Sg, Forall_map in Ur.
      apply made_from_map, Forall_forall. intros c Hc. rewrite Forall_forall in Ur, Fa.
      split; [exact (Ur c Hc)|]. destruct (Fa c Hc) as (_ & -> & _). apply Hlen. }
  destruct (required_fee_mono rate Hr _ _ F2) as (Mono & SoL).
  exists (required_fee rate L). split.
  - rewrite (sum_fees_exact rate Hr L 0); [f_equal; lia | lia | apply SoL; exact SoC |].
    pose proof (required_fee_bound rate C Hr SoC). rewrite LenC in *. lia.
  - destruct L as [|l0 Lr]; [discriminate|].
    apply map_unsig_cons_inv in E as (g0' & Gr' & Eq & El0 & _). injection Eq as <- <-.
    cbn [head_fee]. rewrite (f_equal fee El0 : fee l0 = f). lia.
Qed.

(** * Created, signed, presented at the creation rate: accepted *)
Theorem created_group_passes :
  forall (H : list N -> list N) txs rate G L e,
    (forall a b, length (H a) = length (H b)) ->
    create_group H txs rate = inr G ->
    Forall (fun t => signature t = None) txs ->
    (0 <= rate)%Z -> (101 * rate * Z.of_nat (length txs) < 2 ^ 63)%Z ->
    (Z.of_nat (length txs) <= max_group)%Z ->
    map unsig L = map unsig G -> Forall sig_small L ->
    e_minfee e = rate ->
    existsb (chain_bad e) L = false ->
    (is_fork (e_height e) (e_para e) = true -> para_ok L = true) ->
    ((head_fee L >? e_maxfee e)%Z && (e_maxfee e >? 0)%Z && is_fork (e_height e) (e_block e) = false) ->
    check_group H e L = EOk.
Proof.
  intros H txs rate G L e Hlen Cr Uns Hr Bd Hn E Sm Em Cb Pa Th.
  destruct (created_fee_sufficient H txs rate G L Hlen Cr Uns Hr Bd E Sm) as (tot & Sf & Le).
  destruct (create_group_spec H _ _ _ Cr) as (_ & _ & LenG & _).
  apply (created_group_checks H txs rate G L e tot); try assumption.
  - rewrite LenG. exact Hn.
  - rewrite Em. exact Sf.
Qed.

(** the hypotheses are satisfiable: two unsigned inputs, a constant-length
    hash, rate 100, both members signed with a 12-byte signature field *)
Definition cH (x : list N) : list N := [N.of_nat (length x) mod 256; 7; 7; 7]%N.
Definition ex_Gc : list tx :=
  Eval vm_compute in match create_group cH [ex_t1; ex_t2] 100 with inr G => G | inl _ => [] end.
Definition ex_Lc : list tx := map (set_sig (Some (mk_sig 1 [2; 3]%N [4; 5]%N))) ex_Gc.
Example ex_created_passes :
  create_group cH [ex_t1; ex_t2] 100 = inr ex_Gc /\ Forall sig_small ex_Lc /\
  map unsig ex_Lc = map unsig ex_Gc /\
  check_group cH (mk_env 0 10 100 0 0 100 1000000) ex_Lc = EOk /\ head_fee ex_Lc = 100000%Z.
Proof.
  split; [vm_compute; reflexivity|]. split.
  - repeat constructor; eexists; (split; [reflexivity|apply Nat.leb_le; vm_compute; reflexivity]).
  - split; [vm_compute; reflexivity|]. split; vm_compute; reflexivity.
Qed.
