(** C07 — lemmas on the iteration order [before], on lists sorted in it, on [filter] and on [take],
    used by all proofs. *)
From Coq Require Import List ZArith Bool Lia Sorted.
From C33 Require Import Lib.Bytes Lib.OMap C07.Model C07.Spec.
Import ListNotations.

Lemma before_irrefl rv a : before rv a a = false.
Proof. destruct rv; apply bltb_irrefl. Qed.

Lemma before_trans rv a b c : before rv a b = true -> before rv b c = true -> before rv a c = true.
Proof. destruct rv; simpl; intros H1 H2; eauto using bltb_trans. Qed.

Lemma before_total rv a b : before rv a b = false -> before rv b a = false -> a = b.
Proof.
  destruct rv; simpl; intros H1 H2.
  - apply bleb_antisym; rewrite bleb_nbltb; [rewrite H1 | rewrite H2]; reflexivity.
  - apply bleb_antisym; rewrite bleb_nbltb; [rewrite H2 | rewrite H1]; reflexivity.
Qed.

Lemma before_asym rv a b : before rv a b = true -> before rv b a = false.
Proof.
  intro H. destruct (before rv b a) eqn:E; [|reflexivity].
  pose proof (before_trans _ _ _ _ H E) as T. rewrite before_irrefl in T. discriminate.
Qed.

Lemma before_nlt_trans rv a b c : before rv a b = true -> before rv c b = false -> before rv a c = true.
Proof.
  intros H1 H2. destruct (before rv a c) eqn:E; [reflexivity|].
  destruct (before rv c a) eqn:E'.
  - rewrite (before_trans _ _ _ _ E' H1) in H2. discriminate.
  - rewrite (before_total _ _ _ E E') in H1. congruence.
Qed.

Lemma mcompare_lt_b rv a b :
  (match mcompare rv a b with Lt => true | _ => false end) = before rv a b.
Proof. destruct rv; simpl; [unfold bltb; rewrite (bcmp_antisym b a)|]; reflexivity. Qed.

Lemma mcompare_eq rv a b : mcompare rv a b = Eq <-> a = b.
Proof.
  destruct rv; simpl; [rewrite <- bcmp_antisym|]; rewrite bcmp_eq_iff; [split; congruence | reflexivity].
Qed.

Lemma mcompare_match {T} rv a b (x y : T) :
  match mcompare rv a b with Eq => x | _ => y end = if bytes_eq_dec a b then x else y.
Proof.
  destruct (bytes_eq_dec a b) as [E|N].
  - rewrite (proj2 (mcompare_eq rv a b) E). reflexivity.
  - destruct (mcompare rv a b) eqn:C; [destruct (N (proj1 (mcompare_eq rv a b) C)) | reflexivity | reflexivity].
Qed.

Definition nbk (rv : bool) (c k : bytes) : bool := negb (before rv k c).
Definition afk (rv : bool) (c k : bytes) : bool := before rv c k.

Lemma afk_nbk rv c k : afk rv c k = true -> nbk rv c k = true.
Proof. unfold afk, nbk. intro H. rewrite (before_asym _ _ _ H). reflexivity. Qed.

Lemma nbk_cases rv c k : nbk rv c k = true -> k = c \/ afk rv c k = true.
Proof.
  unfold nbk, afk. intro H. apply negb_true_iff in H.
  destruct (before rv c k) eqn:E; [right; reflexivity | left; apply (before_total rv); assumption].
Qed.

Lemma nbk_refl rv c : nbk rv c c = true.
Proof. unfold nbk. rewrite before_irrefl. reflexivity. Qed.

Lemma afk_irrefl rv c : afk rv c c = false.
Proof. apply before_irrefl. Qed.

Lemma nbk_up rv c a b : nbk rv c a = true -> before rv a b = true -> nbk rv c b = true.
Proof.
  unfold nbk. intros H1 H2. apply negb_true_iff in H1. apply negb_true_iff.
  destruct (before rv b c) eqn:E; [|reflexivity].
  rewrite (before_trans _ _ _ _ H2 E) in H1. discriminate.
Qed.

Lemma afk_up rv c a b : afk rv c a = true -> before rv a b = true -> afk rv c b = true.
Proof. unfold afk. apply before_trans. Qed.

Lemma afk_of_nbk rv c a b : nbk rv c a = true -> before rv a b = true -> afk rv c b = true.
Proof.
  intros H1 H2. destruct (nbk_cases _ _ _ H1) as [->|H]; [exact H2 | eapply afk_up; eauto].
Qed.

Lemma filter_all_true {A} (f : A -> bool) l : (forall x, In x l -> f x = true) -> filter f l = l.
Proof.
  induction l as [|x l IH]; intro H; simpl; [reflexivity|].
  rewrite (H x (or_introl eq_refl)). f_equal. apply IH. intros y Hy. apply H. right. exact Hy.
Qed.

Lemma filter_all_false {A} (f : A -> bool) l : (forall x, In x l -> f x = false) -> filter f l = [].
Proof.
  induction l as [|x l IH]; intro H; simpl; [reflexivity|].
  rewrite (H x (or_introl eq_refl)). apply IH. intros y Hy. apply H. right. exact Hy.
Qed.

Lemma filter_skip {A} (f : A -> bool) x l : f x = false -> filter f (x :: l) = filter f l.
Proof. intro H. simpl. rewrite H. reflexivity. Qed.

Lemma filter_filter_sub {A} (f g : A -> bool) l :
  (forall x, In x l -> f x = true -> g x = true) -> filter f (filter g l) = filter f l.
Proof.
  induction l as [|x l IH]; intro H; simpl; [reflexivity|].
  destruct (g x) eqn:G; simpl.
  - destruct (f x); [f_equal|]; apply IH; intros y Hy; apply H; right; exact Hy.
  - destruct (f x) eqn:F.
    + rewrite (H x (or_introl eq_refl) F) in G. discriminate.
    + apply IH. intros y Hy. apply H. right. exact Hy.
Qed.

Lemma filter_comm {A} (f g : A -> bool) l : filter f (filter g l) = filter g (filter f l).
Proof.
  induction l as [|x l IH]; simpl; [reflexivity|].
  destruct (g x) eqn:G, (f x) eqn:F; simpl; rewrite ?G, ?F, IH; reflexivity.
Qed.

Lemma filter_rev {A} (f : A -> bool) l : filter f (rev l) = rev (filter f l).
Proof.
  induction l as [|x l IH]; simpl; [reflexivity|].
  rewrite filter_app, IH. simpl. destruct (f x); simpl; [reflexivity | apply app_nil_r].
Qed.

Lemma hd_filter_In {A} (f : A -> bool) l h r : filter f l = h :: r -> In h l /\ f h = true.
Proof. intro E. apply filter_In. rewrite E. left. reflexivity. Qed.

Lemma length_filter_le {A} (f : A -> bool) l : (length (filter f l) <= length l)%nat.
Proof. induction l as [|x l IH]; simpl; [lia|]. destruct (f x); simpl; lia. Qed.

Lemma filter_afk_nbk rv k (l : list entry) :
  filter_keys (afk rv k) (filter_keys (nbk rv k) l) = filter_keys (afk rv k) l.
Proof. apply filter_filter_sub. intros x _. apply afk_nbk. Qed.

Lemma live_rev l : live (rev l) = rev (live l).
Proof. apply filter_rev. Qed.

Lemma live_filter_keys g (l : list entry) : live (filter_keys g l) = filter_keys g (live l).
Proof. apply filter_comm. Qed.

Definition ltk (rv : bool) (a b : entry) : Prop := before rv (fst a) (fst b) = true.
Definition dsorted (rv : bool) (l : list entry) : Prop := StronglySorted (ltk rv) l.

Lemma dsorted_inv rv e l : dsorted rv (e :: l) -> dsorted rv l /\ forall x, In x l -> ltk rv e x.
Proof. intro H. apply StronglySorted_inv in H as [H1 H2]. split; [exact H1 | apply Forall_forall, H2]. Qed.

Lemma dsorted_filter rv f l : dsorted rv l -> dsorted rv (filter f l).
Proof.
  induction l as [|e l IH]; intro H; simpl; [constructor|].
  apply dsorted_inv in H as [H1 H2]. destruct (f e); [|apply IH; exact H1].
  constructor; [apply IH; exact H1|].
  apply Forall_forall. intros x Hx. apply filter_In in Hx as [Hx _]. apply H2. exact Hx.
Qed.

Lemma sorted_dsorted (m : store) : sorted m -> dsorted false m.
Proof.
  induction m as [|e m IH]; intro H; [constructor|].
  apply sorted_cons in H as [H1 H2]. constructor; [apply IH; exact H2|].
  apply Forall_forall. intros x Hx. apply bltb_lt. eapply Forall_forall in H1; [exact H1 | exact Hx].
Qed.

Lemma ssorted_snoc {A} (R : A -> A -> Prop) l x :
  StronglySorted R l -> Forall (fun y => R y x) l -> StronglySorted R (l ++ [x]).
Proof.
  induction l as [|a l IH]; intros H1 H2; simpl.
  - constructor; constructor.
  - apply StronglySorted_inv in H1 as [H1 H3]. inversion H2; subst.
    constructor; [apply IH; assumption|].
    apply Forall_app. split; [exact H3 | constructor; [assumption | constructor]].
Qed.

Lemma dsorted_rev (m : list entry) : dsorted false m -> dsorted true (rev m).
Proof.
  induction m as [|e m IH]; intro H; simpl; [constructor|].
  apply dsorted_inv in H as [H1 H2].
  apply ssorted_snoc; [apply IH; exact H1|].
  apply Forall_forall. intros x Hx. apply in_rev in Hx. exact (H2 x Hx).
Qed.

Lemma dsorted_keys_inj rv l e1 e2 : dsorted rv l -> In e1 l -> In e2 l -> fst e1 = fst e2 -> e1 = e2.
Proof.
  induction l as [|e l IH]; intros H H1 H2 E; [destruct H1|].
  apply dsorted_inv in H as [Hs Hf].
  destruct H1 as [->|H1], H2 as [->|H2]; [reflexivity | | | apply IH; assumption].
  - specialize (Hf _ H2). unfold ltk in Hf. rewrite E, before_irrefl in Hf. discriminate.
  - specialize (Hf _ H1). unfold ltk in Hf. rewrite E, before_irrefl in Hf. discriminate.
Qed.

Lemma dsorted_NoDup_keys rv l : dsorted rv l -> NoDup (map fst l).
Proof.
  induction l as [|e l IH]; intro H; simpl; [constructor|].
  apply dsorted_inv in H as [H1 H2]. constructor; [|apply IH; exact H1].
  intro Hin. apply in_map_iff in Hin as (e' & E & Hin).
  specialize (H2 _ Hin). unfold ltk in H2. rewrite E, before_irrefl in H2. discriminate.
Qed.

Definition dir_list (rv : bool) (L : list entry) : list entry := if rv then rev L else L.

Lemma dsorted_dir rv (m : store) : sorted m -> dsorted rv (dir_list rv m).
Proof. intro H. destruct rv; [apply dsorted_rev|]; apply sorted_dsorted; exact H. Qed.

Lemma dir_list_In rv (L : list entry) e : In e (dir_list rv L) <-> In e L.
Proof. destruct rv; simpl; [symmetry; apply in_rev | reflexivity]. Qed.

Lemma dir_list_length rv L : length (dir_list rv L) = length L.
Proof. destruct rv; simpl; [apply rev_length | reflexivity]. Qed.

Lemma live_dir_list rv L : live (dir_list rv L) = dir_list rv (live L).
Proof. destruct rv; simpl; [apply live_rev | reflexivity]. Qed.

Lemma in_order_dir d l : in_order d l = dir_list (negb (is_asc d)) l.
Proof. unfold in_order, dir_list. destruct (is_asc d); reflexivity. Qed.

Lemma filter_tail rv k e r : dsorted rv (e :: r) -> nbk rv k (fst e) = true ->
  filter_keys (nbk rv k) r = r /\ filter_keys (afk rv k) r = r.
Proof.
  intros H N. apply dsorted_inv in H as [_ Hr].
  split; apply filter_all_true; intros x Hx; [apply afk_nbk|];
    exact (afk_of_nbk rv k (fst e) (fst x) N (Hr x Hx)).
Qed.

Lemma drop_before_filter rv k l : dsorted rv l -> drop_before rv k l = filter_keys (nbk rv k) l.
Proof.
  induction l as [|e l IH]; intro H; [reflexivity|]. cbn [drop_before filter_keys filter].
  unfold nbk at 1. unfold entry, bytes in *.
  destruct (before rv (fst e) k) eqn:E; cbn [negb]; [apply IH, (dsorted_inv _ _ _ H)|].
  f_equal. symmetry. apply (filter_tail rv k e l H), negb_true_iff, E.
Qed.

Lemma filter_nbk_head rv k l e r : dsorted rv l -> filter_keys (nbk rv k) l = e :: r ->
  (fst e = k -> filter_keys (afk rv k) l = r) /\ (fst e <> k -> filter_keys (afk rv k) l = e :: r).
Proof.
  intros Hs E.
  assert (He : nbk rv k (fst e) = true) by (apply (hd_filter_In _ _ _ _ E)).
  assert (Hs' : dsorted rv (e :: r)) by (rewrite <- E; apply dsorted_filter, Hs).
  destruct (filter_tail rv k e r Hs' He) as [_ Hr].
  rewrite <- filter_afk_nbk, E. cbn [filter_keys filter]. fold (filter_keys (afk rv k) r). rewrite Hr.
  split; intro C.
  - rewrite C, afk_irrefl. reflexivity.
  - destruct (nbk_cases _ _ _ He) as [?|A]; [contradiction|]. rewrite A. reflexivity.
Qed.

Lemma filter_split rv p x s : dsorted rv (p ++ x :: s) ->
  filter_keys (nbk rv (fst x)) (p ++ x :: s) = x :: s /\ filter_keys (afk rv (fst x)) (p ++ x :: s) = s.
Proof.
  induction p as [|y p IH]; intro H; cbn [app].
  - destruct (filter_tail rv (fst x) x s H (nbk_refl rv _)) as [H1 H2].
    cbn [filter_keys filter]. rewrite nbk_refl, afk_irrefl. split; [f_equal; exact H1 | exact H2].
  - apply dsorted_inv in H as [H Hy]. specialize (Hy x (in_elt x p s)). destruct (IH H) as [I1 I2].
    split; (etransitivity; [apply filter_skip | eassumption]); [apply negb_false_iff, Hy | apply before_asym, Hy].
Qed.

Lemma filter_nbk_in rv l c v : dsorted rv l -> In (c, v) l ->
  filter_keys (nbk rv c) l = (c, v) :: filter_keys (afk rv c) l.
Proof.
  intros Hs Hin. apply in_split in Hin as (p & s & ->).
  destruct (filter_split rv p (c, v) s Hs) as [H1 H2].
  etransitivity; [exact H1 | f_equal; symmetry; exact H2].
Qed.

Lemma take_nil c : take c [] = [].
Proof. unfold take. destruct (c <=? 0)%Z; [reflexivity | apply firstn_nil]. Qed.

Lemma take_cons c e l : (c <> 1)%Z -> take c (e :: l) = e :: take (c - 1) l.
Proof.
  intro H. unfold take.
  destruct (c <=? 0)%Z eqn:E1.
  - apply Z.leb_le in E1. replace (c - 1 <=? 0)%Z with true; [reflexivity|].
    symmetry. apply Z.leb_le. lia.
  - apply Z.leb_gt in E1. replace (c - 1 <=? 0)%Z with false by (symmetry; apply Z.leb_gt; lia).
    replace (Z.to_nat c) with (S (Z.to_nat (c - 1))) by lia. reflexivity.
Qed.

Lemma take_one e l : take 1 (e :: l) = [e].
Proof. reflexivity. Qed.
