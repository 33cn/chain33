(** C07 — the overlay of the layers as one store; the merged iterator walks its range ([mg_walks]);
    the theorems that Properties.v restates; the two witnesses against the unguarded paging
    statements; an example state. *)
From Coq Require Import String.
From Coq Require Import List ZArith Bool Lia.
From C33 Require Import Lib.Harness Lib.Bytes Lib.OMap C07.Model C07.Spec
  C07.ProofsBase C07.ProofsSingle C07.ProofsPaging C07.ProofsSim.
Import ListNotations.

Lemma overlay2_sorted a b : sorted b -> sorted (overlay2 a b).
Proof. intro H. induction a as [|e a IH]; simpl; [exact H | apply put_sorted; exact IH]. Qed.

Lemma overlay_sorted ls : sorted (overlay ls).
Proof. induction ls as [|a ls IH]; simpl; [exact I | apply overlay2_sorted; exact IH]. Qed.

Lemma get_overlay2 k a b :
  get k (overlay2 a b) = match get k a with Some v => Some v | None => get k b end.
Proof.
  induction a as [|[k' v'] a IH]; simpl; [reflexivity|].
  rewrite get_put. destruct (beqb k k'); [reflexivity | exact IH].
Qed.

Lemma get_overlay k ls : get k (overlay ls) = lookup ls k.
Proof.
  induction ls as [|a ls IH]; simpl; [reflexivity|]. rewrite get_overlay2, IH. reflexivity.
Qed.

Lemma overlay_In ls k v : In (k, v) (overlay ls) <-> lookup ls k = Some v.
Proof. rewrite <- get_overlay. symmetry. apply get_In. apply overlay_sorted. Qed.

Lemma overlay_single (m : store) : sorted m -> overlay [m] = m.
Proof.
  intro H. apply sorted_ext; [apply overlay_sorted | exact H|]. intro k.
  rewrite get_overlay. simpl. destruct (get k m); reflexivity.
Qed.

Definition total_len (ls : list store) : nat := fold_right (fun m a => length m + a)%nat 0%nat ls.

Lemma put_length_le (k : bytes) (v : bytes) (m : store) : (length (put k v m) <= S (length m))%nat.
Proof.
  induction m as [|[k' v'] m IH]; simpl; [lia|]. destruct (bcmp k k'); simpl; unfold store, entry, bytes in *; lia.
Qed.

Lemma overlay2_length a b : (length (overlay2 a b) <= length a + length b)%nat.
Proof.
  induction a as [|e a IH]; simpl; [lia|].
  eapply Nat.le_trans; [apply put_length_le|]. unfold overlay2, store, entry, bytes in *. lia.
Qed.

Lemma overlay_length ls : (length (overlay ls) <= total_len ls)%nat.
Proof.
  induction ls as [|a ls IH]; simpl; [lia|].
  eapply Nat.le_trans; [apply overlay2_length|]. unfold store, entry, bytes in *. lia.
Qed.

Lemma lookup_In ls k v : lookup ls k = Some v -> exists m, In m ls /\ In (k, v) m.
Proof.
  induction ls as [|m ls IH]; simpl; [discriminate|].
  destruct (get k m) as [v'|] eqn:E.
  - intro H. inversion H; subst. exists m. split; [left; reflexivity | apply get_Some_In; exact E].
  - intro H. destruct (IH H) as (m' & H1 & H2). exists m'. auto.
Qed.

Lemma overlay_keys_wf ls : Forall wf_store ls -> Forall (fun e => wf_bytes (fst e)) (overlay ls).
Proof.
  intro W. apply Forall_forall. intros [k v] Hin. apply overlay_In, lookup_In in Hin as (m & Hm & Hin).
  eapply Forall_forall in W as [_ Wk]; [|exact Hm]. eapply Forall_forall in Wk; [exact Wk | exact Hin].
Qed.

Lemma no_empty_key_In (m : store) : no_empty_key m = true -> forall e, In e m -> fst e <> [].
Proof.
  intros H e He. eapply forallb_forall in H; [|exact He]. cbv beta in H.
  destruct e as [[|b k] v]; [discriminate H | discriminate].
Qed.

Lemma overlay_no_empty ls : forallb no_empty_key ls = true -> forall e, In e (overlay ls) -> fst e <> [].
Proof.
  intros H [k v] Hin. apply overlay_In, lookup_In in Hin as (m & Hm & Hin).
  eapply forallb_forall in H; [|exact Hm]. exact (no_empty_key_In m H _ Hin).
Qed.

Lemma wf_sorted ls : Forall wf_store ls -> Forall sorted ls.
Proof. apply Forall_impl. intros m [H _]. exact H. Qed.

Definition inr (p k : bytes) : bool := in_range (Some p) (resolve_end p) k.

Lemma range_of_In p (m : store) k v : In (k, v) (range_of p m) <-> In (k, v) m /\ inr p k = true.
Proof. unfold range_of. rewrite range_filter_In. reflexivity. Qed.

Lemma lf_lookup k v : forall ls, Forall sorted ls -> (lf ls k v <-> lookup ls k = Some v).
Proof.
  induction ls as [|m ls IH]; intro Hs; simpl; [split; [intros [] | discriminate]|].
  inversion Hs as [|? ? Hm Hls]; subst. specialize (IH Hls). split.
  - intros [H|[N H]].
    + apply (get_In k v m Hm) in H. rewrite H. reflexivity.
    + apply get_None_notin in N. rewrite N. apply IH, H.
  - destruct (get k m) as [w|] eqn:E; intro H.
    + left. apply (get_In k v m Hm). congruence.
    + right. split; [apply get_None_notin, E | apply IH, H].
Qed.

Definition ranged (rv : bool) (p : bytes) (ls : list store) : list (list entry) :=
  map (fun m => dir_list rv (range_of p m)) ls.

Lemma ranged_keys_In rv p (m : store) k :
  In k (map fst (dir_list rv (range_of p m))) <-> In k (map fst m) /\ inr p k = true.
Proof.
  rewrite !in_map_iff. split.
  - intros ([k' v] & E & H). simpl in E. subst k'. apply dir_list_In, range_of_In in H as [H R].
    split; [exists (k, v); auto | exact R].
  - intros [([k' v] & E & H) R]. simpl in E. subst k'. exists (k, v).
    split; [reflexivity | apply dir_list_In, range_of_In; auto].
Qed.

Lemma lf_ranged rv p k v : forall ls, lf (ranged rv p ls) k v <-> lf ls k v /\ inr p k = true.
Proof.
  induction ls as [|m ls IH]; simpl; [split; [intros [] | intros [[] _]]|]. split.
  - intros [H|[N H]].
    + apply dir_list_In, range_of_In in H as [H R]. auto.
    + apply IH in H as [H R]. split; [|exact R]. right. split; [|exact H].
      intro K. apply N, ranged_keys_In. auto.
  - intros [[H|[N H]] R].
    + left. apply dir_list_In, range_of_In. auto.
    + right. split; [|apply IH; auto]. intro K. apply ranged_keys_In in K as [K _]. exact (N K).
Qed.

Lemma overlay_lf rv p layers k v : Forall sorted layers ->
  In (k, v) (dir_list rv (range_of p (overlay layers))) <-> lf (ranged rv p layers) k v.
Proof.
  intro Hs. split; intro H.
  - apply dir_list_In, range_of_In in H as [H R]. apply lf_ranged. split; [|exact R].
    apply (lf_lookup k v layers Hs), overlay_In, H.
  - apply lf_ranged in H as [H R]. apply dir_list_In, range_of_In. split; [|exact R].
    apply overlay_In, (lf_lookup k v layers Hs), H.
Qed.

Lemma mg_walks layers prefix : Forall sorted layers ->
  walks miter (mi_open layers) mg_rewind mg_seek mg_next mi_cur
        (fun rv => Rm rv (ranged rv prefix layers) (dir_list rv (range_of prefix (overlay layers))))
        prefix (range_of prefix (overlay layers)).
Proof.
  intro Hs.
  assert (HA : forall rv A, In A (ranged rv prefix layers) -> dsorted rv A).
  { intros rv A H. apply in_map_iff in H as (m & <- & Hm).
    apply dsorted_dir, range_filter_sorted, (proj1 (Forall_forall _ _) Hs), Hm. }
  assert (HO : forall rv, dsorted rv (dir_list rv (range_of prefix (overlay layers))))
    by (intro rv; apply dsorted_dir, range_filter_sorted, overlay_sorted).
  pose proof (fun rv k v => overlay_lf rv prefix layers k v Hs) as HL.
  assert (HM : forall rv, mi_open layers prefix rv = M0 rv (ranged rv prefix layers))
    by (intro rv; unfold mi_open, M0, its0, ranged; rewrite map_map; reflexivity).
  split.
  - intro rv. exact (Rm_cur rv _ _ (HA rv) (HO rv) (HL rv)).
  - intro rv. exact (Rm_next rv _ _ (HA rv) (HO rv) (HL rv)).
  - intro rv. rewrite HM. exact (Rm_rewind rv _ _ (HA rv) (HL rv)).
  - intros rv k. rewrite HM. exact (Rm_seek rv _ _ (HA rv) (HL rv) k).
Qed.

Section Store.
Context {I : Type} {op : bytes -> bool -> I} {rw : I -> I} {sk : I -> bytes -> I} {nx : I -> I}
        {cu : I -> option entry} {rest : bool -> I -> list entry -> Prop} {prefix : bytes} {M : store} {fuel : nat}.
Hypothesis W : walks I op rw sk nx cu rest prefix (range_of prefix M).
Hypothesis Hs : sorted M.
Hypothesis Hf : (length M < fuel)%nat.

Lemma walk_raw_range key count d :
  list_raw I op rw sk nx cu fuel prefix key count d = Some (spec_raw (live (range_of prefix M)) key count d).
Proof.
  apply (list_raw_walk _ _ _ _ _ _ _ _ _ W);
    [apply range_filter_sorted, Hs | exact (Nat.le_lt_trans _ _ _ (range_of_length prefix M) Hf)].
Qed.

Lemma walk_count_range :
  prefix_count I op rw nx cu fuel prefix = Some (Z.of_nat (length (live (range_of prefix M)))).
Proof.
  apply (prefix_count_walk _ _ _ _ _ _ _ _ _ W). exact (Nat.le_lt_trans _ _ _ (range_of_length prefix M) Hf).
Qed.

Hypothesis Wk : Forall (fun e => wf_bytes (fst e)) M.
Hypothesis Wp : wf_bytes prefix.
Hypothesis Hp : prefix_ok prefix = true.

Lemma walk_raw_spec key count d :
  list_raw I op rw sk nx cu fuel prefix key count d = Some (spec_raw (live (under prefix M)) key count d).
Proof. rewrite <- (range_of_under prefix M Wp Hp Wk). apply walk_raw_range. Qed.

Lemma walk_count_spec :
  prefix_count I op rw nx cu fuel prefix = Some (Z.of_nat (length (live (under prefix M)))).
Proof. rewrite <- (range_of_under prefix M Wp Hp Wk). apply walk_count_range. Qed.

Lemma walk_paging n d :
  (forall e, In e M -> fst e <> []) -> (1 <= n)%Z -> ~ (n = 1 /\ d = 2)%Z ->
  exists pages, pages_go I op rw sk nx cu fuel fuel prefix [] n d = Some pages /\
                concat pages = in_order d (live (under prefix M)) /\ good_pages n pages.
Proof.
  intros Hne Hn Hg. rewrite pages_go_fn. apply paging_from_spec; try assumption.
  - intro key. apply walk_raw_spec.
  - apply sorted_filter, sorted_filter, Hs.
  - intros e He. apply filter_In in He as [He _]. apply filter_In in He as [He _]. exact (Hne e He).
  - eapply Nat.le_lt_trans; [|exact Hf]. eapply Nat.le_trans; apply length_filter_le.
Qed.
End Store.

Lemma fuel_single (m : store) : (length m < fuel_of [m])%nat.
Proof. unfold fuel_of. cbn [fold_right]. lia. Qed.

Lemma fuel_ok layers : (length (overlay layers) < fuel_of layers)%nat.
Proof. pose proof (overlay_length layers). unfold fuel_of. fold (total_len layers). lia. Qed.

Theorem mg_list_spec layers prefix key count d :
  Forall wf_store layers -> wf_bytes prefix -> prefix_ok prefix = true ->
  mg_list layers prefix key count d = Some (spec_list layers prefix key count d).
Proof.
  intros W Wp Hp. unfold mg_list.
  rewrite (walk_raw_spec (mg_walks layers prefix (wf_sorted _ W)) (overlay_sorted _)
             (fuel_ok _) (overlay_keys_wf _ W) Wp Hp).
  reflexivity.
Qed.

Theorem mg_prefix_count_spec layers prefix :
  Forall wf_store layers -> wf_bytes prefix -> prefix_ok prefix = true ->
  mg_prefix_count layers prefix = Some (spec_count layers prefix).
Proof.
  intros W Wp Hp.
  exact (walk_count_spec (mg_walks layers prefix (wf_sorted _ W)) (fuel_ok _)
           (overlay_keys_wf _ W) Wp Hp).
Qed.

Theorem mg_paging layers prefix n d :
  Forall wf_store layers -> wf_bytes prefix -> prefix_ok prefix = true ->
  forallb no_empty_key layers = true -> (1 <= n)%Z -> ~ (n = 1 /\ d = 2)%Z ->
  exists pages, mg_pages layers prefix n d = Some pages /\
                concat pages = expected layers prefix d /\ good_pages n pages.
Proof.
  intros W Wp Hp Hne.
  exact (walk_paging (mg_walks layers prefix (wf_sorted _ W)) (overlay_sorted _)
           (fuel_ok _) (overlay_keys_wf _ W) Wp Hp n d (overlay_no_empty _ Hne)).
Qed.

(** both sides walk [range_of prefix (overlay layers)]; hence no guard on the prefix *)
Theorem mg_eq_db layers prefix key count d :
  Forall wf_store layers ->
  mg_list layers prefix key count d = db_list (overlay layers) prefix key count d
  /\ mg_prefix_count layers prefix = db_prefix_count (overlay layers) prefix.
Proof.
  intro W. pose proof (mg_walks layers prefix (wf_sorted _ W)) as W1.
  pose proof (overlay_sorted layers) as Ho. pose proof (db_walks _ prefix Ho) as W2.
  pose proof (fuel_single (overlay layers)) as F. split.
  - unfold mg_list, db_list.
    rewrite (walk_raw_range W1 Ho (fuel_ok _)), (walk_raw_range W2 Ho F).
    reflexivity.
  - unfold mg_prefix_count, db_prefix_count.
    rewrite (walk_count_range W1 (fuel_ok _)), (walk_count_range W2 F).
    reflexivity.
Qed.

Lemma view_sorted layers prefix : sorted (view layers prefix).
Proof. unfold view, live, under. apply sorted_filter, sorted_filter, overlay_sorted. Qed.

Lemma expected_sorted layers prefix d : dsorted (negb (is_asc d)) (expected layers prefix d).
Proof. unfold expected. rewrite in_order_dir. apply dsorted_dir, view_sorted. Qed.

Lemma view_In layers prefix k v :
  In (k, v) (view layers prefix) <->
  lookup layers k = Some v /\ v <> [] /\ is_prefix prefix k = true.
Proof.
  unfold view, live, under. split.
  - intro H. apply filter_In in H as [H L]. apply filter_In in H as [H P]. apply overlay_In in H.
    repeat split; [exact H | | exact P]. intros ->. discriminate L.
  - intros (H & Nv & P). apply filter_In. split; [apply filter_In; split; [apply overlay_In, H | exact P]|].
    destruct v; [contradiction | reflexivity].
Qed.

Theorem expected_char layers prefix d k v :
  In (k, v) (expected layers prefix d) <->
  lookup layers k = Some v /\ v <> [] /\ is_prefix prefix k = true.
Proof. unfold expected. rewrite in_order_dir, dir_list_In. apply view_In. Qed.

Theorem expected_nodup layers prefix d : NoDup (map fst (expected layers prefix d)).
Proof. eapply dsorted_NoDup_keys, expected_sorted. Qed.

Theorem db_list_spec (m : store) prefix key count d :
  wf_store m -> wf_bytes prefix -> prefix_ok prefix = true ->
  db_list m prefix key count d = Some (spec_list [m] prefix key count d).
Proof.
  intros [Hs Wk] Wp Hp. unfold db_list, spec_list, view. rewrite (overlay_single m Hs).
  rewrite (walk_raw_spec (db_walks m prefix Hs) Hs (fuel_single m) Wk Wp Hp).
  reflexivity.
Qed.

Theorem db_prefix_count_spec1 (m : store) prefix :
  wf_store m -> wf_bytes prefix -> prefix_ok prefix = true ->
  db_prefix_count m prefix = Some (spec_count [m] prefix).
Proof.
  intros [Hs Wk] Wp Hp. unfold spec_count, view. rewrite (overlay_single m Hs).
  exact (walk_count_spec (db_walks m prefix Hs) (fuel_single m) Wk Wp Hp).
Qed.

Theorem db_paging (m : store) prefix n d :
  wf_store m -> wf_bytes prefix -> prefix_ok prefix = true ->
  no_empty_key m = true -> (1 <= n)%Z -> ~ (n = 1 /\ d = 2)%Z ->
  exists pages, db_pages m prefix n d = Some pages /\
                concat pages = expected [m] prefix d /\ good_pages n pages.
Proof.
  intros [Hs Wk] Wp Hp Hne. unfold expected, view. rewrite (overlay_single m Hs).
  exact (walk_paging (db_walks m prefix Hs) Hs (fuel_single m) Wk Wp Hp n d
           (no_empty_key_In m Hne)).
Qed.

Lemma wf_storeb_ok m : wf_storeb m = true -> wf_store m.
Proof.
  unfold wf_storeb, wf_store. intro H. apply andb_true_iff in H as [H1 H2].
  split; [apply sortedb_iff; exact H1|].
  apply Forall_forall. intros e He. eapply forallb_forall in H2; [|exact He]. apply wf_bytesb_iff, H2.
Qed.

Definition paging_complete_full : Prop :=
  forall layers prefix n d,
    Forall wf_store layers -> wf_bytes prefix -> (1 <= n)%Z -> ~ (n = 1 /\ d = 2)%Z ->
    exists pages, mg_pages layers prefix n d = Some pages /\
                  concat pages = expected layers prefix d /\ good_pages n pages.

(** the prefix whose upper bound is types.EmptyValue: the listing runs on into "z" *)
Definition ev_prefix : bytes := bs "FFFFFFFFemptyBVBiCj5jvE15pEiwro8TQRGnJSNsJE"%string.
Definition ev_layers : list store := [[(ev_prefix ++ bs "x"%string, bs "v1"%string); (bs "z"%string, bs "v2"%string)]].

Theorem paging_full_refuted : ~ paging_complete_full.
Proof.
  intro H. destruct (H ev_layers ev_prefix 5%Z 1%Z) as (pages & H1 & H2 & _).
  - constructor; [|constructor]. apply wf_storeb_ok. vm_compute. reflexivity.
  - apply wf_bytesb_iff. vm_compute. reflexivity.
  - lia.
  - lia.
  - (* two entries are delivered, one is expected *)
    apply (f_equal (@length entry)) in H2.
    assert (E : option_map (fun p => length (concat p)) (mg_pages ev_layers ev_prefix 5 1) = Some 2%nat)
      by (vm_compute; reflexivity).
    rewrite H1 in E. injection E as E. rewrite E in H2. vm_compute in H2. discriminate.
Qed.

(** with a regular prefix but the empty key stored: the client never finishes *)
Definition paging_complete_noguard2 : Prop :=
  forall layers prefix n d,
    Forall wf_store layers -> wf_bytes prefix -> prefix_ok prefix = true ->
    (1 <= n)%Z -> ~ (n = 1 /\ d = 2)%Z ->
    exists pages, mg_pages layers prefix n d = Some pages /\
                  concat pages = expected layers prefix d /\ good_pages n pages.

Theorem paging_emptykey_refuted : ~ paging_complete_noguard2.
Proof.
  intro H. destruct (H [[([], bs "v"%string)]; [(bs "a"%string, bs "w"%string)]] [] 2%Z 0%Z) as (pages & H1 & _).
  - constructor; [|constructor; [|constructor]]; apply wf_storeb_ok; vm_compute; reflexivity.
  - constructor.
  - reflexivity.
  - lia.
  - lia.
  - vm_compute in H1. discriminate.
Qed.

(** * the hypotheses are satisfiable by non-trivial states *)
Definition ex_layers : list store :=
  [ [(bs "a1"%string, bs "x"%string); (bs "a3"%string, [])];
    [(bs "a2"%string, bs "y"%string); (bs "a3"%string, bs "old"%string); (bs "b"%string, bs "z"%string)];
    [(bs "a1"%string, bs "base"%string); (bs "a4"%string, bs "w"%string)] ].

Example ex_guards :
  forallb wf_storeb ex_layers = true /\ wf_bytesb (bs "a"%string) = true /\
  prefix_ok (bs "a"%string) = true /\ forallb no_empty_key ex_layers = true.
Proof. vm_compute. repeat split. Qed.

Example ex_pages :
  mg_pages ex_layers (bs "a"%string) 2 0
  = Some [ [(bs "a4"%string, bs "w"%string); (bs "a2"%string, bs "y"%string)];
           [(bs "a1"%string, bs "x"%string)] ]
  /\ mg_prefix_count ex_layers (bs "a"%string) = Some 3%Z.
Proof. vm_compute. split; reflexivity. Qed.
