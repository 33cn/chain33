(** C07 — the paging client run against the specification delivers the whole
    ordered view, cut into pages. *)
From Coq Require Import List ZArith Bool Lia.
From C33 Require Import Lib.Bytes Lib.OMap C07.Model C07.Spec C07.ProofsBase.
Import ListNotations.

Fixpoint pages_fn (pfuel : nat) (req : bytes -> option lres) (key : bytes) : option (list (list entry)) :=
  match pfuel with
  | O => None
  | S pf =>
      match req key with
      | Some (LEntries []) => Some []
      | Some (LEntries (e :: p)) => option_map (cons (e :: p)) (pages_fn pf req (fst (List.last p e)))
      | _ => None
      end
  end.

Lemma pages_go_fn I op rw sk nx cu pf fuel prefix n d : forall key,
  pages_go I op rw sk nx cu pf fuel prefix key n d
  = pages_fn pf (fun k => list_raw I op rw sk nx cu fuel prefix k n d) key.
Proof.
  induction pf as [|pf IH]; intro key; simpl; [reflexivity|].
  destruct (list_raw I op rw sk nx cu fuel prefix key n d) as [[[|e p]|]|]; try reflexivity.
  rewrite IH. reflexivity.
Qed.

Lemma pages_fn_ext req1 req2 : (forall k, req1 k = req2 k) -> forall pf key, pages_fn pf req1 key = pages_fn pf req2 key.
Proof.
  intros H pf. induction pf as [|pf IH]; intro key; simpl; [reflexivity|].
  rewrite H. destruct (req2 key) as [[[|e p]|]|]; try reflexivity. rewrite IH. reflexivity.
Qed.

Definition page_of (rv : bool) (O : list entry) (key : bytes) (n : Z) : list entry :=
  match key with
  | [] => take n O
  | _ :: _ => take n (filter_keys (afk rv key) O)
  end.

Lemma spec_raw_page vw key n d : ~ (n = 1 /\ d = 2)%Z ->
  spec_raw vw key n d = LEntries (page_of (negb (is_asc d)) (in_order d vw) key n).
Proof.
  intro G. unfold spec_raw, page_of. destruct key as [|b k]; [reflexivity|].
  destruct ((n =? 1)%Z && (d =? 2)%Z) eqn:E; [|reflexivity].
  apply andb_true_iff in E as [E1 E2]. apply Z.eqb_eq in E1. apply Z.eqb_eq in E2. tauto.
Qed.

Definition good_pages (n : Z) (pages : list (list entry)) : Prop :=
  Forall (fun p => p <> [] /\ (Z.of_nat (length p) <= n)%Z) pages.

Lemma cons_last {A} (e : A) p : e :: p = removelast (e :: p) ++ [List.last p e].
Proof.
  replace (List.last p e) with (List.last (e :: p) e) by (destruct p; reflexivity).
  apply app_removelast_last. discriminate.
Qed.

Section Paging.
Variable rv : bool.
Variable O : list entry.
Variable n : Z.
Hypothesis HO : dsorted rv O.
Hypothesis Hne : forall e, In e O -> fst e <> [].
Hypothesis Hn : (1 <= n)%Z.

(** [P] has been delivered, [S] is still to come; the next request carries the key of the last entry of [P] *)
Lemma paging_suffix : forall pf S P key,
  O = P ++ S ->
  (P = [] /\ key = []) \/ (exists P' x, P = P' ++ [x] /\ key = fst x) ->
  (length S < pf)%nat ->
  exists pages, pages_fn pf (fun k => Some (LEntries (page_of rv O k n))) key = Some pages
                /\ concat pages = S /\ good_pages n pages.
Proof.
  induction pf as [|pf IH]; intros S P key HS HP Hlen; [inversion Hlen|].
  assert (Hpage : page_of rv O key n = firstn (Z.to_nat n) S).
  { unfold page_of, take. rewrite (proj2 (Z.leb_gt n 0)) by lia.
    destruct HP as [[-> ->]|(P' & x & -> & ->)]; [rewrite HS; reflexivity|].
    rewrite <- app_assoc in HS. cbn [app] in HS.
    assert (Hx : fst x <> []) by (apply Hne; rewrite HS; apply in_elt).
    destruct (fst x) as [|b k] eqn:Ex; [contradiction|]. rewrite <- Ex.
    assert (HO' : dsorted rv (P' ++ x :: S)) by (rewrite <- HS; exact HO).
    rewrite HS, (proj2 (filter_split rv P' x S HO')). reflexivity. }
  cbn [pages_fn]. rewrite Hpage. clear Hpage.
  destruct S as [|e S0]; [exists []; rewrite firstn_nil; repeat split; constructor|].
  destruct (Z.to_nat n) as [|k] eqn:Ek; [lia|]. cbn [firstn].
  destruct (IH (skipn k S0) (P ++ e :: firstn k S0) (fst (List.last (firstn k S0) e)))
    as (pages & Hpg & Hcat & Hgood).
  - rewrite HS, <- app_assoc. cbn [app]. rewrite firstn_skipn. reflexivity.
  - right. exists (P ++ removelast (e :: firstn k S0)), (List.last (firstn k S0) e).
    split; [|reflexivity]. rewrite <- app_assoc. f_equal. apply cons_last.
  - rewrite skipn_length. cbn [length] in Hlen. lia.
  - exists ((e :: firstn k S0) :: pages). rewrite Hpg. cbn [option_map]. repeat split.
    + cbn [concat app]. rewrite Hcat, firstn_skipn. reflexivity.
    + constructor; [|exact Hgood]. split; [discriminate|].
      cbn [length]. pose proof (firstn_le_length k S0). lia.
Qed.
End Paging.

Theorem paging_from_spec (req : bytes -> option lres) vw n d pf :
  (forall key, req key = Some (spec_raw vw key n d)) ->
  sorted vw -> (forall e, In e vw -> fst e <> []) ->
  (1 <= n)%Z -> ~ (n = 1 /\ d = 2)%Z -> (length vw < pf)%nat ->
  exists pages, pages_fn pf req [] = Some pages /\ concat pages = in_order d vw /\ good_pages n pages.
Proof.
  intros Hreq Hs Hne Hn Hg Hlen. rewrite in_order_dir.
  set (rv := negb (is_asc d)). set (O := dir_list rv vw).
  destruct (paging_suffix rv O n) with (pf := pf) (S := O) (P := @nil entry) (key := @nil N)
    as (pages & H1 & H2); [apply dsorted_dir, Hs | | exact Hn | reflexivity | left; split; reflexivity | |].
  - intros e He. apply Hne, (dir_list_In rv), He.
  - unfold O. rewrite dir_list_length. exact Hlen.
  - exists pages. split; [|exact H2].
    rewrite <- H1. apply pages_fn_ext. intro k.
    rewrite Hreq, (spec_raw_page vw k n d Hg), in_order_dir. reflexivity.
Qed.
