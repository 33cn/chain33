(** C07 — ListHelper over an iterator that walks a sorted list answers as the
    specification does over that list; goLevelDBIt walks the entries inside its range. *)
From Coq Require Import List ZArith Bool Lia.
From C33 Require Import Lib.Bytes Lib.OMap C07.Model C07.Spec C07.ProofsBase.
Import ListNotations.

Section Walk.
Variable I : Type.
Variable op : bytes -> bool -> I.
Variable rw : I -> I.
Variable sk : I -> bytes -> I.
Variable nx : I -> I.
Variable cu : I -> option entry.
(** [rest rv it l]: the iterator [it], opened with direction [rv], stands on the first
    entry of [l] and has exactly [l] left to deliver *)
Variable rest : bool -> I -> list entry -> Prop.
Variable prefix : bytes.
Variable L : store.    (* what the iterator ranges over, in key order *)

Record walks : Prop := {
  rest_cur : forall rv it l, rest rv it l -> cu it = hd_error l;
  rest_next : forall rv it e l, rest rv it (e :: l) -> rest rv (nx it) l;
  rest_rewind : forall rv, rest rv (rw (op prefix rv)) (dir_list rv L);
  rest_seek : forall rv k, rest rv (sk (op prefix rv) k) (filter_keys (nbk rv k) (dir_list rv L)) }.

Hypothesis W : walks.
Hypothesis HL : sorted L.

Lemma scan_loop_walk rv : forall l fuel it i count, rest rv it l -> (length l < fuel)%nat ->
  scan_loop I nx cu fuel it i count = Some (take (count - i) (live l)).
Proof.
  induction l as [|e l IH]; intros fuel it i count R Hf; (destruct fuel as [|f]; [inversion Hf|]);
    cbn [scan_loop]; rewrite (rest_cur W _ _ _ R); cbn [hd_error].
  - simpl. rewrite take_nil. reflexivity.
  - apply (rest_next W) in R. apply Nat.succ_lt_mono in Hf. unfold live. cbn [filter].
    destruct (isdeleted (snd e)); cbn [negb]; [exact (IH f _ i count R Hf)|].
    rewrite (IH f _ (i + 1)%Z count R Hf). destruct (i + 1 =? count)%Z eqn:E.
    + apply Z.eqb_eq in E. replace (count - i)%Z with 1%Z by lia. reflexivity.
    + apply Z.eqb_neq in E. cbn [option_map]. rewrite take_cons by lia. rewrite Z.sub_add_distr. reflexivity.
Qed.

Lemma skip_deleted_walk rv : forall l fuel it, rest rv it l -> (length l < fuel)%nat ->
  skip_deleted I nx cu fuel it = Some (hd_error (live l)).
Proof.
  induction l as [|e l IH]; intros fuel it R Hf; (destruct fuel as [|f]; [inversion Hf|]);
    cbn [skip_deleted]; rewrite (rest_cur W _ _ _ R); cbn [hd_error]; [reflexivity|].
  apply (rest_next W) in R. apply Nat.succ_lt_mono in Hf. unfold live. cbn [filter].
  destruct (isdeleted (snd e)); cbn [negb]; [exact (IH f _ R Hf) | reflexivity].
Qed.

Lemma count_loop_walk rv : forall l fuel it, rest rv it l -> (length l < fuel)%nat ->
  count_loop I nx cu fuel it = Some (Z.of_nat (length (live l))).
Proof.
  induction l as [|e l IH]; intros fuel it R Hf; (destruct fuel as [|f]; [inversion Hf|]);
    cbn [count_loop]; rewrite (rest_cur W _ _ _ R); cbn [hd_error]; [reflexivity|].
  apply (rest_next W) in R. apply Nat.succ_lt_mono in Hf. rewrite (IH f _ R Hf).
  unfold live. cbn [filter]. destruct (isdeleted (snd e)); cbn [negb option_map length]; [reflexivity|].
  rewrite Nat2Z.inj_succ. reflexivity.
Qed.

Theorem list_raw_walk fuel key count d : (length L < fuel)%nat ->
  list_raw I op rw sk nx cu fuel prefix key count d = Some (spec_raw (live L) key count d).
Proof.
  intro Hf.
  assert (Hlen : forall rv g, (length (filter_keys g (dir_list rv L)) < fuel)%nat).
  { intros rv g. eapply Nat.le_lt_trans; [apply length_filter_le|]. rewrite dir_list_length. exact Hf. }
  unfold list_raw, spec_raw. destruct key as [|b key'].
  - (* from the first / last entry *)
    unfold scan_from_end.
    rewrite (scan_loop_walk _ _ _ _ _ _ (rest_rewind W _)) by (rewrite dir_list_length; exact Hf).
    rewrite Z.sub_0_r, live_dir_list, in_order_dir. reflexivity.
  - set (key := b :: key'). destruct ((count =? 1)%Z && (d =? 2)%Z).
    + (* nextKeyValue *)
      unfold next_key_value. rewrite (skip_deleted_walk _ _ _ _ (rest_seek W true key) (Hlen _ _)).
      cbn [option_map]. rewrite live_filter_keys, live_dir_list.
      apply f_equal, f_equal, f_equal, filter_ext. intro e. unfold nbk. simpl. symmetry. apply bleb_nbltb.
    + (* IteratorScan *)
      unfold iterator_scan. set (rv := negb (is_asc d)).
      pose proof (rest_seek W rv key) as R. specialize (Hlen rv (nbk rv key)).
      assert (HA : dsorted rv (dir_list rv L)) by (apply dsorted_dir; exact HL).
      replace (strictly_after d key (in_order d (live L)))
        with (live (filter_keys (afk rv key) (dir_list rv L)))
        by (rewrite live_filter_keys, live_dir_list, in_order_dir; reflexivity).
      rewrite (rest_cur W _ _ _ R). cbn [option_map].
      destruct (filter_keys (nbk rv key) (dir_list rv L)) as [|e r] eqn:EF; cbn [hd_error].
      * rewrite <- filter_afk_nbk, EF. simpl. rewrite take_nil. reflexivity.
      * destruct (filter_nbk_head rv key _ e r HA EF) as [H1 H2].
        destruct (beqb _ key) eqn:EK; [apply beqb_eq in EK | apply beqb_neq in EK].
        -- rewrite (H1 EK), (scan_loop_walk rv r _ _ _ _ (rest_next W _ _ _ _ R) (Nat.lt_succ_l _ _ Hlen)).
           rewrite Z.sub_0_r. reflexivity.
        -- rewrite (H2 EK), (scan_loop_walk rv _ _ _ _ _ R Hlen), Z.sub_0_r. reflexivity.
Qed.

Theorem prefix_count_walk fuel : (length L < fuel)%nat ->
  prefix_count I op rw nx cu fuel prefix = Some (Z.of_nat (length (live L))).
Proof.
  intro Hf. unfold prefix_count.
  rewrite (count_loop_walk _ _ _ _ (rest_rewind W true)) by (rewrite dir_list_length; exact Hf).
  rewrite live_dir_list, dir_list_length. reflexivity.
Qed.
End Walk.

Lemma range_of_length p (m : store) : (length (range_of p m) <= length m)%nat.
Proof. apply length_filter_le. Qed.

Lemma db_walks (m : store) prefix : sorted m ->
  walks dbit (db_open m) db_rewind db_seek db_next db_cur (fun _ it l => di_pos it = PRem l)
        prefix (range_of prefix m).
Proof.
  intro Hs. split.
  - intros _ it l H. unfold db_cur. rewrite H. destruct l; reflexivity.
  - intros _ it e l H. unfold db_next. cbn [set_pos di_pos]. rewrite H. reflexivity.
  - reflexivity.
  - intros rv k. unfold db_seek. cbn [set_pos di_pos db_open di_all di_rev]. f_equal.
    apply drop_before_filter, dsorted_dir, range_filter_sorted, Hs.
Qed.

Lemma prefix_ok_resolve p : prefix_ok p = true -> resolve_end p = succ_prefix p.
Proof.
  unfold prefix_ok, resolve_end. destruct (succ_prefix p) as [e|]; [|reflexivity].
  intro H. apply negb_true_iff in H. rewrite H. reflexivity.
Qed.

Lemma range_of_under p (m : store) :
  wf_bytes p -> prefix_ok p = true -> Forall (fun e => wf_bytes (fst e)) m ->
  range_of p m = under p m.
Proof.
  intros Wp Hp Wm. unfold range_of, under, range_filter, filter_keys.
  rewrite (prefix_ok_resolve p Hp). apply filter_ext_in. intros e He.
  eapply Forall_forall in Wm; [|exact He]. cbv beta in Wm.
  rewrite (is_prefix_charb p (fst e) Wp Wm). unfold in_range, below_succb.
  reflexivity.
Qed.
