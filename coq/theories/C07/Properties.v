(** C07 — property theorems only. *)
From Coq Require Import List ZArith Bool.
From C33 Require Import Lib.Bytes Lib.OMap C07.Model C07.Spec C07.ProofsPaging C07.Proofs.
Import ListNotations.

(** ListHelper over the merge of the layers = ListHelper over the single map [overlay layers] *)
Theorem C07_merged_eq_overlay : forall layers prefix key count d,
  Forall wf_store layers ->
  mg_list layers prefix key count d = db_list (overlay layers) prefix key count d
  /\ mg_prefix_count layers prefix = db_prefix_count (overlay layers) prefix.
Proof. exact mg_eq_db. Qed.
Print Assumptions C07_merged_eq_overlay.

(** every single List request (any key, count, direction word) answers as specified *)
Theorem C07_list_spec_partial : forall layers prefix key count d,
  Forall wf_store layers -> wf_bytes prefix -> prefix_ok prefix = true ->
  mg_list layers prefix key count d = Some (spec_list layers prefix key count d).
Proof. exact mg_list_spec. Qed.
Print Assumptions C07_list_spec_partial.

Theorem C07_db_list_spec_partial : forall (m : store) prefix key count d,
  wf_store m -> wf_bytes prefix -> prefix_ok prefix = true ->
  db_list m prefix key count d = Some (spec_list [m] prefix key count d).
Proof. exact db_list_spec. Qed.
Print Assumptions C07_db_list_spec_partial.

(** the pages of a client that continues after the last returned key concatenate to the
    live entries under the prefix in listing order; no page is empty or longer than n
    (n = 1 with direction word 2 is the seek request, which returns no page) *)
Theorem C07_paging_complete_partial : forall layers prefix n d,
  Forall wf_store layers -> wf_bytes prefix -> prefix_ok prefix = true ->
  forallb no_empty_key layers = true -> (1 <= n)%Z -> ~ (n = 1 /\ d = 2)%Z ->
  exists pages, mg_pages layers prefix n d = Some pages /\
                concat pages = expected layers prefix d /\ good_pages n pages.
Proof. exact mg_paging. Qed.
Print Assumptions C07_paging_complete_partial.

Theorem C07_db_paging_complete_partial : forall (m : store) prefix n d,
  wf_store m -> wf_bytes prefix -> prefix_ok prefix = true ->
  no_empty_key m = true -> (1 <= n)%Z -> ~ (n = 1 /\ d = 2)%Z ->
  exists pages, db_pages m prefix n d = Some pages /\
                concat pages = expected [m] prefix d /\ good_pages n pages.
Proof. exact db_paging. Qed.
Print Assumptions C07_db_paging_complete_partial.

(** what is delivered: exactly the keys whose first layer holds a non-empty value and that
    carry the prefix, each once *)
Theorem C07_expected_char : forall layers prefix d k v,
  In (k, v) (expected layers prefix d) <->
  lookup layers k = Some v /\ v <> [] /\ is_prefix prefix k = true.
Proof. exact expected_char. Qed.
Print Assumptions C07_expected_char.

Theorem C07_expected_nodup : forall layers prefix d, NoDup (map fst (expected layers prefix d)).
Proof. exact expected_nodup. Qed.
Print Assumptions C07_expected_nodup.

Theorem C07_prefix_count_partial : forall layers prefix,
  Forall wf_store layers -> wf_bytes prefix -> prefix_ok prefix = true ->
  mg_prefix_count layers prefix = Some (spec_count layers prefix).
Proof. exact mg_prefix_count_spec. Qed.
Print Assumptions C07_prefix_count_partial.

Theorem C07_db_prefix_count_partial : forall (m : store) prefix,
  wf_store m -> wf_bytes prefix -> prefix_ok prefix = true ->
  db_prefix_count m prefix = Some (spec_count [m] prefix).
Proof. exact db_prefix_count_spec1. Qed.
Print Assumptions C07_db_prefix_count_partial.

(** without the prefix guard the statement fails (prefix whose bound is types.EmptyValue) *)
Theorem C07_paging_complete_refuted : ~ paging_complete_full.
Proof. exact paging_full_refuted. Qed.
Print Assumptions C07_paging_complete_refuted.

(** without the empty-key guard the statement fails (the client never finishes) *)
Theorem C07_paging_emptykey_refuted : ~ paging_complete_noguard2.
Proof. exact paging_emptykey_refuted. Qed.
Print Assumptions C07_paging_emptykey_refuted.
