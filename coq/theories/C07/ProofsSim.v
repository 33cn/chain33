(** C07 — the merged iterator over several layers simulates one iterator over
    the overlay of the layers: selectKey picks the first layer whose current key
    is minimal, and Next's loop passes every layer that stands on the key just
    delivered. *)
From Coq Require Import List Bool PeanoNat Lia.
From C33 Require Import Lib.Bytes Lib.OMap C07.Model C07.Spec C07.ProofsBase.
Import ListNotations.

Lemma nth_error_upd_same {A} (l : list A) n a : (n < length l)%nat -> nth_error (upd_nth l n a) n = Some a.
Proof. revert n; induction l as [|x l IH]; intros [|n] H; simpl in *; try lia; [reflexivity | apply IH; lia]. Qed.

Lemma nth_error_upd_other {A} (l : list A) n j a : j <> n -> nth_error (upd_nth l n a) j = nth_error l j.
Proof.
  revert n j; induction l as [|x l IH]; intros [|n] [|j] H; simpl; try reflexivity; try congruence.
  apply IH. congruence.
Qed.

Lemma map_upd_nth {A B} (f : A -> B) l n a : map f (upd_nth l n a) = upd_nth (map f l) n (f a).
Proof. revert n; induction l as [|x l IH]; intros [|n]; simpl; try reflexivity. rewrite IH. reflexivity. Qed.

Lemma nth_error_snoc {A} (pre : list A) x j y :
  nth_error (pre ++ [x]) j = Some y ->
  ((j < length pre)%nat /\ nth_error pre j = Some y) \/ (j = length pre /\ y = x).
Proof.
  intro H. destruct (Nat.lt_ge_cases j (length pre)) as [L|G].
  - left. split; [exact L|]. rewrite nth_error_app1 in H by exact L. exact H.
  - right. rewrite nth_error_app2 in H by exact G.
    destruct (j - length pre)%nat as [|q] eqn:E.
    + simpl in H. inversion H. split; [lia | reflexivity].
    + simpl in H. destruct q; discriminate.
Qed.

Lemma Forall2_upd_nth {A B} (P : A -> B -> Prop) la lb n a b :
  Forall2 P la lb -> nth_error lb n = Some b -> P a b -> Forall2 P (upd_nth la n a) lb.
Proof.
  intro F. revert n. induction F as [|x y la lb Hxy F IH]; intros [|n] Hn Hp; simpl in *; try discriminate.
  - inversion Hn; subst. constructor; assumption.
  - constructor; [assumption | apply IH; assumption].
Qed.

Lemma Forall2_nth_l {A B} (P : A -> B -> Prop) la lb n a :
  Forall2 P la lb -> nth_error la n = Some a -> exists b, nth_error lb n = Some b /\ P a b.
Proof.
  intro F. revert n. induction F as [|x y la lb Hxy F IH]; intros [|n] Hn; simpl in *; try discriminate.
  - inversion Hn; subst. eauto.
  - apply IH. exact Hn.
Qed.

Lemma Forall2_map_eq {A B} (f : A -> B) la lb : Forall2 (fun a b => b = f a) la lb -> lb = map f la.
Proof. induction 1; simpl; congruence. Qed.

Lemma Forall2_map_l {A B} (P : A -> B -> Prop) (f : B -> A) lb : (forall b, P (f b) b) -> Forall2 P (map f lb) lb.
Proof. intro H. induction lb; simpl; constructor; auto. Qed.

Lemma Forall2_len {A B} (P : A -> B -> Prop) la lb : Forall2 P la lb -> length la = length lb.
Proof. induction 1; simpl; congruence. Qed.

Fixpoint lf (As : list (list entry)) (k v : bytes) : Prop :=
  match As with
  | [] => False
  | A :: tl => In (k, v) A \/ (~ In k (map fst A) /\ lf tl k v)
  end.

Lemma lf_In As k v : lf As k v -> exists A, In A As /\ In (k, v) A.
Proof.
  induction As as [|A tl IH]; simpl; [intros []|].
  intros [H|[_ H]]; [exists A; auto|]. destruct (IH H) as (A' & H1 & H2). exists A'. auto.
Qed.

Lemma lf_intro : forall As i A k v,
  nth_error As i = Some A -> In (k, v) A ->
  (forall x A', (x < i)%nat -> nth_error As x = Some A' -> ~ In k (map fst A')) ->
  lf As k v.
Proof.
  induction As as [|A0 tl IH]; intros [|i] A k v Hn Hin Hbefore; simpl in *; try discriminate.
  - inversion Hn; subst. left. exact Hin.
  - right. split.
    + apply (Hbefore 0%nat A0); [lia | reflexivity].
    + apply (IH i A k v Hn Hin). intros x A' Hx Hnx. apply (Hbefore (S x) A'); [lia | exact Hnx].
Qed.

Lemma lf_exists As k : (exists A v, In A As /\ In (k, v) A) -> exists v, lf As k v.
Proof.
  induction As as [|A0 tl IH]; intros (A & v & HA & Hin); [destruct HA|].
  destruct (in_dec bytes_eq_dec k (map fst A0)) as [I|NI].
  - apply in_map_iff in I as ([k' v'] & E & I). simpl in E. subst k'. exists v'. left. exact I.
  - destruct HA as [->|HA].
    + exfalso. apply NI. apply in_map_iff. exists (k, v). auto.
    + destruct IH as (v' & Hv'); [exists A, v; auto|]. exists v'. right. auto.
Qed.

Definition is_sel (rvm : bool) (l : list (option bytes)) (i : nat) (c : bytes) : Prop :=
  nth_error l i = Some (Some c) /\
  (forall j k, nth_error l j = Some (Some k) -> (j < i)%nat -> before rvm c k = true) /\
  (forall j k, nth_error l j = Some (Some k) -> (i < j)%nat -> before rvm k c = false).

Lemma is_sel_min rvm l i c j k : is_sel rvm l i c -> nth_error l j = Some (Some k) -> before rvm k c = false.
Proof.
  intros (S1 & S2 & S3) H. destruct (Nat.lt_trichotomy j i) as [L|[->|G]].
  - apply before_asym. eapply S2; eauto.
  - rewrite S1 in H. inversion H. apply before_irrefl.
  - eapply S3; eauto.
Qed.

Lemma all_none_nth (l : list (option bytes)) j k :
  Forall (eq None) l -> nth_error l j = Some (Some k) -> False.
Proof.
  intros F H. apply nth_error_In in H. eapply Forall_forall in F; [|exact H]. discriminate F.
Qed.

Lemma is_sel_snoc rvm pre i a x : is_sel rvm pre i a ->
  (forall t, x = Some t -> before rvm t a = false) -> is_sel rvm (pre ++ [x]) i a.
Proof.
  intros (S1 & S2 & S3) Hx.
  assert (Li : (i < length pre)%nat) by (apply nth_error_Some; congruence).
  repeat split.
  - rewrite nth_error_app1 by exact Li. exact S1.
  - intros j k Hj Lj. rewrite nth_error_app1 in Hj by lia. eapply S2; eauto.
  - intros j k Hj Lj. apply nth_error_snoc in Hj as [[L Hj]|[_ Hk]]; [eapply S3; eauto | apply Hx; congruence].
Qed.

Lemma is_sel_new rvm pre t :
  (forall j k, nth_error pre j = Some (Some k) -> before rvm t k = true) ->
  is_sel rvm (pre ++ [Some t]) (length pre) t.
Proof.
  intro H. repeat split.
  - rewrite nth_error_app2, Nat.sub_diag by lia. reflexivity.
  - intros j k Hj Lj. rewrite nth_error_app1 in Hj by exact Lj. eapply H; eauto.
  - intros j k Hj Lj. apply nth_error_snoc in Hj as [[L _]|[E _]]; lia.
Qed.

(** the invariant of selectKey's loop, after the keys [pre] *)
Definition sel_inv (rvm : bool) (pre : list (option bytes)) (acc : option bytes) (i : nat) : Prop :=
  match acc with None => Forall (eq None) pre | Some a => is_sel rvm pre i a end.

Lemma select_go_spec rvm : forall keys pre acc i0 r i,
  sel_inv rvm pre acc i0 -> select_go rvm keys (length pre) acc i0 = (r, i) ->
  sel_inv rvm (pre ++ keys) r i.
Proof.
  induction keys as [|x tl IH]; intros pre acc i0 r i Hacc Hsel.
  - injection Hsel as <- <-. rewrite app_nil_r. exact Hacc.
  - assert (Hstep : forall acc' i', sel_inv rvm (pre ++ [x]) acc' i' ->
                    select_go rvm tl (S (length pre)) acc' i' = (r, i) -> sel_inv rvm (pre ++ x :: tl) r i).
    { intros acc' i' Ha Hs.
      replace (S (length pre)) with (length (pre ++ [x])) in Hs by (rewrite app_length; apply Nat.add_1_r).
      apply IH in Hs; [|exact Ha]. rewrite <- app_assoc in Hs. exact Hs. }
    destruct x as [t|]; cbn [select_go] in Hsel.
    + (* a key: it is taken iff it comes strictly before the best one so far *)
      destruct acc as [a|]; cbn [sel_inv] in Hacc.
      * rewrite mcompare_lt_b in Hsel. destruct (before rvm t a) eqn:B; apply Hstep in Hsel; try exact Hsel.
        -- apply is_sel_new. intros j k Hj.
           eapply before_nlt_trans; [exact B | eapply is_sel_min; eauto].
        -- apply is_sel_snoc; [exact Hacc | congruence].
      * apply Hstep in Hsel; [exact Hsel|]. apply is_sel_new. intros j k Hj.
        destruct (all_none_nth _ _ _ Hacc Hj).
    + (* a layer that is exhausted *)
      apply Hstep in Hsel; [exact Hsel|]. destruct acc as [a|]; cbn [sel_inv] in *.
      * apply is_sel_snoc; [exact Hacc | discriminate].
      * apply Forall_app. split; [exact Hacc | repeat constructor].
Qed.

Definition selected (M : miter) (i : nat) (c : bytes) : miter :=
  set_dir (if is_soi (mi_dir M) then set_prev (set_index M i) c else set_index M i) DForward.

Lemma select_key_spec M :
  (exists i, Forall (eq None) (mi_keys M) /\ select_key M = (set_dir (set_index M i) DEOI, false)) \/
  (exists i c, is_sel (mi_rev M) (mi_keys M) i c /\ select_key M = (selected M i c, true)).
Proof.
  unfold select_key. destruct (select_go (mi_rev M) (mi_keys M) 0 None (mi_index M)) as [r i] eqn:ES.
  apply (select_go_spec _ _ []) in ES; [|constructor].
  destruct r as [c|]; [right; exists i, c | left; exists i]; split; [exact ES | reflexivity | exact ES | reflexivity].
Qed.

Section Merge.
Variable rv : bool.
Variable As : list (list entry).     (* the layers' entries, in iteration order *)
Variable OV : list entry.            (* the overlay's entries, in iteration order *)
Hypothesis HAs : forall A, In A As -> dsorted rv A.
Hypothesis HOV : dsorted rv OV.
Hypothesis Hlf : forall k v, In (k, v) OV <-> lf As k v.

Definition rvm : bool := if (2 <=? length As)%nat then rv else true.
Definition lay (g : bytes -> bool) (A : list entry) : dbit := mk_dbit A rv (PRem (filter_keys g A)).
Definition its_of (g : bytes -> bool) : list dbit := map (lay g) As.
Definition upc (g : bytes -> bool) : Prop :=
  forall a b, g a = true -> before rv a b = true -> g b = true.

(** NewMergedIterator's direction flag differs from [rv] only when there is at most one
    layer, and then a selection compares nothing *)
Lemma is_sel_rv keys i c : length keys = length As -> is_sel rvm keys i c -> is_sel rv keys i c.
Proof.
  unfold rvm. destruct (2 <=? length As)%nat eqn:E; [trivial|]. apply Nat.leb_gt in E.
  intros Hl (S1 & _). assert (Li : (i < length keys)%nat) by (apply nth_error_Some; congruence).
  split; [exact S1|]. split; intros j k Hj Lj; exfalso;
    assert (j < length keys)%nat by (apply nth_error_Some; congruence); lia.
Qed.

Lemma cur_key_lay g A : cur_key (lay g A) = option_map fst (hd_error (filter_keys g A)).
Proof. unfold cur_key, lay, db_cur. simpl. destruct (filter_keys g A); reflexivity. Qed.

Lemma lay_head g A k : cur_key (lay g A) = Some k -> g k = true.
Proof.
  rewrite cur_key_lay. destruct (filter_keys g A) as [|h r] eqn:E; simpl; [discriminate|].
  intro H. inversion H; subst. apply (hd_filter_In _ _ _ _ E).
Qed.

Lemma keys_nth g x k : nth_error (map cur_key (its_of g)) x = Some (Some k) ->
  exists A h r, nth_error As x = Some A /\ filter_keys g A = h :: r /\ fst h = k.
Proof.
  unfold its_of. rewrite map_map, nth_error_map. destruct (nth_error As x) as [A|]; [|discriminate].
  cbn [option_map]. rewrite cur_key_lay. destruct (filter_keys g A) as [|h r] eqn:E; [discriminate|].
  intro H. inversion H. exists A, h, r. auto.
Qed.

Lemma nth_keys g x A h r : nth_error As x = Some A -> filter_keys g A = h :: r ->
  nth_error (map cur_key (its_of g)) x = Some (Some (fst h)).
Proof.
  intros H1 H2. unfold its_of. rewrite map_map. erewrite map_nth_error by exact H1.
  rewrite cur_key_lay, H2. reflexivity.
Qed.

Lemma head_min g A e : dsorted rv A -> In e A -> g (fst e) = true ->
  exists h r, filter_keys g A = h :: r /\ before rv (fst e) (fst h) = false.
Proof.
  intros Hs He Hg. assert (I : In e (filter_keys g A)) by (apply filter_In; auto).
  assert (S : dsorted rv (filter_keys g A)) by (apply dsorted_filter, Hs).
  destruct (filter_keys g A) as [|h r]; [destruct I|]. exists h, r. split; [reflexivity|].
  apply dsorted_inv in S as [_ Hr]. destruct I as [<-|I]; [apply before_irrefl | apply before_asym, Hr, I].
Qed.

Lemma none_ov g : Forall (eq None) (map cur_key (its_of g)) -> filter_keys g OV = [].
Proof.
  intro F. apply filter_all_false. intros [k v] He. cbn [fst].
  destruct (g k) eqn:G; [|reflexivity]. exfalso.
  apply Hlf, lf_In in He as (A & HA & He).
  destruct (head_min g A (k, v) (HAs A HA) He G) as (h & r & EF & _).
  apply In_nth_error in HA as (x & Hx). eapply all_none_nth; [exact F | eapply nth_keys; eauto].
Qed.

Section Sel.
Variable g : bytes -> bool.
Variable i : nat.
Variable c : bytes.
Hypothesis Hup : upc g.
Hypothesis Hsel : is_sel rv (map cur_key (its_of g)) i c.

Lemma sel_at : exists A h r, nth_error As i = Some A /\ filter_keys g A = h :: r /\ fst h = c.
Proof. apply keys_nth, Hsel. Qed.

Lemma sel_g : g c = true.
Proof.
  destruct sel_at as (A & h & r & H1 & H2 & H3). apply hd_filter_In in H2 as [_ H2].
  rewrite <- H3. exact H2.
Qed.

Lemma reselect_pt A e : In A As -> In e A -> g (fst e) = nbk rv c (fst e).
Proof.
  intros HA He. destruct (g (fst e)) eqn:G.
  - symmetry. apply negb_true_iff. destruct (before rv (fst e) c) eqn:B; [|reflexivity].
    destruct (head_min g A e (HAs A HA) He G) as (h & r & EF & Hm).
    apply In_nth_error in HA as (x & Hx).
    rewrite (before_nlt_trans _ _ _ (fst h) B) in Hm; [discriminate|].
    eapply is_sel_min; [exact Hsel | eapply nth_keys; eauto].
  - destruct (nbk rv c (fst e)) eqn:N; [|reflexivity].
    destruct (nbk_cases _ _ _ N) as [E|Af].
    + rewrite E, sel_g in G. discriminate.
    + rewrite (Hup c (fst e) sel_g Af) in G. discriminate.
Qed.

Lemma reselect_layers : its_of g = its_of (nbk rv c).
Proof.
  apply map_ext_in. intros A HA. unfold lay. do 2 f_equal.
  apply filter_ext_in. intros e He. apply (reselect_pt A e HA He).
Qed.

Lemma reselect_ov : filter_keys g OV = filter_keys (nbk rv c) OV.
Proof.
  apply filter_ext_in. intros [k v] He.
  apply Hlf, lf_In in He as (A & HA & He). apply (reselect_pt A (k, v) HA He).
Qed.
End Sel.

Lemma upc_nbk c : upc (nbk rv c).
Proof. intros a b. apply nbk_up. Qed.
Lemma upc_afk c : upc (afk rv c).
Proof. intros a b. apply afk_up. Qed.

Definition tuned (c : bytes) (M : miter) : Prop :=
  mi_rev M = rvm /\ mi_keys M = map cur_key (mi_its M) /\ mi_prev M = c /\ mi_valid M = true /\
  is_sel rv (mi_keys M) (mi_index M) c.

(** after Rewind, Seek or Next: every layer stands at or after [c] *)
Definition canon (c : bytes) (M : miter) : Prop := mi_its M = its_of (nbk rv c) /\ tuned c M.

(** inside Next's loop: some layers that stood on [c] have been moved past it *)
Definition mixed (c : bytes) (it : dbit) (A : list entry) : Prop :=
  it = lay (nbk rv c) A \/ it = lay (afk rv c) A.
Definition inv (c : bytes) (M : miter) : Prop := Forall2 (mixed c) (mi_its M) As /\ tuned c M.

Lemma canon_inv c M : canon c M -> inv c M.
Proof. intros [H T]. split; [|exact T]. rewrite H. apply Forall2_map_l. left. reflexivity. Qed.

Lemma tuned_key c M : tuned c M -> mi_key M = Some c.
Proof. intros (_ & _ & _ & Hv & S1 & _). unfold mi_key. rewrite Hv. apply nth_error_nth, S1. Qed.

Lemma start_select g N : upc g -> mi_rev N = rvm ->
  let M := set_dir (set_its N (its_of g) (map cur_key (its_of g))) DSOI in
  (exists i, select_key M = (set_dir (set_index M i) DEOI, false) /\ filter_keys g OV = []) \/
  (exists i c, select_key M = (selected M i c, true) /\
               (forall d, d = DForward \/ d = DSeek -> canon c (set_dir (selected M i c) d)) /\
               filter_keys g OV = filter_keys (nbk rv c) OV).
Proof.
  intros Hup Hrev M.
  destruct (select_key_spec M) as [(i & F & E)|(i & c & S & E)].
  - left. exists i. split; [exact E | exact (none_ov g F)].
  - right. exists i, c. change (is_sel (mi_rev N) (map cur_key (its_of g)) i c) in S. rewrite Hrev in S.
    apply is_sel_rv in S; [|unfold its_of; rewrite !map_length; reflexivity].
    split; [exact E|]. split; [|apply (reselect_ov g i c Hup S)].
    intros d Hd. split; [apply (reselect_layers g i c Hup S)|].
    split; [exact Hrev|]. split; [reflexivity|]. split; [reflexivity|].
    split; [destruct Hd as [->| ->]; reflexivity | exact S].
Qed.

Lemma canon_head c M : canon c M ->
  exists v, mi_cur M = Some (c, v) /\
            filter_keys (nbk rv c) OV = (c, v) :: filter_keys (afk rv c) OV.
Proof.
  intros (Hi & T). pose proof (tuned_key c M T) as Hk. destruct T as (_ & Hks & _ & _ & S).
  rewrite Hks, Hi in S.
  destruct (sel_at _ _ _ S) as (A & h & r & Hn & Hf & Hh).
  exists (snd h). split.
  - unfold mi_cur. rewrite Hk, Hi. unfold its_of. erewrite map_nth_error by exact Hn.
    unfold lay, db_cur. simpl. rewrite Hf. reflexivity.
  - apply filter_nbk_in; [exact HOV|]. apply Hlf.
    apply (lf_intro As (mi_index M) A c (snd h) Hn).
    + apply hd_filter_In in Hf as [Hf _]. rewrite <- Hh. destruct h; exact Hf.
    + (* an earlier layer that held [c] would stand on it *)
      intros x A' Lx Hx Hin. apply in_map_iff in Hin as ([k w] & Ek & Hin). simpl in Ek. subst k.
      destruct (head_min (nbk rv c) A' (c, w) (HAs A' (nth_error_In _ _ Hx)) Hin (nbk_refl rv c))
        as (h' & r' & EF & Hm).
      destruct S as (_ & S2 & _). cbn [fst] in Hm. rewrite (S2 x (fst h')) in Hm; [discriminate | | exact Lx].
      eapply nth_keys; eauto.
Qed.

Lemma valid_not_soi M : mi_valid M = true -> is_soi (mi_dir M) = false.
Proof. unfold mi_valid. destruct (mi_dir M); simpl; congruence. Qed.

Lemma next_inner_unfold M : mi_valid M = true ->
  mi_next_inner M =
  match nth_error (mi_its M) (mi_index M) with
  | None => (M, false)
  | Some it =>
      select_key (set_its M (upd_nth (mi_its M) (mi_index M) (db_next it))
                          (upd_nth (mi_keys M) (mi_index M) (cur_key (db_next it))))
  end.
Proof. unfold mi_valid, mi_next_inner. destruct (mi_dir M); simpl; congruence. Qed.

Lemma afk_no_head c A : cur_key (lay (afk rv c) A) <> Some c.
Proof. intro H. apply lay_head in H. rewrite afk_irrefl in H. discriminate. Qed.

Lemma mixed_head_nbk c it A k : mixed c it A -> cur_key it = Some k -> nbk rv c k = true.
Proof. intros [->| ->] H; apply lay_head in H; [exact H | apply afk_nbk, H]. Qed.

Lemma mixed_next c it A : dsorted rv A -> mixed c it A -> cur_key it = Some c ->
  db_next it = lay (afk rv c) A.
Proof.
  intros Hs [->| ->] H; [|destruct (afk_no_head c A H)]. rewrite cur_key_lay in H.
  destruct (filter_keys (nbk rv c) A) as [|h r] eqn:E; simpl in H; [discriminate|].
  destruct (filter_nbk_head rv c A h r Hs E) as [Hr _].
  unfold lay, db_next. cbn [set_pos di_pos di_all di_rev]. rewrite E, Hr by congruence. reflexivity.
Qed.

Lemma nbk_afk_same c A : dsorted rv A -> cur_key (lay (nbk rv c) A) <> Some c ->
  filter_keys (nbk rv c) A = filter_keys (afk rv c) A.
Proof.
  intros Hs H. rewrite cur_key_lay in H.
  destruct (filter_keys (nbk rv c) A) as [|h r] eqn:E.
  - rewrite <- filter_afk_nbk, E. reflexivity.
  - destruct (filter_nbk_head rv c A h r Hs E) as [_ H2]. symmetry. apply H2.
    intro Eq. apply H. simpl. rewrite Eq. reflexivity.
Qed.

Lemma settle c : forall Bs its, (forall A, In A Bs -> dsorted rv A) ->
  Forall2 (mixed c) its Bs -> ~ In (Some c) (map cur_key its) -> its = map (lay (afk rv c)) Bs.
Proof.
  intros Bs its HB F. induction F as [|it A its Bs HM F IH]; intro Hn; simpl; [reflexivity|].
  f_equal.
  - destruct HM as [->| ->]; [|reflexivity].
    unfold lay. rewrite (nbk_afk_same c A); [reflexivity | apply HB; left; reflexivity |].
    intro E. apply Hn. left. exact E.
  - apply IH; [intros A' HA'; apply HB; right; exact HA' | intro Hin; apply Hn; right; exact Hin].
Qed.

Lemma sel_mixed c its i' c' : Forall2 (mixed c) its As -> is_sel rv (map cur_key its) i' c' ->
  In (Some c) (map cur_key its) -> c' = c.
Proof.
  intros F S Hin. apply In_nth_error in Hin as (j & Hj).
  apply (before_total rv); [|eapply is_sel_min; eauto].
  destruct S as (S1 & _). rewrite nth_error_map in S1.
  destruct (nth_error its i') as [it|] eqn:Hit; [|discriminate].
  destruct (Forall2_nth_l _ _ _ _ _ F Hit) as (A & _ & HM).
  apply negb_true_iff. apply (mixed_head_nbk c it A c' HM). inversion S1. reflexivity.
Qed.

Lemma reselect_mixed c its : Forall2 (mixed c) its As ->
  (Forall (eq None) (map cur_key its) -> filter_keys (afk rv c) OV = []) /\
  (forall i' c', is_sel rv (map cur_key its) i' c' -> c' <> c ->
     its = its_of (nbk rv c') /\ filter_keys (afk rv c) OV = filter_keys (nbk rv c') OV).
Proof.
  intro F.
  assert (E : ~ In (Some c) (map cur_key its) -> its = its_of (afk rv c))
    by (apply settle; [exact HAs | exact F]).
  split.
  - intro N. apply none_ov. rewrite <- E; [exact N|].
    intro Hin. eapply Forall_forall in N; [|exact Hin]. discriminate N.
  - intros i' c' S Nc. rewrite E in S |- *; [|intro Hin; exact (Nc (sel_mixed c its i' c' F S Hin))..].
    split; [apply (reselect_layers _ i' c' (upc_afk c) S) | apply (reselect_ov _ i' c' (upc_afk c) S)].
Qed.

Lemma advance c M : inv c M -> exists its2,
  mi_next_inner M = select_key (set_its M its2 (map cur_key its2)) /\
  Forall2 (mixed c) its2 As /\
  (forall j, (j <= mi_index M)%nat -> nth_error (map cur_key its2) j <> Some (Some c)).
Proof.
  intros (F & _ & Hk & _ & Hv & S1 & S2 & _). rewrite Hk in S1, S2.
  assert (Li : (mi_index M < length (map cur_key (mi_its M)))%nat) by (apply nth_error_Some; congruence).
  rewrite nth_error_map in S1.
  destruct (nth_error (mi_its M) (mi_index M)) as [it|] eqn:Hit; [|discriminate].
  destruct (Forall2_nth_l _ _ _ _ _ F Hit) as (A & HA & HM).
  exists (upd_nth (mi_its M) (mi_index M) (lay (afk rv c) A)). repeat split.
  - rewrite (next_inner_unfold M Hv), Hit, Hk, map_upd_nth.
    rewrite (mixed_next c it A (HAs A (nth_error_In _ _ HA)) HM) by (inversion S1; reflexivity).
    reflexivity.
  - eapply Forall2_upd_nth; [exact F | exact HA | right; reflexivity].
  - intros j Hj E. rewrite map_upd_nth in E. destruct (Nat.eq_dec j (mi_index M)) as [->|Ne].
    + rewrite nth_error_upd_same in E by exact Li. inversion E as [E']. exact (afk_no_head c A E').
    + rewrite nth_error_upd_other in E by exact Ne.
      pose proof (S2 j c E ltac:(lia)) as B. rewrite before_irrefl in B. discriminate.
Qed.

Lemma next_pass c M f : inv c M ->
  (mi_valid (fst (mi_next_go (S f) M)) = false /\ filter_keys (afk rv c) OV = []) \/
  (exists M1, mi_next_go (S f) M = mi_next_go f M1 /\ inv c M1 /\ (mi_index M < mi_index M1)%nat) \/
  (exists c', canon c' (fst (mi_next_go (S f) M)) /\
              filter_keys (afk rv c) OV = filter_keys (nbk rv c') OV).
Proof.
  intro HI. destruct (advance c M HI) as (its2 & EA & F2 & Hle).
  destruct HI as (F & Hr & _ & Hp & Hv & _).
  (* the result gets a name, so that the loop body is unfolded once and not in each alternative *)
  remember (mi_next_go (S f) M) as R eqn:ER.
  cbn [mi_next_go] in ER. rewrite (valid_not_soi M Hv), EA in ER. clear EA.
  set (M2 := set_its M its2 (map cur_key its2)) in ER.
  destruct (select_key_spec M2) as [(i' & N & E)|(i' & c' & S' & E)]; rewrite E in ER; cbn [negb] in ER.
  - (* every layer is exhausted *)
    left. rewrite ER. split; [reflexivity | exact (proj1 (reselect_mixed c its2 F2) N)].
  - right. revert ER.
    change (is_sel (mi_rev M) (map cur_key its2) i' c') in S'. rewrite Hr in S'.
    apply is_sel_rv in S'; [|rewrite map_length; exact (Forall2_len _ _ _ F2)].
    replace (selected M2 i' c') with (set_dir (set_index M2 i') DForward)
      by (unfold selected; change (mi_dir M2) with (mi_dir M); rewrite (valid_not_soi M Hv); reflexivity).
    set (M1 := set_dir (set_index M2 i') DForward).
    assert (T : tuned c' (set_prev M1 c'))
      by (split; [exact Hr|]; repeat (split; [reflexivity|]); exact S').
    rewrite (tuned_key c' _ T : mi_key M1 = Some c').
    change (mi_rev M1) with (mi_rev M). change (mi_prev M1) with (mi_prev M).
    rewrite Hr, Hp, mcompare_match. destruct (bytes_eq_dec c' c) as [->|Nc]; intros ->.
    + (* another layer stands on [c]: a later one, the earlier ones and this one do not *)
      left. exists M1. split; [reflexivity|]. split.
      * split; [exact F2|]. destruct T as (T1 & T2 & _ & T4). exact (conj T1 (conj T2 (conj Hp T4))).
      * destruct (Nat.lt_ge_cases (mi_index M) i') as [L|G]; [exact L|].
        destruct (Hle i' G). apply S'.
    + right. exists c'. destruct (proj2 (reselect_mixed c its2 F2) i' c' S' Nc) as [E2 EO].
      split; [split; [exact E2 | exact T] | exact EO].
Qed.

Lemma inv_index_lt c M : inv c M -> (mi_index M < length As)%nat.
Proof.
  intros (F & _ & Hk & _ & _ & S1 & _). rewrite <- (Forall2_len _ _ _ F), <- (map_length cur_key), <- Hk.
  apply nth_error_Some. congruence.
Qed.

(** every pass of Next's loop selects a later layer, so #layers + 1 passes suffice *)
Lemma next_go_spec c : forall fuel M, inv c M -> (length As < fuel + mi_index M)%nat ->
  (mi_valid (fst (mi_next_go fuel M)) = false /\ filter_keys (afk rv c) OV = []) \/
  (exists c', canon c' (fst (mi_next_go fuel M)) /\
              filter_keys (afk rv c) OV = filter_keys (nbk rv c') OV).
Proof.
  induction fuel as [|f IH]; intros M HI Hlen.
  - pose proof (inv_index_lt c M HI). lia.
  - destruct (next_pass c M f HI) as [A|[(M1 & E & HI1 & Hlt)|C]]; [left; exact A | | right; exact C].
    rewrite E. apply IH; [exact HI1 | lia].
Qed.

(** the simulation relation (the [rest] of [walks] in [mg_walks]): [M] stands where an iterator over the
    overlay with [l] left to deliver stands *)
Definition Rm (M : miter) (l : list entry) : Prop :=
  (exists c, canon c M /\ l = filter_keys (nbk rv c) OV) \/ (mi_valid M = false /\ l = []).

Lemma Rm_cur M l : Rm M l -> mi_cur M = hd_error l.
Proof.
  intros [(c & HC & ->)|(Hv & ->)].
  - destruct (canon_head c M HC) as (v & -> & ->). reflexivity.
  - unfold mi_cur, mi_key. rewrite Hv. reflexivity.
Qed.

Lemma Rm_next M e l : Rm M (e :: l) -> Rm (mg_next M) l.
Proof.
  intros [(c & HC & E)|(_ & E)]; [|discriminate].
  destruct (canon_head c M HC) as (v & _ & H2). rewrite H2 in E. inversion E; subst e l.
  pose proof (canon_inv c M HC) as HI.
  destruct (next_go_spec c (S (length (mi_its M))) M HI) as [(Hv & He)|(c' & HC' & He)].
  - destruct HI as (F & _). rewrite (Forall2_len _ _ _ F). lia.
  - right. split; [exact Hv | exact He].
  - left. exists c'. split; [exact HC' | exact He].
Qed.

Definition its0 : list dbit := map (fun A => mk_dbit A rv PFresh) As.
Definition M0 : miter := mi_new its0 rv.

Lemma M0_rev : mi_rev M0 = rvm.
Proof. unfold M0, mi_new, rvm, its0. simpl. rewrite map_length. reflexivity. Qed.

Lemma its0_rewind : map db_rewind its0 = its_of (fun _ => true).
Proof.
  unfold its0, its_of. rewrite map_map. apply map_ext. intro A.
  unfold db_rewind, set_pos, lay. simpl. do 2 f_equal.
  symmetry. apply filter_all_true. reflexivity.
Qed.

Lemma its0_seek k : map (fun it => db_seek it k) its0 = its_of (nbk rv k).
Proof.
  unfold its0, its_of. rewrite map_map. apply map_ext_in. intros A HA.
  unfold db_seek, set_pos, lay. simpl. rewrite drop_before_filter by (apply HAs; exact HA). reflexivity.
Qed.

Lemma Rm_rewind : Rm (mg_rewind M0) OV.
Proof.
  unfold mg_rewind, mi_rewind. change (mi_its M0) with its0. rewrite its0_rewind.
  assert (HO : filter_keys (fun _ => true) OV = OV) by (apply filter_all_true; reflexivity).
  destruct (start_select (fun _ => true) M0 (fun a b _ _ => eq_refl) M0_rev)
    as [(i & -> & E)|(i & c & -> & HC & E)].
  - right. split; [reflexivity | exact (eq_trans (eq_sym HO) E)].
  - left. exists c. split; [exact (HC DForward (or_introl eq_refl)) | exact (eq_trans (eq_sym HO) E)].
Qed.

Lemma Rm_seek k : Rm (mg_seek M0 k) (filter_keys (nbk rv k) OV).
Proof.
  unfold mg_seek, mi_seek. change (mi_its M0) with its0. rewrite its0_seek.
  destruct (start_select (nbk rv k) M0 (upc_nbk k) M0_rev) as [(i & -> & ->)|(i & c & -> & HC & ->)].
  - right. split; reflexivity.
  - left. exists c. split; [apply HC; right; reflexivity | reflexivity].
Qed.
End Merge.
