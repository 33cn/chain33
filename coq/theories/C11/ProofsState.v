(** C11 — receipts and state reads agree with the specification for every block, with or
    without the guard: the buffered local writes never reach the state DB or a receipt.
    The relation [Rst] of this file is also the first half of the full relation [Rfull] of Proofs. *)
From Coq Require Import List NArith ZArith Bool.
From C33 Require Import Lib.Harness Lib.Bytes Lib.OMap C11.Model C11.Spec C11.ProofsBase.
Import ListNotations.

(** local reads are not compared *)
Definition mask (o : obs) : obs :=
  match o with OS v => OS v | OV _ => OV None | OL _ => OL [] | ODis => ODis end.

Definition ORs (o1 o2 : obs) : Prop := mask o1 = mask o2.

(** committed view: cache, then store *)
Definition sview (s : sdb) (k : bytes) : option bytes :=
  match get k (s_cache s) with Some v => nonnil v | None => norm (get k (s_store s)) end.

(** what Get returns: txcache first when a transaction is open *)
Definition sview_tx (s : sdb) (k : bytes) : option bytes :=
  match (if s_intx s then get k (s_tx s) else None) with Some v => nonnil v | None => sview s k end.

Lemma sdb_get_spec s k :
  let s' := fst (sdb_get s k) in
  snd (sdb_get s k) = sview_tx s k /\ (forall k', sview s' k' = sview s k') /\
  s_tx s' = s_tx s /\ s_keys s' = s_keys s /\ s_intx s' = s_intx s.
Proof.
  unfold sdb_get, sview_tx, sview.
  destruct (if s_intx s then get k (s_tx s) else None); [simpl; auto|].
  destruct (get k (s_cache s)) eqn:E2; [simpl; auto|].
  destruct (get k (s_store s)) as [v|] eqn:E3; [|simpl; auto].
  unfold norm, nonnil. destruct (isnil v) eqn:E4; simpl; [auto|].
  repeat split. intro k'. rewrite get_put. destruct (beqb k' k) eqn:E; [|reflexivity].
  apply beqb_eq in E. subst k'. rewrite E2, E3. unfold nonnil. rewrite E4. reflexivity.
Qed.

Lemma sdb_set_spec s k v :
  let s' := sdb_set s k v in
  s_intx s' = s_intx s /\ s_keys s' = (if s_intx s then s_keys s ++ [k] else s_keys s) /\
  (forall k', sview_tx s' k' = if beqb k' k then nonnil v else sview_tx s k') /\
  (s_intx s = true -> forall k', sview s' k' = sview s k').
Proof.
  unfold sdb_set, sview_tx, sview. destruct (s_intx s); simpl; repeat split; auto; try discriminate;
    intro k'; rewrite get_put; destruct (beqb k' k); reflexivity.
Qed.

Lemma sview_commit s k : s_intx s = true -> sview (sdb_commit s) k = sview_tx s k.
Proof.
  intro Hi. unfold sview, sview_tx, sdb_commit. simpl. rewrite get_merge, Hi.
  destruct (get k (s_tx s)); reflexivity.
Qed.

(** The StateDB against the state map [st], the key list [ks] and the copies [sv] of the
    specification; [b]: a transaction is open. *)
Record RS (b : bool) (s : sdb) (st : cdb) (ks : list bytes) (sv : option (cdb * cdb)) : Prop := {
  rs_intx : s_intx s = b;
  rs_aintx : (if sv then true else false) = b;
  rs_keys : s_keys s = ks;
  rs_view : forall k, norm (get k st) = sview_tx s k;
  rs_saved : forall st0 loc, sv = Some (st0, loc) -> forall k, norm (get k st0) = sview s k }.

(** of executor.LocalDB only what the interpreter branches on *)
Definition xframe (x : xdb) := (x_intx x, x_keys x, x_dr x, x_dw x).

Definition Rst (b : bool) (c : cst) (a : ast) : Prop :=
  RS b (fst c) (a_st a) (a_skeys a) (a_saved a) /\ xframe (snd c) = (b, a_lkeys a, a_dr a, a_dw a).

Lemma st_sget b c a k : Rst b c a ->
  Rst b (fst (b_sget conc c k)) (fst (b_sget abs a k)) /\ snd (b_sget conc c k) = snd (b_sget abs a k).
Proof.
  intros [[h1 h2 h3 h4 h5] HX]. destruct c as [s x]. simpl in *.
  destruct (sdb_get_spec s k) as (G1 & G2 & G3 & G4 & G5). destruct (sdb_get s k) as [s' r]. simpl in *.
  split; [|rewrite G1; symmetry; apply h4]. split; [|exact HX].
  constructor; simpl; try congruence.
  - intro k'. rewrite h4. unfold sview_tx. rewrite G3, G5, G2. reflexivity.
  - intros st0 loc E k'. rewrite G2. apply (h5 _ _ E).
Qed.

Lemma st_sset b c a k v : Rst b c a -> Rst b (b_sset conc c k v) (b_sset abs a k v).
Proof.
  intros [[h1 h2 h3 h4 h5] HX]. destruct c as [s x]. split; [|exact HX]. simpl in *.
  destruct (sdb_set_spec s k v) as (G1 & G2 & G3 & G4).
  constructor; try congruence.
  - unfold a_intx. rewrite G2, h1, h2, h3. reflexivity.
  - intro k'. rewrite get_put, G3, <- h4. destruct (beqb k' k); reflexivity.
  - intros st0 loc E k'. rewrite E in h2. rewrite G4 by congruence. apply (h5 _ _ E).
Qed.

Lemma st_skeys b c a : Rst b c a -> b_skeys conc c = b_skeys abs a.
Proof. intros [HS _]. apply (rs_keys _ _ _ _ _ HS). Qed.

Lemma st_lkeys b c a : Rst b c a -> b_lkeys conc c = b_lkeys abs a.
Proof. intros [_ HX]. injection HX as _ X _ _. exact X. Qed.

Lemma xdb_get_frame x k :
  xframe (fst (xdb_get x k)) = xframe x /\ mask (snd (xdb_get x k)) = if x_dr x then ODis else OV None.
Proof.
  unfold xdb_get. destruct (x_dr x) eqn:Edr; simpl; [auto|].
  destruct (if x_intx x then get k (x_tx x) else None); simpl; [auto|].
  destruct (get k (x_cache x)); simpl; [auto|].
  destruct (rdb_get (x_rem x) k) as [r res]. unfold xframe. simpl. rewrite Edr. auto.
Qed.

Lemma xdb_save_frame x : xframe (xdb_save x) = xframe x.
Proof. unfold xdb_save. destruct (x_kvs x); reflexivity. Qed.

Lemma xdb_list_frame x p :
  xframe (fst (xdb_list x p)) = xframe x /\ mask (snd (xdb_list x p)) = if x_dr x then ODis else OL [].
Proof.
  unfold xdb_list. destruct (x_dr x); simpl; [auto|]. split; [apply xdb_save_frame|reflexivity].
Qed.

Lemma st_lget b c a k : Rst b c a ->
  Rst b (fst (b_lget conc c k)) (fst (b_lget abs a k)) /\ ORs (snd (b_lget conc c k)) (snd (b_lget abs a k)).
Proof.
  intros [HS HX]. destruct c as [s x]. simpl in *.
  destruct (xdb_get_frame x k) as [F1 F2]. destruct (xdb_get x k) as [x' r]. simpl in *.
  split; [split; [exact HS|exact (eq_trans F1 HX)]|].
  unfold ORs. rewrite F2. injection HX as _ _ -> _. destruct (a_dr a); reflexivity.
Qed.

Lemma st_llist b c a p : Rst b c a ->
  Rst b (fst (b_llist conc c p)) (fst (b_llist abs a p)) /\ ORs (snd (b_llist conc c p)) (snd (b_llist abs a p)).
Proof.
  intros [HS HX]. destruct c as [s x]. simpl in *.
  destruct (xdb_list_frame x p) as [F1 F2]. destruct (xdb_list x p) as [x' r]. simpl in *.
  pose proof (eq_trans F1 HX) as HX'. unfold ORs. rewrite F2. injection HX as _ _ -> _.
  destruct (a_dr a) eqn:E; (split; [split; [exact HS|simpl; rewrite E; exact HX']|reflexivity]).
Qed.

Lemma st_lset c a k v : Rst true c a ->
  Rst true (fst (b_lset conc c k v)) (fst (b_lset abs a k v)) /\
  snd (b_lset conc c k v) = snd (b_lset abs a k v).
Proof.
  intros [HS HX]. destruct c as [s x]. simpl in *. injection HX as X1 X2 X3 X4.
  pose proof (rs_aintx _ _ _ _ _ HS) as Hi. fold (a_intx a) in Hi.
  unfold xdb_set. rewrite X4, X1, Hi.
  destruct (a_dw a) eqn:Edw; simpl; (split; [split; [exact HS|]|reflexivity]); unfold xframe; simpl; congruence.
Qed.

Lemma st_begin c a : Rst false c a -> Rst true (b_begin conc c) (b_begin abs a).
Proof.
  intros [[h1 h2 h3 h4 h5] HX]. destruct c as [s x]. simpl in *. injection HX as X1 X2 X3 X4.
  assert (E : forall k, norm (get k (a_st a)) = sview s k).
  { intro k. rewrite h4. unfold sview_tx. rewrite h1. reflexivity. }
  split; [|unfold xframe; simpl; congruence].
  constructor; simpl; auto. intros st0 loc Es. injection Es as <- _. exact E.
Qed.

Lemma xdb_commit_frame x : xframe (xdb_commit x) = (false, [], x_dr x, x_dw x).
Proof.
  unfold xdb_commit, xdb_reset, xframe. simpl.
  match goal with |- context [xdb_save ?y] => pose proof (xdb_save_frame y) as F end.
  injection F as _ _ -> ->. reflexivity.
Qed.

Lemma st_commit c a : Rst true c a -> Rst false (b_commit conc c) (b_commit abs a).
Proof.
  intros [[h1 h2 h3 h4 h5] HX]. destruct c as [s x]. simpl in *. injection HX as X1 X2 X3 X4.
  split; [|cbn [snd]; rewrite xdb_commit_frame; simpl; congruence].
  constructor; simpl; auto; [|discriminate].
  intro k. rewrite h4. symmetry. apply sview_commit, h1.
Qed.

Lemma st_rollback c a : Rst true c a -> Rst false (b_rollback conc c) (b_rollback abs a).
Proof.
  intros [[h1 h2 h3 h4 h5] HX]. destruct c as [s x]. simpl in *. injection HX as X1 X2 X3 X4.
  destruct (a_saved a) as [[st0 loc]|]; [|discriminate h2].
  split; [|unfold xframe; simpl; congruence].
  constructor; simpl; auto; [|discriminate]. apply (h5 _ _ eq_refl).
Qed.

Lemma st_starttx b c a : Rst b c a -> Rst b (b_starttx conc c) (b_starttx abs a).
Proof.
  intros [[h1 h2 h3 h4 h5] HX]. destruct c as [s x]. simpl in *. injection HX as X1 X2 X3 X4.
  split; [constructor; auto|unfold xframe; simpl; congruence].
Qed.

Lemma st_enter b c a st : Rst b c a -> Rst b (b_enter conc c st) (b_enter abs a st).
Proof.
  intros [HS HX]. destruct c as [s x]. simpl in *. injection HX as X1 X2 X3 X4.
  split; [exact HS|unfold xframe; simpl; rewrite X1, X2, X3; reflexivity].
Qed.

Lemma st_leave b c a st : Rst b c a -> Rst b (b_leave conc c st) (b_leave abs a st).
Proof.
  intros [HS HX]. destruct c as [s x]. simpl in *. injection HX as X1 X2 X3 X4.
  split; [exact HS|unfold xframe; simpl; rewrite X1, X2, X3; reflexivity].
Qed.

Lemma st_init store main : Rst false (conc_init store main) (abs_init store main).
Proof. split; [constructor; simpl; auto; discriminate|reflexivity]. Qed.

Lemma Forall2_masks t1 t2 : Forall2 (Forall2 ORs) t1 t2 -> map (map mask) t1 = map (map mask) t2.
Proof.
  induction 1 as [|u1 u2 t1 t2 H _ IH]; simpl; [reflexivity|]. f_equal; [|exact IH].
  induction H as [|o1 o2 u1 u2 H _ IHu]; simpl; [reflexivity|]. f_equal; assumption.
Qed.

Lemma run_model_eq store main blk :
  run_model store main blk =
  let p := exec_block conc (conc_init store main) blk in (snd (fst (fst p)), snd (fst p), snd p).
Proof. unfold run_model. destruct (exec_block conc (conc_init store main) blk) as [[[c t] r] g]. reflexivity. Qed.

Lemma run_spec_eq store main blk :
  run_spec store main blk =
  let q := exec_block abs (abs_init store main) blk in (snd (fst (fst q)), snd (fst q)).
Proof. unfold run_spec. destruct (exec_block abs (abs_init store main) blk) as [[[a t] r] g]. reflexivity. Qed.

Theorem state_refines_spec : forall store main blk trs rcs g trs' rcs',
  run_model store main blk = (trs, rcs, g) ->
  run_spec store main blk = (trs', rcs') ->
  rcs = rcs' /\ map (map mask) trs = map (map mask) trs'.
Proof.
  intros store main blk trs rcs g trs' rcs'. rewrite run_model_eq, run_spec_eq. cbv zeta.
  intros E1 E2. injection E1 as <- <- _. injection E2 as <- <-.
  destruct (sim_block conc abs Rst ORs false (fun o => eq_refl)
    st_sget st_sset st_skeys st_lget st_llist st_lset st_lkeys st_begin st_commit
    (fun c a H _ => st_rollback c a H) (fun N => False_ind _ (Bool.diff_false_true N))
    st_starttx st_enter st_leave blk _ _ (st_init store main)) as [_ H].
  destruct H as [[_ H2] H3]; [intro N; discriminate N|].
  split; [exact H3|apply Forall2_masks, H2].
Qed.
