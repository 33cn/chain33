(** C11 — the full statement fails on the model: the block-level witness (reproduced on
    the real executor by the harness, streams block-witness / ops-witness). *)
From Coq Require Import List NArith ZArith Bool String.
From C33 Require Import Lib.Harness Lib.Bytes Lib.OMap C11.Model C11.Spec.
Import ListNotations.
Open Scope string_scope.
Open Scope list_scope.

Definition payer : bytes := bs "14KEKbYtKKQm4wMthSK9J4La4nAiidGozt".
Definition w_store : cdb := [(acc_key payer, enc_bal 100000000)].
Definition w_main : cdb := [(bs "LODB-verifst-a", bs "la0")].

(** a group whose first member (ExecLocalSameTime driver) writes local data and whose
    second member fails, followed by a transaction that lists the prefix *)
Definition w_block : list item :=
  [ IGroup [ mk_tx payer 2000000 (BScript 0 [] [LSet (bs "LODB-verifst-d") (bs "W")]);
             mk_tx payer 0 (BScript 1 [SFail] []) ];
    ISingle (mk_tx payer 1000000 (BScript 0 [] [LList (bs "LODB-verifst-")])) ].

Definition refines_full : Prop :=
  forall store main blk trs rcs g,
    sorted main -> run_model store main blk = (trs, rcs, g) -> run_spec store main blk = (trs, rcs).

Lemma witness_model :
  run_model w_store w_main w_block =
  ([[]; []; [OL [bs "la0"; bs "W"]]],
   [mk_rc 1 [(acc_key payer, enc_bal 98000000)] [2%N];
    mk_rc 1 [] [1%N];
    mk_rc 2 [(acc_key payer, enc_bal 97000000)] [2%N; 77%N]], false).
Proof. vm_compute. reflexivity. Qed.

Lemma witness_spec :
  run_spec w_store w_main w_block =
  ([[]; []; [OL [bs "la0"]]],
   [mk_rc 1 [(acc_key payer, enc_bal 98000000)] [2%N];
    mk_rc 1 [] [1%N];
    mk_rc 2 [(acc_key payer, enc_bal 97000000)] [2%N; 77%N]]).
Proof. vm_compute. reflexivity. Qed.

Lemma w_main_sorted : sorted w_main.
Proof. apply sortedb_iff. reflexivity. Qed.

Lemma refines_full_refuted : ~ refines_full.
Proof.
  intro H. specialize (H w_store w_main w_block _ _ _ w_main_sorted witness_model).
  rewrite witness_spec in H. discriminate H.
Qed.

(** a non-trivial block that satisfies the guard: the failing transaction has written
    local data, but a List flushed the buffer before the failure *)
Definition g_block : list item :=
  [ ISingle (mk_tx payer 1000000
       (BScript 0 [SSet (bs "mavl-verifst-a") (bs "X")]
                  [LSet (bs "LODB-verifst-d") (bs "W"); LList (bs "LODB-verifst-"); LFail]));
    ISingle (mk_tx payer 1000000
       (BScript 0 [SGet (bs "mavl-verifst-a")] [LList (bs "LODB-verifst-"); LGet (bs "LODB-verifst-d")])) ].

Lemma guard_example :
  run_model w_store w_main g_block =
  ([[OL [bs "la0"; bs "W"]]; [OS None; OL [bs "la0"]; OV None]],
   [mk_rc 1 [(acc_key payer, enc_bal 99000000)] [2%N; 1%N];
    mk_rc 2 [(acc_key payer, enc_bal 98000000)] [2%N; 77%N]], true).
Proof. vm_compute. reflexivity. Qed.

(** the replaced-block form of the full statement, and its refutation by the same witness *)
Definition fee_only_full : Prop :=
  forall store main blk trs rcs g,
    sorted main ->
    run_model store main blk = (trs, rcs, g) ->
    fst (run_model store main (replace_failed (abs_init store main) blk)) = (erase_failed rcs trs, rcs).

Lemma witness_replaced :
  replace_failed (abs_init w_store w_main) w_block =
  [ IGroup [ mk_tx payer 2000000 (BScript 0 [] []); mk_tx payer 0 (BScript 1 [SFail] []) ];
    ISingle (mk_tx payer 1000000 (BScript 0 [] [LList (bs "LODB-verifst-")])) ].
Proof. vm_compute. reflexivity. Qed.

Lemma witness_model_replaced :
  run_model w_store w_main (replace_failed (abs_init w_store w_main) w_block) =
  ([[]; []; [OL [bs "la0"]]],
   [mk_rc 1 [(acc_key payer, enc_bal 98000000)] [2%N];
    mk_rc 1 [] [1%N];
    mk_rc 2 [(acc_key payer, enc_bal 97000000)] [2%N; 77%N]], true).
Proof. vm_compute. reflexivity. Qed.

Lemma fee_only_full_refuted : ~ fee_only_full.
Proof.
  intro H. specialize (H _ _ _ _ _ _ w_main_sorted witness_model). rewrite witness_model_replaced in H.
  discriminate H.
Qed.

Lemma guard_example_replaced :
  run_model w_store w_main (replace_failed (abs_init w_store w_main) g_block) =
  ([[]; [OS None; OL [bs "la0"]; OV None]],
   [mk_rc 1 [(acc_key payer, enc_bal 99000000)] [2%N; 1%N];
    mk_rc 2 [(acc_key payer, enc_bal 98000000)] [2%N; 77%N]], true).
Proof. vm_compute. reflexivity. Qed.

(** the cheap layer: the same defect on an operation history of executor.LocalDB *)
Definition ops_full : Prop :=
  forall main ops, sorted main -> bracketed false ops = true -> run_xops main ops = spec_xops main ops.

Definition w_ops : list xop :=
  [XBegin; XSet (bs "LODB-verifst-d") (bs "1"); XRollback;
   XBegin; XSet (bs "LODB-verifst-c") (bs "2"); XCommit; XList (bs "LODB-verifst-")].

Lemma ops_full_refuted : ~ ops_full.
Proof.
  intro H. specialize (H w_main w_ops w_main_sorted eq_refl). vm_compute in H. discriminate H.
Qed.

Definition g_ops : list xop :=
  [XBegin; XSet (bs "LODB-verifst-d") (bs "1"); XList (bs "LODB-verifst-"); XRollback;
   XBegin; XSet (bs "LODB-verifst-c") (bs "2"); XCommit; XList (bs "LODB-verifst-"); XGet (bs "LODB-verifst-d")].

Lemma ops_guard_example : bracketed false g_ops = true /\ xdb_guard (xdb_new w_main) g_ops = true.
Proof. split; vm_compute; reflexivity. Qed.
