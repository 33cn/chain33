(** C11 — the specification itself: a failed transaction or group leaves only the fee
    behind, and replacing every failed transaction / group by "pay the fee only" changes
    neither the receipts nor anything a later transaction reads. *)
From Coq Require Import List NArith ZArith Bool.
From C33 Require Import Lib.Harness Lib.Bytes Lib.OMap C11.Model C11.Spec C11.ProofsBase.
Import ListNotations.

(** what the script operations never touch *)
Definition flags (a : ast) : option (cdb * cdb) * bool * bool := (a_saved a, a_dr a, a_dw a).

Lemma flags_sset a k v : flags (b_sset abs a k v) = flags a.
Proof. reflexivity. Qed.

Lemma flags_lset a k v : flags (fst (b_lset abs a k v)) = flags a.
Proof. unfold flags. simpl. destruct (a_dw a) eqn:E; simpl; rewrite ?E; reflexivity. Qed.

Lemma flags_llist a p : flags (fst (b_llist abs a p)) = flags a.
Proof. unfold flags. simpl. destruct (a_dr a) eqn:E; simpl; rewrite ?E; reflexivity. Qed.

Lemma run_fst {S X Y} (p : S * list obs * X) (f : list obs -> list obs) (g : X -> Y) :
  fst (fst (let '(s, tr, r) := p in (s, f tr, g r))) = fst (fst p).
Proof. destruct p as [[s tr] r]. reflexivity. Qed.

Lemma flags_sops : forall ops a, flags (fst (fst (run_sops abs a ops))) = flags a.
Proof.
  induction ops as [|o tl IH]; intro a; [reflexivity|].
  destruct o; cbn [run_sops]; try reflexivity.
  - rewrite run_fst. exact (IH (b_sset abs a k v)).
  - exact (IH (b_sset abs a k v)).
  - rewrite run_fst. apply IH.
  - cbn [b_sget abs]. rewrite run_fst. apply IH.
  - cbn [b_lget abs]. rewrite run_fst. apply IH.
  - rewrite <- (flags_llist a p). destruct (b_llist abs a p) as [s0 o]. rewrite run_fst. apply IH.
  - rewrite <- (flags_lset a k v). destruct (b_lset abs a k v) as [s0 []]; [apply IH|reflexivity].
Qed.

Lemma flags_lops : forall ops a, flags (fst (fst (run_lops abs a ops))) = flags a.
Proof.
  induction ops as [|o tl IH]; intro a; [reflexivity|].
  destruct o; cbn [run_lops]; try reflexivity.
  - rewrite <- (flags_lset a k v). destruct (b_lset abs a k v) as [s0 []]; [|reflexivity].
    rewrite run_fst. apply IH.
  - rewrite <- (flags_lset a k v). destruct (b_lset abs a k v) as [s0 []]; [apply IH|reflexivity].
  - rewrite run_fst. apply IH.
  - cbn [b_lget abs]. rewrite run_fst. apply IH.
  - rewrite <- (flags_llist a p). destruct (b_llist abs a p) as [s0 o]. rewrite run_fst. apply IH.
Qed.

Lemma flags_lset_all : forall kvs a, flags (lset_all abs a kvs) = flags a.
Proof.
  unfold lset_all. induction kvs as [|e tl IH]; intro a; simpl; [reflexivity|].
  rewrite IH. apply flags_lset.
Qed.

Lemma flags_sset_all : forall kvs a, flags (sset_all abs a kvs) = flags a.
Proof.
  unfold sset_all. induction kvs as [|e tl IH]; intro a; simpl; [reflexivity|].
  rewrite IH. reflexivity.
Qed.

Lemma flags_local_tx lo a : flags (fst (fst (exec_local_tx abs a lo))) = flags a.
Proof.
  unfold exec_local_tx. rewrite <- (flags_lops lo a).
  destruct (run_lops abs a lo) as [[s1 tr] [kvs|]]; [|reflexivity].
  destruct (subset_keys (b_lkeys abs s1) kvs); [apply flags_lset_all|reflexivity].
Qed.

Lemma flags_coins a from to amt : flags (fst (coins_transfer abs a from to amt)) = flags a.
Proof.
  unfold coins_transfer, load_account. cbn [b_sget abs].
  destruct (amt <? 1)%Z; [reflexivity|].
  destruct (beqb from to); [reflexivity|].
  destruct (_ >=? 0)%Z; reflexivity.
Qed.

(** after executor.Exec: writes enabled again, reads enabled unless they were disabled before
    an ExecLocalSameTime driver ran *)
Definition after_exec (st : bool) (f : option (cdb * cdb) * bool * bool) :=
  (fst (fst f), (if st then snd (fst f) else false), false).

Lemma flags_body t a :
  flags (fst (fst (exec_body abs a t))) = after_exec (same_time (t_body t)) (flags a).
Proof.
  unfold exec_body. generalize (same_time (t_body t)) as st. intro st.
  assert (L : forall s, flags s = flags (b_enter abs a st) ->
              flags (b_leave abs s st) = after_exec st (flags a)).
  { unfold flags. simpl. intros s E. injection E as -> -> _. destruct st; reflexivity. }
  destruct (t_body t) as [drv ex lo|to amt].
  - pose proof (flags_sops ex (b_enter abs a st)) as F.
    destruct (run_sops abs (b_enter abs a st) ex) as [[s1 tr] r]. exact (L s1 F).
  - pose proof (flags_coins (b_enter abs a st) (t_from t) to amt) as F.
    destruct (coins_transfer abs (b_enter abs a st) (t_from t) to amt) as [s1 r]. exact (L s1 F).
Qed.

Lemma tx_one_outcome t fl a :
  let '(a', _, rc, ok) := exec_tx_one abs a fl t in
  flags a' = after_exec (same_time (t_body t)) (flags a) /\
  if ok then rc_ty rc = ExecOk else rc = add_errlog fl.
Proof.
  unfold exec_tx_one.
  pose proof (flags_body t (b_starttx abs a)) as F.
  change (flags (b_starttx abs a)) with (flags a) in F.
  destruct (exec_body abs (b_starttx abs a) t) as [[s1 tr1] [[kvs logs]|]]; [|split; [exact F|reflexivity]].
  cbn [fst] in F.
  destruct (negb (subset_keys (b_skeys abs s1) kvs)); [split; [exact F|reflexivity]|].
  destruct (negb (forallb (fun e => allowed (t_body t) (fst e)) kvs)); [split; [exact F|reflexivity]|].
  destruct (same_time (t_body t)).
  - pose proof (flags_local_tx (local_script (t_body t)) s1) as FL.
    destruct (exec_local_tx abs s1 (local_script (t_body t))) as [[s2 tr2] []]; cbn [fst negb] in *;
      (split; [|reflexivity]); rewrite ?flags_sset_all; congruence.
  - cbn [negb]. rewrite flags_sset_all. split; [exact F|reflexivity].
Qed.

Lemma same_time_fail t : same_time (t_body (fail_of t)) = same_time (t_body t).
Proof. destruct t as [f fee [d ex lo|to amt]]; reflexivity. Qed.

Lemma same_time_noop t : same_time (t_body (noop_of t)) = same_time (t_body t).
Proof. destruct t as [f fee [d ex lo|to amt]]; reflexivity. Qed.

Lemma dirty_sset_all : forall kvs a, a_dirty (sset_all abs a kvs) = a_dirty a.
Proof.
  unfold sset_all. induction kvs as [|e tl IH]; intro a; simpl; [reflexivity|]. rewrite IH. reflexivity.
Qed.

Lemma tx_one_stub (failing : bool) t fl a :
  exists a' rc, exec_tx_one abs a fl (if failing then fail_of t else noop_of t) = (a', [], rc, negb failing) /\
                (failing = true -> rc = add_errlog fl) /\
                flags a' = after_exec (same_time (t_body t)) (flags a) /\ a_dirty a' = a_dirty a.
Proof.
  pose proof (tx_one_outcome (if failing then fail_of t else noop_of t) fl a) as O.
  replace (same_time (t_body (if failing then fail_of t else noop_of t))) with (same_time (t_body t)) in O
    by (destruct failing; [rewrite same_time_fail|rewrite same_time_noop]; reflexivity).
  destruct failing; unfold exec_tx_one, exec_body, fail_of, noop_of in *; cbn in *.
  - eexists. eexists. split; [reflexivity|split; [reflexivity|split; [apply O|reflexivity]]].
  - destruct (body_drv (t_body t) =? 0)%N; cbn in *;
      (eexists; eexists; split; [reflexivity|split; [discriminate|split; [apply O|exact (dirty_sset_all (rc_kv fl ++ []) _)]]]).
Qed.

Lemma rollback_flags x y sv : flags x = flags y -> a_saved x = Some sv ->
  b_rollback abs x = b_rollback abs y.
Proof.
  unfold flags. intros H Hs. injection H as H1 H2 H3. simpl. rewrite <- H1, Hs, H2, H3.
  destruct sv. reflexivity.
Qed.

Lemma fee_receipt a t fl : snd (exec_fee abs a t) = Some fl ->
  rc_ty fl = ExecPack /\ has_errlog fl = false.
Proof.
  unfold exec_fee, load_account. cbn [b_sget abs].
  destruct (_ >=? 0)%Z; simpl; intro H; inversion H; subst; split; reflexivity.
Qed.

Lemma has_errlog_add r : has_errlog (add_errlog r) = true.
Proof.
  unfold has_errlog, add_errlog. simpl. rewrite existsb_app. simpl. apply orb_true_r.
Qed.

Lemma map_replace_members {C} (c : C) : forall ts rcs,
  map (fun _ => c) (replace_members ts rcs) = map (fun _ => c) ts.
Proof. induction ts as [|t tl IH]; intros [|r rcs]; simpl; f_equal; auto. Qed.

Lemma Forall_const {A B} (P : B -> Prop) (c : B) (l : list A) : P c -> Forall P (map (fun _ => c) l).
Proof. intro H. induction l; simpl; constructor; auto. Qed.

Lemma members_outcome : forall ts a fl, rc_ty fl = ExecPack -> has_errlog fl = false ->
  let '(a', trs, rcs, ok) := exec_members abs a fl ts in
  a_saved a' = a_saved a /\ length trs = length ts /\ length rcs = length ts /\
  if ok then Forall (fun r => rc_ty r = ExecOk) rcs
  else Forall (fun r => rc_ty r = ExecPack) rcs /\ existsb has_errlog rcs = true /\
       forall b, flags b = flags a ->
       exists b', exec_members abs b fl (replace_members ts rcs) = (b', map (fun _ => []) ts, rcs, false) /\
                  flags b' = flags a' /\ a_dirty b' = a_dirty b.
Proof.
  induction ts as [|t tl IH]; intros a fl Hty Hne; cbn [exec_members]; [repeat split; constructor|].
  pose proof (tx_one_outcome t fl a) as O.
  destruct (exec_tx_one abs a fl t) as [[[a1 tr] rc] ok1]. destruct O as [F1 O].
  assert (S1 : a_saved a1 = a_saved a) by exact (f_equal (fun f => fst (fst f)) F1).
  destruct ok1.
  - specialize (IH a1 pack_empty eq_refl eq_refl).
    destruct (exec_members abs a1 pack_empty tl) as [[[a2 trs] rcs] ok2]. destruct IH as (I1 & I2 & I3 & I4).
    split; [congruence|]. split; [simpl; congruence|]. split; [simpl; congruence|].
    destruct ok2; [constructor; assumption|]. destruct I4 as (P & X & RR).
    split; [constructor; assumption|]. split; [simpl; rewrite X; apply orb_true_r|].
    intros b Fb. cbn [replace_members]. rewrite Hne.
    destruct (tx_one_stub false t fl b) as (b1 & rcn & E1 & _ & F2 & D2).
    destruct (RR b1) as (b2 & E2 & F3 & D3); [congruence|].
    exists b2. cbn [exec_members]. rewrite E1. cbn [negb]. rewrite E2. repeat split; congruence.
  - subst rc. split; [exact S1|]. simpl. rewrite !map_length. split; [reflexivity|]. split; [reflexivity|].
    split; [constructor; [exact Hty|apply Forall_const; reflexivity]|].
    rewrite has_errlog_add. split; [reflexivity|].
    intros b Fb.
    destruct (tx_one_stub true t fl b) as (b1 & rc & E1 & Hrc & F2 & D2). rewrite (Hrc eq_refl) in E1.
    exists b1. rewrite E1. cbn [negb]. rewrite !map_replace_members. repeat split; congruence.
Qed.

(** All receipts of a group have one type.  ExecPack is the type of the fee receipt, which the
    first member gets back when a member fails: then Rollback has put back the maps as they
    were after the fee, and since Rollback looks at the flags only, the stubs, which fail at the
    same member and leave the instrumentation bit clean, end in the same state under the guard. *)
Lemma group_outcome a t0 rest a1 trs rcs g :
  exec_group abs a (t0 :: rest) = (a1, trs, rcs, g) ->
  length trs = length (t0 :: rest) /\ length rcs = length (t0 :: rest) /\
  exists ty, Forall (fun r => rc_ty r = ty) rcs /\
    if (ty =? ExecPack)%N then
      existsb has_errlog rcs = true /\
      (let a0 := fst (exec_fee abs a t0) in
       a_st a1 = a_st a0 /\ a_loc a1 = a_loc a0 /\ a_saved a1 = None) /\
      exec_group abs a (replace_members (t0 :: rest) rcs) = (a1, map (fun _ => []) (t0 :: rest), rcs, true)
    else g = true.
Proof.
  intro E. rewrite exec_group_members in E. pose proof (fee_receipt a t0) as FR.
  destruct (exec_fee abs a t0) as [s1 [fl|]] eqn:EF.
  2:{ injection E as <- <- <- <-. simpl. rewrite !map_length. split; [reflexivity|]. split; [reflexivity|].
      exists ExecErr. split; [exact (Forall_const _ err_receipt (t0 :: rest) eq_refl)|reflexivity]. }
  destruct (FR fl eq_refl) as [Hty Hne].
  pose proof (members_outcome (t0 :: rest) (b_begin abs s1) fl Hty Hne) as M.
  destruct (exec_members abs (b_begin abs s1) fl (t0 :: rest)) as [[[s4 trs'] rcs'] ok].
  destruct M as (M1 & M2 & M3 & M4).
  destruct ok; injection E as <- <- <- <-; (split; [exact M2|]; split; [exact M3|]).
  { exists ExecOk. split; [exact M4|reflexivity]. }
  destruct M4 as (P & X & RR). exists ExecPack. split; [exact P|]. split; [exact X|].
  split; [simpl; rewrite M1; simpl; auto|].
  destruct (RR (b_begin abs s1) eq_refl) as (b' & E' & F' & D').
  destruct rcs' as [|r rcs']; [discriminate M3|]. cbn [replace_members] in *.
  rewrite exec_group_members.
  replace (exec_fee abs a (if has_errlog r then fail_of t0 else noop_of t0)) with (exec_fee abs a t0)
    by (destruct (has_errlog r); reflexivity).
  rewrite EF, E'. cbn [b_rb_ok abs]. rewrite D'. cbn [b_begin abs a_dirty negb].
  rewrite <- (rollback_flags s4 b' _ (eq_sym F') M1). reflexivity.
Qed.

Lemma replace_group ts rcs ty : rcs <> [] -> Forall (fun r => rc_ty r = ty) rcs ->
  replace_item (IGroup ts) rcs = if (ty =? ExecPack)%N then IGroup (replace_members ts rcs) else IGroup ts.
Proof. destruct rcs as [|r rcs']; [congruence|]. intros _ H. inversion H; subst. reflexivity. Qed.

Lemma erase_ok ty : ty <> ExecPack -> forall rcs trs,
  Forall (fun r => rc_ty r = ty) rcs -> erase_failed rcs trs = trs.
Proof.
  intro Hty. apply N.eqb_neq in Hty.
  induction rcs as [|r rcs IH]; intros trs H; destruct trs as [|tr trs]; simpl; auto.
  inversion H; subst. rewrite Hty, IH; auto.
Qed.

Lemma erase_pack : forall rcs trs, Forall (fun r => rc_ty r = ExecPack) rcs -> length trs = length rcs ->
  erase_failed rcs trs = map (fun _ => []) rcs.
Proof.
  induction rcs as [|r rcs IH]; intros trs H L; destruct trs as [|tr trs]; simpl in *; auto; try discriminate.
  inversion H; subst. rewrite H2. simpl. rewrite IH; auto.
Qed.

Lemma map_const_len {A B C} (c : C) (l1 : list A) (l2 : list B) :
  length l1 = length l2 -> map (fun _ => c) l1 = map (fun _ => c) l2.
Proof.
  revert l2; induction l1 as [|x l1 IH]; intros [|y l2] H; simpl in *; auto; try discriminate.
  f_equal. apply IH. congruence.
Qed.

Lemma group_replace a ts a1 trs rcs g : exec_group abs a ts = (a1, trs, rcs, g) ->
  exec_item abs a (replace_item (IGroup ts) rcs) = (a1, erase_failed rcs trs, rcs, true) /\
  length trs = length ts /\ length rcs = length ts /\
  (forall r, In r rcs -> rc_ty r = ExecPack -> existsb has_errlog rcs = true).
Proof.
  destruct ts as [|t0 rest]; intro E.
  { injection E as <- <- <- _. repeat split. intros r []. }
  destruct (group_outcome _ _ _ _ _ _ _ E) as (L1 & L2 & ty & U & F).
  split; [|split; [exact L1|split; [exact L2|]]].
  2:{ intros r Hr Hp. rewrite Forall_forall in U. rewrite (U r Hr) in Hp. subst ty. exact (proj1 F). }
  assert (Hn : rcs <> []) by (destruct rcs; [discriminate L2|discriminate]).
  rewrite (replace_group _ _ ty Hn U). revert F.
  destruct (N.eqb_spec ty ExecPack) as [->|Ne]; cbn [exec_item].
  - intros (_ & _ & ->). rewrite (erase_pack _ _ U) by congruence.
    rewrite (map_const_len _ (t0 :: rest) rcs) by congruence. reflexivity.
  - intros ->. rewrite (erase_ok ty Ne _ _ U). exact E.
Qed.

(** a run without its guard flag *)
Definition res3 {A B C} (x : A * B * C * bool) : A * B * C := fst x.

Lemma item_replace a it a1 trs rcs g : exec_item abs a it = (a1, trs, rcs, g) ->
  exec_item abs a (replace_item it rcs) = (a1, erase_failed rcs trs, rcs, true) /\ length trs = length rcs.
Proof.
  destruct it as [t|ts]; intro E.
  - rewrite single_as_group in E. destruct (group_replace _ _ _ _ _ _ E) as (H & L1 & L2 & X).
    split; [|congruence]. rewrite <- H.
    destruct rcs as [|r [|r' rcs]]; try discriminate L2. unfold replace_item.
    destruct (rc_ty r =? ExecPack)%N eqn:Ep; [|apply single_as_group].
    apply N.eqb_eq in Ep. specialize (X r (or_introl eq_refl) Ep). cbn [existsb] in X.
    rewrite orb_false_r in X. cbn [replace_members]. rewrite X. apply single_as_group.
  - destruct (group_replace _ _ _ _ _ _ E) as (H & L1 & L2 & _). split; [exact H|congruence].
Qed.

Lemma erase_app : forall rcs1 trs1 rcs2 trs2, length trs1 = length rcs1 ->
  erase_failed (rcs1 ++ rcs2) (trs1 ++ trs2) = erase_failed rcs1 trs1 ++ erase_failed rcs2 trs2.
Proof.
  induction rcs1 as [|r rcs1 IH]; intros [|tr trs1] rcs2 trs2 L; simpl in *; try discriminate; auto.
  rewrite IH by congruence. reflexivity.
Qed.

Theorem spec_replace_block : forall blk a,
  let '(a1, trs, rcs, _) := exec_block abs a blk in
  exec_block abs a (replace_failed a blk) = (a1, erase_failed rcs trs, rcs, true).
Proof.
  induction blk as [|it tl IH]; intro a; [reflexivity|].
  cbn [exec_block replace_failed].
  destruct (exec_item abs a it) as [[[a1 trs1] rcs1] g1] eqn:EI.
  destruct (item_replace _ _ _ _ _ _ EI) as [HI HL].
  specialize (IH a1).
  destruct (exec_block abs a1 tl) as [[[a2 trs2] rcs2] g2].
  cbn [exec_block]. rewrite HI, IH. simpl. rewrite erase_app by exact HL. reflexivity.
Qed.

Lemma group_failed_leaves_fee_only a t0 rest a1 trs rcs g :
  exec_group abs a (t0 :: rest) = (a1, trs, rcs, g) -> (exists r, In r rcs /\ rc_ty r = ExecPack) ->
  let a0 := fst (exec_fee abs a t0) in
  a_st a1 = a_st a0 /\ a_loc a1 = a_loc a0 /\ a_saved a1 = None.
Proof.
  intros E (r & Hr & Hp). destruct (group_outcome _ _ _ _ _ _ _ E) as (_ & _ & ty & U & F).
  rewrite Forall_forall in U. rewrite (U r Hr) in Hp. subst ty. exact (proj1 (proj2 F)).
Qed.

Theorem spec_failed_leaves_fee_only : forall a t a1 tr rc g,
  exec_tx abs a t = (a1, tr, rc, g) -> rc_ty rc = ExecPack ->
  let a0 := fst (exec_fee abs a t) in
  a_st a1 = a_st a0 /\ a_loc a1 = a_loc a0 /\ a_saved a1 = None.
Proof.
  intros a t a1 tr rc g E Hty. apply (group_failed_leaves_fee_only a t [] a1 [tr] [rc] g).
  - rewrite <- single_as_group. simpl. rewrite E. reflexivity.
  - exists rc. split; [left; reflexivity|exact Hty].
Qed.
