(** C11 — the implementation model refines the specification as long as no Rollback
    happens while local writes are buffered.  The full simulation relation [Rfull] is [Rst] of
    ProofsState together with the coherence [RD] of the data of executor.LocalDB and the remote
    LocalDB with the local map of the specification.  Each operation of executor.LocalDB keeps
    [RD] (Rollback only when nothing is buffered), so the operations of the backend keep
    [Rfull]; the theorems follow for blocks ([sim_block] of ProofsBase) and for operation
    histories on executor.LocalDB (the cheap layer). *)
From Coq Require Import List NArith ZArith Bool.
From C33 Require Import Lib.Harness Lib.Bytes Lib.OMap C11.Model C11.Spec C11.ProofsBase
  C11.ProofsSpec C11.ProofsState.
Import ListNotations.

(** committed view of the remote LocalDB: cache, then maindb *)
Definition rbase (r : rdb) (k : bytes) : option bytes :=
  match get k (r_cache r) with Some v => Some v | None => get k (r_main r) end.

Definition rtx (r : rdb) : cdb := match r_tx r with Some t => t | None => [] end.

(** the writes of the open local transaction: flushed ones and buffered ones *)
Definition pend (x : xdb) : cdb := putall (rtx (x_rem x)) (x_kvs x).

(** what the open transaction sees *)
Definition lview (x : xdb) (k : bytes) : option bytes :=
  match get k (x_tx x) with Some v => Some v | None => rbase (x_rem x) k end.

(** executor.LocalDB against the local map [loc], the instrumentation bit [dirty] and the
    copies [sv] of the specification.  The local map is the open transaction's view
    ([rd_view]); the txcache holds exactly the flushed and the buffered writes ([rd_pend]);
    a cached value, also a cached miss, is the committed remote value ([rd_coh]); the remote
    transaction is begun by the first flush ([rd_hb], [rd_nb]); outside a transaction nothing
    is pending ([rd_out]); the copy taken by Begin is the committed remote view ([rd_saved]). *)
Record RD (x : xdb) (loc : cdb) (dirty : bool) (sv : option (cdb * cdb)) : Prop := {
  rd_smain : sorted (r_main (x_rem x));
  rd_sloc : sorted loc;
  rd_coh : forall k v, get k (x_cache x) = Some v -> nonnil v = norm (rbase (x_rem x) k);
  rd_hb : x_hasbegin x = r_intx (x_rem x);
  rd_nb : x_hasbegin x = false -> rtx (x_rem x) = [];
  rd_dirty : dirty = match x_kvs x with [] => false | _ => true end;
  rd_pend : forall k, get k (pend x) = get k (x_tx x);
  rd_view : forall k, norm (get k loc) = norm (lview x k);
  rd_out : x_intx x = false -> x_kvs x = [] /\ x_hasbegin x = false /\ x_tx x = [];
  rd_saved : forall st0 loc0, sv = Some (st0, loc0) ->
             sorted loc0 /\ forall k, norm (get k loc0) = norm (rbase (x_rem x) k) }.

Definition Rfull (b : bool) (c : cst) (a : ast) : Prop :=
  Rst b c a /\ RD (snd c) (a_loc a) (a_dirty a) (a_saved a).

Lemma RD_frame x ks dr dw loc d sv : RD x loc d sv ->
  RD (mk_xdb (x_cache x) (x_tx x) ks (x_intx x) (x_hasbegin x) (x_kvs x) dr dw (x_rem x)) loc d sv.
Proof. intros []. constructor; assumption. Qed.

Lemma RD_txget x loc d sv k : RD x loc d sv ->
  (if x_intx x then get k (x_tx x) else None) = get k (x_tx x).
Proof.
  intro HD. destruct (x_intx x) eqn:E; [reflexivity|].
  destruct (rd_out _ _ _ _ HD E) as (_ & _ & ->). reflexivity.
Qed.

Lemma nonnil_idem v w : nonnil v = Some w -> nonnil w = Some w.
Proof. unfold nonnil. destruct v; simpl; intro H; inversion H; reflexivity. Qed.

Lemma rdb_get_spec r k :
  (r_intx r = true -> get k (rtx r) = None) ->
  let r' := fst (rdb_get r k) in
  snd (rdb_get r k) = norm (rbase r k) /\
  (forall k', rbase r' k' = rbase r k') /\ r_tx r' = r_tx r /\ r_intx r' = r_intx r /\ r_main r' = r_main r.
Proof.
  intros Hn. unfold rdb_get.
  assert (E : (if r_intx r then match r_tx r with Some t => get k t | None => None end else None) = None).
  { destruct (r_intx r); auto. specialize (Hn eq_refl). unfold rtx in Hn. destruct (r_tx r); auto. }
  rewrite E. unfold rbase at 1.
  destruct (get k (r_cache r)) as [v|] eqn:E2; simpl; [auto|].
  destruct (get k (r_main r)) as [v|] eqn:E3; simpl; [|auto].
  repeat split. intro k'. unfold rbase. simpl. rewrite get_put. destruct (beqb k' k) eqn:Ek; [|reflexivity].
  apply beqb_eq in Ek. subst k'. rewrite E2, E3. reflexivity.
Qed.

Lemma xdb_get_RD x k loc d sv : RD x loc d sv ->
  RD (fst (xdb_get x k)) loc d sv /\
  snd (xdb_get x k) = if x_dr x then ODis else OV (norm (get k loc)).
Proof.
  intros HD. unfold xdb_get. destruct (x_dr x); [split; [exact HD|reflexivity]|].
  rewrite (RD_txget _ _ _ _ k HD). pose proof (rd_view _ _ _ _ HD k) as Hv. unfold lview in Hv.
  destruct (get k (x_tx x)) as [v|] eqn:E1; [split; [exact HD|simpl; rewrite Hv; reflexivity]|].
  destruct (get k (x_cache x)) as [v|] eqn:E2.
  { split; [exact HD|]. simpl. rewrite Hv, (rd_coh _ _ _ _ HD k v E2). reflexivity. }
  assert (Hn : r_intx (x_rem x) = true -> get k (rtx (x_rem x)) = None).
  { intros _. rewrite <- (rd_pend _ _ _ _ HD) in E1. apply get_putall_none in E1. exact E1. }
  destruct (rdb_get_spec (x_rem x) k Hn) as (G1 & G2 & G3 & G4 & G5).
  destruct (rdb_get (x_rem x) k) as [r' res]. simpl in *.
  split; [|rewrite Hv, G1; reflexivity].
  assert (Hrtx : rtx r' = rtx (x_rem x)) by (unfold rtx; rewrite G3; reflexivity).
  destruct HD as [d1 d2 d3 d4 d5 d6 d7 d8 d9 d10]. constructor; simpl; rewrite ?Hrtx; auto; try congruence.
  - intros k' v'. rewrite get_put, G2. destruct (beqb k' k) eqn:Ek; [|apply d3].
    apply beqb_eq in Ek. subst k'. intro Hv'. injection Hv' as <-. rewrite <- G1.
    destruct res as [w|]; [|reflexivity].
    destruct (rbase (x_rem x) k); [|discriminate G1]. exact (nonnil_idem _ _ (eq_sym G1)).
  - intro k'. unfold pend. simpl. rewrite Hrtx. apply d7.
  - intro k'. unfold lview. simpl. rewrite G2. apply d8.
  - intros st0 loc0 E. destruct (d10 _ _ E) as [S0 V0]. split; [exact S0|].
    intro k'. rewrite G2. apply V0.
Qed.

Lemma xdb_set_RD x k v loc d sv : RD x loc d sv -> x_intx x = true ->
  RD (fst (xdb_set x k v)) (if x_dw x then loc else put k v loc) (if x_dw x then d else true) sv.
Proof.
  intros HD Hi. unfold xdb_set. destruct (x_dw x); [exact HD|]. rewrite Hi. simpl.
  destruct HD as [d1 d2 d3 d4 d5 d6 d7 d8 d9 d10]. constructor; simpl; auto.
  - apply put_sorted, d2.
  - destruct (x_kvs x); reflexivity.
  - intro k'. unfold pend. simpl. rewrite putall_app. simpl. rewrite !get_put.
    destruct (beqb k' k); [reflexivity|apply d7].
  - intro k'. unfold lview. simpl. rewrite !get_put. destruct (beqb k' k); [reflexivity|apply d8].
  - discriminate.
Qed.

Lemma rdb_setall_intx : forall kvs r, r_intx r = true ->
  rtx (rdb_setall r kvs) = putall (rtx r) kvs /\ r_cache (rdb_setall r kvs) = r_cache r /\
  r_main (rdb_setall r kvs) = r_main r /\ r_intx (rdb_setall r kvs) = true.
Proof.
  unfold rdb_setall, putall. induction kvs as [|e tl IH]; intros r Hi; simpl; auto.
  assert (Hi' : r_intx (rdb_set r (fst e) (snd e)) = true) by (unfold rdb_set; rewrite Hi; reflexivity).
  destruct (IH _ Hi') as (I1 & I2 & I3 & I4). rewrite I1, I2, I3, I4.
  unfold rdb_set. rewrite Hi. simpl. repeat split; auto.
Qed.

Lemma save_RD x loc d sv : RD x loc d sv -> RD (xdb_save x) loc false sv /\ x_kvs (xdb_save x) = [].
Proof.
  intros HD. unfold xdb_save. destruct (x_kvs x) as [|e kvs] eqn:Ek.
  { split; [|exact Ek]. pose proof (rd_dirty _ _ _ _ HD) as Hd. rewrite Ek in Hd. subst d. exact HD. }
  set (r0 := if x_hasbegin x then x_rem x else rdb_begin (x_rem x)).
  assert (H0 : r_intx r0 = true /\ rtx r0 = rtx (x_rem x) /\ r_cache r0 = r_cache (x_rem x) /\
               r_main r0 = r_main (x_rem x)).
  { unfold r0. destruct (x_hasbegin x) eqn:Eh.
    - rewrite <- (rd_hb _ _ _ _ HD). auto.
    - simpl. rewrite (rd_nb _ _ _ _ HD Eh). auto. }
  destruct H0 as (H1 & H2 & H3 & H4).
  destruct (rdb_setall_intx (e :: kvs) r0 H1) as (S1 & S2 & S3 & S4).
  assert (Hb : forall k, rbase (rdb_setall r0 (e :: kvs)) k = rbase (x_rem x) k).
  { intro k. unfold rbase. rewrite S2, S3, H3, H4. reflexivity. }
  assert (Hp : rtx (rdb_setall r0 (e :: kvs)) = pend x).
  { rewrite S1, H2. unfold pend. rewrite Ek. reflexivity. }
  split; [|reflexivity]. remember (rdb_setall r0 (e :: kvs)) as r1 eqn:Er1. clear Er1.
  destruct HD as [d1 d2 d3 d4 d5 d6 d7 d8 d9 d10]. constructor; simpl; try congruence.
  - intros k v Hv. rewrite Hb. apply d3, Hv.
  - intro k. unfold pend at 1. simpl. rewrite Hp. apply d7.
  - intro k. unfold lview. simpl. rewrite Hb. apply d8.
  - intro Hi. destruct (d9 Hi) as (K & _). congruence.
  - intros st0 loc0 E. destruct (d10 _ _ E) as [S0 V0]. split; [exact S0|].
    intro k. rewrite Hb. apply V0.
Qed.

Lemma get_rdb_view r k :
  get k (rdb_view r) = match get k (rtx r) with Some v => Some v | None => rbase r k end.
Proof. unfold rdb_view, rbase. rewrite !get_merge. reflexivity. Qed.

Lemma rdb_list_flushed x p loc d sv : RD x loc d sv -> x_kvs x = [] ->
  rdb_list (x_rem x) p = list_of loc p.
Proof.
  intros HD Hk. apply list_of_ext.
  - apply merge_sorted, merge_sorted, (rd_smain _ _ _ _ HD).
  - apply (rd_sloc _ _ _ _ HD).
  - intro k. rewrite get_rdb_view. pose proof (rd_pend _ _ _ _ HD k) as Hp. unfold pend in Hp.
    rewrite Hk in Hp. simpl in Hp. rewrite Hp. symmetry. apply (rd_view _ _ _ _ HD).
Qed.

Lemma xdb_list_RD x p loc d sv : RD x loc d sv ->
  RD (fst (xdb_list x p)) loc (if x_dr x then d else false) sv /\
  snd (xdb_list x p) = if x_dr x then ODis else OL (list_of loc p).
Proof.
  intro HD. unfold xdb_list. destruct (x_dr x); [split; [exact HD|reflexivity]|].
  destruct (save_RD _ _ _ _ HD) as [HD' Hk]. simpl. split; [exact HD'|].
  f_equal. apply (rdb_list_flushed _ _ _ _ _ HD' Hk).
Qed.

Lemma xdb_begin_RD x st loc d sv : RD x loc d sv -> x_intx x = false ->
  RD (xdb_begin x) loc false (Some (st, loc)).
Proof.
  intros [d1 d2 d3 d4 d5 d6 d7 d8 d9 d10] Hi. destruct (d9 Hi) as (K1 & K2 & K3).
  assert (E : forall k, norm (get k loc) = norm (rbase (x_rem x) k)).
  { intro k. rewrite d8. unfold lview. rewrite K3. reflexivity. }
  constructor; simpl; auto; try congruence.
  - rewrite K1. reflexivity.
  - intro k. unfold pend. simpl. rewrite K1, (d5 K2). reflexivity.
  - intros st0 loc0 Es. injection Es as _ <-. auto.
Qed.

Definition commit_rem (x : xdb) : rdb := if x_hasbegin x then rdb_commit (x_rem x) else x_rem x.

Lemma xdb_commit_eq x :
  xdb_commit x =
  let x1 := xdb_save x in
  mk_xdb (merge (x_cache x1) (x_tx x1)) [] [] false false (x_kvs x1) (x_dr x1) (x_dw x1) (commit_rem x1).
Proof. unfold xdb_commit, xdb_save. simpl. destruct (x_kvs x) eqn:E; simpl; rewrite ?E; reflexivity. Qed.

Lemma commit_rem_spec x loc d sv : RD x loc d sv -> x_kvs x = [] ->
  let r := commit_rem x in
  r_intx r = false /\ rtx r = [] /\ r_main r = r_main (x_rem x) /\ forall k, rbase r k = lview x k.
Proof.
  intros HD Hk.
  assert (Hp : forall k, get k (x_tx x) = get k (rtx (x_rem x))).
  { intro k. rewrite <- (rd_pend _ _ _ _ HD). unfold pend. rewrite Hk. reflexivity. }
  unfold commit_rem, lview. destruct (x_hasbegin x) eqn:Eh.
  - unfold rdb_commit. unfold rtx in Hp. destruct (r_tx (x_rem x)) as [t|]; simpl; repeat split; auto.
    + intro k. unfold rbase. simpl. rewrite get_merge, Hp. destruct (get k t); reflexivity.
    + intro k. rewrite Hp. reflexivity.
  - pose proof (rd_hb _ _ _ _ HD) as H1. rewrite Eh in H1.
    pose proof (rd_nb _ _ _ _ HD Eh) as H2. repeat split; auto.
    intro k. rewrite Hp, H2. reflexivity.
Qed.

Lemma xdb_commit_RD x loc d sv : RD x loc d sv -> RD (xdb_commit x) loc false None.
Proof.
  intro HD. rewrite xdb_commit_eq. cbv zeta. destruct (save_RD _ _ _ _ HD) as [HD1 Hk].
  revert HD1 Hk. generalize (xdb_save x). clear. intros x HD1 Hk.
  destruct (commit_rem_spec _ _ _ _ HD1 Hk) as (C1 & C2 & C3 & C4).
  destruct HD1 as [d1 d2 d3 d4 d5 d6 d7 d8 d9 d10]. constructor; simpl; auto; try congruence.
  - intros k v. rewrite get_merge, C4. unfold lview.
    destruct (get k (x_tx x)); intro Hv; [injection Hv as <-; reflexivity|apply d3, Hv].
  - intro k. unfold pend. simpl. rewrite C2, Hk. reflexivity.
  - intro k. rewrite d8. unfold lview at 2. simpl. rewrite C4. reflexivity.
Qed.

Lemma xdb_rollback_RD x loc d st0 loc0 : RD x loc d (Some (st0, loc0)) -> x_kvs x = [] ->
  RD (xdb_rollback x) loc0 false None.
Proof.
  intros [d1 d2 d3 d4 d5 d6 d7 d8 d9 d10] Hk. destruct (d10 _ _ eq_refl) as [S0 V0].
  unfold xdb_rollback, xdb_reset. simpl.
  set (r := if x_hasbegin x then rdb_rollback (x_rem x) else x_rem x).
  assert (Hr : r_intx r = false /\ rtx r = [] /\ r_cache r = r_cache (x_rem x) /\ r_main r = r_main (x_rem x)).
  { unfold r. destruct (x_hasbegin x) eqn:Eh; simpl; repeat split; auto. }
  destruct Hr as (R1 & R2 & R3 & R4).
  assert (Hb : forall k, rbase r k = rbase (x_rem x) k).
  { intro k. unfold rbase. rewrite R3, R4. reflexivity. }
  constructor; simpl; auto; try congruence.
  - intros k v Hv. rewrite Hb. apply d3, Hv.
  - rewrite Hk. reflexivity.
  - intro k. unfold pend. simpl. rewrite R2, Hk. reflexivity.
  - intro k. unfold lview. simpl. rewrite Hb. apply V0.
Qed.

Lemma sim_sget b c a k : Rfull b c a ->
  Rfull b (fst (b_sget conc c k)) (fst (b_sget abs a k)) /\
  snd (b_sget conc c k) = snd (b_sget abs a k).
Proof.
  intros [HT HD]. destruct (st_sget b c a k HT) as [HT' Hv]. split; [split; [exact HT'|]|exact Hv].
  destruct c as [s x]. simpl. destruct (sdb_get s k). exact HD.
Qed.

Lemma sim_sset b c a k v : Rfull b c a -> Rfull b (b_sset conc c k v) (b_sset abs a k v).
Proof. intros [HT HD]. split; [apply st_sset, HT|exact HD]. Qed.

Lemma sim_lget b c a k : Rfull b c a ->
  Rfull b (fst (b_lget conc c k)) (fst (b_lget abs a k)) /\
  snd (b_lget conc c k) = snd (b_lget abs a k).
Proof.
  intros [HT HD]. destruct (st_lget b c a k HT) as [HT' _]. destruct HT as [_ HX].
  destruct c as [s x]. simpl in *. injection HX as _ _ X3 _.
  destruct (xdb_get_RD x k _ _ _ HD) as [HD' Hv]. destruct (xdb_get x k) as [x' o]. simpl in *.
  split; [split; [exact HT'|exact HD']|rewrite Hv, X3; reflexivity].
Qed.

Lemma sim_lset c a k v : Rfull true c a ->
  Rfull true (fst (b_lset conc c k v)) (fst (b_lset abs a k v)) /\
  snd (b_lset conc c k v) = snd (b_lset abs a k v).
Proof.
  intros [HT HD]. destruct (st_lset c a k v HT) as [HT' Hv]. split; [split; [exact HT'|]|exact Hv].
  destruct HT as [_ HX]. destruct c as [s x]. simpl in *. injection HX as X1 _ _ X4.
  pose proof (xdb_set_RD x k v _ _ _ HD X1) as HD'. rewrite X4 in HD'.
  destruct (xdb_set x k v) as [x' ok]. destruct (a_dw a); exact HD'.
Qed.

Lemma sim_llist b c a p : Rfull b c a ->
  Rfull b (fst (b_llist conc c p)) (fst (b_llist abs a p)) /\
  snd (b_llist conc c p) = snd (b_llist abs a p).
Proof.
  intros [HT HD]. destruct (st_llist b c a p HT) as [HT' _]. destruct HT as [_ HX].
  destruct c as [s x]. simpl in *. injection HX as _ _ X3 _.
  destruct (xdb_list_RD x p _ _ _ HD) as [HD' Hv]. rewrite X3 in HD', Hv.
  destruct (xdb_list x p) as [x' o]. simpl in *.
  destruct (a_dr a); (split; [split; [exact HT'|exact HD']|exact Hv]).
Qed.

Lemma sim_begin c a : Rfull false c a -> Rfull true (b_begin conc c) (b_begin abs a).
Proof.
  intros [HT HD]. split; [apply st_begin, HT|]. destruct HT as [_ HX]. injection HX as X1 _ _ _.
  exact (xdb_begin_RD _ _ _ _ _ HD X1).
Qed.

Lemma sim_commit c a : Rfull true c a -> Rfull false (b_commit conc c) (b_commit abs a).
Proof. intros [HT HD]. split; [apply st_commit, HT|exact (xdb_commit_RD _ _ _ _ HD)]. Qed.

Lemma sim_rollback c a : Rfull true c a -> b_rb_ok conc c = true ->
  Rfull false (b_rollback conc c) (b_rollback abs a).
Proof.
  intros [HT HD] G. split; [apply st_rollback, HT|]. destruct HT as [HS _].
  pose proof (rs_aintx _ _ _ _ _ HS) as Hi. destruct c as [s x]. simpl in *.
  destruct (a_saved a) as [[st0 loc0]|]; [|discriminate Hi].
  apply (xdb_rollback_RD _ _ _ _ _ HD). destruct (x_kvs x); [reflexivity|discriminate G].
Qed.

Lemma sim_rbok c a : Rfull true c a -> b_rb_ok conc c = b_rb_ok abs a.
Proof.
  intros [_ HD]. simpl. rewrite (rd_dirty _ _ _ _ HD). destruct (x_kvs (snd c)); reflexivity.
Qed.

Lemma sim_starttx b c a : Rfull b c a -> Rfull b (b_starttx conc c) (b_starttx abs a).
Proof. intros [HT HD]. split; [apply st_starttx, HT|apply RD_frame, HD]. Qed.

Lemma sim_enter b c a st : Rfull b c a -> Rfull b (b_enter conc c st) (b_enter abs a st).
Proof. intros [HT HD]. split; [apply st_enter, HT|apply RD_frame, HD]. Qed.

Lemma sim_leave b c a st : Rfull b c a -> Rfull b (b_leave conc c st) (b_leave abs a st).
Proof. intros [HT HD]. split; [apply st_leave, HT|apply RD_frame, HD]. Qed.

Lemma sim_init store main : sorted main -> Rfull false (conc_init store main) (abs_init store main).
Proof.
  intro Sm. split; [apply st_init|]. constructor; simpl; auto; discriminate.
Qed.

Lemma Forall2_Forall2_eq {A} (l1 l2 : list (list A)) : Forall2 (Forall2 eq) l1 l2 -> l1 = l2.
Proof.
  induction 1 as [|u1 u2 l1 l2 H _ IH]; [reflexivity|]. f_equal; [|exact IH].
  induction H; subst; reflexivity.
Qed.

Lemma sim_block_full store main blk : sorted main ->
  let p := exec_block conc (conc_init store main) blk in
  let q := exec_block abs (abs_init store main) blk in
  snd p = snd q /\ (snd p = true -> snd (fst (fst p)) = snd (fst (fst q)) /\ snd (fst p) = snd (fst q)).
Proof.
  intro Sm.
  destruct (sim_block conc abs Rfull eq true (fun o => eq_refl)
    sim_sget sim_sset (fun b c a H => st_skeys b c a (proj1 H))
    sim_lget sim_llist sim_lset (fun b c a H => st_lkeys b c a (proj1 H))
    sim_begin sim_commit (fun c a H G => sim_rollback c a H (G eq_refl)) (fun _ => sim_rbok)
    sim_starttx sim_enter sim_leave blk _ _ (sim_init store main Sm)) as [HG H].
  split; [exact (HG eq_refl)|].
  intro G. destruct (H (fun _ => G)) as [[_ H2] H3]. split; [apply Forall2_Forall2_eq, H2|exact H3].
Qed.

(** the guard can be read off the specification's run as well (instrumentation bit [a_dirty]) *)
Definition spec_guard (store main : cdb) (blk : list item) : bool :=
  let '(_, _, _, g) := exec_block abs (abs_init store main) blk in g.

Lemma spec_guard_eq store main blk :
  spec_guard store main blk = snd (exec_block abs (abs_init store main) blk).
Proof. unfold spec_guard. destruct (exec_block abs (abs_init store main) blk) as [[[a t] r] g]. reflexivity. Qed.

Lemma model_guard_eq : forall store main blk trs rcs g,
  sorted main -> run_model store main blk = (trs, rcs, g) -> g = spec_guard store main blk.
Proof.
  intros store main blk trs rcs g Sm. rewrite run_model_eq, spec_guard_eq. intro E. injection E as _ _ <-.
  apply (sim_block_full store main blk Sm).
Qed.

Theorem model_refines_spec : forall store main blk trs rcs,
  sorted main ->
  run_model store main blk = (trs, rcs, true) ->
  run_spec store main blk = (trs, rcs).
Proof.
  intros store main blk trs rcs Sm. rewrite run_model_eq, run_spec_eq. intro E. injection E as <- <- G.
  destruct (sim_block_full store main blk Sm) as [_ H]. destruct (H G) as [-> ->]. reflexivity.
Qed.

Lemma spec_replace_run store main blk trs rcs :
  run_spec store main blk = (trs, rcs) ->
  run_spec store main (replace_failed (abs_init store main) blk) = (erase_failed rcs trs, rcs) /\
  spec_guard store main (replace_failed (abs_init store main) blk) = true.
Proof.
  unfold run_spec, spec_guard. pose proof (spec_replace_block blk (abs_init store main)) as H.
  destruct (exec_block abs (abs_init store main) blk) as [[[a1 t1] r1] g1].
  rewrite H. intro E. injection E as <- <-. split; reflexivity.
Qed.

Theorem failed_equiv_fee_only : forall store main blk trs rcs,
  sorted main ->
  run_model store main blk = (trs, rcs, true) ->
  run_model store main (replace_failed (abs_init store main) blk) = (erase_failed rcs trs, rcs, true).
Proof.
  intros store main blk trs rcs Sm E1.
  apply (model_refines_spec _ _ _ _ _ Sm) in E1.
  destruct (spec_replace_run _ _ _ _ _ E1) as [S2 G2].
  destruct (run_model store main (replace_failed (abs_init store main) blk)) as [[t2 r2] g2] eqn:E2.
  pose proof (model_guard_eq _ _ _ _ _ _ Sm E2) as HG. rewrite G2 in HG. subst g2.
  apply (model_refines_spec _ _ _ _ _ Sm) in E2. rewrite S2 in E2. injection E2 as <- <-. reflexivity.
Qed.

Theorem state_failed_equiv_fee_only : forall store main blk trs rcs g trs' rcs' g',
  run_model store main blk = (trs, rcs, g) ->
  run_model store main (replace_failed (abs_init store main) blk) = (trs', rcs', g') ->
  rcs' = rcs /\ map (map mask) trs' = map (map mask) (erase_failed rcs trs).
Proof.
  intros store main blk trs rcs g trs' rcs' g' E1 E2.
  destruct (run_spec store main blk) as [st sr] eqn:S1.
  destruct (state_refines_spec _ _ _ _ _ _ _ _ E1 S1) as [R1 M1].
  destruct (spec_replace_run _ _ _ _ _ S1) as [S2 _].
  destruct (state_refines_spec _ _ _ _ _ _ _ _ E2 S2) as [R2 M2].
  subst. split; [reflexivity|]. rewrite M2. clear -M1.
  revert trs st M1. induction sr as [|r sr IH]; intros [|t trs] [|u st] M; simpl in *;
    try discriminate; auto.
  injection M as M0 M. destruct (rc_ty r =? ExecPack)%N; simpl; f_equal; auto.
Qed.

Lemma xdb_run_cons x o tl :
  snd (xdb_run x (o :: tl)) = snd (xdb_step x o) :: snd (xdb_run (fst (xdb_step x o)) tl).
Proof. simpl. destruct (xdb_step x o) as [x1 r]. simpl. destruct (xdb_run x1 tl). reflexivity. Qed.

Lemma abs_run_cons a o tl :
  snd (abs_run a (o :: tl)) = snd (abs_step a o) :: snd (abs_run (fst (abs_step a o)) tl).
Proof. simpl. destruct (abs_step a o) as [a1 r]. simpl. destruct (abs_run a1 tl). reflexivity. Qed.

(** One operation of a history.  The history runs on an executor.LocalDB alone; it is followed
    here on the second component of a state [c] of the block-level backend, so that the
    [sim_*] lemmas apply. *)
Lemma step_sim b c a o tl : Rfull b c a -> bracketed b (o :: tl) = true ->
  (match o, x_kvs (snd c) with XRollback, _ :: _ => false | _, _ => true end) = true ->
  exists b' c', Rfull b' c' (fst (abs_step a o)) /\ snd c' = fst (xdb_step (snd c) o) /\
                bracketed b' tl = true /\ snd (xdb_step (snd c) o) = snd (abs_step a o).
Proof.
  intros HR HB Hk. destruct o; cbn [bracketed] in HB; try apply andb_prop in HB.
  - destruct b; [destruct HB; discriminate|]. exists true, (b_begin conc c).
    split; [apply sim_begin, HR|repeat split; apply HB].
  - destruct b; [|destruct HB; discriminate]. exists false, (b_commit conc c).
    split; [apply sim_commit, HR|repeat split; apply HB].
  - destruct b; [|destruct HB; discriminate]. exists false, (b_rollback conc c).
    split; [|repeat split; apply HB]. apply sim_rollback; [exact HR|]. simpl. destruct (x_kvs (snd c)); auto.
  - destruct b; [|destruct HB; discriminate]. exists true, (fst (b_lset conc c k v)).
    split; [apply sim_lset, HR|]. split; [|split; [apply HB|reflexivity]].
    simpl. destruct (xdb_set (snd c) k v); reflexivity.
  - exists b, (fst (b_lget conc c k)). destruct (sim_lget b c a k HR) as [H1 H2].
    split; [exact H1|]. simpl in *. destruct (xdb_get (snd c) k). simpl in *. subst. auto.
  - exists b, (fst (b_llist conc c p)). destruct (sim_llist b c a p HR) as [H1 H2].
    cbn [abs_step]. destruct (b_llist abs a p) as [a1 r].
    split; [exact H1|]. simpl in *. destruct (xdb_list (snd c) p). simpl in *. subst. auto.
Qed.

Lemma ops_sim : forall ops b c a, Rfull b c a ->
  bracketed b ops = true -> xdb_guard (snd c) ops = true ->
  snd (xdb_run (snd c) ops) = snd (abs_run a ops).
Proof.
  induction ops as [|o tl IH]; intros b c a HR HB HG; [reflexivity|].
  cbn [xdb_guard] in HG. apply andb_prop in HG. destruct HG as [Hk HG].
  destruct (step_sim b c a o tl HR HB Hk) as (b' & c' & H1 & E & HB' & Ho).
  rewrite xdb_run_cons, abs_run_cons, Ho, <- E. f_equal. rewrite <- E in HG. exact (IH b' c' _ H1 HB' HG).
Qed.

Theorem localdb_ops_refine : forall main ops,
  sorted main -> bracketed false ops = true -> xdb_guard (xdb_new main) ops = true ->
  run_xops main ops = spec_xops main ops.
Proof.
  intros main ops Sm HB HG.
  exact (ops_sim ops false (conc_init [] main) (abs_init [] main) (sim_init [] main Sm) HB HG).
Qed.
