(** C11 — what the proofs of this directory share: facts about the map operations of the
    model, the execution of a transaction or group as one run of members
    ([single_as_group], [exec_group_members]), and the lifting of an operation-wise simulation
    between two backends through the block interpreter ([sim_block]). *)
From Coq Require Import List NArith ZArith Bool.
From C33 Require Import Lib.Harness Lib.Bytes Lib.OMap C11.Model.
Import ListNotations.

Lemma get_merge : forall (t c : cdb) k,
  get k (merge c t) = match get k t with Some v => Some v | None => get k c end.
Proof.
  induction t as [|[k' v'] tl IH]; intros c k; simpl; auto.
  rewrite get_put. destruct (beqb k k'); auto.
Qed.

Lemma merge_sorted : forall (t c : cdb), sorted c -> sorted (merge c t).
Proof.
  induction t as [|[k' v'] tl IH]; intros c S; simpl; auto. apply put_sorted. auto.
Qed.

Definition putall (m : cdb) (kvs : list kv) : cdb :=
  fold_left (fun m e => put (fst e) (snd e) m) kvs m.

Lemma putall_app m kvs e : putall m (kvs ++ [e]) = put (fst e) (snd e) (putall m kvs).
Proof. unfold putall. rewrite fold_left_app. reflexivity. Qed.

Lemma get_putall_none : forall kvs m k, get k (putall m kvs) = None -> get k m = None.
Proof.
  unfold putall. induction kvs as [|e tl IH]; intros m k H; simpl in *; auto.
  apply IH in H. rewrite get_put in H. match type of H with context [if ?c then _ else _] => destruct c end; [discriminate H|auto].
Qed.

Lemma nonnil_norm v : nonnil v = norm (Some v).
Proof. reflexivity. Qed.

Lemma get_filter {V} (f : list N * V -> bool) : forall (m : list (list N * V)) k, sorted m ->
  get k (filter f m) = match get k m with Some v => if f (k, v) then Some v else None | None => None end.
Proof.
  induction m as [|[k' v'] tl IH]; intros k S; simpl; auto.
  destruct S as [L S]. simpl in L.
  destruct (beqb k k') eqn:E.
  - apply beqb_eq in E. subst k'. destruct (f (k, v')) eqn:F; simpl.
    + rewrite beqb_refl. reflexivity.
    + rewrite IH by auto. rewrite (get_lb_none k tl L). reflexivity.
  - destruct (f (k', v')); simpl; [rewrite E|]; apply IH; auto.
Qed.

Definition live (m : cdb) : cdb := filter (fun e => negb (isnil (snd e))) m.

Lemma filter_and {A} (f g : A -> bool) : forall l,
  filter (fun e => f e && g e) l = filter f (filter g l).
Proof.
  induction l as [|x l IH]; simpl; auto.
  destruct (g x); simpl; destruct (f x); simpl; rewrite ?IH; auto.
Qed.

Lemma list_of_live m p : list_of m p = map snd (filter (fun e => is_prefix p (fst e)) (live m)).
Proof. unfold list_of, live. rewrite filter_and. reflexivity. Qed.

Lemma get_live m k : sorted m -> get k (live m) = norm (get k m).
Proof.
  intro S. unfold live. rewrite get_filter by auto. destruct (get k m) as [v|]; simpl; auto.
  unfold nonnil. destruct (isnil v); reflexivity.
Qed.

Lemma list_of_ext m1 m2 p : sorted m1 -> sorted m2 ->
  (forall k, norm (get k m1) = norm (get k m2)) -> list_of m1 p = list_of m2 p.
Proof.
  intros S1 S2 H. rewrite !list_of_live. f_equal. f_equal.
  apply sorted_ext; try (apply sorted_filter; assumption).
  intro k. rewrite !get_live by auto. apply H.
Qed.

Lemma single_as_group {S} (B : backend S) s t : exec_item B s (ISingle t) = exec_group B s [t].
Proof.
  unfold exec_item, exec_tx, exec_group. destruct (exec_fee B s t) as [s1 [fl|]]; [|reflexivity].
  destruct (exec_tx_one B (b_begin B s1) fl t) as [[[s3 tr] rc] []]; reflexivity.
Qed.

(** execTxGroup runs its members in a row; the first one carries the fee receipt [fl], and
    when a later one fails it is [fl] that the first one gets back *)
Fixpoint exec_members {S} (B : backend S) (s : S) (fl : receipt) (ts : list tx)
  : S * list (list obs) * list receipt * bool :=
  match ts with
  | [] => (s, [], [], true)
  | t :: tl =>
      let '(s1, tr, rc, ok) := exec_tx_one B s fl t in
      if ok then
        let '(s2, trs, rcs, ok2) := exec_members B s1 pack_empty tl in
        (s2, tr :: trs, (if ok2 then rc else fl) :: rcs, ok2)
      else (s1, tr :: map (fun _ => []) tl, rc :: map (fun _ => pack_empty) tl, false)
  end.

Lemma exec_rest_members {S} (B : backend S) : forall ts s,
  exec_rest B s ts = exec_members B s pack_empty ts.
Proof.
  induction ts as [|t tl IH]; intro s; simpl; [reflexivity|].
  destruct (exec_tx_one B s pack_empty t) as [[[s1 tr] rc] []]; [rewrite IH|]; reflexivity.
Qed.

Lemma exec_group_members {S} (B : backend S) s t0 rest :
  exec_group B s (t0 :: rest) =
  match exec_fee B s t0 with
  | (s1, None) => (s1, map (fun _ => []) (t0 :: rest), map (fun _ => err_receipt) (t0 :: rest), true)
  | (s1, Some fl) =>
      let '(s4, trs, rcs, ok) := exec_members B (b_begin B s1) fl (t0 :: rest) in
      if ok then (b_commit B s4, trs, rcs, true) else (b_rollback B s4, trs, rcs, b_rb_ok B s4)
  end.
Proof.
  unfold exec_group. destruct (exec_fee B s t0) as [s1 [fl|]]; [|reflexivity]. simpl.
  destruct (exec_tx_one B (b_begin B s1) fl t0) as [[[s3 tr0] rc0] []]; [|reflexivity].
  rewrite exec_rest_members.
  destruct (exec_members B s3 pack_empty rest) as [[[s4 trs] rcs] []]; reflexivity.
Qed.

(** The interpreter preserves any operation-wise simulation between two backends.
    [R b c a]: the two database states are related, [b] tells whether a transaction is
    open.  [OR] relates observations.  [need_guard]: whether the simulation of Rollback
    needs the implementation-side guard [b_rb_ok]. *)
Section Gen.
Context {S1 S2 : Type} (B1 : backend S1) (B2 : backend S2).
Variable R : bool -> S1 -> S2 -> Prop.
Variable OR : obs -> obs -> Prop.
Variable need_guard : bool.

(** Results are compared componentwise: related states, related reads ([rel]), equal values.
    Through projections, because destructing both runs in a goal that holds the rest of the
    interpreter is slow to check. *)
Definition sim2 {V} (rel : V -> V -> Prop) b (p : S1 * V) (q : S2 * V) : Prop :=
  R b (fst p) (fst q) /\ rel (snd p) (snd q).
Definition sim3 {T V} (rel : T -> T -> Prop) b (p : S1 * T * V) (q : S2 * T * V) : Prop :=
  sim2 rel b (fst p) (fst q) /\ snd p = snd q.
Definition sim4 {T V W} (rel : T -> T -> Prop) b (p : S1 * T * V * W) (q : S2 * T * V * W) : Prop :=
  sim3 rel b (fst p) (fst q) /\ snd p = snd q.

Definition TR := Forall2 OR.
Definition TRS := Forall2 TR.

Lemma bind2 {V X1 X2} rel b (Q : X1 -> X2 -> Prop) {p : S1 * V} {q : S2 * V} {k1 k2} :
  sim2 rel b p q -> (forall c a v w, R b c a -> rel v w -> Q (k1 c v) (k2 a w)) ->
  Q (let '(c, v) := p in k1 c v) (let '(a, w) := q in k2 a w).
Proof. destruct p, q. intros [H1 H2] H. apply H; assumption. Qed.

Lemma bind3 {T V X1 X2} rel b (Q : X1 -> X2 -> Prop) {p : S1 * T * V} {q : S2 * T * V} {k1 k2} :
  sim3 rel b p q -> (forall c a t u v, R b c a -> rel t u -> Q (k1 c t v) (k2 a u v)) ->
  Q (let '(c, t, v) := p in k1 c t v) (let '(a, u, v) := q in k2 a u v).
Proof. destruct p as [[]], q as [[]]. intros [[H1 H2] H3] H. simpl in H3. subst. apply H; assumption. Qed.

Lemma bind4 {T V W X1 X2} rel b (Q : X1 -> X2 -> Prop) {p : S1 * T * V * W} {q : S2 * T * V * W} {k1 k2} :
  sim4 rel b p q -> (forall c a t u v w, R b c a -> rel t u -> Q (k1 c t v w) (k2 a u v w)) ->
  Q (let '(c, t, v, w) := p in k1 c t v w) (let '(a, u, v, w) := q in k2 a u v w).
Proof.
  destruct p as [[[]]], q as [[[]]]. intros [[[H1 H2] H3] H4] H. simpl in H3, H4. subst. apply H; assumption.
Qed.

Lemma sim3_post {X Y} (g : X -> Y) o1 o2 b (p : S1 * list obs * X) (q : S2 * list obs * X) :
  TR o1 o2 -> sim3 TR b p q ->
  sim3 TR b (let '(s, tr, r) := p in (s, o1 ++ tr, g r)) (let '(s, tr, r) := q in (s, o2 ++ tr, g r)).
Proof.
  destruct p as [[c t1] r1], q as [[a t2] r2]. intros HO [[H1 H2] H3]. simpl in *. subst r2.
  repeat split; trivial. apply Forall2_app; trivial.
Qed.

Lemma sim3_stop {X} b c a (r : X) : R b c a -> sim3 TR b (c, [], r) (a, [], r).
Proof. repeat split; trivial. constructor. Qed.

Lemma TRS_nils {X} (l : list X) : TRS (map (fun _ => []) l) (map (fun _ => []) l).
Proof. induction l; simpl; constructor; trivial. constructor. Qed.

Definition guard_ok (g : bool) : Prop := need_guard = true -> g = true.

Definition simg (p : S1 * list (list obs) * list receipt * bool)
                (q : S2 * list (list obs) * list receipt * bool) : Prop :=
  (need_guard = true -> snd p = snd q) /\ (guard_ok (snd p) -> sim3 TRS false (fst p) (fst q)).

Lemma simg_done c a t1 t2 (rcs : list receipt) : R false c a -> TRS t1 t2 ->
  simg (c, t1, rcs, true) (a, t2, rcs, true).
Proof. repeat split; trivial. Qed.

Lemma simg_seq p q (k1 : S1 -> S1 * list (list obs) * list receipt * bool)
                   (k2 : S2 -> S2 * list (list obs) * list receipt * bool) :
  simg p q -> (forall c a, R false c a -> simg (k1 c) (k2 a)) ->
  simg (let '(c1, t1, r1, g1) := p in let '(c2, t2, r2, g2) := k1 c1 in (c2, t1 ++ t2, r1 ++ r2, g1 && g2))
       (let '(a1, t1, r1, g1) := q in let '(a2, t2, r2, g2) := k2 a1 in (a2, t1 ++ t2, r1 ++ r2, g1 && g2)).
Proof.
  destruct p as [[[c1 t1] r1] g1], q as [[[a1 u1] s1] h1]. intros [HG H] K. cbn [fst snd] in HG, H.
  assert (K' : guard_ok g1 -> simg (k1 c1) (k2 a1) /\ TRS t1 u1 /\ r1 = s1).
  { intro G. destruct (H G) as [[H1 H2] H3]. split; [apply K, H1|split; [exact H2|exact H3]]. }
  destruct (k1 c1) as [[[c2 t2] r2] g2], (k2 a1) as [[[a2 u2] s2] h2]. split; cbn [fst snd].
  - intro N. rewrite <- (HG N). destruct g1; [|reflexivity].
    destruct (K' (fun _ => eq_refl)) as [[KG _] _]. apply (f_equal (andb true)), KG, N.
  - intro G.
    assert (G12 : guard_ok g1 /\ guard_ok g2) by (split; intro N; destruct (andb_prop _ _ (G N)); assumption).
    destruct (K' (proj1 G12)) as ([_ K2] & HT & ->). destruct (K2 (proj2 G12)) as [[I1 I2] I3].
    cbn [fst snd] in I1, I2, I3. subst s2. repeat split; trivial. apply Forall2_app; trivial.
Qed.

Hypothesis OR_S : forall o, OR (OS o) (OS o).
Hypothesis H_sget : forall b c a k, R b c a -> sim2 eq b (b_sget B1 c k) (b_sget B2 a k).
Hypothesis H_sset : forall b c a k v, R b c a -> R b (b_sset B1 c k v) (b_sset B2 a k v).
Hypothesis H_skeys : forall b c a, R b c a -> b_skeys B1 c = b_skeys B2 a.
Hypothesis H_lget : forall b c a k, R b c a -> sim2 OR b (b_lget B1 c k) (b_lget B2 a k).
Hypothesis H_llist : forall b c a k, R b c a -> sim2 OR b (b_llist B1 c k) (b_llist B2 a k).
Hypothesis H_lset : forall c a k v, R true c a -> sim2 eq true (b_lset B1 c k v) (b_lset B2 a k v).
Hypothesis H_lkeys : forall b c a, R b c a -> b_lkeys B1 c = b_lkeys B2 a.
Hypothesis H_begin : forall c a, R false c a -> R true (b_begin B1 c) (b_begin B2 a).
Hypothesis H_commit : forall c a, R true c a -> R false (b_commit B1 c) (b_commit B2 a).
Hypothesis H_rollback : forall c a, R true c a ->
  (need_guard = true -> b_rb_ok B1 c = true) -> R false (b_rollback B1 c) (b_rollback B2 a).
Hypothesis H_rbok : need_guard = true -> forall c a, R true c a -> b_rb_ok B1 c = b_rb_ok B2 a.
Hypothesis H_starttx : forall b c a, R b c a -> R b (b_starttx B1 c) (b_starttx B2 a).
Hypothesis H_enter : forall b c a st, R b c a -> R b (b_enter B1 c st) (b_enter B2 a st).
Hypothesis H_leave : forall b c a st, R b c a -> R b (b_leave B1 c st) (b_leave B2 a st).

Lemma sim_sops : forall ops c a, R true c a -> sim3 TR true (run_sops B1 c ops) (run_sops B2 a ops).
Proof.
  induction ops as [|o tl IH]; intros c a HR; [apply sim3_stop, HR|].
  destruct o; cbn [run_sops]; try (apply sim3_stop, HR).
  - apply (sim3_post _ [] []), IH, H_sset, HR. constructor.
  - apply IH, H_sset, HR.
  - apply (sim3_post _ [] []), IH, HR. constructor.
  - apply (bind2 eq true (sim3 TR true) (H_sget _ c a k HR)). intros c1 a1 v ? H1 <-.
    apply (sim3_post (fun r => r) [_] [_]), IH, H1. repeat constructor. apply OR_S.
  - apply (bind2 OR true (sim3 TR true) (H_lget _ c a k HR)). intros c1 a1 v w H1 HO.
    apply (sim3_post (fun r => r) [v] [w]), IH, H1. repeat constructor. exact HO.
  - apply (bind2 OR true (sim3 TR true) (H_llist _ c a p HR)). intros c1 a1 v w H1 HO.
    apply (sim3_post (fun r => r) [v] [w]), IH, H1. repeat constructor. exact HO.
  - apply (bind2 eq true (sim3 TR true) (H_lset c a k v HR)). intros c1 a1 ok ? H1 <-.
    destruct ok; [apply IH, H1|apply sim3_stop, H1].
Qed.

Lemma sim_lops : forall ops c a, R true c a -> sim3 TR true (run_lops B1 c ops) (run_lops B2 a ops).
Proof.
  induction ops as [|o tl IH]; intros c a HR; [apply sim3_stop, HR|].
  destruct o; cbn [run_lops]; try (apply sim3_stop, HR).
  - apply (bind2 eq true (sim3 TR true) (H_lset c a k v HR)). intros c1 a1 ok ? H1 <-.
    destruct ok; [|apply sim3_stop, H1]. apply (sim3_post _ [] []), IH, H1. constructor.
  - apply (bind2 eq true (sim3 TR true) (H_lset c a k v HR)). intros c1 a1 ok ? H1 <-.
    destruct ok; [apply IH, H1|apply sim3_stop, H1].
  - apply (sim3_post _ [] []), IH, HR. constructor.
  - apply (bind2 OR true (sim3 TR true) (H_lget _ c a k HR)). intros c1 a1 v w H1 HO.
    apply (sim3_post (fun r => r) [v] [w]), IH, H1. repeat constructor. exact HO.
  - apply (bind2 OR true (sim3 TR true) (H_llist _ c a p HR)). intros c1 a1 v w H1 HO.
    apply (sim3_post (fun r => r) [v] [w]), IH, H1. repeat constructor. exact HO.
Qed.

Lemma sim_lset_all : forall kvs c a, R true c a -> R true (lset_all B1 c kvs) (lset_all B2 a kvs).
Proof.
  unfold lset_all. induction kvs as [|e tl IH]; intros c a HR; simpl; auto.
  apply IH. apply H_lset, HR.
Qed.

Lemma sim_sset_all : forall kvs b c a, R b c a -> R b (sset_all B1 c kvs) (sset_all B2 a kvs).
Proof.
  unfold sset_all. induction kvs as [|e tl IH]; intros b c a HR; simpl; auto.
Qed.

Lemma sim_local_tx lo c a : R true c a ->
  sim3 TR true (exec_local_tx B1 c lo) (exec_local_tx B2 a lo).
Proof.
  intros HR. apply (bind3 TR true (sim3 TR true) (sim_lops lo c a HR)). intros c1 a1 t1 t2 r H1 H2.
  destruct r as [kvs|]; [|repeat split; trivial].
  rewrite (H_lkeys _ _ _ H1). destruct (subset_keys (b_lkeys B2 a1) kvs); repeat split; trivial.
  apply sim_lset_all, H1.
Qed.

Lemma sim_load_account b c a addr : R b c a ->
  sim2 eq b (load_account B1 c addr) (load_account B2 a addr).
Proof.
  intros HR. apply (bind2 eq b (sim2 eq b) (H_sget _ c a (acc_key addr) HR)).
  intros c1 a1 v ? H1 <-. split; trivial.
Qed.

Lemma sim_coins b c a from to amt : R b c a ->
  sim2 eq b (coins_transfer B1 c from to amt) (coins_transfer B2 a from to amt).
Proof.
  intros HR. unfold coins_transfer.
  destruct (amt <? 1)%Z; [split; trivial|].
  apply (bind2 eq b (sim2 eq b) (sim_load_account b c a from HR)). intros c1 a1 bf ? H1 <-.
  apply (bind2 eq b (sim2 eq b) (sim_load_account b _ _ to H1)). intros c2 a2 bt ? H2 <-.
  destruct (beqb from to); [split; trivial|].
  destruct (_ >=? 0)%Z; split; trivial. apply H_sset, H_sset, H2.
Qed.

Lemma sim_body t c a : R true c a -> sim3 TR true (exec_body B1 c t) (exec_body B2 a t).
Proof.
  intros HR. unfold exec_body.
  pose proof (H_enter _ _ _ (same_time (t_body t)) HR) as HE.
  destruct (t_body t) as [drv ex lo|to amt].
  - apply (bind3 TR true (sim3 TR true) (sim_sops ex _ _ HE)). intros c1 a1 t1 t2 r H1 H2.
    repeat split; trivial. apply H_leave, H1.
  - apply (bind2 eq true (sim3 TR true) (sim_coins _ _ _ (t_from t) to amt HE)).
    intros c1 a1 r ? H1 <-. apply sim3_stop, H_leave, H1.
Qed.

Lemma sim_tx_one t fl c a : R true c a ->
  sim4 TR true (exec_tx_one B1 c fl t) (exec_tx_one B2 a fl t).
Proof.
  intros HR.
  apply (bind3 TR true (sim4 TR true) (sim_body t _ _ (H_starttx _ _ _ HR))). intros c1 a1 t1 t2 r H1 H2.
  destruct r as [[kvs logs]|]; [|repeat split; trivial].
  rewrite (H_skeys _ _ _ H1).
  destruct (negb (subset_keys (b_skeys B2 a1) kvs)); [repeat split; trivial|].
  destruct (negb (forallb (fun e => allowed (t_body t) (fst e)) kvs)); [repeat split; trivial|].
  eapply (bind3 TR true (sim4 TR true)).
  { destruct (same_time (t_body t)); [apply sim_local_tx, H1|apply sim3_stop, H1]. }
  intros c2 a2 u1 u2 okl L1 L2. pose proof (Forall2_app H2 L2).
  destruct (negb okl); repeat split; simpl; auto using sim_sset_all.
Qed.

Lemma sim_fee t b c a : R b c a -> sim2 eq b (exec_fee B1 c t) (exec_fee B2 a t).
Proof.
  intros HR. apply (bind2 eq b (sim2 eq b) (sim_load_account b c a (t_from t) HR)).
  intros c1 a1 bal ? H1 <-. destruct (_ >=? 0)%Z; split; trivial. apply H_sset, H1.
Qed.

Lemma sim_members : forall ts fl c a, R true c a ->
  sim4 TRS true (exec_members B1 c fl ts) (exec_members B2 a fl ts).
Proof.
  induction ts as [|t tl IH]; intros fl c a HR; simpl; [repeat split; trivial; constructor|].
  apply (bind4 TR true (sim4 TRS true) (sim_tx_one t fl _ _ HR)). intros c1 a1 t1 t2 rc ok H1 H2.
  destruct ok; [|repeat split; trivial; constructor; [exact H2|apply TRS_nils]].
  apply (bind4 TRS true (sim4 TRS true) (IH pack_empty _ _ H1)). intros c2 a2 u1 u2 rcs ok H3 H4.
  repeat split; trivial. constructor; trivial.
Qed.

Lemma simg_rollback c a t1 t2 (rcs : list receipt) : R true c a -> TRS t1 t2 ->
  simg (b_rollback B1 c, t1, rcs, b_rb_ok B1 c) (b_rollback B2 a, t2, rcs, b_rb_ok B2 a).
Proof.
  intros HR HT. split; [intro N; apply (H_rbok N _ _ HR)|]. intro G. repeat split; trivial.
  apply H_rollback; [exact HR|exact G].
Qed.

Lemma sim_group ts c a : R false c a -> simg (exec_group B1 c ts) (exec_group B2 a ts).
Proof.
  intros HR. destruct ts as [|t0 rest]; [apply simg_done; [exact HR|constructor]|].
  rewrite !exec_group_members.
  apply (bind2 eq false simg (sim_fee t0 _ c a HR)). intros c1 a1 f ? H1 <-.
  destruct f as [fl|]; [|apply simg_done; [exact H1|apply (TRS_nils (t0 :: rest))]].
  apply (bind4 TRS true simg (sim_members _ fl _ _ (H_begin _ _ H1))). intros c2 a2 t1 t2 rcs ok H2 HT.
  destruct ok; [apply simg_done; [apply H_commit, H2|exact HT]|apply simg_rollback; assumption].
Qed.

Lemma sim_item it c a : R false c a -> simg (exec_item B1 c it) (exec_item B2 a it).
Proof. destruct it as [t|ts]; [rewrite !single_as_group|]; apply sim_group. Qed.

Theorem sim_block : forall blk c a, R false c a -> simg (exec_block B1 c blk) (exec_block B2 a blk).
Proof.
  induction blk as [|it tl IH]; intros c a HR; cbn [exec_block]; [apply simg_done; [exact HR|constructor]|].
  apply simg_seq; [apply sim_item, HR|exact IH].
Qed.

End Gen.
