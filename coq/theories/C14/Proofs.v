(** C14 — a failed coins transfer, connected and removed. *)
From Coq Require Import String List NArith ZArith Bool Lia.
From C33 Require Import Lib.Harness Lib.Bytes Lib.OMap C14.Model C14.Spec C14.ProofsMain.
Import ListNotations.
Open Scope Z_scope.

Definition all_on : cfg := mkCfg true true true true true true.
Definition node_cfg : cfg := mkCfg true true true false true true.

Definition w_addr : list N := bs "1Aqq"%string.
(** one failed self-transfer of 5 (receipt ExecPack) on an empty local DB.  ExecDelLocal skips a
    failed transaction; a Coins.ExecLocal that did not look at the receipt would add the 5 on
    connect and leave them behind on removal (system/dapp/coins/executor/exec_local.go tests the
    receipt first). *)
Definition w_tx : tx := mkTx (bs "hash-of-tx-0001"%string) w_addr w_addr 100000 1 (bs "coins"%string) KTransfer 5.
Definition w_blk : blk := mkBlk 1 1 (bs "B1"%string) (bs "B0"%string) [w_tx] (bs "S1"%string) None [].

Lemma fresh_empty c b : fresh c [] b = true.
Proof. unfold fresh. apply forallb_forall. reflexivity. Qed.

(** the connect is evaluated; the removal exists because mvcc is off, and restores the local DB
    by the general theorem *)
Lemma failed_transfer_no_local_effect : exists kA kD,
  exec_add node_cfg [] w_blk = Some kA /\ exec_del node_cfg (write_all kA []) w_blk = Some kD /\
  all_local_ok w_blk = false /\
  get (coins_key w_addr) (write_all kA []) = None /\
  get (tx_key (t_hash w_tx)) (write_all kA []) <> None /\
  obs_eq (write_all kD (write_all kA [])) [].
Proof.
  assert (H : match exec_add node_cfg [] w_blk with
              | Some kA => negb (mem (coins_key w_addr) (write_all kA []))
                           && mem (tx_key (t_hash w_tx)) (write_all kA [])
              | None => false
              end = true) by (vm_compute; reflexivity).
  destruct (exec_add node_cfg [] w_blk) as [kA|] eqn:EA; [|discriminate].
  destruct (del_total_without_mvcc node_cfg (write_all kA []) w_blk eq_refl) as [kD ED].
  apply andb_true_iff in H as [H1 H2]. unfold mem in H1, H2.
  exists kA, kD. split; [reflexivity|]. split; [exact ED|]. split; [reflexivity|].
  split; [destruct (get (coins_key w_addr) _); [discriminate|reflexivity]|].
  split; [destruct (get (tx_key _) _); discriminate|].
  apply (del_after_add_obs_id node_cfg [] w_blk kA kD); [exact I|reflexivity|apply fresh_empty|exact EA|exact ED].
Qed.
