(** C14 — no query can tell a local DB from its normal form, hence observational equality
    restores every query answer; a run that meets the hypotheses. *)
From Coq Require Import String List NArith ZArith Bool Lia.
From C33 Require Import Lib.Harness Lib.Bytes Lib.OMap C14.Model C14.Spec
     C14.ProofsPlugins C14.ProofsMain.
Import ListNotations.
Open Scope Z_scope.

Definition same_answers (m1 m2 : db) : Prop :=
  (forall h, q_tx m1 h = q_tx m2 h) /\
  (forall a, q_addr_txs m1 a = q_addr_txs m2 a) /\
  (forall a f, q_addr_dir_txs m1 a f = q_addr_dir_txs m2 a f) /\
  (forall a, q_addr_fees m1 a = q_addr_fees m2 a) /\
  (forall a, q_addr_count m1 a = q_addr_count m2 a) /\
  (forall a, q_coins_recv m1 a = q_coins_recv m2 a) /\
  (forall bh, q_total_fee m1 bh = q_total_fee m2 bh) /\
  q_mvcc_entries m1 = q_mvcc_entries m2.

Lemma filter_filter_imp {A} (f g : A -> bool) l :
  (forall x, f x = true -> g x = true) -> filter f (filter g l) = filter f l.
Proof.
  intro H. induction l as [|x l IH]; simpl; [reflexivity|].
  destruct (g x) eqn:G; simpl.
  - rewrite IH. reflexivity.
  - destruct (f x) eqn:F; [|exact IH]. apply H in F. congruence.
Qed.

Lemma get_norm_plain k m : sorted m -> plain k = true -> get k (norm m) = get k m.
Proof.
  intros S P. rewrite get_norm by exact S. destruct (get k m); [|reflexivity].
  rewrite keep_plain by exact P. reflexivity.
Qed.

Lemma entries_norm p q m : other_prefix p -> is_prefix p q = true ->
  entries_with q (norm m) = entries_with q m.
Proof.
  intros O Hq. unfold entries_with, norm. apply filter_filter_imp.
  intros [k v] E. cbn [fst] in E. apply keep_plain, (other_prefix_plain p); [exact O|].
  eapply is_prefix_trans; eassumption.
Qed.

Lemma q_count_norm m k : sorted m -> is_counter_key k = true -> q_count (norm m) k = q_count m k.
Proof.
  intros S C. unfold q_count. rewrite get_norm by exact S.
  destruct (get k m) as [v|]; [|reflexivity].
  unfold keep. cbn [fst snd]. rewrite C, (counter_not_keylist k C). cbn [negb andb].
  destruct v as [| | | |[]| | | |]; reflexivity.
Qed.

Lemma queries_invariant m : sorted m -> same_answers (norm m) m.
Proof.
  intro S. repeat split.
  - intro h. apply get_norm_plain; [exact S|].
    apply (other_prefix_plain P_tx); [apply op_tx|apply pre_tx].
  - intro a. apply (entries_norm P_addr); [apply op_addr|apply is_prefix_app].
  - intros a f. apply (entries_norm P_dir); [apply op_dir|apply is_prefix_app].
  - intro a. apply (entries_norm P_feedir); [apply op_feedir|apply is_prefix_app].
  - intro a. apply q_count_norm; [exact S|apply count_key_counter].
  - intro a. apply q_count_norm; [exact S|apply coins_key_counter].
  - intro bh. apply get_norm_plain; [exact S|apply total_key_plain].
  - unfold q_mvcc_entries, norm. apply filter_filter_imp. intros [k v] E. cbn [fst] in E.
    apply andb_true_iff in E as [E1 E2]. apply keep_plain. unfold plain.
    rewrite E2, (mvcc_not_counter k E1). reflexivity.
Qed.

Lemma obs_eq_queries m1 m2 : sorted m1 -> sorted m2 -> obs_eq m1 m2 -> same_answers m1 m2.
Proof.
  intros S1 S2 E. pose proof (queries_invariant m1 S1) as A. pose proof (queries_invariant m2 S2) as B.
  unfold obs_eq in E. rewrite E in A.
  destruct A as [A1 [A2 [A3 [A4 [A5 [A6 [A7 A8]]]]]]], B as [B1 [B2 [B3 [B4 [B5 [B6 [B7 B8]]]]]]].
  repeat split; intros; congruence.
Qed.

Lemma del_after_add_queries c m b kA kD :
  sorted m -> counters_wf m = true -> fresh c m b = true ->
  exec_add c m b = Some kA -> exec_del c (write_all kA m) b = Some kD ->
  same_answers (write_all kD (write_all kA m)) m.
Proof.
  intros S W F EA ED. apply obs_eq_queries.
  - apply write_all_sorted, write_all_sorted, S.
  - exact S.
  - eapply del_after_add_obs_id; eassumption.
Qed.

Lemma index_entries_exact c m b kA kD :
  sorted m -> fresh c m b = true ->
  exec_add c m b = Some kA -> exec_del c (write_all kA m) b = Some kD ->
  forall k, plain k = true -> get k (write_all kD (write_all kA m)) = get k m.
Proof. apply plain_restore. Qed.

Lemma addr_counts_restored c m b kA kD :
  sorted m -> counters_wf m = true ->
  exec_add c m b = Some kA -> exec_del c (write_all kA m) b = Some kD ->
  forall a, q_addr_count (write_all kD (write_all kA m)) a = q_addr_count m a.
Proof.
  intros S W EA ED a. apply reads_q_count, (counter_restore c m b kA kD S W EA ED), count_key_counter.
Qed.

(** * non-vacuity: every plugin on, a block at height 1 on top of a non-empty local DB with a
      transfer between two addresses that already have counters, a transaction without local
      effect, a failed transfer (receipt ExecPack), and state writes *)
Definition ex_cfg : cfg := mkCfg true true true true true true.
Definition ex_S0 : list N := bs "state-hash-0"%string.
Definition ex_S1 : list N := bs "state-hash-1"%string.
Definition ex_A : list N := bs "1AddrA"%string.
Definition ex_B : list N := bs "1AddrB"%string.
Definition ex_m : db :=
  write_all [(count_key ex_A, Some (VInt 3)); (coins_key ex_B, Some (VInt 40));
             (hash_key ex_S0, Some (VInt 0)); (ver_key 0, Some (VRaw ex_S0));
             (total_key (bs "B0"%string), Some (VTotal 0 1));
             (kl_key 0, Some (VKeys []))] [].
Definition ex_b : blk :=
  mkBlk 1 100 (bs "B1"%string) (bs "B0"%string)
        [mkTx (bs "txhash-000001"%string) ex_A ex_B 100000 2 (bs "coins"%string) KTransfer 7;
         mkTx (bs "txhash-000002"%string) ex_B ex_B 100000 2 (bs "none"%string) KNoLocal 0;
         mkTx (bs "txhash-000003"%string) ex_B ex_A 100000 1 (bs "coins"%string) KTransfer 9]
        ex_S1 (Some ex_S0) [(bs "mavl-coins-bty-A"%string, Some (bs "acc"%string)); (bs "k2"%string, None)].

(** one evaluation of the run; the key list of version 1 is what stays behind *)
Lemma main_hyps_satisfiable : exists kA kD,
  sorted ex_m /\ counters_wf ex_m = true /\ fresh ex_cfg ex_m ex_b = true /\
  exec_add ex_cfg ex_m ex_b = Some kA /\ exec_del ex_cfg (write_all kA ex_m) ex_b = Some kD /\
  all_local_ok ex_b = false /\ (length kA > 10)%nat /\ write_all kA ex_m <> ex_m /\
  write_all kD (write_all kA ex_m) <> ex_m.
Proof.
  assert (H : match exec_add ex_cfg ex_m ex_b with
              | Some kA =>
                  let m1 := write_all kA ex_m in
                  match exec_del ex_cfg m1 ex_b with
                  | Some kD =>
                      (10 <? length kA)%nat && mem (kl_key 1) m1 && mem (kl_key 1) (write_all kD m1)
                      && negb (mem (kl_key 1) ex_m)
                  | None => false
                  end
              | None => false
              end = true) by (vm_compute; reflexivity).
  cbv zeta in H.
  destruct (exec_add ex_cfg ex_m ex_b) as [kA|]; [|discriminate].
  destruct (exec_del ex_cfg (write_all kA ex_m) ex_b) as [kD|] eqn:ED; [|discriminate].
  apply andb_true_iff in H as [H H0]. apply andb_true_iff in H as [H H2]. apply andb_true_iff in H as [HL H1].
  apply negb_true_iff in H0.
  exists kA, kD. split; [apply write_all_sorted; exact I|]. do 3 (split; [reflexivity|]).
  split; [exact ED|]. split; [reflexivity|].
  split; [apply Nat.ltb_lt, HL|].
  split; intro E; rewrite E in *; congruence.
Qed.
