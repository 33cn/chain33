(** C14 — what the plugins write.  First without naming a plugin: KV lists applied to an
    ordered map, the normaliser, a removal list against the add list it undoes, and scripts
    (what a plugin that keeps counters through the executor's cached view does, as a list of
    puts and counter bumps).  Then the plugins one by one: which class of keys each list
    writes, that its removal list deletes exactly the index entries its add list wrote, and
    the scripts that addrindex and the coins executor play. *)
From Coq Require Import String List NArith ZArith Bool Lia.
From C33 Require Import Lib.Harness Lib.Bytes Lib.OMap C14.Model C14.Spec.
Import ListNotations.
Open Scope Z_scope.

Lemma write_kv_sorted m kv : sorted m -> sorted (write_kv m kv).
Proof. intro S. unfold write_kv. destruct (snd kv); [apply put_sorted|apply del_sorted]; exact S. Qed.

Lemma write_all_sorted l : forall m, sorted m -> sorted (write_all l m).
Proof.
  induction l as [|kv l IH]; intros m S; simpl; [exact S|].
  apply IH, write_kv_sorted, S.
Qed.

Lemma write_all_app a b m : write_all (a ++ b) m = write_all b (write_all a m).
Proof. unfold write_all. apply fold_left_app. Qed.

Lemma get_write_kv k m kv : sorted m ->
  get k (write_kv m kv) = if beqb k (fst kv) then snd kv else get k m.
Proof.
  intro S. unfold write_kv. destruct kv as [k' [v|]]; simpl.
  - apply get_put.
  - apply get_del, S.
Qed.

Lemma get_write_all_untouched k l : forall m, sorted m -> ~ In k (map fst l) ->
  get k (write_all l m) = get k m.
Proof.
  induction l as [|kv l IH]; intros m S T; simpl; [reflexivity|].
  rewrite IH by (auto using write_kv_sorted; intro I; apply T; right; exact I).
  rewrite get_write_kv by exact S.
  destruct (beqb k (fst kv)) eqn:E; [|reflexivity].
  apply beqb_eq in E. destruct T. left. symmetry. exact E.
Qed.

Lemma get_write_all_deleted k l : forall m, sorted m -> In k (map fst l) ->
  (forall kv, In kv l -> fst kv = k -> snd kv = None) ->
  get k (write_all l m) = None.
Proof.
  induction l as [|kv l IH]; intros m S T H; simpl in *; [destruct T|].
  destruct (in_dec bytes_eq_dec k (map fst l)) as [Tl|Tl].
  - apply IH; auto using write_kv_sorted.
  - rewrite get_write_all_untouched by (auto using write_kv_sorted).
    destruct T as [T|T]; [|contradiction].
    rewrite get_write_kv by exact S. rewrite <- T, beqb_refl. auto.
Qed.

Lemma get_write_all_one k w m : sorted m -> get k (write_all [(k, w)] m) = w.
Proof. intro S. unfold write_all. simpl. rewrite get_write_kv by exact S. simpl. rewrite beqb_refl. reflexivity. Qed.

Definition keys_in (P : list N -> bool) (l : list kvw) : Prop := Forall (fun kv => P (fst kv) = true) l.

Lemma keys_in_untouched P l k : keys_in P l -> P k = false -> ~ In k (map fst l).
Proof.
  intros K F I. apply in_map_iff in I as [kv [E I]].
  unfold keys_in in K. rewrite Forall_forall in K. apply K in I. congruence.
Qed.

Lemma keys_in_impl (P Q : list N -> bool) l : (forall k, P k = true -> Q k = true) -> keys_in P l -> keys_in Q l.
Proof. intro H. apply Forall_impl. intro kv. apply H. Qed.

Lemma is_prefix_comparable p q k :
  is_prefix p k = true -> is_prefix q k = true -> is_prefix p q = true \/ is_prefix q p = true.
Proof.
  revert q k; induction p as [|x p IH]; intros q k Hp Hq; [left; reflexivity|].
  destruct q as [|y q]; [right; reflexivity|].
  destruct k as [|z k]; simpl in *; [discriminate|].
  apply andb_true_iff in Hp as [E1 Hp], Hq as [E2 Hq].
  apply N.eqb_eq in E1, E2. subst. rewrite N.eqb_refl. apply (IH q k Hp Hq).
Qed.

Lemma prefix_disjoint p q k :
  is_prefix p q = false -> is_prefix q p = false -> is_prefix p k = true -> is_prefix q k = false.
Proof.
  intros A B Hp. destruct (is_prefix q k) eqn:Hq; [|reflexivity].
  destruct (is_prefix_comparable p q k Hp Hq); congruence.
Qed.

Lemma get_filter (f : list N * val -> bool) k : forall m, sorted m ->
  get k (filter f m) = match get k m with Some v => if f (k, v) then Some v else None | None => None end.
Proof.
  induction m as [|[k' v'] m IH]; intro S; simpl; [reflexivity|].
  destruct S as [L S].
  destruct (beqb k k') eqn:E.
  - apply beqb_eq in E. subst k'. destruct (f (k, v')) eqn:F; simpl.
    + rewrite beqb_refl. reflexivity.
    + rewrite IH by exact S. rewrite get_lb_none by exact L. reflexivity.
  - destruct (f (k', v')); simpl; [rewrite E|]; apply IH, S.
Qed.

Lemma get_norm k m : sorted m ->
  get k (norm m) = match get k m with Some v => if keep (k, v) then Some v else None | None => None end.
Proof. apply get_filter. Qed.

Lemma norm_sorted m : sorted m -> sorted (norm m).
Proof. apply sorted_filter. Qed.

Lemma keep_plain k v : plain k = true -> keep (k, v) = true.
Proof.
  unfold plain, keep. simpl. intro P. apply andb_true_iff in P as [P1 P2].
  rewrite P1. apply negb_true_iff in P2. rewrite P2. reflexivity.
Qed.

Lemma plain_not_counter k : plain k = true -> is_counter_key k = false.
Proof. unfold plain. intro P. apply andb_true_iff in P as [_ P]. apply negb_true_iff, P. Qed.

Definition quiet (l : list kvw) : Prop := keys_in (fun k => negb (is_counter_key k)) l.

Lemma plain_quiet l : keys_in plain l -> quiet l.
Proof. apply keys_in_impl. intros k P. rewrite (plain_not_counter k P). reflexivity. Qed.

(** a removal list [lD] against the add list [lA] it undoes; both speak of the index entries
    proper only, since counters are bumped back and key lists stay *)
Definition clears (K : list (list N)) (lD : list kvw) : Prop :=
  forall kv, In kv lD -> plain (fst kv) = true -> snd kv = None /\ In (fst kv) K.
Definition covers (lD lA : list kvw) : Prop :=
  forall kv, In kv lA -> plain (fst kv) = true -> In (fst kv) (map fst lD).

Lemma clears_app K a d : clears K a -> clears K d -> clears K (a ++ d).
Proof. intros A D kv I. apply in_app_or in I as [I|I]; auto. Qed.
Lemma clears_nil K : clears K [].
Proof. intros kv []. Qed.
Lemma clears_all K l : (forall kv, In kv l -> snd kv = None /\ In (fst kv) K) -> clears K l.
Proof. intros H kv I _. apply H, I. Qed.
Lemma clears_incl K K' l : incl K K' -> clears K l -> clears K' l.
Proof. intros H C kv I P. destruct (C kv I P). auto. Qed.

Lemma covers_app d d' a a' : covers d a -> covers d' a' -> covers (d ++ d') (a ++ a').
Proof.
  intros X Y kv I P. rewrite map_app. apply in_or_app.
  apply in_app_or in I as [I|I]; [left; apply X|right; apply Y]; auto.
Qed.
Lemma covers_nil d : covers d [].
Proof. intros kv []. Qed.
Lemma covers_same_keys lD lA : map fst lA = map fst lD -> covers lD lA.
Proof. intros E kv I _. rewrite <- E. apply in_map, I. Qed.

(** a key the removal list touches was new and is deleted; one it does not touch was not
    written by the add list either *)
Lemma undo_plain K lA lD m : sorted m -> (forall k, In k K -> get k m = None) ->
  clears K lD -> covers lD lA ->
  forall k, plain k = true -> get k (write_all lD (write_all lA m)) = get k m.
Proof.
  intros S F CD CA k P. destruct (in_dec bytes_eq_dec k (map fst lD)) as [T|T].
  - assert (T' := T). apply in_map_iff in T' as [kv [<- I]].
    rewrite (F _ (proj2 (CD kv I P))).
    apply get_write_all_deleted; [apply write_all_sorted, S|exact T|].
    intros kv' I' E. rewrite <- E in P. apply (CD kv' I' P).
  - rewrite !get_write_all_untouched; auto using write_all_sorted.
    intro TA. apply in_map_iff in TA as [kv [<- I]]. apply T, (CA kv I P).
Qed.

Definition reads (m : db) (k : list N) (z : Z) : Prop :=
  get k m = Some (VInt z) \/ (get k m = None /\ z = 0).

Lemma reads_q_count m k z : reads m k z -> q_count m k = z.
Proof. unfold q_count. intros [->|[-> ->]]; reflexivity. Qed.

Lemma counters_wf_reads m k : counters_wf m = true -> is_counter_key k = true -> reads m k (q_count m k).
Proof.
  intros W C. unfold reads, q_count. destruct (get k m) as [v|] eqn:E; [|right; auto].
  apply get_Some_In in E. unfold counters_wf in W. rewrite forallb_forall in W.
  specialize (W _ E). simpl in W. rewrite C in W. destruct v; try discriminate. left. reflexivity.
Qed.

Lemma obs_eq_by_class m1 m2 : sorted m1 -> sorted m2 ->
  (forall k, plain k = true -> get k m1 = get k m2) ->
  (forall k, is_counter_key k = true -> exists z, reads m1 k z /\ reads m2 k z) ->
  obs_eq m1 m2.
Proof.
  intros S1 S2 HP HC. unfold obs_eq. apply sorted_ext; auto using norm_sorted.
  intro k. rewrite !get_norm by assumption.
  destruct (is_prefix P_mkl k) eqn:K.
  { unfold keep. destruct (get k m1), (get k m2); cbn [fst snd]; rewrite ?K; reflexivity. }
  destruct (is_counter_key k) eqn:C.
  - destruct (HC k C) as [z [R1 R2]]. unfold keep. cbn [fst snd]. rewrite K, C.
    destruct R1 as [->|[-> ?]], R2 as [->|[-> ?]]; subst; reflexivity.
  - rewrite HP by (unfold plain; rewrite K, C; reflexivity). reflexivity.
Qed.

(** A plugin that keeps counters works on a view of the local DB (the committed map with the
    cached Sets applied): it emits index entries without looking, and bumps counters by
    reading the view, setting the new value there and emitting it.  [play] runs such a
    script; the model's addrindex and coins functions are instances. *)
Inductive item := Put (kv : kvw) | Bump (k : list N) (d : Z).

Fixpoint play (s : list item) (vw : db) : db * list kvw :=
  match s with
  | [] => (vw, [])
  | Put kv :: r => (fst (play r vw), kv :: snd (play r vw))
  | Bump k d :: r =>
      let b := bump k d vw in
      (fst (play r (fst b)), snd b ++ snd (play r (fst b)))
  end.

Lemma play_app a b : forall vw,
  play (a ++ b) vw =
    (fst (play b (fst (play a vw))), snd (play a vw) ++ snd (play b (fst (play a vw)))).
Proof.
  induction a as [|[kv|k d] a IH]; intro vw; simpl.
  - destruct (play b vw). reflexivity.
  - rewrite IH. reflexivity.
  - rewrite IH. simpl. rewrite app_assoc. reflexivity.
Qed.

Definition item_ok (it : item) : Prop :=
  match it with
  | Put kv => is_counter_key (fst kv) = false
  | Bump k _ => is_counter_key k = true
  end.
Definition script_ok (s : list item) : Prop := Forall item_ok s.

Definition puts (s : list item) : list kvw :=
  flat_map (fun it => match it with Put kv => [kv] | Bump _ _ => [] end) s.

Lemma puts_app a b : puts (a ++ b) = puts a ++ puts b.
Proof. apply flat_map_app. Qed.

Fixpoint isum (k : list N) (s : list item) : Z :=
  match s with
  | [] => 0
  | Put _ :: r => isum k r
  | Bump k' d :: r => (if beqb k k' then d else 0) + isum k r
  end.

Lemma isum_app k a b : isum k (a ++ b) = isum k a + isum k b.
Proof. induction a as [|[kv|k' d] a IH]; simpl; rewrite ?IH; lia. Qed.

Lemma bump_shape k d vw :
  bump k d vw = (vw, []) \/ exists z, bump k d vw = (put k (VInt z) vw, [(k, Some (VInt z))]).
Proof. unfold bump. destruct (cnt vw k); eauto. Qed.

Lemma bump_reads k d vw z : reads vw k z ->
  bump k d vw = (put k (VInt (z + d)) vw, [(k, Some (VInt (z + d)))]).
Proof. unfold bump, cnt. intros [->|[-> ->]]; reflexivity. Qed.

Lemma play_frame k s : script_ok s -> is_counter_key k = false ->
  forall vw, get k (fst (play s vw)) = get k vw.
Proof.
  intros O C. induction O as [|[kv|k' d] s I _ IH]; intro vw; simpl; [reflexivity|apply IH|].
  rewrite IH. destruct (bump_shape k' d vw) as [->|[z ->]]; [reflexivity|]. simpl. rewrite get_put.
  destruct (beqb k k') eqn:B; [|reflexivity]. apply beqb_eq in B. simpl in I. congruence.
Qed.

Lemma play_puts s : script_ok s -> forall vw,
  filter (fun kv => negb (is_counter_key (fst kv))) (snd (play s vw)) = puts s.
Proof.
  intro O. induction O as [|[kv|k d] s I _ IH]; intro vw; simpl in *; [reflexivity| |].
  - rewrite I, IH. reflexivity.
  - rewrite filter_app, IH. destruct (bump_shape k d vw) as [->|[z ->]]; simpl; rewrite ?I; reflexivity.
Qed.

Lemma play_entry s vw kv : script_ok s -> is_counter_key (fst kv) = false ->
  In kv (snd (play s vw)) <-> In kv (puts s).
Proof.
  intros O C. rewrite <- (play_puts s O vw), filter_In, C. tauto.
Qed.

(** [m0] is the map the emitted lists are written to, [vw] the view the plugin reads *)
Definition Agree (f : list N -> Z) (m0 vw : db) : Prop :=
  sorted m0 /\ forall k, is_counter_key k = true -> get k m0 = get k vw /\ reads vw k (f k).

Lemma agree_ext f g m0 vw : (forall k, f k = g k) -> Agree f m0 vw -> Agree g m0 vw.
Proof. intros E [S H]. split; [exact S|]. intros k C. rewrite <- E. apply H, C. Qed.

Lemma agree_refl m : sorted m -> counters_wf m = true -> Agree (q_count m) m m.
Proof. intros S W. split; [exact S|]. intros k C. split; [reflexivity|]. apply counters_wf_reads; assumption. Qed.

Lemma agree_reads f m0 vw k : Agree f m0 vw -> is_counter_key k = true -> reads m0 k (f k).
Proof. intros [_ H] C. destruct (H k C) as [E R]. unfold reads. rewrite E. exact R. Qed.

(** the next plugin takes the map as its view *)
Lemma agree_self f m0 vw : Agree f m0 vw -> Agree f m0 m0.
Proof.
  intro A. split; [apply A|]. intros k C. split; [reflexivity|]. eapply agree_reads; eassumption.
Qed.

Lemma agree_quiet f l m0 vw : quiet l -> Agree f m0 vw ->
  Agree f (write_all l m0) vw.
Proof.
  intros K [S H]. split; [apply write_all_sorted, S|]. intros k C. destruct (H k C) as [E R].
  split; [|exact R]. rewrite get_write_all_untouched; [exact E|exact S|].
  apply (keys_in_untouched _ _ _ K). rewrite C. reflexivity.
Qed.

Lemma agree_bump f m0 vw k0 d : Agree f m0 vw ->
  Agree (fun k => f k + (if beqb k k0 then d else 0))
        (put k0 (VInt (f k0 + d)) m0) (put k0 (VInt (f k0 + d)) vw).
Proof.
  intros [S H]. split; [apply put_sorted, S|]. intros k C. destruct (H k C) as [E R].
  unfold reads. rewrite !get_put. destruct (beqb k k0) eqn:B.
  - apply beqb_eq in B. subst k0. auto.
  - rewrite Z.add_0_r. auto.
Qed.

Lemma agree_play s : script_ok s -> forall f m0 vw, Agree f m0 vw ->
  Agree (fun k => f k + isum k s) (write_all (snd (play s vw)) m0) (fst (play s vw)).
Proof.
  intro O. induction O as [|[kv|k0 d] s I _ IH]; intros f m0 vw A; simpl in *.
  - revert A. apply agree_ext. intro k. lia.
  - apply IH, (agree_quiet f [kv]); [|exact A]. constructor; [|constructor]. simpl. rewrite I. reflexivity.
  - rewrite (bump_reads k0 d vw (f k0)) by (apply A, I). simpl.
    eapply agree_ext; [|apply IH, agree_bump, A]. intro k. simpl. lia.
Qed.

Lemma clears_play K s vw : script_ok s -> clears K (puts s) -> clears K (snd (play s vw)).
Proof.
  intros O C kv I P. apply C; [|exact P]. apply (play_entry s vw kv O); [apply plain_not_counter, P|exact I].
Qed.

Lemma covers_play sD sA vwD vwA : script_ok sD -> script_ok sA -> covers (puts sD) (puts sA) ->
  covers (snd (play sD vwD)) (snd (play sA vwA)).
Proof.
  intros OD OA C kv I P. pose proof (plain_not_counter _ P) as N.
  apply (play_entry sA vwA kv OA N) in I. apply (C kv I) in P as X.
  apply in_map_iff in X as [kv' [E I']]. rewrite <- E. apply in_map.
  apply (play_entry sD vwD kv' OD); [rewrite E; exact N|exact I'].
Qed.

Lemma count_key_counter a : is_counter_key (count_key a) = true.
Proof. unfold is_counter_key, count_key. rewrite is_prefix_app. reflexivity. Qed.
Lemma coins_key_counter a : is_counter_key (coins_key a) = true.
Proof. unfold is_counter_key, coins_key. rewrite is_prefix_app. apply orb_true_r. Qed.

Lemma counter_not_keylist k : is_counter_key k = true -> is_prefix P_mkl k = false.
Proof.
  unfold is_counter_key. intro C. apply orb_true_iff in C as [C|C];
    [apply (prefix_disjoint P_count)|apply (prefix_disjoint P_coins)]; auto.
Qed.

(** a key under prefix [p] where [p] is incomparable with the counter and key-list prefixes *)
Definition other_prefix (p : list N) : Prop :=
  (is_prefix p P_count = false /\ is_prefix P_count p = false) /\
  (is_prefix p P_coins = false /\ is_prefix P_coins p = false) /\
  (is_prefix p P_mkl = false /\ is_prefix P_mkl p = false).

Lemma other_prefix_plain p k : other_prefix p -> is_prefix p k = true -> plain k = true.
Proof.
  intros [[A1 A2] [[B1 B2] [C1 C2]]] H. unfold plain, is_counter_key.
  rewrite (prefix_disjoint p P_count k A1 A2 H), (prefix_disjoint p P_coins k B1 B2 H),
    (prefix_disjoint p P_mkl k C1 C2 H). reflexivity.
Qed.

Lemma op_feedir : other_prefix P_feedir. Proof. repeat split; reflexivity. Qed.
Lemma op_dir : other_prefix P_dir. Proof. repeat split; reflexivity. Qed.
Lemma op_addr : other_prefix P_addr. Proof. repeat split; reflexivity. Qed.
Lemma op_tx : other_prefix P_tx. Proof. repeat split; reflexivity. Qed.
Lemma op_stx : other_prefix P_stx. Proof. repeat split; reflexivity. Qed.
Lemma op_total : other_prefix P_total. Proof. repeat split; reflexivity. Qed.
Lemma op_data : other_prefix P_data. Proof. repeat split; reflexivity. Qed.
Lemma op_mver : other_prefix P_mver. Proof. repeat split; reflexivity. Qed.

Lemma pre_feedir a pos : is_prefix P_feedir (feedir_key a pos) = true. Proof. apply is_prefix_app. Qed.
Lemma pre_dir a f pos : is_prefix P_dir (dir_key a f pos) = true. Proof. apply is_prefix_app. Qed.
Lemma pre_addr a pos : is_prefix P_addr (addr_key a pos) = true. Proof. apply is_prefix_app. Qed.
Lemma pre_tx h : is_prefix P_tx (tx_key h) = true. Proof. apply is_prefix_app. Qed.
Lemma pre_stx h : is_prefix P_stx (stx_key h) = true. Proof. apply is_prefix_app. Qed.
Lemma pre_total h : is_prefix P_total (total_key h) = true. Proof. apply is_prefix_app. Qed.
Lemma pre_data k v : is_prefix P_data (gkey k v) = true. Proof. apply is_prefix_app. Qed.
Lemma pre_mver v : is_prefix P_mver (ver_key v) = true. Proof. apply is_prefix_app. Qed.

Lemma in_tx_keys_tail c h i t txs k : In k (tx_keys c h (i + 1) txs) -> In k (tx_keys c h i (t :: txs)).
Proof. intro H. simpl. repeat (apply in_or_app; right). exact H. Qed.

Lemma addrfee_plain add h txs : forall i, keys_in plain (addrfee_txs add h i txs).
Proof.
  induction txs as [|t txs IH]; intro i; simpl; [constructor|].
  apply Forall_app. split; [|apply IH].
  destruct (nonempty (t_from t)); constructor; [|constructor].
  apply (other_prefix_plain P_feedir); [apply op_feedir|apply pre_feedir].
Qed.

Lemma addrfee_clears c h txs : c_addrfee c = true -> forall i,
  clears (tx_keys c h i txs) (addrfee_txs false h i txs).
Proof.
  intro E. induction txs as [|t txs IH]; intro i; [apply clears_nil|].
  apply clears_app.
  - apply clears_all. destruct (nonempty (t_from t)) eqn:N; [|intros kv []]. intros kv [<-|[]].
    split; [reflexivity|]. simpl. rewrite E, N. left. reflexivity.
  - eapply clears_incl, IH. intro k. apply in_tx_keys_tail.
Qed.

Lemma addrfee_same_keys h txs : forall i,
  map fst (addrfee_txs true h i txs) = map fst (addrfee_txs false h i txs).
Proof.
  induction txs as [|t txs IH]; intro i; simpl; [reflexivity|].
  rewrite !map_app, IH. destruct (nonempty (t_from t)); reflexivity.
Qed.

Lemma txindex_plain add h bt txs : forall i, keys_in plain (txindex_txs add h bt i txs).
Proof.
  induction txs as [|t txs IH]; intro i; simpl; [constructor|].
  constructor; [|constructor; [|apply IH]].
  - apply (other_prefix_plain P_tx); [apply op_tx|apply pre_tx].
  - apply (other_prefix_plain P_stx); [apply op_stx|apply pre_stx].
Qed.

Lemma txindex_clears c h bt txs : c_txindex c = true -> forall i,
  clears (tx_keys c h i txs) (txindex_txs false h bt i txs).
Proof.
  intro E. induction txs as [|t txs IH]; intro i; [apply clears_nil|].
  apply (clears_app _ [_; _]).
  - apply clears_all. intros kv I. split; [destruct I as [<-|[<-|[]]]; reflexivity|].
    simpl. rewrite E. do 3 (apply in_or_app; right). apply in_or_app. left.
    destruct I as [<-|[<-|[]]]; simpl; auto.
  - eapply clears_incl, IH. intro k. apply in_tx_keys_tail.
Qed.

Lemma txindex_same_keys h bt txs : forall i,
  map fst (txindex_txs true h bt i txs) = map fst (txindex_txs false h bt i txs).
Proof.
  induction txs as [|t txs IH]; intro i; simpl; [reflexivity|]. rewrite IH. reflexivity.
Qed.

Lemma fee_add_inv vw b l : fee_add vw b = Some l -> exists v, l = [(total_key (b_hash b), Some v)].
Proof.
  unfold fee_add. destruct (get (total_key (b_parent b)) vw) as [[]|]; try discriminate;
    intro H; inversion H; eauto.
Qed.

Lemma total_key_plain bh : plain (total_key bh) = true.
Proof. apply (other_prefix_plain P_total); [apply op_total|apply pre_total]. Qed.

(** mvcc: the lists do not depend on the view, only whether there is one *)
Definition mvcc_add_list (b : blk) : list kvw :=
  [(hash_key (b_state b), Some (VInt (b_height b))); (ver_key (b_height b), Some (VRaw (b_state b)))]
  ++ map (fun kv => (gkey (fst kv) (b_height b), option_map VRaw (snd kv))) (b_kvs b)
  ++ [(kl_key (b_height b), Some (VKeys (map fst (b_kvs b))))].

Lemma mvcc_add_inv vw b l : mvcc_add vw b = Some l -> l = mvcc_add_list b.
Proof.
  unfold mvcc_add. match goal with |- (if ?c then _ else _) = _ -> _ => destruct c end; [|discriminate].
  intro H. inversion H. reflexivity.
Qed.

Definition mvcc_del_list (b : blk) (ks : list (list N)) : list kvw :=
  [(hash_key (b_state b), None); (ver_key (b_height b), None)] ++ map (fun k => (gkey k (b_height b), None)) ks.

Lemma mvcc_del_inv vw b l : mvcc_del vw b = Some l ->
  exists ks, get (kl_key (b_height b)) vw = Some (VKeys ks) /\ l = mvcc_del_list b ks.
Proof.
  unfold mvcc_del. destruct (get (kl_key (b_height b)) vw) as [[]|]; try discriminate.
  destruct (get_max_version vw); [|discriminate].
  destruct (z =? b_height b); [|discriminate].
  destruct (get_version vw (b_state b)); [|discriminate].
  destruct (z0 =? b_height b); [|discriminate].
  intro H. inversion H. eauto.
Qed.

Definition Qmvcc (k : list N) : bool := is_prefix P_mvcc k.

Lemma mvcc_not_counter k : Qmvcc k = true -> is_counter_key k = false.
Proof.
  intro H. unfold is_counter_key.
  rewrite (prefix_disjoint P_mvcc P_count k), (prefix_disjoint P_mvcc P_coins k); auto.
Qed.

Lemma mvcc_quiet l : keys_in Qmvcc l -> quiet l.
Proof. apply keys_in_impl. intros k H. rewrite (mvcc_not_counter k H). reflexivity. Qed.

Lemma mvcc_add_keys b : keys_in Qmvcc (mvcc_add_list b).
Proof.
  repeat constructor. apply Forall_app. split; [|repeat constructor].
  apply Forall_map, Forall_forall. reflexivity.
Qed.

Lemma mvcc_del_keys b ks : keys_in Qmvcc (mvcc_del_list b ks).
Proof. repeat constructor. apply Forall_map, Forall_forall. reflexivity. Qed.

Lemma kl_key_not_plain v : plain (kl_key v) = false.
Proof. unfold plain, kl_key. rewrite is_prefix_app. reflexivity. Qed.

Lemma kl_key_not_counter v : is_counter_key (kl_key v) = false.
Proof. apply mvcc_not_counter. reflexivity. Qed.

Definition side_script (add : bool) (a : list N) (flag : N) (pos : list N) (info : option val) : list item :=
  if nonempty a then
    [Put (dir_key a flag pos, info); Put (addr_key a pos, info); Bump (count_key a) (if add then 1 else -1)]
  else [].

Fixpoint ai_script (add : bool) (h i : Z) (txs : list tx) : list item :=
  match txs with
  | [] => []
  | t :: tl =>
      let pos := heightstr h i in
      let info := if add then Some (VInfo (t_hash t) h i) else None in
      side_script add (t_from t) 1%N pos info ++ side_script add (t_to t) 2%N pos info
      ++ ai_script add h (i + 1) tl
  end.

Lemma side_play add a f pos info vw :
  addrindex_side add a f pos info vw = play (side_script add a f pos info) vw.
Proof.
  unfold addrindex_side, side_script. destruct (nonempty a); [|reflexivity]. simpl.
  destruct (bump (count_key a) (if add then 1 else -1) vw). simpl. rewrite app_nil_r. reflexivity.
Qed.

Lemma ai_play add h txs : forall i vw, addrindex_txs add h i txs vw = play (ai_script add h i txs) vw.
Proof.
  induction txs as [|t txs IH]; intros i vw; simpl; [reflexivity|].
  unfold addrindex_tx. rewrite !play_app, side_play.
  destruct (play (side_script add (t_from t) _ _ _) vw) as [v1 l1]. cbn [fst snd]. rewrite side_play.
  destruct (play (side_script add (t_to t) _ _ _) v1) as [v2 l2]. cbn [fst snd]. rewrite IH.
  destruct (play (ai_script add h (i + 1) txs) v2). cbn [fst snd]. rewrite app_assoc. reflexivity.
Qed.

Lemma ai_script_ok add h txs : forall i, script_ok (ai_script add h i txs).
Proof.
  assert (S : forall a f pos info, script_ok (side_script add a f pos info)).
  { intros. unfold side_script. destruct (nonempty a); [|constructor].
    repeat apply Forall_cons; [| | |constructor]; simpl.
    - apply plain_not_counter, (other_prefix_plain P_dir); [apply op_dir|apply pre_dir].
    - apply plain_not_counter, (other_prefix_plain P_addr); [apply op_addr|apply pre_addr].
    - apply count_key_counter. }
  induction txs as [|t txs IH]; intro i; simpl; [constructor|].
  repeat (apply Forall_app; split); [apply S|apply S|apply IH].
Qed.

Lemma side_puts add a f pos info :
  puts (side_script add a f pos info) = if nonempty a then [(dir_key a f pos, info); (addr_key a pos, info)] else [].
Proof. unfold side_script. destruct (nonempty a); reflexivity. Qed.

Lemma side_puts_clears K a f pos :
  (nonempty a = true -> In (dir_key a f pos) K /\ In (addr_key a pos) K) ->
  clears K (puts (side_script false a f pos None)).
Proof.
  intro H. rewrite side_puts. apply clears_all. destruct (nonempty a); [|intros kv []].
  destruct (H eq_refl). intros kv [<-|[<-|[]]]; auto.
Qed.

Lemma ai_puts_clears c h txs : c_addrindex c = true -> forall i,
  clears (tx_keys c h i txs) (puts (ai_script false h i txs)).
Proof.
  intro E. induction txs as [|t txs IH]; intro i; [apply clears_nil|].
  cbn [ai_script]. rewrite !puts_app. repeat apply clears_app.
  - apply side_puts_clears. intro N. simpl. rewrite E, N.
    split; apply in_or_app; right; apply in_or_app; left; simpl; auto.
  - apply side_puts_clears. intro N. simpl. rewrite E, N.
    split; do 2 (apply in_or_app; right); apply in_or_app; left; simpl; auto.
  - eapply clears_incl, IH. intro k. apply in_tx_keys_tail.
Qed.

Lemma ai_puts_keys h txs : forall i,
  map fst (puts (ai_script true h i txs)) = map fst (puts (ai_script false h i txs)).
Proof.
  induction txs as [|t txs IH]; intro i; simpl; [reflexivity|].
  rewrite !puts_app, !map_app, IH, !side_puts.
  destruct (nonempty (t_from t)), (nonempty (t_to t)); reflexivity.
Qed.

Lemma ai_isum_neg k h txs : forall i, isum k (ai_script false h i txs) = - isum k (ai_script true h i txs).
Proof.
  induction txs as [|t txs IH]; intro i; simpl; [reflexivity|].
  rewrite !isum_app, IH. unfold side_script.
  destruct (nonempty (t_from t)), (nonempty (t_to t)); simpl;
    destruct (beqb k (count_key (t_from t))), (beqb k (count_key (t_to t))); lia.
Qed.

(** coins: [amt] is the amount on connect, its negation on removal *)
Definition coins_item (amt : tx -> Z) (t : tx) : list item :=
  match coins_target t with
  | Some a => if t_rty t =? ExecOk then [Bump (coins_key a) (amt t)] else []
  | None => []
  end.
Definition coins_script (amt : tx -> Z) (txs : list tx) : list item := flat_map (coins_item amt) txs.

Lemma coins_item_play amt t vw :
  match coins_target t with
  | None => (vw, [])
  | Some a => if t_rty t =? ExecOk then bump (coins_key a) (amt t) vw else (vw, [])
  end = play (coins_item amt t) vw.
Proof.
  unfold coins_item. destruct (coins_target t); [|reflexivity]. destruct (t_rty t =? ExecOk); [|reflexivity].
  simpl. destruct (bump _ _ vw). simpl. rewrite app_nil_r. reflexivity.
Qed.

Lemma coins_play txs : forall vw, coins_local txs vw = play (coins_script t_amount txs) vw.
Proof.
  induction txs as [|t txs IH]; intro vw; simpl; [reflexivity|].
  rewrite play_app. unfold coins_local_tx. rewrite (coins_item_play t_amount).
  destruct (play (coins_item t_amount t) vw) as [v1 l1]. cbn [fst snd]. rewrite IH.
  destruct (play (coins_script t_amount txs) v1). reflexivity.
Qed.

Lemma coins_del_play rtxs : forall vw,
  coins_dellocal rtxs vw = play (coins_script (fun t => - t_amount t) rtxs) vw.
Proof.
  induction rtxs as [|t txs IH]; intro vw; simpl; [reflexivity|].
  rewrite play_app. unfold coins_dellocal_tx. rewrite (coins_item_play (fun t => - t_amount t)).
  destruct (play (coins_item _ t) vw) as [v1 l1]. cbn [fst snd]. rewrite IH.
  destruct (play (coins_script _ txs) v1). reflexivity.
Qed.

Lemma coins_script_ok amt txs : script_ok (coins_script amt txs).
Proof.
  apply Forall_flat_map, Forall_forall. intros t _. unfold coins_item.
  destruct (coins_target t); [|constructor]. destruct (t_rty t =? ExecOk); [|constructor].
  constructor; [apply coins_key_counter|constructor].
Qed.

Lemma coins_puts amt txs : puts (coins_script amt txs) = [].
Proof.
  induction txs as [|t txs IH]; [reflexivity|]. unfold coins_script, puts in *. simpl.
  rewrite flat_map_app, IH, app_nil_r. unfold coins_item.
  destruct (coins_target t); [|reflexivity]. destruct (t_rty t =? ExecOk); reflexivity.
Qed.

(** both loops skip failed transactions, so the bumps cancel whatever the receipts *)
Lemma coins_isum_neg k txs :
  isum k (coins_script (fun t => - t_amount t) (rev txs)) = - isum k (coins_script t_amount txs).
Proof.
  induction txs as [|t txs IH]; [reflexivity|]. unfold coins_script in *. simpl.
  rewrite flat_map_app, !isum_app, IH. simpl. rewrite app_nil_r. unfold coins_item.
  destruct (coins_target t); [|simpl; lia]. destruct (t_rty t =? ExecOk); simpl; [|lia].
  destruct (beqb k (coins_key l)); lia.
Qed.
