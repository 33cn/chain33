(** C14 — the KV lists a successful connect and a successful removal produce, piece by
    piece, and that removal after connect restores the local DB observably. *)
From Coq Require Import String List NArith ZArith Bool Lia.
From C33 Require Import Lib.Harness Lib.Bytes Lib.OMap C14.Model C14.Spec C14.ProofsPlugins.
Import ListNotations.
Open Scope Z_scope.

Lemma fresh_none c m b k : fresh c m b = true -> In k (block_keys c b) -> get k m = None.
Proof.
  unfold fresh. rewrite forallb_forall. intros F I. specialize (F _ I).
  unfold mem in F. destruct (get k m); [discriminate|reflexivity].
Qed.

Lemma del_total_without_mvcc c m b : c_mvcc c = false -> exists kD, exec_del c m b = Some kD.
Proof.
  intro E. unfold exec_del. rewrite E.
  destruct (if c_addrindex c then addrindex_txs false (b_height b) 0 (b_txs b) m else (m, [])).
  eauto.
Qed.

(** one list or script per plugin, empty when the plugin is off *)
Section Lists.
Variables (c : cfg) (b : blk).

Definition addrfee_l (add : bool) : list kvw :=
  if c_addrfee c then addrfee_txs add (b_height b) 0 (b_txs b) else [].
Definition ai_s (add : bool) : list item :=
  if c_addrindex c then ai_script add (b_height b) 0 (b_txs b) else [].
Definition fee_l (w : option val) : list kvw := if c_fee c then [(total_key (b_hash b), w)] else [].
Definition mvccA_l : list kvw := if c_mvcc c then mvcc_add_list b else [].
Definition mvccD_l : list kvw := if c_mvcc c then mvcc_del_list b (map fst (b_kvs b)) else [].
Definition txindex_l (add : bool) : list kvw :=
  if c_txindex c then txindex_txs add (b_height b) (b_time b) 0 (b_txs b) else [].
Definition coinsA_s : list item := if c_execlocal c then coins_script t_amount (b_txs b) else [].
Definition coinsD_s : list item :=
  if c_execlocal c then coins_script (fun t => - t_amount t) (rev (b_txs b)) else [].

(** between addrindex and coins: nothing that touches a counter *)
Definition midA (v : val) : list kvw := fee_l (Some v) ++ mvccA_l ++ txindex_l true.
Definition midD : list kvw := fee_l None ++ mvccD_l ++ txindex_l false.

(** connect: each plugin sees the map with the earlier lists written; [v] is the new fee total *)
Definition add_list (m : db) (v : val) : list kvw :=
  let V1 := write_all (addrfee_l true) m in
  let A2 := snd (play (ai_s true) V1) in
  addrfee_l true ++ A2 ++ midA v ++ snd (play coinsA_s (write_all (midA v) (write_all A2 V1))).

(** removal: only the counter updates reach the view *)
Definition del_list (m1 : db) : list kvw :=
  addrfee_l false ++ snd (play (ai_s false) m1) ++ midD
  ++ snd (play coinsD_s (fst (play (ai_s false) m1))).

Lemma ai_snd add vw :
  (if c_addrindex c then snd (addrindex_txs add (b_height b) 0 (b_txs b) vw) else []) = snd (play (ai_s add) vw).
Proof. unfold ai_s. destruct (c_addrindex c); [rewrite ai_play|]; reflexivity. Qed.

Lemma exec_add_inv m kA : exec_add c m b = Some kA -> exists v, kA = add_list m v.
Proof.
  unfold exec_add. cbv zeta. rewrite ai_snd. fold (addrfee_l true).
  destruct (if c_fee c then fee_add _ b else Some []) as [A3|] eqn:E3; [|discriminate].
  destruct (if c_mvcc c then mvcc_add _ b else Some []) as [A4|] eqn:E4; [|discriminate].
  fold (txindex_l true). intro H. inversion H as [H']. clear H H'.
  assert (X3 : exists v, A3 = fee_l (Some v)).
  { unfold fee_l. destruct (c_fee c); [apply fee_add_inv in E3 as [v ->]; eauto|].
    inversion E3. exists VOne. reflexivity. }
  assert (X4 : A4 = mvccA_l).
  { unfold mvccA_l. destruct (c_mvcc c); [apply mvcc_add_inv in E4; exact E4|]. inversion E4. reflexivity. }
  destruct X3 as [v ->]. subst A4. exists v. unfold add_list, midA, coinsA_s.
  rewrite !write_all_app, <- !app_assoc. do 5 f_equal.
  destruct (c_execlocal c); [rewrite coins_play|]; reflexivity.
Qed.

(** given that the view still holds the key list the connect wrote *)
Lemma exec_del_inv m1 kD :
  (c_mvcc c = true ->
   get (kl_key (b_height b)) (fst (play (ai_s false) m1)) = Some (VKeys (map fst (b_kvs b)))) ->
  exec_del c m1 b = Some kD -> kD = del_list m1.
Proof.
  intro KL. unfold exec_del. cbv zeta.
  assert (E : (if c_addrindex c then addrindex_txs false (b_height b) 0 (b_txs b) m1 else (m1, []))
              = play (ai_s false) m1).
  { unfold ai_s. destruct (c_addrindex c); [apply ai_play|reflexivity]. }
  rewrite E. unfold del_list. destruct (play (ai_s false) m1) as [vw2 D2]. cbn [fst snd] in *.
  fold (addrfee_l false). fold (txindex_l false).
  destruct (if c_mvcc c then mvcc_del vw2 b else Some []) as [D4|] eqn:E4; [|discriminate].
  intro H. inversion H as [H']. clear H H'.
  assert (X4 : D4 = mvccD_l).
  { unfold mvccD_l. destruct (c_mvcc c); [|inversion E4; reflexivity].
    apply mvcc_del_inv in E4 as [ks [G ->]]. rewrite KL in G by reflexivity. inversion G. reflexivity. }
  subst D4. unfold midD, fee_l, fee_del, coinsD_s. rewrite <- !app_assoc. do 5 f_equal.
  destruct (c_execlocal c); [rewrite coins_del_play|]; reflexivity.
Qed.

Lemma ai_s_ok add : script_ok (ai_s add).
Proof. unfold ai_s. destruct (c_addrindex c); [apply ai_script_ok|constructor]. Qed.
Lemma coinsA_s_ok : script_ok coinsA_s.
Proof. unfold coinsA_s. destruct (c_execlocal c); [apply coins_script_ok|constructor]. Qed.
Lemma coinsD_s_ok : script_ok coinsD_s.
Proof. unfold coinsD_s. destruct (c_execlocal c); [apply coins_script_ok|constructor]. Qed.

Lemma addrfee_l_plain add : keys_in plain (addrfee_l add).
Proof. unfold addrfee_l. destruct (c_addrfee c); [apply addrfee_plain|constructor]. Qed.
Lemma txindex_l_plain add : keys_in plain (txindex_l add).
Proof. unfold txindex_l. destruct (c_txindex c); [apply txindex_plain|constructor]. Qed.
Lemma fee_l_plain w : keys_in plain (fee_l w).
Proof. unfold fee_l. destruct (c_fee c); constructor; [apply total_key_plain|constructor]. Qed.

Lemma midA_quiet v : quiet (midA v).
Proof.
  repeat (apply Forall_app; split).
  - apply plain_quiet, fee_l_plain.
  - unfold mvccA_l. destruct (c_mvcc c); [apply mvcc_quiet, mvcc_add_keys|constructor].
  - apply plain_quiet, txindex_l_plain.
Qed.
Lemma midD_quiet : quiet midD.
Proof.
  repeat (apply Forall_app; split).
  - apply plain_quiet, fee_l_plain.
  - unfold mvccD_l. destruct (c_mvcc c); [apply mvcc_quiet, mvcc_del_keys|constructor].
  - apply plain_quiet, txindex_l_plain.
Qed.

Lemma kl_readback m v : sorted m -> c_mvcc c = true ->
  get (kl_key (b_height b)) (fst (play (ai_s false) (write_all (add_list m v) m)))
  = Some (VKeys (map fst (b_kvs b))).
Proof.
  intros S Mv. rewrite play_frame by (apply ai_s_ok || apply kl_key_not_counter).
  unfold add_list, midA, mvccA_l, mvcc_add_list. rewrite Mv, <- !app_assoc, !write_all_app.
  rewrite 2 get_write_all_untouched; auto 10 using write_all_sorted.
  - apply get_write_all_one. auto 10 using write_all_sorted.
  - apply (keys_in_untouched _ _ _ (txindex_l_plain true)), kl_key_not_plain.
  - intro I. apply in_map_iff in I as [kv [E I]].
    apply (play_entry _ _ _ coinsA_s_ok) in I; [|rewrite E; apply kl_key_not_counter].
    unfold coinsA_s in I. destruct (c_execlocal c); [rewrite coins_puts in I|]; destruct I.
Qed.

Lemma tx_keys_block : incl (tx_keys c (b_height b) 0 (b_txs b)) (block_keys c b).
Proof. intros k I. unfold block_keys. apply in_or_app. left. exact I. Qed.

Lemma del_list_clears m1 : clears (block_keys c b) (del_list m1).
Proof.
  unfold del_list, midD. repeat apply clears_app.
  - unfold addrfee_l. destruct (c_addrfee c) eqn:E; [|apply clears_nil].
    eapply clears_incl; [apply tx_keys_block|apply addrfee_clears, E].
  - apply clears_play; [apply ai_s_ok|]. unfold ai_s. destruct (c_addrindex c) eqn:E; [|apply clears_nil].
    eapply clears_incl; [apply tx_keys_block|apply ai_puts_clears, E].
  - unfold fee_l. destruct (c_fee c) eqn:E; [|apply clears_nil]. apply clears_all. intros kv [<-|[]].
    split; [reflexivity|]. unfold block_keys. rewrite E. apply in_or_app. right. left. reflexivity.
  - unfold mvccD_l. destruct (c_mvcc c) eqn:E; [|apply clears_nil]. apply clears_all. intros kv I.
    assert (X : snd kv = None /\ In (fst kv) (hash_key (b_state b) :: ver_key (b_height b)
                  :: map (fun kv => gkey (fst kv) (b_height b)) (b_kvs b))).
    { destruct I as [<-|[<-|I]]; [simpl; auto..|]. cbn [app] in I. rewrite map_map in I.
      apply in_map_iff in I as [kv0 [<- I]]. split; [reflexivity|]. right. right.
      apply (in_map (fun kv => gkey (fst kv) (b_height b))), I. }
    split; [apply X|]. unfold block_keys. rewrite E. do 2 (apply in_or_app; right). apply X.
  - unfold txindex_l. destruct (c_txindex c) eqn:E; [|apply clears_nil].
    eapply clears_incl; [apply tx_keys_block|apply txindex_clears, E].
  - apply clears_play; [apply coinsD_s_ok|]. unfold coinsD_s.
    destruct (c_execlocal c); [rewrite coins_puts|]; apply clears_nil.
Qed.

Lemma del_list_covers m v m1 : covers (del_list m1) (add_list m v).
Proof.
  unfold del_list, add_list, midA, midD. repeat apply covers_app.
  - apply covers_same_keys. unfold addrfee_l. destruct (c_addrfee c); [apply addrfee_same_keys|reflexivity].
  - apply covers_play; try apply ai_s_ok. apply covers_same_keys. unfold ai_s.
    destruct (c_addrindex c); [apply ai_puts_keys|reflexivity].
  - apply covers_same_keys. unfold fee_l. destruct (c_fee c); reflexivity.
  - unfold mvccA_l, mvccD_l. destruct (c_mvcc c); [|apply covers_nil].
    intros kv I P. unfold mvcc_add_list in I. unfold mvcc_del_list. rewrite map_app, map_map. cbn [map fst].
    destruct I as [<-|[<-|I]]; [left; reflexivity|right; left; reflexivity|].
    cbn [app] in *. apply in_app_or in I as [I|[<-|[]]].
    + right. right. apply in_map_iff in I as [kv0 [<- I]]. rewrite map_map.
      apply (in_map (fun kv => gkey (fst kv) (b_height b))), I.
    + simpl in P. rewrite kl_key_not_plain in P. discriminate.
  - apply covers_same_keys. unfold txindex_l. destruct (c_txindex c); [apply txindex_same_keys|reflexivity].
  - apply covers_play; [apply coinsD_s_ok|apply coinsA_s_ok|]. unfold coinsA_s.
    destruct (c_execlocal c); [rewrite coins_puts|]; apply covers_nil.
Qed.

(** counters: the view and the store agree all along, and the bumps cancel *)
Lemma add_list_agree m v f : Agree f m m ->
  exists vw, Agree (fun k => f k + isum k (ai_s true) + isum k coinsA_s) (write_all (add_list m v) m) vw.
Proof.
  intro A. unfold add_list. rewrite !write_all_app. eexists.
  eapply (agree_play _ coinsA_s_ok), agree_self, agree_quiet; [apply midA_quiet|].
  eapply (agree_play _ (ai_s_ok true)), agree_self, agree_quiet; [|exact A].
  apply plain_quiet, addrfee_l_plain.
Qed.

Lemma del_list_agree m1 f : Agree f m1 m1 ->
  exists vw, Agree (fun k => f k + isum k (ai_s false) + isum k coinsD_s) (write_all (del_list m1) m1) vw.
Proof.
  intro A. unfold del_list. rewrite !write_all_app. eexists.
  apply (agree_play _ coinsD_s_ok), agree_quiet; [apply midD_quiet|].
  apply (agree_play _ (ai_s_ok false)), agree_quiet; [|exact A].
  apply plain_quiet, addrfee_l_plain.
Qed.

Lemma undo_counters m v k : sorted m -> counters_wf m = true -> is_counter_key k = true ->
  reads (write_all (del_list (write_all (add_list m v) m)) (write_all (add_list m v) m)) k (q_count m k).
Proof.
  intros S W C.
  destruct (add_list_agree m v _ (agree_refl m S W)) as [vw1 A1].
  destruct (del_list_agree _ _ (agree_self _ _ _ A1)) as [vw2 A2].
  apply (agree_reads _ _ _ k) in A2; [|exact C]. cbv beta in A2.
  replace (q_count m k) with
    (q_count m k + isum k (ai_s true) + isum k coinsA_s + isum k (ai_s false) + isum k coinsD_s); [exact A2|].
  assert (isum k (ai_s false) = - isum k (ai_s true))
    by (unfold ai_s; destruct (c_addrindex c); [apply ai_isum_neg|reflexivity]).
  assert (isum k coinsD_s = - isum k coinsA_s)
    by (unfold coinsA_s, coinsD_s; destruct (c_execlocal c); [apply coins_isum_neg|reflexivity]).
  lia.
Qed.
End Lists.

Section Main.
Variables (c : cfg) (m : db) (b : blk) (kA kD : list kvw).
Hypothesis Sm : sorted m.
Hypothesis Wf : counters_wf m = true.
Hypothesis Fr : fresh c m b = true.
Hypothesis EA : exec_add c m b = Some kA.
Hypothesis ED : exec_del c (write_all kA m) b = Some kD.

Let m1 := write_all kA m.
Let m2 := write_all kD m1.

Lemma run_lists : exists v, kA = add_list c b m v /\ kD = del_list c b m1.
Proof.
  destruct (exec_add_inv c b m kA EA) as [v E]. exists v. split; [exact E|].
  apply exec_del_inv; [|exact ED]. unfold m1. rewrite E. apply kl_readback, Sm.
Qed.

Lemma plain_restore k : plain k = true -> get k m2 = get k m.
Proof.
  destruct run_lists as [v [EkA EkD]]. unfold m2, m1 in *. rewrite EkD, EkA.
  apply (undo_plain (block_keys c b)); [exact Sm| |apply del_list_clears|apply del_list_covers].
  intro k'. apply fresh_none, Fr.
Qed.

(** every counter comes back, whatever the receipts, new block or not *)
Lemma counter_restore k : is_counter_key k = true -> reads m2 k (q_count m k).
Proof.
  destruct run_lists as [v [EkA EkD]]. unfold m2, m1 in *. rewrite EkD, EkA. apply undo_counters; assumption.
Qed.

Lemma del_after_add_obs_id : obs_eq m2 m.
Proof.
  apply obs_eq_by_class; [apply write_all_sorted, write_all_sorted, Sm|exact Sm|apply plain_restore|].
  intros k C. exists (q_count m k). split; [apply counter_restore, C|apply counters_wf_reads; assumption].
Qed.
End Main.
