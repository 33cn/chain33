(** C24 layer 2 — Insert: the link loop, the new level structure, the invariant. *)
From Coq Require Import List ZArith NArith Bool Arith Lia Sorted.
From C33 Require Import C24.Model C24.ProofsSpec C24.SkipModel C24.SkipLemmas C24.SkipSearch.
Import ListNotations.
Local Open Scope nat_scope.

Section I.
  Context {V : Type}.
  Notation heap := (heap V).
  Notation skl := (skl V).
  Implicit Types (h : heap) (sk : skl) (x y i k : nat).

  Lemma link_spec x (U : nat -> nat) : forall n k h,
    (forall i, k <= i < k + n -> U i <> x /\ i < height h (U i)) ->
    k + n <= height h x ->
    exists h',
      link h x (map U (seq k n)) k = Ok h' /\
      same_nodes h h' /\ (forall y, nprev (h' y) = nprev (h y)) /\
      (forall i, k <= i < k + n -> spliced_in h h' i (U i) x) /\
      (forall i, ~ k <= i < k + n -> forall y, nxt h' y i = nxt h y i).
  Proof.
    induction n as [|n IH]; intros k h HU Hx.
    - exists h. simpl. repeat split; auto; lia.
    - cbn [seq map link].
      destruct (HU k) as [Hk1 Hk2]; [lia|].
      destruct (nxt_some h (U k) k Hk2) as [nx Enx]. rewrite Enx.
      set (h2 := set_next (set_next h x k nx) (U k) k (Some x)).
      assert (Hh2 : same_nodes h h2).
      { eapply same_nodes_trans; apply same_nodes_set_next. }
      assert (Hk : spliced_in h h2 k (U k) x).
      { unfold h2. repeat split.
        - apply nxt_set_next_same. now rewrite height_set_next.
        - rewrite nxt_set_next_node, Enx by auto. apply nxt_set_next_same. lia.
        - intros y Hy1 Hy2. now rewrite !nxt_set_next_node. }
      assert (Ho : forall i y, i <> k -> nxt h2 y i = nxt h y i).
      { intros i y Hi. unfold h2. now rewrite !nxt_set_next_slot. }
      destruct (IH (S k) h2) as (h' & E & Hf & Hp & Hin & Hout).
      { intros i Hi. rewrite (proj1 (Hh2 _)). apply HU. lia. }
      { rewrite (proj1 (Hh2 _)). lia. }
      exists h'. split; [exact E|]. split; [|split; [|split]].
      + now apply (same_nodes_trans h h2).
      + intro y. rewrite Hp. unfold h2. now rewrite !prev_set_next.
      + intros i Hi. destruct (Nat.eq_dec i k) as [->|Ni].
        * apply (spliced_in_ext h h2 h h' k _ _ Hk1); auto. intro y. apply Hout. lia.
        * apply (spliced_in_ext h2 h' h h' i _ _ (proj1 (HU i Hi))); auto.
          -- intros y _. symmetry. now apply Ho.
          -- apply Hin. lia.
      + intros i Hi y. rewrite Hout, Ho by lia. reflexivity.
  Qed.

  (** the levels are compared with [h] itself, not with the heap that holds
      the still unlinked node *)
  Lemma link_new_spec h x (U : nat -> nat) lv s (v : V) (h0 := hset h x (mkNode (repeat None lv) None s v)) :
    (forall i, i < lv -> U i <> x /\ i < height h (U i)) ->
    exists h1,
      link h0 x (map U (seq 0 lv)) 0 = Ok h1 /\
      (forall i, i < lv -> spliced_in h h1 i (U i) x) /\
      (forall i y, lv <= i -> y <> x -> nxt h1 y i = nxt h y i) /\
      same_nodes h0 h1 /\
      nprev (h1 x) = None /\ (forall y, y <> x -> nprev (h1 y) = nprev (h y)).
  Proof.
    intro HU.
    assert (H0 : forall y, y <> x -> h0 y = h y) by (intros y Hy; apply hset_other, Hy).
    assert (N0 : forall y i, y <> x -> nxt h0 y i = nxt h y i) by (intros y i Hy; unfold nxt; now rewrite H0).
    destruct (link_spec x U lv 0 h0) as (h1 & E & Hf & Hp & Hin & Hout).
    { intros i Hi. destruct (HU i) as [A B]; [lia|]. unfold height in *. now rewrite H0. }
    { unfold height, h0. rewrite hset_same. simpl. now rewrite repeat_length. }
    exists h1. split; [exact E|]. split; [|split; [|split; [exact Hf|split]]].
    - intros i Hi. destruct (HU i Hi) as [A _].
      apply (spliced_in_ext h0 h1); auto; [|apply Hin; lia]. intros y Hy. symmetry. now apply N0.
    - intros i y Hi Hy. rewrite Hout, N0 by (auto; lia). reflexivity.
    - rewrite Hp. unfold h0. now rewrite hset_same.
    - intros y Hy. now rewrite Hp, H0.
  Qed.

  (** the state after Insert satisfies the invariant: [x] = the new node
      number, of height [lv], between [pre] and [post]; [U i] = the last node of
      the level-i chain of [0 :: pre] *)
  Section NEW.
    Variables (sk : skl) (ids pre post : list nat) (s : Z) (v : V) (lv : nat) (h' : heap)
              (U : nat -> nat) (tail' : option nat) (fc : Z).
    Let h := sheap sk.
    Let x := ssize sk.
    Hypothesis HI : inv sk ids.
    Hypothesis Hpp : pre ++ post = ids.
    Hypothesis Hlv : 1 <= lv <= maxLevel.
    Hypothesis HU : forall i, i < maxLevel -> exists a, lvl h i (0 :: pre) = a ++ [U i].
    Hypothesis Hold : same_nodes (hset h x (mkNode (repeat None lv) None s v)) h'.
    Hypothesis Hin : forall i, i < lv -> spliced_in h h' i (U i) x.
    Hypothesis Hout : forall i y, lv <= i -> y <> x -> nxt h' y i = nxt h y i.
    Hypothesis Hpx : nprev (h' x) = last_opt pre.
    Hypothesis Hpy : forall y, y <> x ->
      nprev (h' y) = match hd_error post with Some z => if z =? y then Some x else nprev (h y) | None => nprev (h y) end.
    Hypothesis Hpre : Forall (fun y => go_le s (score_of h y) = true) pre.
    Hypothesis Hpost : Forall (fun y => go_le s (score_of h y) = false) post.
    Hypothesis Htail : tail' = match post with [] => Some x | _ => stail sk end.

    Let level' := if slevel sk <? lv then lv else slevel sk.

    Lemma notin_sub a b c : ~ In x (a ++ b ++ c) -> ~ In x b.
    Proof. intros H Hb. apply H. apply in_or_app. right. apply in_or_app. now left. Qed.

    Lemma old_node y : y <> x ->
      height h' y = height h y /\ nscore (h' y) = nscore (h y) /\ nval (h' y) = nval (h y).
    Proof. intro Hy. destruct (Hold y) as (-> & -> & ->). unfold height. now rewrite hset_other. Qed.

    Lemma new_node : height h' x = lv /\ nscore (h' x) = s /\ nval (h' x) = v.
    Proof.
      destruct (Hold x) as (-> & -> & ->). unfold height. rewrite hset_same. repeat split. apply repeat_length.
    Qed.

    Lemma old_ne y : In y (0 :: pre ++ post) -> y <> x.
    Proof.
      rewrite Hpp. intros Hy ->. pose proof (i_lt _ _ HI) as H. rewrite Forall_forall in H.
      exact (Nat.lt_irrefl _ (H x Hy)).
    Qed.

    Lemma nodup_old : NoDup (0 :: pre ++ post).
    Proof. rewrite Hpp. apply (i_nodup _ _ HI). Qed.

    Lemma ht_ext l : incl l (0 :: pre ++ post) -> forall y, In y l -> height h' y = height h y.
    Proof. intros Hl y Hy. now apply old_node, old_ne, Hl. Qed.

    Lemma new_next : nexts_ok h' (0 :: pre ++ x :: post).
    Proof.
      apply nexts_ok_chain. intro i.
      pose proof (proj1 (nexts_ok_chain h _) (i_next _ _ HI) i) as Hc. fold h in Hc.
      rewrite <- Hpp in Hc. change (0 :: pre ++ post) with ((0 :: pre) ++ post) in Hc.
      assert (Hnd : NoDup (lvl h i ((0 :: pre) ++ post))) by apply NoDup_filter, nodup_old.
      assert (Hne : forall y, In y (lvl h i ((0 :: pre) ++ post)) -> y <> x).
      { intros y Hy. apply filter_In in Hy as [Hy _]. now apply old_ne. }
      rewrite lvl_app in Hc, Hnd, Hne.
      change (0 :: pre ++ x :: post) with ((0 :: pre) ++ [x] ++ post). rewrite !lvl_app.
      rewrite (lvl_ext h h' i (0 :: pre)), (lvl_ext h h' i post)
        by (apply ht_ext; intros y Hy; simpl; rewrite in_app_iff; simpl in Hy; tauto).
      change (lvl h' i [x]) with (if i <? height h' x then [x] else []). rewrite (proj1 new_node).
      destruct (Nat.ltb_spec i lv) as [Hi|Hi]; cbn [app].
      - destruct (HU i) as [a Ea]; [lia|]. rewrite Ea, <- app_assoc in *. cbn [app] in *.
        apply (chain_splice_in h); auto. intro Hx. now apply (Hne x).
      - apply (chain_frame h); auto.
    Qed.

    Lemma new_prev : prevs_ok h' (pre ++ x :: post).
    Proof.
      pose proof nodup_old as Hnd. apply NoDup_cons_iff in Hnd as [_ Hnd].
      pose proof (proj1 (prevs_ok_pchain h _) (i_prev _ _ HI)) as Hc. fold h in Hc.
      rewrite <- Hpp in Hc. apply pchain_app in Hc as [Hc1 Hc2]. rewrite last_or_none in Hc2.
      assert (Hne : forall y, In y (pre ++ post) -> y <> x) by (intros y Hy; apply old_ne; now right).
      (* only [x] and the head of [post] get a new [prev] *)
      assert (Hfr : forall y, In y (pre ++ tl post) -> nprev (h' y) = nprev (h y)).
      { intros y Hy. destruct post as [|z post']; [now apply Hpy, Hne|]. simpl in Hy.
        rewrite Hpy by (apply Hne; rewrite in_app_iff in *; simpl; tauto). cbn [hd_error].
        destruct (Nat.eqb_spec z y) as [->|N]; auto. now apply NoDup_remove_2 in Hnd. }
      apply prevs_ok_pchain, pchain_app. rewrite last_or_none. simpl. repeat split; auto.
      - apply (pchain_frame h); auto. intros y Hy. apply Hfr, in_or_app. auto.
      - destruct post as [|z post']; simpl; auto. destruct Hc2 as [_ Hc2].
        rewrite Hpy by (apply Hne, in_or_app; simpl; auto). cbn [hd_error]. rewrite Nat.eqb_refl. split; auto.
        apply (pchain_frame h); auto. intros y Hy. apply Hfr, in_or_app. auto.
    Qed.

    Lemma score_ext y : In y (pre ++ post) -> score_of h' y = score_of h y.
    Proof. intro Hy. unfold score_of. apply old_node, old_ne. now right. Qed.

    Lemma new_sorted : StronglySorted (desc h') (pre ++ x :: post).
    Proof.
      pose proof (i_sorted _ _ HI) as Hs. fold h in Hs. rewrite <- Hpp in Hs.
      assert (Hxs : score_of h' x = s) by apply new_node.
      apply ssorted_mid.
      - apply (ssorted_ext (desc h)); auto. intros a b Ha Hb. unfold desc.
        now rewrite !score_ext.
      - rewrite Forall_forall in *. intros y Hy. unfold desc.
        rewrite Hxs, score_ext by (apply in_or_app; auto).
        specialize (Hpre y Hy). unfold go_le in Hpre. rewrite cmp_le in Hpre. apply Z.geb_le in Hpre. lia.
      - rewrite Forall_forall in *. intros y Hy. unfold desc.
        rewrite Hxs, score_ext by (apply in_or_app; auto).
        specialize (Hpost y Hy). unfold go_le in Hpost. rewrite cmp_le, Z.geb_leb in Hpost. apply Z.leb_gt in Hpost. lia.
    Qed.

    Lemma insert_inv :
      inv (mkSkl h' (S x) tail' level' (S (scount sk)) fc) (pre ++ x :: post).
    Proof.
      pose proof nodup_old as Hnd. pose proof (i_lvl _ _ HI) as Hl.
      assert (Hlev : slevel sk <= level' <= maxLevel /\ lv <= level').
      { unfold level'. destruct (Nat.ltb_spec (slevel sk) lv); lia. }
      split; cbn [sheap ssize stail slevel scount].
      - change (NoDup ((0 :: pre) ++ x :: post)).
        apply (NoDup_Add (Add_app x (0 :: pre) post)). split; auto.
        intro Hx. now apply (old_ne x).
      - pose proof (i_lt _ _ HI) as Hlt. fold x in Hlt. rewrite <- Hpp in Hlt.
        change (Forall (fun y => y < S x) ((0 :: pre) ++ x :: post)).
        change (0 :: pre ++ post) with ((0 :: pre) ++ post) in Hlt.
        apply Forall_app in Hlt as [H1 H2]. apply Forall_app. split; [|constructor; [lia|]].
        + revert H1. apply Forall_impl. intros; lia.
        + revert H2. apply Forall_impl. intros; lia.
      - rewrite (ht_ext [0]); [apply (i_hd _ _ HI)| |now left]. intros y [<-|[]]. now left.
      - apply new_next.
      - pose proof (i_hts _ _ HI) as Hh. fold h in Hh. rewrite <- Hpp in Hh.
        assert (Hh' : Forall (fun y => 1 <= height h' y <= level') (pre ++ post)).
        { rewrite Forall_forall in *. intros y Hy. specialize (Hh y Hy).
          rewrite (ht_ext (pre ++ post)); auto; [lia|]. now apply incl_tl. }
        apply Forall_app in Hh' as [H1 H2]. apply Forall_app. split; auto.
        constructor; auto. rewrite (proj1 new_node). lia.
      - lia.
      - apply new_prev.
      - rewrite Htail. destruct post as [|z post'].
        + symmetry. apply last_opt_snoc.
        + rewrite (i_tail _ _ HI), <- Hpp. now rewrite !last_opt_app by discriminate.
      - rewrite (i_cnt _ _ HI), <- Hpp, !app_length. simpl. lia.
      - apply new_sorted.
    Qed.

    Lemma insert_abs :
      absl h' (pre ++ x :: post) = absl h pre ++ (s, v) :: absl h post.
    Proof.
      assert (He : forall l, incl l (pre ++ post) -> absl h' l = absl h l).
      { intros l Hl. unfold absl. apply map_ext_in. intros y Hy. unfold entry.
        destruct (old_node y) as (_ & -> & ->); auto. apply old_ne. right. now apply Hl. }
      unfold absl in *. rewrite map_app. simpl. rewrite !He.
      - unfold entry at 2. destruct new_node as (_ & -> & ->). reflexivity.
      - apply incl_appr, incl_refl.
      - apply incl_appl, incl_refl.
    Qed.
  End NEW.

  Lemma rand_level_bound : forall fuel lvl rnd,
    1 <= lvl < maxLevel -> lvl <= fst (rand_level fuel lvl rnd) <= maxLevel.
  Proof.
    induction fuel as [|f IH]; intros lvl rnd Hl; simpl; [lia|].
    destruct rnd as [|r tl]; cbn [fst]; [lia|].
    destruct (Z.land r 65535 <? 22937)%Z; cbn [fst]; [|lia].
    unfold maxLevel in *.
    destruct (Nat.eqb_spec lvl 31) as [E|N]; cbn [fst]; [lia|].
    specialize (IH (S lvl) tl). lia.
  Qed.

  Lemma random_level_bound rnd : 1 <= fst (random_level rnd) <= maxLevel.
  Proof.
    unfold random_level. pose proof (rand_level_bound maxLevel 1 rnd). unfold maxLevel in *. lia.
  Qed.

  Lemma sl_insert_split h s (v : V) ids :
    sl_insert s v (absl h ids) =
    absl h (tw (fun y => go_le s (score_of h y)) ids) ++
    (s, v) :: absl h (dw (fun y => go_le s (score_of h y)) ids).
  Proof.
    induction ids as [|y ids IH]; simpl; auto.
    unfold score_of at 1 3, go_le at 1 3, entry at 1. simpl.
    destruct (sv_compare (nscore (h y)) s <=? 0)%Z; simpl; [now rewrite IH|reflexivity].
  Qed.

  (** the update array, extended with the header for the levels above [L] *)
  Lemma grow_upd (U : nat -> nat) L lv :
    (forall j, L <= j -> U j = 0) ->
    (if L <? lv then map U (seq 0 L) ++ repeat 0 (lv - L) else map U (seq 0 L)) =
    map U (seq 0 (Nat.max L lv)).
  Proof.
    intro H. destruct (Nat.ltb_spec L lv) as [Hl|Hl]; [|now rewrite Nat.max_l].
    rewrite Nat.max_r by lia. replace lv with (L + (lv - L)) at 2 by lia.
    rewrite seq_app, map_app. f_equal. simpl.
    generalize (lv - L). intro m. revert H. generalize L. clear.
    induction m as [|m IH]; intros a H; simpl; auto. f_equal; [symmetry; apply H; lia|].
    apply IH. intros j Hj. apply H. lia.
  Qed.

  Lemma firstn_seq_le n : forall a m, n <= m -> firstn n (seq a m) = seq a n.
  Proof.
    induction n as [|n IH]; intros a m H; simpl; auto.
    destruct m as [|m]; [lia|]. simpl. f_equal. apply IH. lia.
  Qed.

  Lemma sk_insert_spec sk ids s (v : V) rnd :
    inv sk ids ->
    exists sk' ids',
      sk_insert s v sk rnd = Ok (sk', snd (random_level rnd), 1%Z) /\
      inv sk' ids' /\
      absl (sheap sk') ids' = sl_insert s v (absl (sheap sk) ids).
  Proof.
    intro HI.
    destruct (locate_spec sk ids (go_le s) HI (antitone_le s)) as (pre & post & U & cnt & Hloc & HS).
    destruct HS as [Epre Epost Hpp Hgo Hnogo Htop Hlvl Hin Hst Hlast].
    set (h := sheap sk) in *. set (x := ssize sk). set (L := slevel sk) in *.
    pose proof (random_level_bound rnd) as Hlv.
    pose proof (i_lvl _ _ HI) as HL. fold L in HL.
    pose proof (old_ne sk ids pre post HI Hpp) as Hfresh. fold x in Hfresh.
    assert (HU : forall i, i < maxLevel -> U i <> x /\ i < height h (U i)).
    { intros i Hi. destruct (Hin i Hi) as [Hi1 Hi2]. split; auto.
      apply Hfresh, (in_or_app (0 :: _)). now left. }
    unfold sk_insert. rewrite Hloc, sl_insert_split. fold h x L. rewrite Epre, Epost.
    destruct (random_level rnd) as [lv rnd']. cbn [fst snd] in *.
    rewrite (grow_upd U L lv), firstn_map, firstn_seq_le by (auto; lia).
    destruct (Nat.max L lv) as [|m] eqn:Em; [lia|]. cbn [seq map]. clear Hloc Epre Epost.
    destruct (link_new_spec h x U lv s v) as (h1 & -> & Hin1 & Hout1 & Hf1 & Hp1x & Hp1y).
    { intros i Hi. apply HU. lia. }
    set (h2 := if U 0 =? 0 then h1 else set_prev h1 x (Some (U 0))).
    assert (H2 : same_nodes h1 h2 /\ (forall y i, nxt h2 y i = nxt h1 y i) /\
                 nprev (h2 x) = last_opt pre /\ forall y, y <> x -> nprev (h2 y) = nprev (h1 y)).
    { unfold h2. rewrite Hlast. destruct (U 0 =? 0).
      - repeat split; auto.
      - split; [apply same_nodes_set_prev|]. split; [apply nxt_set_prev|].
        split; [apply prev_set_prev_same|apply prev_set_prev_other]. }
    destruct H2 as (Hf2 & N2 & Hp2x & Hp2y).
    assert (Hstop : nxt h2 x 0 = Some (hd_error post)).
    { rewrite N2. destruct (Hin1 0) as (_ & -> & _); [lia|]. exact Hst. }
    rewrite Hstop.
    destruct (set_prev_behind h2 (hd_error post) (Some x)) as (Hf3 & N3 & Hp3).
    set (h3 := match hd_error post with Some y => set_prev h2 y (Some x) | None => h2 end) in *.
    set (tail' := match post with [] => Some x | _ => stail sk end).
    exists (mkSkl h3 (S x) tail' (if L <? lv then lv else L) (S (scount sk)) (sfindc sk)), (pre ++ x :: post).
    split; [unfold h3, tail'; destruct post; reflexivity|].
    pose proof (same_nodes_trans _ _ _ Hf1 (same_nodes_trans _ _ _ Hf2 Hf3)) as Hf.
    split.
    - apply (insert_inv sk ids pre post s v lv h3 U tail' (sfindc sk)); auto; fold h x.
      + intros i Hi. apply (spliced_in_ext h h1); auto; [apply HU; lia|]. intro y. now rewrite N3.
      + intros i y Hi Hy. rewrite N3, N2. now apply Hout1.
      + rewrite Hp3, <- Hp2x. destruct (hd_error post) as [y|] eqn:Ey; auto.
        destruct (Nat.eqb_spec y x) as [->|]; auto. exfalso. apply (Hfresh x); auto.
        right. apply in_or_app. right. destruct post; inversion Ey. now left.
      + intros y Hy. rewrite Hp3, Hp2y, Hp1y by auto. reflexivity.
    - cbn [sheap]. apply (insert_abs sk ids pre post s v lv h3); auto.
  Qed.
End I.
