(** C24 layer 2 — Delete (the unlink loop, the level shrinking, the invariant),
    Find / FindGreaterOrEqual / in-place update; every operation of the
    multi-level model refines its level-0 effect, for every level stream;
    histories. *)
From Coq Require Import List ZArith NArith Bool Arith Lia Sorted.
From C33 Require Import C24.Model C24.ProofsSpec C24.SkipModel C24.SkipLemmas C24.SkipSearch
  C24.SkipInsert.
Import ListNotations.
Local Open Scope nat_scope.

Section R.
  Context {V : Type}.
  Notation heap := (heap V).
  Notation skl := (skl V).
  Implicit Types (h : heap) (sk : skl) (x y z i k : nat).

  (** one iteration of the unlink loop *)
  Definition unlink1 h y u i : outcome heap :=
    match nxt h u i with
    | None => Panic
    | Some (Some z) =>
        if z =? y then match nxt h y i with None => Panic | Some ny => Ok (set_next h u i ny) end
        else Ok h
    | Some None => Ok h
    end.

  Lemma unlink_cons h y u tl i :
    unlink h y (u :: tl) i = bind (unlink1 h y u i) (fun h2 => unlink h2 y tl (S i)).
  Proof.
    unfold unlink1. simpl. destruct (nxt h u i) as [[z|]|]; auto.
    destruct (z =? y); auto. now destruct (nxt h y i).
  Qed.

  Lemma unlink1_spec h y u i :
    i < height h u -> (nxt h u i = Some (Some y) -> i < height h y) ->
    exists h2, unlink1 h y u i = Ok h2 /\
      same_nodes h h2 /\ (forall z, nprev (h2 z) = nprev (h z)) /\
      spliced_out h h2 i u y /\ (forall j z, j <> i -> nxt h2 z j = nxt h z j).
  Proof.
    intros Hu Hy. unfold unlink1. destruct (nxt_some h u i Hu) as [o Eo]. rewrite Eo.
    assert (Hno : o <> Some y -> spliced_out h h i u y).
    { intro N. split; [rewrite Eo; congruence|auto]. }
    destruct o as [z|]; [destruct (Nat.eqb_spec z y) as [->|N]|].
    - destruct (nxt_some h y i (Hy Eo)) as [ny Eny]. rewrite Eny.
      exists (set_next h u i ny). split; [reflexivity|].
      split; [apply same_nodes_set_next|]. split; [intro; apply prev_set_next|]. split.
      + split; [|congruence]. intros _. rewrite Eny. split.
        * now apply nxt_set_next_same.
        * intros z Hz. now apply nxt_set_next_node.
      + intros j z Hj. now apply nxt_set_next_slot.
    - exists h. repeat split; auto; apply Hno; congruence.
    - exists h. repeat split; auto; apply Hno; congruence.
  Qed.

  Lemma unlink_spec y (U : nat -> nat) : forall n k h,
    (forall i, k <= i < k + n ->
       i < height h (U i) /\ (nxt h (U i) i = Some (Some y) -> i < height h y)) ->
    exists h',
      unlink h y (map U (seq k n)) k = Ok h' /\
      same_nodes h h' /\ (forall z, nprev (h' z) = nprev (h z)) /\
      (forall i, k <= i < k + n -> spliced_out h h' i (U i) y) /\
      (forall i, ~ k <= i < k + n -> forall z, nxt h' z i = nxt h z i).
  Proof.
    induction n as [|n IH]; intros k h HU.
    - exists h. simpl. repeat split; auto; lia.
    - cbn [seq map]. rewrite unlink_cons. destruct (HU k) as (Hk1 & Hk2); [lia|].
      destruct (unlink1_spec h y (U k) k Hk1 Hk2) as (h2 & -> & Hh2 & Hp2 & Hk & Ho). cbn [bind].
      destruct (IH (S k) h2) as (h' & E & Hf & Hp & Hin & Hout).
      { intros i Hi. rewrite (proj1 (Hh2 _)), (proj1 (Hh2 _)), Ho by lia. apply HU. lia. }
      exists h'. split; [exact E|]. split; [|split; [|split]].
      + now apply (same_nodes_trans h h2).
      + intro z. now rewrite Hp.
      + intros i Hi. destruct (Nat.eq_dec i k) as [->|Ni].
        * apply (spliced_out_ext h h2); auto. intro z. apply Hout. lia.
        * apply (spliced_out_ext h2 h'); auto; [|apply Hin; lia].
          intro z. symmetry. now apply Ho.
      + intros i Hi z. rewrite Hout, Ho by lia. reflexivity.
  Qed.

  Lemma shrink_spec (hd : list (option nat)) : forall lvl,
    lvl <= length hd ->
    exists l', shrink hd lvl = Ok l' /\ l' <= lvl /\ (1 <= lvl -> 1 <= l') /\
               forall m, l' <= m < lvl -> nth_error hd m = Some None.
  Proof.
    induction lvl as [|m IH]; intro Hl.
    - exists 0. simpl. repeat split; auto. intros; lia.
    - simpl. destruct m as [|m'].
      + exists 1. repeat split; auto. intros; lia.
      + destruct (nth_error hd (S m')) as [[z|]|] eqn:E.
        * exists (S (S m')). repeat split; auto. intros; lia.
        * destruct IH as (l' & E' & A & B & C); [lia|].
          exists l'. rewrite E'. repeat split; auto; [lia|].
          intros j Hj. destruct (Nat.eq_dec j (S m')) as [->|N]; auto. apply C. lia.
        * apply nth_error_None in E. lia.
  Qed.

  (** the state after a successful Delete satisfies the invariant: [y] = the
      node between [pre] and [post'] that goes; [U i] = the last node of the
      level-i chain of [0 :: pre] *)
  Section DEL.
    Variables (sk : skl) (ids pre post' : list nat) (y : nat) (h' : heap)
              (U : nat -> nat) (tail' : option nat) (level' : nat) (fc : Z).
    Let h := sheap sk.
    Let L := slevel sk.
    Hypothesis HI : inv sk ids.
    Hypothesis Hpp : pre ++ y :: post' = ids.
    Hypothesis HU : forall i, i < maxLevel -> exists a, lvl h i (0 :: pre) = a ++ [U i].
    Hypothesis Hf : same_nodes h h'.
    Hypothesis Hin : forall i, i < L -> spliced_out h h' i (U i) y.
    Hypothesis Hout : forall i, L <= i -> forall z, nxt h' z i = nxt h z i.
    Hypothesis Hpv : forall z,
      nprev (h' z) = match hd_error post' with Some w => if w =? z then nprev (h y) else nprev (h z)
                                          | None => nprev (h z) end.
    Hypothesis Htail : tail' = match post' with [] => nprev (h y) | _ => stail sk end.
    Hypothesis Hlev : 1 <= level' <= L /\ forall m, level' <= m < L -> nxt h' 0 m = Some None.

    Lemma d_nodup : NoDup ((0 :: pre) ++ y :: post').
    Proof. simpl. rewrite Hpp. apply (i_nodup _ _ HI). Qed.

    Lemma y_height : 1 <= height h y <= L.
    Proof. pose proof (i_hts _ _ HI) as H. rewrite <- Hpp in H. now apply Forall_elt in H. Qed.

    Lemma d_lvl i :
      lvl h i (0 :: ids) = lvl h i (0 :: pre) ++ (if i <? height h y then [y] else []) ++ lvl h i post'.
    Proof.
      rewrite <- Hpp. change (0 :: pre ++ y :: post') with ((0 :: pre) ++ [y] ++ post').
      now rewrite !lvl_app.
    Qed.

    Lemma d_chain i :
      chain h i (lvl h i (0 :: pre) ++ (if i <? height h y then [y] else []) ++ lvl h i post') None.
    Proof. rewrite <- d_lvl. apply nexts_ok_chain, (i_next _ _ HI). Qed.

    Lemma y_notin i : ~ In y (lvl h i post').
    Proof.
      intro Hy. apply filter_In in Hy as [Hy _]. pose proof d_nodup as Hnd.
      apply NoDup_remove_2 in Hnd. apply Hnd, in_or_app. now right.
    Qed.

    (** no index error when the loop reads [y.next[i]] *)
    Lemma upd_points i : i < maxLevel -> nxt h (U i) i = Some (Some y) -> i < height h y.
    Proof.
      intros Hi E. pose proof (d_chain i) as Hc. destruct (HU i Hi) as [a Ea].
      rewrite Ea, <- app_assoc in Hc. apply chain_points in Hc. rewrite Hc in E.
      destruct (Nat.ltb_spec i (height h y)); auto. exfalso. apply (y_notin i).
      simpl in E. destruct (lvl h i post'); inversion E. now left.
    Qed.

    Lemma del_next : nexts_ok h' (0 :: pre ++ post').
    Proof.
      apply nexts_ok_chain. intro i. pose proof (d_chain i) as Hc.
      change (0 :: pre ++ post') with ((0 :: pre) ++ post').
      rewrite (lvl_ext h h' i) by (intros z _; apply Hf). rewrite lvl_app.
      pose proof y_height as Hy. pose proof (i_lvl _ _ HI) as HL. fold L in HL.
      destruct (Nat.ltb_spec i L) as [Hi|Hi].
      - destruct (HU i) as [a Ea]; [lia|]. rewrite Ea, <- app_assoc in *.
        destruct (Nat.ltb_spec i (height h y)); cbn [app] in *.
        + apply (chain_splice_out h h' i a (U i) y); auto.
          pose proof (NoDup_filter (fun z => i <? height h z) (i_nodup _ _ HI)) as Hnd.
          change (NoDup (lvl h i (0 :: ids))) in Hnd. rewrite d_lvl, Ea, <- app_assoc in Hnd.
          now replace (i <? height h y) with true in Hnd by (symmetry; now apply Nat.ltb_lt).
        + apply (chain_not_spliced h h' i a (U i) y); auto. apply y_notin.
      - replace (i <? height h y) with false in Hc by (symmetry; apply Nat.ltb_ge; lia).
        apply (chain_frame h); auto.
    Qed.

    Lemma del_prev : prevs_ok h' (pre ++ post').
    Proof.
      pose proof d_nodup as Hnd. apply NoDup_cons_iff in Hnd as [_ Hnd]. apply NoDup_remove_1 in Hnd.
      pose proof (proj1 (prevs_ok_pchain h _) (i_prev _ _ HI)) as Hc. fold h in Hc.
      rewrite <- Hpp in Hc. apply pchain_app in Hc as (Hc1 & Hy & Hc2). rewrite last_or_none in Hy.
      (* only the head of [post'] gets a new [prev] *)
      assert (Hfr : forall z, In z (pre ++ tl post') -> nprev (h' z) = nprev (h z)).
      { intros z Hz. rewrite Hpv. destruct post' as [|w post'']; auto. cbn [hd_error].
        destruct (Nat.eqb_spec w z) as [->|N]; auto. now apply NoDup_remove_2 in Hnd. }
      apply prevs_ok_pchain, pchain_app. rewrite last_or_none. split.
      - apply (pchain_frame h); auto. intros z Hz. apply Hfr, in_or_app. auto.
      - destruct post' as [|w post'']; simpl; auto. destruct Hc2 as [_ Hc2].
        rewrite Hpv. cbn [hd_error]. rewrite Nat.eqb_refl. split; auto.
        apply (pchain_frame h); auto. intros z Hz. apply Hfr, in_or_app. auto.
    Qed.

    Lemma delete_inv :
      inv (mkSkl h' (ssize sk) tail' level' (pred (scount sk)) fc) (pre ++ post').
    Proof.
      pose proof (i_lvl _ _ HI) as HL. fold L in HL. destruct Hlev as [Hl1 Hl2].
      assert (H0 : height h' 0 = maxLevel) by (rewrite (proj1 (Hf 0)); apply (i_hd _ _ HI)).
      split; cbn [sheap ssize stail slevel scount].
      - apply (NoDup_remove_1 (0 :: pre) post' y), d_nodup.
      - pose proof (i_lt _ _ HI) as Hl. rewrite <- Hpp in Hl.
        change (0 :: pre ++ y :: post') with ((0 :: pre) ++ y :: post') in Hl.
        apply Forall_app in Hl as [H1 H2]. apply (Forall_app _ (0 :: pre)). split; auto.
        now apply Forall_inv_tail in H2.
      - exact H0.
      - apply del_next.
      - (* no node reaches the levels the header no longer points into *)
        pose proof (i_hts _ _ HI) as Hh. fold h L in Hh. rewrite <- Hpp in Hh.
        apply Forall_app in Hh as [H1 H2]. apply Forall_inv_tail in H2.
        pose proof (proj2 (Forall_app _ _ _) (conj H1 H2)) as Hh.
        rewrite Forall_forall in *. intros z Hz. specialize (Hh z Hz). rewrite (proj1 (Hf z)).
        split; [lia|]. destruct (Nat.le_gt_cases (height h z) level') as [|Hgt]; auto. exfalso.
        pose proof (nexts_ok_head h' 0 (pre ++ post') level' del_next) as Hn.
        rewrite Hl2 in Hn by lia. specialize (Hn ltac:(lia)). inversion Hn as [Hs]. symmetry in Hs.
        apply succ_at_none in Hs. unfold low in Hs. rewrite Forall_forall in Hs.
        specialize (Hs z Hz). rewrite (proj1 (Hf z)) in Hs. lia.
      - lia.
      - apply del_prev.
      - rewrite Htail. pose proof (i_prev _ _ HI) as Hold. fold h in Hold. rewrite <- Hpp in Hold.
        destruct post' as [|w post''].
        + rewrite app_nil_r. apply (Hold pre y []). reflexivity.
        + rewrite (i_tail _ _ HI), <- Hpp. now rewrite !last_opt_app by discriminate.
      - rewrite (i_cnt _ _ HI), <- Hpp, !app_length. simpl. lia.
      - pose proof (i_sorted _ _ HI) as Hs. fold h in Hs. rewrite <- Hpp in Hs.
        apply ssorted_remove_mid in Hs.
        apply (ssorted_ext (desc h)); auto. intros a b _ _. unfold desc, score_of.
        now rewrite (proj1 (proj2 (Hf a))), (proj1 (proj2 (Hf b))).
    Qed.

    Lemma delete_abs : absl h' (pre ++ post') = absl h (pre ++ post').
    Proof.
      unfold absl. apply map_ext. intro z. unfold entry.
      destruct (Hf z) as (_ & -> & ->). reflexivity.
    Qed.
  End DEL.

  Definition eq_score h (s : Z) y : bool := (sv_compare (nscore (h y)) s =? 0)%Z.

  (** the level-0 functions in terms of the split at the search position *)
  Section L0.
    Variables (h : heap) (s : Z).
    Let f := fun y => go_lt s (score_of h y).

    Lemma sl_find_split ids :
      sl_find s (absl h ids) =
      match dw f ids with
      | y :: _ => if eq_score h s y then Some (nval (h y)) else None
      | [] => None
      end.
    Proof.
      induction ids as [|y ids IH]; simpl; auto.
      unfold f, score_of, go_lt, eq_score in *.
      destruct (sv_compare (nscore (h y)) s <? 0)%Z; auto.
    Qed.

    Lemma sl_ge_split ids :
      sl_ge s (absl h ids) = option_map (entry h) (hd_error (dw f ids)).
    Proof.
      induction ids as [|y ids IH]; simpl; auto.
      unfold f, score_of, go_lt in *.
      destruct (sv_compare (nscore (h y)) s <? 0)%Z; auto.
    Qed.

    Lemma sl_delete_split ids :
      sl_delete s (absl h ids) =
      absl h (tw f ids ++ match dw f ids with
                          | y :: tl => if eq_score h s y then tl else y :: tl
                          | [] => []
                          end).
    Proof.
      induction ids as [|y ids IH]; simpl; auto.
      unfold f, score_of, go_lt, eq_score in *.
      destruct (sv_compare (nscore (h y)) s <? 0)%Z.
      - simpl. now rewrite IH.
      - simpl. destruct (sv_compare (nscore (h y)) s =? 0)%Z; reflexivity.
    Qed.

    Lemma sl_update_split (v : V) ids :
      sl_update s v (absl h ids) =
      absl h (tw f ids) ++ match dw f ids with
                           | y :: tl => if eq_score h s y then (nscore (h y), v) :: absl h tl
                                        else absl h (y :: tl)
                           | [] => []
                           end.
    Proof.
      induction ids as [|y ids IH]; simpl; auto.
      unfold f, score_of, go_lt, eq_score in *.
      destruct (sv_compare (nscore (h y)) s <? 0)%Z.
      - simpl. now rewrite IH.
      - simpl. destruct (sv_compare (nscore (h y)) s =? 0)%Z; reflexivity.
    Qed.
  End L0.

  Lemma inv_findc sk ids c : inv sk ids -> inv (with_findc sk c) ids.
  Proof. intros [A B C D E F G H I J]. split; auto. Qed.

  Lemma find_node_spec sk ids s :
    inv sk ids ->
    exists cnt,
      sk_find_node s sk =
      Ok (with_findc sk cnt,
          match dw (fun y => go_lt s (score_of (sheap sk) y)) ids with
          | y :: _ => if eq_score (sheap sk) s y then Some y else None
          | [] => None
          end).
  Proof.
    intro HI. unfold sk_find_node.
    destruct (locate_spec sk ids (go_lt s) HI (antitone_lt s)) as (pre & post & U & cnt & -> & HS).
    rewrite (loc_nxt HS), (loc_post HS). exists cnt.
    destruct post as [|y tl]; simpl; auto.
    unfold eq_score. destruct (sv_compare (nscore (sheap sk y)) s =? 0)%Z; reflexivity.
  Qed.

  Lemma sk_find_spec sk ids s :
    inv sk ids ->
    exists sk', sk_find s sk = Ok (sk', found s (absl (sheap sk) ids)) /\ inv sk' ids /\
                sheap sk' = sheap sk.
  Proof.
    intro HI. unfold sk_find. destruct (find_node_spec sk ids s HI) as [cnt ->]. simpl.
    exists (with_findc sk cnt). split; [|split; [now apply inv_findc|reflexivity]].
    f_equal. f_equal. unfold found. rewrite sl_find_split.
    destruct (dw _ ids) as [|y tl]; simpl; auto.
    unfold eq_score. rewrite cmp_eq.
    destruct (Z.eqb_spec (nscore (sheap sk y)) s) as [<-|]; reflexivity.
  Qed.

  Lemma sk_ge_spec sk ids s :
    inv sk ids ->
    exists sk', sk_ge s sk = Ok (sk', sl_ge s (absl (sheap sk) ids)) /\ inv sk' ids /\
                sheap sk' = sheap sk.
  Proof.
    intro HI. unfold sk_ge.
    destruct (locate_spec sk ids (go_lt s) HI (antitone_lt s)) as (pre & post & U & cnt & -> & HS).
    rewrite (loc_nxt HS), sl_ge_split, (loc_post HS).
    exists (with_findc sk cnt). split; [|split; [now apply inv_findc|reflexivity]].
    now destruct post.
  Qed.

  Lemma inv_frame sk ids h' fc :
    inv sk ids ->
    (forall z, nnext (h' z) = nnext (sheap sk z) /\ nprev (h' z) = nprev (sheap sk z) /\
               nscore (h' z) = nscore (sheap sk z)) ->
    inv (mkSkl h' (ssize sk) (stail sk) (slevel sk) (scount sk) fc) ids.
  Proof.
    intros [A B C D E F G H I J] Hf.
    assert (Hh : forall z, height h' z = height (sheap sk) z).
    { intro z. unfold height. now destruct (Hf z) as (-> & _). }
    assert (Hn : forall z i, nxt h' z i = nxt (sheap sk) z i).
    { intros z i. unfold nxt. now destruct (Hf z) as (-> & _). }
    split; cbn [sheap ssize stail slevel scount]; auto.
    - now rewrite Hh.
    - intros p1 p p2 Ep i Hi. rewrite Hh in Hi. rewrite Hn, (D p1 p p2 Ep i Hi). f_equal.
      symmetry. apply succ_at_ext. intros z _. apply Hh.
    - rewrite Forall_forall in *. intros z Hz. rewrite Hh. auto.
    - intros p1 p p2 Ep. destruct (Hf p) as (_ & -> & _). now apply (G p1 p p2).
    - apply (ssorted_ext (desc (sheap sk))); auto. intros a b _ _. unfold desc, score_of.
      destruct (Hf a) as (_ & _ & ->). destruct (Hf b) as (_ & _ & ->). auto.
  Qed.

  Lemma sk_update_spec sk ids s (v : V) :
    inv sk ids ->
    exists sk',
      sk_update s v sk =
        Ok (sk', match sl_find s (absl (sheap sk) ids) with Some _ => true | None => false end) /\
      inv sk' ids /\
      absl (sheap sk') ids = sl_update s v (absl (sheap sk) ids).
  Proof.
    intro HI. unfold sk_update. destruct (find_node_spec sk ids s HI) as [cnt ->]. simpl.
    rewrite sl_find_split, sl_update_split.
    set (f := fun y => go_lt s (score_of (sheap sk) y)).
    pose proof (tw_dw f ids) as Hpp.
    destruct (dw f ids) as [|y tl] eqn:Ed.
    - exists (with_findc sk cnt). simpl. split; auto. split; [now apply inv_findc|].
      rewrite app_nil_r in *. now rewrite Hpp.
    - destruct (eq_score (sheap sk) s y) eqn:Ee.
      + eexists. split; [reflexivity|]. cbn [sheap ssize stail slevel scount sfindc with_findc].
        split.
        * apply (inv_frame sk ids); auto. intro z.
          rewrite next_set_val, prev_set_val, score_set_val. auto.
        * pose proof (i_nodup _ _ HI) as Hnd. rewrite <- Hpp in Hnd.
          inversion Hnd as [|? ? _ Hnd']; subst.
          apply nodup_mid_notin in Hnd' as [N1 N2].
          rewrite <- Hpp at 1. unfold absl. rewrite map_app. simpl. f_equal; [|f_equal].
          -- apply map_ext_in. intros z Hz. unfold entry.
             rewrite score_set_val, val_set_val_other; auto. intros ->. auto.
          -- unfold entry. now rewrite score_set_val, val_set_val_same.
          -- apply map_ext_in. intros z Hz. unfold entry.
             rewrite score_set_val, val_set_val_other; auto. intros ->. auto.
      + exists (with_findc sk cnt). simpl. split; auto. split; [now apply inv_findc|].
        rewrite <- Hpp at 1. unfold absl. now rewrite map_app.
  Qed.

  Lemma sk_delete_spec sk ids s :
    inv sk ids ->
    exists sk' ids',
      sk_delete s sk =
        Ok (sk', match sl_find s (absl (sheap sk) ids) with Some _ => 1%Z | None => 0%Z end) /\
      inv sk' ids' /\
      absl (sheap sk') ids' = sl_delete s (absl (sheap sk) ids).
  Proof.
    intro HI.
    destruct (locate_spec sk ids (go_lt s) HI (antitone_lt s)) as (pre & post & U & cnt & Hloc & HS).
    destruct HS as [Epre Epost Hpp _ _ _ HU HUin Hst _].
    set (h := sheap sk) in *. set (L := slevel sk) in *.
    pose proof (i_lvl _ _ HI) as HL. fold L in HL.
    unfold sk_delete. rewrite Hloc. fold h L. rewrite Hst, sl_find_split, sl_delete_split, Epre, Epost.
    clear Hloc Epre Epost.
    destruct post as [|y post']; simpl.
    { exists sk, ids. split; auto. split; auto. fold h. now rewrite app_nil_r in *; subst. }
    fold (eq_score h s y). destruct (eq_score h s y) eqn:Ee.
    2:{ exists sk, ids. split; auto. split; auto. fold h. now rewrite Hpp. }
    (* the node y is unlinked *)
    pose proof (i_nodup _ _ HI) as Hnd. rewrite <- Hpp in Hnd.
    change (NoDup ((0 :: pre) ++ y :: post')) in Hnd.
    destruct (unlink_spec y U L 0 h) as (h1 & -> & Hf1 & Hp1 & Hin1 & Hout1).
    { intros i Hi. split; [apply HUin; lia|]. apply (upd_points sk ids pre post' y U HI Hpp HU). lia. }
    assert (Ey0 : nxt h1 y 0 = Some (hd_error post')).
    { destruct (Hin1 0) as [Hs _]; [lia|]. destruct (Hs Hst) as [_ Hs']. rewrite Hs'.
      - apply (inv_nxt0 sk ids (0 :: pre) y post' HI). simpl. now rewrite Hpp.
      - intro Hc. apply NoDup_remove_2 in Hnd. apply Hnd, in_or_app. left. rewrite Hc.
        apply HUin. unfold maxLevel. lia. }
    rewrite Ey0.
    set (p := nprev (h1 y)).
    destruct (set_prev_behind h1 (hd_error post') p) as (Hf2 & Hn2 & Hp2).
    set (h2 := match hd_error post' with Some z => set_prev h1 z p | None => h1 end) in *.
    set (tail' := match hd_error post' with Some _ => stail sk | None => p end).
    pose proof (same_nodes_trans _ _ _ Hf1 Hf2) as Hf.
    destruct (shrink_spec (nnext (h2 0)) L) as (l' & -> & Hl1 & Hl2 & Hl3).
    { fold (height h2 0). rewrite (proj1 (Hf 0)). unfold h. rewrite (i_hd _ _ HI). lia. }
    exists (mkSkl h2 (ssize sk) tail' l' (pred (scount sk)) (sfindc sk)), (pre ++ post').
    split.
    { unfold h2, tail'. destruct (hd_error post'); reflexivity. }
    split.
    - apply (delete_inv sk ids pre post' y h2 U tail' l' (sfindc sk)); auto; fold h L.
      + intros i Hi. apply (spliced_out_ext h h1); auto. apply Hin1. lia.
      + intros i Hi z. rewrite Hn2. apply Hout1. lia.
      + intro z. rewrite Hp2. unfold p. now rewrite !Hp1.
      + unfold tail', p. rewrite Hp1. destruct post'; reflexivity.
      + split; [lia|]. intros m Hm. unfold nxt. apply Hl3. exact Hm.
    - cbn [sheap]. now rewrite (delete_abs sk pre post' h2).
  Qed.

  Lemma step_refines sk ids (o : sop V) rnd :
    inv sk ids ->
    exists sk' ids' rnd',
      sk_step o sk rnd = Ok (sk', rnd', snd (l0_step o (absl (sheap sk) ids))) /\
      inv sk' ids' /\
      absl (sheap sk') ids' = fst (l0_step o (absl (sheap sk) ids)).
  Proof.
    intro HI. destruct o as [s v|s|s|s|s v]; simpl.
    - destruct (sk_insert_spec sk ids s v rnd HI) as (sk' & ids' & -> & HI' & Ea).
      simpl. eauto 6.
    - destruct (sk_delete_spec sk ids s HI) as (sk' & ids' & -> & HI' & Ea).
      simpl. eauto 6.
    - destruct (sk_find_spec sk ids s HI) as (sk' & -> & HI' & Eh).
      simpl. exists sk', ids, rnd. rewrite Eh. auto.
    - destruct (sk_ge_spec sk ids s HI) as (sk' & -> & HI' & Eh).
      simpl. exists sk', ids, rnd. rewrite Eh. auto.
    - destruct (sk_update_spec sk ids s v HI) as (sk' & -> & HI' & Ea).
      simpl. exists sk', ids, rnd. split; auto.
      destruct (sl_find s (absl (sheap sk) ids)); reflexivity.
  Qed.

  Lemma run_refines (ops : list (sop V)) : forall sk ids rnd,
    inv sk ids ->
    exists sk' ids',
      sk_run ops sk rnd = Ok (sk', snd (l0_run ops (absl (sheap sk) ids))) /\
      inv sk' ids' /\
      absl (sheap sk') ids' = fst (l0_run ops (absl (sheap sk) ids)).
  Proof.
    induction ops as [|o ops IH]; intros sk ids rnd HI; simpl.
    - eauto.
    - destruct (step_refines sk ids o rnd HI) as (sk1 & ids1 & rnd1 & -> & HI1 & E1).
      simpl. destruct (l0_step o (absl (sheap sk) ids)) as [l1 r1]. simpl in *.
      destruct (IH sk1 ids1 rnd1 HI1) as (sk2 & ids2 & -> & HI2 & E2).
      simpl. rewrite E1 in *. destruct (l0_run ops l1) as [l2 rs]. simpl in *.
      eauto.
  Qed.

  Theorem skiplist_refines (ms : Z) (mv : V) (rnd : list Z) (ops : list (sop V)) :
    let l := fst (l0_run ops []) in
    exists sk,
      sk_run ops (sk_new ms mv) rnd = Ok (sk, snd (l0_run ops [])) /\
      sk_walk sk = Ok l /\
      sk_back sk = Ok (rev l) /\
      sk_first sk = Ok (hd_error l) /\
      sk_last sk = last_opt l /\
      scount sk = length l.
  Proof.
    intro l.
    destruct (run_refines ops (sk_new ms mv) [] rnd (inv_new ms mv)) as (sk & ids & E & HI & Ea).
    exists sk. split; [exact E|]. simpl in Ea. fold l in Ea.
    destruct (observers sk ids HI) as (A & B & C & D & F). rewrite Ea in *. auto.
  Qed.

  Corollary skiplist_level_independent (ms : Z) (mv : V) (rnd1 rnd2 : list Z) (ops : list (sop V)) :
    exists sk1 sk2 rs,
      sk_run ops (sk_new ms mv) rnd1 = Ok (sk1, rs) /\
      sk_run ops (sk_new ms mv) rnd2 = Ok (sk2, rs) /\
      sk_walk sk1 = sk_walk sk2 /\ sk_back sk1 = sk_back sk2 /\
      sk_first sk1 = sk_first sk2 /\ sk_last sk1 = sk_last sk2 /\ scount sk1 = scount sk2.
  Proof.
    destruct (skiplist_refines ms mv rnd1 ops) as (sk1 & E1 & A1 & B1 & C1 & D1 & F1).
    destruct (skiplist_refines ms mv rnd2 ops) as (sk2 & E2 & A2 & B2 & C2 & D2 & F2).
    exists sk1, sk2, (snd (l0_run ops [])). repeat split; congruence.
  Qed.
End R.

(** what the Queue model does with its skip list are such histories *)
Definition insert_ops (it : item) (ql : list (Z * list item)) : list (sop (list item)) :=
  match sl_find (iscore it) ql with
  | None => [SFind (iscore it); SInsert (iscore it) [it]]
  | Some l => [SFind (iscore it); SUpdate (iscore it) (l ++ [it])]
  end.

Definition delete_ops (it : item) (ql : list (Z * list item)) : list (sop (list item)) :=
  match sl_find (iscore it) ql with
  | None => [SFind (iscore it)]
  | Some l =>
      match remove_elem (ihash it) l with
      | [] => [SFind (iscore it); SDelete (iscore it)]
      | l' => [SFind (iscore it); SUpdate (iscore it) l']
      end
  end.

Lemma queue_uses_level0 it ql :
  insert_skip it ql = fst (l0_run (insert_ops it ql) ql) /\
  delete_skip it ql = match sl_find (iscore it) ql with
                      | None => None
                      | Some _ => Some (fst (l0_run (delete_ops it ql) ql))
                      end.
Proof.
  unfold insert_skip, delete_skip, insert_ops, delete_ops.
  destruct (sl_find (iscore it) ql) as [l|]; simpl; split; auto.
  destruct (remove_elem (ihash it) l); reflexivity.
Qed.

(** non-vacuity: a history that builds several levels, deletes in the middle
    and drains; two different level streams *)
Example ex_skip_ops : list (sop Z) :=
  [SInsert 5 1; SInsert 3 2; SInsert 5 3; SInsert 9 4; SInsert (-2) 5; SFind 5; SDelete 5;
   SFind 5; SGe 4; SDelete 7; SUpdate 3 77; SFind 3; SDelete 9; SDelete (-2); SDelete 5; SDelete 3]%Z.

Example ex_skip_levels :
  (exists sk rs, sk_run (firstn 5 ex_skip_ops) (sk_new (-1)%Z 0%Z) [1; 1; 70000; 1; 65535; 3; 3; 3; 65535; 65535]%Z
                 = Ok (sk, rs) /\ slevel sk = 5) /\
  (exists sk rs, sk_run (firstn 5 ex_skip_ops) (sk_new (-1)%Z 0%Z) []%Z = Ok (sk, rs) /\ slevel sk = 1) /\
  fst (l0_run ex_skip_ops []) = [] /\
  fst (l0_run (firstn 12 ex_skip_ops) []) = [(9, 4); (5, 3); (3, 77); (-2, 5)]%Z.
Proof.
  (* only the level is evaluated, not the final heap *)
  assert (H : forall ops rnd n,
            match sk_run ops (sk_new (-1)%Z 0%Z) rnd with Ok (sk, _) => slevel sk | _ => 0 end = S n ->
            exists sk rs, sk_run ops (sk_new (-1)%Z 0%Z) rnd = Ok (sk, rs) /\ slevel sk = S n).
  { intros ops rnd n. destruct (sk_run ops _ rnd) as [[sk rs]| |]; [eauto|discriminate..]. }
  split; [|split; [|split]].
  - apply H. vm_compute. reflexivity.
  - apply H. vm_compute. reflexivity.
  - vm_compute. reflexivity.
  - vm_compute. reflexivity.
Qed.
