(** C24 — facts about the flat-list specification. *)
From Coq Require Import List ZArith NArith Bool Lia Sorted Permutation.
From C33 Require Import C24.Model C24.Spec.
Import ListNotations.
Open Scope Z_scope.

Lemma nodup_app_inv {A} (a b : list A) :
  NoDup (a ++ b) -> NoDup a /\ NoDup b /\ (forall x, In x a -> ~ In x b).
Proof.
  induction a as [|x a IH]; simpl; intro H.
  - repeat split; auto. constructor.
  - inversion H as [|? ? Hn Hd]; subst. destruct (IH Hd) as (Ha & Hb & Hx).
    repeat split; auto.
    + constructor; auto. intro Hi. apply Hn. apply in_or_app. now left.
    + intros y [->|Hy] Hyb.
      * apply Hn. apply in_or_app. now right.
      * exact (Hx y Hy Hyb).
Qed.

Lemma ssorted_app_l {A} (rel : A -> A -> Prop) (a b : list A) :
  StronglySorted rel (a ++ b) -> StronglySorted rel a.
Proof.
  induction a as [|x a IH]; simpl; intro H.
  - constructor.
  - apply StronglySorted_inv in H as [Hs Hf]. constructor; auto.
    apply Forall_app in Hf. tauto.
Qed.

Lemma ssorted_filter {A} (rel : A -> A -> Prop) (f : A -> bool) (l : list A) :
  StronglySorted rel l -> StronglySorted rel (filter f l).
Proof.
  induction l as [|x l IH]; simpl; intro H.
  - constructor.
  - apply StronglySorted_inv in H as [Hs Hf]. destruct (f x).
    + constructor; auto. rewrite Forall_forall in *. intros y Hy.
      apply filter_In in Hy as [Hy _]. auto.
    + auto.
Qed.

Lemma last_opt_app {A} (a b : list A) :
  b <> [] -> last_opt (a ++ b) = last_opt b.
Proof.
  intro Hb. induction a as [|x a IH]; simpl; auto.
  destruct (a ++ b) eqn:E.
  - destruct a; destruct b; simpl in E; try discriminate; contradiction.
  - exact IH.
Qed.

Lemma last_opt_snoc {A} (a : list A) (x : A) : last_opt (a ++ [x]) = Some x.
Proof. rewrite last_opt_app; [reflexivity|discriminate]. Qed.

Lemma last_opt_none {A} (l : list A) : last_opt l = None -> l = [].
Proof.
  destruct l as [|x l]; auto. intro H. exfalso.
  destruct (@exists_last _ (x :: l)) as (r & t & E); [discriminate|].
  rewrite E, last_opt_snoc in H. discriminate.
Qed.

Lemma last_opt_some {A} (l : list A) t : last_opt l = Some t -> l = removelast l ++ [t].
Proof.
  intro H. destruct l as [|x l]; [discriminate|].
  destruct (@exists_last _ (x :: l)) as (r & u & E); [discriminate|].
  rewrite E in *. rewrite last_opt_snoc in H. inversion H; subst.
  now rewrite removelast_last.
Qed.

Lemma cmp_lt a b : (sv_compare a b <? 0) = (a >? b).
Proof.
  unfold sv_compare, cBig, cEqual, cSmall.
  destruct (Z.gtb_spec a b); [reflexivity|]. destruct (Z.eqb_spec a b); reflexivity.
Qed.

Lemma cmp_eq a b : (sv_compare a b =? 0) = (a =? b).
Proof.
  unfold sv_compare, cBig, cEqual, cSmall.
  destruct (Z.gtb_spec a b).
  - symmetry. apply Z.eqb_neq. lia.
  - destruct (Z.eqb_spec a b); reflexivity.
Qed.

Lemma cmp_le a b : (sv_compare a b <=? 0) = (a >=? b).
Proof.
  unfold sv_compare, cBig, cEqual, cSmall. rewrite Z.geb_leb.
  destruct (Z.gtb_spec a b).
  - symmetry. apply Z.leb_le. lia.
  - destruct (Z.eqb_spec a b).
    + symmetry. apply Z.leb_le. lia.
    + symmetry. apply Z.leb_gt. lia.
Qed.

Lemma cmp_big a b : (sv_compare a b =? cBig) = (a >? b).
Proof.
  unfold sv_compare, cBig, cEqual, cSmall.
  destruct (Z.gtb_spec a b); [reflexivity|]. destruct (Z.eqb_spec a b); reflexivity.
Qed.

Definition hashes (l : list item) : list N := map ihash l.

Lemma has_hash_true h x : has_hash h x = true <-> ihash x = h.
Proof. unfold has_hash. apply N.eqb_eq. Qed.

Lemma spec_exist_in h l : spec_exist h l = true <-> In h (hashes l).
Proof.
  unfold spec_exist, hashes. rewrite existsb_exists, in_map_iff.
  split; intros (x & A & B).
  - exists x. apply has_hash_true in B. auto.
  - exists x. split; auto. now apply has_hash_true.
Qed.

Lemma spec_exist_false h l : spec_exist h l = false <-> ~ In h (hashes l).
Proof.
  rewrite <- spec_exist_in. destruct (spec_exist h l); split; intro H; try congruence; auto.
Qed.

Lemma nodup_hash_iff l : nodup_hash l = true <-> NoDup (hashes l).
Proof.
  induction l as [|x l IH]; simpl.
  - split; auto. constructor.
  - rewrite andb_true_iff, negb_true_iff, spec_exist_false, IH. split.
    + intros [A B]. constructor; auto.
    + intro H. inversion H; subst. auto.
Qed.

Lemma hash_inj l x y :
  NoDup (hashes l) -> In x l -> In y l -> ihash x = ihash y -> x = y.
Proof.
  induction l as [|z l IH]; simpl; intros Hn Hx Hy E; [contradiction|].
  inversion Hn as [|? ? Hni Hd]; subst.
  destruct Hx as [->|Hx], Hy as [->|Hy]; auto.
  - exfalso. apply Hni. rewrite E. now apply in_map.
  - exfalso. apply Hni. rewrite <- E. now apply in_map.
Qed.

Lemma filter_no_hash h l :
  ~ In h (hashes l) -> filter (fun x => negb (has_hash h x)) l = l.
Proof.
  induction l as [|x l IH]; simpl; intro H; auto.
  destruct (has_hash h x) eqn:E; simpl.
  - apply has_hash_true in E. exfalso. apply H. now left.
  - f_equal. apply IH. intro. apply H. now right.
Qed.

Lemma remove_elem_filter h l :
  NoDup (hashes l) -> remove_elem h l = filter (fun x => negb (has_hash h x)) l.
Proof.
  induction l as [|x l IH]; simpl; intro H; auto.
  inversion H as [|? ? Hn Hd]; subst. fold (has_hash h x).
  destruct (has_hash h x) eqn:E; simpl.
  - apply has_hash_true in E. subst. symmetry. now apply filter_no_hash.
  - f_equal. auto.
Qed.

Lemma remove_last_hash r t :
  NoDup (hashes (r ++ [t])) -> spec_remove_list (ihash t) (r ++ [t]) = r.
Proof.
  unfold spec_remove_list, hashes. rewrite map_app. intro H.
  apply nodup_app_inv in H as (_ & _ & Hx).
  rewrite filter_app. simpl. unfold has_hash at 2. rewrite N.eqb_refl. simpl.
  rewrite app_nil_r. apply filter_no_hash. intro Hi. apply (Hx _ Hi). now left.
Qed.

Lemma hashes_filter_nodup f l : NoDup (hashes l) -> NoDup (hashes (filter f l)).
Proof.
  induction l as [|x l IH]; simpl; intro H; auto.
  inversion H as [|? ? Hn Hd]; subst. destruct (f x); simpl; auto.
  constructor; auto. intro Hi. apply Hn. unfold hashes in *.
  apply in_map_iff in Hi as (y & E & Hy). apply filter_In in Hy as [Hy _].
  rewrite <- E. now apply in_map.
Qed.

Lemma in_remove_list h l x :
  In x (spec_remove_list h l) <-> In x l /\ ihash x <> h.
Proof.
  unfold spec_remove_list. rewrite filter_In, negb_true_iff.
  split; intros [A B]; split; auto.
  - intro E. apply has_hash_true in E. congruence.
  - destruct (has_hash h x) eqn:E; auto. apply has_hash_true in E. contradiction.
Qed.

Lemma spec_insert_perm it l : Permutation (it :: l) (spec_insert it l).
Proof.
  induction l as [|x l IH]; simpl; auto.
  destruct (iscore x >=? iscore it); auto.
  eapply perm_trans; [apply perm_swap|]. now constructor.
Qed.

Lemma spec_insert_in it l x : In x (spec_insert it l) <-> x = it \/ In x l.
Proof.
  split; intro H.
  - apply Permutation_in with (l' := it :: l) in H; [|apply Permutation_sym, spec_insert_perm].
    destruct H; auto.
  - apply Permutation_in with (l := it :: l); [apply spec_insert_perm|].
    destruct H; [left|right]; auto.
Qed.

Lemma spec_insert_length it l : length (spec_insert it l) = S (length l).
Proof. symmetry. apply (Permutation_length (spec_insert_perm it l)). Qed.

Lemma spec_insert_hashes it l :
  NoDup (hashes l) -> ~ In (ihash it) (hashes l) -> NoDup (hashes (spec_insert it l)).
Proof.
  intros Hn Hi. unfold hashes.
  eapply Permutation_NoDup; [apply Permutation_map, spec_insert_perm|].
  simpl. now constructor.
Qed.

Lemma spec_insert_bytes it l : spec_bytes (spec_insert it l) = spec_bytes l + isize it.
Proof.
  induction l as [|x l IH]; simpl; [lia|].
  destruct (iscore x >=? iscore it); simpl; lia.
Qed.

Lemma spec_insert_app_ge it a b :
  Forall (fun x => iscore x >= iscore it) a ->
  spec_insert it (a ++ b) = a ++ spec_insert it b.
Proof.
  induction a as [|x a IH]; simpl; intro H; auto.
  inversion H; subst. rewrite IH by auto.
  destruct (iscore x >=? iscore it) eqn:E; auto.
  rewrite Z.geb_leb in E. apply Z.leb_gt in E. lia.
Qed.

Lemma spec_insert_lt it b :
  match b with [] => True | x :: _ => iscore x < iscore it end ->
  spec_insert it b = it :: b.
Proof.
  destruct b as [|x b]; simpl; auto. intro H.
  destruct (iscore x >=? iscore it) eqn:E; auto.
  rewrite Z.geb_leb in E. apply Z.leb_le in E. lia.
Qed.

(** Position of the newcomer: behind every item scoring at least as much,
    in front of every item scoring less; nothing else moves. *)
Lemma spec_insert_split it l :
  StronglySorted (fun a b => iscore a >= iscore b) l ->
  exists l1 l2, l = l1 ++ l2 /\ spec_insert it l = l1 ++ it :: l2 /\
    Forall (fun x => iscore x >= iscore it) l1 /\
    Forall (fun x => iscore x < iscore it) l2.
Proof.
  induction l as [|x l IH]; simpl; intro H.
  - exists [], []. repeat split; constructor.
  - apply StronglySorted_inv in H as [Hs Hf].
    destruct (iscore x >=? iscore it) eqn:E.
    + destruct (IH Hs) as (l1 & l2 & E1 & E2 & F1 & F2).
      exists (x :: l1), l2. subst l. rewrite E2. repeat split; auto.
      constructor; auto. rewrite Z.geb_leb in E. apply Z.leb_le in E. lia.
    + rewrite Z.geb_leb in E. apply Z.leb_gt in E.
      exists [], (x :: l). repeat split; auto. constructor; [lia|].
      rewrite Forall_forall in *. intros y Hy. specialize (Hf y Hy). simpl in Hf. lia.
Qed.

(** Insertion keeps any order that refines the score order and puts the
    newcomer behind equal scores. *)
Lemma spec_insert_ssorted (rel : item -> item -> Prop) it l :
  (forall a b, rel a b -> iscore a >= iscore b) ->
  Forall (fun x => iscore x >= iscore it -> rel x it) l ->
  Forall (fun x => iscore x < iscore it -> rel it x) l ->
  StronglySorted rel l -> StronglySorted rel (spec_insert it l).
Proof.
  intros Hrel. induction l as [|x l IH]; simpl; intros H1 H2 Hs.
  - repeat constructor.
  - inversion H1 as [|? ? H1x H1l]; subst. inversion H2 as [|? ? H2x H2l]; subst.
    apply StronglySorted_inv in Hs as [Hs Hf].
    destruct (iscore x >=? iscore it) eqn:E.
    + rewrite Z.geb_leb in E. apply Z.leb_le in E.
      constructor; auto. rewrite Forall_forall. intros y Hy.
      apply spec_insert_in in Hy as [->|Hy].
      * apply H1x. lia.
      * rewrite Forall_forall in Hf. auto.
    + rewrite Z.geb_leb in E. apply Z.leb_gt in E.
      constructor; [constructor; auto|]. constructor; [apply H2x; lia|].
      rewrite Forall_forall in *. intros y Hy. apply H2l; auto.
      specialize (Hf y Hy). apply Hrel in Hf. lia.
Qed.

Definition score_ge (a b : item) : Prop := iscore a >= iscore b.

Lemma spec_insert_sorted it l :
  StronglySorted score_ge l -> StronglySorted score_ge (spec_insert it l).
Proof.
  apply spec_insert_ssorted; unfold score_ge; auto.
  - apply Forall_forall. auto.
  - apply Forall_forall. intros. lia.
Qed.

Lemma sorted_desc_iff l : sorted_desc l = true <-> StronglySorted score_ge l.
Proof.
  induction l as [|x l IH].
  - simpl. split; auto. constructor.
  - split; intro H.
    + assert (Hl : sorted_desc l = true).
      { simpl in H. destruct l; auto. apply andb_true_iff in H. tauto. }
      apply IH in Hl. constructor; auto.
      destruct l as [|y l]; constructor.
      * simpl in H. apply andb_true_iff in H as [H _].
        rewrite Z.geb_leb in H. apply Z.leb_le in H. unfold score_ge. lia.
      * apply StronglySorted_inv in Hl as [_ Hf]. rewrite Forall_forall in *.
        intros z Hz. specialize (Hf z Hz). unfold score_ge in *.
        simpl in H. apply andb_true_iff in H as [H _].
        rewrite Z.geb_leb in H. apply Z.leb_le in H. lia.
    + apply StronglySorted_inv in H as [Hs Hf]. apply IH in Hs.
      simpl. destruct l as [|y l]; auto. apply andb_true_iff. split; auto.
      inversion Hf; subst. unfold score_ge in *. rewrite Z.geb_leb. apply Z.leb_le. lia.
Qed.

Lemma take_count_all {A} (c : Z) (l : list A) : c <= 0 -> take_count c l = l.
Proof.
  revert c. induction l as [|x l IH]; simpl; intros c Hc; auto.
  destruct (c =? 1) eqn:E; [apply Z.eqb_eq in E; lia|].
  f_equal. apply IH. lia.
Qed.

Lemma take_count_firstn {A} (c : Z) (l : list A) :
  0 < c -> take_count c l = firstn (Z.to_nat c) l.
Proof.
  revert c. induction l as [|x l IH]; simpl; intros c Hc.
  - now rewrite firstn_nil.
  - replace (Z.to_nat c) with (S (Z.to_nat (c - 1))) by lia. simpl. f_equal.
    destruct (c =? 1) eqn:E.
    + apply Z.eqb_eq in E. subst. simpl. reflexivity.
    + apply Z.eqb_neq in E. apply IH. lia.
Qed.

Lemma take_count_spec {A} (c : Z) (l : list A) :
  take_count c l = if c <=? 0 then l else firstn (Z.to_nat c) l.
Proof.
  destruct (c <=? 0) eqn:E.
  - apply Z.leb_le in E. now apply take_count_all.
  - apply Z.leb_gt in E. now apply take_count_firstn.
Qed.
