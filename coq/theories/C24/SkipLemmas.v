(** C24 layer 2 — basic facts: lists, the heap primitives of [SkipModel.v],
    the level-i successor / last-node-above functions, the level-structure
    predicates [nexts_ok] / [prevs_ok] and their reading as linked chains. *)
From Coq Require Import List ZArith NArith Bool Arith Lia Sorted.
From C33 Require Import C24.Model C24.ProofsSpec C24.SkipModel.
Import ListNotations.
Local Open Scope nat_scope.

Lemma set_nth_length {A} i (v : A) l : length (set_nth i v l) = length l.
Proof. revert i. induction l as [|a l IH]; intros [|i]; simpl; auto. Qed.

Lemma nth_error_set_nth_same {A} i (v : A) l :
  i < length l -> nth_error (set_nth i v l) i = Some v.
Proof.
  revert i. induction l as [|a l IH]; intros [|i] H; simpl in *; try lia; auto.
  apply IH. lia.
Qed.

Lemma nth_error_set_nth_other {A} i j (v : A) l :
  i <> j -> nth_error (set_nth i v l) j = nth_error l j.
Proof.
  revert i j. induction l as [|a l IH]; intros [|i] [|j] H; simpl; auto; try lia.
Qed.

Lemma nth_error_repeat {A} (a : A) n i : i < n -> nth_error (repeat a n) i = Some a.
Proof. revert i. induction n; intros [|i] H; simpl; try lia; auto. apply IHn. lia. Qed.

Lemma nodup_mid_notin {A} (a b : list A) x : NoDup (a ++ x :: b) -> ~ In x a /\ ~ In x b.
Proof.
  intro H. apply NoDup_remove_2 in H. split; intro Hi; apply H; apply in_or_app; auto.
Qed.

Lemma last_opt_last {A} (l : list A) d : l <> [] -> last_opt l = Some (last l d).
Proof.
  induction l as [|x l IH]; intro H; [congruence|].
  destruct l as [|y l]; auto. change (last_opt (y :: l) = Some (last (y :: l) d)).
  apply IH. congruence.
Qed.

Lemma last_default {A} (l : list A) a d d' : last (a :: l) d = last (a :: l) d'.
Proof.
  revert a. induction l as [|b l IH]; intro a; [reflexivity|].
  change (last (b :: l) d = last (b :: l) d'). apply IH.
Qed.

(** the first element of [l], or [e] behind its end; the last one, or [p] before its start *)
Definition first_or {A} (e : option A) (l : list A) : option A :=
  match l with [] => e | a :: _ => Some a end.
Fixpoint last_or {A} (p : option A) (l : list A) : option A :=
  match l with [] => p | a :: tl => last_or (Some a) tl end.

Lemma first_or_app {A} (e : option A) a b : first_or e (a ++ b) = first_or (first_or e b) a.
Proof. destruct a; reflexivity. Qed.

Lemma last_or_none {A} (l : list A) : last_or None l = last_opt l.
Proof.
  destruct l as [|a l]; [reflexivity|]. simpl. revert a.
  induction l as [|b l IH]; intro a; [reflexivity|]. apply IH.
Qed.

Lemma ssorted_mid {A} (R : A -> A -> Prop) pre x post :
  StronglySorted R (pre ++ post) -> Forall (fun y => R y x) pre -> Forall (R x) post ->
  StronglySorted R (pre ++ x :: post).
Proof.
  induction pre as [|a pre IH]; simpl; intros Hs Hp Hq.
  - constructor; auto.
  - inversion Hs as [|? ? Hs' Ha]; subst. inversion Hp as [|? ? Hax Hp']; subst.
    constructor; auto. apply Forall_app in Ha as [Ha1 Ha2].
    apply Forall_app. split; auto.
Qed.

Lemma ssorted_remove_mid {A} (R : A -> A -> Prop) pre x post :
  StronglySorted R (pre ++ x :: post) -> StronglySorted R (pre ++ post).
Proof.
  induction pre as [|a pre IH]; simpl; intro Hs; inversion Hs as [|? ? Hs' Ha]; subst; auto.
  constructor; auto. apply Forall_app in Ha as [Ha1 Ha2]. inversion Ha2; subst.
  apply Forall_app. auto.
Qed.

Lemma ssorted_ext {A} (R R' : A -> A -> Prop) l :
  (forall a b, In a l -> In b l -> R a b -> R' a b) -> StronglySorted R l -> StronglySorted R' l.
Proof.
  induction l as [|a l IH]; intros He Hs; constructor; inversion Hs as [|? ? Hs' Ha]; subst.
  - apply IH; auto. intros x y Hx Hy. apply He; now right.
  - rewrite Forall_forall in *. intros y Hy. apply He; [now left|now right|auto].
Qed.

Section H.
  Context {V : Type}.
  Notation heap := (heap V).
  Implicit Types (h : heap) (x y u i k : nat).

  Definition height h x : nat := length (nnext (h x)).

  Lemma hset_same h x n : hset h x n x = n.
  Proof. unfold hset. now rewrite Nat.eqb_refl. Qed.
  Lemma hset_other h x n y : y <> x -> hset h x n y = h y.
  Proof. intro H. unfold hset. apply Nat.eqb_neq in H. now rewrite H. Qed.

  Lemma nxt_lt h x i o : nxt h x i = Some o -> i < height h x.
  Proof. unfold nxt, height. intro H. apply nth_error_Some. congruence. Qed.
  Lemma nxt_ge h x i : height h x <= i -> nxt h x i = None.
  Proof. unfold nxt, height. apply nth_error_None. Qed.
  Lemma nxt_some h x i : i < height h x -> exists o, nxt h x i = Some o.
  Proof.
    unfold nxt, height. intro H. destruct (nth_error (nnext (h x)) i) eqn:E; eauto.
    apply nth_error_None in E. lia.
  Qed.

  (** a setter leaves alone every field it copies *)
  Lemma hset_proj {A} (f : node V -> A) h x n y : f n = f (h x) -> f (hset h x n y) = f (h y).
  Proof. intro H. unfold hset. now destruct (Nat.eqb_spec y x) as [->|]. Qed.

  Lemma height_set_next h x k v y : height (set_next h x k v) y = height h y.
  Proof. apply (hset_proj (fun n => length (nnext n))). apply set_nth_length. Qed.
  Lemma nxt_set_next_same h x k v : k < height h x -> nxt (set_next h x k v) x k = Some v.
  Proof. intro H. unfold nxt, set_next. rewrite hset_same. simpl. now apply nth_error_set_nth_same. Qed.
  Lemma nxt_set_next_slot h x k v y i : i <> k -> nxt (set_next h x k v) y i = nxt h y i.
  Proof.
    intro H. apply (hset_proj (fun n => nth_error (nnext n) i)). simpl. apply nth_error_set_nth_other. auto.
  Qed.
  Lemma nxt_set_next_node h x k v y i : y <> x -> nxt (set_next h x k v) y i = nxt h y i.
  Proof. intro H. unfold nxt, set_next. now rewrite hset_other. Qed.
  Lemma prev_set_next h x k v y : nprev (set_next h x k v y) = nprev (h y).
  Proof. now apply (hset_proj nprev). Qed.
  Lemma score_set_next h x k v y : nscore (set_next h x k v y) = nscore (h y).
  Proof. now apply (hset_proj nscore). Qed.
  Lemma val_set_next h x k v y : nval (set_next h x k v y) = nval (h y).
  Proof. now apply (hset_proj nval). Qed.

  Lemma next_set_prev h x p y : nnext (set_prev h x p y) = nnext (h y).
  Proof. now apply (hset_proj nnext). Qed.
  Lemma nxt_set_prev h x p y i : nxt (set_prev h x p) y i = nxt h y i.
  Proof. unfold nxt. now rewrite next_set_prev. Qed.
  Lemma height_set_prev h x p y : height (set_prev h x p) y = height h y.
  Proof. unfold height. now rewrite next_set_prev. Qed.
  Lemma score_set_prev h x p y : nscore (set_prev h x p y) = nscore (h y).
  Proof. now apply (hset_proj nscore). Qed.
  Lemma val_set_prev h x p y : nval (set_prev h x p y) = nval (h y).
  Proof. now apply (hset_proj nval). Qed.
  Lemma prev_set_prev_same h x p : nprev (set_prev h x p x) = p.
  Proof. unfold set_prev. now rewrite hset_same. Qed.
  Lemma prev_set_prev_other h x p y : y <> x -> nprev (set_prev h x p y) = nprev (h y).
  Proof. intro H. unfold set_prev. now rewrite hset_other. Qed.

  Lemma next_set_val h x v y : nnext (set_val h x v y) = nnext (h y).
  Proof. now apply (hset_proj nnext). Qed.
  Lemma nxt_set_val h x v y i : nxt (set_val h x v) y i = nxt h y i.
  Proof. unfold nxt. now rewrite next_set_val. Qed.
  Lemma height_set_val h x v y : height (set_val h x v) y = height h y.
  Proof. unfold height. now rewrite next_set_val. Qed.
  Lemma score_set_val h x v y : nscore (set_val h x v y) = nscore (h y).
  Proof. now apply (hset_proj nscore). Qed.
  Lemma prev_set_val h x v y : nprev (set_val h x v y) = nprev (h y).
  Proof. now apply (hset_proj nprev). Qed.
  Lemma val_set_val_same h x v : nval (set_val h x v x) = v.
  Proof. unfold set_val. now rewrite hset_same. Qed.
  Lemma val_set_val_other h x v y : y <> x -> nval (set_val h x v y) = nval (h y).
  Proof. intro H. unfold set_val. now rewrite hset_other. Qed.

  (** what [set_next] and [set_prev] leave alone *)
  Definition same_nodes h h' : Prop :=
    forall y, height h' y = height h y /\ nscore (h' y) = nscore (h y) /\ nval (h' y) = nval (h y).

  Lemma same_nodes_refl h : same_nodes h h.
  Proof. intro y. auto. Qed.
  Lemma same_nodes_trans h1 h2 h3 : same_nodes h1 h2 -> same_nodes h2 h3 -> same_nodes h1 h3.
  Proof. intros A B y. destruct (A y) as (<- & <- & <-). apply B. Qed.
  Lemma same_nodes_set_next h x k v : same_nodes h (set_next h x k v).
  Proof. intro y. now rewrite height_set_next, score_set_next, val_set_next. Qed.
  Lemma same_nodes_set_prev h x p : same_nodes h (set_prev h x p).
  Proof. intro y. now rewrite height_set_prev, score_set_prev, val_set_prev. Qed.

  (** the last step of Insert and of Delete: the node behind, if there is one,
      gets a new [prev] *)
  Lemma set_prev_behind h (o : option nat) p :
    let h' := match o with Some z => set_prev h z p | None => h end in
    same_nodes h h' /\ (forall y i, nxt h' y i = nxt h y i) /\
    forall y, nprev (h' y) = match o with Some z => if z =? y then p else nprev (h y) | None => nprev (h y) end.
  Proof.
    destruct o as [z|]; cbv zeta; [|repeat split; auto].
    split; [apply same_nodes_set_prev|]. split; [apply nxt_set_prev|].
    intro y. destruct (Nat.eqb_spec z y) as [<-|N]; [apply prev_set_prev_same|now apply prev_set_prev_other, not_eq_sym].
  Qed.

  (** the first node of [l] of height > i; the last one, or [d] *)
  Fixpoint succ_at h i (l : list nat) : option nat :=
    match l with
    | [] => None
    | y :: tl => if i <? height h y then Some y else succ_at h i tl
    end.

  Fixpoint last_above h i (l : list nat) (d : nat) : nat :=
    match l with
    | [] => d
    | y :: tl => last_above h i tl (if i <? height h y then y else d)
    end.

  Definition low h i (l : list nat) : Prop := Forall (fun y => height h y <= i) l.

  Lemma succ_at_none h i l : succ_at h i l = None <-> low h i l.
  Proof.
    unfold low. induction l as [|y l IH]; simpl.
    - split; auto.
    - destruct (i <? height h y) eqn:E.
      + apply Nat.ltb_lt in E. split; [discriminate|]. intro H. inversion H. lia.
      + apply Nat.ltb_ge in E. rewrite IH. split; intro H; [constructor; auto|now inversion H].
  Qed.

  Lemma succ_at_some h i l z : succ_at h i l = Some z -> In z l /\ i < height h z.
  Proof.
    induction l as [|y l IH]; simpl; [discriminate|].
    destruct (i <? height h y) eqn:E.
    - intro H. inversion H. subst. apply Nat.ltb_lt in E. auto.
    - intro H. destruct (IH H). auto.
  Qed.

  Lemma succ_at_app h i a b :
    succ_at h i (a ++ b) = match succ_at h i a with Some z => Some z | None => succ_at h i b end.
  Proof. induction a as [|y a IH]; simpl; auto. destruct (i <? height h y); auto. Qed.

  Lemma succ_at_ext h h' i l :
    (forall y, In y l -> height h' y = height h y) -> succ_at h' i l = succ_at h i l.
  Proof.
    induction l as [|y l IH]; intro H; simpl; auto.
    rewrite (H y) by (now left). rewrite IH; auto. intros z Hz. apply H. now right.
  Qed.

  Lemma succ_at_level0 h l :
    Forall (fun y => 1 <= height h y) l -> succ_at h 0 l = hd_error l.
  Proof.
    intro H. destruct l as [|y l]; simpl; auto. inversion H; subst.
    replace (0 <? height h y) with true; auto. symmetry. apply Nat.ltb_lt. lia.
  Qed.

  Lemma last_above_app h i a b d :
    last_above h i (a ++ b) d = last_above h i b (last_above h i a d).
  Proof. revert d. induction a as [|y a IH]; intro d; simpl; auto. Qed.

  Lemma last_above_low h i l d : low h i l -> last_above h i l d = d.
  Proof.
    unfold low. revert d. induction l as [|y l IH]; intros d H; simpl; auto.
    inversion H; subst. replace (i <? height h y) with false; auto.
    symmetry. apply Nat.ltb_ge. lia.
  Qed.

  Lemma last_above_cases h i l d :
    (last_above h i l d = d /\ low h i l) \/
    (exists p1 p2, l = p1 ++ last_above h i l d :: p2 /\
                   i < height h (last_above h i l d) /\ low h i p2).
  Proof.
    revert d. induction l as [|y l IH]; intro d; simpl.
    - left. split; auto. constructor.
    - destruct (IH (if i <? height h y then y else d)) as [[E L]|(p1 & p2 & E & Hh & L)].
      + destruct (i <? height h y) eqn:Ey.
        * right. exists [], l. rewrite E. simpl. apply Nat.ltb_lt in Ey. auto.
        * left. split; auto. constructor; auto. apply Nat.ltb_ge in Ey. lia.
      + right. exists (y :: p1), p2. simpl. split; [|auto]. f_equal. exact E.
  Qed.

  Lemma last_above_ext h h' i l d :
    (forall y, In y l -> height h' y = height h y) -> last_above h' i l d = last_above h i l d.
  Proof.
    revert d. induction l as [|y l IH]; intros d H; simpl; auto.
    rewrite (H y) by (now left). apply IH. intros z Hz. apply H. now right.
  Qed.

  Lemma last_above_level0 h l d :
    Forall (fun y => 1 <= height h y) l -> last_above h 0 l d = last l d.
  Proof.
    revert d. induction l as [|y l IH]; intros d H; simpl; auto.
    inversion H; subst. replace (0 <? height h y) with true by (symmetry; apply Nat.ltb_lt; lia).
    rewrite IH; auto. destruct l as [|z l]; auto.
    change (last (z :: l) y = last (z :: l) d). apply last_default.
  Qed.

  (** every node's slot i points to the next node of height > i *)
  Definition nexts_ok h (c : list nat) : Prop :=
    forall p1 p p2, c = p1 ++ p :: p2 ->
    forall i, i < height h p -> nxt h p i = Some (succ_at h i p2).

  Definition prevs_ok h (c : list nat) : Prop :=
    forall p1 p p2, c = p1 ++ p :: p2 -> nprev (h p) = last_opt p1.

  Lemma nexts_ok_app_r h a b : nexts_ok h (a ++ b) -> nexts_ok h b.
  Proof. intros H p1 p p2 E. apply (H (a ++ p1)). rewrite E. now rewrite app_assoc. Qed.

  Lemma nexts_ok_tail h a c : nexts_ok h (a :: c) -> nexts_ok h c.
  Proof. apply (nexts_ok_app_r h [a] c). Qed.

  Lemma nexts_ok_head h a c i : nexts_ok h (a :: c) -> i < height h a -> nxt h a i = Some (succ_at h i c).
  Proof. intros H. apply (H [] a c). reflexivity. Qed.

  Lemma prevs_ok_app_l h a b : prevs_ok h (a ++ b) -> prevs_ok h a.
  Proof. intros H p1 p p2 E. apply (H p1 p (p2 ++ b)). rewrite E. now rewrite <- app_assoc. Qed.

  (** The nodes of height > i, in list order, are linked through their slots i;
      [nexts_ok] says so by position in the list.  Insert and Delete change
      one pointer per level, which is easier to follow on the chain itself. *)
  Definition lvl h i (c : list nat) : list nat := filter (fun y => i <? height h y) c.

  Fixpoint chain h i (l : list nat) (e : option nat) : Prop :=
    match l with
    | [] => True
    | a :: tl => nxt h a i = Some (first_or e tl) /\ chain h i tl e
    end.

  Lemma succ_at_lvl h i l : succ_at h i l = first_or None (lvl h i l).
  Proof. induction l as [|y l IH]; simpl; auto. destruct (i <? height h y); auto. Qed.

  Lemma lvl_ext h h' i l :
    (forall y, In y l -> height h' y = height h y) -> lvl h' i l = lvl h i l.
  Proof. intro H. apply filter_ext_in. intros y Hy. now rewrite (H y Hy). Qed.

  Lemma lvl_app h i a b : lvl h i (a ++ b) = lvl h i a ++ lvl h i b.
  Proof. apply filter_app. Qed.

  Lemma lvl_all h i l : Forall (fun y => i < height h y) l -> lvl h i l = l.
  Proof.
    induction 1 as [|y l Hy _ IH]; [reflexivity|]. unfold lvl in *. simpl.
    apply Nat.ltb_lt in Hy. now rewrite Hy, IH.
  Qed.

  Lemma lvl_cons_above h i d l : i < height h d -> lvl h i (d :: l) = d :: lvl h i l.
  Proof. intro H. apply Nat.ltb_lt in H. unfold lvl. simpl. now rewrite H. Qed.

  Lemma lvl_last_above h i l : forall d,
    i < height h d -> exists a, lvl h i (d :: l) = a ++ [last_above h i l d].
  Proof.
    induction l as [|y l IH]; intros d Hd; rewrite (lvl_cons_above h i d _ Hd).
    - now exists [].
    - simpl. destruct (Nat.ltb_spec i (height h y)) as [Hy|Hy].
      + destruct (IH y Hy) as [a Ea]. fold (lvl h i l). rewrite <- (lvl_cons_above h i y l Hy), Ea.
        now exists (d :: a).
      + rewrite <- (lvl_cons_above h i d l Hd). apply IH, Hd.
  Qed.

  Lemma chain_app h i a b e :
    chain h i (a ++ b) e <-> chain h i a (first_or e b) /\ chain h i b e.
  Proof.
    induction a as [|y a IH]; simpl; [tauto|]. rewrite first_or_app, IH. tauto.
  Qed.

  Lemma chain_frame h h' i l e :
    (forall y, In y l -> nxt h' y i = nxt h y i) -> chain h i l e -> chain h' i l e.
  Proof.
    induction l as [|y l IH]; simpl; auto. intros H [A B]. split.
    - rewrite H; auto.
    - apply IH; auto.
  Qed.

  Lemma nexts_ok_chain h c : nexts_ok h c <-> forall i, chain h i (lvl h i c) None.
  Proof.
    split.
    - intros H i. induction c as [|a c IH]; [exact I|].
      specialize (IH (nexts_ok_tail h a c H)). unfold lvl. simpl.
      destruct (Nat.ltb_spec i (height h a)) as [Ha|Ha]; auto. split; auto.
      rewrite (nexts_ok_head h a c i H Ha). now rewrite succ_at_lvl.
    - intros H p1 p p2 -> i Hi. specialize (H i). unfold lvl in H.
      rewrite filter_app in H. apply chain_app in H as [_ H]. simpl in H.
      apply Nat.ltb_lt in Hi. rewrite Hi in H. destruct H as [H _].
      now rewrite H, succ_at_lvl.
  Qed.

  (** the two pointer changes, at one level: [x] goes in behind [u]; [y] goes
      out if it is what [u] points to *)
  Definition spliced_in h h' i u x : Prop :=
    nxt h' u i = Some (Some x) /\ nxt h' x i = nxt h u i /\
    forall y, y <> u -> y <> x -> nxt h' y i = nxt h y i.

  Definition spliced_out h h' i u y : Prop :=
    (nxt h u i = Some (Some y) ->
       nxt h' u i = nxt h y i /\ forall z, z <> u -> nxt h' z i = nxt h z i) /\
    (nxt h u i <> Some (Some y) -> forall z, nxt h' z i = nxt h z i).

  Lemma spliced_in_ext h h' h0 h0' i u x :
    u <> x -> (forall y, y <> x -> nxt h0 y i = nxt h y i) -> (forall y, nxt h0' y i = nxt h' y i) ->
    spliced_in h h' i u x -> spliced_in h0 h0' i u x.
  Proof.
    intros Hu E E' (A & B & C). repeat split; intros; rewrite !E', ?E; auto.
  Qed.

  Lemma spliced_out_ext h h' h0 h0' i u y :
    (forall z, nxt h0 z i = nxt h z i) -> (forall z, nxt h0' z i = nxt h' z i) ->
    spliced_out h h' i u y -> spliced_out h0 h0' i u y.
  Proof.
    intros E E' (A & B). split; rewrite E; intro H.
    - destruct (A H) as [A1 A2]. split; intros; rewrite !E', E; auto.
    - intro z. rewrite E', E. auto.
  Qed.

  Lemma chain_points h i a u b e : chain h i (a ++ u :: b) e -> nxt h u i = Some (first_or e b).
  Proof. intro H. now apply chain_app in H as (_ & H & _). Qed.

  Lemma chain_splice_in h h' i a u x b e :
    NoDup (a ++ u :: b) -> ~ In x (a ++ u :: b) -> spliced_in h h' i u x ->
    chain h i (a ++ u :: b) e -> chain h' i (a ++ u :: x :: b) e.
  Proof.
    intros Hnd Hx (Hu & Hxn & Hfr) Hc. apply NoDup_remove_2 in Hnd.
    assert (Hy : forall y, In y a \/ In y b -> nxt h' y i = nxt h y i).
    { intros y Hy. apply Hfr; intros ->; [apply Hnd|apply Hx]; apply in_or_app; simpl; tauto. }
    apply chain_app in Hc as (Ha & Hub & Hb). apply chain_app. simpl. repeat split.
    - apply (chain_frame h); auto.
    - exact Hu.
    - now rewrite Hxn.
    - apply (chain_frame h); auto.
  Qed.

  Lemma chain_splice_out h h' i a u y b e :
    NoDup (a ++ u :: y :: b) -> spliced_out h h' i u y ->
    chain h i (a ++ u :: y :: b) e -> chain h' i (a ++ u :: b) e.
  Proof.
    intros Hnd [Hs _] Hc. destruct (Hs (chain_points h i a u _ e Hc)) as [Hu Hfr].
    apply NoDup_remove_2 in Hnd.
    assert (Hz : forall z, In z a \/ In z b -> nxt h' z i = nxt h z i).
    { intros z Hz. apply Hfr. intros ->. apply Hnd, in_or_app. simpl. tauto. }
    apply chain_app in Hc as (Ha & _ & Hyb & Hb). apply chain_app. simpl. repeat split.
    - apply (chain_frame h); auto.
    - now rewrite Hu.
    - apply (chain_frame h); auto.
  Qed.

  (** [y] is not in the chain: nothing happens *)
  Lemma chain_not_spliced h h' i a u y b :
    ~ In y b -> spliced_out h h' i u y ->
    chain h i (a ++ u :: b) None -> chain h' i (a ++ u :: b) None.
  Proof.
    intros Hy [_ Hs] Hc. apply (chain_frame h); auto. intros z _. apply Hs.
    rewrite (chain_points h i a u b None Hc). intro E. apply Hy.
    destruct b; inversion E. now left.
  Qed.

  (** the same for [prev]: each node's [prev] is its predecessor in the list, the first one's is [p] *)
  Fixpoint pchain h (p : option nat) (l : list nat) : Prop :=
    match l with
    | [] => True
    | a :: tl => nprev (h a) = p /\ pchain h (Some a) tl
    end.

  Lemma pchain_app h a : forall p b,
    pchain h p (a ++ b) <-> pchain h p a /\ pchain h (last_or p a) b.
  Proof. induction a as [|y a IH]; intros p b; simpl; [tauto|]. rewrite IH. tauto. Qed.

  Lemma pchain_frame h h' l : forall p,
    (forall y, In y l -> nprev (h' y) = nprev (h y)) -> pchain h p l -> pchain h' p l.
  Proof.
    induction l as [|y l IH]; simpl; auto. intros p H [A B]. split.
    - rewrite H; auto.
    - apply IH; auto.
  Qed.

  Lemma prevs_ok_pchain h c : prevs_ok h c <-> pchain h None c.
  Proof.
    split.
    - intro H. induction c as [|a c IH] using rev_ind; [exact I|].
      apply pchain_app. split; [apply IH, (prevs_ok_app_l h c [a] H)|].
      simpl. split; auto. rewrite last_or_none. now apply (H c a []).
    - intros H p1 p p2 ->. apply pchain_app in H as [_ [H _]]. now rewrite last_or_none in H.
  Qed.
End H.
