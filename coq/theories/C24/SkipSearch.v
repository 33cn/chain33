(** C24 layer 2 — the search: what [walk] / [descend] / [locate] return on a
    well-formed level structure, the invariant [inv], and the observers. *)
From Coq Require Import List ZArith NArith Bool Arith Lia Sorted.
From C33 Require Import C24.Model C24.ProofsSpec C24.SkipModel C24.SkipLemmas.
Import ListNotations.
Local Open Scope nat_scope.

(** prefix on which [f] holds / the rest *)
Fixpoint tw {A} (f : A -> bool) (l : list A) : list A :=
  match l with [] => [] | y :: tl => if f y then y :: tw f tl else [] end.
Fixpoint dw {A} (f : A -> bool) (l : list A) : list A :=
  match l with [] => [] | y :: tl => if f y then dw f tl else l end.

Lemma tw_dw {A} (f : A -> bool) l : tw f l ++ dw f l = l.
Proof. induction l as [|y l IH]; simpl; auto. destruct (f y); simpl; congruence. Qed.
Lemma tw_all {A} (f : A -> bool) l : Forall (fun y => f y = true) (tw f l).
Proof. induction l as [|y l IH]; simpl; auto. destruct (f y) eqn:E; auto. Qed.
Lemma dw_head {A} (f : A -> bool) l y tl : dw f l = y :: tl -> f y = false.
Proof.
  induction l as [|z l IH]; simpl; [discriminate|]. destruct (f z) eqn:E; auto.
  intro H. inversion H. now subst.
Qed.

Lemma nil_or_last {A} (l : list A) : l = [] \/ exists p z, l = p ++ [z].
Proof. induction l as [|z l _] using rev_ind; [now left|right; eauto]. Qed.

Section S.
  Context {V : Type}.
  Notation heap := (heap V).
  Notation skl := (skl V).
  Implicit Types (h : heap) (sk : skl) (x y i k : nat).

  Definition score_of h y : Z := nscore (h y).
  Definition desc h (a b : nat) : Prop := (score_of h a >= score_of h b)%Z.

  Definition antitone (go : Z -> bool) : Prop :=
    forall a b, (a >= b)%Z -> go b = true -> go a = true.

  Lemma antitone_lt s : antitone (go_lt s).
  Proof.
    intros a b Hab. unfold go_lt. rewrite !cmp_lt. intro H. apply Z.gtb_lt in H.
    apply Z.gtb_lt. lia.
  Qed.
  Lemma antitone_le s : antitone (go_le s).
  Proof.
    intros a b Hab. unfold go_le. rewrite !cmp_le. intro H. apply Z.geb_le in H.
    apply Z.geb_le. lia.
  Qed.

  Lemma stop_all h go l :
    antitone go -> StronglySorted (desc h) l ->
    Forall (fun y => go (score_of h y) = false) (dw (fun y => go (score_of h y)) l).
  Proof.
    intros Ha. induction l as [|y l IH]; intro Hs; simpl; auto.
    inversion Hs as [|? ? Hs' Hy]; subst.
    destruct (go (score_of h y)) eqn:E; auto.
    constructor; auto. rewrite Forall_forall in *. intros z Hz.
    destruct (go (score_of h z)) eqn:Ez; auto.
    rewrite (Ha _ _ (Hy z Hz) Ez) in E. discriminate.
  Qed.

  Lemma walk_spec h go i post : forall pre x fuel cnt,
    nxt h x i = Some (succ_at h i (pre ++ post)) ->
    nexts_ok h (pre ++ post) ->
    Forall (fun y => go (score_of h y) = true) pre ->
    Forall (fun y => go (score_of h y) = false) post ->
    length pre < fuel ->
    exists cnt', walk fuel h go i x cnt = Ok (last_above h i pre x, cnt').
  Proof.
    induction pre as [|p pre IH]; intros x fuel cnt Hx Hn Hg Hs Hf.
    - destruct fuel as [|f]; [simpl in Hf; lia|]. simpl in *. rewrite Hx.
      destruct (succ_at h i post) as [z|] eqn:E; eauto.
      apply succ_at_some in E as [Hz _]. rewrite Forall_forall in Hs.
      unfold score_of in Hs. rewrite (Hs z Hz). eauto.
    - inversion Hg as [|? ? Hgp Hg']; subst. simpl in Hx |- *.
      destruct (i <? height h p) eqn:E.
      + destruct fuel as [|f]; [simpl in Hf; lia|]. simpl. rewrite Hx.
        unfold score_of in Hgp. rewrite Hgp.
        apply IH; auto.
        * apply Nat.ltb_lt in E. apply (nexts_ok_head h p (pre ++ post) i Hn E).
        * apply (nexts_ok_tail h p _ Hn).
        * simpl in Hf. lia.
      + apply IH; auto.
        * apply (nexts_ok_tail h p _ Hn).
        * simpl in Hf. lia.
  Qed.

  Lemma descend_spec h go pre post fuel :
    nexts_ok h (0 :: pre ++ post) ->
    Forall (fun y => go (score_of h y) = true) pre ->
    Forall (fun y => go (score_of h y) = false) post ->
    length pre < fuel ->
    forall i cnt upd,
    i <= height h 0 ->
    exists cnt',
      descend fuel h go i (last_above h i pre 0) cnt upd =
      Ok (last_above h 0 pre 0, cnt', map (fun j => last_above h j pre 0) (seq 0 i) ++ upd).
  Proof.
    intros Hn Hg Hs Hf. induction i as [|i IH]; intros cnt upd Hi.
    - simpl. eauto.
    - cbn [descend].
      assert (Hw : exists cnt', walk fuel h go i (last_above h (S i) pre 0) cnt =
                               Ok (last_above h i pre 0, cnt')).
      { destruct (last_above_cases h (S i) pre 0) as [[E L]|(p1 & p2 & E & Hh & L)].
        - rewrite E. apply walk_spec with (post := post); auto.
          + apply (nexts_ok_head h 0 _ i Hn). lia.
          + apply (nexts_ok_tail h 0 _ Hn).
        - set (x := last_above h (S i) pre 0) in *.
          assert (Ex : last_above h i pre 0 = last_above h i p2 x).
          { rewrite E at 1. rewrite last_above_app. simpl.
            replace (i <? height h x) with true; auto. symmetry. apply Nat.ltb_lt. lia. }
          rewrite Ex. apply walk_spec with (post := post).
          + apply (Hn (0 :: p1) x (p2 ++ post)).
            * rewrite E at 1. simpl. rewrite <- app_assoc. reflexivity.
            * lia.
          + apply (nexts_ok_app_r h (0 :: p1 ++ [x])). rewrite E in Hn.
            simpl. rewrite <- !app_assoc. simpl. rewrite <- app_assoc in Hn. exact Hn.
          + rewrite E in Hg. apply Forall_app in Hg as [_ Hg]. now inversion Hg.
          + auto.
          + rewrite E in Hf. rewrite app_length in Hf. simpl in Hf. lia. }
      destruct Hw as [cnt1 ->].
      destruct (IH cnt1 (last_above h i pre 0 :: upd)) as [cnt2 ->]; [lia|].
      exists cnt2. f_equal. f_equal.
      rewrite seq_S, map_app. simpl. rewrite <- app_assoc. reflexivity.
  Qed.

  Record inv sk (ids : list nat) : Prop := mkInv {
    i_nodup : NoDup (0 :: ids);
    i_lt : Forall (fun x => x < ssize sk) (0 :: ids);
    i_hd : height (sheap sk) 0 = maxLevel;
    i_next : nexts_ok (sheap sk) (0 :: ids);
    i_hts : Forall (fun x => 1 <= height (sheap sk) x <= slevel sk) ids;
    i_lvl : 1 <= slevel sk <= maxLevel;
    i_prev : prevs_ok (sheap sk) ids;
    i_tail : stail sk = last_opt ids;
    i_cnt : scount sk = length ids;
    i_sorted : StronglySorted (desc (sheap sk)) ids }.

  Definition absl h (ids : list nat) : list (Z * V) := map (entry h) ids.

  Lemma inv_heights sk ids : inv sk ids -> Forall (fun y => 1 <= height (sheap sk) y) (0 :: ids).
  Proof.
    intro HI. constructor.
    - rewrite (i_hd _ _ HI). unfold maxLevel. lia.
    - generalize (i_hts _ _ HI). apply Forall_impl. intros y [H _]. exact H.
  Qed.

  Lemma inv_nxt0 sk ids a y b :
    inv sk ids -> 0 :: ids = a ++ y :: b -> nxt (sheap sk) y 0 = Some (hd_error b).
  Proof.
    intros HI E. pose proof (inv_heights sk ids HI) as Hh. rewrite E in Hh.
    apply Forall_app in Hh as [_ Hh]. apply Forall_cons_iff in Hh as [Hy Hb].
    rewrite (i_next _ _ HI a y b E 0 Hy). f_equal. now apply succ_at_level0.
  Qed.

  Lemma inv_new ms mv : inv (sk_new ms mv) [].
  Proof.
    split; cbn [sk_new sheap ssize stail slevel scount last_opt length].
    - constructor; [intros []|constructor].
    - repeat constructor.
    - unfold height. cbn [nnext]. apply repeat_length.
    - intros p1 p p2 E i Hi. destruct p1 as [|a [|b p1]]; inversion E; subst.
      unfold nxt, height in *. cbn [nnext] in *. rewrite repeat_length in Hi.
      rewrite nth_error_repeat; auto.
    - constructor.
    - unfold maxLevel. lia.
    - intros p1 p p2 E. destruct p1; discriminate.
    - reflexivity.
    - reflexivity.
    - constructor.
  Qed.

  (** what a search establishes: it passes the nodes [pre] of [ids] and stops
      in front of [post]; [U j] is the last node of the level-j chain of [0 :: pre] *)
  Set Implicit Arguments.
  Record located sk ids (go : Z -> bool) (pre post : list nat) (U : nat -> nat) : Prop := mkLoc {
    loc_pre : tw (fun y => go (score_of (sheap sk) y)) ids = pre;
    loc_post : dw (fun y => go (score_of (sheap sk) y)) ids = post;
    loc_app : pre ++ post = ids;
    loc_go : Forall (fun y => go (score_of (sheap sk) y) = true) pre;
    loc_stop : Forall (fun y => go (score_of (sheap sk) y) = false) post;
    loc_top : forall j, slevel sk <= j -> U j = 0;
    loc_lvl : forall j, j < maxLevel -> exists a, lvl (sheap sk) j (0 :: pre) = a ++ [U j];
    loc_in : forall j, j < maxLevel -> In (U j) (0 :: pre) /\ j < height (sheap sk) (U j);
    loc_nxt : nxt (sheap sk) (U 0) 0 = Some (hd_error post);
    loc_last : last_opt pre = if U 0 =? 0 then None else Some (U 0) }.
  Unset Implicit Arguments.

  Section LOC.
    Variables (sk : skl) (ids : list nat) (go : Z -> bool).
    Hypothesis (HI : inv sk ids) (HA : antitone go).
    Let h := sheap sk.
    Let f := fun y => go (score_of h y).
    Let pre := tw f ids.
    Let post := dw f ids.
    Let U (j : nat) : nat := last_above h j pre 0.

    Lemma hd_height : height h 0 = maxLevel.
    Proof. apply (i_hd _ _ HI). Qed.
    Lemma pre_post : pre ++ post = ids.
    Proof. apply tw_dw. Qed.
    Lemma post_stop : Forall (fun y => go (score_of h y) = false) post.
    Proof. apply stop_all; auto. apply (i_sorted _ _ HI). Qed.

    Lemma upd_top j : slevel sk <= j -> U j = 0.
    Proof.
      intro Hj. apply last_above_low. pose proof (i_hts _ _ HI) as H. fold h in H.
      rewrite <- pre_post in H. apply Forall_app in H as [H _]. revert H. apply Forall_impl. intros; lia.
    Qed.

    Lemma upd_lvl j : j < maxLevel -> exists a, lvl h j (0 :: pre) = a ++ [U j].
    Proof. intro Hj. apply lvl_last_above. now rewrite hd_height. Qed.

    Lemma upd_in j : j < maxLevel -> In (U j) (0 :: pre) /\ j < height h (U j).
    Proof.
      intro Hj. destruct (upd_lvl j Hj) as [a E].
      assert (Hin : In (U j) (lvl h j (0 :: pre))) by (rewrite E; apply in_or_app; simpl; auto).
      apply filter_In in Hin as [Hin Hh]. now apply Nat.ltb_lt in Hh.
    Qed.

    Lemma upd0 : exists a, 0 :: pre = a ++ [U 0].
    Proof.
      destruct (upd_lvl 0) as [a E]; [unfold maxLevel; lia|]. exists a. rewrite <- E. symmetry.
      apply lvl_all. pose proof (inv_heights sk ids HI) as H. rewrite <- pre_post in H.
      now apply (Forall_app _ (0 :: pre)) in H.
    Qed.

    Lemma nxt_stop : nxt h (U 0) 0 = Some (hd_error post).
    Proof.
      destruct upd0 as [a E]. apply (inv_nxt0 sk ids a (U 0) post HI). rewrite <- pre_post.
      change (0 :: pre ++ post) with ((0 :: pre) ++ post). now rewrite E, <- app_assoc.
    Qed.

    Lemma upd_last : last_opt pre = if U 0 =? 0 then None else Some (U 0).
    Proof.
      destruct upd0 as [a E]. destruct (nil_or_last pre) as [Ep|(p1 & z & Ep)]; rewrite Ep in *.
      - destruct a as [|? [|]]; inversion E. reflexivity.
      - apply (app_inj_tail (0 :: p1) a) in E as [_ <-]. rewrite last_opt_snoc.
        destruct (Nat.eqb_spec z 0) as [->|]; auto. exfalso.
        pose proof (i_nodup _ _ HI) as Hd. apply NoDup_cons_iff in Hd as [Hd _]. apply Hd.
        rewrite <- pre_post, Ep. apply in_or_app. left. apply in_or_app. simpl. auto.
    Qed.

    Lemma locate_spec :
      exists pre post U cnt,
        locate go sk = Ok (U 0, cnt, map U (seq 0 (slevel sk))) /\ located sk ids go pre post U.
    Proof.
      exists pre, post, U.
      destruct (descend_spec h go pre post (S (scount sk))) with (i := slevel sk) (cnt := 0%Z) (upd := @nil nat)
        as [cnt E].
      - rewrite pre_post. apply (i_next _ _ HI).
      - apply (tw_all f).
      - apply post_stop.
      - rewrite (i_cnt _ _ HI), <- pre_post, app_length. lia.
      - rewrite hd_height. apply (i_lvl _ _ HI).
      - exists cnt. split.
        + unfold locate. fold h. rewrite <- (upd_top (slevel sk) (le_n _)) at 1. unfold U at 1.
          rewrite E. now rewrite app_nil_r.
        + split; auto using pre_post, post_stop, upd_top, upd_lvl, upd_in, nxt_stop, upd_last.
          apply (tw_all f).
    Qed.
  End LOC.

  Lemma follow_spec h : forall rest x fuel,
    nexts_ok h (x :: rest) -> 1 <= height h x ->
    Forall (fun y => 1 <= height h y) rest ->
    length rest < fuel -> follow fuel h x = Ok rest.
  Proof.
    induction rest as [|y rest IH]; intros x fuel Hn Hx Hr Hf.
    - destruct fuel as [|f]; [simpl in Hf; lia|]. simpl.
      rewrite (nexts_ok_head h x [] 0 Hn) by lia. reflexivity.
    - destruct fuel as [|f]; [simpl in Hf; lia|]. simpl.
      rewrite (nexts_ok_head h x (y :: rest) 0 Hn) by lia.
      inversion Hr; subst. simpl.
      replace (0 <? height h y) with true by (symmetry; apply Nat.ltb_lt; lia).
      rewrite (IH y f); auto.
      + apply (nexts_ok_tail h x _ Hn).
      + simpl in Hf. lia.
  Qed.

  Lemma back_spec h : forall ids fuel,
    prevs_ok h ids -> length ids <= fuel -> back fuel h (last_opt ids) = Ok (rev ids).
  Proof.
    induction ids as [|z ids IH] using rev_ind; intros fuel Hp Hf.
    - destruct fuel; reflexivity.
    - rewrite last_opt_snoc. rewrite app_length in Hf. simpl in Hf.
      destruct fuel as [|f]; [lia|]. simpl.
      rewrite (Hp ids z []) by reflexivity.
      rewrite IH.
      + simpl. rewrite rev_app_distr. reflexivity.
      + apply (prevs_ok_app_l h ids [z] Hp).
      + lia.
  Qed.

  Lemma observers sk ids :
    inv sk ids ->
    sk_walk sk = Ok (absl (sheap sk) ids) /\
    sk_back sk = Ok (rev (absl (sheap sk) ids)) /\
    sk_first sk = Ok (hd_error (absl (sheap sk) ids)) /\
    sk_last sk = last_opt (absl (sheap sk) ids) /\
    scount sk = length (absl (sheap sk) ids).
  Proof.
    intro HI. pose proof (inv_heights sk ids HI) as Hh. apply Forall_cons_iff in Hh as [H0 Hh1].
    repeat split.
    - unfold sk_walk. rewrite (follow_spec (sheap sk) ids 0); auto.
      + apply (i_next _ _ HI).
      + rewrite (i_cnt _ _ HI). lia.
    - unfold sk_back. rewrite (i_tail _ _ HI), (back_spec (sheap sk) ids).
      + simpl. unfold absl. now rewrite map_rev.
      + apply (i_prev _ _ HI).
      + rewrite (i_cnt _ _ HI). lia.
    - unfold sk_first. rewrite (inv_nxt0 sk ids [] 0 ids HI eq_refl). now destruct ids.
    - unfold sk_last. rewrite (i_tail _ _ HI). unfold absl.
      clear. induction ids as [|a [|b l] IH]; auto.
    - unfold absl. rewrite map_length. apply (i_cnt _ _ HI).
  Qed.
End S.
