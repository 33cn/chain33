(** C24 — history-level results about the Queue model. *)
From Coq Require Import List ZArith NArith Bool Lia Sorted Permutation.
From C33 Require Import C24.Model C24.Spec C24.ProofsSpec C24.ProofsSim.
Import ListNotations.
Open Scope Z_scope.

Lemma walk_sim cap q l c : R cap q l -> q_walk c q = spec_walk c l.
Proof.
  intro H. unfold q_walk, spec_walk. rewrite (R_cont _ _ _ H). apply take_count_spec.
Qed.

Lemma walk0_contents q : q_walk 0 q = q_contents q.
Proof. unfold q_walk. apply take_count_all. lia. Qed.

Lemma sim_step cap o q l :
  R cap q l ->
  R cap (fst (q_step o q)) (fst (spec_step cap o l)) /\
  snd (q_step o q) = snd (spec_step cap o l).
Proof.
  intro H. destruct o as [it|h|c]; simpl.
  - destruct (sim_push cap q l it H) as [HR HE].
    destruct (q_push it q) as [q' e], (spec_push cap it l) as [l' e']. simpl in *.
    split; auto. now subst.
  - destruct (sim_remove cap q l h H) as [HR HE].
    destruct (q_remove h q) as [q' e], (spec_remove h l) as [l' e']. simpl in *.
    split; auto. now subst.
  - split; auto. now rewrite (walk_sim cap q l c H).
Qed.

Lemma sim_run cap ops : forall q l,
  R cap q l ->
  R cap (fst (q_run ops q)) (fst (spec_run cap ops l)) /\
  snd (q_run ops q) = snd (spec_run cap ops l).
Proof.
  induction ops as [|o ops IH]; intros q l H; simpl.
  - auto.
  - destruct (sim_step cap o q l H) as [HR HE].
    destruct (q_step o q) as [q1 r], (spec_step cap o l) as [l1 r']. simpl in *.
    destruct (IH q1 l1 HR) as [HR2 HE2].
    destruct (q_run ops q1) as [q2 rs], (spec_run cap ops l1) as [l2 rs']. simpl in *.
    split; auto. now rewrite HE, HE2.
Qed.

Definition spec_final (cap : Z) (ops : list op) : list item := fst (spec_run cap ops []).

Lemma R_final cap ops : R cap (q_final cap ops) (spec_final cap ops).
Proof. apply sim_run. apply R_new. Qed.

Lemma refines cap ops :
  snd (q_run ops (newq cap)) = snd (spec_run cap ops []) /\
  q_walk 0 (q_final cap ops) = spec_final cap ops.
Proof.
  split.
  - apply sim_run. apply R_new.
  - rewrite walk0_contents. apply (R_cont _ _ _ (R_final cap ops)).
Qed.

Lemma order_final cap ops : StronglySorted score_ge (q_walk 0 (q_final cap ops)).
Proof.
  rewrite walk0_contents, (R_cont _ _ _ (R_final cap ops)).
  apply (R_sorted _ _ _ (R_final cap ops)).
Qed.

Lemma nodup_final cap ops : NoDup (map ihash (q_walk 0 (q_final cap ops))).
Proof.
  rewrite walk0_contents, (R_cont _ _ _ (R_final cap ops)).
  apply (R_nodup _ _ _ (R_final cap ops)).
Qed.

Lemma capacity_final cap ops :
  0 <= cap ->
  q_size (q_final cap ops) <= cap /\
  Z.of_nat (length (q_walk 0 (q_final cap ops))) <= cap.
Proof.
  intro Hc. pose proof (R_final cap ops) as H.
  rewrite walk0_contents, (R_cont _ _ _ H), (R_size _ _ _ H).
  pose proof (R_within _ _ _ H Hc). unfold spec_size in *. auto.
Qed.

Lemma observers_final cap ops :
  let q := q_final cap ops in
  let w := q_walk 0 q in
  (forall h, q_exist h q = spec_exist h w) /\
  (forall h, q_get h q = spec_get h w) /\
  q_size q = Z.of_nat (length w) /\
  q_bytes q = spec_bytes w /\
  q_first q = match w with [] => LNil | t :: _ => LItem t end /\
  q_last q = match last_opt w with None => LNil | Some t => LItem t end /\
  (forall c, q_walk c q = spec_walk c w).
Proof.
  intros q w. pose proof (R_final cap ops) as H. fold q in H.
  assert (Ew : w = spec_final cap ops).
  { unfold w. rewrite walk0_contents. apply (R_cont _ _ _ H). }
  rewrite Ew. repeat split.
  - intro h. apply map_ok_mem. apply (R_map _ _ _ H).
  - intro h. apply map_ok_get. apply (R_map _ _ _ H).
  - apply (R_size _ _ _ H).
  - apply (R_bytes _ _ _ H).
  - apply (R_first _ _ _ H).
  - apply (R_last _ _ _ H).
  - intro c. apply (walk_sim _ _ _ c H).
Qed.

Lemma spec_push_rule cap it l l' :
  spec_push cap it l = (l', ENone) ->
  (spec_size l < cap /\ l' = spec_insert it l) \/
  (cap <= spec_size l /\ exists rest worst,
      l = rest ++ [worst] /\ ranks_higher it worst = true /\ l' = spec_insert it rest).
Proof.
  unfold spec_push. destruct (spec_exist (ihash it) l); [discriminate|].
  destruct (spec_size l <? cap) eqn:EF.
  - intro E. inversion E. left. apply Z.ltb_lt in EF. auto.
  - apply Z.ltb_ge in EF. unfold spec_last.
    destruct (last_opt l) as [t|] eqn:EL; [|discriminate].
    destruct (ranks_higher it t) eqn:EB; [|discriminate].
    intro E. inversion E. right. split; auto.
    exists (removelast l), t. repeat split; auto. now apply last_opt_some.
Qed.

Lemma push_rule cap ops it :
  let q := q_final cap ops in
  let w := q_walk 0 q in
  let r := q_push it q in
  let w' := q_walk 0 (fst r) in
  snd r = ENone ->
  (q_size q < cap /\ w' = spec_insert it w) \/
  (cap <= q_size q /\ exists rest worst,
      w = rest ++ [worst] /\ ranks_higher it worst = true /\ w' = spec_insert it rest).
Proof.
  intros q w r w' He. pose proof (R_final cap ops) as H. fold q in H.
  destruct (sim_push cap q _ it H) as [HR HE]. fold r in HR, HE.
  assert (HE' : snd (spec_push cap it (spec_final cap ops)) = ENone).
  { rewrite <- HE. exact He. }
  unfold w', w. rewrite !walk0_contents.
  rewrite (R_cont _ _ _ HR), (R_cont _ _ _ H), (R_size _ _ _ H).
  apply spec_push_rule.
  destruct (spec_push cap it (spec_final cap ops)) as [l' e]. simpl in HE' |- *. now rewrite HE'.
Qed.

Lemma reject_unchanged_R cap q l it :
  R cap q l -> snd (q_push it q) <> ENone -> fst (q_push it q) = q.
Proof.
  intros H. unfold q_push.
  destruct (q_exist (ihash it) q); [reflexivity|].
  destruct (q_size q >=? qcap q); [|simpl; congruence].
  rewrite (R_last _ _ _ H).
  destruct (last_opt l) as [t|] eqn:EL; [|reflexivity].
  destruct (better it t); [|reflexivity].
  destruct (sim_evict cap q l t H EL) as [_ HE].
  destruct (q_remove (ihash t) q) as [q' e]. simpl in HE. subst e. simpl. congruence.
Qed.

Lemma reject_unchanged cap ops it :
  let q := q_final cap ops in
  snd (q_push it q) <> ENone -> fst (q_push it q) = q.
Proof. intros q. apply (reject_unchanged_R cap q _ it (R_final cap ops)). Qed.

Lemma remove_rule cap ops h :
  let q := q_final cap ops in
  let w := q_walk 0 q in
  let r := q_remove h q in
  (q_exist h q = true ->
     snd r = ENone /\ q_walk 0 (fst r) = spec_remove_list h w) /\
  (q_exist h q = false -> snd r = ENotFound /\ fst r = q).
Proof.
  intros q w r. pose proof (R_final cap ops) as H. fold q in H.
  destruct (sim_remove cap q _ h H) as [HR HE]. fold r in HR, HE.
  assert (EX : q_exist h q = spec_exist h (spec_final cap ops)).
  { apply map_ok_mem. apply (R_map _ _ _ H). }
  unfold w. rewrite !walk0_contents, (R_cont _ _ _ HR), (R_cont _ _ _ H), EX.
  unfold spec_remove in HR, HE |- *. split; intro E.
  - rewrite E in HE; rewrite ?E. simpl in *. split; auto.
  - rewrite E in HE; rewrite ?E. simpl in *. split; auto.
    unfold r, q_remove. unfold q_exist, map_mem in EX. rewrite E in EX.
    destruct (map_get h (qmap q)); [discriminate|reflexivity].
Qed.

Definition arrival_order (a b : item) : Prop :=
  iscore a > iscore b \/ (iscore a = iscore b /\ (iseq a < iseq b)%N).

(** Every Push of the history carries a stamp larger than all earlier ones. *)
Fixpoint stamps_from (n : N) (ops : list op) : Prop :=
  match ops with
  | [] => True
  | OPush it :: tl => (n <= iseq it)%N /\ stamps_from (iseq it + 1) tl
  | _ :: tl => stamps_from n tl
  end.

Definition lexinv (n : N) (l : list item) : Prop :=
  StronglySorted arrival_order l /\ Forall (fun x => (iseq x < n)%N) l.

Lemma lexinv_mono n n' l : (n <= n')%N -> lexinv n l -> lexinv n' l.
Proof.
  intros Hn [A B]. split; auto. rewrite Forall_forall in *. intros x Hx.
  specialize (B x Hx). lia.
Qed.

Lemma lexinv_insert n it l :
  (n <= iseq it)%N -> lexinv n l -> lexinv (iseq it + 1) (spec_insert it l).
Proof.
  intros Hn [A B]. split.
  - apply spec_insert_ssorted; auto.
    + intros a b [C|[C _]]; lia.
    + rewrite Forall_forall in *. intros x Hx Hs. specialize (B x Hx).
      unfold arrival_order. destruct (Z.eq_dec (iscore x) (iscore it)); [right|left]; lia.
    + rewrite Forall_forall. intros x Hx Hs. left. lia.
  - rewrite Forall_forall in *. intros x Hx. apply spec_insert_in in Hx as [->|Hx].
    + lia.
    + specialize (B x Hx). lia.
Qed.

Lemma lexinv_removelast n l : lexinv n l -> lexinv n (removelast l).
Proof.
  intros [A B]. destruct l as [|x l]; [split; auto|].
  destruct (@exists_last _ (x :: l)) as (r & t & E); [discriminate|].
  rewrite E in *. rewrite removelast_last. split.
  - eapply ssorted_app_l; eauto.
  - apply Forall_app in B. tauto.
Qed.

Lemma lexinv_filter n f l : lexinv n l -> lexinv n (filter f l).
Proof.
  intros [A B]. split.
  - now apply ssorted_filter.
  - rewrite Forall_forall in *. intros x Hx. apply filter_In in Hx as [Hx _]. auto.
Qed.

Lemma lexinv_step cap o n l :
  stamps_from n [o] -> lexinv n l ->
  lexinv (match o with OPush it => iseq it + 1 | _ => n end)%N (fst (spec_step cap o l)).
Proof.
  intros Hs Hl. destruct o as [it|h|c]; simpl in *; auto.
  - destruct Hs as [Hn _].
    assert (H : lexinv (iseq it + 1) (fst (spec_push cap it l))); [|now destruct (spec_push cap it l)].
    pose proof (lexinv_mono n (iseq it + 1) l ltac:(lia) Hl) as Hl1.
    unfold spec_push. destruct (spec_exist (ihash it) l); auto.
    destruct (spec_size l <? cap); [now apply (lexinv_insert n)|].
    destruct (spec_last l); auto. destruct (ranks_higher it i); auto.
    apply (lexinv_insert n); auto. now apply lexinv_removelast.
  - assert (H : lexinv n (fst (spec_remove h l))); [|now destruct (spec_remove h l)].
    unfold spec_remove. destruct (spec_exist h l); auto. now apply lexinv_filter.
Qed.

Lemma spec_run_cons_fst cap o ops l :
  fst (spec_run cap (o :: ops) l) = fst (spec_run cap ops (fst (spec_step cap o l))).
Proof.
  cbn [spec_run]. destruct (spec_step cap o l) as [l1 r]. cbn [fst]. now destruct (spec_run cap ops l1).
Qed.

Lemma lexinv_run cap ops : forall n l,
  stamps_from n ops -> lexinv n l -> exists n', lexinv n' (fst (spec_run cap ops l)).
Proof.
  induction ops as [|o ops IH]; intros n l Hs Hl; [simpl; eauto|].
  rewrite spec_run_cons_fst.
  apply (IH (match o with OPush it => iseq it + 1 | _ => n end)%N).
  - destruct o; simpl in Hs; tauto.
  - apply lexinv_step; auto. destruct o; simpl in *; tauto.
Qed.

Lemma fifo_final cap ops :
  stamps_from 0 ops -> StronglySorted arrival_order (q_walk 0 (q_final cap ops)).
Proof.
  intro Hs. rewrite walk0_contents, (R_cont _ _ _ (R_final cap ops)).
  destruct (lexinv_run cap ops 0%N [] Hs) as [n' [A _]]; auto.
  split; constructor.
Qed.

Lemma push_total cap ops it : snd (q_push it (q_final cap ops)) <> EPanic.
Proof.
  destruct (sim_push cap _ _ it (R_final cap ops)) as [_ E].
  rewrite E. unfold spec_push.
  destruct (spec_exist _ _); [discriminate|].
  destruct (_ <? _); [discriminate|].
  destruct (spec_last _); [|discriminate].
  destruct (ranks_higher _ _); discriminate.
Qed.

(** ** non-vacuity *)
Definition ex_a := mkItem 0 5 0 10 0.
Definition ex_b := mkItem 1 5 0 20 1.
Definition ex_c := mkItem 2 7 0 30 2.
Definition ex_d := mkItem 3 5 1 40 3.
Definition ex_ops := [OPush ex_a; OPush ex_b; OPush ex_c; OWalk 0; ORemove 7%N; OPush ex_d].

(** capacity 2: c evicts b (the later of the two 5s); d (same score as the worst
    item a, higher tie-break) evicts a and goes behind c. *)
Example ex_run :
  q_run ex_ops (newq 2) =
  (q_final 2 ex_ops,
   [RErr ENone; RErr ENone; RErr ENone; RList [ex_c; ex_a]; RErr ENotFound; RErr ENone])
  /\ q_walk 0 (q_final 2 ex_ops) = [ex_c; ex_d]
  /\ q_bytes (q_final 2 ex_ops) = 70.
Proof. vm_compute. repeat split. Qed.

Example ex_stamps : stamps_from 0 ex_ops.
Proof. simpl. repeat split; lia. Qed.

(** hypotheses of the admission rule on a full queue *)
Example ex_push_full :
  let q := q_final 2 [OPush ex_a; OPush ex_b] in
  q_size q = 2 /\ snd (q_push ex_c q) = ENone /\ snd (q_push ex_d q) = ENone /\
  snd (q_push (mkItem 4 5 0 1 9) q) = EFull /\ snd (q_push (mkItem 1 9 9 1 9) q) = EExist.
Proof. vm_compute. repeat split. Qed.

Example ex_remove :
  let q := q_final 3 [OPush ex_a; OPush ex_b; OPush ex_c] in
  q_exist 0%N q = true /\ q_exist 9%N q = false /\
  q_walk 0 (fst (q_remove 0%N q)) = [ex_c; ex_b].
Proof. vm_compute. repeat split. Qed.

(** capacity 0 and -1: every Push is answered ErrMemFull, nothing changes. *)
Example ex_cap_nonpositive :
  q_run [OPush ex_a; OWalk 0; OPush ex_c] (newq 0) = (newq 0, [RErr EFull; RList []; RErr EFull]) /\
  q_run [OPush ex_a; OWalk 0; OPush ex_c] (newq (-1)) = (newq (-1), [RErr EFull; RList []; RErr EFull]).
Proof. vm_compute. split; reflexivity. Qed.
