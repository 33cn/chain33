(** C24 — the Queue model simulates the flat-list specification. *)
From Coq Require Import List ZArith NArith Bool Lia Sorted Permutation.
From C33 Require Import C24.Model C24.Spec C24.ProofsSpec.
Import ListNotations.
Open Scope Z_scope.

Lemma better_ranks it t : better it t = ranks_higher it t.
Proof.
  unfold better, ranks_higher, item_compare, cEqual.
  now rewrite !cmp_big, cmp_eq.
Qed.

(** ** bucket list invariant *)
Definition blist := list (Z * list item).
Definition contents (ql : blist) : list item := concat (map snd ql).

Fixpoint bk_ok (ql : blist) : Prop :=
  match ql with
  | [] => True
  | (s, l) :: tl =>
      l <> [] /\ Forall (fun x => iscore x = s) l /\
      Forall (fun b => fst b < s) tl /\ bk_ok tl
  end.

Lemma bk_scores s ql :
  bk_ok ql -> Forall (fun b => fst b < s) ql -> Forall (fun x => iscore x < s) (contents ql).
Proof.
  induction ql as [|[s' l'] tl IH]; simpl; intros Hb Hf.
  - constructor.
  - destruct Hb as (_ & Hl & _ & Hb). inversion Hf; subst. simpl in *.
    unfold contents in *. simpl. apply Forall_app. split; auto.
    rewrite Forall_forall in *. intros x Hx. rewrite (Hl x Hx). lia.
Qed.

Section FstForall.
  Variable Q : Z -> Prop.
  Let P := fun b : Z * list item => Q (fst b).

  Lemma sl_insert_Forall s v (l : blist) : Forall P l -> Q s -> Forall P (sl_insert s v l).
  Proof.
    induction l as [|[s' v'] tl IH]; simpl; intros H Hq.
    - repeat constructor; auto.
    - inversion H; subst. destruct (sv_compare s' s <=? 0); constructor; auto.
  Qed.

  Lemma sl_update_Forall s v (l : blist) : Forall P l -> Forall P (sl_update s v l).
  Proof.
    induction l as [|[s' v'] tl IH]; simpl; intros H; auto.
    inversion H; subst. destruct (sv_compare s' s <? 0); [constructor; auto|].
    destruct (sv_compare s' s =? 0); auto.
  Qed.

  Lemma sl_delete_Forall s (l : blist) : Forall P l -> Forall P (sl_delete s l).
  Proof.
    induction l as [|[s' v'] tl IH]; simpl; intros H; auto.
    inversion H; subst. destruct (sv_compare s' s <? 0); [constructor; auto|].
    destruct (sv_compare s' s =? 0); auto.
  Qed.

  Lemma insert_skip_Forall it (l : blist) :
    Forall P l -> Q (iscore it) -> Forall P (insert_skip it l).
  Proof.
    intros H Hq. unfold insert_skip. destruct (sl_find (iscore it) l).
    - now apply sl_update_Forall.
    - now apply sl_insert_Forall.
  Qed.

  Lemma delete_skip_Forall it (l l' : blist) :
    Forall P l -> delete_skip it l = Some l' -> Forall P l'.
  Proof.
    intros H. unfold delete_skip. destruct (sl_find (iscore it) l); [|discriminate].
    destruct (remove_elem (ihash it) l0); intro E; inversion E; subst.
    - now apply sl_delete_Forall.
    - now apply sl_update_Forall.
  Qed.
End FstForall.

Lemma insert_skip_cons it s' l' tl :
  insert_skip it ((s', l') :: tl) =
  if s' >? iscore it then (s', l') :: insert_skip it tl
  else if s' =? iscore it then (s', l' ++ [it]) :: tl
  else (iscore it, [it]) :: (s', l') :: tl.
Proof.
  unfold insert_skip. cbn [sl_find]. rewrite cmp_lt, cmp_eq.
  destruct (Z.gtb_spec s' (iscore it)) as [G|G].
  - destruct (sl_find (iscore it) tl); cbn [sl_insert sl_update]; rewrite ?cmp_lt, ?cmp_le.
    + now destruct (Z.gtb_spec s' (iscore it)); [|lia].
    + now destruct (Z.geb_spec s' (iscore it)); [|lia].
  - destruct (Z.eqb_spec s' (iscore it)) as [E|E]; cbn [sl_insert sl_update]; rewrite ?cmp_lt, ?cmp_eq, ?cmp_le.
    + destruct (Z.gtb_spec s' (iscore it)); [lia|]. now destruct (Z.eqb_spec s' (iscore it)).
    + now destruct (Z.geb_spec s' (iscore it)); [lia|].
Qed.

Lemma contents_head_lt s ql :
  bk_ok ql -> Forall (fun b => fst b < s) ql ->
  match contents ql with [] => True | x :: _ => iscore x < s end.
Proof.
  intros Hb Hf. pose proof (bk_scores s ql Hb Hf) as H.
  destruct (contents ql); auto. now inversion H.
Qed.

Lemma insert_skip_sim it ql :
  bk_ok ql ->
  contents (insert_skip it ql) = spec_insert it (contents ql) /\ bk_ok (insert_skip it ql).
Proof.
  induction ql as [|[s' l'] tl IH]; intro Hb.
  - simpl. repeat split; auto. discriminate.
  - simpl in Hb. destruct Hb as (Hne & Hl & Hlt & Hb). rewrite insert_skip_cons.
    destruct (Z.gtb_spec s' (iscore it)) as [C|C]; [|destruct (Z.eqb_spec s' (iscore it)) as [C'|C']].
    + destruct (IH Hb) as [IC IB]. split.
      * unfold contents in *. simpl. rewrite IC. symmetry. apply spec_insert_app_ge.
        rewrite Forall_forall in *. intros x Hx. rewrite (Hl x Hx). lia.
      * simpl. repeat split; auto.
        apply (insert_skip_Forall (fun z => z < s')); [auto | lia].
    + split.
      * unfold contents. simpl. rewrite <- app_assoc. rewrite spec_insert_app_ge.
        -- f_equal. simpl. symmetry. apply spec_insert_lt.
           apply (contents_head_lt (iscore it) tl Hb). now rewrite <- C'.
        -- rewrite Forall_forall in *. intros x Hx. rewrite (Hl x Hx). lia.
      * simpl. repeat split; auto.
        -- intro E. apply app_eq_nil in E as [_ E]. discriminate.
        -- apply Forall_app. split; auto.
    + split.
      * unfold contents. simpl. symmetry. apply spec_insert_lt.
        destruct l' as [|x l']; [contradiction|]. simpl. inversion Hl; subst. lia.
      * simpl. repeat split; auto; try discriminate.
        constructor; [simpl; lia|]. rewrite Forall_forall in *. intros b Hi.
        specialize (Hlt b Hi). lia.
Qed.

Lemma delete_skip_cons it s' l' tl :
  delete_skip it ((s', l') :: tl) =
  if s' >? iscore it then option_map (cons (s', l')) (delete_skip it tl)
  else if s' =? iscore it
       then Some (match remove_elem (ihash it) l' with [] => tl | l'' => (s', l'') :: tl end)
       else None.
Proof.
  unfold delete_skip. cbn [sl_find sl_delete sl_update]. rewrite cmp_lt, cmp_eq.
  destruct (s' >? iscore it).
  - destruct (sl_find (iscore it) tl); [|reflexivity].
    destruct (remove_elem (ihash it) l); reflexivity.
  - destruct (s' =? iscore it); [|reflexivity]. destruct (remove_elem (ihash it) l'); reflexivity.
Qed.

Lemma remove_elem_Forall (P : item -> Prop) h l : Forall P l -> Forall P (remove_elem h l).
Proof.
  induction l as [|x l IH]; simpl; intro H; auto. inversion H; subst.
  destruct (N.eqb (ihash x) h); auto.
Qed.

Lemma delete_skip_sim it ql :
  bk_ok ql -> NoDup (hashes (contents ql)) -> In it (contents ql) ->
  exists ql', delete_skip it ql = Some ql' /\
    contents ql' = spec_remove_list (ihash it) (contents ql) /\ bk_ok ql'.
Proof.
  induction ql as [|[s' l'] tl IH]; intros Hb Hn Hi.
  - contradiction.
  - simpl in Hb. destruct Hb as (Hne & Hl & Hlt & Hb).
    unfold contents in Hn, Hi. simpl in Hn, Hi. fold (contents tl) in Hn, Hi.
    unfold hashes in Hn. rewrite map_app in Hn.
    destruct (nodup_app_inv _ _ Hn) as (Hn1 & Hn2 & Hdis).
    apply in_app_or in Hi as [Hi|Hi].
    + (* the item sits in this bucket *)
      assert (C : s' = iscore it) by (rewrite Forall_forall in Hl; symmetry; auto).
      rewrite delete_skip_cons. destruct (Z.gtb_spec s' (iscore it)); [lia|].
      destruct (Z.eqb_spec s' (iscore it)); [|contradiction].
      set (ql' := match remove_elem (ihash it) l' with [] => tl | l'' => (s', l'') :: tl end).
      exists ql'. split; [reflexivity|].
      assert (EC : contents ql' = remove_elem (ihash it) l' ++ contents tl).
      { unfold ql'. destruct (remove_elem (ihash it) l'); reflexivity. }
      split.
      * rewrite EC. unfold contents at 2. simpl. fold (contents tl).
        unfold spec_remove_list. rewrite filter_app. f_equal.
        -- now apply remove_elem_filter.
        -- symmetry. apply filter_no_hash. apply Hdis. now apply in_map.
      * pose proof (remove_elem_Forall _ (ihash it) l' Hl) as Hl2.
        unfold ql'. destruct (remove_elem (ihash it) l') eqn:ER; auto.
        simpl. repeat split; auto. discriminate.
    + (* the item sits further down: this bucket has a larger score *)
      pose proof (bk_scores s' tl Hb Hlt) as Hsc. rewrite Forall_forall in Hsc.
      specialize (Hsc it Hi).
      rewrite delete_skip_cons. destruct (Z.gtb_spec s' (iscore it)); [|lia].
      destruct (IH Hb Hn2 Hi) as (tl' & E & EC & Hb').
      rewrite E. simpl. eexists. split; [reflexivity|]. split.
      * unfold contents. simpl. fold (contents tl') (contents tl). rewrite EC.
        unfold spec_remove_list. rewrite filter_app. f_equal.
        symmetry. apply filter_no_hash. intro Hh. apply (Hdis _ Hh). now apply in_map.
      * simpl. repeat split; auto.
        eapply (delete_skip_Forall (fun z => z < s')); eauto.
Qed.

Lemma last_opt_contents ql :
  bk_ok ql ->
  last_opt (contents ql) =
  match last_opt ql with None => None | Some (_, b) => last_opt b end.
Proof.
  induction ql as [|[s l] tl IH]; intro Hb; auto.
  simpl in Hb. destruct Hb as (Hne & _ & _ & Hb).
  unfold contents. simpl. fold (contents tl).
  destruct tl as [|b tl'].
  - simpl. now rewrite app_nil_r.
  - rewrite last_opt_app.
    + rewrite (IH Hb). reflexivity.
    + destruct b as [s2 l2]. simpl in Hb. destruct Hb as (Hne2 & _).
      unfold contents. simpl. intro E. apply app_eq_nil in E as [E _]. contradiction.
Qed.

Definition map_ok (m : tmap) (l : list item) : Prop :=
  NoDup (map fst m) /\ length m = length l /\
  forall h it, map_get h m = Some it <-> (In it l /\ ihash it = h).

Lemma map_get_in h m it : map_get h m = Some it -> In h (map fst m).
Proof.
  induction m as [|[k v] m IH]; simpl; [discriminate|].
  destruct (N.eqb_spec k h); auto.
Qed.

Lemma map_get_notin h m : ~ In h (map fst m) -> map_get h m = None.
Proof.
  intro H. destruct (map_get h m) eqn:E; auto. exfalso. eauto using map_get_in.
Qed.

Lemma map_get_none h m : map_get h m = None -> ~ In h (map fst m).
Proof.
  induction m as [|[k v] m IH]; simpl; auto.
  destruct (N.eqb_spec k h); [discriminate|]. intros E [C|C]; auto. now apply IH.
Qed.

Lemma map_del_notin h m : ~ In h (map fst m) -> map_del h m = m.
Proof.
  induction m as [|[k v] m IH]; simpl; intro H; auto.
  destruct (N.eqb_spec k h); simpl.
  - exfalso. apply H. now left.
  - f_equal. apply IH. intro. apply H. now right.
Qed.

Lemma map_del_keys h m x : In x (map fst (map_del h m)) -> In x (map fst m) /\ x <> h.
Proof.
  unfold map_del. rewrite !in_map_iff. intros ([k v] & E & Hi). simpl in E. subst.
  apply filter_In in Hi as [Hi Hk]. simpl in Hk. apply negb_true_iff, N.eqb_neq in Hk.
  split; auto. exists (x, v). auto.
Qed.

Lemma map_del_nodup h m : NoDup (map fst m) -> NoDup (map fst (map_del h m)).
Proof.
  induction m as [|[k v] m IH]; simpl; intro H; auto.
  inversion H as [|? ? Hn Hd]; subst. destruct (N.eqb k h); simpl; auto.
  constructor; auto. intro Hi. apply map_del_keys in Hi. tauto.
Qed.

Lemma map_del_get h h' m :
  map_get h' (map_del h m) = if N.eqb h' h then None else map_get h' m.
Proof.
  induction m as [|[k v] m IH]; simpl.
  - now destruct (N.eqb h' h).
  - destruct (N.eqb_spec k h); simpl.
    + subst. destruct (N.eqb_spec h h').
      * subst. rewrite N.eqb_refl in IH. rewrite N.eqb_refl. exact IH.
      * rewrite IH. reflexivity.
    + destruct (N.eqb_spec k h'); auto.
      subst. destruct (N.eqb_spec h' h); congruence.
Qed.

Lemma map_del_length h m it :
  NoDup (map fst m) -> map_get h m = Some it -> S (length (map_del h m)) = length m.
Proof.
  induction m as [|[k v] m IH]; simpl; intros Hn Hg; [discriminate|].
  inversion Hn as [|? ? Hni Hd]; subst.
  destruct (N.eqb_spec k h); simpl.
  - subst. now rewrite map_del_notin.
  - f_equal. auto.
Qed.

Lemma map_ok_mem m l h : map_ok m l -> map_mem h m = spec_exist h l.
Proof.
  intros (_ & _ & Hg). unfold map_mem.
  destruct (map_get h m) eqn:E.
  - apply Hg in E as [Hi Hh]. symmetry. apply spec_exist_in. subst. now apply in_map.
  - symmetry. apply spec_exist_false. intro Hi. unfold hashes in Hi.
    apply in_map_iff in Hi as (x & Hx & Hi).
    assert (map_get h m = Some x) by (apply Hg; auto). congruence.
Qed.

Lemma map_ok_get m l h : map_ok m l -> map_get h m = spec_get h l.
Proof.
  intros (_ & _ & Hg). unfold spec_get.
  destruct (find (has_hash h) l) eqn:E.
  - apply find_some in E as [Hi Hh]. apply has_hash_true in Hh. apply Hg. auto.
  - destruct (map_get h m) eqn:E2; auto. apply Hg in E2 as [Hi Hh].
    pose proof (find_none _ _ E _ Hi) as Hf. apply has_hash_true in Hh. congruence.
Qed.

Lemma spec_bytes_app a b : spec_bytes (a ++ b) = spec_bytes a + spec_bytes b.
Proof. induction a; simpl; lia. Qed.

Lemma remove_list_split l it :
  NoDup (hashes l) -> In it l ->
  exists a b, l = a ++ it :: b /\ spec_remove_list (ihash it) l = a ++ b.
Proof.
  intros Hn Hi. apply in_split in Hi as (a & b & ->). exists a, b. split; auto.
  unfold hashes in Hn. rewrite map_app in Hn. apply NoDup_remove_2 in Hn. rewrite in_app_iff in Hn.
  unfold spec_remove_list. rewrite filter_app. simpl. unfold has_hash at 2. rewrite N.eqb_refl. simpl.
  now rewrite !filter_no_hash by tauto.
Qed.

Lemma spec_bytes_remove l it :
  NoDup (hashes l) -> In it l ->
  spec_bytes (spec_remove_list (ihash it) l) = spec_bytes l - isize it.
Proof.
  intros Hn Hi. destruct (remove_list_split l it Hn Hi) as (a & b & -> & ->).
  rewrite !spec_bytes_app. simpl. lia.
Qed.

Lemma remove_list_length l it :
  NoDup (hashes l) -> In it l ->
  S (length (spec_remove_list (ihash it) l)) = length l.
Proof.
  intros Hn Hi. destruct (remove_list_split l it Hn Hi) as (a & b & -> & ->).
  rewrite !app_length. simpl. lia.
Qed.

Lemma map_ok_set m l it :
  map_ok m l -> ~ In (ihash it) (hashes l) -> map_ok (map_set (ihash it) it m) (spec_insert it l).
Proof.
  intros (Hk & Hlen & Hg) Hni.
  assert (Hnk : ~ In (ihash it) (map fst m)).
  { destruct (map_get (ihash it) m) eqn:E; [|now apply map_get_none].
    apply Hg in E as [Hi Hh]. exfalso. apply Hni. rewrite <- Hh. now apply in_map. }
  unfold map_set. rewrite map_del_notin by auto. split; [|split].
  - simpl. now constructor.
  - simpl. now rewrite spec_insert_length, Hlen.
  - intros h x. simpl. rewrite spec_insert_in. destruct (N.eqb_spec (ihash it) h) as [<-|N].
    + split; [intros [= <-]; auto|]. intros [[->|Hi] Hh]; auto.
      exfalso. apply Hni. rewrite <- Hh. now apply in_map.
    + rewrite Hg. split; [tauto|]. intros [[->|Hi] Hh]; [contradiction|auto].
Qed.

Lemma map_ok_del m l it :
  map_ok m l -> NoDup (hashes l) -> In it l ->
  map_ok (map_del (ihash it) m) (spec_remove_list (ihash it) l).
Proof.
  intros (Hk & Hlen & Hg) Hn Hi. split; [|split].
  - now apply map_del_nodup.
  - pose proof (map_del_length (ihash it) m it Hk (proj2 (Hg _ _) (conj Hi eq_refl))).
    pose proof (remove_list_length _ _ Hn Hi). lia.
  - intros h x. rewrite map_del_get, in_remove_list. destruct (N.eqb_spec h (ihash it)) as [->|N].
    + split; [discriminate|]. tauto.
    + rewrite Hg. split; [intros [A <-]; auto|tauto].
Qed.

(** ** the simulation relation *)
Record R (cap : Z) (q : queue) (l : list item) : Prop := mkR {
  R_cap : qcap q = cap;
  R_bk : bk_ok (qlist q);
  R_cont : q_contents q = l;
  R_map : map_ok (qmap q) l;
  R_bytes : qbytes q = spec_bytes l;
  R_nodup : NoDup (hashes l);
  R_sorted : StronglySorted score_ge l;
  R_within : 0 <= cap -> spec_size l <= cap }.

Lemma R_new cap : R cap (newq cap) [].
Proof.
  constructor; simpl; auto.
  all: try (now constructor).
  split; [constructor|]. split; [reflexivity|]. intros h it. split.
  - discriminate.
  - intros [[] _].
Qed.

Lemma R_size cap q l : R cap q l -> q_size q = spec_size l.
Proof. intros H. destruct (R_map _ _ _ H) as (_ & E & _). unfold q_size, spec_size. now rewrite E. Qed.

(** Insert of an absent hash (capacity is the caller's business). *)
Lemma sim_insert cap q l it :
  R cap q l -> ~ In (ihash it) (hashes l) -> (0 <= cap -> spec_size l < cap) ->
  R cap (q_insert (ihash it) it q) (spec_insert it l).
Proof.
  intros H Hni Hroom. destruct H as [Hc Hb Hco Hm Hby Hn Hs Hw].
  destruct (insert_skip_sim it (qlist q) Hb) as [IC IB].
  unfold q_contents in Hco. fold (contents (qlist q)) in Hco.
  constructor; simpl; auto.
  - unfold q_contents. simpl. fold (contents (insert_skip it (qlist q))). now rewrite IC, Hco.
  - now apply map_ok_set.
  - rewrite spec_insert_bytes. lia.
  - now apply spec_insert_hashes.
  - now apply spec_insert_sorted.
  - intro Hc0. specialize (Hroom Hc0). unfold spec_size in *. rewrite spec_insert_length. lia.
Qed.

Lemma sim_remove cap q l h :
  R cap q l ->
  R cap (fst (q_remove h q)) (fst (spec_remove h l)) /\
  snd (q_remove h q) = snd (spec_remove h l).
Proof.
  intros H. pose proof H as [Hc Hb Hco Hm Hby Hn Hs Hw].
  unfold q_remove, spec_remove.
  rewrite <- (map_ok_mem _ _ h Hm). unfold map_mem.
  destruct (map_get h (qmap q)) as [it|] eqn:E; [|simpl; auto].
  pose proof Hm as (Hk & Hlen & Hg). apply Hg in E as E'. destruct E' as [Hi Hh]. subst h.
  unfold q_contents in Hco. fold (contents (qlist q)) in Hco.
  destruct (delete_skip_sim it (qlist q) Hb) as (ql' & ED & EC & Hb'); try (rewrite Hco; auto).
  rewrite ED. simpl. split; auto.
  constructor; simpl; auto.
  - unfold q_contents. simpl. fold (contents ql'). now rewrite EC, Hco.
  - now apply map_ok_del.
  - rewrite spec_bytes_remove by auto. lia.
  - now apply hashes_filter_nodup.
  - now apply ssorted_filter.
  - intro Hc0. specialize (Hw Hc0). unfold spec_size in *.
    pose proof (remove_list_length _ _ Hn Hi). lia.
Qed.

Lemma R_last cap q l :
  R cap q l ->
  q_last q = match last_opt l with None => LNil | Some t => LItem t end.
Proof.
  intro H. pose proof (R_size _ _ _ H) as Hsz. destruct H as [Hc Hb Hco Hm Hby Hn Hs Hw].
  unfold q_last. rewrite Hsz. unfold spec_size.
  unfold q_contents in Hco. fold (contents (qlist q)) in Hco.
  pose proof (last_opt_contents _ Hb) as HL. rewrite Hco in HL.
  destruct l as [|x l'].
  - reflexivity.
  - replace (Z.of_nat (length (x :: l')) =? 0) with false
      by (symmetry; apply Z.eqb_neq; simpl; lia).
    destruct (last_opt (x :: l')) eqn:EL.
    + destruct (last_opt (qlist q)) as [[s b]|]; [|discriminate]. now rewrite <- HL.
    + apply last_opt_none in EL. discriminate.
Qed.

Lemma R_first cap q l :
  R cap q l ->
  q_first q = match l with [] => LNil | t :: _ => LItem t end.
Proof.
  intro H. pose proof (R_size _ _ _ H) as Hsz. destruct H as [Hc Hb Hco Hm Hby Hn Hs Hw].
  unfold q_first. rewrite Hsz. unfold spec_size.
  unfold q_contents in Hco.
  destruct l as [|x l']; [reflexivity|].
  replace (Z.of_nat (length (x :: l')) =? 0) with false
    by (symmetry; apply Z.eqb_neq; simpl; lia).
  destruct (qlist q) as [|[s b] tl]; [discriminate|].
  simpl in Hb. destruct Hb as (Hne & _). destruct b as [|y b]; [contradiction|].
  simpl in Hco. now inversion Hco.
Qed.

(** Evicting the tail is a Remove that succeeds. *)
Lemma sim_evict cap q l t :
  R cap q l -> last_opt l = Some t ->
  R cap (fst (q_remove (ihash t) q)) (removelast l) /\ snd (q_remove (ihash t) q) = ENone.
Proof.
  intros H EL. pose proof (last_opt_some _ _ EL) as El. pose proof (R_nodup _ _ _ H) as Hn.
  destruct (sim_remove cap q l (ihash t) H) as [HR HE]. unfold spec_remove in HR, HE.
  replace (spec_exist (ihash t) l) with true in HR, HE.
  - replace (removelast l) with (spec_remove_list (ihash t) l); auto.
    rewrite El at 1. apply remove_last_hash. now rewrite <- El.
  - symmetry. apply spec_exist_in. rewrite El. unfold hashes. rewrite map_app.
    apply in_or_app. right. now left.
Qed.

(** With capacity <= 0 the empty queue is "full" and has no tail: both sides
    answer ErrMemFull. *)
Lemma sim_push cap q l it :
  R cap q l ->
  R cap (fst (q_push it q)) (fst (spec_push cap it l)) /\
  snd (q_push it q) = snd (spec_push cap it l).
Proof.
  intros H. pose proof H as [Hc Hb Hco Hm Hby Hn Hs Hw].
  unfold q_push, spec_push, q_exist.
  rewrite (map_ok_mem _ _ (ihash it) Hm).
  destruct (spec_exist (ihash it) l) eqn:EX; [simpl; auto|].
  apply spec_exist_false in EX.
  rewrite (R_size _ _ _ H), Hc.
  destruct (spec_size l <? cap) eqn:EF.
  - (* room *)
    apply Z.ltb_lt in EF.
    replace (spec_size l >=? cap) with false by (symmetry; rewrite Z.geb_leb; apply Z.leb_gt; lia).
    simpl. split; auto. apply sim_insert; auto.
  - apply Z.ltb_ge in EF.
    replace (spec_size l >=? cap) with true by (symmetry; rewrite Z.geb_leb; apply Z.leb_le; lia).
    rewrite (R_last _ _ _ H). unfold spec_last.
    destruct (last_opt l) as [t|] eqn:EL.
    + rewrite better_ranks. destruct (ranks_higher it t) eqn:EB; [|simpl; auto].
      pose proof (last_opt_some _ _ EL) as El.
      destruct (sim_evict cap q l t H EL) as [HR HE].
      destruct (q_remove (ihash t) q) as [q' e]. simpl in HR, HE. subst e.
      simpl. split; auto. apply sim_insert; auto.
      * intro Hi. apply EX. unfold hashes in *. apply in_map_iff in Hi as (x & Ex & Hx).
        apply in_map_iff. exists x. split; auto. rewrite El. apply in_or_app. now left.
      * intro Hc0. specialize (Hw Hc0). unfold spec_size in *.
        rewrite El in Hw. rewrite app_length in Hw. simpl in Hw. lia.
    + apply last_opt_none in EL. revert EL; intros ->. simpl. split; auto.
Qed.
